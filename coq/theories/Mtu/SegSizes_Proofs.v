From Utp Require Import Base.Prelude Mtu.SegSizes.

(* Unfold composite constants first, then the base ones (CONVENTIONS.md). *)
Ltac unf_consts :=
  unfold floor_of, clampZ in *;
  unfold ss_calc, clamped_link_mtu, ceiling_of in *;
  unfold ip_header, default_min_mtu in *;
  unfold IPV4_HEADER, IPV6_HEADER, UDP_HEADER, UTP_HEADER, U16_MAX, M16 in *.

(* ------------------------------------------------------------------ state invariants *)
Definition wf (s : segsizes) : Prop := 0 <= min_ss s <= max_ss s /\ max_ss s <= U16_MAX.
(* ... and below the one value at which next_probe overflows *)
Definition wf_lt (s : segsizes) : Prop := 0 <= min_ss s <= max_ss s /\ max_ss s < U16_MAX.

Lemma wf_lt_wf s : wf_lt s -> wf s.
Proof. unfold wf, wf_lt, U16_MAX. lia. Qed.

Lemma new_shape c :
  min_ss (ss_new c) = floor_of c /\ max_ss (ss_new c) = ceiling_of c /\
  cd_rem (ss_new c) = 1 /\ cd_max (ss_new c) = cfg_cooldown c.
Proof.
  unfold ss_new; cbn [min_ss max_ss cd_rem cd_max]. unf_consts.
  destruct (cfg_ipv4 c); lia.
Qed.

Lemma new_bounds c : cfg_in_range c = true ->
  1 <= floor_of c <= ceiling_of c /\ ceiling_of c <= 65487.
Proof. unfold cfg_in_range. unf_consts. destruct (cfg_ipv4 c); lia. Qed.

Lemma new_wf_lt c : cfg_in_range c = true -> wf_lt (ss_new c).
Proof.
  intro H. destruct (new_shape c) as (Hm & Hx & _). destruct (new_bounds c H) as [Hb1 Hb2].
  unfold wf_lt. rewrite Hm, Hx. unfold U16_MAX. lia.
Qed.

(* The u16 arithmetic of `new`: no intermediate leaves [0, 65535] for a u16 link_mtu. *)
Lemma new_no_u16_overflow c : cfg_in_range c = true ->
  let ip := ip_header (cfg_ipv4 c) in
  let link := clamped_link_mtu c in
  let min_mtu := Z.min (default_min_mtu (cfg_ipv4 c)) link in
  0 <= ip + UDP_HEADER <= U16_MAX /\ 0 <= ip + UDP_HEADER + UTP_HEADER <= U16_MAX /\
  0 <= ip + UDP_HEADER + UTP_HEADER + 1 <= U16_MAX /\
  0 <= link <= U16_MAX /\ 0 <= min_mtu <= U16_MAX /\
  (forall mtu, mtu = min_mtu \/ mtu = link ->
     0 <= mtu - ip /\ 0 <= mtu - ip - UTP_HEADER /\ 1 <= mtu - ip - UTP_HEADER - UDP_HEADER).
Proof.
  unfold cfg_in_range. unf_consts. cbv zeta.
  destruct (cfg_ipv4 c); intro H; (repeat (split; [lia|])); lia.
Qed.

(* with link_mtu at least one payload byte above the headers, the ceiling is exactly what the
   link MTU leaves after the IP, UDP and uTP headers *)
Lemma ceiling_datagram c :
  ip_header (cfg_ipv4 c) + UDP_HEADER + UTP_HEADER + 1 <= cfg_link_mtu c ->
  ceiling_of c + UTP_HEADER + UDP_HEADER + ip_header (cfg_ipv4 c) = cfg_link_mtu c.
Proof. unf_consts. destruct (cfg_ipv4 c); lia. Qed.

Lemma delivered_fields s n :
  0 <= n ->
  min_ss (on_payload_delivered s n) = Z.max (min_ss s) (Z.min (Z.min n U16_MAX) (max_ss s)) /\
  max_ss (on_payload_delivered s n) = max_ss s /\
  cd_rem (on_payload_delivered s n) = cd_rem s /\ cd_max (on_payload_delivered s n) = cd_max s.
Proof.
  intro Hn. unfold on_payload_delivered; cbn [min_ss max_ss cd_rem cd_max].
  assert (Hp : Z.min n U16_MAX mod M16 = Z.min n U16_MAX) by (unfold U16_MAX, M16; lia).
  rewrite Hp. auto.
Qed.

(* whatever the reported size (any Z): max_ss is untouched, min_ss only grows and stays <= max_ss *)
Lemma delivered_monotone s n : wf s ->
  max_ss (on_payload_delivered s n) = max_ss s /\
  min_ss s <= min_ss (on_payload_delivered s n) <= max_ss s.
Proof.
  unfold wf, on_payload_delivered; cbn [min_ss max_ss]. unfold U16_MAX, M16. lia.
Qed.

Lemma delivered_wf s n : wf s -> wf (on_payload_delivered s n).
Proof.
  unfold wf, on_payload_delivered; cbn [min_ss max_ss]. unfold U16_MAX, M16. lia.
Qed.

Lemma failed_fields s n :
  0 <= n <= U16_MAX ->
  min_ss (on_probe_failed s n) = min_ss s /\
  max_ss (on_probe_failed s n) = Z.max (Z.min (max_ss s) (Z.max 0 (n - 1))) (min_ss s) /\
  cd_rem (on_probe_failed s n) = cd_rem s /\ cd_max (on_probe_failed s n) = cd_max s.
Proof.
  intro Hn. unfold on_probe_failed, sat_sub; cbn [min_ss max_ss cd_rem cd_max].
  assert (Hp : n mod M16 = n) by (unfold U16_MAX, M16 in *; lia).
  rewrite Hp. auto.
Qed.

Lemma failed_wf s n : wf s -> wf (on_probe_failed s n).
Proof.
  unfold wf, on_probe_failed, sat_sub; cbn [min_ss max_ss]. unfold U16_MAX, M16. lia.
Qed.

(* on_probe_failed never raises max_ss and never moves min_ss, whatever the (truncated) size *)
Lemma failed_monotone s n : wf s ->
  min_ss (on_probe_failed s n) = min_ss s /\ max_ss (on_probe_failed s n) <= max_ss s.
Proof. unfold wf, on_probe_failed, sat_sub; cbn [min_ss max_ss]. lia. Qed.

(* ------------------------------------------------------------------ next_probe *)
Definition probe_value (s : segsizes) : Z :=
  Z.min (min_ss s + (max_ss s - min_ss s) / 2 + 1) (max_ss s).

Lemma next_probe_no_overflow s :
  0 <= min_ss s <= max_ss s -> max_ss s <= U16_MAX -> min_ss s < U16_MAX ->
  0 <= np_diff s <= U16_MAX /\ 0 <= np_half s <= U16_MAX /\
  0 <= np_sum1 s <= U16_MAX /\ 0 <= np_sum2 s <= U16_MAX /\
  next_probe s = Some (probe_value s) /\ next_probe_wrapping s = probe_value s /\
  min_ss s <= probe_value s <= max_ss s.
Proof.
  intros H1 H2 H3.
  assert (Hd : 0 <= np_diff s <= U16_MAX) by (unfold np_diff, U16_MAX in *; lia).
  assert (Hh : 0 <= np_half s <= U16_MAX) by (unfold np_half, np_diff, U16_MAX in *; lia).
  assert (Hs1 : 0 <= np_sum1 s <= U16_MAX) by (unfold np_sum1, np_half, np_diff, U16_MAX in *; lia).
  assert (Hs2 : 0 <= np_sum2 s <= U16_MAX) by (unfold np_sum2, np_sum1, np_half, np_diff, U16_MAX in *; lia).
  repeat (split; [assumption|]).
  split; [|split].
  - unfold next_probe.
    replace ((0 <=? np_diff s) && (np_sum1 s <=? U16_MAX) && (np_sum2 s <=? U16_MAX)) with true by lia.
    reflexivity.
  - unfold next_probe_wrapping, probe_value, wadd16, wsub16.
    unfold np_sum2, np_sum1, np_half, np_diff, U16_MAX, M16 in *.
    assert (E1 : (max_ss s - min_ss s) mod 65536 = max_ss s - min_ss s) by lia.
    rewrite E1.
    assert (E2 : (min_ss s + (max_ss s - min_ss s) / 2) mod 65536 = min_ss s + (max_ss s - min_ss s) / 2) by lia.
    rewrite E2.
    assert (E3 : (min_ss s + (max_ss s - min_ss s) / 2 + 1) mod 65536 = min_ss s + (max_ss s - min_ss s) / 2 + 1) by lia.
    rewrite E3. reflexivity.
  - unfold probe_value. lia.
Qed.

Lemma next_probe_some s : wf s -> min_ss s < U16_MAX -> next_probe s = Some (probe_value s).
Proof. intros [H1 H2] H3. apply next_probe_no_overflow; assumption. Qed.

(* the one overflow: min_ss = max_ss = 65535 *)
Lemma next_probe_none_iff s : wf s -> (next_probe s = None <-> min_ss s = U16_MAX).
Proof.
  intros [H1 H2]. split.
  - intro Hn. destruct (Z.eq_dec (min_ss s) U16_MAX) as [|Hne]; [assumption|].
    rewrite next_probe_some in Hn; [discriminate|split; assumption|lia].
  - intro He. unfold next_probe.
    replace ((0 <=? np_diff s) && (np_sum1 s <=? U16_MAX) && (np_sum2 s <=? U16_MAX)) with false;
      [reflexivity|].
    unfold np_sum2, np_sum1, np_half, np_diff, U16_MAX in *. lia.
Qed.

Lemma probe_value_gt s : wf s -> (min_ss s < probe_value s <-> min_ss s < max_ss s).
Proof. unfold wf, probe_value. lia. Qed.

Lemma is_probing_some s : wf s -> min_ss s < U16_MAX ->
  is_probing s = Some (min_ss s <? max_ss s).
Proof.
  intros Hw Hlt. unfold is_probing. rewrite (next_probe_some s Hw Hlt). cbn [bind].
  f_equal. pose proof (probe_value_gt s Hw). lia.
Qed.

Lemma is_probing_val s b : wf s -> is_probing s = Some b -> b = (min_ss s <? max_ss s).
Proof.
  intros Hw H. destruct (Z.eq_dec (min_ss s) U16_MAX) as [He|Hne].
  - apply (next_probe_none_iff s Hw) in He. unfold is_probing in H. rewrite He in H. discriminate.
  - rewrite is_probing_some in H; [congruence|assumption|destruct Hw; lia].
Qed.

Lemma is_probing_none s : wf s -> is_probing s = None -> max_ss s = U16_MAX.
Proof.
  intros Hw H. destruct (Z.eq_dec (min_ss s) U16_MAX) as [He|Hne].
  - destruct Hw. lia.
  - rewrite is_probing_some in H; [discriminate|assumption|destruct Hw; lia].
Qed.

(* ------------------------------------------------------------------ next_segment_size *)
Lemma next_size_spec s s' r :
  wf s -> next_segment_size s = Some (s', r) ->
  min_ss s' = min_ss s /\ max_ss s' = max_ss s /\ cd_max s' = cd_max s /\
  cd_rem s' = (if cd_rem s =? 0 then cd_max s else sat_sub (cd_rem s) 1) /\
  (r = mss s \/ next_probe s = Some r) /\
  mss s <= r <= max_ss s /\
  (mss s < r -> cd_rem s = 0 /\ r = probe_value s).
Proof.
  intros Hw H. unfold next_segment_size in H. unfold mss.
  destruct (cd_rem s =? 0) eqn:Ec.
  - set (s1 := {| min_ss := min_ss s; max_ss := max_ss s; cd_rem := cd_max s; cd_max := cd_max s |}) in *.
    assert (Hnp : next_probe s1 = next_probe s) by reflexivity.
    rewrite Hnp in H. destruct (next_probe s) as [p|] eqn:Ep; [|discriminate].
    cbn [bind] in H. injection H as <- <-. cbn [min_ss max_ss cd_rem cd_max].
    assert (Hlt : min_ss s < U16_MAX).
    { destruct (Z.eq_dec (min_ss s) U16_MAX) as [He|]; [|destruct Hw; lia].
      apply (next_probe_none_iff s Hw) in He. congruence. }
    rewrite (next_probe_some s Hw Hlt) in Ep. injection Ep as <-.
    destruct Hw as [Hw1 Hw2].
    destruct (next_probe_no_overflow s Hw1 Hw2 Hlt) as (_ & _ & _ & _ & _ & _ & Hr).
    repeat split; auto; try lia.
  - injection H as <- <-. cbn [min_ss max_ss cd_rem cd_max].
    destruct Hw as [Hw1 Hw2]. repeat split; auto; lia.
Qed.

Lemma next_size_wf s s' r : wf s -> next_segment_size s = Some (s', r) -> wf s'.
Proof.
  intros Hw H. destruct (next_size_spec s s' r Hw H) as (Hm & Hx & _).
  unfold wf in *. rewrite Hm, Hx. exact Hw.
Qed.

Lemma next_size_total s : wf s -> min_ss s < U16_MAX -> next_segment_size s <> None.
Proof.
  intros Hw Hlt. unfold next_segment_size. destruct (cd_rem s =? 0); [|discriminate].
  set (s1 := {| min_ss := min_ss s; max_ss := max_ss s; cd_rem := cd_max s; cd_max := cd_max s |}).
  assert (Hnp : next_probe s1 = next_probe s) by reflexivity.
  rewrite Hnp, (next_probe_some s Hw Hlt). discriminate.
Qed.

Lemma next_size_none s : wf s -> next_segment_size s = None -> max_ss s = U16_MAX.
Proof.
  intros Hw H. destruct (Z.eq_dec (min_ss s) U16_MAX) as [He|Hne].
  - destruct Hw. lia.
  - exfalso. apply (next_size_total s Hw); [destruct Hw; lia|exact H].
Qed.

(* ------------------------------------------------------------------ steps keep the state well-formed *)
Lemma step_wf s o s' ret :
  wf s -> op_in_domain o = true -> ss_step s o = Some (s', ret) -> wf s'.
Proof.
  intros Hw Hd H. destruct o as [c|n| |n|]; cbn [ss_step] in H.
  - injection H as <- _. apply wf_lt_wf, new_wf_lt. exact Hd.
  - injection H as <- _. apply delivered_wf; assumption.
  - destruct (next_segment_size s) as [[s1 r]|] eqn:E; [|discriminate].
    cbn [bind fst] in H. injection H as <- _. eapply next_size_wf; eauto.
  - injection H as <- _. apply failed_wf; assumption.
  - injection H as <- _. exact Hw.
Qed.

Lemma step_ret s o s' r :
  wf s -> ss_step s o = Some (s', Some r) ->
  o = OpNextSize /\ next_segment_size s = Some (s', r).
Proof.
  intros Hw H. destruct o; cbn [ss_step] in H; try (injection H; discriminate).
  destruct (next_segment_size s) as [[s1 r1]|] eqn:E; [|discriminate].
  cbn [bind fst snd] in H. injection H as <- <-. auto.
Qed.

(* what every allowed step keeps, every run of allowed steps keeps *)
Lemma run_invariant (I : segsizes -> Prop) (allowed : ss_op -> bool) :
  (forall s o s' ret, I s -> allowed o = true -> ss_step s o = Some (s', ret) -> I s') ->
  forall ops s s', I s -> forallb allowed ops = true -> ss_run s ops = Some s' -> I s'.
Proof.
  intro Hstep. induction ops as [|o ops IH]; cbn [ss_run forallb]; intros s s' Hi Hd H.
  - injection H as <-. exact Hi.
  - apply andb_true_iff in Hd as [Hd1 Hd2].
    destruct (ss_step s o) as [[s1 ret]|] eqn:E; [|discriminate]. cbn [bind fst] in H.
    exact (IH s1 s' (Hstep s o s1 ret Hi Hd1 E) Hd2 H).
Qed.

Lemma run_wf : forall ops s s',
  wf s -> forallb op_in_domain ops = true -> ss_run s ops = Some s' -> wf s'.
Proof. exact (run_invariant wf op_in_domain step_wf). Qed.

(* min_ss <= max_ss (and both u16) after every op list, from any configuration *)
Lemma run_min_le_max c ops s' :
  cfg_in_range c = true -> forallb op_in_domain ops = true ->
  ss_run (ss_new c) ops = Some s' -> 0 <= min_ss s' <= max_ss s' /\ max_ss s' <= U16_MAX.
Proof. intros Hc Hd H. exact (run_wf ops _ _ (wf_lt_wf _ (new_wf_lt c Hc)) Hd H). Qed.

(* ------------------------------------------------------------------ no panic, ever *)
(* max_ss never grows, so a state reached from `new` stays below 65535, the one value at which
   next_probe overflows. *)
Lemma step_total s o : wf_lt s -> op_in_domain o = true ->
  exists s' ret, ss_step s o = Some (s', ret) /\ wf_lt s'.
Proof.
  intros Hw Hd. pose proof (wf_lt_wf s Hw) as Hw0.
  destruct o as [c|n| |n|]; cbn [ss_step op_in_domain] in *.
  - eexists _, _. split; [reflexivity|]. apply new_wf_lt; assumption.
  - eexists _, _. split; [reflexivity|].
    destruct (delivered_monotone s n Hw0) as [Hx Hm].
    unfold wf_lt in *. rewrite Hx. lia.
  - destruct (next_segment_size s) as [[s1 r]|] eqn:E.
    + cbn [bind fst snd]. eexists _, _. split; [reflexivity|].
      destruct (next_size_spec s s1 r Hw0 E) as (Hm & Hx & _).
      unfold wf_lt in *. rewrite Hm, Hx. exact Hw.
    + exfalso. apply (next_size_total s Hw0); [unfold wf_lt in Hw; lia|exact E].
  - eexists _, _. split; [reflexivity|].
    destruct (failed_monotone s n Hw0) as [Hm Hx]. pose proof (failed_wf s n Hw0) as [Hf _].
    unfold wf_lt in *. rewrite Hm in *. lia.
  - eexists _, _. split; [reflexivity|]. exact Hw.
Qed.

Lemma run_total : forall ops s, wf_lt s -> forallb op_in_domain ops = true ->
  exists s', ss_run s ops = Some s' /\ wf_lt s'.
Proof.
  induction ops as [|o ops IH]; cbn [ss_run forallb]; intros s Hw Hd.
  - eauto.
  - apply andb_true_iff in Hd as [Hd1 Hd2].
    destruct (step_total s o Hw Hd1) as (s1 & ret & E & Hw1). rewrite E. cbn [bind fst].
    apply IH; assumption.
Qed.

Lemma no_panic c ops : cfg_in_range c = true -> forallb op_in_domain ops = true ->
  ss_run (ss_new c) ops <> None.
Proof.
  intros Hc Hd. destruct (run_total ops _ (new_wf_lt c Hc) Hd) as (s' & E & _).
  rewrite E. discriminate.
Qed.

(* the overflow state of next_probe (min_ss = max_ss = 65535) is unreachable *)
Lemma overflow_unreachable c ops s' :
  cfg_in_range c = true -> forallb op_in_domain ops = true ->
  ss_run (ss_new c) ops = Some s' ->
  max_ss s' < U16_MAX /\ next_probe s' = Some (probe_value s') /\
  is_probing s' = Some (min_ss s' <? max_ss s').
Proof.
  intros Hc Hd H. destruct (run_total ops _ (new_wf_lt c Hc) Hd) as (s1 & E & Hw).
  rewrite E in H. injection H as <-. pose proof (wf_lt_wf s1 Hw) as Hw0.
  unfold wf_lt in Hw. split; [lia|].
  split; [apply next_probe_some | apply is_probing_some]; auto; lia.
Qed.

(* ... and no observation of a trace is a panic *)
Lemma trace_no_panic_gen : forall ops s, wf_lt s -> forallb op_in_domain ops = true ->
  ~ In None (ss_trace s ops).
Proof.
  induction ops as [|o ops IH]; cbn [ss_trace forallb]; intros s Hw Hd HIn; [contradiction|].
  apply andb_true_iff in Hd as [Hd1 Hd2].
  destruct (step_total s o Hw Hd1) as (s1 & ret & E & Hw1). rewrite E in HIn.
  pose proof (wf_lt_wf s1 Hw1) as Hw0.
  unfold ss_observe in HIn. rewrite (is_probing_some s1 Hw0) in HIn by (unfold wf_lt in Hw1; lia).
  cbn [bind] in HIn. destruct HIn as [H|H]; [discriminate|]. exact (IH s1 Hw1 Hd2 H).
Qed.

Lemma trace_no_panic c ops : cfg_in_range c = true -> forallb op_in_domain ops = true ->
  ~ In None (ss_trace (ss_new c) ops).
Proof. intros Hc Hd. apply trace_no_panic_gen; [apply new_wf_lt; exact Hc|exact Hd]. Qed.

Definition cfg_default : ss_config := {| cfg_ipv4 := true; cfg_link_mtu := 1500; cfg_cooldown := 3 |}.

(* ------------------------------------------------------------------ ceiling *)
(* no hypothesis on the sizes reported delivered or failed (any Z); only `New` is excluded,
   because it installs another configuration with another ceiling *)
Definition not_new (o : ss_op) : bool := match o with OpNew _ => false | _ => true end.

Lemma step_ceiling c s o s' ret :
  wf s -> max_ss s <= c -> not_new o = true -> ss_step s o = Some (s', ret) ->
  wf s' /\ max_ss s' <= c /\ (forall r, ret = Some r -> r <= c).
Proof.
  intros Hw Hc Ho H. destruct o as [c0|n| |n|]; cbn [ss_step not_new] in *.
  - discriminate.
  - injection H as <- <-. split; [apply delivered_wf; exact Hw|]. split; [|discriminate].
    destruct (delivered_monotone s n Hw) as [Hx _]. rewrite Hx. exact Hc.
  - destruct (next_segment_size s) as [[s1 r]|] eqn:E; [|discriminate].
    cbn [bind fst snd] in H. injection H as <- <-.
    destruct (next_size_spec s s1 r Hw E) as (_ & Hx & _ & _ & _ & Hr & _).
    split; [eapply next_size_wf; eauto|].
    rewrite Hx. split; [assumption|]. intros r0 H0. injection H0 as <-. lia.
  - injection H as <- <-. split; [apply failed_wf; exact Hw|]. split; [|discriminate].
    destruct (failed_monotone s n Hw). lia.
  - injection H as <- <-. split; [exact Hw|]. split; [assumption|discriminate].
Qed.

Lemma ceiling_invariant_gen : forall ops c s s',
  wf s -> max_ss s <= c -> forallb not_new ops = true ->
  ss_run s ops = Some s' -> wf s' /\ max_ss s' <= c.
Proof.
  intros ops c s s' Hw Hc. apply (run_invariant (fun s => wf s /\ max_ss s <= c) not_new); [|auto].
  intros s1 o s2 ret [Hw1 Hc1] Ho E. destruct (step_ceiling c s1 o s2 ret Hw1 Hc1 Ho E) as (Hw2 & Hc2 & _). auto.
Qed.

(* whatever sizes the peer uses: every Delivered n, every ProbeFailed n, n any integer *)
Lemma ceiling_invariant c ops s' :
  cfg_in_range c = true -> forallb not_new ops = true ->
  ss_run (ss_new c) ops = Some s' ->
  mss s' <= max_ss s' /\ max_ss s' <= ceiling_of c.
Proof.
  intros Hc Hd H. pose proof (wf_lt_wf _ (new_wf_lt c Hc)) as Hw.
  destruct (new_shape c) as (_ & Hx & _).
  destruct (ceiling_invariant_gen ops (ceiling_of c) _ s' Hw ltac:(lia) Hd H) as [[Hw1 _] Hc1].
  unfold mss. split; [lia|exact Hc1].
Qed.

(* every size handed out (and every max_ss observed) stays at or below the ceiling *)
Lemma trace_le_ceiling_gen : forall ops c s mn mx pr ret,
  wf s -> max_ss s <= c -> forallb not_new ops = true ->
  In (Some (mn, mx, pr, ret)) (ss_trace s ops) ->
  mn <= mx /\ mx <= c /\ (forall r, ret = Some r -> r <= c).
Proof.
  induction ops as [|o ops IH]; cbn [ss_trace forallb]; intros c s mn mx pr ret Hw Hc Hd HIn;
    [contradiction|].
  apply andb_true_iff in Hd as [Hd1 Hd2].
  destruct (ss_step s o) as [[s1 ret1]|] eqn:E.
  - destruct (step_ceiling c s o s1 ret1 Hw Hc Hd1 E) as (Hw1 & Hc1 & Hr1).
    unfold ss_observe in HIn. destruct (is_probing s1) as [b|]; cbn [bind] in HIn.
    + destruct HIn as [H|H].
      * injection H as <- <- <- <-. destruct Hw1. repeat split; auto; lia.
      * eapply IH; eauto.
    + destruct HIn as [H|[]]. discriminate.
  - destruct HIn as [H|[]]. discriminate.
Qed.

Lemma trace_le_ceiling c ops mn mx pr ret :
  cfg_in_range c = true -> forallb not_new ops = true ->
  In (Some (mn, mx, pr, ret)) (ss_trace (ss_new c) ops) ->
  mn <= mx /\ mx <= ceiling_of c /\ (forall r, ret = Some r -> r <= ceiling_of c).
Proof.
  intros Hc Hd. apply trace_le_ceiling_gen; auto.
  - apply wf_lt_wf, new_wf_lt; assumption.
  - destruct (new_shape c) as (_ & Hx & _). lia.
Qed.

(* the former D3 witness: a 5000-byte payload from the peer on a 1500 link now stops at the ceiling *)
Example ex_peer_payload_capped : exists s',
  ss_run (ss_new cfg_default) [OpDelivered 5000] = Some s' /\
  ceiling_of cfg_default = 1452 /\ mss s' = 1452 /\ max_ss s' = 1452.
Proof. eexists. repeat split; vm_compute; reflexivity. Qed.

Lemma mtu_d3_ok c n : cfg_in_range c = true -> c14_d3_ok c (mtu_d3 c n) = true.
Proof.
  intro Hc. pose proof (wf_lt_wf _ (new_wf_lt c Hc)) as Hw.
  destruct (new_shape c) as (Hm & Hx & _). destruct (new_bounds c Hc) as [Hb1 Hb2].
  destruct (delivered_monotone (ss_new c) n Hw) as [Hx' Hm'].
  unfold mtu_d3, c14_d3_ok, mss. rewrite Hx', Hx. lia.
Qed.

(* ------------------------------------------------------------------ search invariant *)
(* a path that delivers exactly the payload sizes <= P *)
Definition path_op_ok (P : Z) (o : ss_op) : bool :=
  match o with
  | OpNew _ => false
  | OpDelivered n => (0 <=? n) && (n <=? P)
  | OpProbeFailed n => (P <? n) && (n <=? U16_MAX)
  | _ => true
  end.

Definition path_inv (P : Z) (s : segsizes) : Prop :=
  wf s /\ min_ss s <= P <= max_ss s.

Lemma path_op_in_domain P o : 0 <= P -> path_op_ok P o = true -> op_in_domain o = true.
Proof. intro HP. destruct o; cbn [path_op_ok op_in_domain]; intro H; try exact H; try discriminate; try reflexivity; lia. Qed.

Lemma step_path P s o s' ret :
  path_inv P s -> path_op_ok P o = true -> ss_step s o = Some (s', ret) -> path_inv P s'.
Proof.
  intros [Hw HP] Ho H. unfold path_inv.
  assert (H0 : 0 <= P) by (destruct Hw; lia).
  split; [eapply step_wf; eauto; eapply path_op_in_domain; eauto|].
  destruct o as [c0|n| |n|]; cbn [ss_step path_op_ok] in *.
  - discriminate.
  - injection H as <- _. destruct (delivered_fields s n ltac:(lia)) as (Hm & Hx & _).
    rewrite Hm, Hx. destruct Hw. unfold U16_MAX in *. lia.
  - destruct (next_segment_size s) as [[s1 r]|] eqn:E; [|discriminate].
    cbn [bind fst] in H. injection H as <- _.
    destruct (next_size_spec s s1 r Hw E) as (Hm & Hx & _). rewrite Hm, Hx. exact HP.
  - injection H as <- _. destruct (failed_fields s n ltac:(lia)) as (Hm & Hx & _).
    rewrite Hm, Hx. lia.
  - injection H as <- _. exact HP.
Qed.

Lemma search_invariant : forall ops P s s',
  wf s -> min_ss s <= P <= max_ss s -> forallb (path_op_ok P) ops = true ->
  ss_run s ops = Some s' ->
  min_ss s' <= P <= max_ss s' /\ 0 <= min_ss s' /\ max_ss s' <= U16_MAX.
Proof.
  intros ops P s s' Hw HP Hd H.
  destruct (run_invariant (path_inv P) (path_op_ok P) (step_path P) ops s s' (conj Hw HP) Hd H) as [[Hw1 Hw2] HP'].
  repeat split; lia.
Qed.

(* from a fresh connection, with P below 65535 nothing panics either *)
Lemma search_invariant_new c P ops :
  cfg_in_range c = true -> floor_of c <= P <= ceiling_of c ->
  forallb (path_op_ok P) ops = true ->
  exists s', ss_run (ss_new c) ops = Some s' /\ min_ss s' <= P <= max_ss s'.
Proof.
  intros Hc HP Hd. destruct (new_shape c) as (Hm & Hx & _). destruct (new_bounds c Hc) as [Hb1 Hb2].
  assert (Hdom : forallb op_in_domain ops = true).
  { rewrite forallb_forall in *. intros o Ho. specialize (Hd o Ho).
    apply (path_op_in_domain P o); [lia|exact Hd]. }
  destruct (run_total ops _ (new_wf_lt c Hc) Hdom) as (s' & E & _).
  exists s'. split; [exact E|].
  assert (Hw : wf (ss_new c)) by (apply wf_lt_wf, new_wf_lt; assumption).
  assert (HP' : min_ss (ss_new c) <= P <= max_ss (ss_new c)) by lia.
  destruct (search_invariant ops P _ s' Hw HP' Hd E) as [Hr _]. exact Hr.
Qed.

(* The same with the outcomes tied to sizes handed out by next_segment_size: `sent` is the
   list of sizes returned so far along the run. *)
Definition memZ (x : Z) (l : list Z) : bool := existsb (Z.eqb x) l.

Definition sent_op_ok (P : Z) (sent : list Z) (o : ss_op) : bool :=
  match o with
  | OpNew _ => false
  | OpDelivered n => (n <=? P) && memZ n sent
  | OpProbeFailed n => (P <? n) && memZ n sent
  | _ => true
  end.

Fixpoint sent_disc (P : Z) (s : segsizes) (sent : list Z) (ops : list ss_op) : bool :=
  match ops with
  | [] => true
  | o :: rest =>
      sent_op_ok P sent o &&
      match ss_step s o with
      | Some (s', ret) =>
          sent_disc P s' (match ret with Some r => r :: sent | None => sent end) rest
      | None => true
      end
  end.

Lemma memZ_in x l : memZ x l = true -> In x l.
Proof.
  unfold memZ. rewrite existsb_exists. intros [y [Hy He]]. apply Z.eqb_eq in He. subst. exact Hy.
Qed.

Lemma search_invariant_sent : forall ops P s sent s',
  wf s -> min_ss s <= P <= max_ss s ->
  Forall (fun r => 0 <= r <= U16_MAX) sent ->
  sent_disc P s sent ops = true -> ss_run s ops = Some s' ->
  min_ss s' <= P <= max_ss s'.
Proof.
  induction ops as [|o ops IH]; cbn [ss_run sent_disc]; intros P s sent s' Hw HP Hs Hd H.
  - injection H as <-. exact HP.
  - apply andb_true_iff in Hd as [Hd1 Hd2].
    destruct (ss_step s o) as [[s1 ret]|] eqn:E; [|discriminate]. cbn [bind fst] in H.
    assert (Hpo : path_op_ok P o = true).
    { rewrite Forall_forall in Hs.
      destruct o as [c0|n| |n|]; cbn [sent_op_ok path_op_ok] in *; auto.
      - apply andb_true_iff in Hd1 as [Hle Hm]. apply memZ_in in Hm. specialize (Hs n Hm). lia.
      - apply andb_true_iff in Hd1 as [Hle Hm]. apply memZ_in in Hm. specialize (Hs n Hm). lia. }
    destruct (step_path P s o s1 ret (conj Hw HP) Hpo E) as [Hw1 HP1].
    eapply IH; [exact Hw1|exact HP1| |exact Hd2|exact H].
    destruct ret as [r|]; [|exact Hs].
    constructor; [|exact Hs].
    destruct (step_ret s o s1 r Hw E) as [_ En].
    destruct (next_size_spec s s1 r Hw En) as (_ & _ & _ & _ & _ & Hr & _).
    unfold mss in Hr. destruct Hw. lia.
Qed.

(* ------------------------------------------------------------------ convergence *)
(* where the search must end: P clamped to the current interval *)
Definition target (P : Z) (s : segsizes) : Z := Z.max (min_ss s) (Z.min P (max_ss s)).

Lemma target_in_range P s : min_ss s <= P <= max_ss s -> target P s = P.
Proof. unfold target. lia. Qed.

Lemma next_size_disarmed s : wf s -> min_ss s < U16_MAX ->
  next_segment_size (disarm_cooldown s) =
  Some ({| min_ss := min_ss s; max_ss := max_ss s; cd_rem := cd_max s; cd_max := cd_max s |},
        probe_value s).
Proof.
  intros Hw Hlt. unfold next_segment_size, disarm_cooldown. cbn [cd_rem min_ss max_ss cd_max Z.eqb].
  set (s1 := {| min_ss := min_ss s; max_ss := max_ss s; cd_rem := cd_max s; cd_max := cd_max s |}).
  assert (Hnp : next_probe s1 = Some (probe_value s)).
  { change (probe_value s) with (probe_value s1). apply next_probe_some; [exact Hw|exact Hlt]. }
  rewrite Hnp. reflexivity.
Qed.

(* the probe m splits [lo, hi] into [m, hi] and [lo, m - 1], each at most half as wide *)
Lemma midpoint_halves lo hi m : lo <= hi -> m = Z.min (lo + (hi - lo) / 2 + 1) hi ->
  lo <= m <= hi /\ hi - m <= (hi - lo) / 2 /\ Z.max (m - 1) lo - lo <= (hi - lo) / 2.
Proof. lia. Qed.

Lemma delivered_inside s n : wf s -> min_ss s <= n <= max_ss s ->
  min_ss (on_payload_delivered s n) = n.
Proof.
  intros [Hw Hu] Hn. destruct (delivered_fields s n) as (Hm & _); [lia|]. rewrite Hm. lia.
Qed.

Lemma failed_inside s n : wf s -> min_ss s <= n <= max_ss s ->
  max_ss (on_probe_failed s n) = Z.max (n - 1) (min_ss s).
Proof.
  intros [Hw Hu] Hn. destruct (failed_fields s n) as (_ & Hx & _); [lia|]. rewrite Hx. lia.
Qed.

Lemma probe_round_halves P s :
  wf_lt s ->
  exists s', probe_round P s = Some s' /\ wf_lt s' /\
    min_ss s <= min_ss s' /\ max_ss s' <= max_ss s /\
    max_ss s' - min_ss s' <= (max_ss s - min_ss s) / 2 /\
    target P s' = target P s.
Proof.
  intros Hw. pose proof (wf_lt_wf s Hw) as Hw0. unfold wf_lt in Hw.
  unfold probe_round. rewrite (next_size_disarmed s Hw0) by lia. cbn [bind].
  set (s1 := {| min_ss := min_ss s; max_ss := max_ss s; cd_rem := cd_max s; cd_max := cd_max s |}).
  destruct (midpoint_halves (min_ss s) (max_ss s) (probe_value s)) as (Hr & Hup & Hdn);
    [lia|reflexivity|].
  (* from here on the probe and the half width are two integers with the bounds above *)
  set (r := probe_value s) in *. clearbody r.
  set (h := (max_ss s - min_ss s) / 2) in *. clearbody h.
  destruct (Z.leb_spec r P) as [Hle|Hgt]; (eexists; split; [reflexivity|]); unfold wf_lt, target.
  - rewrite (delivered_inside s1 r Hw0 Hr). cbn [max_ss on_payload_delivered s1]. lia.
  - rewrite (failed_inside s1 r Hw0 Hr). cbn [min_ss on_probe_failed s1]. lia.
Qed.

Definition converged (P : Z) (s0 s : segsizes) : Prop :=
  min_ss s = target P s0 /\ max_ss s = target P s0 /\ is_probing s = Some false.

Lemma closed_is_converged P s : wf_lt s -> max_ss s - min_ss s < 1 ->
  min_ss s = target P s /\ max_ss s = target P s /\ is_probing s = Some false.
Proof.
  intros Hw Hd. pose proof (wf_lt_wf s Hw) as Hw0. unfold wf_lt in Hw.
  rewrite (is_probing_some s Hw0 ltac:(lia)). unfold target.
  repeat split; try lia. f_equal. lia.
Qed.

Lemma probe_rounds_converge : forall n P s,
  wf_lt s -> max_ss s - min_ss s < 2 ^ Z.of_nat n ->
  exists s', probe_rounds n P s = Some s' /\ wf_lt s' /\ converged P s s'.
Proof.
  induction n as [|n IH]; intros P s Hw Hd; cbn [probe_rounds].
  - exists s. split; [reflexivity|]. split; [exact Hw|]. apply closed_is_converged; [exact Hw|].
    cbn in Hd. lia.
  - destruct (probe_round_halves P s Hw) as (s1 & E & Hw1 & _ & _ & Hh & Ht).
    rewrite E. cbn [bind].
    rewrite Nat2Z.inj_succ, Z.pow_succ_r in Hd by lia.
    set (X := 2 ^ Z.of_nat n) in *.
    destruct (IH P s1 Hw1 ltac:(lia)) as (s' & E' & Hw' & Hc).
    exists s'. split; [exact E'|]. split; [exact Hw'|].
    unfold converged in *. rewrite <- Ht. exact Hc.
Qed.

(* the statement of the property: P inside the initial interval *)
Lemma converges P s n :
  wf_lt s -> min_ss s <= P <= max_ss s -> max_ss s - min_ss s < 2 ^ Z.of_nat n ->
  exists s', probe_rounds n P s = Some s' /\
    min_ss s' = P /\ max_ss s' = P /\ mss s' = P /\ is_probing s' = Some false.
Proof.
  intros Hw HP Hd. destruct (probe_rounds_converge n P s Hw Hd) as (s' & E & _ & Hm & Hx & Hp).
  rewrite (target_in_range P s HP) in *. exists s'. unfold mss. auto.
Qed.

Lemma pow_log2_up_bound d : 0 <= d -> d < 2 ^ (Z.log2_up d + 1).
Proof.
  intro Hd. pose proof (Z.log2_up_nonneg d) as Hl.
  replace (Z.log2_up d + 1) with (Z.succ (Z.log2_up d)) by lia.
  rewrite Z.pow_succ_r by exact Hl.
  destruct (Z_lt_le_dec 1 d) as [H1|H1].
  - pose proof (Z.log2_up_spec d H1) as [_ Hs]. lia.
  - assert (Hz : Z.log2_up d = 0) by (apply Z.log2_up_eqn0; lia).
    rewrite Hz. cbn. lia.
Qed.

(* ceil(log2(max_ss0 - min_ss0)) + 1 outcomes suffice *)
Lemma converges_log2 P s :
  wf_lt s -> min_ss s <= P <= max_ss s ->
  exists s', probe_rounds (Z.to_nat (Z.log2_up (max_ss s - min_ss s) + 1)) P s = Some s' /\
    min_ss s' = P /\ max_ss s' = P /\ mss s' = P /\ is_probing s' = Some false.
Proof.
  intros Hw HP. apply converges; auto.
  pose proof (Z.log2_up_nonneg (max_ss s - min_ss s)) as Hl.
  rewrite Z2Nat.id by lia. apply pow_log2_up_bound. unfold wf_lt in Hw. lia.
Qed.

(* 16 outcomes suffice for any u16 interval *)
Lemma converges_16 P s n :
  wf_lt s -> min_ss s <= P <= max_ss s -> (16 <= n)%nat ->
  exists s', probe_rounds n P s = Some s' /\
    min_ss s' = P /\ max_ss s' = P /\ mss s' = P /\ is_probing s' = Some false.
Proof.
  intros Hw HP Hn. apply converges; auto.
  assert (H16 : 2 ^ 16 <= 2 ^ Z.of_nat n) by (apply Z.pow_le_mono_r; lia).
  unfold wf_lt, U16_MAX in Hw. change (2 ^ 16) with 65536 in H16. lia.
Qed.

(* ------------------------------------------------------------------ the scripted search *)
Lemma search_loop_spec : forall fuel k P s cnt,
  (k <= fuel)%nat -> wf_lt s -> max_ss s - min_ss s < 2 ^ Z.of_nat k ->
  exists cnt' s', search_loop fuel P s cnt = Some (cnt', s') /\
    cnt <= cnt' <= cnt + Z.of_nat k /\ wf_lt s' /\
    min_ss s' = target P s /\ max_ss s' = target P s.
Proof.
  induction fuel as [|f IH]; intros k P s cnt Hk Hw Hd; cbn [search_loop].
  - assert (k = 0%nat) by lia. subst k. cbn in Hd.
    destruct (closed_is_converged P s Hw ltac:(lia)) as (Hm & Hx & _).
    exists cnt, s. split; [reflexivity|]. split; [lia|]. split; [exact Hw|]. split; assumption.
  - pose proof (wf_lt_wf s Hw) as Hw0.
    rewrite (is_probing_some s Hw0) by (unfold wf_lt in Hw; lia). cbn [bind].
    destruct (Z.ltb_spec (min_ss s) (max_ss s)) as [Hlt|Hge].
    + destruct k as [|k']; [cbn in Hd; lia|].
      destruct (probe_round_halves P s Hw) as (s1 & E & Hw1 & _ & _ & Hh & Ht).
      rewrite E. cbn [bind].
      rewrite Nat2Z.inj_succ, Z.pow_succ_r in Hd by lia.
      set (X := 2 ^ Z.of_nat k') in *.
      destruct (IH k' P s1 (cnt + 1) ltac:(lia) Hw1 ltac:(lia)) as (cnt' & s' & E' & Hc & Hw' & Hm & Hx).
      exists cnt', s'. rewrite <- Ht. split; [exact E'|]. split; [lia|]. split; [exact Hw'|]. split; assumption.
    + destruct (closed_is_converged P s Hw ltac:(lia)) as (Hm & Hx & _).
      exists cnt, s. split; [reflexivity|]. split; [lia|]. split; [exact Hw|]. split; assumption.
Qed.

Lemma log2_up_u16 d : 0 <= d <= 65536 -> 0 <= Z.log2_up d <= 16.
Proof.
  intros Hd. split; [apply Z.log2_up_nonneg|].
  change 16 with (Z.log2_up 65536). apply Z.log2_up_le_mono. lia.
Qed.

Lemma mtu_search_ok c P : cfg_in_range c = true -> c14_search_ok c P (mtu_search c P) = true.
Proof.
  intro Hc. pose proof (new_wf_lt c Hc) as Hw.
  destruct (new_shape c) as (Hm & Hx & _). destruct (new_bounds c Hc) as [Hb1 Hb2].
  set (d := ceiling_of c - floor_of c).
  assert (Hd : 0 <= d <= 65536) by (unfold d; lia).
  pose proof (log2_up_u16 d Hd) as Hl.
  set (k := Z.to_nat (Z.log2_up d + 1)).
  assert (Hk : (k <= SEARCH_FUEL)%nat) by (unfold k, SEARCH_FUEL; lia).
  assert (Hpow : max_ss (ss_new c) - min_ss (ss_new c) < 2 ^ Z.of_nat k).
  { unfold k. rewrite Z2Nat.id by lia. rewrite Hm, Hx. apply pow_log2_up_bound. lia. }
  destruct (search_loop_spec SEARCH_FUEL k P (ss_new c) 0 Hk Hw Hpow)
    as (cnt & s' & E & Hcnt & Hw' & Hm' & Hx').
  unfold mtu_search. rewrite E. cbn [bind].
  pose proof (wf_lt_wf s' Hw') as Hw0'.
  rewrite (is_probing_some s' Hw0') by (unfold wf_lt in Hw'; lia). cbn [bind].
  unfold c14_search_ok, mss.
  assert (Ht : target P (ss_new c) = clampZ (floor_of c) (ceiling_of c) P).
  { unfold target, clampZ. rewrite Hm, Hx. reflexivity. }
  rewrite Ht in *. fold d.
  assert (Hkz : Z.of_nat k = Z.log2_up d + 1) by (unfold k; lia).
  replace (min_ss s' <? max_ss s') with false by lia.
  cbn [negb]. lia.
Qed.

(* ------------------------------------------------------------------ non-vacuity *)
Example ex_trace_default :
  ss_trace (ss_new cfg_default)
    [OpNextSize; OpDisarm; OpNextSize; OpProbeFailed 991; OpDisarm; OpNextSize; OpDelivered 760]
  = [Some (528, 1452, true, Some 528); Some (528, 1452, true, None);
     Some (528, 1452, true, Some 991); Some (528, 990, true, None);
     Some (528, 990, true, None); Some (528, 990, true, Some 760);
     Some (760, 990, true, None)].
Proof. vm_compute. reflexivity. Qed.

Example ex_path_ops_ok :
  forallb (path_op_ok 800)
    [OpNextSize; OpDisarm; OpNextSize; OpProbeFailed 991; OpDisarm; OpNextSize; OpDelivered 760] = true
  /\ floor_of cfg_default <= 800 <= ceiling_of cfg_default.
Proof. split; [vm_compute; reflexivity|]. vm_compute. split; discriminate. Qed.

Example ex_sent_disc_ok :
  sent_disc 800 (ss_new cfg_default) []
    [OpNextSize; OpDisarm; OpNextSize; OpProbeFailed 991; OpDisarm; OpNextSize; OpDelivered 760] = true.
Proof. vm_compute. reflexivity. Qed.

Example ex_search_1000 : mtu_search cfg_default 1000 = Some (10, 1000, 1000, false).
Proof. vm_compute. reflexivity. Qed.

Example ex_search_ipv6_small :
  mtu_search {| cfg_ipv4 := false; cfg_link_mtu := 49; cfg_cooldown := 0 |} 7 = Some (0, 1, 1, false).
Proof. vm_compute. reflexivity. Qed.

Example ex_not_new_hostile :
  forallb not_new [OpDelivered 5000; OpDelivered 18446744073709551615; OpDisarm; OpNextSize; OpProbeFailed 70000] = true.
Proof. vm_compute. reflexivity. Qed.

Example ex_truncation :
  (* on_probe_failed(70000): 70000 as u16 = 4464, below min_ss: max_ss stops at min_ss *)
  let c9000 := {| cfg_ipv4 := true; cfg_link_mtu := 9000; cfg_cooldown := 3 |} in
  max_ss (on_probe_failed (on_payload_delivered (ss_new c9000) 6000) 70000) = 6000
  /\ max_ss (on_probe_failed (ss_new cfg_default) 66000) = 528.
Proof. split; vm_compute; reflexivity. Qed.

(* ------------------------------------------------------------------ the trace predicate holds of every model trace *)
Definition acc_rel (a : c14_acc) (s : segsizes) : Prop :=
  a_min a = min_ss s /\ a_max a = max_ss s /\ a_cd a = cd_rem s /\ a_cdmax a = cd_max s /\
  wf s /\
  a_ceil a < U16_MAX /\
  max_ss s <= a_ceil a /\
  (a_search a = true -> min_ss s <= a_lo a /\ a_hi a <= max_ss s) /\
  0 <= a_maxsent a <= U16_MAX.

Lemma observe_some s ret ob : wf s -> ss_observe s ret = Some ob ->
  ob = (min_ss s, max_ss s, min_ss s <? max_ss s, ret).
Proof.
  intros Hw H. unfold ss_observe in H. destruct (is_probing s) as [b|] eqn:E; [|discriminate].
  cbn [bind] in H. injection H as <-. rewrite (is_probing_val s b Hw E). reflexivity.
Qed.

Lemma observe_none s ret : wf s -> ss_observe s ret = None -> max_ss s = U16_MAX.
Proof.
  intros Hw H. unfold ss_observe in H. destruct (is_probing s) as [b|] eqn:E; [discriminate|].
  apply is_probing_none; assumption.
Qed.

Lemma eqb_ltb_refl a b : Bool.eqb (a <? b) (a <? b) = true.
Proof. apply Bool.eqb_reflx. Qed.

Ltac rel_split :=
  unfold acc_rel;
  cbn [a_min a_max a_cd a_cdmax a_search a_maxsent a_ceil a_lo a_hi];
  split; [|split; [|split; [|split; [|split; [|split; [|split; [|split]]]]]]].
Ltac rel_eqs := solve [reflexivity | assumption | symmetry; assumption | congruence].

(* one step: the checks pass and the relation is kept *)
Lemma step_rel a s o s' ret :
  acc_rel a s -> op_in_domain o = true -> ss_step s o = Some (s', ret) ->
  let a' := c14_acc_next a o (min_ss s') (max_ss s') ret in
  c14_obs_check a o a' (min_ss s') (max_ss s') (min_ss s' <? max_ss s') ret = true /\
  acc_rel a' s'.
Proof.
  intros (Hmin & Hmax & Hcd & Hcdm & Hw & Hclt & Hceil & Hsearch & Hsent) Hd H.
  pose proof (step_wf s o s' ret Hw Hd H) as Hw'.
  cbv zeta. unfold c14_obs_check. rewrite eqb_ltb_refl.
  assert (Hwfb : (0 <=? min_ss s') && (min_ss s' <=? max_ss s') && (max_ss s' <=? U16_MAX) = true)
    by (destruct Hw'; lia).
  rewrite Hwfb. cbn [andb].
  destruct o as [c|n| |n|]; cbn [ss_step op_in_domain] in H, Hd.
  - (* New *)
    injection H as <- <-. cbn [c14_acc_next c14_ret_check a_search a_ceil andb].
    destruct (new_shape c) as (Hm & Hx & Hc1 & Hc2). destruct (new_bounds c Hd) as [Hb1 Hb2].
    split; [rewrite Hx; lia|].
    rel_split; try rel_eqs.
    + unfold U16_MAX. lia.
    + lia.
  - (* Delivered *)
    injection H as <- <-.
    destruct (delivered_fields s n ltac:(lia)) as (Hm & Hx & Hc1 & Hc2).
    cbn [c14_acc_next c14_ret_check a_search a_ceil a_lo a_hi andb].
    destruct Hw as [Hw1 Hw2].
    split.
    + replace (max_ss (on_payload_delivered s n) <=? a_ceil a) with true by (rewrite Hx; lia).
      cbn [andb].
      destruct (a_search a) eqn:Es; cbn [andb]; [|reflexivity].
      destruct ((n <=? a_maxsent a) && (Z.max (a_lo a) n <=? a_hi a)) eqn:Eg; [|reflexivity].
      specialize (Hsearch eq_refl). rewrite Hm, Hx. unfold U16_MAX in *. lia.
    + rel_split; try rel_eqs.
      intro Hb. apply andb_true_iff in Hb as [Hb Hb3]. apply andb_true_iff in Hb as [Hb1 Hb2].
      specialize (Hsearch Hb1). rewrite Hm, Hx. unfold U16_MAX in *. lia.
  - (* NextSize *)
    destruct (next_segment_size s) as [[s1 r]|] eqn:E; [|discriminate].
    cbn [bind fst snd] in H. injection H as <- <-.
    destruct (next_size_spec s s1 r Hw E) as (Hm & Hx & Hcm & Hcr & Hor & Hr & Hgt).
    cbn [c14_acc_next c14_ret_check a_search a_ceil a_lo a_hi].
    unfold mss in *.
    split.
    + assert (Hret : (min_ss s1 =? a_min a) && (max_ss s1 =? a_max a) && (min_ss s1 <=? r) &&
                     (r <=? max_ss s1) &&
                     ((r =? min_ss s1) ||
                      (a_cd a =? 0) && (r =? Z.min (min_ss s1 + (max_ss s1 - min_ss s1) / 2 + 1) (max_ss s1)))
                     = true).
      { rewrite Hm, Hx, Hmin, Hmax, Hcd.
        destruct (Z.eq_dec r (min_ss s)) as [He|Hne]; [lia|].
        destruct (Hgt ltac:(lia)) as [Hg1 Hg2]. unfold probe_value in Hg2. lia. }
      rewrite Hret. cbn [andb].
      replace (max_ss s1 <=? a_ceil a) with true by lia. cbn [andb].
      destruct (a_search a) eqn:Es; [|reflexivity]. specialize (Hsearch eq_refl). lia.
    + rel_split; try rel_eqs.
      * rewrite Hcr, Hcd, Hcdm. reflexivity.
      * rewrite Hm, Hx. exact Hsearch.
      * destruct Hw as [Hw1 Hw2]. lia.
  - (* ProbeFailed *)
    injection H as <- <-.
    cbn [c14_acc_next c14_ret_check a_search a_ceil a_lo a_hi andb].
    destruct (failed_monotone s n Hw) as [Hm Hxle].
    split.
    + replace (max_ss (on_probe_failed s n) <=? a_ceil a) with true by lia. cbn [andb].
      destruct (a_search a) eqn:Es; cbn [andb]; [|reflexivity].
      destruct ((n <=? a_maxsent a) && (a_lo a <=? Z.min (a_hi a) (n - 1))) eqn:Eg; [|reflexivity].
      specialize (Hsearch eq_refl).
      destruct (failed_fields s n ltac:(lia)) as (_ & Hx & _). rewrite Hm, Hx. lia.
    + rel_split; try rel_eqs.
      * lia.
      * intro Hb. apply andb_true_iff in Hb as [Hb Hb3]. apply andb_true_iff in Hb as [Hb1 Hb2].
        specialize (Hsearch Hb1).
        destruct (failed_fields s n ltac:(lia)) as (_ & Hx & _). rewrite Hm, Hx. lia.
  - (* Disarm *)
    injection H as <- <-.
    cbn [c14_acc_next c14_ret_check a_search a_ceil a_lo a_hi andb].
    unfold disarm_cooldown; cbn [min_ss max_ss].
    split.
    + replace (max_ss s <=? a_ceil a) with true by lia. cbn [andb].
      destruct (a_search a) eqn:Es; [|reflexivity]. specialize (Hsearch eq_refl). lia.
    + rel_split; cbn [min_ss max_ss cd_rem cd_max]; rel_eqs.
Qed.

Lemma acc_rel_wf_lt a s : acc_rel a s -> wf_lt s.
Proof.
  intros (_ & _ & _ & _ & [Hw1 Hw2] & Hclt & Hceil & _). unfold wf_lt. split; [exact Hw1|lia].
Qed.

Lemma obs_ok_model : forall ops a s,
  acc_rel a s -> forallb op_in_domain ops = true -> c14_obs_ok a ops (ss_trace s ops) = true.
Proof.
  induction ops as [|o ops IH]; intros a s HR Hdom; [reflexivity|].
  cbn [forallb] in Hdom. apply andb_true_iff in Hdom as [Hd Hdom].
  pose proof (acc_rel_wf_lt a s HR) as Hwl.
  destruct (step_total s o Hwl Hd) as (s' & ret & E & Hwl').
  pose proof (wf_lt_wf s' Hwl') as Hw'.
  cbn [ss_trace]. rewrite E.
  assert (Eo : ss_observe s' ret = Some (min_ss s', max_ss s', min_ss s' <? max_ss s', ret)).
  { unfold ss_observe. rewrite (is_probing_some s' Hw') by (unfold wf_lt in Hwl'; lia). reflexivity. }
  rewrite Eo. cbn [c14_obs_ok]. rewrite Hd. cbn [andb].
  destruct (step_rel a s o s' ret HR Hd E) as [Hchk HR'].
  rewrite Hchk. cbn [andb]. apply IH; assumption.
Qed.

Lemma model_trace_ok c ops :
  cfg_in_range c = true -> forallb op_in_domain ops = true ->
  c14_ok c ops (ss_trace (ss_new c) ops) = true.
Proof.
  intros Hc Hd. unfold c14_ok. rewrite Hc. cbn [andb]. apply obs_ok_model; [|exact Hd].
  destruct (new_shape c) as (Hm & Hx & Hc1 & Hc2). destruct (new_bounds c Hc) as [Hb1 Hb2].
  pose proof (new_wf_lt c Hc) as Hw.
  unfold c14_acc0. rel_split; try rel_eqs.
  - apply wf_lt_wf; exact Hw.
  - unfold U16_MAX. lia.
  - lia.
  - intros _. lia.
  - unfold U16_MAX. lia.
Qed.

Example ex_pred_default :
  c14_ok cfg_default
    [OpNextSize; OpDisarm; OpNextSize; OpProbeFailed 991; OpDisarm; OpNextSize; OpDelivered 760]
    [Some (528, 1452, true, Some 528); Some (528, 1452, true, None);
     Some (528, 1452, true, Some 991); Some (528, 990, true, None);
     Some (528, 990, true, None); Some (528, 990, true, Some 760);
     Some (760, 990, true, None)] = true.
Proof. vm_compute. reflexivity. Qed.

(* the predicate rejects: a probe one below the midpoint (the `+ 1` dropped), a max_ss above the
   ceiling, an interval that lost a consistent P, the trace of the code before the D3 repair,
   and any panic *)
Example ex_pred_rejects :
  c14_ok cfg_default [OpDisarm; OpNextSize]
    [Some (528, 1452, true, None); Some (528, 1452, true, Some 990)] = false /\
  c14_ok cfg_default [OpDelivered 100] [Some (528, 1500, true, None)] = false /\
  c14_ok cfg_default [OpDisarm; OpNextSize; OpProbeFailed 991]
    [Some (528, 1452, true, None); Some (528, 1452, true, Some 991); Some (528, 900, true, None)] = false /\
  c14_ok cfg_default [OpDelivered 5000] [Some (5000, 5000, false, None)] = false /\
  c14_ok cfg_default [OpDelivered 65535] [None] = false.
Proof. repeat split; vm_compute; reflexivity. Qed.
