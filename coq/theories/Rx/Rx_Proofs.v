From Utp Require Import Base.Prelude Rx.Rx.

(* ------------------------------------------------------------------ list helpers *)
Fixpoint count_nondefault (l : list slot) : Z :=
  match l with [] => 0 | x :: xs => (if slot_is_default x then 0 else 1) + count_nondefault xs end.

Fixpoint sum_q_bytes (l : list qitem) : Z :=
  match l with [] => 0 | x :: xs => qitem_len_bytes x + sum_q_bytes xs end.

Fixpoint slots_bytes (l : list slot) : list Z :=
  match l with
  | [] => []
  | SPayload bs :: xs => bs ++ slots_bytes xs
  | SEof :: xs => slots_bytes xs
  end.

Fixpoint q_bytes (l : list qitem) : list Z :=
  match l with
  | [] => []
  | QPayload bs :: xs => bs ++ q_bytes xs
  | _ :: xs => q_bytes xs
  end.

Definition twf_n (l : list slot) : Z := fst (take_while_filled l).
Definition twf_b (l : list slot) : Z := snd (take_while_filled l).

Lemma twf_cons x xs :
  take_while_filled (x :: xs) =
  if slot_is_default x then (0, 0)
  else (twf_n xs + 1, twf_b xs + slot_len_bytes x).
Proof.
  unfold twf_n, twf_b. cbn [take_while_filled].
  destruct (slot_is_default x); [reflexivity|].
  destruct (take_while_filled xs); reflexivity.
Qed.

Lemma twf_n_nonneg l : 0 <= twf_n l <= Z.of_nat (length l).
Proof.
  induction l as [|x xs IH]; unfold twf_n in *; [cbn; lia|].
  rewrite twf_cons. destruct (slot_is_default x); cbn [fst length]; unfold twf_n in *; lia.
Qed.

Lemma slot_len_nonneg x : 0 <= slot_len_bytes x.
Proof. destruct x; cbn; lia. Qed.

Lemma sum_slot_bytes_nonneg l : 0 <= sum_slot_bytes l.
Proof. induction l as [|x xs IH]; cbn [sum_slot_bytes]; [lia|]. pose proof (slot_len_nonneg x). lia. Qed.

Lemma sum_slot_bytes_app a b : sum_slot_bytes (a ++ b) = sum_slot_bytes a + sum_slot_bytes b.
Proof. induction a as [|x xs IH]; cbn [app sum_slot_bytes]; lia. Qed.

Lemma count_nondefault_app a b : count_nondefault (a ++ b) = count_nondefault a + count_nondefault b.
Proof. induction a as [|x xs IH]; cbn [app count_nondefault]; lia. Qed.

Lemma count_nondefault_bounds l : 0 <= count_nondefault l <= Z.of_nat (length l).
Proof.
  induction l as [|x xs IH]; cbn [count_nondefault length]; [lia|].
  destruct (slot_is_default x); lia.
Qed.

Lemma twf_n_le_count l : twf_n l <= count_nondefault l.
Proof.
  induction l as [|x xs IH]; unfold twf_n in *; [cbn; lia|].
  rewrite twf_cons. cbn [count_nondefault]. pose proof (count_nondefault_bounds xs).
  destruct (slot_is_default x); cbn [fst]; unfold twf_n in *; lia.
Qed.

Lemma slots_bytes_app a b : slots_bytes (a ++ b) = slots_bytes a ++ slots_bytes b.
Proof.
  induction a as [|x xs IH]; cbn [app slots_bytes]; [reflexivity|].
  destruct x; rewrite IH; [rewrite app_assoc|]; reflexivity.
Qed.

Lemma q_bytes_app a b : q_bytes (a ++ b) = q_bytes a ++ q_bytes b.
Proof.
  induction a as [|x xs IH]; cbn [app q_bytes]; [reflexivity|].
  destruct x; rewrite IH; [rewrite app_assoc|..]; reflexivity.
Qed.

Lemma sum_q_bytes_app a b : sum_q_bytes (a ++ b) = sum_q_bytes a + sum_q_bytes b.
Proof. induction a as [|x xs IH]; cbn [app sum_q_bytes]; lia. Qed.

Lemma sum_q_bytes_nonneg l : 0 <= sum_q_bytes l.
Proof.
  induction l as [|x xs IH]; cbn [sum_q_bytes]; [lia|].
  destruct x; cbn [qitem_len_bytes]; lia.
Qed.

(* prefix of nondefault slots: splitting at n <= twf_n *)
Lemma twf_split : forall (n : nat) l,
  Z.of_nat n <= twf_n l ->
  twf_n l = Z.of_nat n + twf_n (skipn n l) /\
  twf_b l = sum_slot_bytes (firstn n l) + twf_b (skipn n l) /\
  count_nondefault (firstn n l) = Z.of_nat n.
Proof.
  induction n as [|n IH]; intros l H.
  - cbn [skipn firstn sum_slot_bytes count_nondefault]. lia.
  - destruct l as [|x xs].
    + unfold twf_n in H; cbn in H. lia.
    + unfold twf_n, twf_b in *. rewrite twf_cons in *.
      destruct (slot_is_default x) eqn:Ed; cbn [fst snd] in *; [lia|].
      cbn [skipn firstn sum_slot_bytes count_nondefault]. rewrite Ed.
      destruct (IH xs) as (H1 & H2 & H3); [unfold twf_n in *; lia|].
      unfold twf_n, twf_b in *. lia.
Qed.

Lemma twf_app_default l : take_while_filled (l ++ [slot_default]) = take_while_filled l.
Proof.
  induction l as [|x xs IH]; [reflexivity|].
  cbn [app]. rewrite !twf_cons. unfold twf_n, twf_b. rewrite IH. reflexivity.
Qed.

Lemma twf_n_bytes_firstn l :
  sum_slot_bytes (firstn (Z.to_nat (twf_n l)) l) = twf_b l.
Proof.
  induction l as [|x xs IH]; [reflexivity|].
  unfold twf_n, twf_b. rewrite twf_cons.
  destruct (slot_is_default x) eqn:Ed; cbn [fst snd]; [reflexivity|].
  pose proof (twf_n_nonneg xs) as Hn.
  replace (Z.to_nat (twf_n xs + 1)) with (S (Z.to_nat (twf_n xs))) by lia.
  cbn [firstn sum_slot_bytes]. rewrite IH. lia.
Qed.

(* set_nth facts *)
Lemma set_nth_length {A} (l : list A) n v : length (set_nth l n v) = length l.
Proof. revert n; induction l as [|x xs IH]; intros [|n]; cbn [set_nth length]; auto. Qed.

Lemma set_nth_firstn {A} (l : list A) n v k : (k <= n)%nat -> firstn k (set_nth l n v) = firstn k l.
Proof.
  revert n k; induction l as [|x xs IH]; intros [|n] [|k] H; cbn [set_nth firstn]; try reflexivity; try lia.
  f_equal. apply IH. lia.
Qed.

Lemma set_nth_sum l n v old :
  nth_error l n = Some old ->
  sum_slot_bytes (set_nth l n v) = sum_slot_bytes l - slot_len_bytes old + slot_len_bytes v.
Proof.
  revert n; induction l as [|x xs IH]; intros [|n] H; cbn [nth_error] in H; try discriminate.
  - injection H as <-. cbn [set_nth sum_slot_bytes]. lia.
  - cbn [set_nth sum_slot_bytes]. rewrite (IH n H). lia.
Qed.

Lemma set_nth_count l n v old :
  nth_error l n = Some old ->
  count_nondefault (set_nth l n v) =
  count_nondefault l - (if slot_is_default old then 0 else 1) + (if slot_is_default v then 0 else 1).
Proof.
  revert n; induction l as [|x xs IH]; intros [|n] H; cbn [nth_error] in H; try discriminate.
  - injection H as <-. cbn [set_nth count_nondefault]. lia.
  - cbn [set_nth count_nondefault]. rewrite (IH n H). lia.
Qed.

Lemma twf_n_firstn_ge : forall (n : nat) l,
  count_nondefault (firstn n l) = Z.of_nat n -> (n <= length l)%nat -> Z.of_nat n <= twf_n l.
Proof.
  induction n as [|n IH]; intros l Hc Hl.
  - pose proof (twf_n_nonneg l). lia.
  - destruct l as [|x xs]; [cbn in Hl; lia|].
    cbn [firstn count_nondefault length] in *. unfold twf_n. rewrite twf_cons.
    pose proof (count_nondefault_bounds (firstn n xs)) as Hb.
    assert (Hlen : (length (firstn n xs) <= n)%nat) by apply firstn_le_length.
    destruct (slot_is_default x); [lia|]. cbn [fst].
    specialize (IH xs). lia.
Qed.

(* ------------------------------------------------------------------ the invariant *)
Definition rx_inv (s : rx) : Prop :=
  Z.of_nat (length (ooq_data s)) = ooq_capacity s /\
  0 < ooq_capacity s /\
  filled_front s = twf_n (ooq_data s) /\
  ooq_len s = count_nondefault (ooq_data s) /\
  ooq_len_bytes s = sum_slot_bytes (ooq_data s) /\
  q_len_bytes s = sum_q_bytes (q s) /\
  q_len_bytes s <= q_capacity s /\
  0 <= last_remaining_rx_window s <= q_capacity s - q_len_bytes s /\
  0 <= g_base s.

Lemma inv_ff_bounds s : rx_inv s -> 0 <= filled_front s <= ooq_len s /\ ooq_len s <= ooq_capacity s.
Proof.
  intros (Hlen & Hcap & Hff & Hl & _). rewrite Hff, Hl.
  pose proof (twf_n_nonneg (ooq_data s)). pose proof (twf_n_le_count (ooq_data s)).
  pose proof (count_nondefault_bounds (ooq_data s)). lia.
Qed.

Lemma repeat_default_facts n :
  twf_n (repeat slot_default n) = 0 /\ count_nondefault (repeat slot_default n) = 0 /\
  sum_slot_bytes (repeat slot_default n) = 0.
Proof.
  induction n as [|n (H1 & H2 & H3)]; [cbv; auto|].
  cbn [repeat]. unfold twf_n. rewrite twf_cons. cbn [slot_default slot_is_default fst
    count_nondefault sum_slot_bytes slot_len_bytes length]. lia.
Qed.

Lemma build_inv max_rx max_in : 0 < max_in -> 0 < max_rx -> rx_inv (rx_build max_rx max_in).
Proof.
  intros Hi Hr. unfold rx_build, rx_inv. cbn -[Z.div repeat].
  set (cap := if max_rx / max_in =? 0 then 64 else max_rx / max_in).
  assert (Hcap : 0 < cap).
  { unfold cap. destruct (Z.eqb_spec (max_rx / max_in) 0); [lia|].
    pose proof (Z.div_pos max_rx max_in). lia. }
  destruct (repeat_default_facts (Z.to_nat cap)) as (H1 & H2 & H3).
  rewrite repeat_length, H1, H2, H3. lia.
Qed.

(* ------------------------------------------------------------------ add_remove *)
Lemma default_len_zero x : slot_is_default x = true -> slot_len_bytes x = 0.
Proof. destruct x as [[|b bs]|]; cbn; intros; try discriminate; reflexivity. Qed.

(* what a successful insertion looks like *)
Lemma ooq_add_remove_kind_cases s k p off s' r :
  ooq_add_remove s k p off = (s', r) ->
  (s' = s /\ match r with ArConsumed _ _ => False | _ => True end) \/
  (exists m old,
      nth_error (ooq_data s) (Z.to_nat (off + filled_front s)) = Some old /\
      slot_is_default old = true /\ slot_is_default m = false /\
      ooq_is_full s = false /\
      (k = KFin /\ m = SEof \/ k = KData /\ m = SPayload p /\ p <> []) /\
      let data' := set_nth (ooq_data s) (Z.to_nat (off + filled_front s)) m in
      let n := twf_n (skipn (Z.to_nat (filled_front s)) data') in
      let b := twf_b (skipn (Z.to_nat (filled_front s)) data') in
      s' = set_ooq s data' (filled_front s + n) (ooq_len s + 1) (ooq_len_bytes s + slot_len_bytes m) /\
      r = ArConsumed n b).
Proof.
  unfold ooq_add_remove. destruct (ooq_is_full s) eqn:Efull.
  { intro H; injection H as <- <-. left; auto. }
  destruct (Z.of_nat (length (ooq_data s)) <=? off + filled_front s).
  { intro H; injection H as <- <-. left; auto. }
  match goal with |- _ = _ -> ?G => set (Concl := G) end.
  assert (Hm : forall m, slot_is_default m = false ->
     (k = KFin /\ m = SEof \/ k = KData /\ m = SPayload p /\ p <> []) ->
     match nth_error (ooq_data s) (Z.to_nat (off + filled_front s)) with
     | Some old =>
        if negb (slot_is_default old) then (s, ArAlreadyPresent)
        else
          let data' := set_nth (ooq_data s) (Z.to_nat (off + filled_front s)) m in
          let '(n, b) := take_while_filled (skipn (Z.to_nat (filled_front s)) data') in
          (set_ooq s data' (filled_front s + n) (ooq_len s + 1) (ooq_len_bytes s + slot_len_bytes m),
           ArConsumed n b)
     | None => (s, ArErrBugMissingSlot)
     end = (s', r) -> Concl).
  { intros m Hmd Hshape. unfold Concl. destruct (nth_error _ _) as [old|] eqn:En.
    - destruct (slot_is_default old) eqn:Eo; cbn [negb].
      + cbv zeta. unfold twf_n, twf_b.
        destruct (take_while_filled _) as [n b] eqn:Et. intro H; injection H as <- <-.
        right. exists m, old. cbn [fst snd]. repeat split; auto;
        unfold twf_n, twf_b; rewrite ?Et; reflexivity.
      + intro H; injection H as <- <-. left; auto.
    - intro H; injection H as <- <-. left; auto. }
  destruct k.
  - destruct p as [|b bs].
    + unfold Concl. intro H; injection H as <- <-. left; auto.
    + apply Hm; [reflexivity|]. right. repeat split; discriminate.
  - apply Hm; [reflexivity|]. left. split; reflexivity.
  - unfold Concl. intro H; injection H as <- <-. left; auto.
Qed.

Lemma ooq_add_remove_cases s k p off s' r :
  ooq_add_remove s k p off = (s', r) ->
  (s' = s /\ match r with ArConsumed _ _ => False | _ => True end) \/
  (exists m old,
      nth_error (ooq_data s) (Z.to_nat (off + filled_front s)) = Some old /\
      slot_is_default old = true /\ slot_is_default m = false /\
      ooq_is_full s = false /\
      (m = SEof \/ (exists b bs, m = SPayload (b :: bs) /\ p = b :: bs)) /\
      let data' := set_nth (ooq_data s) (Z.to_nat (off + filled_front s)) m in
      let n := twf_n (skipn (Z.to_nat (filled_front s)) data') in
      let b := twf_b (skipn (Z.to_nat (filled_front s)) data') in
      s' = set_ooq s data' (filled_front s + n) (ooq_len s + 1) (ooq_len_bytes s + slot_len_bytes m) /\
      r = ArConsumed n b).
Proof.
  intro H. destruct (ooq_add_remove_kind_cases _ _ _ _ _ _ H)
    as [Hsame|(m & old & H1 & H2 & H3 & H4 & Hk & H5)]; [left; exact Hsame|].
  right. exists m, old. repeat (split; [assumption|]). split; [|exact H5].
  destruct Hk as [[_ ->]|(_ & -> & Hp)]; [left; reflexivity|right].
  destruct p as [|b bs]; [contradiction|eauto].
Qed.

Lemma ooq_add_remove_inv s k p off s' r :
  rx_inv s -> 0 <= off -> ooq_add_remove s k p off = (s', r) -> rx_inv s'.
Proof.
  intros Hinv Hoff H.
  destruct (ooq_add_remove_cases _ _ _ _ _ _ H) as [[-> _]|(m & old & Hnth & Hod & Hmd & _ & _ & Hs')]; [exact Hinv|].
  cbv zeta in Hs'. destruct Hs' as [-> _].
  pose proof (inv_ff_bounds s Hinv) as Hb.
  destruct Hinv as (Hlen & Hcap & Hff & Hl & Hlb & Hq).
  set (ffn := Z.to_nat (filled_front s)) in *.
  set (effn := Z.to_nat (off + filled_front s)) in *.
  set (data' := set_nth (ooq_data s) effn m) in *.
  assert (Hle : (ffn <= effn)%nat) by (unfold ffn, effn; lia).
  assert (Hffn : Z.of_nat ffn = filled_front s) by (unfold ffn; lia).
  destruct (twf_split ffn (ooq_data s)) as (_ & _ & Hcnt); [lia|].
  assert (Hge : Z.of_nat ffn <= twf_n data').
  { apply twf_n_firstn_ge.
    - unfold data'. rewrite set_nth_firstn by exact Hle. exact Hcnt.
    - unfold data'. rewrite set_nth_length. lia. }
  destruct (twf_split ffn data' Hge) as (Hsplit & _ & _).
  unfold rx_inv, set_ooq; cbn [ooq_data filled_front ooq_len ooq_len_bytes ooq_capacity q
     q_len_bytes q_capacity last_remaining_rx_window g_base].
  split; [unfold data'; rewrite set_nth_length; exact Hlen|].
  split; [exact Hcap|].
  split; [fold ffn; lia|].
  split; [unfold data'; rewrite (set_nth_count _ _ _ _ Hnth), Hod, Hmd; lia|].
  split; [unfold data'; rewrite (set_nth_sum _ _ _ _ Hnth), (default_len_zero _ Hod); lia|].
  exact Hq.
Qed.

(* ------------------------------------------------------------------ flush *)
Ltac rsimpl := cbn [ooq_data filled_front ooq_len ooq_len_bytes ooq_capacity q q_len_bytes
  q_capacity reader_dropped vsock_closed disp_waker reader_waker max_incoming_payload
  last_remaining_rx_window current is_eof g_base g_read set_ooq set_wakers set_flags
  pop_front_state] in *.

(* the in-order bytes not yet returned by Read *)
Definition pending (s : rx) : list Z :=
  current s ++ q_bytes (q s) ++ slots_bytes (firstn (Z.to_nat (filled_front s)) (ooq_data s)).
(* every in-order byte ever accepted *)
Definition stream (s : rx) : list Z := g_read s ++ pending s.
(* number of sequence numbers consumed so far (the ack number, relative to the ISN) *)
Definition consumed (s : rx) : Z := g_base s + filled_front s.

Definition core_inv (s : rx) : Prop :=
  Z.of_nat (length (ooq_data s)) = ooq_capacity s /\
  0 < ooq_capacity s /\
  filled_front s = twf_n (ooq_data s) /\
  ooq_len s = count_nondefault (ooq_data s) /\
  ooq_len_bytes s = sum_slot_bytes (ooq_data s) /\
  q_len_bytes s = sum_q_bytes (q s) /\
  q_len_bytes s <= q_capacity s /\
  0 <= g_base s.

Lemma rx_inv_core s : rx_inv s <-> core_inv s /\ 0 <= last_remaining_rx_window s <= q_capacity s - q_len_bytes s.
Proof. unfold rx_inv, core_inv. tauto. Qed.

Definition same_misc (s s' : rx) : Prop :=
  ooq_capacity s' = ooq_capacity s /\ q_capacity s' = q_capacity s /\
  reader_dropped s' = reader_dropped s /\ vsock_closed s' = vsock_closed s /\
  disp_waker s' = disp_waker s /\ reader_waker s' = reader_waker s /\
  max_incoming_payload s' = max_incoming_payload s /\
  last_remaining_rx_window s' = last_remaining_rx_window s /\
  current s' = current s /\ is_eof s' = is_eof s /\ g_read s' = g_read s.

Lemma same_misc_refl s : same_misc s s.
Proof. unfold same_misc; tauto. Qed.

Lemma same_misc_trans a b c : same_misc a b -> same_misc b c -> same_misc a c.
Proof. unfold same_misc. intros; intuition congruence. Qed.

Lemma slots_bytes_len l : Z.of_nat (length (slots_bytes l)) = sum_slot_bytes l.
Proof.
  induction l as [|x xs IH]; [reflexivity|].
  destruct x; cbn [slots_bytes sum_slot_bytes slot_len_bytes]; rewrite ?app_length; lia.
Qed.

Lemma flush_loop_spec : forall fuel s w fb fp,
  core_inv s -> 0 <= w <= q_capacity s - q_len_bytes s -> 0 <= fb ->
  exists s' w' fb' fp',
    flush_loop fuel s w fb fp = Some (s', w', fb', fp') /\
    core_inv s' /\ 0 <= w' <= q_capacity s' - q_len_bytes s' /\
    fb <= fb' /\ w' = w - (fb' - fb) /\
    q_len_bytes s' = q_len_bytes s + (fb' - fb) /\
    ooq_len_bytes s' = ooq_len_bytes s - (fb' - fb) /\
    same_misc s s' /\
    q_bytes (q s') ++ slots_bytes (firstn (Z.to_nat (filled_front s')) (ooq_data s')) =
    q_bytes (q s) ++ slots_bytes (firstn (Z.to_nat (filled_front s)) (ooq_data s)) /\
    consumed s' = consumed s /\
    (fb' = fb -> s' = s \/ fp < fp + 1).
Proof.
  induction fuel as [|fuel IH]; intros s w fb fp Hc Hw Hfb; cbn [flush_loop];
  destruct Hc as (Hlen & Hcap & Hff & Hl & Hlb & Hq & Hqc & Hgb).
  { exists s, w, fb, fp. unfold core_inv. repeat split; try lia; auto using same_misc_refl. }
  destruct (Z.eqb_spec (filled_front s) 0) as [Hz|Hnz].
  { exists s, w, fb, fp. unfold core_inv. repeat split; try lia; auto using same_misc_refl. }
  destruct (ooq_data s) as [|m rest] eqn:Ed.
  { exfalso. rewrite Hff in Hnz. unfold twf_n in Hnz. cbn in Hnz. lia. }
  assert (Hmd : slot_is_default m = false).
  { destruct (slot_is_default m) eqn:E; [|reflexivity]. exfalso.
    rewrite Hff in Hnz. unfold twf_n in Hnz. rewrite twf_cons, E in Hnz. cbn in Hnz. lia. }
  destruct (Z.ltb_spec w (slot_len_bytes m)) as [Hlt|Hge].
  { exists s, w, fb, fp. unfold core_inv. rewrite Ed.
    repeat split; try lia; auto using same_misc_refl. }
  destruct (reader_dropped s) eqn:Erd.
  { exists s, w, fb, fp. unfold core_inv. rewrite Ed.
    repeat split; try lia; auto using same_misc_refl. }
  destruct (Z.ltb_spec (q_capacity s - q_len_bytes s) (slot_len_bytes m)) as [Hbad|Hok]; [lia|].
  pose proof (slot_len_nonneg m) as Hm0.
  set (s1 := pop_front_state s m rest).
  assert (Hff1 : twf_n (rest ++ [slot_default]) = filled_front s - 1).
  { unfold twf_n. rewrite twf_app_default. rewrite Hff. unfold twf_n. rewrite twf_cons, Hmd.
    cbn [fst]. unfold twf_n. lia. }
  assert (Hc1 : core_inv s1).
  { unfold core_inv, s1; rsimpl.
    rewrite app_length, count_nondefault_app, sum_slot_bytes_app, sum_q_bytes_app.
    cbn [length count_nondefault sum_slot_bytes slot_default slot_is_default slot_len_bytes
         sum_q_bytes].
    cbn [length count_nondefault sum_slot_bytes] in Hlen, Hl, Hlb. rewrite Hmd in Hl.
    assert (Hqi : qitem_len_bytes (qitem_of_slot m) = slot_len_bytes m) by (destruct m; reflexivity).
    rewrite Hqi, Hff1. repeat split; lia. }
  destruct (IH s1 (w - slot_len_bytes m) (fb + slot_len_bytes m) (fp + 1) Hc1)
    as (s' & w' & fb' & fp' & Hrun & Hc' & Hw' & Hfb' & Hweq & Hql & Hol & Hmisc & Hstr & Hcons & _).
  { unfold s1; rsimpl. lia. }
  { lia. }
  exists s', w', fb', fp'. split; [exact Hrun|]. split; [exact Hc'|]. split; [exact Hw'|].
  split; [lia|]. split; [lia|].
  split; [unfold s1 in Hql; rsimpl; lia|].
  split; [unfold s1 in Hol; rsimpl; lia|].
  split.
  { eapply same_misc_trans; [|exact Hmisc]. unfold same_misc, s1; rsimpl. tauto. }
  split.
  { rewrite Hstr. unfold s1; rsimpl. rewrite q_bytes_app.
    assert (Hn : Z.to_nat (filled_front s) = S (Z.to_nat (filled_front s - 1))).
    { rewrite Hff in *. unfold twf_n in *. rewrite twf_cons, Hmd in *. cbn [fst] in *.
      pose proof (twf_n_nonneg rest). unfold twf_n in *. lia. }
    rewrite Hn. cbn [firstn].
    assert (Hfn : firstn (Z.to_nat (filled_front s - 1)) (rest ++ [slot_default]) =
                  firstn (Z.to_nat (filled_front s - 1)) rest).
    { rewrite firstn_app.
      assert (Hle : (Z.to_nat (filled_front s - 1) <= length rest)%nat).
      { rewrite Hff. unfold twf_n. rewrite twf_cons, Hmd. cbn [fst].
        pose proof (twf_n_nonneg rest). lia. }
      replace (Z.to_nat (filled_front s - 1) - length rest)%nat with 0%nat by lia.
      cbn [firstn]. apply app_nil_r. }
    rewrite Hfn. destruct m as [bs|]; cbn [qitem_of_slot q_bytes slots_bytes];
      rewrite <- ?app_assoc; cbn [app]; reflexivity. }
  split.
  { rewrite Hcons. unfold consumed, s1; rsimpl. lia. }
  intros _. right. lia.
Qed.

Lemma filled_front_bytes_le s : core_inv s -> 0 <= filled_front_bytes s <= ooq_len_bytes s.
Proof.
  intros (Hlen & Hcap & Hff & Hl & Hlb & _). unfold filled_front_bytes.
  rewrite Hff, twf_n_bytes_firstn, Hlb.
  pose proof (twf_n_nonneg (ooq_data s)) as Hn.
  destruct (twf_split (Z.to_nat (twf_n (ooq_data s))) (ooq_data s)) as (_ & Hb & _); [lia|].
  rewrite twf_n_bytes_firstn in Hb.
  rewrite <- (firstn_skipn (Z.to_nat (twf_n (ooq_data s))) (ooq_data s)) at 3.
  rewrite sum_slot_bytes_app.
  pose proof (sum_slot_bytes_nonneg (skipn (Z.to_nat (twf_n (ooq_data s))) (ooq_data s))).
  pose proof (sum_slot_bytes_nonneg (firstn (Z.to_nat (twf_n (ooq_data s))) (ooq_data s))).
  rewrite twf_n_bytes_firstn in *. lia.
Qed.

(* rx_flush: never panics from an invariant state, keeps the invariant, keeps the stream,
   keeps `consumed`, and makes last_remaining_rx_window exactly the free queue space *)
Lemma rx_flush_spec s s' r w :
  rx_inv s -> rx_flush s = (s', r, w) ->
  rx_inv s' /\ (exists fb, r = FlOk fb /\ 0 <= fb) /\
  stream s' = stream s /\ consumed s' = consumed s /\ g_read s' = g_read s /\
  last_remaining_rx_window s' = q_capacity s' - q_len_bytes s' /\
  ooq_len_bytes s' + q_len_bytes s' = ooq_len_bytes s + q_len_bytes s /\
  reader_dropped s' = reader_dropped s /\ vsock_closed s' = vsock_closed s /\
  q_capacity s' = q_capacity s /\ current s' = current s /\ is_eof s' = is_eof s /\
  ooq_capacity s' = ooq_capacity s.
Proof.
  intros Hinv H. apply rx_inv_core in Hinv. destruct Hinv as [Hc Hlast].
  unfold rx_flush in H.
  set (dw := if sat_sub (q_window s) (filled_front_bytes s) <? max_incoming_payload s
             then true else disp_waker s) in *.
  set (s0 := set_wakers s dw (reader_waker s) (last_remaining_rx_window s)) in *.
  assert (Hc0 : core_inv s0) by (unfold core_inv, s0 in *; rsimpl; exact Hc).
  assert (Hqw : q_window s = q_capacity s - q_len_bytes s).
  { unfold q_window, sat_sub. destruct Hc as (_ & _ & _ & _ & _ & _ & Hqc & _). lia. }
  destruct (flush_loop_spec (Z.to_nat (filled_front s0)) s0 (q_window s) 0 0 Hc0)
    as (s1 & w1 & fb & fp & Hrun & Hc1 & Hw1 & Hfb & Hweq & Hql & Hol & Hmisc & Hstr & Hcons & _).
  { unfold s0; rsimpl. destruct Hc as (_ & _ & _ & _ & _ & Hq & Hqc & _).
    pose proof (sum_q_bytes_nonneg (q s)). lia. }
  { lia. }
  rewrite Hrun in H.
  destruct Hmisc as (M1 & M2 & M3 & M4 & M5 & M6 & M7 & M8 & M9 & M10 & M11).
  assert (Hres : exists dw' rw', s' = set_wakers s1 dw' rw' w1 /\ r = FlOk fb).
  { destruct (0 <? fp); injection H as <- <- <-; eauto. }
  destruct Hres as (dw' & rw' & -> & ->).
  unfold s0 in *; rsimpl.
  split.
  { apply rx_inv_core. split; [unfold core_inv in *; rsimpl; exact Hc1|rsimpl; lia]. }
  split; [exists fb; split; [reflexivity|lia]|].
  split.
  { unfold stream, pending; rsimpl. rewrite M9, M11. f_equal. f_equal. exact Hstr. }
  split; [unfold consumed in *; rsimpl; exact Hcons|].
  split; [exact M11|].
  split; [lia|]. split; [lia|]. repeat split; assumption.
Qed.

(* ------------------------------------------------------------------ add_remove (UserRx) *)
(* replacing the slots at and beyond filled_front and moving filled_front n slots forward
   appends the bytes of those n slots to the in-order stream *)
Lemma stream_advance s data' n len lb :
  rx_inv s -> 0 <= n -> length data' = length (ooq_data s) ->
  firstn (Z.to_nat (filled_front s)) data' = firstn (Z.to_nat (filled_front s)) (ooq_data s) ->
  stream (set_ooq s data' (filled_front s + n) len lb) =
  stream s ++ slots_bytes (firstn (Z.to_nat n) (skipn (Z.to_nat (filled_front s)) data')).
Proof.
  intros Hinv Hn Hlen Hpre. pose proof (inv_ff_bounds s Hinv) as Hb. destruct Hinv as (Hl & _).
  set (ffn := Z.to_nat (filled_front s)) in *.
  unfold stream, pending; rsimpl. rewrite <- !app_assoc. f_equal. f_equal. f_equal.
  rewrite <- slots_bytes_app. f_equal.
  replace (Z.to_nat (filled_front s + n)) with (ffn + Z.to_nat n)%nat by (unfold ffn; lia).
  rewrite <- (firstn_skipn ffn data') at 1. rewrite firstn_app.
  assert (Hlf : length (firstn ffn data') = ffn) by (apply firstn_length_le; unfold ffn; lia).
  rewrite Hlf. rewrite firstn_all2 by lia.
  replace (ffn + Z.to_nat n - ffn)%nat with (Z.to_nat n) by lia.
  rewrite Hpre. reflexivity.
Qed.

Lemma ooq_add_remove_stream s k p off s' r :
  rx_inv s -> 0 <= off -> ooq_add_remove s k p off = (s', r) ->
  (exists ext, stream s' = stream s ++ ext /\
     match r with ArConsumed n b => Z.of_nat (length ext) = b /\ 0 <= n /\ consumed s' = consumed s + n
                | _ => ext = [] /\ consumed s' = consumed s end) /\
  g_read s' = g_read s /\ q s' = q s /\ q_len_bytes s' = q_len_bytes s /\
  last_remaining_rx_window s' = last_remaining_rx_window s /\
  reader_dropped s' = reader_dropped s /\ vsock_closed s' = vsock_closed s /\
  disp_waker s' = disp_waker s /\ reader_waker s' = reader_waker s /\
  q_capacity s' = q_capacity s /\ current s' = current s /\ is_eof s' = is_eof s /\
  g_base s' = g_base s /\ ooq_capacity s' = ooq_capacity s.
Proof.
  intros Hinv Hoff H.
  destruct (ooq_add_remove_cases _ _ _ _ _ _ H) as [[-> Hr]|(m & old & Hnth & Hod & Hmd & _ & _ & Hs')].
  { split; [|repeat split; reflexivity]. exists []. rewrite app_nil_r. split; [reflexivity|].
    destruct r; try contradiction; auto. }
  cbv zeta in Hs'. destruct Hs' as [-> ->].
  pose proof (inv_ff_bounds s Hinv) as Hb.
  pose proof (twf_n_nonneg (skipn (Z.to_nat (filled_front s))
    (set_nth (ooq_data s) (Z.to_nat (off + filled_front s)) m))) as Hn0.
  split; [|rsimpl; repeat split; reflexivity].
  eexists. split.
  - apply stream_advance; [exact Hinv|lia|apply set_nth_length|apply set_nth_firstn; lia].
  - rewrite slots_bytes_len, twf_n_bytes_firstn.
    split; [reflexivity|]. split; [lia|]. unfold consumed; rsimpl. lia.
Qed.

Lemma rx_add_remove_spec s k p off s' r w :
  rx_inv s -> 0 <= off -> rx_add_remove s k p off = (s', r, w) ->
  rx_inv s' /\
  (exists ar, r = UarOk ar /\
     exists ext, stream s' = stream s ++ ext /\
       match ar with ArConsumed n b => Z.of_nat (length ext) = b /\ 0 <= n /\ consumed s' = consumed s + n
                   | _ => ext = [] /\ consumed s' = consumed s end) /\
  g_read s' = g_read s /\ reader_dropped s' = reader_dropped s /\
  vsock_closed s' = vsock_closed s /\ q_capacity s' = q_capacity s /\
  current s' = current s /\ is_eof s' = is_eof s /\ ooq_capacity s' = ooq_capacity s.
Proof.
  intros Hinv Hoff. unfold rx_add_remove.
  destruct (ooq_add_remove s k p off) as [s1 ar] eqn:E.
  pose proof (ooq_add_remove_inv _ _ _ _ _ _ Hinv Hoff E) as Hinv1.
  destruct (ooq_add_remove_stream _ _ _ _ _ _ Hinv Hoff E)
    as ((ext & Hstr & Har) & A1 & A2 & A3 & A4 & A5 & A6 & A7 & A8 & A9 & A10 & A11 & A12 & A13).
  match goal with |- _ -> ?G => set (Concl := G) end.
  assert (Hplain : (s1, UarOk ar, @nil wake) = (s', r, w) -> Concl).
  { unfold Concl. intro H; injection H as <- <- <-. split; [exact Hinv1|].
    split; [exists ar; split; [reflexivity|]; exists ext; split; assumption|].
    repeat split; assumption. }
  destruct ar as [n b| | | | |]; try exact Hplain.
  destruct ((0 <? n) && ooq_is_full s1); [|exact Hplain].
  destruct (rx_flush s1) as [[s2 fr] w2] eqn:Ef.
  destruct (rx_flush_spec _ _ _ _ Hinv1 Ef)
    as (Hinv2 & (fb & -> & _) & F1 & F2 & F3 & F4 & F5 & F6 & F7 & F8 & F9 & F10 & F11).
  unfold Concl. intro H; injection H as <- <- <-. split; [exact Hinv2|].
  split.
  { exists (ArConsumed n b). split; [reflexivity|]. exists ext. rewrite F1, F2. split; assumption. }
  repeat split; congruence.
Qed.

(* ------------------------------------------------------------------ read *)
Definition same_ooq (s s' : rx) : Prop :=
  ooq_data s' = ooq_data s /\ filled_front s' = filled_front s /\ ooq_len s' = ooq_len s /\
  ooq_len_bytes s' = ooq_len_bytes s /\ ooq_capacity s' = ooq_capacity s /\
  g_base s' = g_base s /\ g_read s' = g_read s /\ q_capacity s' = q_capacity s /\
  last_remaining_rx_window s' = last_remaining_rx_window s /\
  reader_dropped s' = reader_dropped s /\ vsock_closed s' = vsock_closed s /\
  disp_waker s' = disp_waker s /\ max_incoming_payload s' = max_incoming_payload s.

Lemma same_ooq_refl s : same_ooq s s.
Proof. unfold same_ooq; tauto. Qed.
Lemma same_ooq_trans a b c : same_ooq a b -> same_ooq b c -> same_ooq a c.
Proof. unfold same_ooq; intros; intuition congruence. Qed.

Definition q_inv (s : rx) : Prop := q_len_bytes s = sum_q_bytes (q s).

Lemma read_loop_spec : forall fuel s room out s' out' dead err,
  q_inv s -> read_loop fuel s room out = (s', out', dead, err) ->
  q_inv s' /\ q_len_bytes s' <= q_len_bytes s /\ same_ooq s s' /\
  (exists e, out' = out ++ e) /\
  (err = false -> out' ++ current s' ++ q_bytes (q s') = out ++ current s ++ q_bytes (q s)).
Proof.
  induction fuel as [|fuel IH]; intros s room out s' out' dead err Hq; cbn [read_loop].
  { intro H; injection H as <- <- <- <-. repeat split; auto using same_ooq_refl; try lia.
    exists []; rewrite app_nil_r; reflexivity. }
  destruct (room <=? 0).
  { intro H; injection H as <- <- <- <-. repeat split; auto using same_ooq_refl; try lia.
    exists []; rewrite app_nil_r; reflexivity. }
  destruct (current s) as [|c cs] eqn:Ecur.
  - destruct (is_eof s).
    { intro H; injection H as <- <- <- <-. rewrite Ecur. repeat split; auto using same_ooq_refl; try lia.
      exists []; rewrite app_nil_r; reflexivity. }
    destruct (q s) as [|item qrest] eqn:Eq.
    { destruct (vsock_closed s) eqn:Evc; intro H; injection H as <- <- <- <-.
      - rewrite Ecur, Eq. repeat split; auto using same_ooq_refl; try lia.
        exists []; rewrite app_nil_r; reflexivity.
      - rsimpl. rewrite Ecur.
        split; [unfold q_inv in *; rsimpl; rewrite Eq in Hq; exact Hq|]. split; [lia|].
        split; [unfold same_ooq; rsimpl; rewrite ?Evc; tauto|].
        split; [exists []; rewrite app_nil_r; reflexivity|]. intros _. reflexivity. }
    assert (Hlen0 : 0 <= qitem_len_bytes item) by (destruct item; cbn; lia).
    destruct item as [bs| |].
    + (* payload: continue *)
      intro H. apply IH in H.
      * destruct H as (Hq' & Hle & Hso & (e & He) & Hstr). rsimpl.
        split; [exact Hq'|]. split; [rsimpl; lia|].
        split; [eapply same_ooq_trans; [|exact Hso]; unfold same_ooq; rsimpl; tauto|].
        split; [exists e; exact He|].
        intro Herr. rewrite (Hstr Herr). rsimpl. cbn [q_bytes app]. reflexivity.
      * unfold q_inv in *; rsimpl. rewrite Eq in Hq. cbn [sum_q_bytes] in Hq. lia.
    + intro H; injection H as <- <- <- <-. rsimpl.
      split; [unfold q_inv in *; rsimpl; rewrite Eq in Hq; cbn [sum_q_bytes qitem_len_bytes] in *; lia|].
      split; [cbn [qitem_len_bytes]; lia|].
      split; [unfold same_ooq; rsimpl; tauto|].
      split; [exists []; rewrite app_nil_r; reflexivity|].
      intros _. cbn [q_bytes app]. reflexivity.
    + intro H; injection H as <- <- <- <-. rsimpl.
      split; [unfold q_inv in *; rsimpl; rewrite Eq in Hq; cbn [sum_q_bytes qitem_len_bytes] in *; lia|].
      split; [cbn [qitem_len_bytes]; lia|].
      split; [unfold same_ooq; rsimpl; tauto|].
      split; [exists []; rewrite app_nil_r; reflexivity|].
      intro Hf; discriminate.
  - (* copy from current *)
    intro H. apply IH in H.
    + destruct H as (Hq' & Hle & Hso & (e & He) & Hstr). rsimpl.
      split; [exact Hq'|]. split; [exact Hle|].
      split; [eapply same_ooq_trans; [|exact Hso]; unfold same_ooq; rsimpl; tauto|].
      split; [eexists; rewrite He, <- app_assoc; reflexivity|].
      intro Herr. rewrite (Hstr Herr). rsimpl. rewrite <- !app_assoc. f_equal.
      rewrite app_assoc. rewrite firstn_skipn. reflexivity.
    + unfold q_inv in *; rsimpl. exact Hq.
Qed.

Lemma rx_read_spec s n s' r w :
  rx_inv s -> rx_read s n = (s', r, w) ->
  rx_inv s' /\ consumed s' = consumed s /\
  match r with
  | RdOk bytes => stream s' = stream s /\ g_read s' = g_read s ++ bytes /\ bytes <> []
  | RdErrMsg => True
  | _ => stream s' = stream s /\ g_read s' = g_read s
  end /\
  ooq_len_bytes s' = ooq_len_bytes s /\ q_len_bytes s' <= q_len_bytes s /\
  reader_dropped s' = reader_dropped s /\ vsock_closed s' = vsock_closed s /\
  q_capacity s' = q_capacity s /\ ooq_capacity s' = ooq_capacity s.
Proof.
  intros Hinv. unfold rx_read.
  destruct (read_loop _ s n []) as [[[s1 out] dead] err] eqn:E.
  assert (Hq : q_inv s) by (destruct Hinv as (_ & _ & _ & _ & _ & Hq & _); exact Hq).
  destruct (read_loop_spec _ _ _ _ _ _ _ _ Hq E) as (Hq1 & Hle & Hso & _ & Hstr).
  destruct Hso as (S1 & S2 & S3 & S4 & S5 & S6 & S7 & S8 & S9 & S10 & S11 & S12 & S13).
  assert (Hinv1 : rx_inv s1).
  { unfold rx_inv, q_inv in *. rewrite S1, S2, S3, S4, S5, S6, S8, S9.
    destruct Hinv as (I1 & I2 & I3 & I4 & I5 & I6 & I7 & I8 & I9).
    pose proof (sum_q_bytes_nonneg (q s1)). repeat split; try assumption; lia. }
  assert (Hcons : consumed s1 = consumed s) by (unfold consumed; congruence).
  assert (Hstream : err = false -> g_read s ++ out ++ pending s1 = stream s).
  { intro Herr. specialize (Hstr Herr). cbn [app] in Hstr. unfold stream, pending.
    rewrite S1, S2. f_equal.
    rewrite (app_assoc (current s)), <- Hstr. rewrite <- !app_assoc. reflexivity. }
  destruct err.
  { intro H; injection H as <- <- <-. split; [exact Hinv1|]. repeat split; try assumption; try congruence. }
  specialize (Hstream eq_refl).
  destruct out as [|o os].
  - assert (Hsame : stream s1 = stream s) by (unfold stream; rewrite S7; exact Hstream).
    destruct (is_eof s1); [|destruct dead]; intro H; injection H as <- <- <-;
      (split; [exact Hinv1|]); repeat split; try assumption; try congruence.
  - intro H; injection H as <- <- <-. rsimpl.
    split.
    { unfold rx_inv in *; rsimpl. exact Hinv1. }
    split; [unfold consumed in *; rsimpl; exact Hcons|].
    split.
    { split; [|split; [rewrite S7; reflexivity|discriminate]].
      unfold stream, pending in *; rsimpl. rewrite S7. rewrite <- app_assoc. exact Hstream. }
    repeat split; try assumption; try congruence.
Qed.

(* ------------------------------------------------------------------ whole step *)
Definition op_ok (o : rx_op) : Prop :=
  match o with OAddRemove _ _ off => 0 <= off | _ => True end.

Definition is_read_err (o : rx_out) : bool :=
  match o with OutRead RdErrMsg => true | _ => false end.

Definition bytes_returned (o : rx_out) : list Z :=
  match o with OutRead (RdOk bs) => bs | _ => [] end.

Definition seqs_consumed (o : rx_out) : Z :=
  match o with OutAdd (UarOk (ArConsumed n _)) => n | _ => 0 end.

(* an operation that consumes no sequence number and hands nothing to the reader *)
Lemma quiet_step_spec s s' out :
  rx_inv s' -> is_panic out = false -> seqs_consumed out = 0 -> bytes_returned out = [] ->
  consumed s' = consumed s -> g_read s' = g_read s ->
  (is_read_err out = false -> stream s' = stream s) ->
  q_capacity s' = q_capacity s -> ooq_capacity s' = ooq_capacity s ->
  rx_inv s' /\ is_panic out = false /\
  consumed s' = consumed s + seqs_consumed out /\ 0 <= seqs_consumed out /\
  g_read s' = g_read s ++ bytes_returned out /\
  (is_read_err out = false -> exists ext, stream s' = stream s ++ ext) /\
  q_capacity s' = q_capacity s /\ ooq_capacity s' = ooq_capacity s.
Proof.
  intros Hinv Hp -> -> Hc Hg Hs Hq Ho. rewrite app_nil_r.
  split; [exact Hinv|]. split; [exact Hp|]. split; [lia|]. split; [lia|]. split; [exact Hg|].
  split; [|split; assumption]. intro He. exists []. rewrite app_nil_r. exact (Hs He).
Qed.

Lemma rx_step_spec s o s' out w :
  rx_inv s -> op_ok o -> rx_step s o = (s', out, w) ->
  rx_inv s' /\ is_panic out = false /\
  consumed s' = consumed s + seqs_consumed out /\ 0 <= seqs_consumed out /\
  g_read s' = g_read s ++ bytes_returned out /\
  (is_read_err out = false -> exists ext, stream s' = stream s ++ ext) /\
  q_capacity s' = q_capacity s /\ ooq_capacity s' = ooq_capacity s.
Proof.
  intros Hinv Hok. destruct o as [k p off| |n| | |]; cbn [rx_step op_ok] in *.
  - destruct (rx_add_remove s k p off) as [[s1 r] w1] eqn:E.
    intro H; injection H as <- <- <-.
    destruct (rx_add_remove_spec _ _ _ _ _ _ _ Hinv Hok E)
      as (Hinv1 & (ar & -> & ext & Hstr & Har) & A1 & A2 & A3 & A4 & A5 & A6 & A7).
    split; [exact Hinv1|]. split; [reflexivity|].
    cbn [seqs_consumed bytes_returned is_read_err]. rewrite app_nil_r.
    destruct ar; (split; [|split; [|split; [exact A1|split; [intros _; exists ext; exact Hstr|split; [exact A4|exact A7]]]]]);
      try lia; try tauto.
  - destruct (rx_flush s) as [[s1 r] w1] eqn:E.
    intro H; injection H as <- <- <-.
    destruct (rx_flush_spec _ _ _ _ Hinv E)
      as (Hinv1 & (fb & -> & _) & F1 & F2 & F3 & _ & _ & _ & _ & F8 & _ & _ & F11).
    apply quiet_step_spec; auto.
  - destruct (reader_dropped s).
    { intro H; injection H as <- <- <-. apply quiet_step_spec; auto. }
    destruct (rx_read s n) as [[s1 r] w1] eqn:E.
    intro H; injection H as <- <- <-.
    destruct (rx_read_spec _ _ _ _ _ Hinv E) as (Hinv1 & Hcons & Hr & _ & _ & _ & _ & R5 & R6).
    destruct r as [bytes| | | |].
    2, 4, 5: destruct Hr as (H1 & H2); apply quiet_step_spec; auto.
    + destruct Hr as (H1 & H2 & _). split; [exact Hinv1|]. split; [reflexivity|].
      cbn [seqs_consumed bytes_returned]. split; [lia|]. split; [lia|]. split; [exact H2|].
      split; [intros _; exists []; rewrite app_nil_r; exact H1|split; assumption].
    + (* RdErrMsg: the stream claim is vacuous, g_read is that of the read loop *)
      apply quiet_step_spec; auto; [|discriminate].
      unfold rx_read in E.
      destruct (read_loop _ s n []) as [[[s2 out] dead] err] eqn:EL.
      assert (Hq : q_inv s) by (destruct Hinv as (_ & _ & _ & _ & _ & Hq & _); exact Hq).
      destruct (read_loop_spec _ _ _ _ _ _ _ _ Hq EL) as (_ & _ & Hso & _ & _).
      destruct Hso as (_ & _ & _ & _ & _ & _ & S7 & _).
      destruct err; [injection E as <- _; exact S7|].
      destruct out; [destruct (is_eof s2); [|destruct dead]|]; discriminate.
  - destruct (reader_dropped s); [|unfold rx_drop_reader]; intro H; injection H as <- <- <-;
      apply quiet_step_spec; auto.
  - unfold rx_mark_vsock_closed. destruct (vsock_closed s); intro H; injection H as <- <- <-;
      apply quiet_step_spec; auto.
  - unfold rx_enqueue_error. intro H; injection H as <- <- <-. apply quiet_step_spec; auto.
    + unfold rx_inv in *; rsimpl. rewrite sum_q_bytes_app. cbn [sum_q_bytes qitem_len_bytes].
      destruct Hinv as (I1 & I2 & I3 & I4 & I5 & I6 & I7 & I8 & I9). repeat split; try assumption; lia.
    + intros _. unfold stream, pending; rsimpl. rewrite q_bytes_app. cbn [q_bytes]. rewrite app_nil_r. reflexivity.
Qed.

(* ------------------------------------------------------------------ every reachable state *)
(* induction over the runs from invariant states: the step case gets the invariant of the
   state before, the step equation (for rx_step_spec) and the claim for the state after *)
Lemma rx_ops_ind (P : rx -> list rx_op -> Prop) :
  (forall s, rx_inv s -> P s []) ->
  (forall s o ops s' out w, rx_inv s -> op_ok o -> rx_step s o = (s', out, w) ->
     P s' ops -> P s (o :: ops)) ->
  forall ops s, rx_inv s -> Forall op_ok ops -> P s ops.
Proof.
  intros Hnil Hcons. induction ops as [|o ops IH]; intros s Hinv Hok; [exact (Hnil s Hinv)|].
  inversion Hok as [|? ? Ho Hrest]; subst.
  destruct (rx_step s o) as [[s1 out] w] eqn:E.
  apply (Hcons _ _ _ _ _ _ Hinv Ho E). apply IH; [|exact Hrest].
  exact (proj1 (rx_step_spec _ _ _ _ _ Hinv Ho E)).
Qed.

Lemma rx_run_inv : forall ops s,
  rx_inv s -> Forall op_ok ops -> rx_inv (rx_run s ops).
Proof.
  apply rx_ops_ind; [auto|].
  intros s o ops s' out w _ _ E IH. cbn [rx_run]. rewrite E. exact IH.
Qed.

Lemma rx_reachable_inv max_rx max_in ops :
  0 < max_in -> 0 < max_rx -> Forall op_ok ops -> rx_inv (rx_run (rx_build max_rx max_in) ops).
Proof. intros. apply rx_run_inv; [apply build_inv|]; assumption. Qed.

(* no panic anywhere in a trace *)
Lemma rx_trace_no_panic : forall ops s,
  rx_inv s -> Forall op_ok ops ->
  Forall (fun ob => is_panic (ob_out ob) = false) (rx_trace s ops).
Proof.
  apply rx_ops_ind; [constructor|].
  intros s o ops s' out w Hinv Ho E IH. cbn [rx_trace]. rewrite E.
  destruct (rx_step_spec _ _ _ _ _ Hinv Ho E) as (_ & Hnp & _). rewrite Hnp.
  constructor; [exact Hnp|exact IH].
Qed.

(* ------------------------------------------------------------------ C04 statements on states *)
(* the slot at filled_front is a hole: consumed is the HIGHEST in-order sequence number stored *)
Lemma twf_n_hole l : (Z.to_nat (twf_n l) < length l)%nat ->
  slot_is_default (nth (Z.to_nat (twf_n l)) l slot_default) = true.
Proof.
  induction l as [|x xs IH]; cbn [length]; intro H; [lia|].
  unfold twf_n in H |- *. rewrite twf_cons in H |- *.
  destruct (slot_is_default x) eqn:Ed; cbn [fst] in H |- *.
  - cbn. exact Ed.
  - pose proof (twf_n_nonneg xs) as Hn.
    replace (Z.to_nat (twf_n xs + 1)) with (S (Z.to_nat (twf_n xs))) in H |- * by lia.
    cbn [nth]. apply IH. lia.
Qed.

Lemma hole_at_filled_front s :
  rx_inv s -> filled_front s < ooq_capacity s ->
  slot_is_default (nth (Z.to_nat (filled_front s)) (ooq_data s) slot_default) = true.
Proof.
  intros (Hlen & Hcap & Hff & _) Hlt. rewrite Hff. apply twf_n_hole. lia.
Qed.

Lemma front_filled : forall l (i : nat), Z.of_nat i < twf_n l ->
  slot_is_default (nth i l slot_default) = false.
Proof.
  induction l as [|x xs IH]; intros i Hi; unfold twf_n in *.
  - cbn in Hi. lia.
  - rewrite twf_cons in Hi. destruct (slot_is_default x) eqn:Ed; cbn [fst] in Hi; [lia|].
    destruct i as [|i]; [exact Ed|]. cbn [nth]. apply IH. unfold twf_n in *. lia.
Qed.

Lemma front_slots_filled s (i : nat) :
  rx_inv s -> Z.of_nat i < filled_front s ->
  slot_is_default (nth i (ooq_data s) slot_default) = false.
Proof. intros (_ & _ & Hff & _) Hi. apply front_filled. rewrite <- Hff. exact Hi. Qed.

(* SACK bit i  <->  slot filled_front+1+i holds a packet *)
Lemma sack_bits_nth : forall (n i : nat) l, (i < n)%nat ->
  nth i (sack_bits l n) false = negb (slot_is_default (nth i l slot_default)).
Proof.
  induction n as [|n IH]; intros i l Hi; [lia|].
  destruct l as [|x xs]; cbn [sack_bits].
  - destruct i as [|i]; cbn [nth]; [reflexivity|].
    rewrite IH by lia. destruct i; reflexivity.
  - destruct i as [|i]; cbn [nth]; [reflexivity|]. apply IH. lia.
Qed.

Lemma nth_skipn_add {A} (d : A) : forall (k i : nat) (l : list A),
  nth i (skipn k l) d = nth (k + i) l d.
Proof.
  induction k as [|k IH]; intros i l; [reflexivity|].
  destruct l as [|x xs]; cbn [skipn Nat.add nth]; [destruct i; reflexivity|apply IH].
Qed.

Lemma sack_bits_length n l : length (sack_bits l n) = n.
Proof. revert l; induction n as [|n IH]; intros [|x xs]; cbn [sack_bits length]; auto. Qed.

Lemma sack_exact s bits (i : nat) :
  selective_ack s = Some bits -> (i < 64)%nat ->
  length bits = 64%nat /\
  nth i bits false =
  negb (slot_is_default (nth (Z.to_nat (filled_front s + 1) + i) (ooq_data s) slot_default)).
Proof.
  unfold selective_ack. destruct (ooq_is_empty s); [discriminate|].
  destruct (_ <=? _); [discriminate|]. intro H.
  apply (f_equal (fun o => match o with Some b => b | None => [] end)) in H.
  cbv beta iota in H. subst bits. intro Hi.
  split; [apply sack_bits_length|].
  rewrite sack_bits_nth by exact Hi. rewrite nth_skipn_add. reflexivity.
Qed.

Lemma sack_none_iff s :
  rx_inv s ->
  (selective_ack s = None <->
   (filled_front s = ooq_len s \/ ooq_capacity s <= filled_front s + 1)).
Proof.
  intros (Hlen & _). unfold selective_ack, ooq_is_empty.
  destruct (Z.eqb_spec (filled_front s) (ooq_len s)) as [He|Hne].
  - split; auto.
  - destruct (Z.leb_spec (Z.of_nat (length (ooq_data s))) (filled_front s + 1)) as [Hl|Hl].
    + split; [intros _; right; lia|reflexivity].
    + split; [discriminate|]. intros [H|H]; [contradiction|lia].
Qed.

(* the advertised window never exceeds the free space of the configured receive buffer *)
Lemma window_le_free s :
  rx_inv s ->
  0 <= remaining_rx_window s <= Z.max 0 (q_capacity s - q_len_bytes s - ooq_len_bytes s).
Proof.
  intros (_ & _ & _ & _ & Hlb & _ & _ & Hlast & _). unfold remaining_rx_window, sat_sub.
  pose proof (sum_slot_bytes_nonneg (ooq_data s)).
  destruct (reader_dropped s); lia.
Qed.

(* accounting: what is stored never exceeds the slot capacity, byte counters are exact *)
Lemma accounting s :
  rx_inv s ->
  0 <= filled_front s <= ooq_len s /\ ooq_len s <= ooq_capacity s /\
  ooq_len s = count_nondefault (ooq_data s) /\
  ooq_len_bytes s = sum_slot_bytes (ooq_data s) /\
  q_len_bytes s = sum_q_bytes (q s) /\ 0 <= q_len_bytes s <= q_capacity s.
Proof.
  intro Hinv. pose proof (inv_ff_bounds s Hinv) as Hb.
  destruct Hinv as (_ & _ & _ & Hl & Hlb & Hq & Hqc & _).
  pose proof (sum_q_bytes_nonneg (q s)). repeat split; try lia; assumption.
Qed.

(* the bytes handed to the reader are always a prefix of the in-order stream, and the
   in-order stream only ever grows by appending (nothing acknowledged is discarded) *)
Lemma g_read_prefix_stream s : exists rest, stream s = g_read s ++ rest.
Proof. exists (pending s). reflexivity. Qed.

Definition no_read_err (l : list rx_obs) : Prop :=
  Forall (fun ob => is_read_err (ob_out ob) = false) l.

Lemma rx_run_stream_extends : forall ops s,
  rx_inv s -> Forall op_ok ops -> no_read_err (rx_trace s ops) ->
  exists ext, stream (rx_run s ops) = stream s ++ ext.
Proof.
  refine (rx_ops_ind _ _ _).
  { intros s _ _. exists []. rewrite app_nil_r. reflexivity. }
  intros s o ops s' out w Hinv Ho E IH. cbn [rx_run rx_trace]. rewrite E. intro Hne.
  destruct (rx_step_spec _ _ _ _ _ Hinv Ho E) as (_ & Hnp & _ & _ & _ & Hstr & _).
  rewrite Hnp in Hne. inversion Hne as [|? ? Hhead Htail]; subst.
  destruct (Hstr Hhead) as (e1 & He1). destruct (IH Htail) as (e2 & He2).
  exists (e1 ++ e2). rewrite He2, He1, app_assoc. reflexivity.
Qed.

(* ack number monotone *)
Lemma rx_run_consumed_mono : forall ops s,
  rx_inv s -> Forall op_ok ops -> consumed s <= consumed (rx_run s ops).
Proof.
  apply rx_ops_ind; [intros; apply Z.le_refl|].
  intros s o ops s' out w Hinv Ho E IH. cbn [rx_run]. rewrite E.
  destruct (rx_step_spec _ _ _ _ _ Hinv Ho E) as (_ & _ & Hc & Hn & _). lia.
Qed.

Example rx_example :
  let s := rx_run (rx_build 100 10)
             [OAddRemove KData [1;2;3] 0; OAddRemove KData [7;8] 2; OFlush; ORead 2] in
  consumed s = 1 /\ g_read s = [1;2] /\ stream s = [1;2;3] /\
  selective_ack s <> None /\ remaining_rx_window s = 95.
Proof. vm_compute. repeat split; discriminate. Qed.

(* ------------------------------------------------------------------ c04_ok holds of every model trace *)
Lemma bits_eqb_refl l : bits_eqb l l = true.
Proof. induction l as [|x xs IH]; cbn [bits_eqb]; [reflexivity|]. rewrite IH. destruct x; reflexivity. Qed.

Lemma sack_is_occupancy s bits : selective_ack s = Some bits -> bits = occupancy s.
Proof.
  intro H. apply (nth_ext _ _ false false).
  - destruct (sack_exact s bits 0 H) as [Hl _]; [lia|]. rewrite Hl. unfold occupancy.
    rewrite map_length, seq_length. reflexivity.
  - intros i Hi. destruct (sack_exact s bits 0 H) as [Hl _]; [lia|]. rewrite Hl in Hi.
    destruct (sack_exact s bits i H Hi) as [_ Hn]. rewrite Hn. unfold occupancy.
    rewrite (nth_indep _ false (negb (slot_is_default (nth (Z.to_nat (filled_front s + 1) + 0) (ooq_data s) slot_default))))
      by (rewrite map_length, seq_length; exact Hi).
    rewrite (map_nth (fun i0 => negb (slot_is_default (nth (Z.to_nat (filled_front s + 1) + i0) (ooq_data s) slot_default))) (seq 0 64) 0%nat i).
    rewrite seq_nth by exact Hi. reflexivity.
Qed.

Lemma ob_ok_of_inv s out w :
  rx_inv s -> is_panic out = false ->
  c04_ob_ok (q_capacity s) (ooq_capacity s) (observe s out w) = true.
Proof.
  intros Hinv Hnp.
  pose proof (window_le_free s Hinv) as Hw.
  destruct (accounting s Hinv) as (A1 & A2 & _ & _ & _ & A6).
  assert (Hsack : (let none_expected := (filled_front s =? ooq_len s) || (ooq_capacity s <=? filled_front s + 1) in
     match selective_ack s with
     | Some bits => negb none_expected && bits_eqb bits (occupancy s)
     | None => none_expected
     end) = true).
  { cbv zeta. destruct (selective_ack s) as [bits|] eqn:Es.
    - rewrite (sack_is_occupancy _ _ Es), bits_eqb_refl, andb_true_r.
      destruct ((filled_front s =? ooq_len s) || (ooq_capacity s <=? filled_front s + 1)) eqn:E; [|reflexivity].
      exfalso. pose proof (proj2 (sack_none_iff s Hinv)) as Hn.
      rewrite Hn in Es; [discriminate|]. apply orb_true_iff in E. lia.
    - apply (proj1 (sack_none_iff s Hinv)) in Es. apply orb_true_iff. lia. }
  unfold c04_ob_ok, observe; cbn [ob_out ob_window ob_qbytes ob_len_bytes ob_ff
    ob_len ob_sack ob_occ ob_asm_empty ob_rd].
  rewrite !andb_true_iff. repeat split; try lia.
  - rewrite Hnp. reflexivity.
  - exact Hsack.
  - unfold ooq_is_empty. apply eqb_reflx.
  - unfold remaining_rx_window. destruct (reader_dropped s); reflexivity.
Qed.

Lemma trace_ok_gen : forall ops s, rx_inv s -> Forall op_ok ops ->
  forallb (c04_ob_ok (q_capacity s) (ooq_capacity s)) (rx_trace s ops) = true.
Proof.
  apply rx_ops_ind; [reflexivity|].
  intros s o ops s' out w Hinv Ho E IH. cbn [rx_trace]. rewrite E.
  destruct (rx_step_spec _ _ _ _ _ Hinv Ho E) as (Hinv1 & Hnp & _ & _ & _ & _ & Hqc & Hoc).
  cbn [forallb]. rewrite <- Hqc, <- Hoc, (ob_ok_of_inv s' out w Hinv1 Hnp), Hnp. exact IH.
Qed.

Lemma model_trace_c04_ok max_rx max_in ops :
  0 < max_in -> 0 < max_rx -> Forall op_ok ops ->
  c04_ok max_rx max_in (rx_trace (rx_build max_rx max_in) ops) = true.
Proof.
  intros Hi Hr Hok. exact (trace_ok_gen ops _ (build_inv max_rx max_in Hi Hr) Hok).
Qed.

(* D8 repaired: a flush that hands at least one item (bytes OR the EOF marker) to the user queue
   fires the reader's waker when one is registered *)
Lemma flush_loop_count : forall fuel s w fb fp s' w' fb' fp',
  flush_loop fuel s w fb fp = Some (s', w', fb', fp') ->
  Z.of_nat (length (q s')) = Z.of_nat (length (q s)) + (fp' - fp) /\ fp <= fp' /\
  reader_waker s' = reader_waker s.
Proof.
  induction fuel as [|fuel IH]; intros s w fb fp s' w' fb' fp'; cbn [flush_loop].
  - intro H; injection H as <- _ _ <-. repeat split; lia.
  - destruct (filled_front s =? 0); [intro H; injection H as <- _ _ <-; repeat split; lia|].
    destruct (ooq_data s) as [|m rest]; [discriminate|].
    destruct (w <? _); [intro H; injection H as <- _ _ <-; repeat split; lia|].
    destruct (reader_dropped s); [intro H; injection H as <- _ _ <-; repeat split; lia|].
    destruct (_ <? _); [discriminate|].
    intro H. apply IH in H. destruct H as (H1 & H2 & H3).
    unfold pop_front_state in *; cbn [q reader_waker] in *. rewrite app_length in H1. cbn [length] in H1.
    repeat split; [lia|lia|exact H3].
Qed.

Lemma rx_flush_wakes_reader s s' fb w :
  rx_flush s = (s', FlOk fb, w) -> reader_waker s = true ->
  (length (q s) < length (q s'))%nat ->
  w = [WakeReader] /\ reader_waker s' = false.
Proof.
  unfold rx_flush. intros H Hw Hlen.
  set (s0 := set_wakers s _ (reader_waker s) (last_remaining_rx_window s)) in *.
  destruct (flush_loop _ s0 _ 0 0) as [[[[s1 w1] fb1] fp1]|] eqn:E; [|discriminate].
  destruct (flush_loop_count _ _ _ _ _ _ _ _ _ E) as (H1 & H2 & H3).
  unfold s0 in H1, H3; cbn [set_wakers q reader_waker] in H1, H3.
  destruct (Z.ltb_spec 0 fp1) as [Hp|Hp].
  - injection H as <- _ <-. rewrite H3, Hw. cbn [set_wakers reader_waker]. auto.
  - injection H as <- _ _. cbn [set_wakers q] in Hlen. lia.
Qed.
