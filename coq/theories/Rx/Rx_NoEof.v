(* The reassembly queue never holds an EOF marker at or beyond filled_front, as long as a FIN is only ever
   added in sequence (offset 0) - which is how the connection uses it (the state table of
   process_incoming_message honours a FIN only when seq_nr = last_consumed + 1).  Consequence: the slots
   an ST_DATA makes consumable all hold at least one byte, so  sequence_numbers <= bytes  in every
   AddResult::Consumed an ST_DATA produces.  (Behind the exact-distance form of c07_pre.) *)
From Utp Require Import Base.Prelude Rx.Rx Rx.Rx_Proofs Rx.Rx_Slots.

Definition ne (r : rx) : Prop :=
  0 <= filled_front r /\
  forall (i : nat) x, filled_front r <= Z.of_nat i -> nth_error (ooq_data r) i = Some x -> x <> SEof.

Lemma ne_build a b : ne (rx_build a b).
Proof.
  unfold ne, rx_build; cbn [filled_front ooq_data]. split; [lia|].
  intros i x _ H. apply nth_error_repeat in H. subst x. discriminate.
Qed.

(* everything the invariant looks at is unchanged *)
Lemma ne_same r r' : ooq_data r' = ooq_data r -> filled_front r' = filled_front r -> ne r -> ne r'.
Proof. intros E1 E2 [H1 H2]. unfold ne. rewrite E1, E2. split; assumption. Qed.

(* ---- take_while_filled over slots none of which is an EOF ---- *)
Lemma twf_no_eof : forall l, (forall x, In x l -> x <> SEof) ->
  0 <= twf_n l <= twf_b l /\ (twf_n l = 0 -> twf_b l = 0).
Proof.
  unfold twf_n, twf_b. induction l as [|x xs IH]; intro H; cbn [take_while_filled fst snd]; [lia|].
  destruct (slot_is_default x) eqn:Ed; cbn [fst snd]; [lia|].
  destruct (take_while_filled xs) as [n b] eqn:Et. cbn [fst snd] in *.
  assert (Hx : 1 <= slot_len_bytes x).
  { destruct x as [[|c cs]|]; [discriminate Ed | cbn [slot_len_bytes length]; lia |].
    exfalso. apply (H SEof); [left; reflexivity | reflexivity]. }
  destruct IH as [IH1 IH2]; [intros y Hy; apply H; right; exact Hy|]. lia.
Qed.

Lemma in_skipn_nth {A} : forall k (l : list A) x, In x (skipn k l) ->
  exists i, (k <= i)%nat /\ nth_error l i = Some x.
Proof.
  intros k l x H. apply In_nth_error in H. destruct H as [j H]. rewrite nth_error_skipn in H.
  exists (k + j)%nat. split; [lia | exact H].
Qed.

(* ---- add_remove ---- *)
Lemma ooq_add_data_ne r p off r' res :
  ne r -> 0 <= off -> ooq_add_remove r KData p off = (r', res) ->
  ne r' /\ (forall n b, res = ArConsumed n b -> 0 <= n <= b /\ (n = 0 -> b = 0)).
Proof.
  intros [Hff Hne] Hoff H.
  destruct (ooq_add_remove_kind_cases _ _ _ _ _ _ H)
    as [[-> Hr]|(m & old & En & _ & _ & _ & Hk & Hs')].
  { split; [split; assumption|]. intros n b ->. contradiction. }
  destruct Hk as [[Hk _]|(_ & -> & _)]; [discriminate|].
  cbv zeta in Hs'. destruct Hs' as [-> ->].
  set (eff := Z.to_nat (off + filled_front r)) in *.
  set (data' := set_nth (ooq_data r) eff (SPayload p)) in *.
  assert (Hd : forall (i : nat) x, filled_front r <= Z.of_nat i -> nth_error data' i = Some x -> x <> SEof).
  { intros i x Hi Hx. unfold data' in Hx. rewrite nth_error_set_nth in Hx.
    destruct (Nat.eqb i eff).
    - rewrite En in Hx. injection Hx as <-. discriminate.
    - eapply Hne; eassumption. }
  assert (Hin : forall x, In x (skipn (Z.to_nat (filled_front r)) data') -> x <> SEof).
  { intros x Hx. apply in_skipn_nth in Hx. destruct Hx as (i & Hi & Hx). apply (Hd i x); [lia | exact Hx]. }
  pose proof (twf_no_eof _ Hin) as T.
  split.
  - unfold ne, set_ooq; cbn [filled_front ooq_data]. split; [lia|].
    intros i x Hi Hx. apply (Hd i x); [lia | exact Hx].
  - intros n0 b0 E. injection E as <- <-. exact T.
Qed.

Lemma skipn_set_nth_head {A} : forall k (l : list A) v old,
  nth_error l k = Some old -> skipn k (set_nth l k v) = v :: skipn (S k) l.
Proof.
  induction k as [|k IH]; intros l v old H; destruct l as [|x xs]; try discriminate.
  - reflexivity.
  - cbn [set_nth skipn]. cbn [nth_error] in H. rewrite (IH xs v old H). reflexivity.
Qed.

(* a FIN in sequence *)
Lemma ooq_add_fin_ne r p r' res :
  ne r -> ooq_add_remove r KFin p 0 = (r', res) -> ne r'.
Proof.
  intros [Hff Hne] H.
  destruct (ooq_add_remove_kind_cases _ _ _ _ _ _ H)
    as [[-> _]|(m & old & En & _ & _ & _ & Hk & Hs')]; [split; assumption|].
  destruct Hk as [[_ ->]|(Hk & _)]; [|discriminate].
  cbv zeta in Hs'. destruct Hs' as [-> _]. rewrite Z.add_0_l in *.
  set (eff := Z.to_nat (filled_front r)) in *.
  assert (Hn : 1 <= twf_n (skipn eff (set_nth (ooq_data r) eff SEof))).
  { rewrite (skipn_set_nth_head _ _ _ _ En). unfold twf_n. rewrite twf_cons. cbn [slot_is_default fst].
    pose proof (twf_n_nonneg (skipn (S eff) (ooq_data r))). lia. }
  unfold ne, set_ooq; cbn [filled_front ooq_data]. split; [lia|].
  intros i x Hi Hx. rewrite nth_error_set_nth in Hx.
  destruct (Nat.eqb_spec i eff) as [->|Hneq]; [unfold eff in *; lia|].
  apply (Hne i x); [lia | exact Hx].
Qed.

(* ---- flush ---- *)
Lemma flush_loop_ne : forall fuel s w fb fp s1 w1 fb1 fp1,
  flush_loop fuel s w fb fp = Some (s1, w1, fb1, fp1) -> ne s -> ne s1.
Proof.
  induction fuel as [|fuel IH]; intros s w fb fp s1 w1 fb1 fp1; cbn [flush_loop].
  - intro H; injection H as <- _ _ _. auto.
  - destruct (Z.eqb_spec (filled_front s) 0) as [Hz|Hnz]; [intro H; injection H as <- _ _ _; auto|].
    destruct (ooq_data s) as [|m rest] eqn:Ed; [discriminate|].
    destruct (w <? _); [intro H; injection H as <- _ _ _; auto|].
    destruct (reader_dropped s); [intro H; injection H as <- _ _ _; auto|].
    destruct (_ <? _); [discriminate|].
    intros H [Hff Hne]. eapply IH; [exact H|].
    unfold ne, pop_front_state; cbn [filled_front ooq_data]. split; [lia|].
    intros i x Hi Hx.
    destruct (Nat.lt_ge_cases i (length rest)) as [Hlt|Hge].
    + rewrite nth_error_app1 in Hx by exact Hlt.
      apply (Hne (S i) x); [lia|]. rewrite Ed. exact Hx.
    + rewrite nth_error_app2 in Hx by exact Hge.
      destruct (i - length rest)%nat as [|j]; cbn [nth_error] in Hx;
        [injection Hx as <-; discriminate | destruct j; discriminate].
Qed.

Lemma rx_flush_ne r r' fr w : rx_flush r = (r', fr, w) -> ne r -> ne r'.
Proof.
  unfold rx_flush. intros H Hn.
  set (s0 := set_wakers r _ (reader_waker r) (last_remaining_rx_window r)) in *.
  assert (H0 : ne s0) by exact Hn.
  destruct (flush_loop _ s0 _ 0 0) as [[[[s1 w1] fb] fp]|] eqn:E.
  - apply (flush_loop_ne _ _ _ _ _ _ _ _ _ E) in H0.
    destruct (0 <? fp); injection H as <- _ _; exact H0.
  - injection H as <- _ _. exact H0.
Qed.

(* ---- UserRx::add_remove ---- *)
Lemma rx_add_data_ne r p off r' ar w :
  ne r -> 0 <= off -> rx_add_remove r KData p off = (r', ar, w) ->
  ne r' /\ (forall n b, ar = UarOk (ArConsumed n b) -> 0 <= n <= b /\ (n = 0 -> b = 0)).
Proof.
  intros Hn Hoff. unfold rx_add_remove.
  destruct (ooq_add_remove r KData p off) as [s1 a] eqn:E.
  destruct (ooq_add_data_ne _ _ _ _ _ Hn Hoff E) as [Hn1 Hc].
  destruct a as [n0 b0| | | | |].
  2-6: intro H; injection H as <- <- _; (split; [exact Hn1 | discriminate]).
  destruct (_ && _).
  - destruct (rx_flush s1) as [[s2 fr] w2] eqn:Ef. pose proof (rx_flush_ne _ _ _ _ Ef Hn1) as Hn2.
    destruct fr; intro H; injection H as <- <- _; (split; [exact Hn2|]); [|discriminate].
    intros n b Eq; injection Eq as <- <-; apply Hc; reflexivity.
  - intro H; injection H as <- <- _. split; [exact Hn1|].
    intros n b Eq; injection Eq as <- <-; apply Hc; reflexivity.
Qed.

Lemma rx_add_fin_ne r p r' ar w : ne r -> rx_add_remove r KFin p 0 = (r', ar, w) -> ne r'.
Proof.
  intros Hn. unfold rx_add_remove.
  destruct (ooq_add_remove r KFin p 0) as [s1 a] eqn:E.
  pose proof (ooq_add_fin_ne _ _ _ _ Hn E) as Hn1.
  destruct a; try (intro H; injection H as <- _ _; exact Hn1).
  destruct (_ && _); [|intro H; injection H as <- _ _; exact Hn1].
  destruct (rx_flush s1) as [[s2 fr] w2] eqn:Ef. pose proof (rx_flush_ne _ _ _ _ Ef Hn1) as Hn2.
  destruct fr; intro H; injection H as <- _ _; exact Hn2.
Qed.

(* ---- the other operations do not touch the reassembly queue ---- *)
Lemma rx_mark_closed_ne r r' w : rx_mark_vsock_closed r = (r', w) -> ne r -> ne r'.
Proof.
  unfold rx_mark_vsock_closed. destruct (vsock_closed r); intro H; injection H as <- _; auto.
Qed.

Lemma rx_enqueue_error_ne r r' w : rx_enqueue_error r = (r', w) -> ne r -> ne r'.
Proof. unfold rx_enqueue_error. intro H; injection H as <- _. auto. Qed.

Lemma rx_drop_reader_ne r r' w : rx_drop_reader r = (r', w) -> ne r -> ne r'.
Proof. unfold rx_drop_reader. intro H; injection H as <- _. auto. Qed.

Lemma read_loop_ooq : forall fuel r room out r' out' d e,
  read_loop fuel r room out = (r', out', d, e) ->
  ooq_data r' = ooq_data r /\ filled_front r' = filled_front r.
Proof.
  induction fuel as [|fuel IH]; intros r0 room out0 r' out' d e; cbn [read_loop].
  - intro H; injection H as <- _ _ _; split; reflexivity.
  - destruct (room <=? 0); [intro H; injection H as <- _ _ _; split; reflexivity|].
    destruct (current r0).
    + destruct (is_eof r0); [intro H; injection H as <- _ _ _; split; reflexivity|].
      destruct (q r0) as [|item qr].
      * destruct (vsock_closed r0); intro H; injection H as <- _ _ _; split; reflexivity.
      * destruct item; [intro H; apply IH in H; exact H|..];
          intro H; injection H as <- _ _ _; split; reflexivity.
    + intro H; apply IH in H. exact H.
Qed.

Lemma rx_read_ne r n r' res w : rx_read r n = (r', res, w) -> ne r -> ne r'.
Proof.
  unfold rx_read. destruct (read_loop _ r n []) as [[[s1 out] dead] err] eqn:E.
  apply read_loop_ooq in E. destruct E as [E1 E2]. intros H Hn.
  assert (H1 : ne s1) by (eapply ne_same; eassumption).
  destruct err; [injection H as <- _ _; exact H1|].
  destruct out; [destruct (is_eof s1); [|destruct dead]|]; injection H as <- _ _; exact H1.
Qed.
