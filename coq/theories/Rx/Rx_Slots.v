(* C01, receiver side (T2): the slot view of the reassembly queue.  Every slot is addressed by
   the ABSOLUTE index of the sequence number it stands for (g_base = slots ever popped from the
   front); `want k` says which payload belongs to absolute index k.  The lemmas state how
   add_remove / flush / read move payloads between slots, the in-order stream and the reader,
   with the appended bytes given explicitly (Rx_Proofs.v only states their number). *)
From Utp Require Import Base.Prelude Rx.Rx Rx.Rx_Proofs.

(* ------------------------------------------------------------------ list helpers *)
Lemma nth_error_set_nth {A} : forall (l : list A) n v i,
  nth_error (set_nth l n v) i =
  if Nat.eqb i n then (match nth_error l n with Some _ => Some v | None => None end) else nth_error l i.
Proof.
  induction l as [|x xs IH]; intros n v i; cbn [set_nth].
  - destruct (Nat.eqb i n); destruct i, n; reflexivity.
  - destruct n as [|n]; destruct i as [|i]; cbn [nth_error Nat.eqb]; try reflexivity. apply IH.
Qed.

Lemma nth_error_skipn {A} : forall m (l : list A) i, nth_error (skipn m l) i = nth_error l (m + i).
Proof.
  induction m as [|m IH]; intros l i; [reflexivity|].
  destruct l as [|x xs]; cbn [skipn plus nth_error]; [destruct i; reflexivity|apply IH].
Qed.

Lemma nth_error_repeat {A} (d : A) : forall m i x, nth_error (repeat d m) i = Some x -> x = d.
Proof.
  induction m as [|m IH]; intros i x; cbn [repeat]; [destruct i; discriminate|].
  destruct i as [|i]; cbn [nth_error]; [intro H; injection H as <-; reflexivity|apply IH].
Qed.

Lemma skipn_app_one_default (d : slot) : forall m (l : list slot) k,
  exists k', skipn m (l ++ [d]) ++ repeat d k = skipn m l ++ repeat d k'.
Proof.
  intros m l k. rewrite skipn_app.
  destruct (Nat.le_gt_cases m (length l)) as [Hle|Hgt].
  - replace (m - length l)%nat with 0%nat by lia. cbn [skipn]. exists (S k).
    rewrite <- app_assoc. reflexivity.
  - rewrite (skipn_all2 l) by lia.
    destruct (m - length l)%nat as [|j] eqn:E; [lia|]. cbn [skipn].
    replace (skipn j (@nil slot)) with (@nil slot) by (destruct j; reflexivity).
    exists k. reflexivity.
Qed.

(* ------------------------------------------------------------------ no error marker in the queue *)
Definition no_qerror (s : rx) : Prop := Forall (fun it => it <> QError) (q s).

Lemma qitem_of_slot_not_error m : qitem_of_slot m <> QError.
Proof. destruct m; discriminate. Qed.

(* ------------------------------------------------------------------ flush: the front moves out *)
Lemma flush_loop_data : forall fuel s w fb fp s' w' fb' fp',
  flush_loop fuel s w fb fp = Some (s', w', fb', fp') ->
  (exists m m' : nat, ooq_data s' = skipn m (ooq_data s) ++ repeat slot_default m' /\
                      g_base s' = g_base s + Z.of_nat m) /\
  (no_qerror s -> no_qerror s').
Proof.
  induction fuel as [|fuel IH]; intros s w fb fp s' w' fb' fp'; cbn [flush_loop].
  { intro H; injection H as <- _ _ _. split; [|auto]. exists 0%nat, 0%nat. cbn [skipn repeat].
    rewrite app_nil_r. split; [reflexivity|lia]. }
  assert (Hsame : Some (s, w, fb, fp) = Some (s', w', fb', fp') ->
    (exists m m' : nat, ooq_data s' = skipn m (ooq_data s) ++ repeat slot_default m' /\
                        g_base s' = g_base s + Z.of_nat m) /\ (no_qerror s -> no_qerror s')).
  { intro H; injection H as <- _ _ _. split; [|auto]. exists 0%nat, 0%nat. cbn [skipn repeat].
    rewrite app_nil_r. split; [reflexivity|lia]. }
  destruct (filled_front s =? 0); [exact Hsame|].
  destruct (ooq_data s) as [|m rest] eqn:Ed; [discriminate|].
  destruct (w <? slot_len_bytes m); [exact Hsame|].
  destruct (reader_dropped s); [exact Hsame|].
  destruct (q_capacity s - q_len_bytes s <? slot_len_bytes m); [discriminate|].
  intro H. destruct (IH _ _ _ _ _ _ _ _ H) as ((m1 & m1' & Hd & Hg) & Hq).
  cbn [pop_front_state ooq_data g_base] in Hd, Hg.
  split.
  - destruct (skipn_app_one_default slot_default m1 rest m1') as (k' & Hk).
    exists (S m1), k'. cbn [skipn]. rewrite Hd. split; [exact Hk|lia].
  - intro Hn. apply Hq. unfold no_qerror in *. cbn [pop_front_state q].
    apply Forall_app. split; [exact Hn|]. constructor; [apply qitem_of_slot_not_error|constructor].
Qed.

Lemma rx_flush_data s s' r w :
  rx_flush s = (s', r, w) ->
  (exists m m' : nat, ooq_data s' = skipn m (ooq_data s) ++ repeat slot_default m' /\
                      g_base s' = g_base s + Z.of_nat m) /\
  (no_qerror s -> no_qerror s').
Proof.
  unfold rx_flush.
  set (s0 := set_wakers s _ _ _).
  assert (H0 : ooq_data s0 = ooq_data s /\ g_base s0 = g_base s /\ q s0 = q s) by (unfold s0; cbn; auto).
  destruct H0 as (D0 & G0 & Q0).
  destruct (flush_loop _ s0 _ 0 0) as [[[[s1 w1] fb] fp]|] eqn:E.
  - destruct (flush_loop_data _ _ _ _ _ _ _ _ _ E) as ((m & m' & Hd & Hg) & Hq).
    assert (Hres : ooq_data s' = ooq_data s1 /\ g_base s' = g_base s1 /\ q s' = q s1 ->
       (exists m m' : nat, ooq_data s' = skipn m (ooq_data s) ++ repeat slot_default m' /\
                      g_base s' = g_base s + Z.of_nat m) /\ (no_qerror s -> no_qerror s')).
    { intros (A & B & C). split.
      - exists m, m'. rewrite A, B, Hd, Hg, D0, G0. auto.
      - unfold no_qerror in *. rewrite C. rewrite Q0 in Hq. exact Hq. }
    destruct (0 <? fp); intro H; injection H as <- _ _; apply Hres; cbn; auto.
  - intro H; injection H as <- _ _. split.
    + exists 0%nat, 0%nat. cbn [skipn repeat]. rewrite app_nil_r, D0, G0. split; [reflexivity|lia].
    + unfold no_qerror. rewrite Q0. auto.
Qed.

(* ------------------------------------------------------------------ add_remove: one slot is filled *)
(* what an accepted ST_DATA payload does to the queue, with the appended in-order bytes explicit *)
Lemma ooq_add_data s p off s' r :
  rx_inv s -> 0 <= off -> ooq_add_remove s KData p off = (s', r) ->
  match r with
  | ArConsumed n b =>
      let e := Z.to_nat (off + filled_front s) in
      let ffn := Z.to_nat (filled_front s) in
      (e < length (ooq_data s))%nat /\
      slot_is_default (nth e (ooq_data s) slot_default) = true /\ p <> [] /\
      ooq_data s' = set_nth (ooq_data s) e (SPayload p) /\
      g_base s' = g_base s /\ q s' = q s /\ g_read s' = g_read s /\
      filled_front s' = filled_front s + n /\ 0 <= n /\
      n = twf_n (skipn ffn (ooq_data s')) /\
      stream s' = stream s ++ slots_bytes (firstn (Z.to_nat n) (skipn ffn (ooq_data s')))
  | _ => s' = s
  end.
Proof.
  intros Hinv Hoff H.
  destruct (ooq_add_remove_kind_cases _ _ _ _ _ _ H)
    as [[-> Hr]|(m & old & Hnth & Hod & _ & _ & Hk & Hs')].
  { destruct r; [contradiction|reflexivity..]. }
  destruct Hk as [[Hk _]|(_ & -> & Hp)]; [discriminate|].
  cbv zeta in Hs'. destruct Hs' as [-> ->].
  pose proof (inv_ff_bounds s Hinv) as Hb.
  pose proof (twf_n_nonneg (skipn (Z.to_nat (filled_front s))
    (set_nth (ooq_data s) (Z.to_nat (off + filled_front s)) (SPayload p)))) as Hn0.
  cbn [set_ooq ooq_data g_base q g_read filled_front].
  split; [apply nth_error_Some; rewrite Hnth; discriminate|].
  split; [rewrite (nth_error_nth _ _ slot_default Hnth); exact Hod|].
  split; [exact Hp|]. split; [reflexivity|]. split; [reflexivity|]. split; [reflexivity|].
  split; [reflexivity|]. split; [reflexivity|]. split; [lia|]. split; [reflexivity|].
  apply stream_advance; [exact Hinv|lia|apply set_nth_length|apply set_nth_firstn; lia].
Qed.

(* ------------------------------------------------------------------ the slot view *)
Section Slots.
Variable want : Z -> option (list Z).

Definition slots_ok (k : Z) (data : list slot) : Prop :=
  forall (i : nat) sl, nth_error data i = Some sl -> slot_is_default sl = false ->
    exists bs, want (k + Z.of_nat i) = Some bs /\ sl = SPayload bs.

Lemma slots_ok_set_nth k data e bs :
  slots_ok k data -> want (k + Z.of_nat e) = Some bs ->
  slots_ok k (set_nth data e (SPayload bs)).
Proof.
  intros Hok Hw i sl. rewrite nth_error_set_nth.
  destruct (Nat.eqb_spec i e) as [->|Hne].
  - destruct (nth_error data e); [|discriminate]. intro H; injection H as <-. intros _.
    exists bs. auto.
  - apply Hok.
Qed.

Lemma slots_ok_shift k data (m m' : nat) :
  slots_ok k data -> slots_ok (k + Z.of_nat m) (skipn m data ++ repeat slot_default m').
Proof.
  intros Hok i sl Hn Hd.
  destruct (Nat.lt_ge_cases i (length (skipn m data))) as [Hlt|Hge].
  - rewrite nth_error_app1 in Hn by exact Hlt. rewrite nth_error_skipn in Hn.
    destruct (Hok _ _ Hn Hd) as (bs & Hw & ->). exists bs. split; [|reflexivity].
    rewrite <- Hw. f_equal. lia.
  - rewrite nth_error_app2 in Hn by exact Hge. apply nth_error_repeat in Hn. subst sl. discriminate.
Qed.

(* consecutive wanted payloads *)
Fixpoint want_cat (k : Z) (n : nat) : list Z :=
  match n with
  | O => []
  | S n' => match want k with Some bs => bs | None => [] end ++ want_cat (k + 1) n'
  end.

Lemma slots_ok_tail k x xs : slots_ok k (x :: xs) -> slots_ok (k + 1) xs.
Proof.
  intros Hok i sl Hn Hd. destruct (Hok (S i) sl Hn Hd) as (bs & Hw & ->). exists bs. split; [|reflexivity].
  rewrite <- Hw. f_equal. lia.
Qed.

(* a run of non-default slots holds exactly the wanted payloads, in order *)
Lemma slots_bytes_want : forall l k,
  slots_ok k l -> (forall sl, In sl l -> slot_is_default sl = false) ->
  slots_bytes l = want_cat k (length l).
Proof.
  induction l as [|x xs IH]; intros k Hok Hnd; [reflexivity|].
  cbn [length want_cat].
  destruct (Hok 0%nat x eq_refl (Hnd x (or_introl eq_refl))) as (bs & Hw & ->).
  rewrite Z.add_0_r in Hw. rewrite Hw. cbn [slots_bytes]. f_equal.
  apply IH; [eapply slots_ok_tail; exact Hok|]. intros sl Hin. apply Hnd. right. exact Hin.
Qed.
End Slots.

Lemma slots_ok_want_ext (want want' : Z -> option (list Z)) k data :
  slots_ok want k data ->
  (forall (i : nat) sl bs, nth_error data i = Some sl -> slot_is_default sl = false ->
      want (k + Z.of_nat i) = Some bs -> want' (k + Z.of_nat i) = Some bs) ->
  slots_ok want' k data.
Proof.
  intros Hok Hext i sl Hn Hd. destruct (Hok i sl Hn Hd) as (bs & Hw & ->).
  exists bs. split; [|reflexivity]. eapply Hext; eauto.
Qed.

Lemma nth_error_firstn_lt {A} : forall n (l : list A) i, (i < n)%nat ->
  nth_error (firstn n l) i = nth_error l i.
Proof.
  induction n as [|n IH]; intros l i H; [lia|].
  destruct l as [|x xs]; [destruct i; reflexivity|].
  destruct i as [|i]; cbn [firstn nth_error]; [reflexivity|apply IH; lia].
Qed.

(* the first twf_n slots of a list are non-default *)
Lemma firstn_twf_nondefault l sl :
  In sl (firstn (Z.to_nat (twf_n l)) l) -> slot_is_default sl = false.
Proof.
  intro Hin. apply In_nth_error in Hin. destruct Hin as (i & Hi).
  assert (Hlt : (i < length (firstn (Z.to_nat (twf_n l)) l))%nat) by (apply nth_error_Some; rewrite Hi; discriminate).
  rewrite firstn_length in Hlt.
  rewrite nth_error_firstn_lt in Hi by lia.
  rewrite <- (nth_error_nth _ _ slot_default Hi). apply front_filled. lia.
Qed.

(* ------------------------------------------------------------------ reads never skip *)
Lemma read_loop_no_error : forall fuel s room out s' out' dead err,
  no_qerror s -> read_loop fuel s room out = (s', out', dead, err) -> err = false /\ no_qerror s'.
Proof.
  induction fuel as [|fuel IH]; intros s room out s' out' dead err Hn; cbn [read_loop].
  { intro H; injection H as <- _ _ <-. auto. }
  destruct (room <=? 0); [intro H; injection H as <- _ _ <-; auto|].
  destruct (current s) as [|c cs] eqn:Ec.
  - destruct (is_eof s); [intro H; injection H as <- _ _ <-; auto|].
    destruct (q s) as [|item qrest] eqn:Eq.
    + destruct (vsock_closed s); intro H; injection H as <- _ _ <-; (split; [reflexivity|]);
        unfold no_qerror in *; cbn; rewrite ?Eq; auto.
    + unfold no_qerror in Hn. rewrite Eq in Hn. inversion Hn as [|? ? Hi Hrest]; subst.
      destruct item; [| |congruence].
      * intro H. eapply IH; [|exact H]. unfold no_qerror; cbn. exact Hrest.
      * intro H; injection H as <- _ _ <-. split; [reflexivity|]. unfold no_qerror; cbn. exact Hrest.
  - intro H. eapply IH; [|exact H]. unfold no_qerror in *; cbn. exact Hn.
Qed.

Lemma rx_read_no_error s n s' r w :
  rx_inv s -> no_qerror s -> rx_read s n = (s', r, w) ->
  rx_inv s' /\ no_qerror s' /\ stream s' = stream s /\ consumed s' = consumed s /\
  ooq_data s' = ooq_data s /\ g_base s' = g_base s /\ filled_front s' = filled_front s /\
  exists bytes, g_read s' = g_read s ++ bytes.
Proof.
  intros Hinv Hn H.
  destruct (rx_read_spec _ _ _ _ _ Hinv H) as (Hinv' & Hc & Hr & _).
  unfold rx_read in H.
  destruct (read_loop _ s n []) as [[[s1 out] dead] err] eqn:E.
  destruct (read_loop_no_error _ _ _ _ _ _ _ _ Hn E) as [-> Hn1].
  assert (Hq : q_inv s) by (destruct Hinv as (_ & _ & _ & _ & _ & Hq & _); exact Hq).
  destruct (read_loop_spec _ _ _ _ _ _ _ _ Hq E) as (_ & _ & Hso & _ & _).
  destruct Hso as (S1 & S2 & _ & _ & _ & S6 & _).
  assert (Hfields : ooq_data s' = ooq_data s1 /\ g_base s' = g_base s1 /\ filled_front s' = filled_front s1 /\
                    q s' = q s1).
  { destruct out; [destruct (is_eof s1); [|destruct dead]|]; injection H as <- _ _; cbn; auto. }
  destruct Hfields as (F1 & F2 & F3 & F4).
  split; [exact Hinv'|]. split; [unfold no_qerror in *; rewrite F4; exact Hn1|].
  assert (Hstr : stream s' = stream s /\ exists bytes, g_read s' = g_read s ++ bytes).
  { destruct r; try (destruct Hr as (A & B); split; [exact A|exists []; rewrite app_nil_r; exact B]).
    - destruct Hr as (A & B & _). split; [exact A|eauto].
    - exfalso. destruct out; [destruct (is_eof s1); [|destruct dead]|]; discriminate. }
  destruct Hstr as [Hs Hg].
  split; [exact Hs|]. split; [exact Hc|]. split; [congruence|]. split; [congruence|]. split; [congruence|exact Hg].
Qed.
