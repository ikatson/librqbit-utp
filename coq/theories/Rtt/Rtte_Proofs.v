From Utp Require Import Base.Prelude Rtt.Rtte.

Definition rto_in_bounds (s : rtt_state) : Prop :=
  RTTE_MIN_RTO <= retransmission_timeout s <= RTTE_MAX_RTO.

Lemma clamp_bounds x : RTTE_MIN_RTO <= clamp x <= RTTE_MAX_RTO.
Proof. unfold clamp, RTTE_MIN_RTO, RTTE_MAX_RTO, MS, NS_PER_SEC. lia. Qed.

Lemma calc_rto_some srtt rttvar r :
  calc_rto srtt rttvar = Some r ->
  r = clamp (srtt + Z.max (rttvar * K) CLOCK_GRANULARITY).
Proof.
  unfold calc_rto, dur_mul, dur_add, bind.
  destruct (rttvar * K <=? DUR_MAX); [|discriminate].
  destruct (_ <=? DUR_MAX); [|discriminate].
  intro H; injection H as <-. reflexivity.
Qed.

Lemma default_in_bounds : rto_in_bounds rtte_default.
Proof. unfold rto_in_bounds; vm_compute; split; discriminate. Qed.

Lemma sample_in_bounds s r s' : sample s r = Some s' -> rto_in_bounds s'.
Proof.
  unfold sample, bind. destruct s as [rto|rto srtt rttvar].
  - destruct (calc_rto r (dur_div r 2)) eqn:E; [|discriminate].
    intro H; injection H as <-. apply calc_rto_some in E. subst.
    unfold rto_in_bounds; cbn [retransmission_timeout]. apply clamp_bounds.
  - destruct (dur_mul rttvar 3); [|discriminate].
    destruct (dur_add _ _) as [rv|]; [|discriminate].
    destruct (dur_mul srtt 7); [|discriminate].
    destruct (dur_add _ r) as [c|]; [|discriminate].
    destruct (calc_rto _ _) eqn:E; [|discriminate].
    intro H; injection H as <-. apply calc_rto_some in E. subst.
    unfold rto_in_bounds; cbn [retransmission_timeout]. apply clamp_bounds.
Qed.

(* a timeout that does not overflow doubles the rto (clamped) and touches nothing else *)
Lemma timeout_some s s' : on_rto_timeout s = Some s' ->
  s' = match s with
       | Initial rto => Initial (clamp (rto * 2))
       | Subsequent rto srtt rttvar => Subsequent (clamp (rto * 2)) srtt rttvar
       end.
Proof.
  unfold on_rto_timeout, dur_mul. destruct s as [rto|rto srtt rttvar];
  destruct (rto * 2 <=? DUR_MAX); try discriminate; intro H; injection H as <-; reflexivity.
Qed.

Lemma timeout_in_bounds s s' : on_rto_timeout s = Some s' -> rto_in_bounds s'.
Proof. intro H. apply timeout_some in H. subst s'. destruct s; apply clamp_bounds. Qed.

Lemma step_in_bounds s o s' : rtte_step s o = Some s' -> rto_in_bounds s'.
Proof. destruct o; cbn [rtte_step]; [apply sample_in_bounds | apply timeout_in_bounds]. Qed.

Lemma run_in_bounds : forall ops s s',
  rto_in_bounds s -> rtte_run s ops = Some s' -> rto_in_bounds s'.
Proof.
  induction ops as [|o ops IH]; cbn [rtte_run]; intros s s' Hs H.
  - injection H as <-. exact Hs.
  - unfold bind in H. destruct (rtte_step s o) eqn:E; [|discriminate].
    eapply IH; [eapply step_in_bounds; exact E | exact H].
Qed.

Lemma rto_bounds : forall ops s',
  rtte_run rtte_default ops = Some s' ->
  200 * MS <= retransmission_timeout s' <= 60 * NS_PER_SEC.
Proof. intros ops s' H. exact (run_in_bounds ops _ _ default_in_bounds H). Qed.

(* Every prefix too: the trace never shows an rto outside the bounds. *)
Lemma trace_in_bounds : forall ops s rto rtt,
  In (Some (rto, rtt)) (rtte_trace s ops) -> RTTE_MIN_RTO <= rto <= RTTE_MAX_RTO.
Proof.
  induction ops as [|o ops IH]; cbn [rtte_trace]; intros s rto rtt HIn; [contradiction|].
  destruct (rtte_step s o) eqn:E.
  - destruct HIn as [H|H].
    + injection H as <- <-. exact (step_in_bounds _ _ _ E).
    + eapply IH; exact H.
  - destruct HIn as [H|[]]. discriminate.
Qed.

(* rto after a sample = clamp(srtt + max(4 rttvar, granularity)), with the RFC 6298 updates *)
Lemma rto_after_sample_initial rto0 r s' :
  sample (Initial rto0) r = Some s' ->
  s' = Subsequent (clamp (r + Z.max (4 * (r / 2)) (10 * MS))) r (r / 2).
Proof.
  unfold sample, bind. destruct (calc_rto r (dur_div r 2)) eqn:E; [|discriminate].
  intro H; injection H as <-. apply calc_rto_some in E. subst.
  unfold dur_div, K, CLOCK_GRANULARITY. f_equal. f_equal. lia.
Qed.

Lemma duration_abs_diff_abs a b : duration_abs_diff a b = Z.abs (a - b).
Proof. unfold duration_abs_diff. destruct (Z.leb_spec b a); lia. Qed.

Lemma rto_after_sample_subsequent rto0 srtt rttvar r s' :
  sample (Subsequent rto0 srtt rttvar) r = Some s' ->
  let rttvar' := rttvar * 3 / 4 + Z.abs (srtt - r) / 4 in
  let srtt' := (srtt * 7 + r) / 8 in
  s' = Subsequent (clamp (srtt' + Z.max (4 * rttvar') (10 * MS))) srtt' rttvar'.
Proof.
  unfold sample, bind, dur_mul, dur_add, dur_div.
  destruct (rttvar * 3 <=? DUR_MAX); [|discriminate].
  destruct (_ <=? DUR_MAX); [|discriminate].
  destruct (srtt * 7 <=? DUR_MAX); [|discriminate].
  destruct (srtt * 7 + r <=? DUR_MAX); [|discriminate].
  destruct (calc_rto _ _) eqn:E; [|discriminate].
  intro H; injection H as <-. apply calc_rto_some in E. subst. cbv zeta.
  rewrite duration_abs_diff_abs. unfold K, CLOCK_GRANULARITY. f_equal. f_equal. lia.
Qed.

Lemma rto_after_sample s r s' :
  sample s r = Some s' ->
  exists srtt' rttvar',
    s' = Subsequent (clamp (srtt' + Z.max (4 * rttvar') (10 * MS))) srtt' rttvar'.
Proof.
  destruct s as [rto0|rto0 srtt rttvar]; intro H.
  - apply rto_after_sample_initial in H. eauto.
  - apply rto_after_sample_subsequent in H. eauto.
Qed.

Lemma timeout_doubles s s' :
  rto_in_bounds s -> on_rto_timeout s = Some s' ->
  retransmission_timeout s' = Z.min (2 * retransmission_timeout s) (60 * NS_PER_SEC)
  /\ roundtrip_time s' = roundtrip_time s \/
  (* Initial state: roundtrip_time is the rto itself, see model *)
  (exists rto, s = Initial rto /\
     retransmission_timeout s' = Z.min (2 * rto) (60 * NS_PER_SEC)).
Proof.
  intros Hb H. apply timeout_some in H. subst s'.
  destruct s as [rto|rto srtt rttvar]; [right; exists rto; split; [reflexivity|] | left; split; [|reflexivity]];
    unfold rto_in_bounds, clamp, RTTE_MIN_RTO, RTTE_MAX_RTO, MS, NS_PER_SEC in *;
    cbn [retransmission_timeout] in *; lia.
Qed.

Lemma timeout_doubles_rto s s' :
  rto_in_bounds s -> on_rto_timeout s = Some s' ->
  retransmission_timeout s' = Z.min (2 * retransmission_timeout s) (60 * NS_PER_SEC).
Proof.
  intros Hb H. destruct (timeout_doubles s s' Hb H) as [[H1 _]|[rto [-> H1]]]; exact H1.
Qed.

(* A timeout never panics on a state within bounds. *)
Lemma timeout_total s : rto_in_bounds s -> on_rto_timeout s <> None.
Proof.
  unfold rto_in_bounds, on_rto_timeout, bind, dur_mul.
  destruct s as [rto|rto srtt rttvar]; cbn [retransmission_timeout]; intros Hb;
  destruct (Z.leb_spec (rto * 2) DUR_MAX) as [Hle|Hgt]; try discriminate;
  unfold DUR_MAX, RTTE_MIN_RTO, RTTE_MAX_RTO, MS, NS_PER_SEC, M64 in *; lia.
Qed.

(* The estimator core (None before the first sample) *)
Definition core (s : rtt_state) : option (Z * Z) :=
  match s with Initial _ => None | Subsequent _ srtt rttvar => Some (srtt, rttvar) end.

Lemma timeout_preserves_core s s' : on_rto_timeout s = Some s' -> core s' = core s.
Proof. intro H. apply timeout_some in H. subst s'. destruct s; reflexivity. Qed.

Lemma sample_depends_on_core s1 s2 r : core s1 = core s2 -> sample s1 r = sample s2 r.
Proof.
  destruct s1 as [a|a b c], s2 as [a'|a' b' c']; cbn [core]; intro H; try discriminate.
  - reflexivity.
  - injection H as -> ->. reflexivity.
Qed.

Fixpoint timeouts (n : nat) (s : rtt_state) : option rtt_state :=
  match n with O => Some s | S n' => do s' <- on_rto_timeout s; timeouts n' s' end.

Lemma timeouts_preserve_core : forall n s s', timeouts n s = Some s' -> core s' = core s.
Proof.
  induction n as [|n IH]; cbn [timeouts]; intros s s' H.
  - injection H as <-. reflexivity.
  - unfold bind in H. destruct (on_rto_timeout s) eqn:E; [|discriminate].
    rewrite (IH _ _ H). eapply timeout_preserves_core; exact E.
Qed.

(* The value after a sample does not depend on any number of earlier timeouts. *)
Lemma sample_resets n s s' r : timeouts n s = Some s' -> sample s' r = sample s r.
Proof. intro H. apply sample_depends_on_core. eapply timeouts_preserve_core; exact H. Qed.

(* srtt between smallest and largest sample *)
Definition srtt_between (lo hi : Z) (s : rtt_state) : Prop :=
  match s with Initial _ => True | Subsequent _ srtt _ => lo <= srtt <= hi end.

Definition op_sample_in (lo hi : Z) (o : rtte_op) : Prop :=
  match o with OpSample r => lo <= r <= hi | OpTimeout => True end.

Lemma step_srtt_between lo hi s o s' :
  srtt_between lo hi s -> op_sample_in lo hi o -> rtte_step s o = Some s' -> srtt_between lo hi s'.
Proof.
  destruct o as [r|]; cbn [rtte_step op_sample_in]; intros Hs Hr H.
  - destruct s as [rto0|rto0 srtt rttvar].
    + apply rto_after_sample_initial in H. subst. cbn [srtt_between]. exact Hr.
    + apply rto_after_sample_subsequent in H. subst. cbn [srtt_between] in *. lia.
  - apply timeout_some in H. subst s'. destruct s; exact Hs.
Qed.

Lemma run_srtt_between lo hi : forall ops s s',
  srtt_between lo hi s -> Forall (op_sample_in lo hi) ops ->
  rtte_run s ops = Some s' -> srtt_between lo hi s'.
Proof.
  induction ops as [|o ops IH]; cbn [rtte_run]; intros s s' Hs Hf H.
  - injection H as <-. exact Hs.
  - unfold bind in H. destruct (rtte_step s o) eqn:E; [|discriminate].
    inversion Hf as [|? ? Ho Hrest]; subst.
    eapply IH; [eapply step_srtt_between; eauto | exact Hrest | exact H].
Qed.

Lemma srtt_between_samples lo hi ops s' :
  Forall (op_sample_in lo hi) ops -> rtte_run rtte_default ops = Some s' ->
  srtt_between lo hi s'.
Proof. intros Hf H. eapply run_srtt_between; eauto. exact I. Qed.

(* No checked Duration operation fails for samples up to 2^60 seconds. *)
Definition no_ovf_inv (s : rtt_state) : Prop :=
  rto_in_bounds s /\
  match s with
  | Initial _ => True
  | Subsequent _ srtt rttvar => 0 <= srtt <= SAMPLE_BOUND /\ 0 <= rttvar <= SAMPLE_BOUND
  end.

(* every Duration the estimator computes from such samples is at most 8 SAMPLE_BOUND < Duration::MAX *)
Lemma leb_dur_max x : x <= 8 * SAMPLE_BOUND -> (x <=? DUR_MAX) = true.
Proof. unfold SAMPLE_BOUND, DUR_MAX, M64, NS_PER_SEC. lia. Qed.

Lemma sample_no_overflow s r :
  no_ovf_inv s -> 0 <= r <= SAMPLE_BOUND -> exists s', sample s r = Some s' /\ no_ovf_inv s'.
Proof.
  intros [_ Hs] Hr.
  assert (Hg : 10 * MS <= SAMPLE_BOUND) by (unfold MS, SAMPLE_BOUND, NS_PER_SEC; lia).
  unfold sample, calc_rto, dur_mul, dur_add, dur_div, K, CLOCK_GRANULARITY.
  destruct s as [rto0|rto0 srtt rttvar]; [|rewrite duration_abs_diff_abs];
    repeat (rewrite leb_dur_max by lia; cbn [bind]);
    (eexists; split; [reflexivity|]); (split; [apply clamp_bounds|lia]).
Qed.

Lemma timeout_no_overflow s :
  no_ovf_inv s -> exists s', on_rto_timeout s = Some s' /\ no_ovf_inv s'.
Proof.
  intros [Hb Hs]. destruct (on_rto_timeout s) as [s'|] eqn:E.
  - exists s'. split; [reflexivity|]. split; [eapply timeout_in_bounds; exact E|].
    apply timeout_some in E. subst s'. destruct s; exact Hs.
  - exfalso. exact (timeout_total s Hb E).
Qed.

Lemma run_no_overflow : forall ops s,
  no_ovf_inv s -> Forall (op_sample_in 0 SAMPLE_BOUND) ops ->
  exists s', rtte_run s ops = Some s' /\ no_ovf_inv s'.
Proof.
  induction ops as [|o ops IH]; cbn [rtte_run]; intros s Hs Hf.
  - eauto.
  - inversion Hf as [|? ? Ho Hrest]; subst.
    assert (Hstep : exists s1, rtte_step s o = Some s1 /\ no_ovf_inv s1).
    { destruct o as [r|]; cbn [rtte_step op_sample_in] in *.
      - apply sample_no_overflow; assumption.
      - apply timeout_no_overflow; assumption. }
    destruct Hstep as [s1 [E H1]]. rewrite E. cbn [bind]. apply IH; assumption.
Qed.

Lemma no_overflow ops :
  Forall (op_sample_in 0 SAMPLE_BOUND) ops -> rtte_run rtte_default ops <> None.
Proof.
  intro Hf. destruct (run_no_overflow ops rtte_default) as [s' [E _]].
  - split; [exact default_in_bounds | exact I].
  - exact Hf.
  - rewrite E. discriminate.
Qed.

(* Non-vacuity: a concrete run through samples and timeouts. *)
Example rtte_example :
  rtte_trace rtte_default [OpSample (100 * MS); OpTimeout; OpTimeout; OpSample (50 * MS)]
  = [Some (300000000, 100000000); Some (600000000, 100000000);
     Some (1200000000, 100000000); Some (293750000, 93750000)].
Proof. vm_compute. reflexivity. Qed.

(* ---- the boolean predicate c16_ok holds of every model trace ---- *)
Definition acc_rel (a : c16_acc) (s : rtt_state) : Prop :=
  acc_prev_rto a = retransmission_timeout s /\ rto_in_bounds s /\
  match s with
  | Initial _ => acc_seen a = false
  | Subsequent _ srtt _ => acc_seen a = true /\ acc_lo a <= srtt <= acc_hi a
  end /\
  (acc_big a = false -> no_ovf_inv s).

Lemma clamp_mono x y : x <= y -> clamp x <= clamp y.
Proof. unfold clamp. lia. Qed.

Lemma in_rto_bounds_true s : rto_in_bounds s -> in_rto_bounds (retransmission_timeout s) = true.
Proof. unfold rto_in_bounds, in_rto_bounds. lia. Qed.

Lemma obs_ok_model : forall ops a s,
  acc_rel a s -> c16_obs_ok a ops (rtte_trace s ops) = true.
Proof.
  induction ops as [|o ops IH]; intros a s (Hprev & Hb & Hseen & Hbig); [reflexivity|].
  cbn [rtte_trace]. destruct (rtte_step s o) as [s'|] eqn:E.
  - cbn [c16_obs_ok]. destruct o as [r|]; cbn [rtte_step] in E.
    + (* sample *)
      pose proof (sample_in_bounds _ _ _ E) as Hb'.
      rewrite (in_rto_bounds_true _ Hb'). cbn [andb].
      assert (Hs : srtt_between (if acc_seen a then Z.min (acc_lo a) r else r)
                                (if acc_seen a then Z.max (acc_hi a) r else r) s').
      { apply (step_srtt_between _ _ s (OpSample r)); [|cbn [op_sample_in]|exact E].
        - destruct s; [exact I|]. destruct Hseen as [-> ?]. cbn [srtt_between]. lia.
        - destruct (acc_seen a); lia. }
      destruct (rto_after_sample _ _ _ E) as (srtt' & rttvar' & Hs'). subst s'.
      cbn [srtt_between roundtrip_time retransmission_timeout] in *.
      replace (_ <=? srtt') with true by lia.
      replace (srtt' <=? _) with true by lia.
      replace (clamp _ <=? _) with true
        by (symmetry; apply Z.leb_le, clamp_mono; unfold CLOCK_GRANULARITY; lia).
      cbn [andb]. apply IH.
      unfold acc_rel; cbn [acc_lo acc_hi acc_seen acc_prev_rto acc_big].
      split; [reflexivity|]. split; [exact Hb'|]. split; [split; [reflexivity|exact Hs]|].
      intro Hnb. apply orb_false_iff in Hnb. destruct Hnb as [Hnb1 Hnb2].
      apply negb_false_iff in Hnb2.
      destruct (sample_no_overflow s r (Hbig Hnb1)) as [s2 [E2 Hinv2]]; [lia|].
      rewrite E in E2. injection E2 as <-. exact Hinv2.
    + (* timeout *)
      pose proof (timeout_in_bounds _ _ E) as Hb'.
      rewrite (in_rto_bounds_true _ Hb'). cbn [andb].
      pose proof (timeout_doubles_rto _ _ Hb E) as Hd.
      rewrite Hprev.
      replace (retransmission_timeout s' =? _) with true
        by (unfold RTTE_MAX_RTO; lia). cbn [andb].
      apply timeout_some in E. subst s'. destruct s as [rto0|rto0 srtt rttvar].
      * rewrite Hseen. cbn [roundtrip_time retransmission_timeout].
        rewrite Z.eqb_refl. cbn [andb].
        apply IH. split; [reflexivity|]. split; [exact Hb'|]. split; [reflexivity|].
        cbn [acc_big]. intro Hnb. split; [exact Hb'|exact I].
      * destruct Hseen as [Hseen Hrange]. rewrite Hseen.
        cbn [roundtrip_time retransmission_timeout].
        replace (acc_lo a <=? srtt) with true by lia.
        replace (srtt <=? acc_hi a) with true by lia. cbn [andb].
        apply IH. split; [reflexivity|]. split; [exact Hb'|]. split; [split; [reflexivity|exact Hrange]|].
        cbn [acc_big]. intro Hnb. destruct (Hbig Hnb) as [_ Hinv]. split; [exact Hb'|exact Hinv].
  - (* panic *)
    cbn [c16_obs_ok]. destruct o as [r|]; cbn [rtte_step] in E.
    + destruct (acc_big a) eqn:Eb; [reflexivity|]. cbn [orb].
      destruct ((0 <=? r) && (r <=? SAMPLE_BOUND)) eqn:Er; [|reflexivity].
      exfalso. destruct (sample_no_overflow s r (Hbig eq_refl)) as [s2 [E2 _]]; [lia|].
      rewrite E in E2. discriminate.
    + exfalso. exact (timeout_total s Hb E).
Qed.

Lemma model_trace_ok : forall ops, c16_ok ops (rtte_trace rtte_default ops) = true.
Proof.
  intro ops. apply obs_ok_model.
  split; [reflexivity|]. split; [exact default_in_bounds|]. split; [reflexivity|].
  intros _. split; [exact default_in_bounds|exact I].
Qed.

(* the exact sample clause holds of every model trace *)
Definition var_rel (v : option (Z * Z)) (s : rtt_state) : Prop :=
  match s with
  | Initial _ => v = None
  | Subsequent _ srtt rttvar => v = Some (srtt, rttvar)
  end.

Lemma exact_obs_model : forall ops v s, var_rel v s -> c16_exact_obs v ops (rtte_trace s ops) = true.
Proof.
  induction ops as [|o ops IH]; intros v s Hv; [reflexivity|].
  cbn [rtte_trace]. destruct (rtte_step s o) as [s'|] eqn:E; [|reflexivity].
  cbn [c16_exact_obs]. destruct o as [r|]; cbn [rtte_step] in E.
  - destruct s as [rto0|rto0 srtt rttvar]; cbn [var_rel] in Hv; subst v.
    + apply rto_after_sample_initial in E. subst s'. cbn [roundtrip_time retransmission_timeout].
      rewrite Z.eqb_refl. unfold CLOCK_GRANULARITY, MS. rewrite Z.eqb_refl. cbn [andb].
      apply IH. reflexivity.
    + apply rto_after_sample_subsequent in E. cbv zeta in E. subst s'.
      cbn [roundtrip_time retransmission_timeout].
      rewrite Z.eqb_refl. unfold CLOCK_GRANULARITY, MS. rewrite Z.eqb_refl. cbn [andb].
      apply IH. reflexivity.
  - apply timeout_some in E. subst s'.
    destruct s as [rto0|rto0 srtt rttvar]; cbn [var_rel] in Hv; subst v.
    + cbn [andb]. apply IH. reflexivity.
    + cbn [roundtrip_time]. rewrite Z.eqb_refl. cbn [andb]. apply IH. reflexivity.
Qed.

Lemma model_trace_exact_ok : forall ops, c16_exact_ok ops (rtte_trace rtte_default ops) = true.
Proof. intro ops. apply exact_obs_model. reflexivity. Qed.
