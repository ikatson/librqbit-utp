(* C01 lift, the walk through VirtualSocket::poll, part 4: death, poll_body, the restart loop, poll.
   Result (poll_ev): the data view after a poll is the data view before it (with no datagram
   emitted yet) transformed by a list of data events; deliveries come from the inbox; an error event
   only when the poll returned Ready; bytes stay pending (acknowledged, not yet truncated) only when
   the connection died inside the receive loop, and then its ring is marked closed. *)
From Utp Require Import Base.Prelude Wire.SeqNr Wire.Header Rtt.Rtte Mtu.SegSizes Rx.Rx Tx.Ring
  Tx.Segments Tx.Segments_Proofs Conn.Recovery Conn.Msg Conn.VSockRec Conn.VSock Conn.VSockRun Conn.VSock_Inv
  Conn.VSock_Lemmas Conn.VSock_LemmasStep Conn.C17_StepLemmas Rx.Rx_Slots Pair.DP Pair.DP_Lemmas
  Pair.Pair_Refine Pair.Pair_RefineWalk Pair.Pair_RefineWalkTx Pair.Pair_RefineWalkIn.

Arguments SOk {CC A}. Arguments SErr {CC A}. Arguments SPanic {CC A}.
Arguments BrReturn {CC}. Arguments BrRestart {CC}. Arguments BrPanic {CC}.

Definition is_pending (r : poll_result) : bool := match r with PollPending => true | _ => false end.

Section WalkPoll.
Context {CC : Type} (cci : cc_iface CC).
Notation vsock := (vsock CC).
Notation step := (@step CC).

Lemma devs_any_err ib e p (s : vsock) p' s' : devs ib false p s p' s' -> devs ib e p s p' s'.
Proof. apply devs_mono; [apply incl_refl|discriminate]. Qed.

(* ------------------------------------------------------------------ death *)
Lemma mark_both_closed_ev ib err p (s : vsock) :
  devs ib err p s p (mark_both_closed s) /\ t_vsock_closed (v_tx (mark_both_closed s)) = true /\
  v_state (mark_both_closed s) = v_state s.
Proof.
  unfold mark_both_closed.
  destruct (rx_mark_vsock_closed (v_rx s)) as [rx1 w1] eqn:Er.
  destruct (mark_vsock_closed (v_tx s)) as [tx1 w2] eqn:Et.
  split; [|split; [|unfold add_wakes; vsimpl; reflexivity]].
  - apply (devs_plain ib err [EvRxFlag OMarkClosed; EvTxFlag ToMarkClosed]).
    + cbn [drun]. unfold dview_of, add_wakes; vsimpl.
      cbn [dapply x_rx x_tx is_flag_rx_op pend_safe_op rx_step tx_step]. rewrite Er.
      unfold set_xrx. cbn [dapply x_rx x_tx x_segs x_lc x_out x_pend pend_safe_op tx_step]. rewrite Et. reflexivity.
    + repeat constructor.
    + unfold add_wakes; vsimpl. reflexivity.
    + unfold rfin, add_wakes; vsimpl. auto.
    + unfold add_wakes; vsimpl. auto.
  - unfold add_wakes; vsimpl. unfold mark_vsock_closed in Et. injection Et as <- _. reflexivity.
Qed.

Lemma just_before_death_ev ib p (s : vsock) err :
  devs ib true p s p (just_before_death s err) /\ t_vsock_closed (v_tx (just_before_death s err)) = true.
Proof.
  unfold just_before_death.
  match goal with |- context [mark_both_closed ?x] =>
    assert (F1 : devs ib true p s p x); [|abs_as x F1 s1] end.
  { destruct err as [e|]; [|apply devs_refl].
    destruct (rx_enqueue_error (v_rx s)) as [rx1 w] eqn:Ee.
    apply (devs_one ib true EvRxErr); try reflexivity; try exact I; try discriminate.
    - unfold dview_of, add_wakes; vsimpl. cbn [dapply x_rx]. rewrite Ee. reflexivity.
    - unfold rfin, add_wakes; vsimpl. auto.
    - unfold add_wakes; vsimpl. auto. }
  destruct (mark_both_closed_ev ib true p s1) as (F2 & Hc & Hst).
  revert F2 Hc Hst. generalize (mark_both_closed s1). intros s2 F2 Hc Hst.
  pose proof (devs_trans _ _ _ _ _ _ _ _ F1 F2) as F12.
  destruct err as [e|]; [|split; assumption].
  destruct (negb _); [|split; assumption].
  match goal with |- context [send_control_packet ?x ?h] =>
    assert (F3 : svs s2 x) by (unfold svs, same_view; vsimpl; repeat split);
    pose proof (send_control_packet_svs x h) as Hsc; revert F3 Hsc; generalize x; intros s3 F3 Hsc end.
  assert (Hty : ch_type (hdr_with (outgoing_header s2) ST_FIN (v_seq_nr s2) None) <> ST_DATA)
    by (cbn [hdr_with ch_type]; discriminate).
  specialize (Hsc Hty).
  assert (Hfin : forall s4, svs s3 s4 -> devs ib true p s p s4 /\ t_vsock_closed (v_tx s4) = true).
  { intros s4 H4. pose proof (svs_trans _ _ _ F3 H4) as H24.
    split; [eapply devs_trans; [exact F12|apply devs_svs; exact H24]|].
    destruct H24 as ((A1 & _) & _). rewrite A1. exact Hc. }
  destruct (send_control_packet s3 _) as [s4 b|s4 e'|]; cbn [stR] in Hsc.
  - apply Hfin. exact Hsc.
  - apply Hfin. exact Hsc.
  - apply Hfin. apply svs_refl.
Qed.

(* ------------------------------------------------------------------ the exits of poll_body *)
Definition bpost (ib : list msg) (s0 : vsock) (b : body_res (CC:=CC)) : Prop :=
  match b with
  | BrReturn s' r =>
      exists p', devs ib (negb (is_pending r)) 0 s0 p' s' /\
                 (p' = 0 \/ (t_vsock_closed (v_tx s') = true /\ is_pending r = false))
  | BrRestart s' => devs ib false 0 s0 0 s'
  | BrPanic => True
  end.

Lemma die_ev ib (s0 s : vsock) p' e :
  devs ib false 0 s0 p' s -> bpost ib s0 (die s e).
Proof.
  intro H. unfold die. cbn [bpost is_pending negb].
  destruct (just_before_death_ev ib p' s (Some e)) as [H1 H2].
  exists p'. split; [eapply devs_trans; [apply devs_weaken; exact H|exact H1]|]. right. auto.
Qed.

(* a call of poll_body as a stage of VSock_Lemmas.poll_body_walk: going on, a restart and Pending leave
   nothing pending; an error is death *)
Lemma ev_stage {A} ib (s0 : vsock) chk (m : step A) :
  stp m (fun s _ => devs ib false 0 s0 0 s) (fun s => exists p', devs ib false 0 s0 p' s) ->
  stage (bpost ib s0) chk (fun s => devs ib false 0 s0 0 s) m.
Proof.
  intro Hm. destruct m as [s a|s e|]; cbn [stp stage] in *.
  - destruct (v_restart s); [exact Hm|]. destruct (chk && _); [|exact Hm].
    exists 0. split; [exact Hm|left; reflexivity].
  - destruct Hm as (p' & H). eapply die_ev. exact H.
  - exact I.
Qed.

(* a function that only sends events without delivery, as a step of the body *)
Lemma stp_D0_D {A} ib (s0 s : vsock) (m : step A) :
  devs ib false 0 s0 0 s -> stR D0 s m ->
  stp m (fun s' _ => devs ib false 0 s0 0 s') (fun s' => exists p', devs ib false 0 s0 p' s').
Proof.
  intros H0 Hm. destruct m as [s' a|s' e|]; cbn [stp stR] in *; [|exists 0|exact I];
    (eapply devs_trans; [exact H0|apply Hm]).
Qed.

(* a function that leaves the view and the state alone *)
Lemma stp_svs_D {A} ib (s0 s : vsock) (m : step A) :
  devs ib false 0 s0 0 s -> stR svs s m ->
  stp m (fun s' _ => devs ib false 0 s0 0 s') (fun s' => exists p', devs ib false 0 s0 p' s').
Proof. intros H0 Hm. apply (stp_D0_D ib s0 s m H0). apply stR_svs_D0. exact Hm. Qed.

(* ------------------------------------------------------------------ poll_body *)
Lemma poll_tail_svs (s : vsock) : svs s (poll_tail s).
Proof.
  unfold poll_tail.
  match goal with |- context [next_timer_to_poll ?x] =>
    assert (H : svs s x); [|revert H; generalize x; intros s1 H] end.
  { destruct (is_local_fin_or_later (v_state s)); [unfold svs, same_view; vsimpl; repeat split|apply svs_refl]. }
  eapply svs_trans; [exact H|]. unfold next_timer_to_poll, arm_in, add_wakes.
  destruct (v_transport_pending s1); [destruct (v_t_inactivity s1)|destruct (opt_min _ _)];
    try destruct (_ <=? _); unfold svs, same_view; vsimpl; repeat split.
Qed.

Lemma poll_body_ev ib (s0 : vsock) :
  incl (v_inbox s0) ib -> ss_ok (v_ss s0) -> bpost ib s0 (poll_body cci s0).
Proof.
  intros Hib Hss0. set (E := fun s : vsock => devs ib false 0 s0 0 s).
  assert (Hss : forall s, E s -> ss_ok (v_ss s)).
  { intros s (evs & _ & _ & _ & _ & _ & _ & K). apply K. exact Hss0. }
  apply (poll_body_walk cci (bpost ib s0) E E E E E E).
  - exact I.
  - intros s H _. apply ev_stage. pose proof (maybe_send_syn_ack_sv s) as Hm.
    destruct (maybe_send_syn_ack s) as [s' a|s' e|]; cbn [stp] in *; [|exists 0|exact I];
      (eapply devs_trans; [exact H|]; destruct Hm as [Hm1 Hm2]; apply devs_same; [exact Hm1|rewrite Hm2; auto]).
  - intros s H _ _. apply ev_stage. apply (stp_svs_D ib s0 s _ H), send_ack_svs.
  - intros s H _. apply ev_stage. pose proof (process_all_ev cci s) as Hp.
    assert (Hi : incl (v_inbox s) ib) by (eapply devs_inbox_incl; [exact H|exact Hib]).
    destruct (process_all_incoming_messages cci s) as [s' a|s' e|]; cbn [stp] in *; [| |exact I].
    + eapply devs_trans; [exact H|]. eapply devs_ib_mono; [exact Hi|exact Hp].
    + destruct Hp as (p' & Hp). exists p'. eapply devs_trans; [exact H|]. eapply devs_ib_mono; [exact Hi|exact Hp].
  - intros s rx1 fb w H _ Efl. eapply devs_trans; [exact H|].
    apply (devs_ev ib false EvFlush); try reflexivity; [|exact (fun H => H)].
    unfold dview_of, add_wakes; vsimpl. cbn [dapply x_rx]. rewrite Efl. reflexivity.
  - intros s H _ _. eapply die_ev. exact H.
  - intros s H _ _. apply ev_stage. apply (stp_D0_D ib s0 s _ H), split_ev, Hss, H.
  - intros s H _. apply ev_stage. apply (stp_D0_D ib s0 s _ H), send_tx_queue_ev.
  - intros s H _ _. destruct (transition_sv s) as [T1 T2].
    eapply devs_trans; [exact H|]. apply devs_same; [exact T1|rewrite T2; auto].
  - intros s H _. apply ev_stage. apply (stp_svs_D ib s0 s _ H), maybe_send_fin_svs.
  - intros s H _. apply ev_stage. apply (stp_svs_D ib s0 s _ H), maybe_send_ack_svs.
  - intros s H _ _. destruct (just_before_death_ev ib 0 s None) as [J1 J2].
    exists 0. split; [eapply devs_trans; [apply devs_weaken; exact H|exact J1]|left; reflexivity].
  - intros s H _ _. exists 0.
    split; [eapply devs_trans; [exact H|apply devs_svs, poll_tail_svs]|left; reflexivity].
  - apply devs_same_state; unfold poll_start, same_view; vsimpl; repeat split.
Qed.

(* ------------------------------------------------------------------ the restart loop and poll *)
Definition poll_post (ib : list msg) (s : vsock) (res : vsock * poll_result) : Prop :=
  exists p', devs ib (negb (is_pending (snd res))) 0 s p' (fst res) /\
             (p' = 0 \/ (t_vsock_closed (v_tx (fst res)) = true /\ is_pending (snd res) = false)).

Lemma poll_loop_ev ib : forall fuel (s : vsock),
  incl (v_inbox s) ib -> ss_ok (v_ss s) -> poll_post ib s (poll_loop cci fuel s).
Proof.
  induction fuel as [|fuel IH]; intros s Hib Hss; cbn [poll_loop].
  - exists 0. cbn [fst snd is_pending negb]. split; [apply devs_refl|left; reflexivity].
  - pose proof (poll_body_ev ib s Hib Hss) as Hb.
    destruct (poll_body cci s) as [s' r|s'|]; cbn [bpost] in Hb.
    + exact Hb.
    + assert (Hib' : incl (v_inbox s') ib) by (eapply devs_inbox_incl; [exact Hb|exact Hib]).
      assert (Hss' : ss_ok (v_ss s')) by (destruct Hb as (evs & _ & _ & _ & _ & _ & _ & K); apply K; exact Hss).
      destruct (IH s' Hib' Hss') as (p' & H1 & H2). exists p'.
      split; [eapply devs_trans; [apply devs_any_err; exact Hb|exact H1]|exact H2].
    + exists 0. cbn [fst snd is_pending negb]. split; [apply devs_refl|left; reflexivity].
Qed.

(* the state a poll starts from: nothing emitted yet *)
Definition poll_reset (s : vsock) : vsock := set_arm_in (set_wakes (set_out s []) []) None.

Theorem poll_ev (s : vsock) :
  ss_ok (v_ss s) -> poll_post (v_inbox s) (poll_reset s) (poll cci s).
Proof.
  intro Hss. unfold poll. apply (poll_loop_ev (v_inbox s) 64 (poll_reset s)).
  - unfold poll_reset; vsimpl. apply incl_refl.
  - unfold poll_reset; vsimpl. exact Hss.
Qed.

End WalkPoll.
