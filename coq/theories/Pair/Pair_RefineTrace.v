(* C01 lift: every step of the pair model refines data-path ops (pstep_refines); the initial pair
   state is the initial data-path state of each direction (pair_new_psim); hence every pair trace
   along which the direction stays live has a data-path run with the same byte-carrying components
   (pair_trace_refines), and what the reader has read is a prefix of what the writer wrote whenever
   that run is guarded (pair_trace_prefix). *)
From Utp Require Import Base.Prelude Wire.SeqNr Wire.Header Rtt.Rtte Mtu.SegSizes Rx.Rx Rx.Rx_Proofs Tx.Ring
  Tx.Ring_Proofs Tx.Segments Tx.Segments_Proofs Conn.Recovery Conn.Msg Conn.VSockRec Conn.VSock Conn.VSockRun
  Conn.C10_Pred Conn.VSock_Inv Conn.VSock_Lemmas Pair.Pair Pair.DP Pair.DP_Lemmas Pair.DP_Proofs Pair.DP_RxProofs
  Pair.Pair_Refine Pair.Pair_RefineWalk Pair.Pair_RefineWalkPoll Pair.Pair_RefineSim Pair.Pair_RefinePair.

Lemma In_remove_nth {A} : forall (l : list A) k x, In x (remove_nth k l) -> In x l.
Proof.
  induction l as [|y l IH]; intros k x H; [destruct k; exact H|].
  destruct k as [|k]; cbn [remove_nth] in H; [right; exact H|].
  destruct H as [H|H]; [left; exact H|right; eapply IH; exact H].
Qed.

Section Trace.
Context {CC : Type} (cci : cc_iface CC).
Notation vsock := (vsock CC).
Notation pair := (pair (CC:=CC)).

(* the direction whose writer is sd is live: the reader's future is not gone and the reader has
   not accepted the writer's FIN (nor closed) *)
Definition dir_live (sd : side) (s : pair) : bool :=
  negb (fin_of s (other sd)) && negb (rfin (ep s (other sd))).

Ltac pair_simpl :=
  cbn [fst snd ep other net_from fin_of set_ep set_net set_fin set_hole count_io
       p_a p_b p_fin_a p_fin_b p_ab p_ba p_hole p_wa p_ra p_wb p_rb] in *.

Lemma pstep_refines isn ti sd (s : pair) d o :
  psim isn ti sd s d -> dir_live sd (fst (pstep cci s o)) = true ->
  exists dops, psim isn ti sd (fst (pstep cci s o)) (dp_run d dops).
Proof.
  unfold psim, dir_live. intros H Hlive. destruct o; cbn [pstep] in *.
  - (* clock *)
    exists []. cbn [dp_run]. destruct sd; pair_simpl;
      (eapply psimr_reader_same; [eapply psimr_writer_same; [exact H| | |]| | | |]); vsimpl; reflexivity.
  - (* hole *)
    exists []. cbn [dp_run]. destruct sd; pair_simpl; exact H.
  - (* application op *)
    destruct (vstep cci (ep s sd0) (vop_of_aop o)) as [[[v' out] dw] sw] eqn:E.
    (* the endpoint is the writer of this direction (cases 1, 4) or its reader *)
    destruct sd, sd0; pair_simpl.
    1, 4: eapply writer_app_refines; eauto.
    all: eapply reader_app_refines; eauto.
  - (* poll *)
    destruct (fin_of s sd0) eqn:Ef; [exists []; exact H|].
    destruct (vstep cci (ep s sd0) (VoPoll script)) as [[[v' out] dw] sw] eqn:E.
    destruct sd, sd0; pair_simpl.
    1, 4: rewrite Ef in H; destruct (writer_poll_refines cci isn ti _ _ _ _ _ _ _ _ _ (p_hole s) H E) as (dops & Hd);
      exists dops; destruct (poll_finished out); pair_simpl; rewrite ?Ef; exact Hd.
    (* a poll of the reader: the direction is live afterwards, so the poll returned Pending *)
    all: assert (Hnf : poll_finished out = false)
           by (destruct (poll_finished out); [|reflexivity]; pair_simpl; discriminate).
    all: rewrite Hnf in *; pair_simpl; apply andb_true_iff in Hlive; destruct Hlive as [_ Hl];
      apply negb_true_iff in Hl; eapply reader_poll_refines; eauto.
  - (* deliver *)
    destruct (pick_idx (net_from s from) i) as [k|]; [|exists []; exact H].
    destruct (nth_error (net_from s from) k) as [pk|] eqn:En; [|exists []; exact H].
    destruct (vstep cci (ep (set_net s from (remove_nth k (net_from s from))) (other from)) (VoDeliver (msg_of_packet pk)))
      as [[[v' out] dw] sw] eqn:E.
    exists []. cbn [dp_run]. destruct sd, from; pair_simpl.
    2, 3: eapply writer_deliver_same; eauto.
    all: eapply psimr_net_sub; [eapply reader_deliver_refines; [exact H|eapply nth_error_In; exact En|exact E]|];
      apply In_remove_nth.
  - (* drop *)
    exists []. cbn [dp_run].
    destruct (pick_idx (net_from s from) i) as [k|]; [|exact H].
    destruct sd, from; pair_simpl; try exact H; (eapply psimr_net_sub; [exact H|apply In_remove_nth]).
  - (* duplicate *)
    exists []. cbn [dp_run].
    destruct (pick_idx (net_from s from) i) as [k|]; [|exact H].
    destruct (nth_error (net_from s from) k) as [pk|] eqn:En; [|exact H].
    destruct sd, from; pair_simpl; try exact H;
      (eapply psimr_net_sub; [exact H|]; intros x Hx; apply in_app_or in Hx; destruct Hx as [Hx|[<-|[]]];
       [exact Hx|eapply nth_error_In; exact En]).
Qed.

(* ------------------------------------------------------------------ traces *)
Fixpoint live_run (sd : side) (s : pair) (ops : list pop) : bool :=
  match ops with
  | [] => true
  | o :: r => let s' := fst (pstep cci s o) in dir_live sd s' && live_run sd s' r
  end.

Theorem pair_trace_refines isn ti sd : forall ops (s : pair) d,
  psim isn ti sd s d -> live_run sd s ops = true ->
  exists dops, psim isn ti sd (prun cci s ops) (dp_run d dops).
Proof.
  induction ops as [|o ops IH]; intros s d H Hl; cbn [prun live_run] in *.
  - exists []. exact H.
  - apply andb_true_iff in Hl. destruct Hl as [Hl1 Hl2].
    destruct (pstep_refines isn ti sd s d o H Hl1) as (o1 & H1).
    destruct (IH _ _ H1 Hl2) as (o2 & H2).
    exists (o1 ++ o2). rewrite dp_run_app. exact H2.
Qed.

(* ------------------------------------------------------------------ the initial state *)
Definition dir_isn (sd : side) (c : pconfig) : Z :=
  match sd with SA => wadd16 (pc_syn_seq c) 1 | SB => pc_isn_b c end.
Definition dir_max_rx (sd : side) (c : pconfig) : Z :=
  match sd with SA => pc_rx_b c | SB => pc_rx_a c end.
Definition dir_max_in (sd : side) (c : pconfig) : Z :=
  match sd with SA => mss (ss_new (ss_config_of (cfg_b c))) | SB => mss (ss_new (ss_config_of (cfg_a c))) end.
Definition dir_init (sd : side) (c : pconfig) : dp :=
  dp_init (dir_isn sd c) (pc_tx_init c) (dir_max_rx sd c) (dir_max_in sd c).

Definition pconfig_ok (c : pconfig) : bool := vconfig_ok (cfg_a c) && vconfig_ok (cfg_b c).

Lemma pconfig_ok_facts c : pconfig_ok c = true ->
  0 <= pc_syn_seq c < M16 /\ 0 <= pc_isn_b c < M16 /\ 0 < pc_tx_init c /\ 0 < pc_rx_a c /\ 0 < pc_rx_b c /\
  ss_ok (ss_new (ss_config_of (cfg_a c))) /\ ss_ok (ss_new (ss_config_of (cfg_b c))).
Proof.
  unfold pconfig_ok. intro H. apply andb_true_iff in H. destruct H as [Ha Hb].
  assert (Hssa : ss_ok (ss_new (ss_config_of (cfg_a c)))).
  { apply ss_new_ok. unfold vconfig_ok in Ha. repeat (apply andb_true_iff in Ha; destruct Ha as [Ha ?]). lia. }
  assert (Hssb : ss_ok (ss_new (ss_config_of (cfg_b c)))).
  { apply ss_new_ok. unfold vconfig_ok in Hb. repeat (apply andb_true_iff in Hb; destruct Hb as [Hb ?]). lia. }
  unfold vconfig_ok in Ha, Hb.
  repeat (apply andb_true_iff in Ha; destruct Ha as [Ha ?]).
  repeat (apply andb_true_iff in Hb; destruct Hb as [Hb ?]).
  cbn [cfg_a cfg_b vc_isn vc_tx_init vc_rx_buf] in *.
  split; [lia|]. split; [lia|]. split; [lia|]. split; [lia|]. split; [lia|]. split; assumption.
Qed.

Lemma vsock_new_fields (mk_cc : Z -> Z -> CC) c v :
  vsock_new cci mk_cc c = Some v ->
  v_tx v = tx_new (vc_tx_init c) /\
  v_segs v = segments_new (if vc_incoming c then vc_isn c else wadd16 (vc_isn c) 1) /\
  v_rx v = rx_build (vc_rx_buf c) (mss (ss_new (ss_config_of c))) /\
  v_last_consumed v = (if vc_incoming c then vc_remote_seq c else wsub16 (vc_remote_seq c) 1) /\
  v_inbox v = [] /\ v_ss v = ss_new (ss_config_of c).
Proof.
  unfold vsock_new. fold (ss_config_of c).
  destruct (match (if vc_incoming c then None else Some (sat_sub (vc_now0 c) (vc_syn_sent c))) with
            | Some r => sample rtte_default r | None => Some rtte_default end) as [rtte0|]; [|discriminate].
  intro H; injection H as <-. cbn. repeat split.
Qed.

(* by roles: a writer and a reader as vsock_new makes them *)
Lemma psimr_init isn ti mrx min (w r : vsock) :
  0 <= isn < M16 -> 0 < ti ->
  v_tx w = tx_new ti -> v_segs w = segments_new isn -> v_rx r = rx_build mrx min ->
  v_last_consumed r = wsub16 isn 1 -> v_inbox r = [] -> ss_ok (v_ss w) -> ss_ok (v_ss r) ->
  psimr isn ti w r [] false (dp_init isn ti mrx min).
Proof.
  intros Hi Ht E1 E2 E3 E4 E5 Sw Sr. constructor.
  - apply init_tx_inv; assumption.
  - symmetry. exact E2.
  - exists 0. rewrite tx_skip_0. split; [lia|]. split; [symmetry; exact E1|left; reflexivity].
  - symmetry. exact E3.
  - symmetry. exact E4.
  - constructor.
  - rewrite E5. constructor.
  - exact Sw.
  - exact Sr.
Qed.

Lemma pair_new_psim (mk_cc : Z -> Z -> CC) c (s0 : pair) sd :
  pconfig_ok c = true -> pair_new cci mk_cc c = Some s0 ->
  psim (dir_isn sd c) (pc_tx_init c) sd s0 (dir_init sd c).
Proof.
  intros Hok. destruct (pconfig_ok_facts c Hok) as (C1 & C2 & C3 & C4 & C5 & C6 & C7).
  unfold pair_new.
  destruct (vsock_new cci mk_cc (cfg_a c)) as [a|] eqn:Ea; [|discriminate].
  destruct (vsock_new cci mk_cc (cfg_b c)) as [b|] eqn:Eb; [|discriminate].
  intro H; injection H as <-.
  destruct (vsock_new_fields _ _ _ Ea) as (A1 & A2 & A3 & A4 & A5 & A6).
  destruct (vsock_new_fields _ _ _ Eb) as (B1 & B2 & B3 & B4 & B5 & B6).
  cbn [cfg_a cfg_b vc_incoming vc_isn vc_tx_init vc_rx_buf vc_remote_seq] in A1, A2, A3, A4, B1, B2, B3, B4.
  rewrite <- A6 in C6. rewrite <- B6 in C7.
  unfold psim, dir_init.
  destruct sd; cbn [ep other net_from fin_of p_a p_b p_ab p_ba p_fin_a p_fin_b dir_isn dir_max_rx dir_max_in];
    apply psimr_init; try assumption.
  - apply wadd16_range.
  - rewrite B4. unfold wsub16, wadd16, M16 in *. lia.
Qed.

(* ------------------------------------------------------------------ the prefix property of pair traces *)
Lemma psim_prefix c sd (s : pair) dops :
  pconfig_ok c = true ->
  psim (dir_isn sd c) (pc_tx_init c) sd s (dp_run (dir_init sd c) dops) ->
  dp_guards (dp_run (dir_init sd c) dops) = true ->
  is_prefix (g_read (v_rx (ep s (other sd)))) (g_written (v_tx (ep s sd))).
Proof.
  intros Hok H Hg.
  destruct (pconfig_ok_facts c Hok) as (C1 & C2 & C3 & C4 & C5 & C6 & C7).
  assert (Hisn : 0 <= dir_isn sd c < M16) by (destruct sd; cbn [dir_isn]; [apply wadd16_range|exact C2]).
  assert (Hrx : 0 < dir_max_rx sd c) by (destruct sd; cbn [dir_max_rx]; assumption).
  assert (Hin : 0 < dir_max_in sd c).
  { destruct sd; cbn [dir_max_in]; [pose proof (mss_ss_new_pos (ss_config_of (cfg_b c)))|
                                    pose proof (mss_ss_new_pos (ss_config_of (cfg_a c)))]; lia. }
  pose proof (dp_prefix (dir_isn sd c) (pc_tx_init c) (dir_max_rx sd c) (dir_max_in sd c) dops Hisn C3 Hrx Hin Hg) as Hp.
  fold (dir_init sd c) in Hp.
  destruct H as [_ _ (p & _ & P2 & _) R _ _ _ _ _].
  rewrite R, P2 in Hp. destruct (tx_skip_fields (v_tx (ep s sd)) p) as (_&_&_&_&_&_&_&_&F9&_).
  rewrite F9 in Hp. exact Hp.
Qed.

Theorem pair_trace_prefix (mk_cc : Z -> Z -> CC) c (s0 : pair) sd ops :
  pconfig_ok c = true -> pair_new cci mk_cc c = Some s0 -> live_run sd s0 ops = true ->
  exists dops,
    let d := dp_run (dir_init sd c) dops in
    let s := prun cci s0 ops in
    psim (dir_isn sd c) (pc_tx_init c) sd s d /\
    (dp_guards d = true -> is_prefix (g_read (v_rx (ep s (other sd)))) (g_written (v_tx (ep s sd)))).
Proof.
  intros Hok Hnew Hlive.
  destruct (pair_trace_refines _ _ sd ops s0 _ (pair_new_psim mk_cc c s0 sd Hok Hnew) Hlive) as (dops & H).
  exists dops. cbv zeta. split; [exact H|]. apply (psim_prefix c sd _ dops Hok H).
Qed.

End Trace.
