(* C01 lift, the walk through VirtualSocket::poll, part 3: the receive path.
   process_incoming_message = EvAck (remove_up_to_ack; the acknowledged bytes stay pending),
   possibly EvPipe (entering recovery), then EvData for an ST_DATA message, EvFin (+ the closed
   flag of the ring) for an accepted ST_FIN; process_all_incoming_messages ends with EvTrunc
   (truncate_front of everything pending), the writer wake-up and calc_pipe. *)
From Utp Require Import Base.Prelude Wire.SeqNr Wire.Header Rtt.Rtte Mtu.SegSizes Rx.Rx Tx.Ring
  Tx.Segments Tx.Segments_Proofs Conn.Recovery Conn.Msg Conn.VSockRec Conn.VSock Conn.VSockRun Conn.VSock_Inv
  Conn.VSock_LemmasTx Conn.VSock_LemmasIn Conn.C17_StepLemmas Rx.Rx_Slots Pair.DP Pair.DP_Lemmas Pair.Pair_Refine Pair.Pair_RefineWalk
  Pair.Pair_RefineWalkTx.

Arguments SOk {CC A}. Arguments SErr {CC A}. Arguments SPanic {CC A}.
Arguments TblDrop {CC}. Arguments TblErr {CC}. Arguments TblContinue {CC}.

(* ---- counts returned by remove_up_to_ack (no invariant needed) ---- *)
Lemma rua_counts t now ack sk t' r :
  remove_up_to_ack t now ack sk = (t', r) ->
  0 <= ar_acked_segments r /\ (ar_acked_segments r = 0 -> ar_acked_bytes r = 0).
Proof.
  unfold remove_up_to_ack.
  match goal with |- context [drain_acc ?L now ?A] => set (drained := L); set (a0 := A) end.
  destruct (sack_phase _ _ _ _ _ _ _) as [[[rest2 a2] depth] lse].
  destruct (strip_delivered rest2 0 0) as [[rest3 cnt3] bytes3] eqn:Es.
  intro H; injection H as _ <-. cbn [ar_acked_segments ar_acked_bytes].
  destruct (drain_acc_spec drained now a0) as [D1 D2]. unfold a0 in D1, D2; cbn [ac_cnt ac_bytes] in D1, D2.
  destruct (strip_delivered_spec _ _ _ _ _ _ Es) as (dropped & _ & S1 & S2 & _).
  fold a0 in D1, D2. rewrite D1, D2, S1, S2. split; [lia|].
  intro H0.
  assert (Hd : drained = []) by (apply length_zero_iff_nil; lia).
  assert (Hp : dropped = []) by (apply length_zero_iff_nil; lia).
  rewrite Hd, Hp. reflexivity.
Qed.

Section WalkIn.
Context {CC : Type} (cci : cc_iface CC).
Notation vsock := (vsock CC).
Notation step := (@step CC).

(* recovery_on_ack touches the table only through calc_pipe *)
Lemma roa_segs r h segs ls cc now rtt r' segs' cc' :
  recovery_on_ack cci r h segs ls cc now rtt = Some (r', segs', cc') ->
  segs' = segs \/ exists hr hd rt nw p rc, calc_pipe segs hr hd rt nw = Some (segs', p, rc).
Proof.
  unfold recovery_on_ack. cbn [rv_phase rv_supports_sack rv_last_ack].
  destruct (rv_phase r) as [rp|dup|rc].
  - destruct (seq_ge _ _); intro H; injection H as _ <- _; left; reflexivity.
  - destruct (ss_segs segs); [intro H; injection H as _ <- _; left; reflexivity|].
    match goal with |- match ?X with _ => _ end = _ -> _ => destruct X as [[dup' la']|] end; [|discriminate].
    destruct (dup' <? _); [intro H; injection H as _ <- _; left; reflexivity|].
    destruct (calc_pipe segs _ _ _ _) as [[[sg pp] rcl]|] eqn:Ecp; [|discriminate].
    intro H; injection H as _ <- _. right. eauto 10.
  - destruct (seq_ge _ _); intro H; injection H as _ <- _; left; reflexivity.
Qed.

(* ------------------------------------------------------------------ one message, by parts
   (the parts pim_ack / pim_data / pim_fin / pim_cont of Conn/VSock_LemmasIn.v) *)

(* ACK processing: EvAck, and EvPipe when recovery is entered *)
Lemma pim_ack_ev ib (s1 : vsock) h s2 res p :
  pim_ack cci s1 h = Some (s2, res) ->
  devs ib false p s1 (p + ar_acked_bytes res) s2 /\ v_state s2 = v_state s1 /\
  0 <= ar_acked_segments res /\ (ar_acked_segments res = 0 -> ar_acked_bytes res = 0).
Proof.
  unfold pim_ack.
  destruct (remove_up_to_ack (v_segs s1) (v_now s1) (ch_ack h) (ch_sack h)) as [segs1 res0] eqn:Erua.
  destruct (rua_counts _ _ _ _ _ _ Erua) as [Hc1 Hc2].
  destruct (match is_recovering (v_recovery s1) with true => _ | false => _ end) as [rtte1|]; [|discriminate].
  destruct (cc_on_ack cci _ _ _ _) as [cc3|]; [|discriminate].
  destruct (recovery_on_ack cci _ _ _ _ _ _ _) as [[[rec1 segs2] cc4]|] eqn:Eroa; [|discriminate].
  intro H; injection H as <- <-.
  split; [|split; [vsimpl; reflexivity|split; assumption]].
  destruct (roa_segs _ _ _ _ _ _ _ _ _ _ Eroa) as [->|(hr & hd & rt & nw & pp & rcl & Ecp)].
  - apply (devs_ev ib false (EvAck (v_now s1) (ch_ack h) (ch_sack h))); try reflexivity.
    + unfold dview_of; vsimpl. cbn [dapply x_segs x_tx x_rx x_lc x_out x_pend].
      rewrite Erua. reflexivity.
    + vsimpl. intro H. apply delivered_ss_ok. exact H.
  - apply (devs_plain ib false [EvAck (v_now s1) (ch_ack h) (ch_sack h); EvPipe hr hd rt nw]).
    + cbn [drun]. unfold dview_of; vsimpl. cbn [dapply x_segs x_tx x_rx x_lc x_out x_pend].
      rewrite Erua. cbn [dapply x_segs x_tx x_rx x_lc x_out x_pend]. rewrite Ecp. reflexivity.
    + repeat constructor.
    + vsimpl; reflexivity.
    + unfold rfin; vsimpl; auto.
    + vsimpl. intro H. apply delivered_ss_ok. exact H.
Qed.

Definition lc_after (lc : Z) (r : add_result) : Z :=
  match r with ArConsumed n _ => wadd16 lc (n mod M16) | _ => lc end.

Definition tail_rel (s4 : vsock) (r : add_result) (s' : vsock) : Prop :=
  v_tx s' = v_tx s4 /\ v_segs s' = v_segs s4 /\ v_rx s' = v_rx s4 /\
  v_last_consumed s' = lc_after (v_last_consumed s4) r /\
  data_view (v_out s') = data_view (v_out s4) /\ v_inbox s' = v_inbox s4 /\ v_ss s' = v_ss s4 /\
  v_state s' = v_state s4.

Lemma tail_rel_svs s4 r s5 s6 : tail_rel s4 r s5 -> svs s5 s6 -> tail_rel s4 r s6.
Proof.
  intros (A1 & A2 & A3 & A4 & A5 & A6 & A7 & A8) ((B1 & B2 & B3 & B4 & B5 & B6 & B7) & B8).
  unfold tail_rel. repeat split; congruence.
Qed.

Lemma data_tail_ev (s4 : vsock) we r res :
  stp (data_tail s4 we (UarOk r) res) (fun s' r' => r' = res /\ tail_rel s4 r s') (fun s' => tail_rel s4 r s').
Proof.
  unfold data_tail.
  assert (H5 : tail_rel s4 r (data_consumed s4 r)).
  { unfold tail_rel, lc_after, data_consumed, restart_remote_inactivity_timer. destruct r; vsimpl; repeat split. }
  destruct (add_err r) eqn:Eerr.
  { cbn [stp]. destruct r; try discriminate Eerr; exact H5. }
  cbv zeta. revert H5. generalize (data_consumed s4 r). intros s5 H5.
  assert (Hf : svs s5 (force_immediate_ack s5)) by (unfold force_immediate_ack, svs, same_view; vsimpl; repeat split).
  destruct (negb _ || negb we); [|cbn [stp]; split; [reflexivity|exact H5]].
  eapply stp_bind'; [apply stR_stp, send_ack_svs| |].
  - intros s6 H6. eapply tail_rel_svs; [exact H5|]. exact (svs_trans _ _ _ Hf H6).
  - intros s6 b H6. cbn [stp]. split; [reflexivity|]. eapply tail_rel_svs; [exact H5|]. exact (svs_trans _ _ _ Hf H6).
Qed.

Lemma pim_data_ev (s2 : vsock) m res P :
  ch_type (m_hdr m) = ST_DATA ->
  stp (pim_data cci s2 m res (seq_sub (ch_seq (m_hdr m)) (wadd16 (v_last_consumed s2) 1)))
      (fun s' r' => r' = res /\ devs [m] false P s2 P s') (fun s' => devs [m] false P s2 P s').
Proof.
  intro Hty. rewrite pim_data_eq.
  destruct (Z.ltb_spec (seq_sub (ch_seq (m_hdr m)) (wadd16 (v_last_consumed s2) 1)) 0) as [Hneg|Hoff].
  { cbn [stp]. split; [reflexivity|].
    apply devs_same_state; unfold force_immediate_ack, same_view; vsimpl; repeat split. }
  destruct (rx_add_remove (v_rx s2) KData (m_payload m) _) as [[rx1 ar] w] eqn:Era.
  destruct ar as [r|]; [|exact I].
  assert (Hsrc : ev_src [m] (EvData (ch_seq (m_hdr m)) (m_payload m))).
  { exists m. split; [left; reflexivity|]. unfold is_data_msg. auto. }
  assert (Hoffb : (seq_sub (ch_seq (m_hdr m)) (wadd16 (v_last_consumed s2) 1) <? 0) = false) by lia.
  assert (Hgen : forall s', tail_rel (data_in cci s2 (Z.of_nat (length (m_payload m))) rx1 (rx_wakes w)) r s' ->
                            devs [m] false P s2 P s').
  { intros s' (A1 & A2 & A3 & A4 & A5 & A6 & A7 & A8).
    unfold data_in, add_wakes in A1, A2, A3, A4, A5, A6, A7, A8. vsimpl.
    apply (devs_one [m] false (EvData (ch_seq (m_hdr m)) (m_payload m))).
    - unfold dview_of. rewrite A1, A2, A3, A4, A5.
      cbn [dapply x_segs x_tx x_rx x_lc x_out x_pend]. unfold data_apply. rewrite Hoffb, Era.
      unfold lc_after. destruct r; reflexivity.
    - exact Hsrc.
    - discriminate.
    - discriminate.
    - exact A6.
    - unfold rfin. rewrite A8. auto.
    - rewrite A7. intro H. apply delivered_ss_ok. exact H. }
  eapply stp_weaken; [apply data_tail_ev| |].
  - intros s' r' [-> H]. split; [reflexivity|apply Hgen; exact H].
  - intros s' H. apply Hgen. exact H.
Qed.

(* an accepted FIN: EvFin, then the ring is marked closed *)
Lemma pim_fin_ev (s2 : vsock) m res seen P :
  ch_type (m_hdr m) = ST_FIN -> (seen = false -> rfin s2 = true) ->
  stp (pim_fin s2 m res (seq_sub (ch_seq (m_hdr m)) (wadd16 (v_last_consumed s2) 1)) seen)
      (fun s' r' => r' = res /\ devs [m] false P s2 P s') (fun s' => devs [m] false P s2 P s').
Proof.
  intros Hty Hseen. unfold pim_fin. cbv zeta.
  destruct seen; cbn [negb andb].
  { cbn [stp]. split; [reflexivity|].
    apply devs_same_state; unfold force_immediate_ack, same_view; vsimpl; repeat split. }
  specialize (Hseen eq_refl).
  destruct (0 <=? _).
  2:{ cbn [stp]. split; [reflexivity|].
      apply devs_same_state; unfold force_immediate_ack, same_view; vsimpl; repeat split. }
  unfold force_immediate_ack; vsimpl.
  destruct (rx_add_remove (v_rx s2) KFin (m_payload m) _) as [[rx1 ar] w] eqn:Era.
  destruct ar as [r|]; [|exact I].
  match goal with |- context [add_wakes (set_rx ?S rx1) (rx_wakes w)] =>
    set (s5 := add_wakes (set_rx S rx1) (rx_wakes w)) end.
  assert (H5 : devs [m] false P s2 P s5).
  { apply (devs_one [m] false (EvFin (ch_seq (m_hdr m)) (m_payload m))).
    - unfold s5, dview_of, add_wakes; vsimpl.
      cbn [dapply x_segs x_tx x_rx x_lc x_out x_pend]. rewrite Era. reflexivity.
    - exact I.
    - intros _. unfold s5, rfin, add_wakes; vsimpl. exact Hseen.
    - discriminate.
    - unfold s5, add_wakes; vsimpl. reflexivity.
    - unfold s5, rfin, add_wakes; vsimpl. auto.
    - unfold s5, add_wakes; vsimpl. auto. }
  clearbody s5.
  destruct (add_err r); [cbn [stp]; exact H5|].
  destruct (mark_vsock_closed (v_tx s5)) as [tx1 w2] eqn:Emc. cbn [stp]. split; [reflexivity|].
  eapply devs_trans; [exact H5|].
  apply (devs_ev [m] false (EvTxFlag ToMarkClosed)); try reflexivity; [|exact (fun H => H)].
  unfold dview_of, add_wakes; vsimpl. cbn [dapply x_tx pend_safe_op tx_step]. rewrite Emc. reflexivity.
Qed.

Definition pim_post (m : msg) (p : Z) (s : vsock) (s' : vsock) (res : on_ack_result) : Prop :=
  devs [m] false p s (p + ar_acked_bytes res) s' /\
  0 <= ar_acked_segments res /\ (ar_acked_segments res = 0 -> ar_acked_bytes res = 0).

Lemma pim_ev (s : vsock) (m : msg) (p : Z) :
  stp (process_incoming_message cci s m) (pim_post m p s) (fun s' => exists p', devs [m] false p s p' s').
Proof.
  rewrite process_incoming_message_eq.
  pose proof (state_table_sv s (m_hdr m)) as [Hsv Hrf].
  destruct (state_table s (m_hdr m)) as [s1|s1 e|s1] eqn:Etbl; cbn [tbl_state] in Hsv, Hrf.
  - cbn [stp]. unfold pim_post. cbn [on_ack_result_default ar_acked_bytes ar_acked_segments].
    rewrite Z.add_0_r. split; [apply devs_same; assumption|lia].
  - cbn [stp]. exists p. apply devs_same; assumption.
  - unfold pim_cont.
    destruct (pim_ack cci s1 (m_hdr m)) as [[s2 res]|] eqn:Eack; [|exact I].
    destruct (pim_ack_ev [m] _ _ _ _ p Eack) as (H2 & Hs2 & Hc1 & Hc2).
    set (P := p + ar_acked_bytes res) in *.
    assert (H02 : devs [m] false p s P s2).
    { eapply devs_trans; [apply (devs_same [m] false p s s1); assumption|exact H2]. }
    assert (Hfin : forall s', devs [m] false P s2 P s' -> pim_post m p s s' res).
    { intros s' H. split; [eapply devs_trans; [exact H02|exact H]|split; assumption]. }
    assert (Herr : forall s', devs [m] false P s2 P s' -> exists p', devs [m] false p s p' s').
    { intros s' H. exists P. eapply devs_trans; [exact H02|exact H]. }
    destruct (ch_type (m_hdr m)) eqn:Hty.
    (* the other types carry no data: only the acknowledgement counted *)
    3-5: cbn [stp]; apply Hfin; apply devs_refl.
    + eapply stp_weaken; [apply (pim_data_ev s2 m res P Hty)| |].
      * intros s' r' [-> H]. apply Hfin. exact H.
      * intros s' H. apply Herr. exact H.
    + eapply stp_weaken; [apply (pim_fin_ev s2 m res _ P Hty)| |].
      * intro Hseen. unfold rfin. rewrite Hs2. apply (state_table_fin s (m_hdr m) s1 Hty Etbl).
      * intros s' r' [-> H]. apply Hfin. exact H.
      * intros s' H. apply Herr. exact H.
Qed.

(* ------------------------------------------------------------------ the receive loop *)
(* the accumulated result and the bytes pending *)
Definition pacc_ok (p : Z) (acc : on_ack_result) : Prop :=
  p = ar_acked_bytes acc /\ 0 <= ar_acked_segments acc /\ (ar_acked_segments acc = 0 -> ar_acked_bytes acc = 0).

Lemma devs_set_inbox ib err p (s : vsock) m rest p' s' :
  v_inbox s = m :: rest -> devs ib err p (set_inbox s rest) p' s' -> devs ib err p s p' s'.
Proof.
  intros Hib (evs & A1 & A2 & (pre & A3) & A4 & A5 & A6 & A7). exists evs.
  split; [exact A1|]. split; [exact A2|].
  split; [exists (m :: pre); rewrite Hib; vsimpl; rewrite A3; reflexivity|].
  split; [exact A4|]. split; [exact A5|]. split; [exact A6|exact A7].
Qed.

Lemma devs_inbox_incl ib err p (s : vsock) p' s' :
  devs ib err p s p' s' -> incl (v_inbox s) ib -> incl (v_inbox s') ib.
Proof.
  intros (evs & _ & _ & (pre & A3) & _) Hi x Hx. apply Hi. rewrite A3. apply in_or_app. right. exact Hx.
Qed.

Lemma transition_sv (s : vsock) :
  same_view s (transition_to_fin_wait_1 s) /\ rfin (transition_to_fin_wait_1 s) = rfin s.
Proof.
  unfold transition_to_fin_wait_1, rfin, same_view.
  destruct (v_state s) eqn:Es; vsimpl; rewrite ?Es; repeat split.
Qed.

(* the arm of the receive loop that runs when the inbox is empty: no event *)
Lemma recv_base_ev ib (s : vsock) acc p :
  pacc_ok p acc ->
  stp (if v_inbox_closed s
       then sbind (maybe_send_fin (transition_to_fin_wait_1 s))
                  (fun s2 _ => SOk (set_state s2 Closed) (acc, true))
       else SOk (set_inbox_waker s true) (acc, false))
      (fun s' res => exists p', devs ib false p s p' s' /\ pacc_ok p' (fst res))
      (fun s' => exists p', devs ib false p s p' s').
Proof.
  intro Hacc. destruct (v_inbox_closed s).
  - destruct (transition_sv s) as [T1 T2].
    assert (H1 : devs ib false p s p (transition_to_fin_wait_1 s)) by (apply devs_same; [exact T1|rewrite T2; auto]).
    eapply stp_bind'; [apply stR_stp, maybe_send_fin_svs| |].
    + intros s2 H2. exists p. eapply devs_trans; [exact H1|apply devs_svs; exact H2].
    + intros s2 b H2. cbn [stp fst]. exists p. split; [|exact Hacc].
      eapply devs_trans; [exact H1|]. eapply devs_trans; [apply devs_svs; exact H2|].
      apply devs_same; [unfold same_view; vsimpl; repeat split|unfold rfin; vsimpl; reflexivity].
  - cbn [stp fst]. exists p. split; [|exact Hacc].
    apply devs_same_state; [unfold same_view; vsimpl; repeat split|vsimpl; reflexivity].
Qed.

Lemma recv_loop_ev ib : forall fuel (s : vsock) acc p,
  pacc_ok p acc -> incl (v_inbox s) ib ->
  stp (recv_loop cci fuel s acc)
      (fun s' res => exists p', devs ib false p s p' s' /\ pacc_ok p' (fst res))
      (fun s' => exists p', devs ib false p s p' s').
Proof.
  induction fuel as [|m0 fuel IH]; intros s acc p Hacc Hib.
  - cbn [recv_loop]. destruct (v_inbox s); [apply recv_base_ev; exact Hacc|exact I].
  - cbn [recv_loop]. destruct (v_inbox s) as [|m rest] eqn:Eib; [apply recv_base_ev; exact Hacc|].
    assert (Hm : incl [m] ib).
    { intros x [<-|[]]. apply Hib. left. reflexivity. }
    eapply stp_bind'; [apply (pim_ev (set_inbox s rest) m p)| |].
    * intros s1 (p' & H1). exists p'. eapply devs_set_inbox; [exact Eib|]. eapply devs_ib_mono; [exact Hm|exact H1].
    * intros s1 r (H1 & Hc1 & Hc2).
      assert (H1' : devs ib false p s (p + ar_acked_bytes r) s1).
      { eapply devs_set_inbox; [exact Eib|]. eapply devs_ib_mono; [exact Hm|exact H1]. }
      assert (Hacc1 : pacc_ok (p + ar_acked_bytes r) (result_update acc r)).
      { destruct Hacc as (A1 & A2 & A3). unfold pacc_ok, result_update; cbn [ar_acked_bytes ar_acked_segments].
        split; [lia|]. split; [lia|]. intro H0. rewrite A3, Hc2 by lia. reflexivity. }
      destruct (_ || _).
      -- cbn [stp fst]. exists (p + ar_acked_bytes r). split; assumption.
      -- eapply stp_weaken; [apply (IH s1 (result_update acc r) _ Hacc1)| |].
         ++ eapply devs_inbox_incl; [exact H1'|rewrite Eib; exact Hib].
         ++ intros s' res (p' & H & Ha). exists p'. split; [eapply devs_trans; eauto|exact Ha].
         ++ intros s' (p' & H). exists p'. eapply devs_trans; eauto.
Qed.

(* ------------------------------------------------------------------ the bookkeeping after the loop *)
Lemma pa_tail_ev ib (s1 : vsock) r early p :
  pacc_ok p r ->
  stp (pa_tail s1 (r, early)) (fun s' _ => devs ib false p s1 0 s') (fun s' => devs ib false p s1 0 s').
Proof.
  intros (Hp & Hs0 & Hs1). unfold pa_tail. cbv beta iota zeta.
  match goal with |- context [acked_counts_as_sent ?x] =>
    assert (F2 : svs s1 x); [|abs_as x F2 s2] end.
  { destruct (_ || _); [|apply svs_refl].
    destruct (ss_segs _); [destruct (our_fin_if_unacked _)|];
      unfold restart_remote_inactivity_timer, svs, same_view; vsimpl; repeat split. }
  assert (K : forall s3 : vsock, devs ib false p s1 0 s3 ->
     stp (match rv_phase (v_recovery s3) with
          | Recovering rc =>
              match calc_pipe (v_segs s3) (rc_high_rxt rc) (v_last_sent_seq_nr s3)
                              (roundtrip_time (v_rtte s3)) (v_now s3) with
              | None => SPanic
              | Some (segs', pipe, recalc) =>
                  SOk (set_recovering (VSockRec.set_segs s3 segs')
                         {| rc_recovery_point := rc_recovery_point rc; rc_high_rxt := rc_high_rxt rc;
                            rc_total_retx := rc_total_retx rc; rc_pipe := pipe; rc_recalc := recalc;
                            rc_cwnd := rc_cwnd rc |}) tt
              end
          | _ => SOk s3 tt
          end) (fun s' (_ : unit) => devs ib false p s1 0 s') (fun s' => devs ib false p s1 0 s')).
  { intros s3 F3. destruct (rv_phase _) as [rp|d|rc]; try (cbn [stp]; exact F3).
    destruct (calc_pipe _ _ _ _ _) as [[[segs' pipe] recalc]|] eqn:Ecp; [|exact I].
    cbn [stp]. eapply devs_trans; [exact F3|].
    apply (devs_ev ib false (EvPipe (rc_high_rxt rc) (v_last_sent_seq_nr s3) (roundtrip_time (v_rtte s3)) (v_now s3)));
      try reflexivity; [|exact (fun H => H)].
    unfold dview_of, set_recovering; vsimpl. cbn [dapply x_segs]. rewrite Ecp. reflexivity. }
  destruct (Z.ltb_spec 0 (ar_acked_segments r)) as [Hpos|Hzero].
  - assert (Ha : svs s1 (acked_counts_as_sent s2)).
    { eapply svs_trans; [exact F2|]. unfold acked_counts_as_sent.
      destruct (seq_gt _ _ && seq_lt _ _); [unfold svs, same_view; vsimpl; repeat split|apply svs_refl]. }
    revert Ha. generalize (acked_counts_as_sent s2). intros s2' Ha.
    destruct (truncate_front (v_tx s2') (ar_acked_bytes r)) as [tx1 tr] eqn:Et.
    assert (Ht : devs ib false p s1 0 (set_tx s2' tx1)).
    { eapply devs_trans; [apply devs_svs; exact Ha|].
      apply (devs_ev ib false EvTrunc); try reflexivity; [|exact (fun H => H)].
      unfold dview_of; vsimpl. cbn [dapply x_segs x_tx x_rx x_lc x_out x_pend].
      unfold tx_skip. rewrite Hp, Et. reflexivity. }
    destruct tr; cbn [sbind]; [|cbn [stp]; exact Ht].
    destruct (wake_writer tx1) as [tx2 w] eqn:Ew. apply K.
    eapply devs_trans; [exact Ht|].
    apply (devs_ev ib false (EvTxFlag ToWakeWriter)); try reflexivity; [|exact (fun H => H)].
    unfold dview_of, add_wakes; vsimpl. cbn [dapply x_tx pend_safe_op tx_step]. rewrite Ew. reflexivity.
  - cbn [sbind]. apply K.
    assert (Hp0 : p = 0) by (rewrite Hp; apply Hs1; lia). rewrite Hp0. apply devs_svs. exact F2.
Qed.

Lemma process_all_ev (s : vsock) :
  stp (process_all_incoming_messages cci s)
      (fun s' _ => devs (v_inbox s) false 0 s 0 s')
      (fun s' => exists p', devs (v_inbox s) false 0 s p' s').
Proof.
  rewrite process_all_eq.
  eapply stp_bind.
  { apply (recv_loop_ev (v_inbox s) _ s on_ack_result_default 0).
    - unfold pacc_ok. cbn. lia.
    - apply incl_refl. }
  intros s1 [r early] (p' & H1 & Hacc). cbn [fst] in Hacc.
  eapply stp_weaken; [apply (pa_tail_ev (v_inbox s) s1 r early p' Hacc)| |].
  - intros s' u H. eapply devs_trans; eauto.
  - intros s' H. exists 0. eapply devs_trans; eauto.
Qed.

End WalkIn.
