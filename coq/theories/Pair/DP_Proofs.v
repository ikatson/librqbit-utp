(* C01 on the data-path system (Pair/DP.v): invariants by induction over ALL op lists.
   T1 (sender)   dp_tx_inv: every packet ever sent carries g_written[k_off, k_off+len), its
                 sequence number is (isn + k_idx) mod 2^16, the current assignment tiles the
                 written stream; no guard needed.
   T2/T3         dp_rx_inv (under the guards d_clean, d_wrap): the receiver's in-order stream is
                 g_written[0, A(consumed)); hence what was read is a prefix of what was written. *)
From Utp Require Import Base.Prelude Wire.SeqNr Rx.Rx Rx.Rx_Proofs Rx.Rx_Slots Tx.Ring Tx.Ring_Proofs
  Tx.Segments Tx.Segments_Proofs Pair.DP Pair.DP_Lemmas.

Definition lenz {A} (l : list A) : Z := Z.of_nat (length l).

Ltac dsimpl := cbn [d_tx d_segs d_rx d_lc d_net d_una d_asg d_clean d_wrap upd_dp set_dtx set_dsegs set_drx] in *.

(* ------------------------------------------------------------------ T1: the sender invariant *)
Definition pkt_ok (isn : Z) (W : list Z) (p : dpkt) : Prop :=
  0 <= k_idx p /\ k_seq p = (isn + k_idx p) mod M16 /\ k_bytes p <> [] /\
  0 <= k_off p /\ k_off p + lenz (k_bytes p) <= lenz W /\
  k_bytes p = slice W (k_off p) (lenz (k_bytes p)).

Record dp_tx_inv (isn ti : Z) (d : dp) : Prop := {
  ti_tx : exists mx, tx_inv ti mx (d_tx d);
  ti_seg : seg_inv (d_segs d);
  ti_rem : g_removed (d_tx d) = ss_removed (d_segs d);
  ti_off : ss_offset (d_segs d) <= lenz (g_written (d_tx d));
  ti_una : 0 <= d_una d <= lenz (d_asg d);
  ti_snd : ss_snd_una (d_segs d) = (isn + d_una d) mod M16;
  ti_shape : map swap2 (skipn (Z.to_nat (d_una d)) (d_asg d)) = shape (ss_segs (d_segs d));
  ti_tiled : atiled 0 (d_asg d);
  ti_sum : asum (d_asg d) = ss_offset (d_segs d);
  ti_net : Forall (pkt_ok isn (g_written (d_tx d))) (d_net d);
}.

Lemma pkt_ok_ext isn W e p : pkt_ok isn W p -> pkt_ok isn (W ++ e) p.
Proof.
  unfold pkt_ok, lenz. intros (A & B & C & D & E & F). rewrite app_length.
  repeat split; try assumption; try lia.
  rewrite slice_app_stable; [exact F|lia|lia|lia].
Qed.

Lemma init_tx_inv isn ti max_rx max_in :
  0 <= isn < M16 -> 0 < ti -> dp_tx_inv isn ti (dp_init isn ti max_rx max_in).
Proof.
  intros Hi Ht. unfold dp_init. constructor; dsimpl.
  - exists ti. apply Ring_Proofs.new_inv. exact Ht.
  - apply Segments_Proofs.new_inv. exact Hi.
  - reflexivity.
  - cbn. lia.
  - cbn. lia.
  - cbn [segments_new ss_snd_una]. unfold M16 in *. rewrite Z.add_0_r. symmetry. apply Z.mod_small. lia.
  - reflexivity.
  - exact I.
  - reflexivity.
  - constructor.
Qed.

(* a step that only touches the ring: appended bytes, same removal count *)
Lemma txi_tx_frame isn ti d t' e :
  dp_tx_inv isn ti d -> (exists mx, tx_inv ti mx t') ->
  g_written t' = g_written (d_tx d) ++ e -> g_removed t' = g_removed (d_tx d) ->
  dp_tx_inv isn ti (set_dtx d t').
Proof.
  intros [I1 I2 I3 I4 I5 I6 I7 I8 I9 I10] Ht Hw Hr. constructor; dsimpl; try assumption.
  - congruence.
  - rewrite Hw. unfold lenz in *. rewrite app_length. lia.
  - rewrite Hw. eapply Forall_impl; [|exact I10]. intros p. apply pkt_ok_ext.
Qed.

Lemma tx_flag_frame t o t' out w :
  is_flag_tx_op o = true -> tx_step t o = (t', out, w) ->
  g_written t' = g_written t /\ g_removed t' = g_removed t /\ ring t' = ring t.
Proof.
  destruct o; cbn [is_flag_tx_op tx_step]; try discriminate; intros _.
  - destruct (writer_dropped t); [intro H; injection H as <- _ _; auto|].
    unfold poll_flush. destruct (ring t) eqn:Er; [intro H; injection H as <- _ _; auto|].
    destruct (t_vsock_closed t); intro H; injection H as <- _ _; cbn [upd g_written g_removed ring]; auto.
  - destruct (writer_dropped t); [intro H; injection H as <- _ _; auto|].
    unfold poll_shutdown. destruct (ring t) eqn:Er;
      destruct (t_vsock_closed t); try destruct (writer_shutdown t);
      intro H; injection H as <- _ _; cbn [upd g_written g_removed ring]; auto.
  - unfold drop_writer. destruct (writer_dropped t); intro H; injection H as <- _ _;
      cbn [upd g_written g_removed ring]; auto.
  - unfold mark_vsock_closed. intro H; injection H as <- _ _. cbn [upd g_written g_removed ring]; auto.
  - unfold register_dispatcher_if_empty. destruct (ring t) eqn:Er; intro H; injection H as <- _ _;
      cbn [upd g_written g_removed ring]; auto.
  - unfold wake_writer. intro H; injection H as <- _ _. cbn [upd g_written g_removed ring]; auto.
Qed.

Lemma tx_flag_ok mx o : is_flag_tx_op o = true -> tx_op_ok mx o.
Proof. destruct o; cbn; try discriminate; auto. Qed.

(* a step that only re-labels segments (on_sent, calc_pipe) *)
Lemma txi_segs_frame isn ti d sg' net' :
  dp_tx_inv isn ti d -> seg_inv sg' ->
  shape (ss_segs sg') = shape (ss_segs (d_segs d)) -> ss_removed sg' = ss_removed (d_segs d) ->
  ss_offset sg' = ss_offset (d_segs d) -> ss_snd_una sg' = ss_snd_una (d_segs d) ->
  Forall (pkt_ok isn (g_written (d_tx d))) net' ->
  dp_tx_inv isn ti (upd_dp d (d_tx d) sg' (d_rx d) (d_lc d) net' (d_una d) (d_asg d) (d_clean d) (d_wrap d)).
Proof.
  intros [I1 I2 I3 I4 I5 I6 I7 I8 I9 I10] Hs Hsh Hr Ho Hu Hn. constructor; dsimpl; try assumption; congruence.
Qed.

(* the table's segments are the tail of the assignment *)
Lemma asg_of_seg isn ti d i g :
  dp_tx_inv isn ti d -> nth_error (ss_segs (d_segs d)) i = Some g ->
  nth_error (d_asg d) (Z.to_nat (d_una d) + i) = Some (sg_abs g, sg_size g).
Proof.
  intros [I1 I2 I3 I4 I5 I6 I7 I8 I9 I10] Hn.
  assert (H : nth_error (shape (ss_segs (d_segs d))) i = Some (sg_size g, sg_abs g))
    by (unfold shape; rewrite nth_error_map, Hn; reflexivity).
  rewrite <- I7, nth_error_map, nth_error_skipn in H.
  destruct (nth_error (d_asg d) (Z.to_nat (d_una d) + i)) as [[o l]|]; [|discriminate].
  cbn [option_map swap2 fst snd] in H. injection H as -> ->. reflexivity.
Qed.

(* T1, the no-panic / no-Bug part: an item of the sending iterator lies inside the ring *)
Lemma send_item_ok isn ti d f :
  dp_tx_inv isn ti d -> In f (iter_for_sending (d_segs d) None) ->
  0 <= fs_payload_offset f /\ 0 < sg_size (fs_seg f) /\
  fs_payload_offset f + sg_size (fs_seg f) <= lenz (ring (d_tx d)) /\
  nth_error (d_asg d) (Z.to_nat (d_una d) + fs_idx f) = Some (sg_abs (fs_seg f), sg_size (fs_seg f)) /\
  fs_seq f = (isn + d_una d + Z.of_nat (fs_idx f)) mod M16 /\
  g_removed (d_tx d) + fs_payload_offset f = sg_abs (fs_seg f) /\
  sg_abs (fs_seg f) + sg_size (fs_seg f) <= lenz (g_written (d_tx d)).
Proof.
  intros Hinv Hin. destruct (iter_none_item _ _ Hin) as (Hn & Hs & Hp).
  pose proof (asg_of_seg _ _ _ _ _ Hinv Hn) as Ha.
  destruct Hinv as [(mx & I1) I2 I3 I4 I5 I6 I7 I8 I9 I10].
  destruct I2 as (Hlb & Hoff & Ht & Hr & Hu).
  destruct (tiled_in' _ _ _ Ht (nth_error_In _ _ Hn)) as (A1 & A2 & A3).
  destruct (atiled_nth _ _ _ _ _ I8 Ha) as (B1 & B2 & B3 & B4).
  destruct I1 as (T1 & T2 & T3 & T4 & T5).
  unfold lenz in *.
  split; [lia|]. split; [lia|]. split; [lia|]. split; [exact Ha|].
  split; [rewrite Hs, I6; unfold wadd16, M16; lia|]. split; lia.
Qed.

(* popping the last segment gives its bytes back and forgets its assignment *)
Lemma pop_back_split isn ti d init s :
  dp_tx_inv isn ti d -> ss_segs (d_segs d) = init ++ [s] ->
  exists A o, d_asg d = A ++ [(o, sg_size s)] /\ o = sg_abs s /\ d_una d <= lenz A /\
              map swap2 (skipn (Z.to_nat (d_una d)) A) = shape init.
Proof.
  intros [I1 I2 I3 I4 I5 I6 I7 I8 I9 I10] Hs.
  rewrite Hs, shape_app in I7. cbn [shape map] in I7.
  apply map_eq_app in I7. destruct I7 as (T0 & T1 & HT & H0 & H1).
  destruct T1 as [|[o l] [|? ?]]; cbn [map swap2 fst snd] in H1; try discriminate.
  injection H1 as -> ->.
  exists (firstn (Z.to_nat (d_una d)) (d_asg d) ++ T0), (sg_abs s).
  assert (Hl : length (firstn (Z.to_nat (d_una d)) (d_asg d)) = Z.to_nat (d_una d))
    by (apply firstn_length_le; unfold lenz in *; lia).
  split; [rewrite <- app_assoc, <- HT, firstn_skipn; reflexivity|].
  split; [reflexivity|]. split; [unfold lenz; rewrite app_length; lia|].
  rewrite skipn_app, skipn_all2 by lia. rewrite Hl, Nat.sub_diag. exact H0.
Qed.

Lemma pop_back_tx_inv isn ti d init s :
  dp_tx_inv isn ti d -> ss_segs (d_segs d) = init ++ [s] ->
  forall cl, dp_tx_inv isn ti
    (upd_dp d (d_tx d) (set_segs (d_segs d) init (ss_len_bytes (d_segs d) - sg_size s)
                                 (ss_offset (d_segs d) - sg_size s))
            (d_rx d) (d_lc d) (d_net d) (d_una d) (removelast (d_asg d)) cl (d_wrap d)).
Proof.
  intros Hinv Hs cl. destruct (pop_back_split _ _ _ _ _ Hinv Hs) as (A & o & HA & -> & Hu & Hsh).
  destruct Hinv as [I1 I2 I3 I4 I5 I6 I7 I8 I9 I10].
  rewrite HA in *. rewrite removelast_last.
  apply atiled_app in I8. destruct I8 as [I8 I8']. cbn [atiled] in I8'.
  rewrite asum_app in I9. cbn [asum] in I9.
  unfold lenz in *. rewrite app_length in I5. cbn [length] in I5.
  destruct I8' as (Ho & Hsz & _).
  constructor; dsimpl; unfold set_segs, lenz; cbn [ss_segs ss_removed ss_offset ss_snd_una ss_len_bytes].
  - exact I1.
  - apply (pop_back_inv (d_segs d) init s I2 Hs).
  - exact I3.
  - lia.
  - lia.
  - exact I6.
  - exact Hsh.
  - exact I8.
  - lia.
  - exact I10.
Qed.

(* a write appends to the written stream and removes nothing *)
Lemma tx_write_frame ti mx t buf t' out w :
  tx_inv ti mx t -> tx_step t (ToWrite buf) = (t', out, w) ->
  exists e, g_written t' = g_written t ++ e /\ g_removed t' = g_removed t.
Proof.
  intros Hinv E. cbn [tx_step] in E.
  destruct (writer_dropped t); [injection E as <- _ _; exists []; rewrite app_nil_r; auto|].
  destruct (poll_write t buf) as [[t1 r] w1] eqn:Ew. injection E as <- _ _.
  destruct (poll_write_spec _ _ _ _ _ _ _ Hinv Ew) as (_ & _ & W3 & W4 & _).
  destruct r as [n| | | |]; [exists (firstn (Z.to_nat n) buf); split; [apply W4|exact W3]|..];
    (exists []; rewrite app_nil_r; split; [apply W4|exact W3]).
Qed.

(* grow with any bound: the capacity stays under the larger of the two bounds *)
Lemma grow_any_inv ti mx t m t' g :
  tx_inv ti mx t -> grow t m = (t', g) ->
  tx_inv ti (Z.max mx m) t' /\ g_written t' = g_written t /\ g_removed t' = g_removed t.
Proof.
  intros (T1 & T2 & T3 & T4 & T5) E. unfold grow in E.
  destruct (Z.leb_spec m (cap t)); injection E as <- _; unfold tx_inv; cbn [upd ring cap g_removed g_written];
    (split; [|split; reflexivity]); repeat split; try assumption; lia.
Qed.

(* a step of the receiver alone *)
Lemma txi_rx_frame isn ti d r lc cl wr :
  dp_tx_inv isn ti d ->
  dp_tx_inv isn ti (upd_dp d (d_tx d) (d_segs d) r lc (d_net d) (d_una d) (d_asg d) cl wr).
Proof. intros [I1 I2 I3 I4 I5 I6 I7 I8 I9 I10]. constructor; assumption. Qed.

Lemma txi_enqueue isn ti d len probe :
  dp_tx_inv isn ti d -> 0 < len -> len <= unsegmented d ->
  dp_tx_inv isn ti (upd_dp d (d_tx d) (enqueue (d_segs d) len probe) (d_rx d) (d_lc d) (d_net d) (d_una d)
                           (d_asg d ++ [(ss_offset (d_segs d), len)]) (d_clean d) (d_wrap d)).
Proof.
  intros [(mx & I1) I2 I3 I4 I5 I6 I7 I8 I9 I10] Hl0 Hl1. unfold unsegmented in Hl1.
  destruct (enqueue_fields (d_segs d) len probe) as (F1 & F2 & F3 & F4 & F5).
  (* the new segment lies inside the written stream *)
  assert (Hfit : ss_offset (d_segs d) + len <= lenz (g_written (d_tx d))).
  { destruct I2 as (_ & Hoff & _). destruct I1 as (_ & _ & _ & _ & T5). unfold lenz. lia. }
  constructor; dsimpl.
  - exists mx. exact I1.
  - apply enqueue_inv; [exact I2|lia].
  - rewrite F2. exact I3.
  - rewrite F3. exact Hfit.
  - unfold lenz in *. rewrite app_length. cbn [length]. lia.
  - rewrite F4. exact I6.
  - rewrite F1, shape_app, skipn_app, map_app, I7.
    replace (Z.to_nat (d_una d) - length (d_asg d))%nat with 0%nat by (unfold lenz in I5; lia). reflexivity.
  - apply atiled_app. split; [exact I8|]. cbn [atiled]. rewrite I9. repeat split; lia.
  - rewrite asum_app, F3. cbn [asum]. lia.
  - exact I10.
Qed.

(* the packet cut from the ring for an item of the sending iterator *)
Lemma txi_send isn ti d f now :
  dp_tx_inv isn ti d -> In f (iter_for_sending (d_segs d) None) ->
  dp_tx_inv isn ti
    (upd_dp d (d_tx d) (on_sent (d_segs d) (fs_idx f) now) (d_rx d) (d_lc d)
       (d_net d ++ [{| k_seq := fs_seq f;
                       k_bytes := firstn (Z.to_nat (sg_size (fs_seg f)))
                                    (skipn (Z.to_nat (fs_payload_offset f)) (ring (d_tx d)));
                       k_idx := d_una d + Z.of_nat (fs_idx f); k_off := sg_abs (fs_seg f) |}])
       (d_una d) (d_asg d) (d_clean d) (d_wrap d)).
Proof.
  intros Hinv Hin. destruct (send_item_ok _ _ _ _ Hinv Hin) as (S1 & S2 & S3 & S4 & S5 & S6 & S7).
  pose proof Hinv as [(mx & I1) I2 I3 I4 I5 I6 I7 I8 I9 I10].
  destruct (on_sent_shape (d_segs d) (fs_idx f) now) as (O1 & O2 & O3 & O4 & _).
  apply txi_segs_frame; try assumption; [apply on_sent_inv; exact I2|].
  apply Forall_app. split; [exact I10|]. constructor; [|constructor].
  rewrite (ring_slice _ _ _ _ _ I1 S1), S6.
  assert (Hlen : lenz (slice (g_written (d_tx d)) (sg_abs (fs_seg f)) (sg_size (fs_seg f))) = sg_size (fs_seg f)).
  { destruct I1 as (_ & _ & T3 & _). unfold lenz in *. apply slice_length; lia. }
  unfold pkt_ok; cbn [k_idx k_seq k_bytes k_off]. rewrite Hlen.
  destruct I1 as (_ & _ & T3 & _).
  split; [lia|]. split; [rewrite S5; f_equal; lia|].
  split; [intro Hnil; rewrite Hnil in Hlen; cbn in Hlen; lia|].
  split; [lia|]. split; [exact S7|reflexivity].
Qed.

(* an acknowledgement: the table drops a prefix, the ring the bytes of that prefix *)
Lemma txi_ack isn ti d now ack sk sg res t tr :
  dp_tx_inv isn ti d ->
  remove_up_to_ack (d_segs d) now ack sk = (sg, res) ->
  truncate_front (d_tx d) (ar_acked_bytes res) = (t, tr) ->
  dp_tx_inv isn ti (upd_dp d t sg (d_rx d) (d_lc d) (d_net d) (d_una d + ar_acked_segments res) (d_asg d)
                           (d_clean d) (d_wrap d)).
Proof.
  intros [(mx & I1) I2 I3 I4 I5 I6 I7 I8 I9 I10] E Et.
  destruct (remove_up_to_ack_inv _ _ _ _ _ _ I2 E) as (R1 & R2 & R3 & R4 & _).
  destruct (remove_up_to_ack_shape _ _ _ _ _ _ I2 E) as (Q1 & Q2 & Q3).
  destruct (truncate_spec _ _ _ _ _ _ I1 R3 Et) as (U1 & _ & U3 & _ & U5 & _).
  (* the acknowledged bytes are all in the ring: nothing is cut short *)
  assert (Hfit : ar_acked_bytes res <= Z.of_nat (length (ring (d_tx d)))).
  { destruct I2 as (_ & Hoff & _). pose proof R1 as (Hlb' & Hoff' & Ht' & _).
    pose proof (tiled_sizes_nonneg _ _ Ht'). destruct I1 as (_ & _ & _ & _ & T5). unfold lenz in I4. lia. }
  assert (Hseg : Z.of_nat (length (ss_segs (d_segs d))) = lenz (d_asg d) - d_una d).
  { rewrite <- shape_length, <- I7, map_length, skipn_length. unfold lenz in *. lia. }
  constructor; dsimpl.
  - exists mx. exact U1.
  - exact R1.
  - rewrite U5, Z.min_l by exact Hfit. clear - R2 I3. lia.
  - rewrite U3, R4. exact I4.
  - clear - Q1 Hseg I5. lia.
  - rewrite Q3, I6. clear. unfold M16. lia.
  - rewrite Q2, <- I7, skipn_map, skipn_skipn'. f_equal. f_equal. clear - I5 Q1. lia.
  - exact I8.
  - rewrite R4. exact I9.
  - rewrite U3. exact I10.
Qed.

Lemma dp_step_tx_inv isn ti d o : dp_tx_inv isn ti d -> dp_tx_inv isn ti (dp_step d o).
Proof.
  intros Hinv. pose proof Hinv as [(mx & I1) I2 _ _ _ _ _ _ _ _].
  destruct o; cbn [dp_step].
  - (* write *)
    destruct (tx_step (d_tx d) (ToWrite buf)) as [[t out] w] eqn:E.
    destruct (tx_write_frame _ _ _ _ _ _ _ I1 E) as (e & Hw & Hr).
    apply (txi_tx_frame _ _ _ _ e); [exact Hinv|exists mx; exact (tx_step_inv _ _ _ (ToWrite buf) _ _ _ I1 I E)|exact Hw|exact Hr].
  - (* flag ops of the ring *)
    destruct (is_flag_tx_op o) eqn:Ef; [|exact Hinv].
    destruct (tx_step (d_tx d) o) as [[t out] w] eqn:E.
    destruct (tx_flag_frame _ _ _ _ _ Ef E) as (F1 & F2 & _).
    apply (txi_tx_frame _ _ _ _ []); [exact Hinv| |rewrite app_nil_r; exact F1|exact F2].
    exists mx. exact (tx_step_inv _ _ _ _ _ _ _ I1 (tx_flag_ok mx o Ef) E).
  - (* enqueue *)
    destruct ((0 <? len) && (len <=? unsegmented d)) eqn:Eg; [|exact Hinv].
    apply andb_true_iff in Eg. destruct Eg as [Hl0 Hl1]. apply Z.ltb_lt in Hl0. apply Z.leb_le in Hl1.
    apply txi_enqueue; assumption.
  - (* send *)
    destruct (nth_error (iter_for_sending (d_segs d) None) i) as [f|] eqn:En; [|exact Hinv].
    destruct (_ || _ || _); [exact Hinv|].
    apply txi_send; [exact Hinv|exact (nth_error_In _ _ En)].
  - (* pop_mtu_probe *)
    destruct (pop_mtu_probe (d_segs d) seq) as [sg popped] eqn:E. destruct popped; [|exact Hinv].
    destruct (pop_mtu_probe_popped _ _ _ E) as (init & s & Hs & _ & _ & ->).
    apply (pop_back_tx_inv isn ti d init s Hinv Hs).
  - (* pop_expired_mtu_probe *)
    destruct (pop_expired_mtu_probe (d_segs d) timed_out max_retx) as [sg pe] eqn:E.
    destruct pe; try exact Hinv.
    destruct (pop_expired_popped _ _ _ _ _ _ E) as (init & s & Hs & _ & _ & ->).
    apply (pop_back_tx_inv isn ti d init s Hinv Hs).
  - (* ack + truncate *)
    destruct (remove_up_to_ack (d_segs d) now ack sk) as [sg res] eqn:E.
    destruct (truncate_front (d_tx d) (ar_acked_bytes res)) as [t tr] eqn:Et.
    exact (txi_ack _ _ _ _ _ _ _ _ _ _ Hinv E Et).
  - (* calc_pipe *)
    destruct (calc_pipe (d_segs d) high_rxt high_data rtt now) as [[[sg p] rc]|] eqn:E; [|exact Hinv].
    destruct (calc_pipe_fields _ _ _ _ _ _ _ _ E) as (C1 & C2 & C3 & C4 & _).
    apply (txi_segs_frame isn ti d sg (d_net d)); try assumption; [|apply Hinv]. eapply calc_pipe_inv; eauto.
  - (* grow *)
    destruct (grow (d_tx d) mx0) as [t g] eqn:E.
    destruct (grow_any_inv _ _ _ _ _ _ I1 E) as (G1 & G2 & G3).
    apply (txi_tx_frame _ _ _ _ []); [exact Hinv|eauto|rewrite app_nil_r; exact G2|exact G3].
  - (* the receiver's ops leave the sender side alone *)
    destruct (nth_error (d_net d) j) as [p|]; [|exact Hinv].
    destruct (_ <? 0); [exact Hinv|].
    destruct (rx_add_remove _ _ _ _) as [[r ar] w].
    destruct ar as [[n b| | | | |]|]; apply txi_rx_frame; exact Hinv.
  - destruct (rx_flush (d_rx d)) as [[r fr] w]. apply txi_rx_frame. exact Hinv.
  - destruct (is_flag_rx_op o); [|exact Hinv].
    destruct (rx_step (d_rx d) o) as [[r out] w]. apply txi_rx_frame. exact Hinv.
  - destruct (rx_step (d_rx d) (ORead n)) as [[r out] w]. apply txi_rx_frame. exact Hinv.
Qed.
