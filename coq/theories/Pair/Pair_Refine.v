(* C01, the lift from the data-path system DP (Pair/DP.v) to the connection model: DATA EVENTS.

   What one VirtualSocket::poll does to the objects that carry bytes (its ring and segment table as
   a sender; its receiver and ack counter as a receiver; the data packets it emits) is a list of
   primitive DATA EVENTS `dev`, applied in order to the data view `dst` of the connection
   (Pair_RefineWalk*.v prove this, function by function, for the whole of poll).  The events of
   the sender side are the data-path ops of DP on (d_tx, d_segs, d_net), those of the receiver
   side the ops on (d_rx, d_lc) (Pair_RefineSim.v).  This file: the events, their semantics, the
   relation `devs` ("s' is reached from s by data events") and its algebra.

   x_pend: bytes acknowledged by messages already processed in this poll but not yet removed from
   the ring (process_all_incoming_messages calls remove_up_to_ack per message and truncate_front
   once at the end; DP's DAck does both at once). *)
From Utp Require Import Base.Prelude Wire.SeqNr Wire.Header Rtt.Rtte Mtu.SegSizes Rx.Rx Tx.Ring
  Tx.Segments Conn.Recovery Conn.Msg Conn.VSockRec Conn.VSock Conn.VSockRun Conn.VSock_Inv Pair.DP.

Arguments SOk {CC A}. Arguments SErr {CC A}. Arguments SPanic {CC A}.

Record dst := mk_dst {
  x_tx : tx; x_segs : segments; x_rx : rx; x_lc : Z;
  x_out : list (Z * list Z);        (* (seq, payload) of the data packets emitted, newest first *)
  x_pend : Z;
}.

Inductive dev :=
| EvTxFlag (o : tx_op)                 (* mark closed, wake the writer: independent of the ring content *)
| EvRegister                           (* register_dispatcher_if_empty *)
| EvGrow (mx : Z)
| EvAck (now ack : Z) (sk : option sackbits)
| EvTrunc
| EvPipe (hr hd rtt now : Z)
| EvPopExpired (timed_out : bool) (max_retx : Z)
| EvPopProbe (seq : Z)
| EvEnqueue (len : Z) (probe : bool)
| EvSend (i : nat) (now : Z)
| EvData (seq : Z) (payload : list Z)
| EvFin (seq : Z) (payload : list Z)
| EvFlush
| EvRxFlag (o : rx_op)
| EvRxErr.

Definition tx_skip (t : tx) (p : Z) : tx := fst (truncate_front t p).

Definition set_xtx (st : dst) (t : tx) : dst :=
  mk_dst t (x_segs st) (x_rx st) (x_lc st) (x_out st) (x_pend st).
Definition set_xsegs (st : dst) (sg : segments) : dst :=
  mk_dst (x_tx st) sg (x_rx st) (x_lc st) (x_out st) (x_pend st).
Definition set_xrx (st : dst) (r : rx) : dst :=
  mk_dst (x_tx st) (x_segs st) r (x_lc st) (x_out st) (x_pend st).

(* ring operations whose effect does not depend on the ring content (they commute with the pending
   truncation) *)
Definition pend_safe_op (o : tx_op) : bool :=
  match o with ToMarkClosed | ToWakeWriter | ToDropWriter => true | _ => false end.

(* the receiver's reaction to one ST_DATA message: exactly DP's DDeliver *)
Definition data_apply (r : rx) (lc seq : Z) (payload : list Z) : rx * Z :=
  let off := seq_sub seq (wadd16 lc 1) in
  if off <? 0 then (r, lc)
  else
    let '(r1, ar, _) := rx_add_remove r KData payload off in
    match ar with
    | UarOk (ArConsumed n _) => (r1, wadd16 lc (n mod M16))
    | _ => (r1, lc)
    end.

Definition dapply (st : dst) (e : dev) : dst :=
  match e with
  | EvTxFlag o => if pend_safe_op o then let '(t, _, _) := tx_step (x_tx st) o in set_xtx st t else st
  | EvRegister => if x_pend st =? 0 then set_xtx st (register_dispatcher_if_empty (x_tx st)) else st
  | EvGrow mx => let '(t, _) := grow (x_tx st) mx in set_xtx st t
  | EvAck now ack sk =>
      let '(sg, res) := remove_up_to_ack (x_segs st) now ack sk in
      mk_dst (x_tx st) sg (x_rx st) (x_lc st) (x_out st) (x_pend st + ar_acked_bytes res)
  | EvTrunc => mk_dst (tx_skip (x_tx st) (x_pend st)) (x_segs st) (x_rx st) (x_lc st) (x_out st) 0
  | EvPipe hr hd rtt now =>
      match calc_pipe (x_segs st) hr hd rtt now with
      | Some (sg, _, _) => set_xsegs st sg
      | None => st
      end
  | EvPopExpired to mr =>
      let '(sg, pe) := pop_expired_mtu_probe (x_segs st) to mr in
      match pe with PeExpired _ _ => set_xsegs st sg | _ => st end
  | EvPopProbe seq =>
      let '(sg, popped) := pop_mtu_probe (x_segs st) seq in
      if popped then set_xsegs st sg else st
  | EvEnqueue len probe =>
      if (x_pend st =? 0) && (0 <? len) &&
         (len <=? Z.of_nat (length (ring (x_tx st))) - ss_len_bytes (x_segs st))
      then set_xsegs st (enqueue (x_segs st) len probe) else st
  | EvSend i now =>
      if negb (x_pend st =? 0) then st
      else
        match nth_error (iter_for_sending (x_segs st) None) i with
        | None => st
        | Some f =>
            let off := fs_payload_offset f in
            let plen := sg_size (fs_seg f) in
            let ringlen := Z.of_nat (length (ring (x_tx st))) in
            if (off <? 0) || (ringlen <? off) || (ringlen <? off + plen) then st
            else
              mk_dst (x_tx st) (on_sent (x_segs st) (fs_idx f) now) (x_rx st) (x_lc st)
                     ((fs_seq f, firstn (Z.to_nat plen) (skipn (Z.to_nat off) (ring (x_tx st)))) :: x_out st)
                     (x_pend st)
        end
  | EvData seq payload =>
      let '(r, lc) := data_apply (x_rx st) (x_lc st) seq payload in
      mk_dst (x_tx st) (x_segs st) r lc (x_out st) (x_pend st)
  | EvFin seq payload =>
      let '(r, _, _) := rx_add_remove (x_rx st) KFin payload (seq_sub seq (wadd16 (x_lc st) 1)) in
      mk_dst (x_tx st) (x_segs st) r seq (x_out st) (x_pend st)
  | EvFlush => let '(r, _, _) := rx_flush (x_rx st) in set_xrx st r
  | EvRxFlag o => if is_flag_rx_op o then let '(r, _, _) := rx_step (x_rx st) o in set_xrx st r else st
  | EvRxErr => set_xrx st (fst (rx_enqueue_error (x_rx st)))
  end.

Fixpoint drun (st : dst) (evs : list dev) : dst :=
  match evs with [] => st | e :: r => drun (dapply st e) r end.

Lemma drun_app : forall a b st, drun st (a ++ b) = drun (drun st a) b.
Proof. induction a as [|e a IH]; intros b st; cbn [drun app]; [reflexivity|apply IH]. Qed.

(* events that end the simulation of the receiver by DP: the peer's FIN was accepted (DP has no
   end-of-stream marker), an error was queued for the reader (the connection died) *)
Definition is_fin_ev (e : dev) : bool := match e with EvFin _ _ => true | _ => false end.
Definition is_err_ev (e : dev) : bool := match e with EvRxErr => true | _ => false end.

(* the data packets among the datagrams emitted *)
Definition data_view (out : list packet) : list (Z * list Z) :=
  flat_map (fun pk => match ch_type (p_hdr pk) with
                      | ST_DATA => [(ch_seq (p_hdr pk), p_payload pk)]
                      | _ => []
                      end) out.

Definition is_data_msg (m : msg) (seq : Z) (payload : list Z) : Prop :=
  ch_type (m_hdr m) = ST_DATA /\ ch_seq (m_hdr m) = seq /\ m_payload m = payload.

(* a data event comes from a message of the inbox *)
Definition ev_src (inbox : list msg) (e : dev) : Prop :=
  match e with
  | EvData seq payload => exists m, In m inbox /\ is_data_msg m seq payload
  | _ => True
  end.

Lemma ev_src_incl a b e : incl a b -> ev_src a e -> ev_src b e.
Proof.
  intros Hi. destruct e; cbn [ev_src]; auto. intros (m & Hm & Hd). exists m. split; [apply Hi; exact Hm|exact Hd].
Qed.

Section Devs.
Context {CC : Type}.
Notation vsock := (vsock CC).

Definition dview_of (p : Z) (s : vsock) : dst :=
  mk_dst (v_tx s) (v_segs s) (v_rx s) (v_last_consumed s) (data_view (v_out s)) p.

Definition rfin (s : vsock) : bool := is_remote_fin_or_later (v_state s).

(* s' is reached from s by a list of data events.  ib = the messages the delivery events may come
   from, err = the list may contain EvRxErr. *)
Definition devs (ib : list msg) (err : bool) (p : Z) (s : vsock) (p' : Z) (s' : vsock) : Prop :=
  exists evs,
    dview_of p' s' = drun (dview_of p s) evs /\
    Forall (ev_src ib) evs /\
    (exists pre, v_inbox s = pre ++ v_inbox s') /\
    (rfin s = true -> rfin s' = true) /\
    (existsb is_fin_ev evs = true -> rfin s' = true) /\
    (existsb is_err_ev evs = true -> err = true) /\
    (ss_ok (v_ss s) -> ss_ok (v_ss s')).

Lemma devs_refl ib err p s : devs ib err p s p s.
Proof.
  exists []. cbn [drun existsb].
  split; [reflexivity|]. split; [constructor|]. split; [exists []; reflexivity|].
  split; [auto|]. split; [discriminate|]. split; [discriminate|auto].
Qed.

Lemma devs_trans ib err p0 s0 p1 s1 p2 s2 :
  devs ib err p0 s0 p1 s1 -> devs ib err p1 s1 p2 s2 -> devs ib err p0 s0 p2 s2.
Proof.
  intros (e1 & A1 & A2 & (pre1 & A3) & A4 & A5 & A6 & A7) (e2 & B1 & B2 & (pre2 & B3) & B4 & B5 & B6 & B7).
  exists (e1 ++ e2). rewrite drun_app, <- A1, <- B1.
  split; [reflexivity|]. split; [apply Forall_app; split; assumption|].
  split; [exists (pre1 ++ pre2); rewrite A3, B3, app_assoc; reflexivity|].
  split; [auto|]. split.
  { rewrite existsb_app. intro H. apply orb_true_iff in H. destruct H as [H|H]; auto. }
  split; [rewrite existsb_app; intro H; apply orb_true_iff in H; destruct H as [H|H]; auto|auto].
Qed.

(* more messages to deliver from, or an error event allowed: a weaker claim *)
Lemma devs_mono ib ib' (err err' : bool) p s p' s' :
  incl ib ib' -> (err = true -> err' = true) -> devs ib err p s p' s' -> devs ib' err' p s p' s'.
Proof.
  intros Hi He (e & A1 & A2 & A3 & A4 & A5 & A6 & A7). exists e.
  split; [exact A1|]. split; [eapply Forall_impl; [|exact A2]; intro x; apply ev_src_incl; exact Hi|].
  split; [exact A3|]. split; [exact A4|]. split; [exact A5|]. split; [auto|exact A7].
Qed.

Lemma devs_weaken ib p s p' s' : devs ib false p s p' s' -> devs ib true p s p' s'.
Proof. apply devs_mono; [apply incl_refl|reflexivity]. Qed.

Lemma devs_ib_mono ib ib' err p s p' s' : incl ib ib' -> devs ib err p s p' s' -> devs ib' err p s p' s'.
Proof. intro Hi. apply devs_mono; [exact Hi|auto]. Qed.

(* a step that leaves the data view alone *)
Definition same_view (s s' : vsock) : Prop :=
  v_tx s' = v_tx s /\ v_segs s' = v_segs s /\ v_rx s' = v_rx s /\ v_last_consumed s' = v_last_consumed s /\
  data_view (v_out s') = data_view (v_out s) /\ v_inbox s' = v_inbox s /\ v_ss s' = v_ss s.

Lemma same_view_refl s : same_view s s.
Proof. unfold same_view. repeat split. Qed.

Lemma same_view_trans a b c : same_view a b -> same_view b c -> same_view a c.
Proof.
  unfold same_view. intros (A1 & A2 & A3 & A4 & A5 & A6 & A7) (B1 & B2 & B3 & B4 & B5 & B6 & B7).
  repeat split; congruence.
Qed.

Lemma devs_same ib err p s s' :
  same_view s s' -> (rfin s = true -> rfin s' = true) -> devs ib err p s p s'.
Proof.
  intros (A1 & A2 & A3 & A4 & A5 & A6 & A7) Hf. exists []. cbn [drun existsb].
  split; [unfold dview_of; rewrite A1, A2, A3, A4, A5; reflexivity|].
  split; [constructor|]. split; [exists []; rewrite A6; reflexivity|].
  split; [exact Hf|]. split; [discriminate|]. split; [discriminate|]. rewrite A7. auto.
Qed.

Lemma devs_same_state ib err p s s' :
  same_view s s' -> v_state s' = v_state s -> devs ib err p s p s'.
Proof. intros H Hs. apply devs_same; [exact H|]. unfold rfin. rewrite Hs. auto. Qed.

(* one event; a delivery must come from ib, a FIN event must leave the state after the remote FIN *)
Lemma devs_one ib err e p s p' s' :
  dview_of p' s' = dapply (dview_of p s) e ->
  ev_src ib e -> (is_fin_ev e = true -> rfin s' = true) -> (is_err_ev e = true -> err = true) ->
  v_inbox s' = v_inbox s -> (rfin s = true -> rfin s' = true) -> (ss_ok (v_ss s) -> ss_ok (v_ss s')) ->
  devs ib err p s p' s'.
Proof.
  intros H Hsrc Hf He Hi Hr Hss. exists [e]. cbn [drun existsb]. rewrite !orb_false_r.
  split; [exact H|]. split; [constructor; [exact Hsrc|constructor]|].
  split; [exists []; rewrite Hi; reflexivity|]. split; [exact Hr|]. split; [exact Hf|].
  split; [exact He|exact Hss].
Qed.

(* "s' is reached from s by data events that are no deliveries, outside
   process_all_incoming_messages" *)
Definition D0 (s s' : vsock) : Prop := forall ib, devs ib false 0 s 0 s'.

Lemma D0_refl s : D0 s s.
Proof. intro ib. apply devs_refl. Qed.
Lemma D0_trans a b c : D0 a b -> D0 b c -> D0 a c.
Proof. intros H1 H2 ib. eapply devs_trans; [apply H1|apply H2]. Qed.

(* ------------------------------------------------------------------ a triple for the step monad *)
Definition stp {A} (m : step (CC:=CC) A) (Q : vsock -> A -> Prop) (E : vsock -> Prop) : Prop :=
  match m with SOk s a => Q s a | SErr s e => E s | SPanic => True end.

Lemma stp_bind {A B} (m : step A) (f : vsock -> A -> step B) Q1 Q2 E :
  stp m Q1 E -> (forall s a, Q1 s a -> stp (f s a) Q2 E) -> stp (sbind m f) Q2 E.
Proof. destruct m as [s a|s e|]; cbn [stp sbind]; auto. Qed.

Lemma stp_bind' {A B} (m : step A) (f : vsock -> A -> step B) Q1 Q2 (E1 E : vsock -> Prop) :
  stp m Q1 E1 -> (forall s, E1 s -> E s) -> (forall s a, Q1 s a -> stp (f s a) Q2 E) -> stp (sbind m f) Q2 E.
Proof. destruct m as [s a|s e|]; cbn [stp sbind]; auto. Qed.

Lemma stp_weaken {A} (m : step A) (Q1 Q2 : vsock -> A -> Prop) (E1 E2 : vsock -> Prop) :
  stp m Q1 E1 -> (forall s a, Q1 s a -> Q2 s a) -> (forall s, E1 s -> E2 s) -> stp m Q2 E2.
Proof. destruct m as [s a|s e|]; cbn [stp]; auto. Qed.

End Devs.
