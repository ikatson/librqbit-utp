(* C01, connection and pair level.
   - send_data_payload (T1 at the connection): the datagram send_data emits carries exactly
     g_written[sg_abs, sg_abs + size) under the ring/segment relation of vs_inv (p = 0).
   - c01_prefix_of_dp_view (T3, composition, PARTIAL): a pair state whose byte-carrying components
     (A's ring and segment table, B's receiver and ack counter) form a guarded reachable state of
     the data-path system satisfies the prefix property.  What is NOT proved is that every
     reachable pair state has such a view (`poll_refines_dp`, stated below).
   - c01_pair_unguarded_refuted: the pair model exhibits KF1; the classifier recognises it.
   - c01_pair_channel_closed_regression: the former D17 witness now satisfies the predicate. *)
From Utp Require Import Base.Prelude Wire.SeqNr Wire.Header Rtt.Rtte Mtu.SegSizes Rx.Rx Rx.Rx_Proofs Tx.Ring
  Tx.Ring_Proofs Tx.Segments Tx.Segments_Proofs Conn.Recovery Conn.Msg Conn.VSockRec Conn.VSock
  Conn.VSockRun Conn.VObs Conn.C10_Pred Conn.VSock_Inv Pair.Pair Pair.DP Pair.DP_Lemmas Pair.DP_Proofs
  Pair.DP_RxProofs Pair.DP_Witness.

(* ------------------------------------------------------------------ T1 at the connection *)
Section Conn.
Context {CC : Type}.
Notation vsock := (vsock CC).

Lemma next_send_frame (s : vsock) size s1 o :
  next_send s size = (s1, o) ->
  v_out s1 = v_out s /\ v_tx s1 = v_tx s /\ v_rx s1 = v_rx s /\ v_segs s1 = v_segs s /\
  v_last_consumed s1 = v_last_consumed s.
Proof.
  intro H. destruct (next_send_shape _ _ _ _ H) as [[[-> _]|(o0 & r & _ & ->)] _]; vsimpl; repeat split.
Qed.

(* the payload of a data packet is the slice of the written stream its segment was assigned *)
Lemma send_data_payload ti tm (s : vsock) h f s' :
  tx_inv ti tm (v_tx s) -> g_removed (v_tx s) = ss_removed (v_segs s) ->
  fs_payload_offset f = sg_abs (fs_seg f) - ss_removed (v_segs s) ->
  send_data s h f = SOk s' SdSent ->
  exists hd,
    v_out s' = {| p_hdr := hd;
                  p_payload := slice (g_written (v_tx s)) (sg_abs (fs_seg f)) (sg_size (fs_seg f)) |} :: v_out s /\
    ch_type hd = ST_DATA /\ ch_seq hd = fs_seq f /\ v_tx s' = v_tx s /\ v_rx s' = v_rx s.
Proof.
  intros Htx Hrem Hoff. unfold send_data.
  destruct (_ =? o_max_retx _); [discriminate|].
  destruct (Z.ltb_spec (fs_payload_offset f) 0) as [|Hp0]; [discriminate|].
  destruct (_ <? fs_payload_offset f); [discriminate|].
  destruct (_ <? fs_payload_offset f + _); [discriminate|].
  destruct (next_send s _) as [s1 o] eqn:E.
  destruct (next_send_frame _ _ _ _ E) as (F1 & F2 & F3 & F4 & F5).
  destruct o; try discriminate.
  intro H; injection H as <-.
  eexists. split; [|split; [|split; [|split]]].
  - unfold on_packet_sent, emit. destruct (seq_gt _ _); [destruct (seq_gt _ _)|]; vsimpl; rewrite F1; f_equal; f_equal;
      rewrite (ring_slice _ _ _ _ _ Htx Hp0); f_equal; lia.
  - reflexivity.
  - reflexivity.
  - unfold on_packet_sent, emit. destruct (seq_gt _ _); [destruct (seq_gt _ _)|]; vsimpl; exact F2.
  - unfold on_packet_sent, emit. destruct (seq_gt _ _); [destruct (seq_gt _ _)|]; vsimpl; exact F3.
Qed.

(* under the joint invariant every item of the sending iterator qualifies, whenever no
   acknowledged-but-not-yet-truncated bytes are pending (p = 0: everywhere in poll except between
   remove_up_to_ack and truncate_front inside process_all_incoming_messages) *)
Lemma iter_items_qualify ti tm (s : vsock) st f :
  vs_inv_p ti tm 0 s -> v_state s <> Closed -> In f (iter_for_sending (v_segs s) st) ->
  tx_inv ti tm (v_tx s) /\ g_removed (v_tx s) = ss_removed (v_segs s) /\
  fs_payload_offset f = sg_abs (fs_seg f) - ss_removed (v_segs s).
Proof.
  intros Hinv Hst Hin. destruct (inv_parts _ _ _ _ Hinv) as (_ & _ & I3 & _ & (R0 & R1 & R2 & R3) & _).
  split; [exact I3|]. split; [specialize (R2 Hst); lia|].
  unfold iter_for_sending in Hin. apply filter_In in Hin. destruct Hin as [Hin _].
  apply in_map_iff in Hin. destruct Hin as ([i g] & <- & _). reflexivity.
Qed.

End Conn.

(* ------------------------------------------------------------------ T3, composition (partial) *)
(* the byte-carrying components of the direction A -> B of a pair, seen as a data-path state *)
Definition dp_view {CC} (a b : vsock CC) (d : dp) : Prop :=
  d_tx d = v_tx a /\ d_segs d = v_segs a /\ d_rx d = v_rx b /\ d_lc d = v_last_consumed b.

Lemma c01_prefix_of_dp_view {CC} (a b : vsock CC) isn ti max_rx max_in ops :
  0 <= isn < M16 -> 0 < ti -> 0 < max_rx -> 0 < max_in ->
  let d := dp_run (dp_init isn ti max_rx max_in) ops in
  dp_view a b d -> dp_guards d = true ->
  is_prefix (g_read (v_rx b)) (g_written (v_tx a)).
Proof.
  intros Hi Ht Hr Hm d (V1 & _ & V3 & _) Hg.
  pose proof (dp_prefix isn ti max_rx max_in ops Hi Ht Hr Hm Hg) as H. fold d in H.
  rewrite V1, V3 in H. exact H.
Qed.

(* what remains for the whole pair (NOT proved): every step of the pair model is matched by a
   list of data-path ops on the view of each direction.  For the direction A -> B: *)
Definition poll_refines_dp {CC} (cci : cc_iface CC) (isn ti max_rx max_in : Z) : Prop :=
  forall (s : pair (CC := CC)) (o : pop) (ops : list dop),
    dp_view (p_a s) (p_b s) (dp_run (dp_init isn ti max_rx max_in) ops) ->
    exists ops', dp_view (p_a (fst (pstep cci s o))) (p_b (fst (pstep cci s o)))
                         (dp_run (dp_init isn ti max_rx max_in) (ops ++ ops')).

(* ------------------------------------------------------------------ KF1 on the pair model *)
Definition kf1_cfg : pconfig :=
  {| pc_ipv4 := true; pc_mtu_a := 1500; pc_mtu_b := 1500; pc_rx_a := 1048576; pc_rx_b := 1048576;
     pc_tx_init := 32768; pc_tx_max := 1048576; pc_nagle_a := true; pc_nagle_b := true; pc_max_retx := 5;
     pc_inactivity := 10000000000; pc_wait_last_ack := true; pc_probe_retx := 0; pc_syn_seq := 100;
     pc_isn_b := 200; pc_conn_id := 7; pc_syn_rtt := 1000000 |}.

(* A writes 1980 bytes; segments 101 (528 bytes) and 102 (MTU probe, 991 bytes) reach B; B's
   acknowledgements are lost; after the retransmission timeout the probe is popped and its bytes
   re-segmented as 102 (528) and 103 (463 + ...); B, which holds the old 102, accepts the new 103. *)
Definition kf1_pair_ops : list pop :=
  [PoApp SA (AWrite (wpattern 1980)); PoPoll SA []; PoDeliver SA 0; PoDeliver SA 0; PoPoll SB [];
   PoDrop SB 0; PoDrop SB 0; PoDrop SB 0; PoNow 1500000000; PoPoll SA [];
   PoDeliver SA 0; PoDeliver SA 0; PoDeliver SA 0; PoPoll SB []; PoApp SB (ARead 5000)].

Lemma c01_pair_unguarded_refuted :
  exists w cfg ops s0,
    pair_new (fixed_cc w) (fun _ _ => tt) cfg = Some s0 /\
    let tr := ptrace (fixed_cc w) s0 ops in
    let evs := pevents (fixed_cc w) s0 ops in
    c01_pair_ok (zip_obs ops tr) = false /\ c01_kf1_class evs = true /\
    c01_pair_guarded evs (zip_obs ops tr) = true /\
    ha_len (p_rb (prun (fixed_cc w) s0 ops)) = 2047 /\ ha_len (p_wa (prun (fixed_cc w) s0 ops)) = 1980.
Proof.
  exists 100000, kf1_cfg, kf1_pair_ops.
  destruct (pair_new (fixed_cc 100000) (fun _ _ => tt) kf1_cfg) as [s0|] eqn:E; [|vm_compute in E; discriminate].
  exists s0. split; [reflexivity|].
  vm_compute in E. injection E as <-. vm_compute. repeat split.
Qed.

(* ------------------------------------------------------------------ D17 on the pair model (repaired)
   A's message channel is closed (its socket dispatcher is gone) while an acknowledgement for
   segment 101 is queued and 102 is outstanding.  Before the repair process_all_incoming_messages
   took the channel-closed arm and returned BEFORE truncate_front; the retransmission timer had
   expired, and segment 102 was retransmitted from the un-truncated ring, carrying the bytes of
   101, which B read twice.  Now the bookkeeping runs on that arm too: on the same op list A
   retransmits nothing after the close, B has read exactly bytes 0..527, and the prefix predicate
   holds at every step. *)
Definition d17_cfg : pconfig :=
  {| pc_ipv4 := true; pc_mtu_a := 576; pc_mtu_b := 576; pc_rx_a := 1048576; pc_rx_b := 1048576;
     pc_tx_init := 32768; pc_tx_max := 1048576; pc_nagle_a := true; pc_nagle_b := true; pc_max_retx := 5;
     pc_inactivity := 10000000000; pc_wait_last_ack := true; pc_probe_retx := 1; pc_syn_seq := 100;
     pc_isn_b := 200; pc_conn_id := 7; pc_syn_rtt := 1000000 |}.

Definition d17_pair_ops : list pop :=
  [PoPoll SB []; PoDeliver SB 0; PoApp SA (AWrite (wpattern 3000)); PoPoll SA []; PoDeliver SA 0;
   PoDrop SA 0; PoDrop SA 0; PoDrop SA 0; PoDrop SA 0; PoDrop SA 0;
   PoPoll SB []; PoNow 50000000; PoPoll SB []; PoDeliver SB 0; PoApp SA ACloseInbox; PoNow 5000000000;
   PoPoll SA []; PoDeliver SA 0; PoDeliver SA 0; PoDeliver SA 0; PoPoll SB []; PoApp SB (ARead 5000)].

Lemma c01_pair_channel_closed_regression :
  exists s0,
    pair_new (fixed_cc 100000) (fun _ _ => tt) d17_cfg = Some s0 /\
    let tr := ptrace (fixed_cc 100000) s0 d17_pair_ops in
    let evs := pevents (fixed_cc 100000) s0 d17_pair_ops in
    c01_pair_ok (zip_obs d17_pair_ops tr) = true /\ c01_kf1_class evs = false /\ c01_d17_class evs = false /\
    In (KeClose SA) evs /\
    ha_len (p_rb (prun (fixed_cc 100000) s0 d17_pair_ops)) = 528 /\
    ha_len (p_wa (prun (fixed_cc 100000) s0 d17_pair_ops)) = 3000.
Proof.
  destruct (pair_new (fixed_cc 100000) (fun _ _ => tt) d17_cfg) as [s0|] eqn:E; [|vm_compute in E; discriminate].
  exists s0. split; [reflexivity|].
  vm_compute in E. injection E as <-. vm_compute. repeat split.
  repeat (try (left; reflexivity); right).
Qed.

(* the predicate is sound for what it states: when it holds, each reader's cumulative length
   never exceeds what the peer has written, step by step (the hash equality is the content check) *)
Lemma dchk_step_len d wrote rd d' :
  dchk_step d wrote rd = Some d' ->
  ha_len (dc_acc d) <= fst rd <= ha_len (dc_acc d) + Z.of_nat (length (dc_pending d ++ wrote)).
Proof.
  unfold dchk_step.
  destruct (Z.ltb_spec (fst rd - ha_len (dc_acc d)) 0); [discriminate|].
  destruct (Z.ltb_spec (Z.of_nat (length (dc_pending d ++ wrote))) (fst rd - ha_len (dc_acc d))); [discriminate|].
  cbn [orb]. destruct (_ =? snd rd); [|discriminate]. intros _. lia.
Qed.
