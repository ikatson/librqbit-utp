(* C01 lift, the walk through VirtualSocket::poll, part 1: the functions that send control packets
   leave the data view alone; the state table; send_data is the event EvSend. *)
From Utp Require Import Base.Prelude Wire.SeqNr Wire.Header Rtt.Rtte Mtu.SegSizes Rx.Rx Tx.Ring
  Tx.Segments Tx.Segments_Proofs Conn.Recovery Conn.Msg Conn.VSockRec Conn.VSock Conn.VSockRun Conn.VSock_Inv
  Conn.VSock_Lemmas Conn.VSock_LemmasStep Rx.Rx_Slots Pair.DP Pair.DP_Lemmas Pair.Pair_Refine.

Arguments SOk {CC A}. Arguments SErr {CC A}. Arguments SPanic {CC A}.
Arguments TblDrop {CC}. Arguments TblErr {CC}. Arguments TblContinue {CC}.

Section Walk.
Context {CC : Type} (cci : cc_iface CC).
Notation vsock := (vsock CC).
Notation step := (@step CC).

(* same data view and same connection state *)
Definition svs (s s' : vsock) : Prop := same_view s s' /\ v_state s' = v_state s.

Lemma svs_refl s : svs s s.
Proof. split; [apply same_view_refl|reflexivity]. Qed.

Lemma svs_trans a b c : svs a b -> svs b c -> svs a c.
Proof. intros [A1 A2] [B1 B2]. split; [eapply same_view_trans; eauto|congruence]. Qed.

Lemma devs_svs ib err p s s' : svs s s' -> devs ib err p s p s'.
Proof. intros [H1 H2]. apply devs_same_state; assumption. Qed.

Lemma D0_svs s s' : svs s s' -> D0 s s'.
Proof. intros H ib. apply devs_svs. exact H. Qed.

Ltac sv_auto := unfold svs, same_view; vsimpl; repeat split; auto.

(* stR R s m (Conn/VSock_LemmasStep.v) is the triple with R s as both postconditions *)
Lemma stR_stp {A} (R : vsock -> vsock -> Prop) s (m : step A) :
  stR R s m -> stp m (fun s' _ => R s s') (fun s' => R s s').
Proof. intro H. destruct m; exact H. Qed.

Lemma stR_svs_D0 {A} s (m : step A) : stR svs s m -> stR D0 s m.
Proof. destruct m; cbn [stR]; auto using D0_svs. Qed.

Lemma next_send_svs (s : vsock) size s1 o :
  next_send s size = (s1, o) -> svs s s1 /\ v_out s1 = v_out s /\ v_now s1 = v_now s /\ v_opts s1 = v_opts s.
Proof.
  intro H. destruct (next_send_shape _ _ _ _ H) as [[[-> _]|(o0 & r & _ & ->)] _].
  - split; [apply svs_refl|auto].
  - split; [sv_auto|vsimpl; auto].
Qed.

Lemma data_view_cons_ctl pk out : ch_type (p_hdr pk) <> ST_DATA -> data_view (pk :: out) = data_view out.
Proof.
  intro H. unfold data_view. cbn [flat_map]. destruct (ch_type (p_hdr pk)); try reflexivity. congruence.
Qed.

Lemma send_control_packet_svs (s : vsock) h : ch_type h <> ST_DATA -> stR svs s (send_control_packet s h).
Proof.
  intro Hty. unfold send_control_packet.
  destruct (v_transport_pending s); [exact (svs_refl s)|].
  destruct (next_send s _) as [s1 o] eqn:E.
  destruct (next_send_svs _ _ _ _ E) as (((A1 & A2 & A3 & A4 & A5 & A6 & A7) & A8) & A9 & _).
  destruct o; cbn [stR].
  - unfold on_packet_sent, emit, svs, same_view; vsimpl.
    rewrite data_view_cons_ctl by (cbn [p_hdr hdr_with ch_type]; exact Hty).
    repeat split; auto.
  - unfold svs, same_view; vsimpl. repeat split; auto.
  - unfold svs, same_view. repeat split; auto.
  - unfold svs, same_view. repeat split; auto.
Qed.

Lemma send_ack_svs (s : vsock) : stR svs s (send_ack s).
Proof. unfold send_ack. apply send_control_packet_svs. cbn [hdr_with ch_type]. discriminate. Qed.

Lemma maybe_send_fin_svs (s : vsock) : stR svs s (maybe_send_fin s).
Proof.
  unfold maybe_send_fin.
  destruct (v_transport_pending s); [exact (svs_refl s)|].
  destruct (our_fin_if_unacked (v_state s)) as [f|]; [|exact (svs_refl s)].
  destruct (negb _); [exact (svs_refl s)|].
  apply (stR_sbind svs svs_trans); [apply send_control_packet_svs; cbn [hdr_with ch_type]; discriminate|].
  intros s1 sent. destruct sent; cbn [stR]; [sv_auto|apply svs_refl].
Qed.

Lemma maybe_send_ack_svs (s : vsock) : stR svs s (maybe_send_ack s).
Proof.
  unfold maybe_send_ack.
  destruct (immediate_ack_to_transmit s); [apply send_ack_svs|].
  destruct (should_send_window_update s); [apply send_ack_svs|].
  destruct (timer_expired _ _).
  - destruct (ack_to_transmit s); [apply send_ack_svs|]. cbn [stR]. sv_auto.
  - destruct (0 <? v_cbu s); cbn [stR]; [sv_auto|apply svs_refl].
Qed.

(* the handshake changes the state, but only between states before the remote FIN *)
Lemma maybe_send_syn_ack_sv (s : vsock) :
  stp (maybe_send_syn_ack s)
      (fun s' _ => same_view s s' /\ rfin s' = rfin s)
      (fun s' => same_view s s' /\ rfin s' = rfin s).
Proof.
  assert (Hgo : forall c, rfin s = false ->
    stp (if c =? o_max_retx (v_opts s) then SErr s ErrMaxSynAckRetransmissionsReached
         else sbind (send_ack s) (fun s1 sent =>
           if sent then
             SOk (set_t_syn_ack_resend (set_state s1 (SynAckSent (c + 1)))
                    (timer_arm (v_t_syn_ack_resend s1) (v_now s1) SYNACK_RESEND_INTERNAL true)) tt
           else SOk s1 tt))
        (fun s' _ => same_view s s' /\ rfin s' = rfin s) (fun s' => same_view s s' /\ rfin s' = rfin s)).
  { intros c Hr. destruct (c =? _); [cbn [stp]; split; [apply same_view_refl|reflexivity]|].
    eapply stp_bind'; [apply stR_stp, send_ack_svs| |].
    { intros s1 [H1 H2]. split; [exact H1|unfold rfin; rewrite H2; reflexivity]. }
    intros s1 sent [H1 H2].
    destruct sent; cbn [stp].
    - split; [eapply same_view_trans; [exact H1|]; unfold same_view; vsimpl; repeat split|].
      unfold rfin in *. vsimpl. cbn [is_remote_fin_or_later]. symmetry. exact Hr.
    - split; [exact H1|unfold rfin; rewrite H2; reflexivity]. }
  unfold maybe_send_syn_ack. destruct (v_state s) eqn:Es.
  (* after the handshake only timers change *)
  3-7: cbn [stp]; split; [unfold same_view; vsimpl; repeat split|unfold rfin; vsimpl; reflexivity].
  - apply Hgo. unfold rfin. rewrite Es. reflexivity.
  - destruct (timer_expired _ _); [apply Hgo; unfold rfin; rewrite Es; reflexivity|].
    cbn [stp]. split; [apply same_view_refl|reflexivity].
Qed.

(* ------------------------------------------------------------------ the state table *)
Definition tbl_state (r : table_res (CC:=CC)) : vsock :=
  match r with TblDrop s | TblErr s _ | TblContinue s => s end.

Lemma state_table_sv (s : vsock) h :
  same_view s (tbl_state (state_table s h)) /\
  (rfin s = true -> rfin (tbl_state (state_table s h)) = true).
Proof.
  unfold state_table, same_view, rfin, restart_remote_inactivity_timer.
  destruct (ch_type h); destruct (v_state s) eqn:Es;
    repeat match goal with
    | |- context [if ?c then _ else _] => destruct c
    end; cbn [tbl_state]; vsimpl; rewrite ?Es; cbn [is_remote_fin_or_later]; repeat split; auto.
Qed.

(* a FIN that passes the table leaves the connection in a state after the remote FIN *)
Lemma state_table_fin (s : vsock) h s1 :
  ch_type h = ST_FIN -> state_table s h = TblContinue s1 -> rfin s1 = true.
Proof.
  intros Hty. unfold state_table, rfin, restart_remote_inactivity_timer. rewrite Hty.
  destruct (v_state s) eqn:Es;
    repeat match goal with
    | |- context [if ?c then _ else _] => destruct c
    end; intro H; try discriminate; injection H as <-; vsimpl; rewrite ?Es; reflexivity.
Qed.

(* ------------------------------------------------------------------ items of the sending iterator *)
Definition item_ok (t : segments) (f : for_sending) : Prop :=
  exists g, nth_error (ss_segs t) (fs_idx f) = Some g /\ sg_delivered g = false /\
            sg_size g = sg_size (fs_seg f) /\
            fs_payload_offset f = sg_abs g - ss_removed t /\
            fs_seq f = wadd16 (ss_snd_una t) (Z.of_nat (fs_idx f) mod M16).

Lemma enum_from_nth_in {A} : forall (l : list A) i j x, In (j, x) (enum_from i l) ->
  (i <= j)%nat /\ nth_error l (j - i) = Some x.
Proof.
  induction l as [|y l IH]; intros i j x H; cbn [enum_from] in H; [destruct H|].
  destruct H as [H|H].
  - injection H as <- <-. split; [lia|]. rewrite Nat.sub_diag. reflexivity.
  - destruct (IH _ _ _ H) as [H1 H2]. split; [lia|].
    replace (j - i)%nat with (S (j - S i)) by lia. exact H2.
Qed.

Lemma iter_item_ok t st f : In f (iter_for_sending t st) -> item_ok t f.
Proof.
  unfold iter_for_sending. intro H. apply filter_In in H. destruct H as [H Hd].
  apply in_map_iff in H. destruct H as ([i g] & <- & Hin). cbn [fs_seg] in Hd.
  apply enum_from_nth_in in Hin. destruct Hin as [Hle Hn]. rewrite nth_error_skipn in Hn.
  exists g. cbn [fs_idx fs_seg fs_payload_offset fs_seq].
  split; [rewrite <- Hn; f_equal; lia|]. split; [apply negb_true_iff in Hd; exact Hd|]. auto.
Qed.

Lemma nth_error_update_nth {A} (f : A -> A) : forall (l : list A) n i,
  nth_error (update_nth l n f) i = if Nat.eqb i n then option_map f (nth_error l i) else nth_error l i.
Proof.
  induction l as [|x l IH]; intros n i; cbn [update_nth].
  - destruct i; cbn [nth_error]; destruct (Nat.eqb _ n); reflexivity.
  - destruct n as [|n]; destruct i as [|i]; cbn [nth_error Nat.eqb option_map update_nth]; try reflexivity.
    apply IH.
Qed.

Lemma item_ok_on_sent t f idx now : item_ok t f -> item_ok (on_sent t idx now) f.
Proof.
  intros (g & H1 & H2 & H3 & H4 & H5). unfold item_ok, on_sent, Segments.set_segs.
  cbn [ss_segs ss_removed ss_snd_una]. rewrite nth_error_update_nth, H1.
  destruct (Nat.eqb (fs_idx f) idx); cbn [option_map]; eexists; (split; [reflexivity|]);
    cbn [seg_on_sent sg_delivered sg_size sg_abs]; auto.
Qed.

(* the position of an undelivered segment in the iterator that starts at the front *)
Lemma enum_from_in {A} : forall (l : list A) i k x, nth_error l k = Some x -> In ((i + k)%nat, x) (enum_from i l).
Proof.
  induction l as [|y l IH]; intros i k x H; [destruct k; discriminate|].
  destruct k as [|k]; cbn [nth_error] in H; cbn [enum_from].
  - injection H as ->. left. f_equal. lia.
  - right. replace (i + S k)%nat with (S i + k)%nat by lia. apply IH. exact H.
Qed.

Lemma iter_none_index t idx g :
  nth_error (ss_segs t) idx = Some g -> sg_delivered g = false ->
  exists i, nth_error (iter_for_sending t None) i =
            Some {| fs_idx := idx; fs_seq := wadd16 (ss_snd_una t) (Z.of_nat idx mod M16);
                    fs_payload_offset := sg_abs g - ss_removed t; fs_seg := g |}.
Proof.
  intros Hn Hd. apply In_nth_error. unfold iter_for_sending. apply filter_In.
  split; [|cbn [fs_seg]; rewrite Hd; reflexivity].
  apply in_map_iff. exists (idx, g). split; [reflexivity|].
  cbn [skipn]. apply (enum_from_in (ss_segs t) 0 idx g Hn).
Qed.

(* ------------------------------------------------------------------ send_data *)
Lemma data_view_cons_data pk out :
  ch_type (p_hdr pk) = ST_DATA -> data_view (pk :: out) = (ch_seq (p_hdr pk), p_payload pk) :: data_view out.
Proof. intro H. unfold data_view. cbn [flat_map]. rewrite H. reflexivity. Qed.

Lemma send_data_ev (s : vsock) h f :
  item_ok (v_segs s) f ->
  stp (send_data s h f)
      (fun s' _ => D0 s s' /\ (forall f', item_ok (v_segs s) f' -> item_ok (v_segs s') f'))
      (fun s' => svs s s').
Proof.
  intros (g & G1 & G2 & G3 & G4 & G5). unfold send_data.
  destruct (_ =? o_max_retx _); [cbn [stp]; apply svs_refl|].
  destruct (Z.ltb_spec (fs_payload_offset f) 0) as [|Hp0]; [exact I|].
  destruct (Z.ltb_spec (Z.of_nat (length (ring (v_tx s)))) (fs_payload_offset f)) as [|Hp1];
    [cbn [stp]; apply svs_refl|].
  destruct (Z.ltb_spec (Z.of_nat (length (ring (v_tx s)))) (fs_payload_offset f + sg_size (fs_seg f))) as [|Hp2];
    [cbn [stp]; apply svs_refl|].
  destruct (next_send s _) as [s1 o] eqn:E.
  destruct (next_send_svs _ _ _ _ E) as (((A1 & A2 & A3 & A4 & A5 & A6 & A7) & A8) & A9 & A10 & _).
  destruct o; cbn [stp].
  - (* sent *)
    destruct (iter_none_index _ _ _ G1 G2) as (i & Hi).
    assert (Hg : (sg_abs g - ss_removed (v_segs s) <? 0)
                 || (Z.of_nat (length (ring (v_tx s))) <? sg_abs g - ss_removed (v_segs s))
                 || (Z.of_nat (length (ring (v_tx s))) <? sg_abs g - ss_removed (v_segs s) + sg_size g) = false).
    { rewrite <- G4, G3. lia. }
    destruct (seq_gt _ _); [destruct (seq_gt _ _)|]; unfold on_packet_sent, emit; (split;
      [intro ib; apply (devs_one ib false (EvSend i (v_now s)));
        [unfold dview_of; vsimpl; cbn [dapply x_pend x_segs x_tx x_rx x_lc x_out];
         change (negb (0 =? 0)) with false; cbv iota; rewrite Hi;
         cbn [fs_payload_offset fs_seg fs_idx fs_seq]; rewrite Hg;
         rewrite data_view_cons_data by reflexivity; cbn [p_hdr p_payload ch_seq];
         rewrite A1, A2, A3, A4, A9, A10, <- G4, G3, <- G5; reflexivity
        |exact I|discriminate|discriminate|vsimpl; exact A6
        |unfold rfin; vsimpl; rewrite A8; auto|vsimpl; rewrite A7; auto]
      |intros f' Hf'; vsimpl; rewrite A2, A10; apply item_ok_on_sent; exact Hf']).
  - split; [intro ib; apply devs_same_state; [unfold same_view; vsimpl; repeat split; auto|vsimpl; exact A8]|].
    intros f' Hf'. vsimpl. rewrite A2. exact Hf'.
  - split; [intro ib; apply devs_same_state; [unfold same_view; repeat split; auto|exact A8]|].
    intros f' Hf'. rewrite A2. exact Hf'.
  - unfold svs, same_view. repeat split; auto.
Qed.

End Walk.
