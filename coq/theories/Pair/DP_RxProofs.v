(* C01 on the data-path system, receiver side and composition (T2, T3). *)
From Utp Require Import Base.Prelude Wire.SeqNr Rx.Rx Rx.Rx_Proofs Rx.Rx_Slots Tx.Ring Tx.Ring_Proofs
  Tx.Segments Tx.Segments_Proofs Pair.DP Pair.DP_Lemmas Pair.DP_Proofs.

(* which payload belongs to absolute index k under the current assignment *)
Definition want_of (W : list Z) (asg : list (Z * Z)) (k : Z) : option (list Z) :=
  if k <? 0 then None
  else match nth_error asg (Z.to_nat k) with
       | Some (o, l) => Some (slice W o l)
       | None => None
       end.

(* stream offset at which absolute index k starts *)
Definition aoff (asg : list (Z * Z)) (k : Z) : Z := asum (firstn (Z.to_nat k) asg).

Record dp_rx_inv (isn : Z) (d : dp) : Prop := {
  ri_rx : rx_inv (d_rx d);
  ri_lc : d_lc d = (isn - 1 + rx_consumed (d_rx d)) mod M16;
  ri_cons : rx_consumed (d_rx d) <= lenz (d_asg d);
  ri_noerr : no_qerror (d_rx d);
  ri_slots : slots_ok (want_of (g_written (d_tx d)) (d_asg d)) (g_base (d_rx d)) (ooq_data (d_rx d));
  ri_stream : stream (d_rx d) =
              firstn (Z.to_nat (aoff (d_asg d) (rx_consumed (d_rx d)))) (g_written (d_tx d));
}.

Lemma rx_consumed_nonneg r : rx_inv r -> 0 <= g_base r /\ 0 <= filled_front r /\ 0 <= rx_consumed r.
Proof.
  intro H. pose proof (inv_ff_bounds r H). destruct H as (_ & _ & _ & _ & _ & _ & _ & _ & Hg).
  unfold rx_consumed. lia.
Qed.

Lemma init_rx_inv isn tx_cap max_rx max_in :
  0 <= isn < M16 -> 0 < max_rx -> 0 < max_in -> dp_rx_inv isn (dp_init isn tx_cap max_rx max_in).
Proof.
  intros Hi Hr Hm. unfold dp_init. constructor; dsimpl.
  - apply build_inv; assumption.
  - unfold rx_consumed, rx_build; cbn [g_base filled_front]. unfold wsub16, M16 in *. f_equal. lia.
  - unfold rx_consumed, rx_build, lenz; cbn. lia.
  - unfold no_qerror, rx_build; cbn. constructor.
  - intros i sl Hn Hd. unfold rx_build in Hn; cbn [ooq_data] in Hn.
    apply nth_error_repeat in Hn. subst sl. discriminate.
  - unfold stream, pending, rx_consumed, rx_build, aoff; cbn. reflexivity.
Qed.

(* ---- extension of the written stream / of the assignment keeps the receiver's view ---- *)
Lemma want_of_ext isn ti d e x k bs :
  dp_tx_inv isn ti d ->
  want_of (g_written (d_tx d)) (d_asg d) k = Some bs ->
  want_of (g_written (d_tx d) ++ e) (d_asg d ++ x) k = Some bs.
Proof.
  intros [I1 I2 I3 I4 I5 I6 I7 I8 I9 I10]. unfold want_of.
  destruct (k <? 0); [discriminate|].
  destruct (nth_error (d_asg d) (Z.to_nat k)) as [[o l]|] eqn:En; [|discriminate].
  intro H; injection H as <-.
  rewrite nth_error_app1 by (apply nth_error_Some; rewrite En; discriminate). rewrite En.
  destruct (atiled_nth _ _ _ _ _ I8 En) as (A & B & C & D).
  pose proof (asum_firstn_le 0 (d_asg d) (Z.to_nat k) I8).
  f_equal. unfold lenz in *. apply slice_app_stable; lia.
Qed.

Lemma rxi_ext isn ti d d' e x :
  dp_tx_inv isn ti d -> dp_rx_inv isn d ->
  d_rx d' = d_rx d -> d_lc d' = d_lc d ->
  g_written (d_tx d') = g_written (d_tx d) ++ e -> d_asg d' = d_asg d ++ x ->
  dp_rx_inv isn d'.
Proof.
  intros Ht [R1 R2 R3 R4 R5 R6] Er El Ew Ea.
  pose proof Ht as [I1 I2 I3 I4 I5 I6 I7 I8 I9 I10].
  constructor; rewrite ?Er, ?El, ?Ew, ?Ea; try assumption.
  - unfold lenz in *. rewrite app_length. lia.
  - eapply slots_ok_want_ext; [exact R5|]. intros i sl bs _ _ Hw. eapply want_of_ext; eauto.
  - rewrite R6. unfold aoff.
    destruct (rx_consumed_nonneg _ R1) as (_ & _ & Hc).
    rewrite (firstn_app_stable (d_asg d) x) by (unfold lenz in *; lia).
    pose proof (asum_firstn_le 0 (d_asg d) (Z.to_nat (rx_consumed (d_rx d))) I8).
    symmetry. apply firstn_app_stable. unfold lenz in *. lia.
Qed.

Lemma rxi_same isn ti d d' :
  dp_tx_inv isn ti d -> dp_rx_inv isn d ->
  d_rx d' = d_rx d -> d_lc d' = d_lc d ->
  g_written (d_tx d') = g_written (d_tx d) -> d_asg d' = d_asg d ->
  dp_rx_inv isn d'.
Proof.
  intros Ht Hr Er El Ew Ea. apply (rxi_ext isn ti d d' [] []); try assumption; rewrite app_nil_r; assumption.
Qed.

(* ---- a clean pop: the popped index is not held by the receiver ---- *)
Lemma want_of_removelast W asg k bs :
  want_of W asg k = Some bs -> k <> lenz asg - 1 -> want_of W (removelast asg) k = Some bs.
Proof.
  unfold want_of. destruct (Z.ltb_spec k 0); [discriminate|].
  destruct (nth_error asg (Z.to_nat k)) as [[o l]|] eqn:En; [|discriminate].
  intros Hw Hk. assert (Hlt : (Z.to_nat k < length asg)%nat) by (apply nth_error_Some; rewrite En; discriminate).
  rewrite nth_error_removelast by (unfold lenz in *; lia). rewrite En. exact Hw.
Qed.

Lemma rxi_pop isn ti d sg' cl :
  dp_tx_inv isn ti d -> dp_rx_inv isn d ->
  slot_taken (d_rx d) (lenz (d_asg d) - 1) = false -> d_asg d <> [] ->
  dp_rx_inv isn (upd_dp d (d_tx d) sg' (d_rx d) (d_lc d) (d_net d) (d_una d) (removelast (d_asg d)) cl (d_wrap d)).
Proof.
  intros Ht [R1 R2 R3 R4 R5 R6] Hst Hne.
  destruct (rx_consumed_nonneg _ R1) as (Hg & Hf & Hc).
  unfold slot_taken in Hst. apply orb_false_iff in Hst. destruct Hst as [H1 H2].
  apply Z.ltb_ge in H1. apply negb_false_iff in H2.
  assert (Hlen : lenz (removelast (d_asg d)) = lenz (d_asg d) - 1).
  { destruct (exists_last Hne) as (A & t & ->). rewrite removelast_last. unfold lenz. rewrite app_length. cbn. lia. }
  constructor; dsimpl; try assumption.
  - lia.
  - intros i sl Hn Hd. destruct (R5 i sl Hn Hd) as (bs & Hw & ->). exists bs. split; [|reflexivity].
    apply want_of_removelast; [exact Hw|].
    intro Heq.
    replace (Z.to_nat (lenz (d_asg d) - 1 - g_base (d_rx d))) with i in H2 by (unfold rx_consumed in *; lia).
    rewrite (nth_error_nth _ _ slot_default Hn) in H2. congruence.
  - rewrite R6. unfold aoff. f_equal. f_equal.
    destruct (exists_last Hne) as (A & t & HA). rewrite HA, removelast_last.
    rewrite HA in H1. unfold lenz in H1. rewrite app_length in H1. cbn [length] in H1.
    rewrite firstn_app_stable by lia. reflexivity.
Qed.

(* ---- flush ---- *)
Lemma rxi_flush isn ti d r fr w :
  dp_tx_inv isn ti d -> dp_rx_inv isn d -> rx_flush (d_rx d) = (r, fr, w) -> dp_rx_inv isn (set_drx d r).
Proof.
  intros Ht [R1 R2 R3 R4 R5 R6] E.
  destruct (rx_flush_spec _ _ _ _ R1 E) as (F0 & _ & F1 & F2 & _).
  destruct (rx_flush_data _ _ _ _ E) as ((m & m' & Hd & Hg) & Hq).
  assert (Hc : rx_consumed r = rx_consumed (d_rx d)) by exact F2.
  constructor; dsimpl; rewrite ?Hc; try assumption.
  - apply Hq. exact R4.
  - rewrite Hd, Hg. apply slots_ok_shift. exact R5.
  - rewrite F1. exact R6.
Qed.

(* ---- stream offsets of the assignment ---- *)
Lemma aoff_mono asg k n : atiled 0 asg -> 0 <= k -> 0 <= n -> aoff asg k <= aoff asg (k + n).
Proof.
  intros Hat Hk Hn. unfold aoff.
  replace (Z.to_nat (k + n)) with (Z.to_nat k + Z.to_nat n)%nat by lia.
  rewrite firstn_add, asum_app.
  rewrite <- (firstn_skipn (Z.to_nat k) asg) in Hat. apply atiled_app in Hat. destruct Hat as [_ Hat].
  pose proof (asum_firstn_le _ _ (Z.to_nat n) Hat). lia.
Qed.

(* ---- consecutive non-default slots hold consecutive pieces of the written stream ---- *)
Lemma slots_run W asg : atiled 0 asg ->
  forall l k, 0 <= k -> k <= lenz asg ->
  slots_ok (want_of W asg) k l -> (forall sl, In sl l -> slot_is_default sl = false) ->
  k + lenz l <= lenz asg /\ slots_bytes l = slice W (aoff asg k) (aoff asg (k + lenz l) - aoff asg k).
Proof.
  intros Hat. induction l as [|x xs IH]; intros k Hk Hkl Hok Hnd.
  - unfold lenz in *; cbn [length]. change (Z.of_nat 0) with 0. rewrite Z.add_0_r, Z.sub_diag. split; [lia|reflexivity].
  - destruct (Hok 0%nat x eq_refl (Hnd x (or_introl eq_refl))) as (bs & Hw & ->).
    rewrite Z.add_0_r in Hw. unfold want_of in Hw. destruct (Z.ltb_spec k 0); [lia|].
    destruct (nth_error asg (Z.to_nat k)) as [[o ln]|] eqn:En; [|discriminate]. injection Hw as <-.
    assert (Hlt : (Z.to_nat k < length asg)%nat) by (apply nth_error_Some; rewrite En; discriminate).
    destruct (atiled_nth _ _ _ _ _ Hat En) as (A & B & C & D).
    destruct (IH (k + 1)) as [IH1 IH2]; [lia|unfold lenz in *; lia|eapply slots_ok_tail; exact Hok|
      intros sl Hin; apply Hnd; right; exact Hin|].
    assert (Hl : lenz (SPayload (slice W o ln) :: xs) = 1 + lenz xs) by (unfold lenz; cbn [length]; lia).
    rewrite Hl, Z.add_assoc. split; [lia|].
    cbn [slots_bytes]. rewrite IH2.
    assert (E1 : aoff asg (k + 1) = aoff asg k + ln).
    { unfold aoff. replace (Z.to_nat (k + 1)) with (S (Z.to_nat k)) by lia. exact C. }
    assert (E0 : o = aoff asg k) by (unfold aoff; lia).
    pose proof (asum_firstn_le 0 asg (Z.to_nat k) Hat) as Hb0.
    assert (Hmono : aoff asg (k + 1) <= aoff asg (k + 1 + lenz xs)) by (apply aoff_mono; [exact Hat|lia|unfold lenz; lia]).
    rewrite E0, E1.
    replace (aoff asg (k + 1 + lenz xs) - aoff asg k) with (ln + (aoff asg (k + 1 + lenz xs) - (aoff asg k + ln))) by lia.
    apply slice_cat; unfold aoff in *; lia.
Qed.

Lemma slots_ok_firstn want k l n : slots_ok want k l -> slots_ok want k (firstn n l).
Proof.
  intros Hok i sl Hn Hd.
  assert (Hlt : (i < length (firstn n l))%nat) by (apply nth_error_Some; rewrite Hn; discriminate).
  rewrite firstn_length in Hlt. rewrite nth_error_firstn_lt in Hn by lia. exact (Hok i sl Hn Hd).
Qed.

Lemma slots_ok_skipn want k l (m : nat) : slots_ok want k l -> slots_ok want (k + Z.of_nat m) (skipn m l).
Proof.
  intro H. pose proof (slots_ok_shift want k l m 0 H) as H'. cbn [repeat] in H'. rewrite app_nil_r in H'. exact H'.
Qed.

(* the n slots that an insertion lets the receiver consume extend its stream by the next
   n pieces of the written stream *)
Lemma consumed_run W asg r data n :
  atiled 0 asg -> 0 <= g_base r -> 0 <= filled_front r -> rx_consumed r <= lenz asg ->
  slots_ok (want_of W asg) (g_base r) data ->
  n = twf_n (skipn (Z.to_nat (filled_front r)) data) ->
  stream r = firstn (Z.to_nat (aoff asg (rx_consumed r))) W ->
  rx_consumed r + n <= lenz asg /\
  stream r ++ slots_bytes (firstn (Z.to_nat n) (skipn (Z.to_nat (filled_front r)) data)) =
  firstn (Z.to_nat (aoff asg (rx_consumed r + n))) W.
Proof.
  intros Hat Hg Hf R3 Hok Hn R6. unfold rx_consumed in *.
  set (ffn := Z.to_nat (filled_front r)) in *.
  pose proof (twf_n_nonneg (skipn ffn data)) as Hb. rewrite <- Hn in Hb.
  set (run := firstn (Z.to_nat n) (skipn ffn data)).
  assert (Hrun_ok : slots_ok (want_of W asg) (g_base r + filled_front r) run).
  { apply slots_ok_firstn. replace (filled_front r) with (Z.of_nat ffn) by (unfold ffn; lia).
    apply slots_ok_skipn. exact Hok. }
  assert (Hrun_nd : forall sl, In sl run -> slot_is_default sl = false).
  { unfold run. rewrite Hn. intro sl. apply firstn_twf_nondefault. }
  assert (Hrun_len : lenz run = n) by (unfold run, lenz; rewrite firstn_length; lia).
  destruct (slots_run W asg Hat run _ (Z.add_nonneg_nonneg _ _ Hg Hf) R3 Hrun_ok Hrun_nd) as [Hle Hbytes].
  rewrite Hrun_len in Hle, Hbytes. split; [exact Hle|].
  rewrite R6, Hbytes.
  pose proof (asum_firstn_le 0 asg (Z.to_nat (g_base r + filled_front r)) Hat) as H0.
  pose proof (aoff_mono asg (g_base r + filled_front r) n Hat) as Hm.
  rewrite firstn_slice_cat by (unfold aoff in *; lia). f_equal. f_equal. lia.
Qed.

(* ---- 16-bit arithmetic of the receiver, isolated ---- *)
Lemma offset_exact isn kidx R cap ff kseq lc off :
  kseq = (isn + kidx) mod M16 -> lc = (isn - 1 + R) mod M16 ->
  (off - (kseq - wadd16 lc 1)) mod M16 = 0 -> - M16 < off < M16 ->
  0 <= off -> 0 <= ff -> off + ff < cap ->
  R - (M16 - cap) <= kidx -> kidx < R + M16 ->
  off = kidx - R.
Proof. intros -> -> Hc Hr H0 Hf Hcap H1 H2. unfold wadd16, M16 in *. lia. Qed.

Lemma lc_advance isn R n lc : lc = (isn - 1 + R) mod M16 ->
  wadd16 lc (n mod M16) = (isn - 1 + (R + n)) mod M16.
Proof. intros ->. unfold wadd16, M16. lia. Qed.

(* under the wrap guard the 16-bit offset of a packet that fits the queue is the true distance *)
Lemma deliver_offset isn r lc p :
  0 <= filled_front r -> lc = (isn - 1 + rx_consumed r) mod M16 -> k_seq p = (isn + k_idx p) mod M16 ->
  wrap_ok_at r p = true -> 0 <= seq_sub (k_seq p) (wadd16 lc 1) ->
  seq_sub (k_seq p) (wadd16 lc 1) + filled_front r < lenz (ooq_data r) ->
  seq_sub (k_seq p) (wadd16 lc 1) = k_idx p - rx_consumed r.
Proof.
  intros Hf Hlc Hseq Hw Hoff He.
  unfold wrap_ok_at in Hw. apply andb_true_iff in Hw. destruct Hw as [Hw1 Hw2].
  apply Z.leb_le in Hw1. apply Z.ltb_lt in Hw2.
  assert (Hseqr : 0 <= k_seq p < M16) by (rewrite Hseq; apply Z.mod_pos_bound; reflexivity).
  destruct (seq_sub_cong _ _ Hseqr (wadd16_range lc 1)) as [Hcong Hrng].
  exact (offset_exact isn _ _ _ _ _ _ _ Hseq Hlc Hcong Hrng Hoff Hf He Hw1 Hw2).
Qed.

(* under the clean guard the packet carries what the current assignment wants at its index *)
Lemma asg_matches_want W asg p :
  asg_matches asg p = true -> k_bytes p = slice W (k_off p) (lenz (k_bytes p)) ->
  want_of W asg (k_idx p) = Some (k_bytes p).
Proof.
  unfold asg_matches, want_of. destruct (nth_error asg (Z.to_nat (k_idx p))) as [[o l]|]; [|discriminate].
  intros Hm Hb. apply andb_true_iff in Hm. destruct Hm as [Hm H3]. apply andb_true_iff in Hm. destruct Hm as [H1 H2].
  apply Z.leb_le in H1. apply Z.eqb_eq in H2, H3. subst o l.
  destruct (Z.ltb_spec (k_idx p) 0); [lia|]. rewrite Hb at 2. reflexivity.
Qed.

(* ---- an accepted delivery: the insertion, then possibly a flush ---- *)
Lemma rxi_insert isn ti d p off s1 n b :
  dp_tx_inv isn ti d -> dp_rx_inv isn d -> In p (d_net d) ->
  off = seq_sub (k_seq p) (wadd16 (d_lc d) 1) -> 0 <= off ->
  ooq_add_remove (d_rx d) KData (k_bytes p) off = (s1, ArConsumed n b) ->
  asg_matches (d_asg d) p = true -> wrap_ok_at (d_rx d) p = true ->
  forall cl wr,
  dp_rx_inv isn (upd_dp d (d_tx d) (d_segs d) s1 (wadd16 (d_lc d) (n mod M16)) (d_net d) (d_una d) (d_asg d) cl wr).
Proof.
  intros Ht [R1 R2 R3 R4 R5 R6] Hin Eoff Hoff E1 Hm Hw cl wr.
  destruct (proj1 (Forall_forall _ _) (ti_net _ _ _ Ht) _ Hin) as (_ & P2 & _ & _ & _ & P6).
  destruct (rx_consumed_nonneg _ R1) as (Hg & Hf & _).
  pose proof (ooq_add_data _ _ _ _ _ R1 Hoff E1) as Had. cbv beta iota zeta in Had.
  destruct Had as (He & _ & _ & Hdata & Hgb & Hq1 & _ & Hff & _ & Hntw & Hstr).
  assert (Hidx : g_base (d_rx d) + Z.of_nat (Z.to_nat (off + filled_front (d_rx d))) = k_idx p).
  { assert (Hoffk : off = k_idx p - rx_consumed (d_rx d)).
    { rewrite Eoff in *. apply (deliver_offset isn); try assumption. clear - He Hoff Hf. unfold lenz. lia. }
    clear - Hoffk Hoff Hf. unfold rx_consumed in Hoffk. lia. }
  assert (Hok1 : slots_ok (want_of (g_written (d_tx d)) (d_asg d)) (g_base (d_rx d)) (ooq_data s1)).
  { rewrite Hdata. apply slots_ok_set_nth; [exact R5|]. rewrite Hidx. apply asg_matches_want; assumption. }
  destruct (consumed_run _ _ _ _ n (ti_tiled _ _ _ Ht) Hg Hf R3 Hok1 Hntw R6) as [Hc1 Hs1].
  assert (Hcons : rx_consumed s1 = rx_consumed (d_rx d) + n)
    by (unfold rx_consumed; rewrite Hgb, Hff; apply Z.add_assoc).
  constructor; dsimpl; rewrite ?Hcons.
  - exact (ooq_add_remove_inv _ _ _ _ _ _ R1 Hoff E1).
  - apply lc_advance. exact R2.
  - exact Hc1.
  - unfold no_qerror. rewrite Hq1. exact R4.
  - rewrite Hgb. exact Hok1.
  - rewrite Hstr. exact Hs1.
Qed.

(* an accepted rx_add_remove is an accepted insertion, followed by a flush if the queue is full *)
Lemma rx_add_remove_consumed r k p off r' n b w :
  rx_add_remove r k p off = (r', UarOk (ArConsumed n b), w) ->
  exists s1, ooq_add_remove r k p off = (s1, ArConsumed n b) /\
             (r' = s1 \/ exists fr w', rx_flush s1 = (r', fr, w')).
Proof.
  unfold rx_add_remove. destruct (ooq_add_remove r k p off) as [s1 ar].
  destruct ar as [n0 b0| | | | |]; try (intro E; injection E as _ E _; discriminate E).
  destruct ((0 <? n0) && ooq_is_full s1).
  - destruct (rx_flush s1) as [[s2 fr] w2] eqn:Ef. destruct fr; [|discriminate].
    intro E; injection E as <- <- <- _. exists s1. split; [reflexivity|]. right. eauto.
  - intro E; injection E as <- <- <- _. exists s1. split; [reflexivity|]. left. reflexivity.
Qed.

Lemma rxi_deliver isn ti d p r n b w :
  dp_tx_inv isn ti d -> dp_rx_inv isn d -> In p (d_net d) ->
  0 <= seq_sub (k_seq p) (wadd16 (d_lc d) 1) ->
  rx_add_remove (d_rx d) KData (k_bytes p) (seq_sub (k_seq p) (wadd16 (d_lc d) 1)) = (r, UarOk (ArConsumed n b), w) ->
  asg_matches (d_asg d) p = true -> wrap_ok_at (d_rx d) p = true ->
  forall cl wr,
  dp_rx_inv isn (upd_dp d (d_tx d) (d_segs d) r (wadd16 (d_lc d) (n mod M16)) (d_net d) (d_una d) (d_asg d) cl wr).
Proof.
  intros Ht Hr Hin Hoff E Hm Hw cl wr.
  destruct (rx_add_remove_consumed _ _ _ _ _ _ _ _ E) as (s1 & E1 & Hfl).
  pose proof (rxi_insert isn ti d p _ s1 n b Ht Hr Hin eq_refl Hoff E1 Hm Hw cl wr) as H1.
  destruct Hfl as [->|(fr & w' & Ef)]; [exact H1|].
  exact (rxi_flush isn ti _ r fr w' (txi_rx_frame _ _ _ _ _ _ _ Ht) H1 Ef).
Qed.

(* a delivery that is not accepted leaves the receiver as it was *)
Lemma deliver_rejected r k p off r' ar w :
  rx_inv r -> 0 <= off -> rx_add_remove r k p off = (r', ar, w) -> k = KData ->
  (forall n b, ar <> UarOk (ArConsumed n b)) -> r' = r.
Proof.
  intros Hinv Hoff E -> Hne. unfold rx_add_remove in E.
  destruct (ooq_add_remove r KData p off) as [s1 a] eqn:E1.
  pose proof (ooq_add_data _ _ _ _ _ Hinv Hoff E1) as Had.
  pose proof (ooq_add_remove_inv _ _ _ _ _ _ Hinv Hoff E1) as Hinv1.
  destruct a as [n b| | | | |]; try (injection E as <- _ _; exact Had).
  exfalso. destruct ((0 <? n) && ooq_is_full s1).
  - destruct (rx_flush s1) as [[s2 fr] w2] eqn:Ef.
    destruct (rx_flush_spec _ _ _ _ Hinv1 Ef) as (_ & (fb & -> & _) & _).
    injection E as _ <- _. eapply Hne. reflexivity.
  - injection E as _ <- _. eapply Hne. reflexivity.
Qed.

(* ---- the guards only ever go from true to false ---- *)
Lemma guards_mono d o : dp_guards (dp_step d o) = true -> dp_guards d = true.
Proof.
  unfold dp_guards.
  assert (Hand : forall a b c e : bool, (a && c) && (b && e) = true -> a && b = true).
  { intros a b c e H. destruct a, b, c, e; try discriminate; reflexivity. }
  destruct o; cbn [dp_step].
  - destruct (tx_step _ _) as [[t ?] ?]. intro H; exact H.
  - destruct (is_flag_tx_op o); [destruct (tx_step _ _) as [[t ?] ?]|]; intro H; exact H.
  - destruct ((0 <? len) && (len <=? unsegmented d)); intro H; exact H.
  - destruct (nth_error _ _); [|intro H; exact H]. destruct (_ || _ || _); intro H; exact H.
  - destruct (pop_mtu_probe _ _) as [sg popped]. destruct popped; dsimpl; [|intro H; exact H].
    intro H. apply andb_true_iff in H. destruct H as [H1 H2]. apply andb_true_iff in H1. destruct H1 as [H1 _].
    rewrite H1, H2. reflexivity.
  - destruct (pop_expired_mtu_probe _ _ _) as [sg pe]. destruct pe; dsimpl; try (intro H; exact H).
    intro H. apply andb_true_iff in H. destruct H as [H1 H2]. apply andb_true_iff in H1. destruct H1 as [H1 _].
    rewrite H1, H2. reflexivity.
  - destruct (remove_up_to_ack _ _ _ _) as [sg res]. destruct (truncate_front _ _) as [t tr]. intro H; exact H.
  - destruct (calc_pipe _ _ _ _ _) as [[[sg ?] ?]|]; intro H; exact H.
  - destruct (grow _ _) as [t g]. intro H; exact H.
  - destruct (nth_error _ _) as [p|]; [|intro H; exact H]. destruct (_ <? 0); [intro H; exact H|].
    destruct (rx_add_remove _ _ _ _) as [[r ar] w]. destruct ar as [[n b| | | | |]|]; dsimpl; try (intro H; exact H).
    apply Hand.
  - destruct (rx_flush _) as [[r ?] ?]. intro H; exact H.
  - destruct (is_flag_rx_op o); [destruct (rx_step _ _) as [[r ?] ?]|]; intro H; exact H.
  - destruct (rx_step _ _) as [[r ?] ?]. intro H; exact H.
Qed.

(* ---- a step of the receiver that leaves its slots and its stream alone ---- *)
Lemma rxi_rx_frame isn d r :
  dp_rx_inv isn d -> rx_inv r -> no_qerror r -> ooq_data r = ooq_data (d_rx d) -> g_base r = g_base (d_rx d) ->
  filled_front r = filled_front (d_rx d) -> stream r = stream (d_rx d) -> dp_rx_inv isn (set_drx d r).
Proof.
  intros [R1 R2 R3 R4 R5 R6] Hi Hq Hd Hg Hf Hs.
  assert (Hc : rx_consumed r = rx_consumed (d_rx d)) by (unfold rx_consumed; rewrite Hg, Hf; reflexivity).
  constructor; dsimpl; rewrite ?Hc, ?Hd, ?Hg, ?Hs; assumption.
Qed.

Lemma rx_flag_frame r o r' out w :
  is_flag_rx_op o = true -> rx_step r o = (r', out, w) ->
  ooq_data r' = ooq_data r /\ g_base r' = g_base r /\ filled_front r' = filled_front r /\
  q r' = q r /\ stream r' = stream r.
Proof.
  destruct o; cbn [is_flag_rx_op rx_step]; try discriminate; intros _.
  - destruct (reader_dropped r); intro E; injection E as <- _ _; repeat split.
  - unfold rx_mark_vsock_closed. destruct (vsock_closed r); intro E; injection E as <- _ _; repeat split.
Qed.

(* a clean pop reads as: the popped index was the last of a non-empty assignment, not held by the receiver *)
Lemma rxi_pop_guarded isn ti d init s sg' :
  dp_tx_inv isn ti d -> dp_rx_inv isn d -> ss_segs (d_segs d) = init ++ [s] ->
  let d' := upd_dp d (d_tx d) sg' (d_rx d) (d_lc d) (d_net d) (d_una d) (removelast (d_asg d))
                   (d_clean d && negb (slot_taken (d_rx d) (Z.of_nat (length (d_asg d)) - 1))) (d_wrap d) in
  dp_guards d' = true -> dp_rx_inv isn d'.
Proof.
  intros Ht Hr Hs d'. unfold dp_guards, d'; dsimpl. intro Hg.
  destruct (pop_back_split _ _ _ _ _ Ht Hs) as (A & o0 & HA & _).
  apply andb_true_iff in Hg. destruct Hg as [Hg _].
  apply andb_true_iff in Hg. destruct Hg as [_ Hg]. apply negb_true_iff in Hg.
  apply rxi_pop with (ti := ti); try assumption. rewrite HA. destruct A; discriminate.
Qed.

(* ---- one step of the receiver invariant ---- *)
Lemma dp_step_rx_inv isn ti d o :
  dp_tx_inv isn ti d -> dp_rx_inv isn d -> dp_guards (dp_step d o) = true -> dp_rx_inv isn (dp_step d o).
Proof.
  intros Ht Hr. pose proof Hr as [R1 _ _ R4 _ _]. pose proof Ht as [(mx & I1) I2 _ _ _ _ _ _ _ _].
  destruct o; cbn [dp_step].
  - (* write *)
    intros _. destruct (tx_step (d_tx d) (ToWrite buf)) as [[t out] w] eqn:E.
    destruct (tx_write_frame _ _ _ _ _ _ _ I1 E) as (e & Hw & _).
    apply (rxi_ext isn ti d _ e []); auto. rewrite app_nil_r. reflexivity.
  - intros _. destruct (is_flag_tx_op o) eqn:Ef; [|exact Hr].
    destruct (tx_step (d_tx d) o) as [[t out] w] eqn:E.
    destruct (tx_flag_frame _ _ _ _ _ Ef E) as (F1 & _ & _). eapply rxi_same; eauto.
  - intros _. destruct ((0 <? len) && (len <=? unsegmented d)); [|exact Hr].
    apply (rxi_ext isn ti d _ [] [(ss_offset (d_segs d), len)]); dsimpl; auto. rewrite app_nil_r. reflexivity.
  - intros _. destruct (nth_error (iter_for_sending (d_segs d) None) i) as [f|]; [|exact Hr].
    destruct (_ || _ || _); [exact Hr|]. eapply rxi_same; eauto.
  - (* pop_mtu_probe *)
    destruct (pop_mtu_probe (d_segs d) seq) as [sg popped] eqn:E. destruct popped; [|intros _; exact Hr].
    destruct (pop_mtu_probe_popped _ _ _ E) as (init & s & Hs & _).
    exact (rxi_pop_guarded isn ti d init s sg Ht Hr Hs).
  - destruct (pop_expired_mtu_probe (d_segs d) timed_out max_retx) as [sg pe] eqn:E.
    destruct pe; try (intros _; exact Hr).
    destruct (pop_expired_popped _ _ _ _ _ _ E) as (init & s & Hs & _).
    exact (rxi_pop_guarded isn ti d init s sg Ht Hr Hs).
  - intros _. destruct (remove_up_to_ack (d_segs d) now ack sk) as [sg res] eqn:E.
    destruct (truncate_front (d_tx d) (ar_acked_bytes res)) as [t tr] eqn:Et.
    destruct (remove_up_to_ack_inv _ _ _ _ _ _ I2 E) as (_ & _ & R3' & _).
    destruct (truncate_spec _ _ _ _ _ _ I1 R3' Et) as (_ & _ & U3 & _).
    eapply rxi_same; eauto.
  - intros _. destruct (calc_pipe (d_segs d) high_rxt high_data rtt now) as [[[sg p] rc]|]; [|exact Hr].
    eapply rxi_same; eauto.
  - intros _. destruct (grow (d_tx d) mx0) as [t g] eqn:E.
    destruct (grow_any_inv _ _ _ _ _ _ I1 E) as (_ & G2 & _). eapply rxi_same; eauto.
  - (* deliver *)
    destruct (nth_error (d_net d) j) as [p|] eqn:En; [|intros _; exact Hr].
    destruct (Z.ltb_spec (seq_sub (k_seq p) (wadd16 (d_lc d) 1)) 0) as [|Hoff]; [intros _; exact Hr|].
    destruct (rx_add_remove (d_rx d) KData (k_bytes p) (seq_sub (k_seq p) (wadd16 (d_lc d) 1))) as [[r ar] w] eqn:E.
    assert (Hrej : (forall n b, ar <> UarOk (ArConsumed n b)) -> dp_rx_inv isn (set_drx d r)).
    { intro Hne. rewrite (deliver_rejected _ _ _ _ _ _ _ R1 Hoff E eq_refl Hne).
      eapply rxi_same; eauto. }
    destruct ar as [[n b| | | | |]|]; try (intros _; apply Hrej; intros; discriminate).
    unfold dp_guards; dsimpl. intro Hg. apply andb_true_iff in Hg. destruct Hg as [Hg1 Hg2].
    apply andb_true_iff in Hg1. destruct Hg1 as [_ Hm]. apply andb_true_iff in Hg2. destruct Hg2 as [_ Hw].
    eapply rxi_deliver; eauto. eapply nth_error_In; exact En.
  - intros _. destruct (rx_flush (d_rx d)) as [[r fr] w] eqn:E. eapply rxi_flush; eauto.
  - intros _. destruct (is_flag_rx_op o) eqn:Ef; [|exact Hr].
    destruct (rx_step (d_rx d) o) as [[r out] w] eqn:E.
    assert (Hok : op_ok o) by (destruct o; try discriminate Ef; exact I).
    destruct (rx_flag_frame _ _ _ _ _ Ef E) as (F1 & F2 & F3 & F4 & F5).
    apply rxi_rx_frame; try assumption; [exact (proj1 (rx_step_spec _ _ _ _ _ R1 Hok E))|].
    unfold no_qerror. rewrite F4. exact R4.
  - intros _. destruct (rx_step (d_rx d) (ORead n)) as [[r out] w] eqn:E. cbn [rx_step] in E.
    destruct (reader_dropped (d_rx d)); [injection E as <- _ _; eapply rxi_same; eauto|].
    destruct (rx_read (d_rx d) n) as [[r1 rr] w1] eqn:Er. injection E as <- _ _.
    destruct (rx_read_no_error _ _ _ _ _ R1 R4 Er) as (A1 & A2 & A3 & _ & A5 & A6 & A7 & _).
    apply rxi_rx_frame; assumption.
Qed.

(* ------------------------------------------------------------------ all op lists *)
Lemma dp_run_tx_inv isn ti : forall ops d, dp_tx_inv isn ti d -> dp_tx_inv isn ti (dp_run d ops).
Proof.
  induction ops as [|o ops IH]; intros d H; cbn [dp_run]; [exact H|]. apply IH. apply dp_step_tx_inv. exact H.
Qed.

Lemma guards_mono_run : forall ops d, dp_guards (dp_run d ops) = true -> dp_guards d = true.
Proof.
  induction ops as [|o ops IH]; intros d H; cbn [dp_run] in H; [exact H|].
  eapply guards_mono. apply IH. exact H.
Qed.

Lemma dp_run_rx_inv isn ti : forall ops d,
  dp_tx_inv isn ti d -> dp_rx_inv isn d -> dp_guards (dp_run d ops) = true -> dp_rx_inv isn (dp_run d ops).
Proof.
  induction ops as [|o ops IH]; intros d Ht Hr Hg; cbn [dp_run] in *; [exact Hr|].
  apply IH; [apply dp_step_tx_inv; exact Ht| |exact Hg].
  apply (dp_step_rx_inv isn ti); [exact Ht|exact Hr|]. eapply guards_mono_run. exact Hg.
Qed.

Definition is_prefix (a b : list Z) : Prop := exists rest, b = a ++ rest.

Lemma rx_inv_prefix isn d : dp_rx_inv isn d -> is_prefix (g_read (d_rx d)) (g_written (d_tx d)).
Proof.
  intros [R1 R2 R3 R4 R5 R6]. unfold stream in R6.
  set (m := Z.to_nat (aoff (d_asg d) (rx_consumed (d_rx d)))) in *.
  exists (pending (d_rx d) ++ skipn m (g_written (d_tx d))).
  rewrite app_assoc, R6, firstn_skipn. reflexivity.
Qed.

(* T3 on the data-path system *)
Lemma dp_prefix isn ti max_rx max_in ops :
  0 <= isn < M16 -> 0 < ti -> 0 < max_rx -> 0 < max_in ->
  let d := dp_run (dp_init isn ti max_rx max_in) ops in
  dp_guards d = true -> is_prefix (g_read (d_rx d)) (g_written (d_tx d)).
Proof.
  intros Hi Ht Hr Hm d Hg. apply (rx_inv_prefix isn).
  apply (dp_run_rx_inv isn ti); [apply init_tx_inv; assumption|apply init_rx_inv; assumption|exact Hg].
Qed.
