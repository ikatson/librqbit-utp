(* C01 lift: every step of the PAIR model (Pair/Pair.v) refines a list of data-path ops.

   psim isn ti sd s d: for the direction whose writer is the endpoint `sd`, the data-path state d
   has the writer's ring and segment table, the reader's receiver and ack counter, and its bag holds
   every data packet that is in flight from the writer or waits in the reader's inbox.
   pstep_refines: each pair op (clock, hole, application op of either endpoint, poll of either
   endpoint, deliver / drop / duplicate) maps to a list of DP ops that re-establishes psim, as long
   as the direction is LIVE after the step: the reader's future is not gone and the reader has not
   accepted the writer's FIN (DP has no end-of-stream marker; see the report). *)
From Utp Require Import Base.Prelude Wire.SeqNr Wire.Header Rtt.Rtte Mtu.SegSizes Rx.Rx Rx.Rx_Proofs Tx.Ring
  Tx.Ring_Proofs Tx.Segments Tx.Segments_Proofs Conn.Recovery Conn.Msg Conn.VSockRec Conn.VSock Conn.VSockRun
  Conn.VSock_Inv Pair.Pair Pair.DP Pair.DP_Lemmas Pair.DP_Proofs Pair.DP_RxProofs
  Pair.Pair_Refine Pair.Pair_RefineWalk Pair.Pair_RefineWalkPoll Pair.Pair_RefineSim.

(* ------------------------------------------------------------------ application ops *)
(* the ring op / receiver op an application op stands for, and the data-path op of the same name *)
Definition aop_tx (a : aop) : option tx_op :=
  match a with
  | AWrite b => Some (ToWrite b) | AFlush => Some ToFlush | AShutdown => Some ToShutdown
  | ADropWriter => Some ToDropWriter | _ => None
  end.
Definition aop_rx (a : aop) : option rx_op :=
  match a with ARead n => Some (ORead n) | ADropReader => Some ODropReader | _ => None end.

Definition wr_op (o : tx_op) : bool :=
  match o with ToWrite _ | ToFlush | ToShutdown | ToDropWriter => true | _ => false end.
Definition tx_dop (o : tx_op) : dop := match o with ToWrite b => DWrite b | _ => DTxFlag o end.
Definition rx_dop (o : rx_op) : dop := match o with ORead n => DRead n | _ => DRxFlag o end.

Lemma aop_tx_wr a o : aop_tx a = Some o -> wr_op o = true.
Proof. destruct a; intro H; inversion H; reflexivity. Qed.

Lemma dp_step_tx_dop d o : wr_op o = true -> dp_step d (tx_dop o) = set_dtx d (fst (fst (tx_step (d_tx d) o))).
Proof.
  destruct o; try discriminate; intros _; cbn [tx_dop dp_step is_flag_tx_op];
    destruct (tx_step (d_tx d) _) as [[t ?] ?]; reflexivity.
Qed.

Lemma closed_flush_same t : t_vsock_closed t = true -> fst (fst (tx_step t ToFlush)) = t.
Proof.
  intro Hc. cbn [tx_step]. destruct (writer_dropped t); cbn [fst]; [reflexivity|].
  unfold poll_flush. destruct (ring t); cbn [fst]; [reflexivity|]. rewrite Hc. reflexivity.
Qed.

Lemma closed_shutdown_same t : t_vsock_closed t = true -> fst (fst (tx_step t ToShutdown)) = t.
Proof.
  intro Hc. cbn [tx_step]. destruct (writer_dropped t); cbn [fst]; [reflexivity|].
  unfold poll_shutdown. destruct (ring t); rewrite Hc; reflexivity.
Qed.

(* a closed ring answers the ops of the write half the same way whatever it holds, and stays closed *)
Lemma closed_op_skip t p o :
  wr_op o = true -> t_vsock_closed t = true ->
  fst (fst (tx_step (tx_skip t p) o)) = tx_skip (fst (fst (tx_step t o))) p /\
  t_vsock_closed (fst (fst (tx_step t o))) = true.
Proof.
  intros Ho Hc. destruct (tx_skip_fields t p) as (_ & A2 & A3 & A4 & A5 & A6 & A7 & A8 & A9 & _).
  destruct o; try discriminate Ho.
  - cbn [tx_step]. rewrite A4. destruct (writer_dropped t) eqn:Ewd; cbn [fst]; [split; [reflexivity|exact Hc]|].
    unfold poll_write. rewrite A8, A3, Hc.
    destruct (YIELD_EVERY <? written_without_yield t); cbn [fst]; [|split; [reflexivity|exact Hc]].
    split; [|reflexivity]. rewrite tx_skip_upd, A2, A4, Ewd, A5, A6, A7, A9. reflexivity.
  - rewrite !closed_flush_same by (rewrite ?A3; exact Hc). split; [reflexivity|exact Hc].
  - rewrite !closed_shutdown_same by (rewrite ?A3; exact Hc). split; [reflexivity|exact Hc].
  - split; [apply pend_safe_skip; reflexivity|]. cbn [tx_step]. unfold drop_writer.
    destruct (writer_dropped t); cbn [fst upd t_vsock_closed]; exact Hc.
Qed.

Section PairRefine.
Context {CC : Type} (cci : cc_iface CC).
Notation vsock := (vsock CC).
Notation pair := (pair (CC:=CC)).

Definition pkt_in_net (d : dp) (hdr : chdr) (payload : list Z) : Prop :=
  ch_type hdr = ST_DATA -> in_net d (ch_seq hdr, payload).

(* the relation, by roles: writer w, reader r, datagrams in flight from w, "w's future is gone" *)
Record psimr (isn ti : Z) (w r : vsock) (nt : list packet) (finw : bool) (d : dp) : Prop := {
  ps_inv : dp_tx_inv isn ti d;
  ps_segs : d_segs d = v_segs w;
  ps_tx : exists p, 0 <= p /\ d_tx d = tx_skip (v_tx w) p /\
                    (p = 0 \/ (t_vsock_closed (v_tx w) = true /\ finw = true));
  ps_rx : d_rx d = v_rx r;
  ps_lc : d_lc d = v_last_consumed r;
  ps_net : Forall (fun pk => pkt_in_net d (p_hdr pk) (p_payload pk)) nt;
  ps_inbox : Forall (fun m => pkt_in_net d (m_hdr m) (m_payload m)) (v_inbox r);
  ps_ssw : ss_ok (v_ss w);
  ps_ssr : ss_ok (v_ss r);
}.

Definition psim (isn ti : Z) (sd : side) (s : pair) (d : dp) : Prop :=
  psimr isn ti (ep s sd) (ep s (other sd)) (net_from s sd) (fin_of s sd) d.

Lemma pkt_in_net_mono d d' h pl :
  (exists new, d_net d' = d_net d ++ new) -> pkt_in_net d h pl -> pkt_in_net d' h pl.
Proof. intros Hn H Hty. eapply in_net_frame; [exact Hn|apply H; exact Hty]. Qed.

(* a writer that changes nothing the relation looks at *)
Lemma psimr_writer_same isn ti w w' r nt finw d :
  psimr isn ti w r nt finw d -> v_tx w' = v_tx w -> v_segs w' = v_segs w -> v_ss w' = v_ss w ->
  psimr isn ti w' r nt finw d.
Proof. intros [I1 I2 I3 I4 I5 I6 I7 I8 I9] E1 E2 E3. constructor; rewrite ?E1, ?E2, ?E3; assumption. Qed.

Lemma psimr_reader_same isn ti w r r' nt finw d :
  psimr isn ti w r nt finw d -> v_rx r' = v_rx r -> v_last_consumed r' = v_last_consumed r ->
  v_inbox r' = v_inbox r -> v_ss r' = v_ss r -> psimr isn ti w r' nt finw d.
Proof. intros [I1 I2 I3 I4 I5 I6 I7 I8 I9] E1 E2 E3 E4. constructor; rewrite ?E1, ?E2, ?E3, ?E4; assumption. Qed.

Lemma psimr_net_sub isn ti w r nt nt' finw d :
  psimr isn ti w r nt finw d -> (forall x, In x nt' -> In x nt) -> psimr isn ti w r nt' finw d.
Proof.
  intros [I1 I2 I3 I4 I5 I6 I7 I8 I9] Hs. constructor; try assumption.
  rewrite Forall_forall in *. intros x Hx. apply I6. apply Hs. exact Hx.
Qed.

Lemma psimr_fin isn ti w r nt d : psimr isn ti w r nt false d -> psimr isn ti w r nt true d.
Proof.
  intros [I1 I2 I3 I4 I5 I6 I7 I8 I9]. constructor; try assumption.
  destruct I3 as (p & P1 & P2 & [P3|[_ P3]]); [|discriminate]. exists p. auto.
Qed.

(* an application op is its ring op or its receiver op; the rest of what psimr looks at stays *)
Lemma vstep_app (s : vsock) a s' out dw sw :
  vstep cci s (vop_of_aop a) = (s', out, dw, sw) ->
  v_tx s' = match aop_tx a with Some o => fst (fst (tx_step (v_tx s) o)) | None => v_tx s end /\
  v_rx s' = match aop_rx a with Some o => fst (fst (rx_step (v_rx s) o)) | None => v_rx s end /\
  v_segs s' = v_segs s /\ v_ss s' = v_ss s /\ v_last_consumed s' = v_last_consumed s /\ v_inbox s' = v_inbox s.
Proof.
  destruct a; cbn [vop_of_aop vstep aop_tx aop_rx tx_step rx_step].
  - destruct (writer_dropped (v_tx s)); [|destruct (poll_write (v_tx s) buf) as [[tx1 r] w]];
      intro E; injection E as <- _ _ _; vsimpl; repeat split.
  - destruct (reader_dropped (v_rx s)); [|destruct (rx_read (v_rx s) n) as [[rx1 r] w]];
      intro E; injection E as <- _ _ _; vsimpl; repeat split.
  - destruct (writer_dropped (v_tx s)); [|destruct (poll_flush (v_tx s)) as [[tx1 r] w]];
      intro E; injection E as <- _ _ _; vsimpl; repeat split.
  - destruct (writer_dropped (v_tx s)); [|destruct (poll_shutdown (v_tx s)) as [[tx1 r] w]];
      intro E; injection E as <- _ _ _; vsimpl; repeat split.
  - destruct (reader_dropped (v_rx s)); [|destruct (rx_drop_reader (v_rx s)) as [rx1 w]];
      intro E; injection E as <- _ _ _; vsimpl; repeat split.
  - destruct (drop_writer (v_tx s)) as [tx1 w]. intro E; injection E as <- _ _ _. vsimpl. repeat split.
  - intro E; injection E as <- _ _ _. vsimpl. repeat split.
  - intro E; injection E as <- _ _ _. vsimpl. repeat split.
Qed.

(* an op of the write half: with bytes pending the ring is closed *)
Lemma psimr_tx_op isn ti w w' r nt finw d (o : tx_op) :
  psimr isn ti w r nt finw d -> wr_op o = true ->
  v_tx w' = fst (fst (tx_step (v_tx w) o)) -> v_segs w' = v_segs w -> v_ss w' = v_ss w ->
  psimr isn ti w' r nt finw (dp_run d [tx_dop o]).
Proof.
  intros [I1 I2 (p & P1 & P2 & P3) I4 I5 I6 I7 I8 I9] Ho Et Es Ess.
  assert (Hs : dp_step d (tx_dop o) = set_dtx d (tx_skip (v_tx w') p)).
  { rewrite dp_step_tx_dop, P2, Et by exact Ho. f_equal.
    destruct P3 as [->|[Hc _]]; [rewrite !tx_skip_0; reflexivity|apply closed_op_skip; assumption]. }
  cbn [dp_run]. constructor.
  - apply dp_step_tx_inv. exact I1.
  - rewrite Hs, Es. exact I2.
  - exists p. rewrite Hs. split; [exact P1|]. split; [reflexivity|].
    destruct P3 as [P3|[P3 P4]]; [left; exact P3|right; split; [|exact P4]].
    rewrite Et. apply (closed_op_skip _ p); assumption.
  - rewrite Hs. exact I4.
  - rewrite Hs. exact I5.
  - rewrite Hs. exact I6.
  - rewrite Hs. exact I7.
  - rewrite Ess. exact I8.
  - exact I9.
Qed.

Lemma writer_app_refines isn ti w r nt finw d (a : aop) w' out dw sw :
  psimr isn ti w r nt finw d -> vstep cci w (vop_of_aop a) = (w', out, dw, sw) ->
  exists dops, psimr isn ti w' r nt finw (dp_run d dops).
Proof.
  intros H E. destruct (vstep_app _ _ _ _ _ _ E) as (Et & _ & Es & Ess & _).
  destruct (aop_tx a) as [o|] eqn:Ea.
  - exists [tx_dop o]. apply (psimr_tx_op isn ti w w' r nt finw d o H); [|assumption..].
    apply (aop_tx_wr a). exact Ea.
  - (* the writer's own receiver is not part of this direction *)
    exists []. apply (psimr_writer_same isn ti w w' r nt finw d H); assumption.
Qed.

Lemma reader_app_refines isn ti w r nt finw d (a : aop) r' out dw sw :
  psimr isn ti w r nt finw d -> vstep cci r (vop_of_aop a) = (r', out, dw, sw) ->
  exists dops, psimr isn ti w r' nt finw (dp_run d dops).
Proof.
  intros H E. destruct (vstep_app _ _ _ _ _ _ E) as (_ & Er & _ & Ess & Elc & Eib).
  destruct (aop_rx a) as [o|] eqn:Ea.
  2:{ exists []. apply (psimr_reader_same isn ti w r r' nt finw d H); assumption. }
  exists [rx_dop o]. destruct H as [I1 I2 I3 I4 I5 I6 I7 I8 I9].
  assert (Hs : dp_step d (rx_dop o) = set_drx d (v_rx r')).
  { rewrite Er, <- I4. destruct a; inversion Ea; cbn [rx_dop dp_step is_flag_rx_op];
      destruct (rx_step (d_rx d) _) as [[x ?] ?]; reflexivity. }
  cbn [dp_run]. constructor.
  - apply dp_step_tx_inv. exact I1.
  - rewrite Hs. exact I2.
  - rewrite Hs. exact I3.
  - rewrite Hs. reflexivity.
  - rewrite Hs, Elc. exact I5.
  - rewrite Hs. exact I6.
  - rewrite Hs, Eib. exact I7.
  - exact I8.
  - rewrite Ess. exact I9.
Qed.

(* ------------------------------------------------------------------ polls *)
Lemma data_view_in out pk :
  In pk out -> ch_type (p_hdr pk) = ST_DATA -> In (ch_seq (p_hdr pk), p_payload pk) (data_view out).
Proof.
  intros Hin Hty. unfold data_view. apply in_flat_map. exists pk. split; [exact Hin|]. rewrite Hty. left. reflexivity.
Qed.

Lemma poll_reset_view (s : vsock) :
  dview_of 0 (poll_reset s) = mk_dst (v_tx s) (v_segs s) (v_rx s) (v_last_consumed s) [] 0.
Proof. unfold dview_of, poll_reset; vsimpl. reflexivity. Qed.

(* poll_ev, as the pair model calls poll: through vstep, on the state with the transport script *)
Lemma vstep_poll_ev (s : vsock) script s' out dw sw :
  ss_ok (v_ss s) -> vstep cci s (VoPoll script) = (s', out, dw, sw) ->
  exists res, out = VrPoll res (rev (v_out s')) (rev (v_wakes s')) (v_arm_in s') /\
              poll_post (v_inbox s) (poll_reset (set_sends s script)) (s', res).
Proof.
  intro Hss. cbn [vstep]. pose proof (poll_ev cci (set_sends s script)) as Hp.
  destruct (poll cci (set_sends s script)) as [s1 res]. intro E; injection E as <- <- _ _.
  exists res. split; [reflexivity|]. apply Hp. vsimpl. exact Hss.
Qed.

Lemma writer_poll_refines isn ti w r nt d script w' out dw sw (hole : option Z) :
  psimr isn ti w r nt false d -> vstep cci w (VoPoll script) = (w', out, dw, sw) ->
  exists dops,
    psimr isn ti w' r (nt ++ filter (passes hole) (match out with VrPoll _ pk _ _ => pk | _ => [] end))
          (poll_finished out) (dp_run d dops).
Proof.
  intros [I1 I2 I3 I4 I5 I6 I7 I8 I9] E.
  destruct (vstep_poll_ev w script _ _ _ _ I8 E) as (res & -> & p' & (evs & V1 & _ & _ & _ & _ & _ & V7) & Hp').
  cbn [fst snd] in *. rewrite poll_reset_view in V1. vsimpl.
  destruct I3 as (p & P1 & P2 & [->|[_ Hf]]); [|discriminate]. rewrite tx_skip_0 in P2.
  set (st0 := mk_dst (v_tx w) (v_segs w) (v_rx w) (v_last_consumed w) [] 0) in *.
  assert (Hw0 : wrel st0 d).
  { unfold wrel, st0; cbn [x_tx x_segs x_out x_pend]. rewrite tx_skip_0.
    split; [exact I2|]. split; [exact P2|]. split; [lia|constructor]. }
  destruct (wsim_run isn ti evs st0 d I1 Hw0) as (dops & (W1 & W2 & W3 & W4) & (F1 & F2 & F3 & F4)).
  rewrite <- V1 in W1, W2, W3, W4. unfold dview_of in W1, W2, W3, W4. cbn [x_tx x_segs x_out x_pend] in W1, W2, W3, W4.
  exists dops. constructor.
  - apply dp_run_tx_inv. exact I1.
  - exact W1.
  - exists p'. split; [exact W3|]. split; [exact W2|].
    destruct Hp' as [->|[Hc Hnp]]; [left; reflexivity|right; split; [exact Hc|]].
    cbn [poll_finished]. destruct res; try reflexivity; discriminate.
  - rewrite F1. exact I4.
  - rewrite F2. exact I5.
  - apply Forall_app. split.
    + eapply Forall_impl; [|exact I6]. intros pk. apply pkt_in_net_mono. exact F4.
    + rewrite Forall_forall. intros pk Hpk Hty. apply filter_In in Hpk. destruct Hpk as [Hpk _].
      apply in_rev in Hpk. rewrite Forall_forall in W4. apply W4. apply data_view_in; assumption.
  - eapply Forall_impl; [|exact I7]. intros m. apply pkt_in_net_mono. exact F4.
  - apply V7. exact I8.
  - exact I9.
Qed.

Lemma reader_poll_refines isn ti w r nt finw d script r' out dw sw :
  psimr isn ti w r nt finw d -> vstep cci r (VoPoll script) = (r', out, dw, sw) ->
  poll_finished out = false -> rfin r' = false ->
  exists dops, psimr isn ti w r' nt finw (dp_run d dops).
Proof.
  intros [I1 I2 I3 I4 I5 I6 I7 I8 I9] E.
  destruct (vstep_poll_ev r script _ _ _ _ I9 E)
    as (res & -> & p' & (evs & V1 & V2 & (pre & V3) & _ & V5 & V6 & V7) & _).
  intros Hnf Hrf. cbn [fst snd] in *.
  assert (Hpend : res = PollPending) by (cbn [poll_finished] in Hnf; destruct res; try discriminate; reflexivity).
  subst res. cbn [is_pending negb] in V6.
  rewrite poll_reset_view in V1. unfold poll_reset in V2, V3; vsimpl.
  set (st0 := mk_dst (v_tx r) (v_segs r) (v_rx r) (v_last_consumed r) [] 0) in *.
  assert (Hr0 : rrel st0 d) by (unfold rrel, st0; cbn [x_rx x_lc]; auto).
  assert (Hsrc : Forall (fun e => forall seq pl, e = EvData seq pl -> in_net d (seq, pl)) evs).
  { eapply Forall_impl; [|exact V2]. intros e He seq pl ->. cbn [ev_src] in He.
    destruct He as (m & Hm & Hty & Hseq & Hpl). rewrite Forall_forall in I7.
    specialize (I7 m Hm Hty). rewrite Hseq, Hpl in I7. exact I7. }
  assert (Hnofin : existsb is_fin_ev evs = false).
  { destruct (existsb is_fin_ev evs); [|reflexivity]. rewrite V5 in Hrf by reflexivity. discriminate. }
  assert (Hnoerr : existsb is_err_ev evs = false).
  { destruct (existsb is_err_ev evs); [|reflexivity]. discriminate (V6 eq_refl). }
  destruct (rsim_run evs st0 d Hr0 Hsrc Hnofin Hnoerr) as (dops & (R1 & R2) & (F1 & F2 & F3 & F4 & F5)).
  rewrite <- V1 in R1, R2. unfold dview_of in R1, R2. cbn [x_rx x_lc] in R1, R2.
  exists dops. constructor.
  - apply dp_run_tx_inv. exact I1.
  - rewrite F2. exact I2.
  - rewrite F1. exact I3.
  - exact R1.
  - exact R2.
  - eapply Forall_impl; [|exact I6]. intros pk. apply pkt_in_net_mono. exists []. rewrite F3, app_nil_r. reflexivity.
  - rewrite V3 in I7. apply Forall_app in I7. destruct I7 as [_ I7].
    eapply Forall_impl; [|exact I7]. intros m. apply pkt_in_net_mono. exists []. rewrite F3, app_nil_r. reflexivity.
  - exact I8.
  - apply V7. exact I9.
Qed.

(* ------------------------------------------------------------------ the network *)
Lemma reader_deliver_refines isn ti w r nt finw d pk r' out dw sw :
  psimr isn ti w r nt finw d -> In pk nt ->
  vstep cci r (VoDeliver (msg_of_packet pk)) = (r', out, dw, sw) ->
  psimr isn ti w r' nt finw d.
Proof.
  intros H Hin. pose proof H as [I1 I2 I3 I4 I5 I6 I7 I8 I9]. cbn [vstep].
  destruct (v_inbox_closed r); intro E; injection E as <- _ _ _; [exact H|].
  constructor; vsimpl; try assumption.
  apply Forall_app. split; [exact I7|]. constructor; [|constructor].
  rewrite Forall_forall in I6. exact (I6 pk Hin).
Qed.

Lemma writer_deliver_same isn ti w r nt finw d m w' out dw sw :
  psimr isn ti w r nt finw d -> vstep cci w (VoDeliver m) = (w', out, dw, sw) -> psimr isn ti w' r nt finw d.
Proof.
  intros H. cbn [vstep]. destruct (v_inbox_closed w); intro E; injection E as <- _ _ _; [exact H|].
  eapply psimr_writer_same; [exact H| | |]; vsimpl; reflexivity.
Qed.

End PairRefine.
