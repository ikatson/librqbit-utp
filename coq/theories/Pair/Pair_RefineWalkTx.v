(* C01 lift, the walk through VirtualSocket::poll, part 2: the send path.
   send_tx_queue = EvSend per datagram sent (+ EvPopProbe when an MTU probe is popped);
   split_tx_queue_into_segments = register/grow/wake flags, EvPopExpired, one EvEnqueue per segment. *)
From Utp Require Import Base.Prelude Wire.SeqNr Wire.Header Rtt.Rtte Mtu.SegSizes Rx.Rx Tx.Ring
  Tx.Segments Tx.Segments_Proofs Conn.Recovery Conn.Msg Conn.VSockRec Conn.VSock Conn.VSockRun Conn.VSock_Inv
  Conn.VSock_LemmasTx Conn.VSock_LemmasStep Rx.Rx_Slots Pair.DP Pair.DP_Lemmas Pair.Pair_Refine Pair.Pair_RefineWalk.

Arguments SOk {CC A}. Arguments SErr {CC A}. Arguments SPanic {CC A}.

(* events that are neither a delivery, a FIN nor an error *)
Definition plainb (e : dev) : bool :=
  match e with EvData _ _ | EvFin _ _ | EvRxErr => false | _ => true end.

Lemma plain_facts evs : Forall (fun e => plainb e = true) evs ->
  existsb is_fin_ev evs = false /\ existsb is_err_ev evs = false /\ forall ib, Forall (ev_src ib) evs.
Proof.
  induction 1 as [|e evs He _ (IH1 & IH2 & IH3)]; cbn [existsb]; [repeat split; constructor|].
  rewrite IH1, IH2. destruct e; try discriminate; cbn [is_fin_ev is_err_ev orb];
    (split; [reflexivity|split; [reflexivity|intro ib; constructor; [exact I|apply IH3]]]).
Qed.

Section WalkTx.
Context {CC : Type} (cci : cc_iface CC).
Notation vsock := (vsock CC).
Notation step := (@step CC).

Lemma devs_plain ib err evs p (s : vsock) p' s' :
  dview_of p' s' = drun (dview_of p s) evs -> Forall (fun e => plainb e = true) evs ->
  v_inbox s' = v_inbox s -> (rfin s = true -> rfin s' = true) -> (ss_ok (v_ss s) -> ss_ok (v_ss s')) ->
  devs ib err p s p' s'.
Proof.
  intros H Hp Hi Hr Hss. destruct (plain_facts evs Hp) as (F1 & F2 & F3). exists evs.
  split; [exact H|]. split; [apply F3|]. split; [exists []; rewrite Hi; reflexivity|].
  split; [exact Hr|]. rewrite F1, F2. split; [discriminate|]. split; [discriminate|exact Hss].
Qed.

(* one plain event that leaves the inbox and the connection state alone *)
Lemma devs_ev ib err e p (s : vsock) p' s' :
  dview_of p' s' = dapply (dview_of p s) e -> plainb e = true ->
  v_inbox s' = v_inbox s -> v_state s' = v_state s -> (ss_ok (v_ss s) -> ss_ok (v_ss s')) ->
  devs ib err p s p' s'.
Proof.
  intros H Hp Hi Hs Hss. apply (devs_plain ib err [e]); auto. unfold rfin. rewrite Hs. auto.
Qed.

Lemma D0_one e (s s' : vsock) :
  dview_of 0 s' = dapply (dview_of 0 s) e -> plainb e = true ->
  v_inbox s' = v_inbox s -> v_state s' = v_state s -> (ss_ok (v_ss s) -> ss_ok (v_ss s')) ->
  D0 s s'.
Proof. intros H Hp Hi Hs Hss ib. apply (devs_ev ib false e); assumption. Qed.

(* ------------------------------------------------------------------ the two sending loops *)
(* a datagram sent from a loop of the send path: whatever follows runs from the state after it, in
   which the items of the iterator are still good *)
Lemma send_data_then {B} (s : vsock) h f (k : vsock -> send_res -> step B) :
  item_ok (v_segs s) f ->
  (forall s1 r, (forall f', item_ok (v_segs s) f' -> item_ok (v_segs s1) f') -> stR D0 s1 (k s1 r)) ->
  stR D0 s (match send_data s h f with SOk s1 r => k s1 r | SErr s1 e => SErr s1 e | SPanic => SPanic end).
Proof.
  intros Hf Hk. pose proof (send_data_ev s h f Hf) as Hsd.
  destruct (send_data s h f) as [s1 r|s1 e|]; cbn [stp] in Hsd; [|apply D0_svs; exact Hsd|exact I].
  destruct Hsd as [Hd Hit]. apply (stR_weaken D0 D0_trans _ _ _ _ Hd). apply Hk. exact Hit.
Qed.

Lemma recovery_loop_ev h mss0 : forall items (s : vsock) st,
  Forall (item_ok (v_segs s)) items -> stR D0 s (recovery_loop items s h mss0 st).
Proof.
  induction items as [|f rest IH]; intros s st Hall; cbn [recovery_loop]; [exact (D0_refl s)|].
  inversion Hall as [|? ? Hf Hrest]; subst.
  destruct (negb _); [exact (D0_refl s)|].
  destruct (_ && _); [apply IH; exact Hrest|].
  destruct (_ && _); [exact (D0_refl s)|].
  apply send_data_then; [exact Hf|]. intros s1 r Hit.
  destruct r; [|exact (D0_refl s1)..].
  apply IH. eapply Forall_impl; [exact Hit|exact Hrest].
Qed.

Lemma new_data_loop_ev h : forall items (s : vsock) remaining,
  Forall (item_ok (v_segs s)) items -> stR D0 s (new_data_loop items s h remaining).
Proof.
  induction items as [|f rest IH]; intros s rem Hall; cbn [new_data_loop]; [exact (D0_refl s)|].
  inversion Hall as [|? ? Hf Hrest]; subst.
  destruct (_ <? _); [exact (D0_refl s)|].
  apply send_data_then; [exact Hf|]. intros s1 r Hit.
  destruct r; [|exact (D0_refl s1)..].
  apply IH. eapply Forall_impl; [exact Hit|exact Hrest].
Qed.

Lemma on_rto_reactions_svs (s s' : vsock) : on_rto_reactions cci s = Some s' -> svs s s'.
Proof.
  unfold on_rto_reactions. destruct (on_rto_timeout (v_rtte s)); [|discriminate].
  intro H; injection H as <-. unfold svs, same_view; vsimpl; repeat split.
Qed.

(* ------------------------------------------------------------------ send_tx_queue *)
Lemma rto_branch_ev (s : vsock) h : stR D0 s (rto_branch cci s h).
Proof.
  unfold rto_branch.
  destruct (timer_expired _ _); [|exact (D0_refl s)].
  destruct (iter_for_sending (v_segs s) None) as [|f rest] eqn:Eit.
  - destruct (our_fin_if_unacked (v_state s)) as [fin|];
      [|cbn [stR]; apply D0_svs; unfold svs, same_view; vsimpl; repeat split].
    destruct (_ =? fin); [|cbn [stR]; apply D0_svs; unfold svs, same_view; vsimpl; repeat split].
    apply (stR_weaken D0 D0_trans) with (s := set_last_sent_seq_nr s (wsub16 (v_last_sent_seq_nr s) 1));
      [apply D0_svs; unfold svs, same_view; vsimpl; repeat split|].
    apply (stR_sbind D0 D0_trans); [apply stR_svs_D0, maybe_send_fin_svs|].
    intros s2 sent. destruct sent; [|exact (D0_refl s2)].
    destruct (on_rto_reactions cci s2) as [s3|] eqn:E3; cbn [stR]; [|exact I].
    apply D0_svs. eapply svs_trans; [apply on_rto_reactions_svs; exact E3|].
    unfold svs, same_view; vsimpl; repeat split.
  - assert (Hf : item_ok (v_segs s) f) by (apply (iter_item_ok _ None); rewrite Eit; left; reflexivity).
    apply send_data_then; [exact Hf|]. intros s1 r _.
    destruct r; [|exact (D0_refl s1)..].
    assert (Hs2 : forall s2, (if negb (sg_probe (fs_seg f)) then on_rto_reactions cci s1 else Some s1) = Some s2 ->
                             svs s1 s2).
    { intros s2. destruct (negb _); [apply on_rto_reactions_svs|]. intro H; injection H as <-. apply svs_refl. }
    destruct (if negb (sg_probe (fs_seg f)) then on_rto_reactions cci s1 else Some s1) as [s2|]; cbn [stR]; [|exact I].
    apply D0_svs. eapply svs_trans; [apply Hs2; reflexivity|].
    unfold svs, same_view; vsimpl; repeat split.
Qed.

Lemma In_take_skip_firstn {A} (l : list A) (q1 q2 : A -> bool) n x :
  In x (take_while q1 (skip_while q2 (firstn n l))) -> In x l.
Proof.
  intro Hx.
  assert (Htw : forall l0, In x (take_while q1 l0) -> In x l0).
  { induction l0 as [|y ys IHl]; cbn [take_while]; [tauto|]. destruct (q1 y); cbn [In]; tauto. }
  assert (Hsw : forall l0, In x (skip_while q2 l0) -> In x l0).
  { induction l0 as [|y ys IHl]; cbn [skip_while]; [tauto|]. destruct (q2 y); [right; auto|auto]. }
  apply Htw in Hx. apply Hsw in Hx.
  rewrite <- (firstn_skipn n l). apply in_or_app. left. exact Hx.
Qed.

Lemma rec_branch_ev (s : vsock) h : stR D0 s (rec_branch s h).
Proof.
  unfold rec_branch.
  destruct (rv_phase (v_recovery s)) as [rp|d|rc]; try exact (D0_refl s).
  apply (stR_sbind D0 D0_trans).
  { apply recovery_loop_ev. unfold rec_items. apply Forall_forall. intros f Hf.
    apply In_take_skip_firstn in Hf. eapply iter_item_ok. exact Hf. }
  intros s1 [st early]. unfold rec_after.
  match goal with |- stR D0 s1 (if early then SOk ?S true else _) => set (s2 := S) end.
  assert (H2 : D0 s1 s2).
  { apply D0_svs. unfold s2, set_recovering, svs, same_view; vsimpl; repeat split. }
  destruct early; [exact H2|].
  match goal with |- stR D0 s1 (match our_fin_if_unacked (v_state ?S) with _ => _ end) => set (s3 := S) end.
  assert (H3 : D0 s1 s3).
  { eapply D0_trans; [exact H2|]. apply D0_svs. unfold s3.
    destruct (rl_cwnd st <? _); [|apply svs_refl].
    destruct (rc_recalc rc); [unfold svs, same_view; vsimpl; repeat split|].
    destruct (0 <? _); [unfold svs, same_view; vsimpl; repeat split|apply svs_refl]. }
  destruct (our_fin_if_unacked (v_state s3)) as [our_fin|]; [|exact H3].
  destruct (_ =? wsub16 our_fin 1); [|exact H3].
  cbn [stR]. eapply D0_trans; [exact H3|]. apply D0_svs.
  unfold set_recovering, svs, same_view; vsimpl; repeat split.
Qed.

Lemma new_branch_ev (s : vsock) h : stR D0 s (new_branch cci s h).
Proof.
  unfold new_branch. apply (stR_sbind D0 D0_trans).
  { apply new_data_loop_ev. unfold new_items. apply Forall_forall. intros f Hf. eapply iter_item_ok. exact Hf. }
  intros s1 tl. unfold new_after.
  destruct tl as [[sq size]|]; [|exact (D0_refl s1)].
  destruct (pop_mtu_probe (v_segs s1) sq) as [segs' popped] eqn:Epop.
  destruct popped; cbn [stR]; [|apply D0_refl].
  apply (D0_one (EvPopProbe sq)); try reflexivity.
  - unfold dview_of; vsimpl. cbn [dapply x_segs]. rewrite Epop. reflexivity.
  - vsimpl. intro Hok. apply disarm_ss_ok. apply failed_ss_ok. exact Hok.
Qed.

Lemma send_tx_queue_ev (s : vsock) : stR D0 s (send_tx_queue cci s).
Proof.
  rewrite send_tx_queue_eq.
  destruct (v_transport_pending s); [exact (D0_refl s)|].
  apply (stR_sbind D0 D0_trans); [apply rto_branch_ev|].
  intros s1 ret. unfold after_rto_k.
  destruct ret; [exact (D0_refl s1)|].
  destruct (0 <? _); [exact (D0_refl s1)|].
  destruct (ss_segs (v_segs s1)) as [|g0 gs]; [exact (D0_refl s1)|].
  apply (stR_sbind D0 D0_trans); [apply rec_branch_ev|].
  intros s2 ret. destruct ret; [exact (D0_refl s2)|apply new_branch_ev].
Qed.

(* ------------------------------------------------------------------ segmentation *)
Lemma segment_loop_ev : forall fuel nagle ss segs remaining rwr ss' segs' rem' (st : dst),
  ss_ok ss -> x_segs st = segs -> x_pend st = 0 ->
  remaining <= Z.of_nat (length (ring (x_tx st))) - ss_len_bytes segs ->
  segment_loop fuel nagle ss segs remaining rwr = Some (ss', segs', rem') ->
  ss_ok ss' /\ exists evs, drun st evs = set_xsegs st segs' /\ Forall (fun e => plainb e = true) evs.
Proof.
  induction fuel as [|b fuel IH]; intros nagle ss segs remaining rwr ss' segs' rem' st Hok Hsg Hpd Hrem;
    cbn [segment_loop].
  - intro H; injection H as <- <- _. split; [exact Hok|]. exists []. split; [|constructor].
    cbn [drun]. destruct st; cbn in Hsg |- *. subst. reflexivity.
  - assert (Hnil : ss_ok ss /\ exists evs, drun st evs = set_xsegs st segs /\ Forall (fun e => plainb e = true) evs).
    { split; [exact Hok|]. exists []. split; [|constructor].
      cbn [drun]. destruct st; cbn in Hsg |- *. subst. reflexivity. }
    destruct (Z.ltb_spec 0 remaining) as [Hr0|Hr0]; cbn [andb];
      [|intro H; injection H as <- <- _; exact Hnil].
    destruct (Z.ltb_spec 0 rwr) as [Hw0|Hw0]; [|intro H; injection H as <- <- _; exact Hnil].
    destruct (next_size_ok ss Hok) as (ss1 & sz & -> & Hmin & Hmax & Hsz).
    assert (Hok1 : ss_ok ss1) by (unfold ss_ok in *; rewrite Hmin, Hmax; exact Hok).
    set (payload := Z.min (Z.min sz rwr) remaining).
    assert (Hp : 0 < payload <= remaining) by (unfold payload, ss_ok in *; lia).
    destruct (nagle && _ && _).
    { intro H; injection H as <- <- _. split; [exact Hok1|]. destruct Hnil as [_ Hn]. exact Hn. }
    assert (Henq : forall pr, dapply st (EvEnqueue payload pr) = set_xsegs st (enqueue segs payload pr)).
    { intro pr. cbn [dapply]. rewrite Hpd, Hsg.
      replace ((0 =? 0) && (0 <? payload) && (payload <=? Z.of_nat (length (ring (x_tx st))) - ss_len_bytes segs))
        with true by (symmetry; lia). reflexivity. }
    destruct (mss ss1 <? payload) eqn:Epr.
    + intro H; injection H as <- <- _. split; [exact Hok1|].
      exists [EvEnqueue payload true]. cbn [drun]. rewrite Henq. split; [reflexivity|repeat constructor].
    + intro H.
      set (st1 := set_xsegs st (enqueue segs payload false)).
      assert (Hpd1 : x_pend st1 = 0) by exact Hpd.
      assert (Hrem1 : remaining - payload <=
                      Z.of_nat (length (ring (x_tx st1))) - ss_len_bytes (enqueue segs payload false)).
      { unfold st1, set_xsegs; cbn [x_tx]. unfold enqueue, Segments.set_segs; cbn [ss_len_bytes]. lia. }
      destruct (IH _ _ _ _ _ _ _ _ st1 Hok1 eq_refl Hpd1 Hrem1 H) as (Hok' & evs & Hrun & Hpl).
      split; [exact Hok'|]. exists (EvEnqueue payload false :: evs). cbn [drun]. rewrite Henq. fold st1. rewrite Hrun.
      split; [reflexivity|constructor; [reflexivity|exact Hpl]].
Qed.

Lemma split_ev (s : vsock) :
  ss_ok (v_ss s) ->
  stR D0 s (split_tx_queue_into_segments cci s).
Proof.
  intro Hok. unfold split_tx_queue_into_segments.
  destruct (_ =? 0).
  { cbn [stR]. apply (D0_one EvRegister); try reflexivity. exact (fun H => H). }
  match goal with |- context [is_remote_fin_or_later (v_state ?S)] => set (s1 := S) end.
  assert (H1 : D0 s s1 /\ v_ss s1 = v_ss s /\ Z.of_nat (length (ring (v_tx s1))) = Z.of_nat (length (ring (v_tx s)))).
  { unfold s1. destruct (_ && _); [|split; [apply D0_refl|auto]].
    destruct (grow (v_tx s) (o_tx_max (v_opts s))) as [tx1 g] eqn:Eg.
    assert (Hlen : ring tx1 = ring (v_tx s)).
    { unfold grow in Eg. destruct (_ <=? _); injection Eg as <- _; reflexivity. }
    assert (Hg : D0 s (set_tx s tx1)).
    { apply (D0_one (EvGrow (o_tx_max (v_opts s)))); try reflexivity; [|exact (fun H => H)].
      unfold dview_of; vsimpl. cbn [dapply x_tx]. rewrite Eg. reflexivity. }
    destruct g.
    - destruct (wake_writer tx1) as [tx2 w] eqn:Ew.
      split; [|split; [unfold add_wakes; vsimpl; reflexivity|]].
      + eapply D0_trans; [exact Hg|].
        apply (D0_one (EvTxFlag ToWakeWriter)); try reflexivity; [|exact (fun H => H)].
        unfold dview_of, add_wakes; vsimpl. cbn [dapply x_tx pend_safe_op tx_step]. rewrite Ew. reflexivity.
      + unfold add_wakes; vsimpl. unfold wake_writer in Ew. injection Ew as <- _. cbn [upd ring]. rewrite Hlen. reflexivity.
    - split; [exact Hg|split; [vsimpl; reflexivity|vsimpl; rewrite Hlen; reflexivity]]. }
  clearbody s1. destruct H1 as (Hd1 & Hss1 & Hlen1).
  assert (Hok1 : ss_ok (v_ss s1)) by (rewrite Hss1; exact Hok).
  destruct (is_remote_fin_or_later (v_state s1)); [cbn [stR]; exact Hd1|].
  destruct (pop_expired_mtu_probe (v_segs s1) _ _) as [segs1 pe] eqn:Epe.
  (* the common continuation *)
  assert (Hcont : forall s2 : vsock,
     D0 s s2 -> ss_ok (v_ss s2) -> Z.of_nat (length (ring (v_tx s2))) = Z.of_nat (length (ring (v_tx s))) ->
     stR D0 s (if Z.of_nat (length (ring (v_tx s))) <? ss_len_bytes (v_segs s2)
            then SErr s2 (ErrBug BugInBufferComputations)
            else match segment_loop (ring (v_tx s2)) (o_nagle (v_opts s2)) (v_ss s2) (v_segs s2)
                         (Z.of_nat (length (ring (v_tx s))) - ss_len_bytes (v_segs s2))
                         (v_last_remote_window s2) with
                 | None => SPanic
                 | Some (ss', segs', remaining) =>
                     SOk (set_unsegmented (VSockRec.set_segs (set_ss s2 ss') segs') remaining) tt
                 end)).
  { intros s2 Hd2 Hok2 Hlen2.
    destruct (_ <? _); [cbn [stR]; exact Hd2|].
    destruct (segment_loop _ _ _ _ _ _) as [[[ss' segs'] rem']|] eqn:Esl; [|exact I].
    assert (Hrem2 : Z.of_nat (length (ring (v_tx s))) - ss_len_bytes (v_segs s2) <=
                    Z.of_nat (length (ring (x_tx (dview_of 0 s2)))) - ss_len_bytes (v_segs s2)).
    { unfold dview_of; cbn [x_tx]. rewrite Hlen2. lia. }
    destruct (segment_loop_ev _ _ _ _ _ _ _ _ _ (dview_of 0 s2) Hok2 eq_refl eq_refl Hrem2 Esl)
      as (Hok' & evs & Hrun & Hpl).
    cbn [stR]. eapply D0_trans; [exact Hd2|].
    intro ib. apply (devs_plain ib false evs).
    - rewrite Hrun. unfold dview_of, set_xsegs; vsimpl. reflexivity.
    - exact Hpl.
    - vsimpl. reflexivity.
    - unfold rfin; vsimpl; auto.
    - vsimpl. auto. }
  destruct pe as [rewind_to payload_size| |].
  - apply Hcont.
    + eapply D0_trans; [exact Hd1|].
      apply (D0_one (EvPopExpired (timer_expired (v_t_retransmit s1) (v_now s1)
                                   && negb (is_local_fin_or_later (v_state s1)))
                                  (o_mtu_probe_max_retx (v_opts s1)))); try reflexivity.
      * destruct (seq_gt _ _); unfold dview_of; vsimpl; cbn [dapply x_segs]; rewrite Epe; reflexivity.
      * destruct (seq_gt _ _); vsimpl; reflexivity.
      * destruct (seq_gt _ _); reflexivity.
      * destruct (seq_gt _ _); vsimpl; intro H; apply failed_ss_ok; exact H.
    + destruct (seq_gt _ _); vsimpl; apply failed_ss_ok; exact Hok1.
    + destruct (seq_gt _ _); vsimpl; exact Hlen1.
  - cbn [stR]. eapply D0_trans; [exact Hd1|]. apply D0_svs. unfold svs, same_view; vsimpl; repeat split.
  - apply Hcont; assumption.
Qed.

End WalkTx.
