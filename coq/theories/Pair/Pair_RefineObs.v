(* C01 lift, from the ghost streams to what the applications saw.
   - pair_trace_refines_all: the data-path run of a pair trace extends the runs of its prefixes, so
     one guard (that of the whole run) gives the prefix property at every step;
   - the ghost streams g_written / g_read of each endpoint change only by application writes / reads
     (polls, deliveries: data events leave them alone), and the (length, hash) accumulators of the pair
     are those of the ghost streams (acc_inv);
   - hence the extracted predicate c01_dir_ok (cumulative length and hash of what the reader got =
     those of a prefix of what the peer wrote, step by step) holds on every live, guarded pair trace
     (pair_trace_dir_ok). *)
From Utp Require Import Base.Prelude Wire.SeqNr Wire.Header Rtt.Rtte Mtu.SegSizes Rx.Rx Rx.Rx_Proofs Tx.Ring
  Tx.Ring_Proofs Tx.Segments Tx.Segments_Proofs Conn.Recovery Conn.Msg Conn.VSockRec Conn.VSock Conn.VSockRun
  Conn.C10_Pred Conn.VSock_Inv Conn.VSock_Lemmas Pair.Pair Pair.DP Pair.DP_Lemmas Pair.DP_Proofs Pair.DP_RxProofs
  Pair.Pair_Refine Pair.Pair_RefineWalk Pair.Pair_RefineWalkPoll Pair.Pair_RefineSim Pair.Pair_RefinePair
  Pair.Pair_RefineTrace.

(* ------------------------------------------------------------------ ghost streams of the components *)
Lemma flush_loop_gread : forall fuel s w fb fp s' w' fb' fp',
  flush_loop fuel s w fb fp = Some (s', w', fb', fp') -> g_read s' = g_read s.
Proof.
  induction fuel as [|fuel IH]; intros s w fb fp s' w' fb' fp'; cbn [flush_loop].
  - intro H; injection H as <- _ _ _. reflexivity.
  - destruct (filled_front s =? 0); [intro H; injection H as <- _ _ _; reflexivity|].
    destruct (ooq_data s) as [|m rest]; [discriminate|].
    destruct (w <? _); [intro H; injection H as <- _ _ _; reflexivity|].
    destruct (reader_dropped s); [intro H; injection H as <- _ _ _; reflexivity|].
    destruct (_ <? _); [discriminate|].
    intro H. rewrite (IH _ _ _ _ _ _ _ _ H). reflexivity.
Qed.

Lemma rx_flush_gread s : g_read (fst (fst (rx_flush s))) = g_read s.
Proof.
  unfold rx_flush.
  match goal with |- context [flush_loop ?f ?s0 ?w 0 0] => destruct (flush_loop f s0 w 0 0) as [[[[s1 w1] fb] fp]|] eqn:E end.
  - apply flush_loop_gread in E. destruct (0 <? fp); cbn [fst set_wakers g_read]; rewrite E; reflexivity.
  - reflexivity.
Qed.

Lemma ooq_add_remove_gread s k p off : g_read (fst (ooq_add_remove s k p off)) = g_read s.
Proof.
  unfold ooq_add_remove. destruct (ooq_is_full s); [reflexivity|]. destruct (_ <=? _); [reflexivity|].
  destruct k; destruct p; try reflexivity;
    (destruct (nth_error _ _); [|reflexivity]; destruct (negb _); [reflexivity|];
     destruct (take_while_filled _) as [n b]; reflexivity).
Qed.

Lemma rx_add_remove_gread s k p off : g_read (fst (fst (rx_add_remove s k p off))) = g_read s.
Proof.
  unfold rx_add_remove. pose proof (ooq_add_remove_gread s k p off) as H.
  destruct (ooq_add_remove s k p off) as [s1 r]. cbn [fst] in H.
  destruct r; try exact H.
  destruct (_ && _); [|exact H].
  pose proof (rx_flush_gread s1) as H2. destruct (rx_flush s1) as [[s2 fr] w]. cbn [fst] in H2.
  destruct fr; cbn [fst]; congruence.
Qed.

Lemma read_loop_gread : forall fuel s room out s' out' dead err,
  read_loop fuel s room out = (s', out', dead, err) -> g_read s' = g_read s.
Proof.
  induction fuel as [|fuel IH]; intros s room out s' out' dead err; cbn [read_loop].
  - intro H; injection H as <- _ _ _. reflexivity.
  - destruct (room <=? 0); [intro H; injection H as <- _ _ _; reflexivity|].
    destruct (current s) as [|c cs].
    + destruct (is_eof s); [intro H; injection H as <- _ _ _; reflexivity|].
      destruct (q s) as [|item qrest].
      * destruct (vsock_closed s); intro H; injection H as <- _ _ _; reflexivity.
      * destruct item.
        -- intro H. rewrite (IH _ _ _ _ _ _ _ H). reflexivity.
        -- intro H; injection H as <- _ _ _. reflexivity.
        -- intro H; injection H as <- _ _ _. reflexivity.
    + intro H. rewrite (IH _ _ _ _ _ _ _ H). reflexivity.
Qed.

Definition read_bytes (r : read_result) : list Z := match r with RdOk bs => bs | _ => [] end.

Lemma rx_read_gread s n s' r w : rx_read s n = (s', r, w) -> g_read s' = g_read s ++ read_bytes r.
Proof.
  unfold rx_read. destruct (read_loop _ s n []) as [[[s1 out] dead] err] eqn:E.
  apply read_loop_gread in E.
  destruct err; [intro H; injection H as <- <- _; cbn [read_bytes]; rewrite app_nil_r; exact E|].
  destruct out as [|b bs].
  - destruct (is_eof s1); [|destruct dead]; intro H; injection H as <- <- _; cbn [read_bytes]; rewrite app_nil_r; exact E.
  - intro H; injection H as <- <- _. cbn [g_read read_bytes]. rewrite E. reflexivity.
Qed.

Definition write_bytes (buf : list Z) (r : write_result) : list Z :=
  match r with WrOk n => firstn (Z.to_nat n) buf | _ => [] end.

Lemma poll_write_gw t buf t' r w : poll_write t buf = (t', r, w) -> g_written t' = g_written t ++ write_bytes buf r.
Proof.
  unfold poll_write. destruct (YIELD_EVERY <? _); [intro H; injection H as <- <- _; cbn; rewrite app_nil_r; reflexivity|].
  destruct (t_vsock_closed t); [intro H; injection H as <- <- _; cbn; rewrite app_nil_r; reflexivity|].
  destruct (writer_shutdown t); [intro H; injection H as <- <- _; cbn; rewrite app_nil_r; reflexivity|].
  destruct (writer_dropped t); [intro H; injection H as <- <- _; cbn; rewrite app_nil_r; reflexivity|].
  destruct (_ =? 0); intro H; injection H as <- <- _; cbn [upd g_written write_bytes]; [rewrite app_nil_r|]; reflexivity.
Qed.

(* a data event leaves both ghost streams alone *)
Lemma dapply_ghost st e :
  g_written (x_tx (dapply st e)) = g_written (x_tx st) /\ g_read (x_rx (dapply st e)) = g_read (x_rx st).
Proof.
  destruct e; cbn [dapply].
  (* the events of the segment table touch neither the ring nor the receiver *)
  4, 6-10: repeat break_match; cbn [set_xsegs x_tx x_rx]; auto.
  - destruct (pend_safe_op o) eqn:Eo; [|auto].
    assert (Hfl : is_flag_tx_op o = true) by (destruct o; try discriminate; reflexivity).
    destruct (tx_step (x_tx st) o) as [[t out] w] eqn:E.
    destruct (tx_flag_frame _ _ _ _ _ Hfl E) as (F1 & _). cbn [set_xtx x_tx x_rx]. auto.
  - destruct (_ =? 0); [|auto]. cbn [set_xtx x_tx x_rx]. split; [|reflexivity].
    unfold register_dispatcher_if_empty. destruct (ring (x_tx st)); reflexivity.
  - destruct (grow (x_tx st) mx) as [t g] eqn:E. cbn [set_xtx x_tx x_rx]. split; [|reflexivity].
    unfold grow in E. destruct (_ <=? _); injection E as <- _; reflexivity.
  - cbn [x_tx x_rx]. split; [|reflexivity]. destruct (tx_skip_fields (x_tx st) (x_pend st)) as (_&_&_&_&_&_&_&_&F&_). exact F.
  - unfold data_apply. destruct (_ <? 0); cbn [x_tx x_rx]; [auto|].
    pose proof (rx_add_remove_gread (x_rx st) KData payload (seq_sub seq (wadd16 (x_lc st) 1))) as H.
    destruct (rx_add_remove _ _ _ _) as [[r ar] w]. cbn [fst] in H.
    destruct ar as [[n b| | | | |]|]; cbn [x_tx x_rx]; auto.
  - pose proof (rx_add_remove_gread (x_rx st) KFin payload (seq_sub seq (wadd16 (x_lc st) 1))) as H.
    destruct (rx_add_remove _ _ _ _) as [[r ar] w]. cbn [fst] in H. cbn [x_tx x_rx]. auto.
  - pose proof (rx_flush_gread (x_rx st)) as H. destruct (rx_flush _) as [[r fr] w]. cbn [fst] in H.
    cbn [set_xrx x_tx x_rx]. auto.
  - destruct (is_flag_rx_op o) eqn:Eo; [|auto].
    destruct o; try discriminate; cbn [rx_step].
    + destruct (reader_dropped (x_rx st)); cbn [set_xrx x_tx x_rx]; auto.
    + unfold rx_mark_vsock_closed. destruct (vsock_closed (x_rx st)); cbn [set_xrx x_tx x_rx]; auto.
  - cbn [set_xrx x_tx x_rx rx_enqueue_error fst]. auto.
Qed.

Lemma drun_ghost : forall evs st,
  g_written (x_tx (drun st evs)) = g_written (x_tx st) /\ g_read (x_rx (drun st evs)) = g_read (x_rx st).
Proof.
  induction evs as [|e evs IH]; intros st; cbn [drun]; [auto|].
  destruct (IH (dapply st e)) as [H1 H2]. destruct (dapply_ghost st e) as [G1 G2]. split; congruence.
Qed.

(* ------------------------------------------------------------------ the hash accumulators *)
Lemma hacc_add_app a l1 l2 : hacc_add a (l1 ++ l2) = hacc_add (hacc_add a l1) l2.
Proof. unfold hacc_add. apply fold_left_app. Qed.

Lemma ha_len_add : forall l a, ha_len (hacc_add a l) = ha_len a + Z.of_nat (length l).
Proof.
  induction l as [|x l IH]; intros a; cbn [hacc_add fold_left length]; [lia|].
  change (fold_left hacc_byte l (hacc_byte a x)) with (hacc_add (hacc_byte a x) l).
  rewrite IH. cbn [hacc_byte ha_len]. lia.
Qed.

Section Obs.
Context {CC : Type} (cci : cc_iface CC).
Notation vsock := (vsock CC).
Notation pair := (pair (CC:=CC)).

(* ------------------------------------------------------------------ one connection event *)
Definition vwrote (o : vop) (out : vout) : list Z :=
  match o, out with VoWrite buf, VrWrite r => write_bytes buf r | _, _ => [] end.
Definition vread (out : vout) : list Z :=
  match out with VrRead r => read_bytes r | _ => [] end.

Lemma vstep_ghost (s : vsock) o s' out dw sw :
  ss_ok (v_ss s) -> vstep cci s o = (s', out, dw, sw) ->
  g_written (v_tx s') = g_written (v_tx s) ++ vwrote o out /\
  g_read (v_rx s') = g_read (v_rx s) ++ vread out.
Proof.
  intro Hss.
  (* most ops leave both streams alone and return no bytes *)
  assert (Hsame : forall (s1 : vsock) out1, g_written (v_tx s1) = g_written (v_tx s) -> g_read (v_rx s1) = g_read (v_rx s) ->
            vwrote o out1 = [] -> vread out1 = [] ->
            g_written (v_tx s1) = g_written (v_tx s) ++ vwrote o out1 /\
            g_read (v_rx s1) = g_read (v_rx s) ++ vread out1).
  { intros s1 out1 E1 E2 E3 E4. rewrite E3, E4, !app_nil_r. auto. }
  destruct o; cbn [vstep].
  - intro H; injection H as <- <- _ _. apply Hsame; reflexivity.
  - intro H; injection H as <- <- _ _. apply Hsame; reflexivity.
  - (* poll: data events only *)
    intro E. destruct (vstep_poll_ev cci s script _ _ _ _ Hss E) as (res & -> & p' & (evs & V1 & _) & _).
    cbn [fst] in V1. rewrite poll_reset_view in V1. vsimpl.
    destruct (drun_ghost evs (mk_dst (v_tx s) (v_segs s) (v_rx s) (v_last_consumed s) [] 0)) as [G1 G2].
    rewrite <- V1 in G1, G2. apply Hsame; try reflexivity; assumption.
  - destruct (v_inbox_closed s); intro H; injection H as <- <- _ _; apply Hsame; reflexivity.
  - intro H; injection H as <- <- _ _. apply Hsame; reflexivity.
  - destruct (writer_dropped (v_tx s)); [intro H; injection H as <- <- _ _; apply Hsame; reflexivity|].
    destruct (poll_write (v_tx s) buf) as [[tx1 r] w] eqn:E. intro H; injection H as <- <- _ _. vsimpl.
    cbn [vwrote vread]. rewrite app_nil_r. split; [exact (poll_write_gw _ _ _ _ _ E)|reflexivity].
  - destruct (writer_dropped (v_tx s)); [intro H; injection H as <- <- _ _; apply Hsame; reflexivity|].
    destruct (poll_flush (v_tx s)) as [[tx1 r] w] eqn:E. intro H; injection H as <- <- _ _.
    apply Hsame; try reflexivity. vsimpl.
    unfold poll_flush in E. destruct (ring (v_tx s)); [|destruct (t_vsock_closed (v_tx s))]; injection E as <- _ _; reflexivity.
  - destruct (writer_dropped (v_tx s)); [intro H; injection H as <- <- _ _; apply Hsame; reflexivity|].
    destruct (poll_shutdown (v_tx s)) as [[tx1 r] w] eqn:E. intro H; injection H as <- <- _ _.
    apply Hsame; try reflexivity. vsimpl. unfold poll_shutdown in E.
    destruct (ring (v_tx s)); destruct (t_vsock_closed (v_tx s)); try destruct (writer_shutdown (v_tx s));
      injection E as <- _ _; reflexivity.
  - destruct (reader_dropped (v_rx s)); [intro H; injection H as <- <- _ _; apply Hsame; reflexivity|].
    destruct (rx_read (v_rx s) n) as [[rx1 r] w] eqn:E. intro H; injection H as <- <- _ _. vsimpl.
    cbn [vwrote vread]. rewrite app_nil_r. split; [reflexivity|exact (rx_read_gread _ _ _ _ _ E)].
  - destruct (reader_dropped (v_rx s)); [intro H; injection H as <- <- _ _; apply Hsame; reflexivity|].
    destruct (rx_drop_reader (v_rx s)) as [rx1 w] eqn:E. intro H; injection H as <- <- _ _.
    apply Hsame; try reflexivity. vsimpl. unfold rx_drop_reader in E. injection E as <- _. reflexivity.
  - destruct (drop_writer (v_tx s)) as [tx1 w] eqn:E. intro H; injection H as <- <- _ _.
    apply Hsame; try reflexivity. vsimpl.
    unfold drop_writer in E. destruct (writer_dropped (v_tx s)); injection E as <- _; reflexivity.
Qed.

Lemma vstep_poll_out (s : vsock) script s' out dw sw :
  vstep cci s (VoPoll script) = (s', out, dw, sw) -> vwrote (VoPoll script) out = [] /\ vread out = [].
Proof.
  cbn [vstep]. destruct (poll cci (set_sends s script)) as [s1 res]. intro E; injection E as _ <- _ _.
  split; reflexivity.
Qed.

Lemma vstep_deliver_out (s : vsock) m s' out dw sw :
  vstep cci s (VoDeliver m) = (s', out, dw, sw) -> vwrote (VoDeliver m) out = [] /\ vread out = [].
Proof.
  cbn [vstep]. destruct (v_inbox_closed s); intro E; injection E as _ <- _ _; split; reflexivity.
Qed.

(* ------------------------------------------------------------------ one pair step *)
Definition gw (s : pair) (sd : side) : list Z := g_written (v_tx (ep s sd)).
Definition gr (s : pair) (sd : side) : list Z := g_read (v_rx (ep s sd)).
Definition wacc (s : pair) (sd : side) : hacc := match sd with SA => p_wa s | SB => p_wb s end.
Definition racc (s : pair) (sd : side) : hacc := match sd with SA => p_ra s | SB => p_rb s end.

(* bytes a read returned *)
Definition rd_of (o : pop) (out : vout) (sd : side) : list Z :=
  match o with PoApp s0 _ => if side_eqb s0 sd then vread out else [] | _ => [] end.

Ltac pair_simpl :=
  cbn [fst snd ep other net_from fin_of set_ep set_net set_fin set_hole count_io gw gr wacc racc
       p_a p_b p_fin_a p_fin_b p_ab p_ba p_hole p_wa p_ra p_wb p_rb po_out po_side side_eqb] in *.

Lemma wrote_of_app sd0 a out sd :
  wrote_of (PoApp sd0 a) out sd = if side_eqb sd0 sd then vwrote (vop_of_aop a) out else [].
Proof.
  unfold wrote_of, vwrote. destruct a; cbn [vop_of_aop]; destruct out; try (destruct (side_eqb sd0 sd); reflexivity).
  destruct r; try (destruct (side_eqb sd0 sd); reflexivity).
Qed.

Lemma pstep_ghost (s : pair) o sd :
  ss_ok (v_ss (p_a s)) -> ss_ok (v_ss (p_b s)) ->
  let s' := fst (pstep cci s o) in
  let out := po_out (snd (pstep cci s o)) in
  gw s' sd = gw s sd ++ wrote_of o out sd /\ gr s' sd = gr s sd ++ rd_of o out sd /\
  wacc s' sd = hacc_add (wacc s sd) (wrote_of o out sd) /\ racc s' sd = hacc_add (racc s sd) (rd_of o out sd).
Proof.
  intros Ha Hb. cbv zeta.
  assert (Hsame : forall s' : pair, gw s' sd = gw s sd -> gr s' sd = gr s sd -> wacc s' sd = wacc s sd ->
            racc s' sd = racc s sd ->
            gw s' sd = gw s sd ++ [] /\ gr s' sd = gr s sd ++ [] /\
            wacc s' sd = hacc_add (wacc s sd) [] /\ racc s' sd = hacc_add (racc s sd) []).
  { intros s' E1 E2 E3 E4. rewrite !app_nil_r. cbn [hacc_add fold_left]. auto. }
  assert (Hss : forall x, ss_ok (v_ss (ep s x))) by (intros [|]; assumption).
  destruct o; cbn [pstep].
  (* clock, hole, drop, duplicate: no endpoint acts *)
  1, 2, 6, 7: cbn [fst snd po_out wrote_of rd_of]; repeat break_match; apply Hsame;
    destruct sd; try destruct from; pair_simpl; vsimpl; reflexivity.
  - (* application op *)
    destruct (vstep cci (ep s sd0) (vop_of_aop o)) as [[[v' out] dw] sw] eqn:E.
    destruct (vstep_ghost (ep s sd0) _ _ _ _ _ (Hss sd0) E) as [G1 G2].
    cbn [fst snd po_out]. rewrite wrote_of_app. cbn [rd_of].
    assert (Hw : match o, out with AWrite buf, VrWrite (WrOk n) => firstn (Z.to_nat n) buf | _, _ => [] end =
                 vwrote (vop_of_aop o) out).
    { unfold vwrote. destruct o; cbn [vop_of_aop]; destruct out; try reflexivity; try (destruct r; reflexivity). }
    assert (Hr : match out with VrRead (RdOk bs) => bs | _ => [] end = vread out).
    { unfold vread. destruct out; try reflexivity; try (destruct r; reflexivity). }
    destruct sd, sd0; pair_simpl; rewrite ?Hw, ?Hr, ?app_nil_r; cbn [hacc_add fold_left]; auto.
  - (* poll *)
    destruct (fin_of s sd0).
    { cbn [fst snd po_out wrote_of rd_of]. apply Hsame; reflexivity. }
    destruct (vstep cci (ep s sd0) (VoPoll script)) as [[[v' out] dw] sw] eqn:E.
    destruct (vstep_ghost (ep s sd0) _ _ _ _ _ (Hss sd0) E) as [G1 G2].
    destruct (vstep_poll_out _ _ _ _ _ _ E) as [Ho1 Ho2]. rewrite Ho1, Ho2, app_nil_r in *.
    cbn [fst snd po_out wrote_of rd_of].
    destruct (poll_finished out); apply Hsame; destruct sd, sd0; pair_simpl; auto.
  - (* deliver *)
    destruct (pick_idx (net_from s from) i) as [k|]; [|cbn [fst snd po_out wrote_of rd_of]; apply Hsame; reflexivity].
    destruct (nth_error (net_from s from) k) as [pk|]; [|cbn [fst snd po_out wrote_of rd_of]; apply Hsame; reflexivity].
    destruct (vstep cci (ep (set_net s from (remove_nth k (net_from s from))) (other from)) (VoDeliver (msg_of_packet pk)))
      as [[[v' out] dw] sw] eqn:E.
    assert (Hss' : ss_ok (v_ss (ep (set_net s from (remove_nth k (net_from s from))) (other from))))
      by (destruct from; pair_simpl; assumption).
    destruct (vstep_ghost _ _ _ _ _ _ Hss' E) as [G1 G2].
    destruct (vstep_deliver_out _ _ _ _ _ _ E) as [Ho1 Ho2]. rewrite Ho1, Ho2, app_nil_r in *.
    cbn [fst snd po_out wrote_of rd_of].
    apply Hsame; destruct sd, from; pair_simpl; auto.
Qed.

(* the accumulators of the pair are those of the ghost streams *)
Definition acc_inv (s : pair) : Prop :=
  forall sd, wacc s sd = hacc_add hacc0 (gw s sd) /\ racc s sd = hacc_add hacc0 (gr s sd).

Lemma acc_inv_step (s : pair) o :
  ss_ok (v_ss (p_a s)) -> ss_ok (v_ss (p_b s)) -> acc_inv s -> acc_inv (fst (pstep cci s o)).
Proof.
  intros Ha Hb Hinv sd. destruct (pstep_ghost s o sd Ha Hb) as (G1 & G2 & G3 & G4). cbv zeta in *.
  destruct (Hinv sd) as [I1 I2]. rewrite G1, G2, G3, G4, I1, I2, !hacc_add_app. auto.
Qed.

(* ------------------------------------------------------------------ the checker of c01_dir_ok *)
Definition dc_inv (rd : side) (s : pair) (dc : dchk) : Prop :=
  dc_acc dc = hacc_add hacc0 (gr s rd) /\
  dc_pending dc = skipn (length (gr s rd)) (gw s (writer_of rd)) /\
  is_prefix (gr s rd) (gw s (writer_of rd)).

Fixpoint good_run (rd : side) (s : pair) (ops : list pop) : Prop :=
  match ops with
  | [] => True
  | o :: r =>
      let s' := fst (pstep cci s o) in
      ss_ok (v_ss (p_a s)) /\ ss_ok (v_ss (p_b s)) /\
      is_prefix (gr s' rd) (gw s' (writer_of rd)) /\ good_run rd s' r
  end.

Lemma skipn_app_le {A} (l1 l2 : list A) n : (n <= length l1)%nat -> skipn n (l1 ++ l2) = skipn n l1 ++ l2.
Proof. intro H. rewrite skipn_app. replace (n - length l1)%nat with 0%nat by lia. reflexivity. Qed.

Lemma dchk_step_ok rd (s : pair) o dc :
  ss_ok (v_ss (p_a s)) -> ss_ok (v_ss (p_b s)) -> acc_inv s -> dc_inv rd s dc ->
  let s' := fst (pstep cci s o) in
  let out := snd (pstep cci s o) in
  is_prefix (gr s' rd) (gw s' (writer_of rd)) ->
  exists dc', dchk_step dc (wrote_of o (po_out out) (writer_of rd)) (ha_len (racc s' rd), ha_h (racc s' rd)) = Some dc' /\
              dc_inv rd s' dc'.
Proof.
  intros Ha Hb Hacc (D1 & D2 & (restW & D3)). cbv zeta. intros (rest' & Hp').
  destruct (pstep_ghost s o rd Ha Hb) as (_ & G2 & _ & _).
  destruct (pstep_ghost s o (writer_of rd) Ha Hb) as (G1 & _ & _ & _). cbv zeta in *.
  pose proof (acc_inv_step s o Ha Hb Hacc rd) as [_ A2].
  set (s' := fst (pstep cci s o)) in *. set (out := po_out (snd (pstep cci s o))) in *.
  set (R := gr s rd) in *. set (W := gw s (writer_of rd)) in *.
  set (new := rd_of o out rd) in *. set (wrote := wrote_of o out (writer_of rd)) in *.
  (* W ++ wrote = (R ++ new) ++ rest' and W = R ++ restW *)
  rewrite G1, G2 in Hp'.
  assert (Hrest : restW ++ wrote = new ++ rest').
  { rewrite D3 in Hp'. rewrite <- !app_assoc in Hp'. apply app_inv_head in Hp'. exact Hp'. }
  unfold dchk_step. cbn [fst snd]. rewrite D1, D2, A2, G2.
  rewrite !ha_len_add. cbn [hacc0 ha_len].
  assert (Hpend : skipn (length R) W ++ wrote = new ++ rest').
  { rewrite D3, skipn_app_le by lia. rewrite skipn_all2 by lia. exact Hrest. }
  rewrite Hpend.
  replace (0 + Z.of_nat (length (R ++ new)) - (0 + Z.of_nat (length R))) with (Z.of_nat (length new))
    by (rewrite app_length; lia).
  replace ((Z.of_nat (length new) <? 0) || (Z.of_nat (length (new ++ rest')) <? Z.of_nat (length new))) with false
    by (rewrite app_length; symmetry; lia).
  rewrite Nat2Z.id.
  rewrite firstn_app, Nat.sub_diag, firstn_all, firstn_O, app_nil_r.
  rewrite <- hacc_add_app, Z.eqb_refl.
  eexists. split; [reflexivity|].
  unfold dc_inv; cbn [dc_acc dc_pending]. fold s'. rewrite G1, G2. fold R W new wrote.
  split; [reflexivity|]. split.
  - rewrite skipn_app, skipn_all, Nat.sub_diag. cbn [skipn app].
    rewrite Hp', skipn_app_le by lia. rewrite skipn_all2 by lia. reflexivity.
  - exists rest'. exact Hp'.
Qed.

Lemma good_run_dir_ok rd : forall ops (s : pair) dc i,
  acc_inv s -> dc_inv rd s dc -> good_run rd s ops ->
  c01_dir_bad rd i dc (zip_obs ops (ptrace cci s ops)) = None.
Proof.
  induction ops as [|o ops IH]; intros s dc i Hacc Hdc Hg; cbn [ptrace zip_obs c01_dir_bad]; [reflexivity|].
  cbn [good_run] in Hg. destruct Hg as (Ha & Hb & Hp & Hg).
  destruct (dchk_step_ok rd s o dc Ha Hb Hacc Hdc Hp) as (dc' & Hstep & Hdc').
  pose proof (acc_inv_step s o Ha Hb Hacc) as Hacc'.
  destruct (pstep cci s o) as [s' out] eqn:Eps. cbn [fst snd] in *. cbn [c01_dir_bad].
  match goal with |- context [dchk_step dc ?A ?B] =>
    replace A with (wrote_of o (po_out out) (writer_of rd)) by (destruct rd; reflexivity);
    replace B with (ha_len (racc s' rd), ha_h (racc s' rd)) by (destruct rd; reflexivity) end.
  rewrite Hstep.
  destruct (is_poll_panic (po_out out)); [destruct ops; reflexivity|].
  apply IH; assumption.
Qed.

(* ------------------------------------------------------------------ every live, guarded pair trace *)
Lemma psim_ss isn ti sd (s : pair) d : psim isn ti sd s d -> ss_ok (v_ss (p_a s)) /\ ss_ok (v_ss (p_b s)).
Proof. intros [_ _ _ _ _ _ _ H1 H2]. destruct sd; cbn [ep other] in H1, H2; auto. Qed.

Lemma pair_trace_good c sd : forall ops (s : pair) pre,
  pconfig_ok c = true ->
  psim (dir_isn sd c) (pc_tx_init c) sd s (dp_run (dir_init sd c) pre) ->
  live_run cci sd s ops = true ->
  exists dops,
    psim (dir_isn sd c) (pc_tx_init c) sd (prun cci s ops) (dp_run (dir_init sd c) (pre ++ dops)) /\
    (dp_guards (dp_run (dir_init sd c) (pre ++ dops)) = true -> good_run (other sd) s ops).
Proof.
  induction ops as [|o ops IH]; intros s pre Hok H Hl; cbn [live_run good_run prun] in *.
  - exists []. rewrite app_nil_r. auto.
  - apply andb_true_iff in Hl. destruct Hl as [Hl1 Hl2].
    destruct (pstep_refines cci _ _ sd s _ o H Hl1) as (o1 & H1).
    rewrite <- dp_run_app in H1.
    destruct (IH _ (pre ++ o1) Hok H1 Hl2) as (o2 & H2 & H3).
    exists (o1 ++ o2). rewrite app_assoc. split; [exact H2|]. intro Hg.
    destruct (psim_ss _ _ _ _ _ H) as [Sa Sb].
    split; [exact Sa|]. split; [exact Sb|]. split; [|apply H3; exact Hg].
    assert (Hw : writer_of (other sd) = sd) by (destruct sd; reflexivity). rewrite Hw.
    apply (psim_prefix c sd _ (pre ++ o1) Hok H1).
    rewrite dp_run_app in Hg. apply guards_mono_run in Hg. exact Hg.
Qed.

Lemma pair_new_acc (mk_cc : Z -> Z -> CC) c (s0 : pair) :
  pair_new cci mk_cc c = Some s0 -> acc_inv s0 /\ forall rd, dc_inv rd s0 dchk0.
Proof.
  unfold pair_new.
  destruct (vsock_new cci mk_cc (cfg_a c)) as [a|] eqn:Ea; [|discriminate].
  destruct (vsock_new cci mk_cc (cfg_b c)) as [b|] eqn:Eb; [|discriminate].
  intro H; injection H as <-.
  destruct (vsock_new_fields cci _ _ _ Ea) as (A1 & _ & A3 & _).
  destruct (vsock_new_fields cci _ _ _ Eb) as (B1 & _ & B3 & _).
  match goal with |- acc_inv ?S /\ _ => assert (Hg : forall sd, gw S sd = [] /\ gr S sd = []) end.
  { intros [|]; unfold gw, gr; cbn [ep p_a p_b]; rewrite ?A1, ?A3, ?B1, ?B3; split; reflexivity. }
  split.
  - intros sd. destruct (Hg sd) as [G1 G2]. rewrite G1, G2. destruct sd; split; reflexivity.
  - intros rd. destruct (Hg rd) as [_ G2]. destruct (Hg (writer_of rd)) as [G1 _].
    unfold dc_inv. rewrite G1, G2. cbn. split; [reflexivity|]. split; [reflexivity|exists []; reflexivity].
Qed.

(* the extracted predicate of one direction holds on every live pair trace whose data-path run is guarded *)
Theorem pair_trace_dir_ok (mk_cc : Z -> Z -> CC) c (s0 : pair) sd ops :
  pconfig_ok c = true -> pair_new cci mk_cc c = Some s0 -> live_run cci sd s0 ops = true ->
  exists dops,
    psim (dir_isn sd c) (pc_tx_init c) sd (prun cci s0 ops) (dp_run (dir_init sd c) dops) /\
    (dp_guards (dp_run (dir_init sd c) dops) = true ->
     c01_dir_ok (other sd) (zip_obs ops (ptrace cci s0 ops)) = true).
Proof.
  intros Hok Hnew Hlive.
  pose proof (pair_new_psim cci mk_cc c s0 sd Hok Hnew) as H0.
  destruct (pair_new_acc mk_cc c s0 Hnew) as [Hacc Hdc].
  destruct (pair_trace_good c sd ops s0 [] Hok H0 Hlive) as (dops & H1 & H2). cbn [app] in H1, H2.
  exists dops. split; [exact H1|]. intro Hg.
  unfold c01_dir_ok. rewrite (good_run_dir_ok (other sd) ops s0 dchk0 0 Hacc (Hdc _) (H2 Hg)). reflexivity.
Qed.

End Obs.
