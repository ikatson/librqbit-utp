(* C01 lift: data events are data-path ops.
   wsim_run: the sender-side events of a connection, applied to its data view, are matched by DP
             ops on a data-path state whose (d_tx, d_segs) is that view (d_tx being the ring with the
             pending acknowledged bytes already removed) and whose bag holds every datagram emitted;
             these ops leave (d_rx, d_lc, d_wrap) alone and only add to the bag.
   rsim_run: the receiver-side events are matched by DP ops on a state whose (d_rx, d_lc) is the
             view, provided every delivery is of a datagram of the bag and no FIN / error event
             occurs; these ops leave the sender side and the bag alone. *)
From Utp Require Import Base.Prelude Wire.SeqNr Wire.Header Rtt.Rtte Mtu.SegSizes Rx.Rx Rx.Rx_Proofs Tx.Ring
  Tx.Ring_Proofs Tx.Segments Tx.Segments_Proofs Conn.Recovery Conn.Msg Conn.VSock_Lemmas Pair.DP Pair.DP_Lemmas Pair.DP_Proofs
  Pair.DP_RxProofs Pair.Pair_Refine.

(* ------------------------------------------------------------------ the pending truncation *)
Lemma tx_skip_fields t p :
  ring (tx_skip t p) = skipn (Z.to_nat (Z.min p (Z.of_nat (length (ring t))))) (ring t) /\
  cap (tx_skip t p) = cap t /\ t_vsock_closed (tx_skip t p) = t_vsock_closed t /\
  writer_dropped (tx_skip t p) = writer_dropped t /\ writer_shutdown (tx_skip t p) = writer_shutdown t /\
  t_disp_waker (tx_skip t p) = t_disp_waker t /\ writer_waker (tx_skip t p) = writer_waker t /\
  written_without_yield (tx_skip t p) = written_without_yield t /\
  g_written (tx_skip t p) = g_written t /\
  g_removed (tx_skip t p) = g_removed t + Z.min p (Z.of_nat (length (ring t))).
Proof.
  unfold tx_skip, truncate_front. destruct (_ =? p); cbn [fst upd ring cap t_vsock_closed writer_dropped
    writer_shutdown t_disp_waker writer_waker written_without_yield g_written g_removed]; repeat split.
Qed.

Lemma tx_eq (a b : tx) :
  ring a = ring b -> cap a = cap b -> t_vsock_closed a = t_vsock_closed b ->
  writer_dropped a = writer_dropped b -> writer_shutdown a = writer_shutdown b ->
  t_disp_waker a = t_disp_waker b -> writer_waker a = writer_waker b ->
  written_without_yield a = written_without_yield b -> g_written a = g_written b ->
  g_removed a = g_removed b -> a = b.
Proof. destruct a, b; cbn. intros; subst; reflexivity. Qed.

Lemma tx_skip_0 t : tx_skip t 0 = t.
Proof.
  destruct (tx_skip_fields t 0) as (F1 & F2 & F3 & F4 & F5 & F6 & F7 & F8 & F9 & F10).
  apply tx_eq; try assumption.
  - rewrite F1. replace (Z.to_nat _) with 0%nat by lia. reflexivity.
  - rewrite F10. lia.
Qed.

Lemma tx_skip_add t a b : 0 <= a -> 0 <= b -> tx_skip (tx_skip t a) b = tx_skip t (a + b).
Proof.
  intros Ha Hb.
  destruct (tx_skip_fields t a) as (A1 & A2 & A3 & A4 & A5 & A6 & A7 & A8 & A9 & A10).
  destruct (tx_skip_fields (tx_skip t a) b) as (B1 & B2 & B3 & B4 & B5 & B6 & B7 & B8 & B9 & B10).
  destruct (tx_skip_fields t (a + b)) as (C1 & C2 & C3 & C4 & C5 & C6 & C7 & C8 & C9 & C10).
  assert (Hlen : Z.of_nat (length (ring (tx_skip t a))) =
                 Z.of_nat (length (ring t)) - Z.min a (Z.of_nat (length (ring t)))).
  { rewrite A1, skipn_length. lia. }
  apply tx_eq; try congruence.
  - rewrite B1, C1, Hlen, A1, skipn_skipn'. f_equal. lia.
  - rewrite B10, C10, Hlen, A10. lia.
Qed.

(* the truncation commutes with every update that keeps the ring and the removal count *)
Lemma tx_skip_upd t p c vc wd ws dw ww wy gw :
  tx_skip (upd t (ring t) c vc wd ws dw ww wy gw (g_removed t)) p =
  upd (tx_skip t p) (ring (tx_skip t p)) c vc wd ws dw ww wy gw (g_removed (tx_skip t p)).
Proof. unfold tx_skip, truncate_front. cbn [upd ring g_removed]. destruct (_ =? p); reflexivity. Qed.

Lemma grow_skip t p mx : fst (grow (tx_skip t p) mx) = tx_skip (fst (grow t mx)) p.
Proof.
  destruct (tx_skip_fields t p) as (_ & A2 & A3 & A4 & A5 & A6 & A7 & A8 & A9 & _).
  unfold grow. rewrite A2. destruct (mx <=? cap t); cbn [fst]; [reflexivity|].
  rewrite tx_skip_upd, A3, A4, A5, A6, A7, A8, A9. reflexivity.
Qed.

Lemma pend_safe_skip t p o :
  pend_safe_op o = true -> fst (fst (tx_step (tx_skip t p) o)) = tx_skip (fst (fst (tx_step t o))) p.
Proof.
  destruct (tx_skip_fields t p) as (_ & A2 & A3 & A4 & A5 & A6 & A7 & A8 & A9 & _).
  destruct o; cbn [pend_safe_op]; try discriminate; intros _; cbn [tx_step];
    unfold drop_writer, mark_vsock_closed, wake_writer; rewrite ?A4.
  1: destruct (writer_dropped t); [reflexivity|].
  all: cbn [fst]; rewrite tx_skip_upd, A2, ?A3, ?A4, A5, ?A6, ?A7, A8, A9; reflexivity.
Qed.

(* ------------------------------------------------------------------ the two relations *)
Definition in_net (d : dp) (sp : Z * list Z) : Prop :=
  exists pk, In pk (d_net d) /\ k_seq pk = fst sp /\ k_bytes pk = snd sp.

Definition wrel (st : dst) (d : dp) : Prop :=
  d_segs d = x_segs st /\ d_tx d = tx_skip (x_tx st) (x_pend st) /\ 0 <= x_pend st /\
  Forall (in_net d) (x_out st).

Definition wframe (d d' : dp) : Prop :=
  d_rx d' = d_rx d /\ d_lc d' = d_lc d /\ d_wrap d' = d_wrap d /\ exists new, d_net d' = d_net d ++ new.

Lemma wframe_refl d : wframe d d.
Proof. unfold wframe. repeat split. exists []. rewrite app_nil_r. reflexivity. Qed.

Lemma wframe_trans a b c : wframe a b -> wframe b c -> wframe a c.
Proof.
  intros (A1 & A2 & A3 & (n1 & A4)) (B1 & B2 & B3 & (n2 & B4)). unfold wframe.
  repeat split; try congruence. exists (n1 ++ n2). rewrite B4, A4, app_assoc. reflexivity.
Qed.

Lemma in_net_frame d d' sp : (exists new, d_net d' = d_net d ++ new) -> in_net d sp -> in_net d' sp.
Proof.
  intros (new & Hn) (pk & H1 & H2). exists pk. split; [rewrite Hn; apply in_or_app; left; exact H1|exact H2].
Qed.

Definition rrel (st : dst) (d : dp) : Prop := d_rx d = x_rx st /\ d_lc d = x_lc st.

Definition rframe (d d' : dp) : Prop :=
  d_tx d' = d_tx d /\ d_segs d' = d_segs d /\ d_net d' = d_net d /\ d_una d' = d_una d /\ d_asg d' = d_asg d.

Lemma rframe_refl d : rframe d d.
Proof. unfold rframe. repeat split. Qed.
Lemma rframe_trans a b c : rframe a b -> rframe b c -> rframe a c.
Proof. unfold rframe. intros (A1 & A2 & A3 & A4 & A5) (B1 & B2 & B3 & B4 & B5). repeat split; congruence. Qed.

Lemma dp_run_app : forall a b d, dp_run d (a ++ b) = dp_run (dp_run d a) b.
Proof. induction a as [|o a IH]; intros b d; cbn [dp_run app]; [reflexivity|apply IH]. Qed.

(* ------------------------------------------------------------------ sender side *)
(* d' answers st' after d answered st, when no datagram was emitted: judged field by field *)
Lemma wsim_by st st' d d' :
  wrel st d -> x_out st' = x_out st -> 0 <= x_pend st' ->
  d_segs d' = x_segs st' -> d_tx d' = tx_skip (x_tx st') (x_pend st') ->
  d_rx d' = d_rx d -> d_lc d' = d_lc d -> d_wrap d' = d_wrap d -> d_net d' = d_net d ->
  wrel st' d' /\ wframe d d'.
Proof.
  intros (_ & _ & _ & W4) Eo Hp Es Et Er El Ew En. unfold wrel, wframe. rewrite Eo.
  repeat split; try assumption; [|exists []; rewrite app_nil_r; exact En].
  eapply Forall_impl; [|exact W4]. intro sp. apply in_net_frame. exists []. rewrite app_nil_r. exact En.
Qed.

Lemma wsim_ev isn ti st d e :
  dp_tx_inv isn ti d -> wrel st d ->
  exists dops, wrel (dapply st e) (dp_run d dops) /\ wframe d (dp_run d dops).
Proof.
  intros Hinv Hw. pose proof Hw as (W1 & W2 & W3 & W4).
  (* an event that leaves the sender side alone needs no op *)
  assert (Hrx : forall st', x_tx st' = x_tx st -> x_segs st' = x_segs st -> x_out st' = x_out st ->
                            x_pend st' = x_pend st ->
                            exists dops, wrel st' (dp_run d dops) /\ wframe d (dp_run d dops)).
  { intros st' E1 E2 E3 E4. exists []. apply (wsim_by st st' d d Hw); congruence. }
  pose proof (Hrx st eq_refl eq_refl eq_refl eq_refl) as Hnone.
  destruct e; cbn [dapply].
  (* the receiver's events: whatever their outcome, the sender side of the view is that of st *)
  11-15: repeat break_match; apply Hrx; reflexivity.
  - (* tx flag *)
    destruct (pend_safe_op o) eqn:Eo; [|exact Hnone].
    assert (Hfl : is_flag_tx_op o = true) by (destruct o; try discriminate; reflexivity).
    exists [DTxFlag o]. cbn [dp_run dp_step]. rewrite Hfl.
    pose proof (pend_safe_skip (x_tx st) (x_pend st) o Eo) as Hc. rewrite <- W2 in Hc.
    destruct (tx_step (d_tx d) o) as [[t1 o1] w1]. destruct (tx_step (x_tx st) o) as [[t2 o2] w2].
    cbn [fst] in Hc. subst t1. apply (wsim_by st _ d _ Hw); try assumption; reflexivity.
  - (* register *)
    destruct (Z.eqb_spec (x_pend st) 0) as [Hp0|]; [|exact Hnone].
    exists [DTxFlag ToRegisterIfEmpty]. cbn [dp_run dp_step is_flag_tx_op tx_step].
    apply (wsim_by st _ d _ Hw); try assumption; try reflexivity.
    cbn [d_tx set_dtx upd_dp x_tx x_pend set_xtx]. rewrite W2, Hp0, !tx_skip_0. reflexivity.
  - (* grow *)
    exists [DGrow mx]. cbn [dp_run dp_step].
    pose proof (grow_skip (x_tx st) (x_pend st) mx) as Hc. rewrite <- W2 in Hc.
    destruct (grow (d_tx d) mx) as [t1 g1]. destruct (grow (x_tx st) mx) as [t2 g2]. cbn [fst] in Hc. subst t1.
    apply (wsim_by st _ d _ Hw); try assumption; reflexivity.
  - (* ack: DAck truncates at once what stays pending in the view *)
    exists [DAck now ack sk]. cbn [dp_run dp_step]. rewrite W1.
    destruct (remove_up_to_ack (x_segs st) now ack sk) as [sg res] eqn:Er.
    assert (Hres : 0 <= ar_acked_bytes res).
    { destruct Hinv as [_ I2 _ _ _ _ _ _ _ _]. rewrite W1 in I2.
      destruct (remove_up_to_ack_inv _ _ _ _ _ _ I2 Er) as (_ & _ & H & _). exact H. }
    pose proof (tx_skip_add (x_tx st) (x_pend st) (ar_acked_bytes res) W3 Hres) as Hc. rewrite <- W2 in Hc.
    unfold tx_skip at 1 in Hc.
    destruct (truncate_front (d_tx d) (ar_acked_bytes res)) as [t1 tr]. cbn [fst] in Hc. subst t1.
    apply (wsim_by st _ d _ Hw); try reflexivity. cbn [x_pend]. lia.
  - (* trunc *)
    exists []. apply (wsim_by st _ d _ Hw); try reflexivity; [exact W1|].
    cbn [dp_run x_tx x_pend]. rewrite tx_skip_0. exact W2.
  - (* pipe *)
    exists [DPipe hr hd rtt now]. cbn [dp_run dp_step]. rewrite W1.
    destruct (calc_pipe (x_segs st) hr hd rtt now) as [[[sg pp] rc]|];
      apply (wsim_by st _ d _ Hw); try assumption; reflexivity.
  - (* pop expired *)
    exists [DPopExpired timed_out max_retx]. cbn [dp_run dp_step]. rewrite W1.
    destruct (pop_expired_mtu_probe (x_segs st) timed_out max_retx) as [sg pe].
    destruct pe; apply (wsim_by st _ d _ Hw); try assumption; reflexivity.
  - (* pop probe *)
    exists [DPopProbe seq]. cbn [dp_run dp_step]. rewrite W1.
    destruct (pop_mtu_probe (x_segs st) seq) as [sg popped].
    destruct popped; apply (wsim_by st _ d _ Hw); try assumption; reflexivity.
  - (* enqueue *)
    destruct (Z.eqb_spec (x_pend st) 0) as [Hp0|]; cbn [andb]; [|exact Hnone].
    exists [DEnqueue len probe]. cbn [dp_run dp_step]. unfold unsegmented. rewrite W1, W2, Hp0, tx_skip_0.
    destruct ((0 <? len) && (len <=? Z.of_nat (length (ring (x_tx st))) - ss_len_bytes (x_segs st)));
      apply (wsim_by st _ d _ Hw); try assumption; try reflexivity;
      cbn [d_tx upd_dp x_tx x_pend set_xsegs]; rewrite ?W2, Hp0, tx_skip_0; reflexivity.
  - (* send: the datagram emitted joins the bag *)
    destruct (Z.eqb_spec (x_pend st) 0) as [Hp0|]; cbn [negb]; [|exact Hnone].
    exists [DSend i now]. cbn [dp_run dp_step]. rewrite W1, W2, Hp0, tx_skip_0.
    destruct (nth_error (iter_for_sending (x_segs st) None) i) as [f|];
      [|apply (wsim_by st _ d _ Hw); try assumption; reflexivity].
    destruct (_ || _ || _); [apply (wsim_by st _ d _ Hw); try assumption; reflexivity|].
    split; [|unfold wframe; dsimpl; repeat split; eexists; reflexivity].
    unfold wrel; dsimpl; cbn [x_tx x_segs x_out x_pend]. rewrite tx_skip_0.
    repeat split; auto; [lia|]. constructor.
    + eexists. split; [apply in_or_app; right; left; reflexivity|]. cbn [k_seq k_bytes fst snd]. auto.
    + eapply Forall_impl; [|exact W4]. intros sp. apply in_net_frame. dsimpl. eexists; reflexivity.
Qed.

Lemma wsim_run isn ti : forall evs st d,
  dp_tx_inv isn ti d -> wrel st d ->
  exists dops, wrel (drun st evs) (dp_run d dops) /\ wframe d (dp_run d dops).
Proof.
  induction evs as [|e evs IH]; intros st d Hinv Hw; cbn [drun].
  - exists []. split; [exact Hw|apply wframe_refl].
  - destruct (wsim_ev isn ti st d e Hinv Hw) as (o1 & H1 & F1).
    destruct (IH _ _ (dp_run_tx_inv isn ti o1 d Hinv) H1) as (o2 & H2 & F2).
    exists (o1 ++ o2). rewrite dp_run_app. split; [exact H2|eapply wframe_trans; eauto].
Qed.

(* ------------------------------------------------------------------ receiver side *)
(* d' answers st' on the receiver side and leaves the sender side and the bag alone: field by field *)
Lemma rsim_by st' d d' :
  d_rx d' = x_rx st' -> d_lc d' = x_lc st' -> d_tx d' = d_tx d -> d_segs d' = d_segs d ->
  d_net d' = d_net d -> d_una d' = d_una d -> d_asg d' = d_asg d -> rrel st' d' /\ rframe d d'.
Proof. intros. unfold rrel, rframe. repeat split; assumption. Qed.

Lemma rsim_ev st d e :
  rrel st d ->
  (forall seq pl, e = EvData seq pl -> in_net d (seq, pl)) -> is_fin_ev e = false -> is_err_ev e = false ->
  exists dops, rrel (dapply st e) (dp_run d dops) /\ rframe d (dp_run d dops).
Proof.
  intros (R1 & R2) Hsrc Hfin Herr.
  assert (Hnone : exists dops, rrel st (dp_run d dops) /\ rframe d (dp_run d dops)).
  { exists []. apply rsim_by; try assumption; reflexivity. }
  destruct e; cbn [dapply]; try discriminate.
  (* the sender's events: whatever their outcome, the receiver side of the view is that of st *)
  1-10: repeat break_match; exact Hnone.
  - (* data *)
    destruct (Hsrc seq payload eq_refl) as (pk & Hin & Hs & Hb). cbn [fst snd] in Hs, Hb.
    destruct (In_nth_error _ _ Hin) as (j & Hj).
    exists [DDeliver j]. cbn [dp_run dp_step]. rewrite Hj, Hs, Hb, R1, R2.
    unfold data_apply.
    destruct (seq_sub seq (wadd16 (x_lc st) 1) <? 0); [apply rsim_by; try assumption; reflexivity|].
    destruct (rx_add_remove (x_rx st) KData payload _) as [[r ar] w].
    destruct ar as [[n b| | | | |]|]; apply rsim_by; try assumption; reflexivity.
  - (* flush *)
    exists [DFlush]. cbn [dp_run dp_step]. rewrite R1. destruct (rx_flush (x_rx st)) as [[r fr] w].
    apply rsim_by; try assumption; reflexivity.
  - (* rx flag *)
    exists [DRxFlag o]. cbn [dp_run dp_step]. rewrite R1.
    destruct (is_flag_rx_op o); [destruct (rx_step (x_rx st) o) as [[r out] w]|];
      apply rsim_by; try assumption; reflexivity.
Qed.

Lemma rsim_run : forall evs st d,
  rrel st d ->
  Forall (fun e => forall seq pl, e = EvData seq pl -> in_net d (seq, pl)) evs ->
  existsb is_fin_ev evs = false -> existsb is_err_ev evs = false ->
  exists dops, rrel (drun st evs) (dp_run d dops) /\ rframe d (dp_run d dops).
Proof.
  induction evs as [|e evs IH]; intros st d Hr Hsrc Hf He; cbn [drun].
  - exists []. split; [exact Hr|apply rframe_refl].
  - cbn [existsb] in Hf, He. apply orb_false_iff in Hf. apply orb_false_iff in He.
    inversion Hsrc as [|? ? Hs1 Hs2]; subst.
    destruct (rsim_ev st d e Hr Hs1 (proj1 Hf) (proj1 He)) as (o1 & H1 & F1).
    assert (Hsrc' : Forall (fun e0 => forall seq pl, e0 = EvData seq pl -> in_net (dp_run d o1) (seq, pl)) evs).
    { eapply Forall_impl; [|exact Hs2]. intros e0 H seq pl E. destruct (H seq pl E) as (pk & K1 & K2).
      exists pk. destruct F1 as (_ & _ & Fn & _). rewrite Fn. auto. }
    destruct (IH _ _ H1 Hsrc' (proj2 Hf) (proj2 He)) as (o2 & H2 & F2).
    exists (o1 ++ o2). rewrite dp_run_app. split; [exact H2|eapply rframe_trans; eauto].
Qed.
