(* Lemmas about the wire-format model (Wire/Header.v); restated in Props/C11.v. *)
From Utp Require Import Base.Prelude Wire.Header.

(* ------------------------------------------------------------------ bytes and lists *)
Lemma byte_okb_iff b : byte_okb b = true <-> 0 <= b < 256.
Proof. unfold byte_okb. lia. Qed.

Lemma bytes_okb_cons b bs : bytes_okb (b :: bs) = true <-> 0 <= b < 256 /\ bytes_okb bs = true.
Proof.
  unfold bytes_okb; cbn [forallb]. rewrite andb_true_iff, byte_okb_iff. reflexivity.
Qed.

Lemma bytes_okb_app a b : bytes_okb (a ++ b) = bytes_okb a && bytes_okb b.
Proof. unfold bytes_okb. apply forallb_app. Qed.

Lemma bytes_okb_firstn n bs : bytes_okb bs = true -> bytes_okb (firstn n bs) = true.
Proof.
  intro H. rewrite <- (firstn_skipn n bs), bytes_okb_app in H. apply andb_true_iff in H. tauto.
Qed.

Lemma bytes_okb_skipn n bs : bytes_okb bs = true -> bytes_okb (skipn n bs) = true.
Proof.
  intro H. rewrite <- (firstn_skipn n bs), bytes_okb_app in H. apply andb_true_iff in H. tauto.
Qed.

Lemma bytes_okb_nth bs i : bytes_okb bs = true -> 0 <= nth i bs 0 < 256.
Proof.
  revert i; induction bs as [|b bs IH]; intros [|i] H; cbn [nth]; try lia.
  - apply bytes_okb_cons in H; tauto.
  - apply bytes_okb_cons in H; apply IH; tauto.
Qed.

Lemma bytes_okb_repeat0 n : bytes_okb (repeat 0 n) = true.
Proof. induction n; [reflexivity|]. cbn [repeat]. apply bytes_okb_cons. split; [lia|assumption]. Qed.

Lemma Zlength_firstn_le (l : list Z) k :
  0 <= k <= Zlength l -> Zlength (firstn (Z.to_nat k) l) = k.
Proof. intros H. rewrite !Zlength_correct in *. rewrite firstn_length. lia. Qed.

Lemma Zlength_skipn_le (l : list Z) k :
  0 <= k <= Zlength l -> Zlength (skipn (Z.to_nat k) l) = Zlength l - k.
Proof. intros H. rewrite !Zlength_correct in *. rewrite skipn_length. lia. Qed.

Lemma Zlength_app (a b : list Z) : Zlength (a ++ b) = Zlength a + Zlength b.
Proof. rewrite !Zlength_correct, app_length. lia. Qed.

Lemma Zlength_nonneg (a : list Z) : 0 <= Zlength a.
Proof. rewrite Zlength_correct. lia. Qed.

Lemma to_nat_Zlength (l : list Z) : Z.to_nat (Zlength l) = length l.
Proof. rewrite Zlength_correct. apply Nat2Z.id. Qed.

Lemma firstn_length_app (a b : list Z) : firstn (length a) (a ++ b) = a.
Proof.
  rewrite firstn_app, Nat.sub_diag, firstn_all. cbn [firstn]. apply app_nil_r.
Qed.

Lemma skipn_length_app (a b : list Z) : skipn (length a) (a ++ b) = b.
Proof.
  rewrite skipn_app, Nat.sub_diag, skipn_all. reflexivity.
Qed.

(* ------------------------------------------------------------------ big-endian *)
Lemma of_be16_be16 x : 0 <= x < 65536 -> of_be16 (x / 256 mod 256) (x mod 256) = x.
Proof. unfold of_be16. lia. Qed.

Lemma of_be32_be32 x : 0 <= x < 4294967296 ->
  of_be32 (x / 16777216 mod 256) (x / 65536 mod 256) (x / 256 mod 256) (x mod 256) = x.
Proof. unfold of_be32. lia. Qed.

Lemma of_be16_range a b : 0 <= a < 256 -> 0 <= b < 256 -> 0 <= of_be16 a b < 65536.
Proof. unfold of_be16. lia. Qed.

Lemma of_be32_range a b c d : 0 <= a < 256 -> 0 <= b < 256 -> 0 <= c < 256 -> 0 <= d < 256 ->
  0 <= of_be32 a b c d < 4294967296.
Proof. unfold of_be32. lia. Qed.

Lemma u16b_iff x : u16b x = true <-> 0 <= x < 65536.
Proof. unfold u16b. lia. Qed.
Lemma u32b_iff x : u32b x = true <-> 0 <= x < 4294967296.
Proof. unfold u32b. lia. Qed.

(* ------------------------------------------------------------------ Type *)
Lemma type_from_to t : type_from_number (type_to_number t) = Some t.
Proof. destruct t; reflexivity. Qed.

Lemma type_from_some n t : type_from_number n = Some t -> type_to_number t = n.
Proof.
  unfold type_from_number.
  repeat (destruct (_ =? _) eqn:E;
          [apply Z.eqb_eq in E; intro H; injection H as <-; symmetry; exact E|clear E]).
  discriminate.
Qed.

Lemma type_to_number_range t : 0 <= type_to_number t <= 4.
Proof. destruct t; cbn; lia. Qed.

Lemma type_to_number_inj a b : type_to_number a = type_to_number b -> a = b.
Proof. destruct a, b; cbn; intro H; try reflexivity; discriminate. Qed.

Lemma ptype_eqb_iff a b : ptype_eqb a b = true <-> a = b.
Proof.
  unfold ptype_eqb. rewrite Z.eqb_eq. split; [apply type_to_number_inj|intros ->; reflexivity].
Qed.

(* ------------------------------------------------------------------ ext_chain <-> split_chain *)
Lemma split_chain_sound : forall f id buf exts,
  bytes_okb buf = true -> split_chain f id buf = Some exts -> ext_chain id buf exts.
Proof.
  induction f as [|f IH]; intros id buf exts Hb; cbn [split_chain];
    (destruct (Z.leb_spec id 0) as [Hid|Hid];
     [intro Heq; injection Heq as <-; constructor; assumption|]).
  - discriminate.
  - destruct buf as [|nxt [|len rest]]; try discriminate.
    destruct (Z.leb_spec len (Zlength rest)) as [Hlen|]; [|discriminate].
    destruct (split_chain f nxt (skipn (Z.to_nat len) rest)) as [exts'|] eqn:E; [|discriminate].
    intro Heq; injection Heq as <-.
    apply bytes_okb_cons in Hb; destruct Hb as [_ Hb].
    apply bytes_okb_cons in Hb; destruct Hb as [Hl Hb].
    apply IH in E; [|apply bytes_okb_skipn; assumption].
    pose proof (ec_ext id nxt (firstn (Z.to_nat len) rest) (skipn (Z.to_nat len) rest) exts') as C.
    rewrite firstn_skipn in C. rewrite Zlength_firstn_le in C by lia.
    apply C; [lia|assumption].
Qed.

Lemma split_chain_complete : forall id buf exts,
  ext_chain id buf exts -> forall f, (length buf <= f)%nat -> split_chain f id buf = Some exts.
Proof.
  induction 1 as [id rest Hid | id nxt data rest exts Hid Hc IH]; intros f Hf.
  - destruct f; cbn [split_chain]; destruct (Z.leb_spec id 0); try lia; reflexivity.
  - destruct f as [|f]; [cbn [length] in Hf; lia|].
    cbn [split_chain]. destruct (Z.leb_spec id 0); [lia|].
    destruct (Z.leb_spec (Zlength data) (Zlength (data ++ rest))) as [_|Hbad].
    2:{ rewrite Zlength_app in Hbad. pose proof (Zlength_nonneg rest). lia. }
    rewrite to_nat_Zlength, skipn_length_app, firstn_length_app.
    rewrite IH; [reflexivity|].
    cbn [length] in Hf. rewrite app_length in Hf. lia.
Qed.

Lemma ext_chain_iff id buf exts : bytes_okb buf = true ->
  (split_chain (length buf) id buf = Some exts <-> ext_chain id buf exts).
Proof.
  intro Hb; split; [apply split_chain_sound; assumption|].
  intro H; apply split_chain_complete; [assumption|lia].
Qed.

(* the parser's loop is split_chain followed by the fold *)
Lemma ext_size_cons id data exts : ext_size ((id, data) :: exts) = 2 + Zlength data + ext_size exts.
Proof. unfold ext_size; cbn [map sumZ snd]. lia. Qed.

Lemma parse_exts_split : forall f id buf ex tot,
  bytes_okb buf = true ->
  parse_exts f id buf ex tot =
  match split_chain f id buf with
  | Some exts => Some (apply_exts exts ex, tot + ext_size exts)
  | None => None
  end.
Proof.
  induction f as [|f IH]; intros id buf ex tot Hb; cbn [parse_exts split_chain]; rewrite Z.gtb_ltb;
    destruct (Z.ltb_spec 0 id); destruct (Z.leb_spec id 0); try lia.
  2, 4: unfold apply_exts, ext_size; cbn [fold_left map sumZ]; f_equal; f_equal; lia.
  - reflexivity.
  - destruct buf as [|nxt [|len rest]]; try reflexivity.
    destruct (Z.leb_spec len (Zlength rest)) as [Hlen|]; [|reflexivity].
    apply bytes_okb_cons in Hb; destruct Hb as [_ Hb].
    apply bytes_okb_cons in Hb; destruct Hb as [Hl Hb].
    rewrite IH by (apply bytes_okb_skipn; assumption).
    destruct (split_chain f nxt (skipn (Z.to_nat len) rest)) as [exts'|]; [|reflexivity].
    rewrite ext_size_cons, Zlength_firstn_le by lia.
    unfold apply_exts; cbn [fold_left fst snd]. f_equal; f_equal; lia.
Qed.

Lemma ext_chain_size id buf exts : ext_chain id buf exts -> bytes_okb buf = true ->
  0 <= ext_size exts <= Zlength buf /\ forallb (fun e => bytes_okb (snd e)) exts = true.
Proof.
  induction 1 as [id rest Hid | id nxt data rest exts Hid Hc IH]; intro Hb.
  - pose proof (Zlength_nonneg rest). split; [unfold ext_size; cbn; lia|reflexivity].
  - apply bytes_okb_cons in Hb; destruct Hb as [_ Hb].
    apply bytes_okb_cons in Hb; destruct Hb as [_ Hb].
    rewrite bytes_okb_app in Hb. apply andb_true_iff in Hb; destruct Hb as [Hd Hr].
    destruct (IH Hr) as [E1 E2].
    rewrite ext_size_cons, !Zlength_cons, Zlength_app. pose proof (Zlength_nonneg data).
    split; [lia|]. cbn [forallb snd]. rewrite Hd, E2. reflexivity.
Qed.

(* ------------------------------------------------------------------ deserialize = spec_parse *)
Lemma deserialize_spec bs : bytes_okb bs = true -> deserialize bs = spec_parse bs.
Proof.
  intro Hb. unfold deserialize, spec_parse, UTP_HEADER.
  destruct (Z.ltb_spec (Zlength bs) 20); destruct (Z.leb_spec 20 (Zlength bs)); try lia; [reflexivity|].
  cbn [andb]. destruct (nth 0 bs 0 mod 16 =? 1); cbn [negb]; [|reflexivity].
  destruct (type_from_number (nth 0 bs 0 / 16)); [|reflexivity].
  rewrite parse_exts_split by (apply bytes_okb_skipn; assumption).
  destruct (split_chain _ _ _); reflexivity.
Qed.

(* ------------------------------------------------------------------ spec_parse <-> wf_packet *)
Lemma spec_parse_wf bs h n : bytes_okb bs = true -> spec_parse bs = Some (h, n) -> wf_packet bs h n.
Proof.
  intros Hb. unfold spec_parse.
  destruct (Z.leb_spec 20 (Zlength bs)) as [Hlen|]; [|discriminate].
  destruct (Z.eqb_spec (nth 0 bs 0 mod 16) 1) as [Hv|]; [|discriminate]. cbn [andb].
  destruct (type_from_number (nth 0 bs 0 / 16)) as [t|] eqn:Et; [|discriminate].
  destruct (split_chain _ _ _) as [exts|] eqn:Es; [|discriminate].
  intro Heq; injection Heq as <- <-.
  apply type_from_some in Et.
  apply split_chain_sound in Es; [|apply bytes_okb_skipn; assumption].
  exists exts. cbn [h_type h_conn h_ts h_tsdiff h_wnd h_seq h_ack h_ext].
  pose proof (type_to_number_range t).
  repeat split; try assumption; try reflexivity; lia.
Qed.

Lemma wf_spec_parse bs h n : wf_packet bs h n -> spec_parse bs = Some (h, n).
Proof.
  intros (exts & Hlen & Hv & Hr & Ht & Hc & Hn & H1 & H2 & H3 & H4 & H5 & H6 & H7).
  unfold spec_parse.
  destruct (Z.leb_spec 20 (Zlength bs)); [|lia].
  destruct (Z.eqb_spec (nth 0 bs 0 mod 16) 1); [|lia]. cbn [andb].
  rewrite <- Ht, type_from_to.
  rewrite (split_chain_complete _ _ _ Hc) by lia.
  destruct h as [t c ts td w s a ex]; cbn [h_type h_conn h_ts h_tsdiff h_wnd h_seq h_ack h_ext] in *.
  subst. reflexivity.
Qed.

Lemma spec_parse_iff bs h n : bytes_okb bs = true ->
  (spec_parse bs = Some (h, n) <-> wf_packet bs h n).
Proof. intro Hb; split; [apply spec_parse_wf; assumption|apply wf_spec_parse]. Qed.

Lemma accepts_iff bs h n : bytes_okb bs = true ->
  (deserialize bs = Some (h, n) <-> wf_packet bs h n).
Proof. intro Hb. rewrite deserialize_spec by assumption. apply spec_parse_iff; assumption. Qed.

(* rejection, spelled out: no header and length make the datagram well formed *)
Lemma rejects_iff bs : bytes_okb bs = true ->
  (deserialize bs = None <-> forall h n, ~ wf_packet bs h n).
Proof.
  intro Hb; split.
  - intros Hn h n Hw. apply accepts_iff in Hw; [congruence|assumption].
  - intro Hno. destruct (deserialize bs) as [[h n]|] eqn:E; [|reflexivity].
    exfalso. apply (Hno h n). apply accepts_iff; assumption.
Qed.

(* ------------------------------------------------------------------ bounds; no panic *)
Lemma parse_exts_bound : forall f id buf ex tot ex' tot',
  parse_exts f id buf ex tot = Some (ex', tot') -> tot' <= tot + Zlength buf.
Proof.
  induction f as [|f IH]; intros id buf ex tot ex' tot'; cbn [parse_exts]; destruct (id >? 0).
  2, 4: intro Heq; injection Heq as <- <-; pose proof (Zlength_nonneg buf); lia.
  - discriminate.
  - destruct buf as [|nxt [|len rest]]; try discriminate.
    destruct (Z.leb_spec len (Zlength rest)) as [Hlen|]; [|discriminate].
    intro E. apply IH in E. clear IH. rewrite !Zlength_cons.
    rewrite !Zlength_correct in *. rewrite skipn_length in E. lia.
Qed.

Lemma deserialize_bound bs h n : deserialize bs = Some (h, n) -> n <= Zlength bs.
Proof.
  unfold deserialize.
  destruct (Z.ltb_spec (Zlength bs) UTP_HEADER) as [|Hlen]; [discriminate|].
  destruct (negb _); [discriminate|].
  destruct (type_from_number _); [|discriminate].
  destruct (parse_exts _ _ _ _ _) as [[ex tot]|] eqn:E; [|discriminate].
  intro Heq. assert (Hn : n = UTP_HEADER + tot) by congruence. subst n. clear Heq.
  apply parse_exts_bound in E. unfold UTP_HEADER in *.
  rewrite !Zlength_correct in *. rewrite skipn_length in E. lia.
Qed.

(* message level: a rejected header is rejected, an accepted one passes iff the payload rule
   (ST_DATA <-> non-empty payload) holds; the subtraction and the slice never panic *)
Lemma msg_deserialize_none bs : deserialize bs = None -> msg_deserialize bs = MsgNone.
Proof. intro E. unfold msg_deserialize. rewrite E. reflexivity. Qed.

Lemma msg_deserialize_some bs h n : deserialize bs = Some (h, n) ->
  msg_deserialize bs =
  if Bool.eqb (ptype_eqb (h_type h) ST_DATA) (0 <? Zlength bs - n)
  then MsgSome h (skipn (Z.to_nat n) bs) else MsgNone.
Proof.
  intro E. unfold msg_deserialize. rewrite E. apply deserialize_bound in E.
  destruct (Z.ltb_spec (Zlength bs) n); [lia|]. rewrite Z.gtb_ltb.
  destruct (h_type h); unfold ptype_eqb; cbn [type_to_number Z.eqb Bool.eqb];
    destruct (Z.ltb_spec 0 (Zlength bs - n)); try reflexivity;
    destruct (Z.eqb_spec (Zlength bs - n) 0); reflexivity || lia.
Qed.

Lemma no_panic bs : msg_deserialize bs <> MsgPanic.
Proof.
  destruct (deserialize bs) as [[h n]|] eqn:E.
  - rewrite (msg_deserialize_some _ _ _ E). destruct (Bool.eqb _ _); discriminate.
  - rewrite msg_deserialize_none by assumption. discriminate.
Qed.

(* ------------------------------------------------------------------ parsed headers are representable *)
Lemma length_firstn_pad (d : list Z) : length (firstn 8 (d ++ repeat 0 8)) = 8%nat.
Proof. rewrite firstn_length, app_length, repeat_length. lia. Qed.

Lemma sack_deserialize_wf d : bytes_okb d = true -> sack_wfb (sack_deserialize d) = true.
Proof.
  intro Hd. unfold sack_wfb, sack_deserialize, SACK_BYTES; cbn [sack_bytes].
  rewrite length_firstn_pad. cbn [Nat.eqb andb].
  apply bytes_okb_firstn. rewrite bytes_okb_app, Hd. apply bytes_okb_repeat0.
Qed.

Lemma apply_ext_wf ex id data :
  ext_wfb ex = true -> bytes_okb data = true -> ext_wfb (apply_ext ex id data) = true.
Proof.
  unfold ext_wfb, apply_ext. intros Hex Hd. apply andb_true_iff in Hex; destruct Hex as [H1 H2].
  destruct (id =? EXT_SELECTIVE_ACK).
  { cbn [e_sack e_close]. rewrite sack_deserialize_wf, H2 by assumption. reflexivity. }
  destruct (id =? EXT_CLOSE_REASON); [|rewrite H1, H2; reflexivity].
  destruct data as [|a [|b [|c [|d [|]]]]]; try (rewrite H1, H2; reflexivity).
  cbn [e_sack e_close]. rewrite H1. cbn [andb]. apply u16b_iff. unfold close_parse. lia.
Qed.

Lemma apply_exts_wf : forall exts ex,
  ext_wfb ex = true -> forallb (fun e => bytes_okb (snd e)) exts = true ->
  ext_wfb (apply_exts exts ex) = true.
Proof.
  induction exts as [|[id data] exts IH]; intros ex Hex Hb; [exact Hex|].
  cbn [forallb snd] in Hb. apply andb_true_iff in Hb; destruct Hb as [Hd Hb].
  unfold apply_exts; cbn [fold_left fst snd]. apply IH; [apply apply_ext_wf|]; assumption.
Qed.

Lemma spec_parse_bounds bs h n : bytes_okb bs = true -> spec_parse bs = Some (h, n) ->
  20 <= n <= Zlength bs /\ hdr_wfb h = true.
Proof.
  intros Hb H. apply spec_parse_wf in H; [|assumption].
  destruct H as (exts & Hlen & _ & _ & _ & Hc & -> & H1 & H2 & H3 & H4 & H5 & H6 & H7).
  apply ext_chain_size in Hc; [|apply bytes_okb_skipn; assumption]. destruct Hc as [E1 E2].
  replace 20%nat with (Z.to_nat 20) in E1 by reflexivity.
  rewrite Zlength_skipn_le in E1 by lia.
  split; [lia|].
  unfold hdr_wfb, fields_okb. rewrite H1, H2, H3, H4, H5, H6, H7.
  pose proof (fun i => bytes_okb_nth bs i Hb) as Hn.
  rewrite apply_exts_wf by (assumption || reflexivity).
  repeat rewrite andb_true_iff; repeat split;
    try (apply u16b_iff; apply of_be16_range; apply Hn);
    try (apply u32b_iff; apply of_be32_range; apply Hn).
Qed.

Lemma parsed_wf bs h n : bytes_okb bs = true -> deserialize bs = Some (h, n) ->
  20 <= n <= Zlength bs /\ hdr_wfb h = true.
Proof. intros Hb. rewrite deserialize_spec by assumption. apply spec_parse_bounds; assumption. Qed.

(* ------------------------------------------------------------------ encoding an extension chain *)

Lemma exts_wire_okb_cons id p exts : exts_wire_okb ((id, p) :: exts) = true <->
  (0 < id < 256 /\ Zlength p < 256 /\ bytes_okb p = true) /\ exts_wire_okb exts = true.
Proof.
  unfold exts_wire_okb, ext_wire_okb; cbn [forallb fst snd].
  rewrite !andb_true_iff, !Z.ltb_lt. tauto.
Qed.

Lemma chain_bytes_chain : forall exts payload, exts_wire_okb exts = true ->
  ext_chain (first_id exts) (chain_bytes exts ++ payload) exts.
Proof.
  induction exts as [|[id p] exts IH]; intros payload Hok.
  - cbn [first_id chain_bytes app]. constructor. unfold NO_NEXT_EXT; lia.
  - apply exts_wire_okb_cons in Hok. destruct Hok as [(Hid & Hl & Hb) Hok].
    cbn [first_id chain_bytes]. pose proof (Zlength_nonneg p).
    replace (Zlength p mod 256) with (Zlength p) by lia.
    cbn [app]. rewrite <- app_assoc. constructor; [lia|]. apply IH. exact Hok.
Qed.

Lemma chain_bytes_length : forall exts, Zlength (chain_bytes exts) = ext_size exts.
Proof.
  induction exts as [|[id p] exts IH]; [reflexivity|].
  cbn [chain_bytes]. rewrite ext_size_cons, !Zlength_cons, Zlength_app, IH. lia.
Qed.

Lemma first_id_byte exts : exts_wire_okb exts = true -> 0 <= first_id exts < 256.
Proof.
  destruct exts as [|[id p] exts]; cbn [first_id]; [unfold NO_NEXT_EXT; lia|].
  intro H. apply exts_wire_okb_cons in H. lia.
Qed.

Lemma chain_bytes_ok : forall exts, exts_wire_okb exts = true -> bytes_okb (chain_bytes exts) = true.
Proof.
  induction exts as [|[id p] exts IH]; intro Hok; [reflexivity|].
  apply exts_wire_okb_cons in Hok. destruct Hok as [(Hid & Hl & Hb) Hok]. cbn [chain_bytes].
  apply bytes_okb_cons; split; [apply first_id_byte; exact Hok|].
  apply bytes_okb_cons; split; [lia|]. rewrite bytes_okb_app, Hb, IH by exact Hok. reflexivity.
Qed.

Lemma fixed_bytes_ok t first c ts td w s a : 0 <= first < 256 ->
  bytes_okb (fixed_bytes t first c ts td w s a) = true.
Proof.
  intro Hf. unfold fixed_bytes, be16, be32; cbn [app].
  pose proof (type_to_number_range t).
  repeat (apply bytes_okb_cons; split; [lia|]). reflexivity.
Qed.

Lemma encode_packet_ok h exts : exts_wire_okb exts = true -> bytes_okb (encode_packet h exts) = true.
Proof.
  intro Hok. unfold encode_packet. rewrite bytes_okb_app, fixed_bytes_ok, chain_bytes_ok;
    [reflexivity|exact Hok|apply first_id_byte; exact Hok].
Qed.

Lemma encode_packet_length h exts : Zlength (encode_packet h exts) = 20 + ext_size exts.
Proof. unfold encode_packet. rewrite Zlength_app, chain_bytes_length. reflexivity. Qed.

Lemma typever_mod t : (type_to_number t * 16 + 1) mod 16 = 1.
Proof. destruct t; reflexivity. Qed.
Lemma typever_div t : (type_to_number t * 16 + 1) / 16 = type_to_number t.
Proof. destruct t; reflexivity. Qed.

(* the declarative parser inverts the generic encoder *)
Lemma spec_parse_encode h exts payload :
  fields_okb h = true -> exts_wire_okb exts = true ->
  spec_parse (encode_packet h exts ++ payload) =
  Some (with_ext h (apply_exts exts no_ext), 20 + ext_size exts).
Proof.
  intros Hf Hok. unfold fields_okb in Hf. repeat rewrite andb_true_iff in Hf.
  destruct Hf as (((((Hc & Hts) & Htd) & Hw) & Hs) & Ha).
  apply u16b_iff in Hc, Hs, Ha. apply u32b_iff in Hts, Htd, Hw.
  unfold spec_parse. rewrite Zlength_app, encode_packet_length.
  pose proof (Zlength_nonneg (chain_bytes exts)) as Hnn. rewrite chain_bytes_length in Hnn.
  pose proof (Zlength_nonneg payload).
  destruct (Z.leb_spec 20 (20 + ext_size exts + Zlength payload)); [|lia].
  unfold encode_packet, fixed_bytes, be16, be32. cbn [app nth skipn].
  rewrite typever_mod, typever_div, type_from_to. cbn [Z.eqb Pos.eqb andb].
  rewrite (split_chain_complete _ _ _ (chain_bytes_chain exts payload Hok)) by lia.
  rewrite !of_be16_be16, !of_be32_be32 by assumption.
  reflexivity.
Qed.

Lemma deserialize_encode h exts payload :
  fields_okb h = true -> exts_wire_okb exts = true -> bytes_okb payload = true ->
  deserialize (encode_packet h exts ++ payload) =
  Some (with_ext h (apply_exts exts no_ext), 20 + ext_size exts).
Proof.
  intros Hf Hok Hp. rewrite deserialize_spec; [apply spec_parse_encode; assumption|].
  rewrite bytes_okb_app, encode_packet_ok, Hp by assumption. reflexivity.
Qed.

(* ------------------------------------------------------------------ unknown extensions are skipped *)
Lemma apply_ext_unknown ex id data : ext_known (id, data) = false -> apply_ext ex id data = ex.
Proof.
  unfold ext_known, apply_ext; cbn [fst snd]. intro H. apply orb_false_iff in H. destruct H as [H1 H2].
  rewrite H1. destruct (id =? EXT_CLOSE_REASON); [|reflexivity]. cbn [andb] in H2.
  destruct data as [|a [|b [|c [|d [|]]]]]; try reflexivity. discriminate.
Qed.

Lemma apply_exts_filter : forall exts ex,
  apply_exts (filter ext_known exts) ex = apply_exts exts ex.
Proof.
  induction exts as [|[id data] exts IH]; intro ex; [reflexivity|].
  cbn [filter]. destruct (ext_known (id, data)) eqn:E; unfold apply_exts; cbn [fold_left fst snd].
  - apply IH.
  - rewrite apply_ext_unknown by exact E. apply IH.
Qed.

Lemma exts_wire_okb_filter f exts : exts_wire_okb exts = true -> exts_wire_okb (filter f exts) = true.
Proof.
  unfold exts_wire_okb. induction exts as [|e exts IH]; [reflexivity|].
  cbn [forallb filter]. intro H. apply andb_true_iff in H. destruct H as [H1 H2].
  destruct (f e); [cbn [forallb]; rewrite H1|]; apply IH; exact H2.
Qed.

Lemma unknown_ext_skipped h exts payload :
  fields_okb h = true -> exts_wire_okb exts = true -> bytes_okb payload = true ->
  let known := filter ext_known exts in
  let h' := with_ext h (apply_exts known no_ext) in
  deserialize (encode_packet h exts ++ payload) = Some (h', 20 + ext_size exts) /\
  deserialize (encode_packet h known ++ payload) = Some (h', 20 + ext_size known) /\
  skipn (Z.to_nat (20 + ext_size exts)) (encode_packet h exts ++ payload) = payload.
Proof.
  intros Hf Hok Hp known h'. subst h' known. split; [|split].
  - rewrite deserialize_encode by assumption. rewrite apply_exts_filter. reflexivity.
  - apply deserialize_encode; [assumption|apply exts_wire_okb_filter; assumption|assumption].
  - rewrite <- encode_packet_length with (h := h). rewrite to_nat_Zlength. apply skipn_length_app.
Qed.

(* ------------------------------------------------------------------ round trip *)
Definition full_exts (h : header) : list ext :=
  match e_sack (h_ext h) with Some s => [(EXT_SELECTIVE_ACK, sack_bytes s)] | None => [] end ++
  match e_close (h_ext h) with Some c => [(EXT_CLOSE_REASON, close_as_bytes c)] | None => [] end.

Lemma sack_wfb_iff s : sack_wfb s = true <-> length (sack_bytes s) = 8%nat /\ bytes_okb (sack_bytes s) = true.
Proof. unfold sack_wfb. rewrite andb_true_iff, Nat.eqb_eq. reflexivity. Qed.

Lemma sack_deserialize_bytes s : length (sack_bytes s) = 8%nat ->
  sack_deserialize (sack_bytes s) = {| sack_bytes := sack_bytes s; sack_len := 64 |}.
Proof.
  intro Hl. unfold sack_deserialize, SACK_BYTES. rewrite <- Hl at 1. rewrite firstn_length_app.
  rewrite Zlength_correct, Hl. reflexivity.
Qed.

Lemma close_parse_bytes c : 0 <= c < 65536 ->
  close_parse (c / 16777216 mod 256) (c / 65536 mod 256) (c / 256 mod 256) (c mod 256) = c.
Proof. intro H. unfold close_parse. rewrite of_be32_be32 by lia. lia. Qed.

Lemma ext_wfb_iff ex : ext_wfb ex = true <->
  match e_sack ex with Some s => sack_wfb s = true | None => True end /\
  match e_close ex with Some c => 0 <= c < 65536 | None => True end.
Proof.
  unfold ext_wfb. rewrite andb_true_iff.
  destruct (e_sack ex), (e_close ex); rewrite ?u16b_iff; intuition.
Qed.

Lemma full_exts_ok h : ext_wfb (h_ext h) = true ->
  exts_wire_okb (full_exts h) = true /\
  apply_exts (full_exts h) no_ext = normalise_ext (h_ext h) /\
  20 + ext_size (full_exts h) = ser_len h.
Proof.
  intro Hw. apply ext_wfb_iff in Hw. destruct Hw as [Hs Hc].
  unfold full_exts, ser_len, normalise_ext, UTP_HEADER.
  destruct (e_sack (h_ext h)) as [s|] eqn:Es; destruct (e_close (h_ext h)) as [c|] eqn:Ec;
    cbn [app]; unfold exts_wire_okb, apply_exts, ext_size;
    cbn [forallb fold_left map sumZ fst snd];
    try (apply sack_wfb_iff in Hs; destruct Hs as [Hl Hb]);
    unfold ext_wire_okb, apply_ext, EXT_SELECTIVE_ACK, EXT_CLOSE_REASON; cbn [fst snd];
    try rewrite sack_deserialize_bytes by assumption;
    unfold close_as_bytes, be32; cbn [Z.eqb Pos.eqb e_sack e_close no_ext];
    try rewrite close_parse_bytes by assumption;
    rewrite ?Zlength_cons, ?Zlength_nil; try rewrite (Zlength_correct (sack_bytes s)), Hl;
    try rewrite Hb; (split; [|split]); try reflexivity; try lia.
  all: cbn [Z.ltb Z.compare Pos.compare Pos.compare_cont andb Z.of_nat Pos.of_succ_nat Pos.succ Z.succ Z.add Pos.add].
  all: try reflexivity.
  all: unfold bytes_okb; cbn [forallb]; unfold byte_okb; lia.
Qed.

Lemma ser_exts_full h buflen : ser_len h <= buflen -> fst (ser_exts h buflen) = full_exts h.
Proof.
  unfold ser_len, ser_exts, full_exts, add_ext, UTP_HEADER. intro Hl.
  assert (Hc : forall c, Zlength (close_as_bytes c) = 4) by reflexivity.
  destruct (e_sack (h_ext h)) as [s|]; destruct (e_close (h_ext h)) as [c|]; rewrite ?Hc;
    try pose proof (Zlength_nonneg (sack_bytes s));
    repeat (destruct (_ <=? buflen) eqn:E; [clear E|lia]); reflexivity.
Qed.

Lemma with_ext_same h : with_ext h (h_ext h) = h.
Proof. destruct h; reflexivity. Qed.

Lemma normalise_ok h : hdr_okb h = true -> normalise h = h.
Proof.
  unfold hdr_okb, ext_okb, normalise, normalise_ext. intro H. apply andb_true_iff in H.
  destruct H as [_ H]. apply andb_true_iff in H. destruct H as [H _].
  destruct h as [t c ts td w s a [sk cl]]; unfold with_ext; cbn [h_type h_conn h_ts h_tsdiff h_wnd h_seq h_ack h_ext e_sack e_close] in *.
  destruct sk as [[b l]|]; [|reflexivity].
  unfold sack_okb in H. apply andb_true_iff in H. destruct H as [_ H]. cbn [sack_len sack_bytes] in *.
  apply Z.eqb_eq in H. subst l. reflexivity.
Qed.

Lemma hdr_ok_wf h : hdr_okb h = true -> hdr_wfb h = true.
Proof.
  unfold hdr_okb, hdr_wfb, ext_okb, ext_wfb, sack_okb. intro H.
  apply andb_true_iff in H. destruct H as [H1 H]. apply andb_true_iff in H. destruct H as [H2 H3].
  rewrite H1, H3. destruct (e_sack (h_ext h)); [|reflexivity].
  apply andb_true_iff in H2. destruct H2 as [H2 _]. rewrite H2. reflexivity.
Qed.

(* general form: any representable header comes back normalised *)
Lemma roundtrip_normalises h buflen payload :
  hdr_wfb h = true -> ser_len h <= buflen -> bytes_okb payload = true ->
  exists bs, serialize h buflen = Some bs /\ Zlength bs = ser_len h /\
             deserialize (bs ++ payload) = Some (normalise h, ser_len h).
Proof.
  intros Hw Hl Hp. unfold hdr_wfb in Hw. apply andb_true_iff in Hw. destruct Hw as [Hf He].
  destruct (full_exts_ok h He) as (Hok & Happ & Hsz).
  exists (encode_packet h (full_exts h)). split; [|split].
  - unfold serialize.
    pose proof (Zlength_nonneg (chain_bytes (full_exts h))) as Hnn. rewrite chain_bytes_length in Hnn.
    unfold UTP_HEADER. destruct (Z.ltb_spec buflen 20); [lia|].
    rewrite ser_exts_full by assumption. reflexivity.
  - rewrite encode_packet_length. exact Hsz.
  - rewrite deserialize_encode by assumption. rewrite Happ, Hsz. reflexivity.
Qed.

Lemma roundtrip h buflen payload :
  hdr_okb h = true -> ser_len h <= buflen -> bytes_okb payload = true ->
  exists bs, serialize h buflen = Some bs /\ Zlength bs = ser_len h /\
             deserialize (bs ++ payload) = Some (h, ser_len h).
Proof.
  intros Hok Hl Hp.
  destruct (roundtrip_normalises h buflen payload (hdr_ok_wf h Hok) Hl Hp) as (bs & H1 & H2 & H3).
  rewrite normalise_ok in H3 by assumption. exists bs; auto.
Qed.

Lemma serialize_err h buflen : serialize h buflen = None <-> buflen < 20.
Proof.
  unfold serialize, UTP_HEADER. destruct (Z.ltb_spec buflen 20); split; intro; try lia; try discriminate; reflexivity.
Qed.

(* a parsed header: one serialise/parse round reaches the normal form, which is then stable *)
Lemma normalise_idem h : normalise (normalise h) = normalise h.
Proof.
  destruct h as [t c ts td w s a [sk cl]]. unfold normalise, normalise_ext, with_ext.
  cbn [h_type h_conn h_ts h_tsdiff h_wnd h_seq h_ack h_ext e_sack e_close].
  destruct sk; reflexivity.
Qed.

Lemma normalise_hdr_ok h : hdr_wfb h = true -> hdr_okb (normalise h) = true.
Proof.
  unfold hdr_wfb, hdr_okb, ext_wfb, ext_okb, sack_okb, sack_wfb, fields_okb.
  destruct h as [t c ts td w s a [sk cl]]. unfold normalise, normalise_ext, with_ext.
  cbn [h_type h_conn h_ts h_tsdiff h_wnd h_seq h_ack h_ext e_sack e_close].
  destruct sk as [[b l]|]; cbn [sack_bytes sack_len]; intro H; [|exact H].
  rewrite Z.eqb_refl, andb_true_r. exact H.
Qed.

Lemma reserialize_normalises bs h n buflen :
  bytes_okb bs = true -> deserialize bs = Some (h, n) -> ser_len h <= buflen ->
  exists bs', serialize h buflen = Some bs' /\
              deserialize bs' = Some (normalise h, ser_len h) /\
              hdr_okb (normalise h) = true /\
              (exists bs'', serialize (normalise h) buflen = Some bs'' /\
                            deserialize bs'' = Some (normalise h, ser_len h)).
Proof.
  intros Hb Hd Hl. destruct (parsed_wf bs h n Hb Hd) as [_ Hw].
  destruct (roundtrip_normalises h buflen [] Hw Hl eq_refl) as (bs' & H1 & H2 & H3).
  rewrite app_nil_r in H3. exists bs'. repeat split; try assumption.
  - apply normalise_hdr_ok; assumption.
  - pose proof (normalise_hdr_ok h Hw) as Hok.
    assert (Hsl : ser_len (normalise h) = ser_len h).
    { unfold ser_len, normalise, normalise_ext, with_ext; cbn [h_ext e_sack e_close].
      destruct (e_sack (h_ext h)); reflexivity. }
    destruct (roundtrip (normalise h) buflen [] Hok) as (bs'' & G1 & G2 & G3); [lia|reflexivity|].
    rewrite app_nil_r, Hsl in G3. exists bs''. split; assumption.
Qed.

(* ------------------------------------------------------------------ message level *)
Lemma payload_rule_iff (bs : list Z) t n : 0 <= n <= Zlength bs ->
  (Bool.eqb (ptype_eqb t ST_DATA) (0 <? Zlength bs - n) = true <->
   (skipn (Z.to_nat n) bs <> [] <-> t = ST_DATA)).
Proof.
  intro Hn. rewrite <- (Zlength_skipn_le bs n Hn), Bool.eqb_true_iff, <- ptype_eqb_iff.
  assert (Hnil : skipn (Z.to_nat n) bs <> [] <-> (0 <? Zlength (skipn (Z.to_nat n) bs)) = true).
  { destruct (skipn _ bs) as [|x l]; [split; [congruence|discriminate]|].
    rewrite Zlength_cons. pose proof (Zlength_nonneg l). split; [lia|discriminate]. }
  rewrite Hnil. destruct (ptype_eqb t ST_DATA), (0 <? _); intuition congruence.
Qed.

Lemma msg_payload_rule bs h p : bytes_okb bs = true ->
  (msg_deserialize bs = MsgSome h p <->
   exists n, deserialize bs = Some (h, n) /\ p = skipn (Z.to_nat n) bs /\
             (p <> [] <-> h_type h = ST_DATA)).
Proof.
  intro Hb. destruct (deserialize bs) as [[h0 n0]|] eqn:E.
  2:{ rewrite msg_deserialize_none by assumption.
      split; [discriminate|]. intros (n & Hn & _). discriminate. }
  destruct (parsed_wf bs h0 n0 Hb E) as [Hn0 _].
  rewrite (msg_deserialize_some _ _ _ E).
  destruct (payload_rule_iff bs (h_type h0) n0) as [Hr1 Hr2]; [lia|].
  destruct (Bool.eqb _ _); split.
  - intro Hm; injection Hm as <- <-. exists n0. repeat split; apply Hr1; reflexivity.
  - intros (n & Hd & -> & _). injection Hd as <- <-. reflexivity.
  - discriminate.
  - intros (n & Hd & -> & Hrule). injection Hd as <- <-. apply Hr2 in Hrule. discriminate.
Qed.

(* rejected at message level iff not a header, or the payload rule is broken *)
Lemma msg_rejects_iff bs : bytes_okb bs = true ->
  (msg_deserialize bs = MsgNone <->
   match deserialize bs with
   | None => True
   | Some (h, n) => ~ (skipn (Z.to_nat n) bs <> [] <-> h_type h = ST_DATA)
   end).
Proof.
  intro Hb. destruct (deserialize bs) as [[h n]|] eqn:E.
  2:{ rewrite msg_deserialize_none by assumption. tauto. }
  destruct (parsed_wf bs h n Hb E) as [Hn _].
  rewrite (msg_deserialize_some _ _ _ E), <- (payload_rule_iff bs (h_type h) n) by lia.
  destruct (Bool.eqb _ _); intuition congruence.
Qed.

(* ------------------------------------------------------------------ boolean equalities *)
Lemma list_eqb_iff : forall a b, list_eqb a b = true <-> a = b.
Proof.
  induction a as [|x a IH]; intros [|y b]; cbn [list_eqb]; split; intro H; try reflexivity; try discriminate.
  - apply andb_true_iff in H. destruct H as [H1 H2]. apply Z.eqb_eq in H1. apply IH in H2. congruence.
  - injection H as -> ->. rewrite Z.eqb_refl. apply IH. reflexivity.
Qed.

Lemma sack_eqb_iff a b : sack_eqb a b = true <-> a = b.
Proof.
  unfold sack_eqb. rewrite andb_true_iff, list_eqb_iff, Z.eqb_eq.
  destruct a as [ab al], b as [bb bl]; cbn [sack_bytes sack_len]. split; [intros [-> ->]; reflexivity|].
  intro H; injection H as -> ->; auto.
Qed.

Lemma opt_eqb_iff {A} (eqb : A -> A -> bool) (a b : option A) :
  (forall x y, eqb x y = true <-> x = y) -> (opt_eqb eqb a b = true <-> a = b).
Proof.
  intro He. destruct a, b; cbn [opt_eqb]; split; intro H; try reflexivity; try discriminate.
  - apply He in H. congruence.
  - injection H as ->. apply He. reflexivity.
Qed.

Lemma ext_eqb_iff a b : ext_eqb a b = true <-> a = b.
Proof.
  unfold ext_eqb. rewrite andb_true_iff, (opt_eqb_iff sack_eqb) by apply sack_eqb_iff.
  rewrite (opt_eqb_iff Z.eqb) by apply Z.eqb_eq.
  destruct a as [as_ ac], b as [bs_ bc]; cbn [e_sack e_close]. split; [intros [-> ->]; reflexivity|].
  intro H; injection H as -> ->; auto.
Qed.

Lemma fields_eqb_iff a b : fields_eqb a b = true <-> with_ext a (h_ext b) = b.
Proof.
  unfold fields_eqb. rewrite !andb_true_iff, ptype_eqb_iff, !Z.eqb_eq.
  destruct a as [t1 c1 ts1 td1 w1 s1 a1 e1], b as [t2 c2 ts2 td2 w2 s2 a2 e2]; unfold with_ext; cbn [h_type h_conn h_ts h_tsdiff h_wnd h_seq h_ack h_ext].
  split.
  - intros [[[[[[-> ->] ->] ->] ->] ->] ->]. reflexivity.
  - intro H; injection H as -> -> -> -> -> -> ->. repeat split.
Qed.

Lemma header_eqb_iff a b : header_eqb a b = true <-> a = b.
Proof.
  unfold header_eqb. rewrite andb_true_iff, fields_eqb_iff, ext_eqb_iff. split.
  - intros [H1 H2]. rewrite <- H2 in H1. rewrite with_ext_same in H1. exact H1.
  - intros ->. split; [apply with_ext_same|reflexivity].
Qed.

Lemma res_eqb_iff a b : res_eqb a b = true <-> a = b.
Proof.
  unfold res_eqb. apply opt_eqb_iff. intros [h n] [h' n']; cbn [fst snd].
  rewrite andb_true_iff, header_eqb_iff, Z.eqb_eq. split; [intros [-> ->]; reflexivity|].
  intro H; injection H as -> ->; auto.
Qed.

(* ------------------------------------------------------------------ the predicates *)
(* exactly the property: the predicate holds of an observation iff the observation is the
   declaratively right answer *)
Lemma de_ok_iff bs obs : bytes_okb bs = true ->
  (c11_de_ok bs obs = true <->
   match obs with
   | Some (h, n) => wf_packet bs h n
   | None => forall h n, ~ wf_packet bs h n
   end).
Proof.
  intro Hb. unfold c11_de_ok. rewrite andb_true_iff, res_eqb_iff. split.
  - intros [-> _]. destruct (spec_parse bs) as [[h n]|] eqn:E.
    + apply spec_parse_iff; assumption.
    + intros h n Hw. apply spec_parse_iff in Hw; [congruence|assumption].
  - intro H. destruct obs as [[h n]|].
    + apply spec_parse_iff in H; [|assumption]. split; [congruence|].
      destruct (spec_parse_bounds bs h n Hb H) as [Hn Hw]. rewrite Hw. lia.
    + split; [|reflexivity]. destruct (spec_parse bs) as [[h n]|] eqn:E; [|reflexivity].
      exfalso. apply (H h n). apply spec_parse_iff; assumption.
Qed.

Lemma de_model_ok bs : bytes_okb bs = true -> c11_de_ok bs (deserialize bs) = true.
Proof.
  intro Hb. apply de_ok_iff; [assumption|].
  destruct (deserialize bs) as [[h n]|] eqn:E.
  - apply accepts_iff; assumption.
  - apply rejects_iff; assumption.
Qed.


Lemma header_eqb_refl h : header_eqb h h = true.
Proof. apply header_eqb_iff. reflexivity. Qed.

Lemma msg_model_ok bs : bytes_okb bs = true ->
  c11_msg_ok bs (msg_obs (msg_deserialize bs)) = true.
Proof.
  intro Hb. unfold c11_msg_ok. rewrite <- deserialize_spec by assumption.
  destruct (deserialize bs) as [[h n]|] eqn:E.
  2:{ rewrite msg_deserialize_none by assumption. reflexivity. }
  destruct (parsed_wf bs h n Hb E) as [Hn _].
  rewrite (msg_deserialize_some _ _ _ E).
  destruct (Bool.eqb _ _) eqn:Er; cbn [msg_obs]; [|reflexivity].
  rewrite Zlength_skipn_le by lia. rewrite Er, header_eqb_refl, Z.eqb_refl, andb_true_r.
  apply Z.leb_le. lia.
Qed.

(* serialisation *)
Lemma ext_size_app a b : ext_size (a ++ b) = ext_size a + ext_size b.
Proof.
  induction a as [|[id p] a IH]; [reflexivity|]. cbn [app]. rewrite !ext_size_cons, IH. lia.
Qed.

(* one add_ext!: appended or skipped; the offset stays 20 + the size of what was added and
   never passes the buffer *)
Lemma add_ext_spec buflen exts id p : 20 + ext_size exts <= Z.max 20 buflen ->
  exists k : bool,
    add_ext buflen (exts, 20 + ext_size exts) id p =
    (exts ++ (if k then [(id, p)] else []), 20 + ext_size (exts ++ if k then [(id, p)] else [])) /\
    20 + ext_size (exts ++ if k then [(id, p)] else []) <= Z.max 20 buflen.
Proof.
  intro Hle. unfold add_ext. destruct (Z.leb_spec (20 + ext_size exts + 2 + Zlength p) buflen).
  - exists true. rewrite ext_size_app, ext_size_cons. change (ext_size []) with 0.
    split; [f_equal|]; lia.
  - exists false. rewrite app_nil_r. split; [reflexivity|exact Hle].
Qed.

Lemma ser_exts_cases h buflen :
  let exts := fst (ser_exts h buflen) in
  exists (ks kc : bool),
    exts = (if ks then match e_sack (h_ext h) with Some s => [(EXT_SELECTIVE_ACK, sack_bytes s)] | None => [] end else []) ++
           (if kc then match e_close (h_ext h) with Some c => [(EXT_CLOSE_REASON, close_as_bytes c)] | None => [] end else []) /\
    20 + ext_size exts <= Z.max 20 buflen.
Proof.
  unfold ser_exts, UTP_HEADER. cbn zeta.
  assert (H0 : 20 + ext_size [] <= Z.max 20 buflen) by (cbn; lia).
  change ([], 20) with ([] : list ext, 20 + ext_size []).
  destruct (e_sack (h_ext h)) as [s|].
  - destruct (add_ext_spec buflen [] EXT_SELECTIVE_ACK (sack_bytes s) H0) as (ks & -> & H1).
    destruct (e_close (h_ext h)) as [c|].
    + destruct (add_ext_spec buflen _ EXT_CLOSE_REASON (close_as_bytes c) H1) as (kc & -> & H2).
      exists ks, kc. split; [reflexivity|exact H2].
    + exists ks, false. rewrite app_nil_r. split; [reflexivity|exact H1].
  - destruct (e_close (h_ext h)) as [c|].
    + destruct (add_ext_spec buflen [] EXT_CLOSE_REASON (close_as_bytes c) H0) as (kc & -> & H2).
      exists false, kc. split; [reflexivity|exact H2].
    + exists false, false. split; [reflexivity|exact H0].
Qed.

Lemma sack_eqb_refl s : sack_eqb s s = true.
Proof. apply sack_eqb_iff. reflexivity. Qed.

Lemma fields_eqb_with_ext h ex : fields_eqb (with_ext h ex) h = true.
Proof.
  apply fields_eqb_iff. destruct h; reflexivity.
Qed.

Lemma ser_model_ok h buflen : hdr_wfb h = true -> c11_ser_ok h buflen (serialize h buflen) = true.
Proof.
  intro Hw. unfold c11_ser_ok, serialize, UTP_HEADER.
  destruct (Z.ltb_spec buflen 20) as [Hlt|Hge]; [reflexivity|].
  destruct (Z.leb_spec 20 buflen); [|lia]. cbn [andb].
  pose proof Hw as Hw'. unfold hdr_wfb in Hw'. apply andb_true_iff in Hw'. destruct Hw' as [Hf He].
  destruct (full_exts_ok h He) as (Hfok & Hfapp & Hfsz).
  destruct (ser_exts_cases h buflen) as (ks & kc & Hex & Hsz). cbn zeta in Hex, Hsz.
  set (exts := fst (ser_exts h buflen)) in *.
  assert (Hok : exts_wire_okb exts = true).
  { rewrite Hex. revert Hfok. unfold full_exts, exts_wire_okb. rewrite !forallb_app.
    intro H0. apply andb_true_iff in H0. destruct H0 as [H1 H2].
    destruct ks, kc; rewrite ?H1, ?H2; reflexivity. }
  rewrite encode_packet_ok by assumption. rewrite encode_packet_length.
  destruct (Z.leb_spec (20 + ext_size exts) buflen); [|lia]. cbn [andb].
  pose proof (spec_parse_encode h exts [] Hf Hok) as Hsp. rewrite app_nil_r in Hsp. rewrite Hsp.
  assert (Hv : nth 0 (encode_packet h exts) 0 mod 16 = 1).
  { unfold encode_packet, fixed_bytes; cbn [app nth]. apply typever_mod. }
  rewrite Hv. cbn [Z.eqb Pos.eqb andb].
  rewrite Z.eqb_refl, fields_eqb_with_ext. cbn [andb].
  assert (Hsub : ext_subb (apply_exts exts no_ext) (normalise_ext (h_ext h)) = true).
  { rewrite <- Hfapp. rewrite Hex. unfold full_exts.
    apply ext_wfb_iff in He. destruct He as [Hs Hc].
    destruct (e_sack (h_ext h)) as [s|]; destruct (e_close (h_ext h)) as [c|]; destruct ks, kc;
      cbn [app]; unfold apply_exts, ext_subb; cbn [fold_left fst snd];
      unfold apply_ext, EXT_SELECTIVE_ACK, EXT_CLOSE_REASON, close_as_bytes, be32;
      cbn [Z.eqb Pos.eqb e_sack e_close no_ext opt_eqb];
      rewrite ?sack_eqb_refl, ?Z.eqb_refl; reflexivity. }
  change (h_ext (with_ext h (apply_exts exts no_ext))) with (apply_exts exts no_ext).
  rewrite Hsub. cbn [andb].
  destruct (Z.leb_spec (ser_len h) buflen) as [Hfit|]; [|reflexivity].
  assert (Hfull : exts = full_exts h) by (apply ser_exts_full; assumption).
  rewrite Hfull, Hfapp, Hfsz, Z.eqb_refl, andb_true_r.
  apply header_eqb_iff. reflexivity.
Qed.

(* what the predicate pins down for a buffer that is large enough: the observed bytes parse
   back to the (normalised) header with the right length *)
Lemma ser_ok_full h buflen bs :
  ser_len h <= buflen -> c11_ser_ok h buflen (Some bs) = true ->
  deserialize bs = Some (normalise h, ser_len h) /\ Zlength bs = ser_len h /\
  nth 0 bs 0 mod 16 = 1.
Proof.
  intros Hl. unfold c11_ser_ok. rewrite !andb_true_iff. intros [[[[_ Hb] _] Hv] H].
  apply Z.eqb_eq in Hv. rewrite deserialize_spec by assumption.
  destruct (spec_parse bs) as [[h' n]|]; [|discriminate].
  destruct (Z.leb_spec (ser_len h) buflen); [|lia].
  rewrite !andb_true_iff in H. destruct H as [[[Hn _] _] [Heq Hn']].
  apply header_eqb_iff in Heq. apply Z.eqb_eq in Hn, Hn'. subst h' n. split; [rewrite Hn'; reflexivity|]. split; [lia|assumption].
Qed.

(* ------------------------------------------------------------------ SelectiveAck::new *)
Lemma b2z_range b : 0 <= b2z b <= 1.
Proof. destruct b; cbn; lia. Qed.

Lemma sack_byte_range f j : 0 <= sack_byte f j < 256.
Proof.
  unfold sack_byte.
  pose proof (b2z_range (f (8 * j))). pose proof (b2z_range (f (8 * j + 1))).
  pose proof (b2z_range (f (8 * j + 2))). pose proof (b2z_range (f (8 * j + 3))).
  pose proof (b2z_range (f (8 * j + 4))). pose proof (b2z_range (f (8 * j + 5))).
  pose proof (b2z_range (f (8 * j + 6))). pose proof (b2z_range (f (8 * j + 7))). lia.
Qed.

Lemma sack_new_ok idxs : sack_okb (sack_new idxs) = true.
Proof.
  unfold sack_okb, sack_wfb, sack_new, SACK_DEPTH; cbn [sack_bytes sack_len map length Nat.eqb andb].
  rewrite Z.eqb_refl, andb_true_r.
  repeat (apply bytes_okb_cons; split; [apply sack_byte_range|]). reflexivity.
Qed.

(* ------------------------------------------------------------------ non-vacuity *)
(* /repo/test/resources/packet_fin_with_extension.bin *)
Definition fin_packet : list Z :=
  [17; 3; 120; 76; 136; 176; 150; 76; 117; 68; 154; 129; 0; 16; 0; 0; 213; 133; 212; 125;
   0; 4; 0; 0; 0; 15].
Definition fin_header : header :=
  {| h_type := ST_FIN; h_conn := 30796; h_ts := 2293274188; h_tsdiff := 1967430273;
     h_wnd := 1048576; h_seq := 54661; h_ack := 54397;
     h_ext := {| e_sack := None; e_close := Some 15 |} |}.

Example fin_packet_parses : deserialize fin_packet = Some (fin_header, 26).
Proof. vm_compute. reflexivity. Qed.
Example fin_header_ok : hdr_okb fin_header = true /\ ser_len fin_header = 26.
Proof. split; vm_compute; reflexivity. Qed.
Example fin_header_serialises : serialize fin_header 1024 = Some fin_packet.
Proof. vm_compute. reflexivity. Qed.
Example fin_packet_msg : msg_deserialize fin_packet = MsgSome fin_header [].
Proof. vm_compute. reflexivity. Qed.
Example fin_packet_with_payload_rejected : msg_deserialize (fin_packet ++ [1]) = MsgNone.
Proof. vm_compute. reflexivity. Qed.

(* a header with both extensions, SACK built by SelectiveAck::new *)
Definition both_header : header :=
  {| h_type := ST_STATE; h_conn := 65535; h_ts := 4294967295; h_tsdiff := 1; h_wnd := 256;
     h_seq := 0; h_ack := 65535;
     h_ext := {| e_sack := Some (sack_new [0; 1; 7; 63]); e_close := Some 288 |} |}.
Example both_header_ok : hdr_okb both_header = true /\ ser_len both_header = 36.
Proof. split; vm_compute; reflexivity. Qed.
Example both_header_written :
  serialize both_header 36 =
  Some [33; 1; 255; 255; 255; 255; 255; 255; 0; 0; 0; 1; 0; 0; 1; 0; 0; 0; 255; 255;
        3; 8; 131; 0; 0; 0; 0; 0; 0; 128;   0; 4; 0; 0; 1; 32].
Proof. vm_compute. reflexivity. Qed.
Example both_header_roundtrip :
  option_map (fun bs => deserialize (bs ++ [9; 9])) (serialize both_header 36) =
  Some (Some (both_header, 36)).
Proof. vm_compute. reflexivity. Qed.
(* buffer of 29 bytes: the SACK (needs 30) is silently skipped, the close reason (26) is written *)
Example both_header_small_buffer :
  option_map deserialize (serialize both_header 29) =
  Some (Some (with_ext both_header {| e_sack := None; e_close := Some 288 |}, 26)).
Proof. vm_compute. reflexivity. Qed.

(* an unknown extension (id 2, 3 bytes) and a close-reason id with a wrong length (id 3, 1 byte)
   in front of a 1-byte SACK, ST_DATA with 2 payload bytes *)
Definition odd_packet : list Z :=
  [1; 2; 0; 1; 0; 0; 0; 2; 0; 0; 0; 3; 0; 0; 0; 4; 0; 5; 0; 6;
   3; 3; 7; 7; 7;   1; 1; 9;   0; 1; 129;   42; 43].
Example odd_packet_parses :
  deserialize odd_packet =
  Some ({| h_type := ST_DATA; h_conn := 1; h_ts := 2; h_tsdiff := 3; h_wnd := 4; h_seq := 5; h_ack := 6;
           h_ext := {| e_sack := Some {| sack_bytes := [129; 0; 0; 0; 0; 0; 0; 0]; sack_len := 8 |};
                       e_close := None |} |}, 31).
Proof. vm_compute. reflexivity. Qed.
(* boundary of "any header": a parsed 1-byte SACK comes back as the 64-bit normal form *)
Example odd_packet_reserialised :
  match deserialize odd_packet with
  | Some (h, _) => option_map deserialize (serialize h 1024)
  | None => None
  end = Some (Some ({| h_type := ST_DATA; h_conn := 1; h_ts := 2; h_tsdiff := 3; h_wnd := 4; h_seq := 5; h_ack := 6;
           h_ext := {| e_sack := Some {| sack_bytes := [129; 0; 0; 0; 0; 0; 0; 0]; sack_len := 64 |};
                       e_close := None |} |}, 30)).
Proof. vm_compute. reflexivity. Qed.

(* literal round trip is false outside hdr_ok: witness with a SACK of bit-length 8 *)
Lemma roundtrip_refuted_without_len64 :
  exists h, hdr_wfb h = true /\
            option_map deserialize (serialize h 1024) <> Some (Some (h, ser_len h)).
Proof.
  exists {| h_type := ST_STATE; h_conn := 0; h_ts := 0; h_tsdiff := 0; h_wnd := 0; h_seq := 0; h_ack := 0;
            h_ext := {| e_sack := Some {| sack_bytes := [1; 0; 0; 0; 0; 0; 0; 0]; sack_len := 8 |};
                        e_close := None |} |}.
  split; [vm_compute; reflexivity|]. vm_compute. intro H. discriminate H.
Qed.

(* rejected shapes *)
Example rejects_version0 : deserialize (16 :: repeat 0 19) = None.
Proof. vm_compute. reflexivity. Qed.
Example rejects_type5 : deserialize (81 :: repeat 0 19) = None.
Proof. vm_compute. reflexivity. Qed.
Example rejects_short : deserialize (33 :: repeat 0 18) = None.
Proof. vm_compute. reflexivity. Qed.
Example rejects_truncated_ext : deserialize ([33; 1] ++ repeat 0 18 ++ [0; 4; 1; 2; 3]) = None.
Proof. vm_compute. reflexivity. Qed.
Example accepts_exact_ext : deserialize ([33; 1] ++ repeat 0 18 ++ [0; 4; 1; 2; 3; 4]) <> None.
Proof. vm_compute. discriminate. Qed.
