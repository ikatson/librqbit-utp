(* c02_prompt, the write half: a write accepted on a connection parked idle (Established, ring and
   segment table empty, inbox drained) followed by a poll at the same clock emits ST_DATA.
   The proof walks through poll_body of the model stage by stage up to the send_data of the first
   segment cut from the written bytes; everything after that only appends to the output. *)
From Utp Require Import Base.Prelude Wire.SeqNr Wire.SeqNr_Proofs Wire.Header Rtt.Rtte Rtt.Rtte_Proofs Mtu.SegSizes
  Rx.Rx Rx.Rx_Proofs Tx.Ring Tx.Ring_Proofs Tx.Segments Tx.Segments_Proofs Tx.Segments_ProofsOut
  Conn.Recovery Conn.Msg Conn.VSockRec Conn.VSock Conn.VSockRun Conn.VObs Conn.C10_Pred Conn.C02_Pred
  Conn.C02_Pred2 Conn.VSock_Inv Conn.VSock_LemmasFin Conn.VSock_LemmasTx Conn.VSock_Lemmas
  Conn.VSock_LemmasStep Conn.VSock_LemmasReach Conn.VSock_LemmasTimers Conn.VSock_LemmasPipe
  Conn.C07_Step Conn.C17_StepLemmas Conn.C02_Step Conn.C02_SegLemmas2 Conn.C02_Lemmas2 Conn.C02_Stall2.

(* the first segment cut from a table without in-flight segments *)
Lemma segment_loop_first : forall x fuel nagle ss ss1 sz segs rem rwr ss' segs' rem',
  0 < rem -> 0 < rwr -> ss_segs segs = [] -> next_segment_size ss = Some (ss1, sz) ->
  segment_loop (x :: fuel) nagle ss segs rem rwr = Some (ss', segs', rem') ->
  exists g l, ss_segs segs' = g :: l /\ sg_size g = Z.min (Z.min sz rwr) rem /\
    sg_abs g = ss_offset segs /\ sg_delivered g = false /\ sg_sent g = NotSent /\
    ss_removed segs' = ss_removed segs /\ ss_snd_una segs' = ss_snd_una segs.
Proof.
  intros x fuel nagle ss ss1 sz segs rem rwr ss' segs' rem' Hr Hw Es En H.
  cbn [segment_loop] in H.
  replace (0 <? rem) with true in H by (symmetry; apply Z.ltb_lt; exact Hr).
  replace (0 <? rwr) with true in H by (symmetry; apply Z.ltb_lt; exact Hw).
  cbn [andb] in H. rewrite En, Es in H. rewrite !andb_false_r in H.
  set (payload := Z.min (Z.min sz rwr) rem) in *.
  set (g := {| sg_size := payload; sg_abs := ss_offset segs; sg_delivered := false; sg_sent := NotSent;
               sg_probe := mss ss1 <? payload; sg_lost := false; sg_expired := false; sg_sacks_after := false |}).
  assert (Eq : forall b, ss_segs (enqueue segs payload b) = [ {| sg_size := payload; sg_abs := ss_offset segs;
                 sg_delivered := false; sg_sent := NotSent; sg_probe := b; sg_lost := false;
                 sg_expired := false; sg_sacks_after := false |} ]).
  { intro b. unfold enqueue. cbn [set_segs ss_segs]. rewrite Es. reflexivity. }
  destruct (mss ss1 <? payload) eqn:Ep.
  - injection H as _ <- _. eexists _, []. split; [apply Eq|]. repeat split.
  - apply segment_loop_app in H. destruct H as (l & L1 & _ & L3 & L4).
    eexists _, l. split; [rewrite L1, Eq; reflexivity|]. repeat split; assumption.
Qed.

Section WithCC.
Context {CC : Type} (cci : cc_iface CC).
Notation vsock := (vsock CC).

(* ------------------------------------------------------------------ the combinators on SOk *)
Lemma bail_ok_eq : forall A (s : vsock) (a : A) (k : vsock -> A -> body_res),
  v_restart s = false -> bail (SOk s a) k = k s a.
Proof. intros A s a k R. unfold bail. rewrite R. reflexivity. Qed.

Lemma pend_ok_eq : forall A (s : vsock) (a : A) (k : vsock -> A -> body_res),
  v_restart s = false -> v_transport_pending s = false -> pend (SOk s a) k = k s a.
Proof. intros A s a k R T. unfold pend, bail. rewrite R, T. reflexivity. Qed.

(* ------------------------------------------------------------------ after a Pending poll with a
   writable transport: closed, or the inbox is drained and its channel open *)
Theorem poll_pending_ibe : forall (s s' : vsock),
  poll cci s = (s', PollPending) -> v_transport_pending s' = false -> SC s' \/ IBE s'.
Proof. intros s s' H Hnp. right. eapply poll_done_ibe; eassumption. Qed.

(* ------------------------------------------------------------------ sending with an empty script *)
Lemma next_send_nil : forall (s : vsock) size,
  v_sends s = [] -> (forall m, v_emsg_limit s = Some m -> size <= m) -> next_send s size = (s, TSent).
Proof.
  intros s size Hs Hl. unfold next_send. rewrite Hs.
  destruct (v_emsg_limit s) as [m|] eqn:El; [|reflexivity].
  specialize (Hl m eq_refl). destruct (Z.ltb_spec m size); [lia|reflexivity].
Qed.

Lemma send_data_sent : forall (s : vsock) h f,
  v_sends s = [] -> (forall m, v_emsg_limit s = Some m -> 20 + sg_size (fs_seg f) <= m) ->
  seg_retransmit_count (fs_seg f) <> o_max_retx (v_opts s) ->
  0 <= fs_payload_offset f -> 0 <= sg_size (fs_seg f) ->
  fs_payload_offset f + sg_size (fs_seg f) <= Z.of_nat (length (ring (v_tx s))) ->
  exists s', send_data s h f = SOk s' SdSent.
Proof.
  intros s h f Hs Hl Hr Ho Hz Hb. unfold send_data.
  destruct (Z.eqb_spec (seg_retransmit_count (fs_seg f)) (o_max_retx (v_opts s))); [contradiction|].
  destruct (Z.ltb_spec (fs_payload_offset f) 0); [lia|].
  destruct (Z.ltb_spec (Z.of_nat (length (ring (v_tx s)))) (fs_payload_offset f)); [lia|].
  destruct (Z.ltb_spec (Z.of_nat (length (ring (v_tx s)))) (fs_payload_offset f + sg_size (fs_seg f))); [lia|].
  rewrite (next_send_nil s _ Hs Hl). eexists. reflexivity.
Qed.

End WithCC.

Section WithCC2.
Context {CC : Type} (cci : cc_iface CC).
Notation vsock := (vsock CC).

(* ------------------------------------------------------------------ segmentation of an idle connection *)
Definition spl (s s' : vsock) : Prop :=
  ring (v_tx s') = ring (v_tx s) /\ v_state s' = v_state s /\ v_t_retransmit s' = v_t_retransmit s /\
  v_rto_retransmissions s' = v_rto_retransmissions s /\ v_recovery s' = v_recovery s /\ v_cc s' = v_cc s /\
  v_last_remote_window s' = v_last_remote_window s /\ v_last_sent_seq_nr s' = v_last_sent_seq_nr s /\
  v_now s' = v_now s /\ v_sends s' = v_sends s /\ v_emsg_limit s' = v_emsg_limit s /\ v_opts s' = v_opts s /\
  v_restart s' = v_restart s /\ v_transport_pending s' = v_transport_pending s.

Lemma split_idle : forall s : vsock,
  v_state s = Established -> ss_segs (v_segs s) = [] -> seg_inv (v_segs s) -> ss_ok (v_ss s) ->
  ring (v_tx s) <> [] -> 0 < v_last_remote_window s ->
  match split_tx_queue_into_segments cci s with
  | SOk s' _ => exists g l ss1 sz,
    ss_segs (v_segs s') = g :: l /\
    next_segment_size (v_ss s) = Some (ss1, sz) /\
    sg_size g = Z.min (Z.min sz (v_last_remote_window s)) (Z.of_nat (length (ring (v_tx s)))) /\
    sg_abs g = ss_removed (v_segs s) /\ sg_delivered g = false /\ sg_sent g = NotSent /\
    ss_removed (v_segs s') = ss_removed (v_segs s) /\ ss_snd_una (v_segs s') = ss_snd_una (v_segs s) /\
    spl s s'
  | _ => False
  end.
Proof.
  intros s Est Es Hsi Hss Hr Hw. unfold split_tx_queue_into_segments.
  assert (Hlen : 0 < Z.of_nat (length (ring (v_tx s)))) by (destruct (ring (v_tx s)); [contradiction|cbn [length]; lia]).
  destruct (Z.eqb_spec (Z.of_nat (length (ring (v_tx s)))) 0); [lia|].
  match goal with |- context [is_remote_fin_or_later (v_state ?x)] => set (s1 := x) end.
  assert (F1 : v_segs s1 = v_segs s /\ v_ss s1 = v_ss s /\ spl s s1).
  { subst s1. unfold spl. destruct (_ && _); [|repeat split].
    unfold grow. destruct (_ <=? _); [repeat split|]. cbn [wake_writer]. unfold add_wakes. repeat split. }
  clearbody s1. destruct F1 as (F1 & F2 & F3).
  assert (F3' := F3). destruct F3' as (G1 & G2 & G3 & G4 & G5 & G6 & G7 & G8 & G9 & G10 & G11 & G12 & G13 & G14).
  rewrite G2, Est. cbn [is_remote_fin_or_later].
  unfold pop_expired_mtu_probe. rewrite F1, Es. cbn [last_and_init rev].
  assert (Hsi' := Hsi). destruct Hsi as (I1 & I2 & I3 & I4 & I5). rewrite Es in I1. cbn [sum_sizes] in I1.
  rewrite I1. destruct (Z.ltb_spec (Z.of_nat (length (ring (v_tx s)))) 0); [lia|].
  rewrite F2, G1, G7, G12.
  destruct (segment_loop_spec (ring (v_tx s)) (o_nagle (v_opts s)) (v_ss s) (v_segs s)
              (Z.of_nat (length (ring (v_tx s))) - 0) (v_last_remote_window s) Hss
              Hsi' ltac:(lia))
    as (ss' & segs' & rem' & E & _).
  rewrite E.
  destruct (next_size_ok (v_ss s) Hss) as (ss1 & sz & En & _).
  destruct (ring (v_tx s)) as [|x fuel] eqn:Ering; [contradiction|].
  assert (Hpos : 0 < Z.of_nat (length (x :: fuel)) - 0) by lia.
  destruct (segment_loop_first _ _ _ _ _ _ _ _ _ _ _ _ Hpos Hw Es En E)
    as (g & l & L1 & L2 & L3 & L4 & L5 & L6 & L7).
  exists g, l, ss1, sz. vsimpl_goal.
  split; [exact L1|]. split; [exact En|]. split; [rewrite L2; f_equal; lia|].
  split; [rewrite L3, I2, I1; lia|]. split; [exact L4|]. split; [exact L5|]. split; [exact L6|]. split; [exact L7|].
  unfold spl. vsimpl_goal. repeat split; first [assumption | congruence].
Qed.

(* ------------------------------------------------------------------ send_tx_queue with one fresh segment first *)
Definition first_item (s : vsock) (g : seg) : for_sending :=
  {| fs_idx := 0; fs_seq := wadd16 (ss_snd_una (v_segs s)) (Z.of_nat 0 mod M16);
     fs_payload_offset := sg_abs g - ss_removed (v_segs s); fs_seg := g |}.

Lemma stq_emits_first : forall (s : vsock) g l,
  ss_segs (v_segs s) = g :: l -> sg_delivered g = false -> sg_sent g = NotSent ->
  v_transport_pending s = false -> timer_expired (v_t_retransmit s) (v_now s) = false ->
  v_rto_retransmissions s <= 0 -> is_recovering (v_recovery s) = false ->
  seq_sub (wadd16 (v_last_sent_seq_nr s) 1) (ss_snd_una (v_segs s)) <= 0 ->
  seq_sub (v_last_sent_seq_nr s) (ss_snd_una (v_segs s)) + 1 <= 0 ->
  0 <= sg_size g -> sg_size g <= v_last_remote_window s -> sg_size g <= cc_window cci (v_cc s) ->
  v_sends s = [] -> (forall m, v_emsg_limit s = Some m -> 20 + sg_size g <= m) ->
  o_max_retx (v_opts s) <> 0 ->
  0 <= sg_abs g - ss_removed (v_segs s) ->
  sg_abs g - ss_removed (v_segs s) + sg_size g <= Z.of_nat (length (ring (v_tx s))) ->
  match send_tx_queue cci s with
  | SOk s' _ | SErr s' _ =>
      exists l', v_out s' = l' ++ data_pkt s (outgoing_header s) (first_item s g) :: v_out s
  | SPanic => True
  end.
Proof.
  intros s g l Es Hd Hns Tp Ex Hrto Hrec Hoff Htake Hz Hlrw Hcw Hsends Hlim Hmax Ho Hb.
  rewrite send_tx_queue_eq, Tp.
  set (h := outgoing_header s). unfold rto_branch. rewrite Ex. cbn [sbind].
  unfold after_rto_k. destruct (Z.ltb_spec 0 (v_rto_retransmissions s)); [lia|].
  rewrite Es. rewrite (rec_branch_norec s h Hrec). cbn [sbind].
  unfold new_branch.
  destruct (iter_head_exact (v_segs s) (Some (wadd16 (v_last_sent_seq_nr s) 1)) [] g l Es
              ltac:(intros x []) Hd ltac:(cbn [length]; lia)) as (rest & Eit).
  fold (new_items s) in Eit. cbn [length] in Eit. fold (first_item s g) in Eit. rewrite Eit.
  cbn [new_data_loop]. cbn [first_item fs_seg].
  assert (Hrem : new_remaining cci s = Z.max 0 (Z.min (cc_window cci (v_cc s)) (v_last_remote_window s))).
  { unfold new_remaining, remaining_cwnd. unfold is_recovering in Hrec.
    destruct (rv_phase (v_recovery s)); try discriminate;
      (unfold sat_sub; f_equal; unfold calc_flight_size;
       replace (Z.to_nat (Z.max (seq_sub (v_last_sent_seq_nr s) (ss_snd_una (v_segs s)) + 1) 0)) with 0%nat by lia;
       cbn [firstn flight_sum]; lia). }
  destruct (Z.ltb_spec (new_remaining cci s) (sg_size g)) as [L|L]; [rewrite Hrem in L; lia|].
  destruct (send_data_sent s h (first_item s g) Hsends Hlim) as (s1 & E1).
  { cbn [first_item fs_seg]. unfold seg_retransmit_count. rewrite Hns. intro K. apply Hmax. symmetry. exact K. }
  { exact Ho. } { exact Hz. } { exact Hb. }
  fold (first_item s g). rewrite E1.
  pose proof (send_data_spec s h (first_item s g)) as D. rewrite E1 in D.
  destruct D as (_ & D2 & _).
  pose proof (VSock_LemmasFin.new_data_loop_frame rest s1 h
                (new_remaining cci s - sg_size (fs_seg (first_item s g)))) as F.
  destruct (new_data_loop rest s1 h _) as [s2 tl|s2 e|]; cbn [sbind VSock_LemmasFin.sframe] in *; auto.
  - destruct F as [(_ & _ & _ & _ & _ & _ & (l2 & F7) & _) _].
    unfold new_after. destruct tl as [[sq sz']|]; [|exists l2; rewrite F7, D2; reflexivity].
    destruct (pop_mtu_probe _ _) as [segs' popped]. destruct popped; vsimpl_goal;
      exists l2; rewrite F7, D2; reflexivity.
  - destruct F as [(_ & _ & _ & _ & _ & _ & (l2 & F7) & _) _]. exists l2. rewrite F7, D2. reflexivity.
Qed.

End WithCC2.

Section WithCC3.
Context {CC : Type} (cci : cc_iface CC).
Notation vsock := (vsock CC).

Lemma paim_idle_eq : forall s : vsock,
  v_inbox s = [] -> v_inbox_closed s = false -> is_recovering (v_recovery s) = false ->
  process_all_incoming_messages cci s = SOk (set_inbox_waker s true) tt.
Proof.
  intros s Hi Hc Hr. rewrite paim_eq. rewrite Hi. cbn [app recv_loop].
  rewrite Hi, Hc. cbn [sbind fst]. unfold paim_rest.
  cbn [on_ack_result_default ar_acked_segments ar_newly_sacked_segments Z.ltb Z.compare orb sbind].
  unfold is_recovering in Hr. change (v_recovery (set_inbox_waker s true)) with (v_recovery s).
  destruct (rv_phase (v_recovery s)); [reflexivity|reflexivity|discriminate].
Qed.

Lemma data_pkt_shape : forall (s : vsock) h g,
  0 <= sg_abs g - ss_removed (v_segs s) ->
  sg_abs g - ss_removed (v_segs s) + sg_size g <= Z.of_nat (length (ring (v_tx s))) -> 0 <= sg_size g ->
  ch_type (p_hdr (data_pkt s h (first_item s g))) = ST_DATA /\
  Z.of_nat (length (p_payload (data_pkt s h (first_item s g)))) = sg_size g.
Proof.
  intros s h g Ho Hb Hz. split; [reflexivity|].
  unfold data_pkt, data_payload, first_item. cbn [p_payload fs_seg fs_payload_offset].
  rewrite firstn_length, skipn_length. lia.
Qed.

(* one iteration of the poll of a connection that holds freshly written bytes only *)
Lemma prompt_body : forall x0 : vsock,
  v_state x0 = Established -> ss_segs (v_segs x0) = [] -> seg_inv (v_segs x0) -> ss_ok (v_ss x0) ->
  rx_inv (v_rx x0) -> ring (v_tx x0) <> [] ->
  v_inbox x0 = [] -> v_inbox_closed x0 = false ->
  0 < v_last_remote_window x0 ->
  Z.min (max_ss (v_ss x0)) (Z.of_nat (length (ring (v_tx x0)))) <= cc_window cci (v_cc x0) ->
  v_rto_retransmissions x0 = 0 -> is_recovering (v_recovery x0) = false ->
  timer_expired (v_t_retransmit x0) (v_env_now x0) = false ->
  timer_expired (v_t_inactivity x0) (v_env_now x0) = false ->
  v_cbu x0 < IMMEDIATE_ACK_EVERY_RMSS * mss (v_ss x0) ->
  seq_sub (wadd16 (v_last_sent_seq_nr x0) 1) (ss_snd_una (v_segs x0)) <= 0 ->
  seq_sub (v_last_sent_seq_nr x0) (ss_snd_una (v_segs x0)) + 1 <= 0 ->
  v_sends x0 = [] ->
  (forall m, v_emsg_limit x0 = Some m -> 20 + max_ss (v_ss x0) <= m) ->
  o_max_retx (v_opts x0) <> 0 ->
  match poll_body cci x0 with
  | BrReturn s' _ | BrRestart s' =>
      exists l p l0, v_out s' = l ++ p :: l0 /\ ch_type (p_hdr p) = ST_DATA /\ 1 <= Z.of_nat (length (p_payload p))
  | BrPanic => True
  end.
Proof.
  intros x0 Est Es Hsi Hss Hrx Hring Hi Hc Hw Hcw Hrto Hrec Ext Exi Hcbu Hoff Htake Hsends Hlim Hmax.
  rewrite poll_body_decomp.
  set (xa := body_start x0).
  assert (Esyn : maybe_send_syn_ack xa = SOk (set_t_syn_ack_resend xa None) tt).
  { unfold maybe_send_syn_ack. change (v_state xa) with (v_state x0). rewrite Est. reflexivity. }
  rewrite Esyn. rewrite pend_ok_eq by reflexivity.
  set (xb := set_t_syn_ack_resend xa None). unfold body_rest.
  assert (Eimm : immediate_ack_to_transmit xb = false).
  { unfold immediate_ack_to_transmit. change (v_ss xb) with (v_ss x0). change (v_cbu xb) with (v_cbu x0).
    apply Z.leb_gt. exact Hcbu. }
  rewrite Eimm. rewrite pend_ok_eq by reflexivity.
  rewrite (paim_idle_eq xb Hi Hc Hrec). rewrite pend_ok_eq by reflexivity.
  set (xc := set_inbox_waker xb true).
  destruct (rx_flush (v_rx xc)) as [[rx1 fr] w] eqn:Ef.
  change (v_rx xc) with (v_rx x0) in Ef.
  destruct (rx_flush_spec _ _ _ _ Hrx Ef) as (_ & (fb & -> & _) & _).
  set (xd := add_wakes (set_rx xc rx1) (rx_wakes w)).
  change (timer_expired (v_t_inactivity xd) (v_now xd)) with (timer_expired (v_t_inactivity x0) (v_env_now x0)).
  rewrite Exi.
  pose proof (split_idle cci xd Est Es Hsi Hss Hring Hw) as Sp.
  destruct (split_tx_queue_into_segments cci xd) as [xe u| |]; try contradiction.
  destruct Sp as (g & l & ss1 & sz & L1 & En & L2 & L3 & L4 & L5 & L6 & L7 & Spl).
  destruct Spl as (G1 & G2 & G3 & G4 & G5 & G6 & G7 & G8 & G9 & G10 & G11 & G12 & G13 & G14).
  rewrite bail_ok_eq by (rewrite G13; reflexivity).
  change (v_tx xd) with (v_tx x0) in *. change (v_last_remote_window xd) with (v_last_remote_window x0) in *.
  change (v_segs xd) with (v_segs x0) in *. change (v_ss xd) with (v_ss x0) in *.
  destruct (next_size_ok (v_ss x0) Hss) as (ss1' & sz' & En' & _ & _ & Hsz).
  rewrite En in En'. injection En' as <- <-.
  assert (Hsize : 1 <= sg_size g /\ sg_size g <= Z.of_nat (length (ring (v_tx x0))) /\
                  sg_size g <= v_last_remote_window x0 /\ sg_size g <= max_ss (v_ss x0)).
  { assert (0 < Z.of_nat (length (ring (v_tx x0)))) by (destruct (ring (v_tx x0)); [contradiction|cbn [length]; lia]).
    unfold ss_ok in Hss. rewrite L2. lia. }
  destruct Hsize as (Z1 & Z2 & Z3 & Z4).
  pose proof (stq_emits_first cci xe g l L1 L4 L5) as Em.
  assert (Habs : sg_abs g - ss_removed (v_segs xe) = 0) by lia.
  specialize (Em ltac:(rewrite G14; reflexivity)).
  specialize (Em ltac:(rewrite G3, G9; exact Ext)).
  specialize (Em ltac:(rewrite G4; change (v_rto_retransmissions xd) with (v_rto_retransmissions x0); lia)).
  specialize (Em ltac:(rewrite G5; exact Hrec)).
  specialize (Em ltac:(rewrite G8, L7; exact Hoff)).
  specialize (Em ltac:(rewrite G8, L7; exact Htake)).
  specialize (Em ltac:(lia)).
  specialize (Em ltac:(rewrite G7; exact Z3)).
  specialize (Em ltac:(rewrite G6; change (v_cc xd) with (v_cc x0); lia)).
  specialize (Em ltac:(rewrite G10; exact Hsends)).
  specialize (Em ltac:(rewrite G11; intros m Hm; specialize (Hlim m Hm); lia)).
  specialize (Em ltac:(rewrite G12; exact Hmax)).
  specialize (Em ltac:(lia)).
  specialize (Em ltac:(rewrite G1; lia)).
  destruct (data_pkt_shape xe (outgoing_header xe) g ltac:(lia) ltac:(rewrite G1; lia) ltac:(lia)) as [P1 P2].
  set (p := data_pkt xe (outgoing_header xe) (first_item xe g)) in *.
  (* everything after send_tx_queue only appends to the output: C17_StepLemmas.body_back_G0 *)
  change (pend (send_tx_queue cci xe) _) with (pend (send_tx_queue cci xe) (fun s _ => body_back s)).
  assert (Hfin : forall sx : vsock, (exists l', v_out sx = l' ++ p :: v_out xe) ->
            exists l p0 l0, v_out sx = l ++ p0 :: l0 /\ ch_type (p_hdr p0) = ST_DATA /\ 1 <= Z.of_nat (length (p_payload p0))).
  { intros sx (l' & E). exists l', p, (v_out xe). split; [exact E|]. split; [exact P1|lia]. }
  assert (Hg : forall sa sb : vsock, G0 sa sb -> (exists l', v_out sa = l' ++ p :: v_out xe) ->
            exists l', v_out sb = l' ++ p :: v_out xe).
  { intros sa sb (_ & (l2 & F7 & _) & _) (l1 & E). exists (l2 ++ l1). rewrite F7, E, app_assoc. reflexivity. }
  assert (Hd : forall (sa : vsock) e, (exists l', v_out sa = l' ++ p :: v_out xe) ->
            exists l', v_out (just_before_death sa e) = l' ++ p :: v_out xe).
  { intros sa e (l1 & E).
    destruct (VSock_LemmasFin.just_before_death_frame sa e) as [(_ & _ & _ & _ & _ & _ & (l2 & F7) & _) _].
    exists (l2 ++ l1). rewrite F7, E, app_assoc. reflexivity. }
  unfold pend, bail.
  destruct (send_tx_queue cci xe) as [s6 u6|s6 e6|]; [| |exact I].
  - destruct (v_restart s6); [apply Hfin; exact Em|].
    destruct (v_transport_pending s6); [apply Hfin; exact Em|].
    pose proof (body_back_G0 s6 s6 (G0_refl s6)) as Fa.
    destruct (body_back s6) as [s' r'|s'|]; cbn [bG0] in Fa; [| |exact I]; apply Hfin.
    + destruct r' as [| |e|].
      * exact (Hg s6 s' (proj1 Fa) Em).
      * destruct Fa as (s1 & Fa & ->). apply Hd, (Hg s6 s1 Fa Em).
      * destruct Fa as (s1 & Fa & ->). apply Hd, (Hg s6 s1 Fa Em).
      * destruct Fa.
    + exact (Hg s6 s' Fa Em).
  - unfold die. apply Hfin, Hd, Em.
Qed.

End WithCC3.

(* ------------------------------------------------------------------ the trace theorem *)
From Utp Require Import Conn.VSock_PollAux Conn.VSock_Poll.

Lemma poll_write_ok : forall t buf t' n w,
  poll_write t buf = (t', WrOk n, w) ->
  ring t' = ring t ++ firstn (Z.to_nat n) buf /\ 1 <= n <= Z.of_nat (length buf).
Proof.
  intros t buf t' n w H. unfold poll_write in H.
  destruct (YIELD_EVERY <? _); [discriminate|].
  destruct (t_vsock_closed t); [discriminate|].
  destruct (writer_shutdown t); [discriminate|].
  destruct (writer_dropped t); [discriminate|].
  destruct (Z.eqb_spec (Z.min (Z.of_nat (length buf)) (Z.max (cap t - Z.of_nat (length (ring t))) 0)) 0) as [E|E];
    [discriminate|].
  injection H as <- <- _. cbn [ring upd]. split; [reflexivity|]. lia.
Qed.

Section Trace.
Context {CC : Type} (cci : cc_iface CC).
Hypothesis Hcc : cc_total cci.
Variables ti tm : Z.
Notation vsock := (vsock CC).

Definition PI (s : vsock) (a : c10_acc) : Prop :=
  tinv ti tm s /\ ca_lim a = v_emsg_limit s /\ o_max_retx (v_opts s) <> 0.

Lemma vstep_emsg_limit : forall (s : vsock) o,
  v_emsg_limit (vstep_state cci s o) = match o with VoSetLimit m => m | _ => v_emsg_limit s end.
Proof.
  intros s o. pose proof (vstep_nonpoll_same cci s o) as K.
  destruct o; try (apply K).
  unfold vstep_state. cbn [vstep].
  destruct (poll cci (VSockRec.set_sends s script)) as [s' r] eqn:E. cbn [fst].
  destruct (VSock_LemmasFin.poll_loop_frame0 cci 64 (poll_init (VSockRec.set_sends s script)))
    as (_ & _ & _ & _ & P5 & _).
  rewrite poll_unfold in E. rewrite E in P5. exact P5.
Qed.

Lemma PI_step : forall (s : vsock) a o,
  PI s a -> op_clock_ok o -> poll_finished (vstep_out cci s o) = false ->
  PI (vstep_state cci s o) (c10_acc_next a (fstep_of cci s o)).
Proof.
  intros s a o (T & L & M) Ho Hl.
  pose proof (vstep_x cci false Hcc ti tm s o T Ho (op_ef_false s o)) as Hs.
  pose proof (vstep_emsg_limit s o) as El.
  pose proof (vstep_keeps cci s o) as (K1 & _).
  unfold vstep_state, vstep_out in *.
  destruct (vstep cci s o) as [[[s' out] dw] sw] eqn:Ev. cbn [fst snd] in *.
  split; [eapply out_ok_next; eauto|]. split; [|rewrite K1; exact M].
  unfold c10_acc_next. rewrite fstep_of_event. rewrite El.
  destruct o; cbn [fevent_of ca_lim]; try exact L. reflexivity.
Qed.

End Trace.

Section Trace2.
Context {CC : Type} (cci : cc_iface CC).
Hypothesis Hcc : cc_total cci.
Variables ti tm : Z.
Notation vsock := (vsock CC).

(* the poll after the write *)
Lemma prompt_write_poll : forall (s1 : vsock) tx1 n w buf s3 r,
  tinv ti tm s1 -> tinv ti tm (set_tx s1 tx1) ->
  IBE s1 -> v_state s1 = Established -> ss_segs (v_segs s1) = [] -> ring (v_tx s1) = [] ->
  poll_write (v_tx s1) buf = (tx1, WrOk n, w) ->
  0 < v_last_remote_window s1 ->
  Z.min (max_ss (v_ss s1)) n <= cc_window cci (v_cc s1) ->
  v_rto_retransmissions s1 = 0 -> is_recovering (v_recovery s1) = false ->
  timer_expired (v_t_retransmit s1) (v_env_now s1) = false ->
  timer_expired (v_t_inactivity s1) (v_env_now s1) = false ->
  v_cbu s1 < IMMEDIATE_ACK_EVERY_RMSS * mss (v_ss s1) ->
  seq_sub (wadd16 (v_last_sent_seq_nr s1) 1) (ss_snd_una (v_segs s1)) <= 0 ->
  seq_sub (v_last_sent_seq_nr s1) (ss_snd_una (v_segs s1)) + 1 <= 0 ->
  (forall m, v_emsg_limit s1 = Some m -> 20 + max_ss (v_ss s1) <= m) ->
  o_max_retx (v_opts s1) <> 0 ->
  poll cci (VSockRec.set_sends (set_tx s1 tx1) []) = (s3, r) ->
  exists l p l0, v_out s3 = l ++ p :: l0 /\ ch_type (p_hdr p) = ST_DATA /\ 1 <= Z.of_nat (length (p_payload p)).
Proof.
  intros s1 tx1 n w buf s3 r T1 T2 [Hi Hc] Est Es Hring Hw Hlrw Hcw Hrto Hrec Ext Exi Hcbu Hoff Htake Hlim Hmax Hp.
  destruct (poll_write_ok _ _ _ _ _ Hw) as [Hr1 Hn]. rewrite Hring in Hr1. cbn [app] in Hr1.
  set (s2 := set_tx s1 tx1) in *.
  (* the poll does not panic *)
  assert (Hnp : r <> PollPanic).
  { destruct T2 as [Hx Hclk].
    pose proof (poll_x cci false Hcc ti tm (VSockRec.set_sends s2 [])) as Px.
    rewrite Hp in Px.
    assert (Hx' : vs_x ti tm 0 qT (VSockRec.set_sends s2 [])).
    { eapply x_same_core; [exact Hx|]. unfold same_core. vsimpl_goal. repeat split. }
    specialize (Px Hx' Hclk ltac:(intro K; discriminate K)).
    destruct (ret_ok_result false ti tm _ _ _ Px) as [K _]. exact K. }
  destruct T1 as [[Hinv _] _].
  destruct (inv_parts _ _ _ _ Hinv) as (I1 & I2 & _ & _ & _ & I6 & _).
  rewrite poll_unfold in Hp.
  set (x0 := poll_init (VSockRec.set_sends s2 [])) in *.
  assert (Hlen : Z.of_nat (length (ring (v_tx x0))) = n).
  { change (ring (v_tx x0)) with (ring tx1). rewrite Hr1, firstn_length. lia. }
  pose proof (prompt_body cci x0 Est Es I2 I6 I1) as B.
  specialize (B ltac:(change (ring (v_tx x0)) with (ring tx1); rewrite Hr1;
                      destruct (firstn (Z.to_nat n) buf) eqn:Ef; [|discriminate];
                      apply (f_equal (@length _)) in Ef; rewrite firstn_length in Ef; cbn [length] in Ef; lia)).
  specialize (B Hi Hc Hlrw ltac:(rewrite Hlen; exact Hcw) Hrto Hrec Ext Exi Hcbu Hoff Htake eq_refl Hlim Hmax).
  rewrite (poll_loop_S cci 63 x0) in Hp.
  destruct (poll_body cci x0) as [s' r'|s'|].
  - injection Hp as <- _. exact B.
  - destruct B as (l & p & l0 & B1 & B2 & B3).
    destruct (VSock_LemmasFin.poll_loop_frame0 cci 63 s') as (_ & _ & _ & _ & _ & _ & (l2 & P7) & _).
    rewrite Hp in P7. cbn [fst] in P7. exists (l2 ++ l), p, l0. rewrite P7, B1, app_assoc. auto.
  - injection Hp as _ <-. congruence.
Qed.

End Trace2.

Section Trace3.
Context {CC : Type} (cci : cc_iface CC).
Hypothesis Hcc : cc_total cci.
Variables ti tm : Z.
Notation vsock := (vsock CC).

Lemma emits_in : forall (s3 : vsock) r p l l0 w a,
  v_out s3 = l ++ p :: l0 -> ch_type (p_hdr p) = ST_DATA -> 1 <= Z.of_nat (length (p_payload p)) ->
  emits (FrPoll r (map fpacket_of (rev (v_out s3))) w a)
        (fun q => match ch_type (fq_hdr q) with ST_DATA => 1 <=? fq_plen q | _ => false end) = true.
Proof.
  intros s3 r p l l0 w a H H0 H1. cbn [emits]. apply existsb_exists. exists (fpacket_of p). split.
  - apply in_map. rewrite <- in_rev. rewrite H. apply in_or_app. right. left. reflexivity.
  - cbn [fpacket_of fq_hdr fq_plen]. rewrite H0. apply Z.leb_le. exact H1.
Qed.

Lemma fstep_of_write_dropped : forall (s : vsock) buf,
  writer_dropped (v_tx s) = true -> fs_result (fstep_of cci s (VoWrite buf)) = FrNone.
Proof. intros s buf H. unfold fstep_of. cbn [vstep]. rewrite H. reflexivity. Qed.

Lemma fstep_of_write : forall (s : vsock) buf tx1 r w,
  writer_dropped (v_tx s) = false -> poll_write (v_tx s) buf = (tx1, r, w) ->
  fs_result (fstep_of cci s (VoWrite buf)) = FrWrite r /\
  fs_now (fstep_of cci s (VoWrite buf)) = v_env_now s /\
  vstep_state cci s (VoWrite buf) = set_tx s tx1.
Proof.
  intros s buf tx1 r w H E. unfold fstep_of, vstep_state. cbn [vstep]. rewrite H, E. repeat split.
Qed.

Lemma prompt_write_check : forall cfg (s : vsock) a o0 o1 o2,
  PI ti tm s a -> op_clock_ok o0 -> op_clock_ok o1 ->
  poll_finished (vstep_out cci s o0) = false ->
  poll_finished (vstep_out cci (vstep_state cci s o0) o1) = false ->
  (if prompt_window cfg (c10_acc_next a (fstep_of cci s o0)) (fstep_of cci s o0)
        (fstep_of cci (vstep_state cci s o0) o1)
        (fstep_of cci (vstep_state cci (vstep_state cci s o0) o1) o2) &&
      idle_seq_ok (fs_pre (fstep_of cci (vstep_state cci s o0) o1)) &&
      no_imm_ack (fs_pre (fstep_of cci (vstep_state cci s o0) o1))
   then match fs_event (fstep_of cci (vstep_state cci s o0) o1),
              fs_result (fstep_of cci (vstep_state cci s o0) o1) with
        | FeWrite _, FrWrite (WrOk n) =>
            if can_send_new (fs_now (fstep_of cci (vstep_state cci s o0) o1)) n
                            (fs_pre (fstep_of cci (vstep_state cci s o0) o1))
            then emits_data (fstep_of cci (vstep_state cci (vstep_state cci s o0) o1) o2) else true
        | _, _ => true
        end
   else true) = true.
Proof.
  intros cfg s a o0 o1 o2 HP Ho0 Ho1 Hl0 Hl1.
  pose proof (PI_step cci Hcc ti tm s a o0 HP Ho0 Hl0) as HP1.
  remember (vstep_state cci s o0) as s1 eqn:Es1. remember (c10_acc_next a (fstep_of cci s o0)) as a1 eqn:Ea1.
  pose proof (PI_step cci Hcc ti tm s1 a1 o1 HP1 Ho1 Hl1) as HP2.
  remember (vstep_state cci s1 o1) as s2 eqn:Es2.
  match goal with |- (if ?g then _ else _) = true => destruct g eqn:G end; [|reflexivity].
  apply andb_true_iff in G. destruct G as [G Gack]. apply andb_true_iff in G. destruct G as [G Gseq].
  unfold prompt_window in G. repeat (apply andb_true_iff in G; destruct G as [G ?]).
  rename H into Glim, H0 into Gnow, H1 into Gplain. rename G into Gpark.
  rewrite fstep_of_pre in *.
  destruct o1; try (rewrite fstep_of_event; reflexivity).
  (* the write *)
  rewrite fstep_of_event. cbn [fevent_of].
  destruct (writer_dropped (v_tx s1)) eqn:Ewd.
  { rewrite (fstep_of_write_dropped s1 buf Ewd). reflexivity. }
  destruct (poll_write (v_tx s1) buf) as [[tx1 wr] w] eqn:Ew.
  destruct (fstep_of_write s1 buf tx1 wr w Ewd Ew) as (W1 & W2 & W3).
  rewrite W1, W2. rewrite W3 in Es2. subst s2.
  destruct wr as [n| | | |]; try reflexivity.
  destruct (can_send_new (v_env_now s1) n (fp_of_vsock cci s1)) eqn:Cs; [|reflexivity].
  (* st0 is a Pending poll *)
  unfold parked_idle in Gpark.
  destruct o0; try (rewrite fstep_of_event in Gpark; discriminate Gpark).
  destruct (poll cci (VSockRec.set_sends s script)) as [s1' r0] eqn:E0.
  destruct (vstep_poll cci s script s1' r0 E0) as [V1 _]. rewrite V1 in Es1. subst s1'.
  rewrite (fstep_of_poll cci s script s1 r0 E0) in Gpark. cbn [fs_event fs_result fs_post] in Gpark.
  destruct r0; try discriminate Gpark.
  unfold idle_established, is_established, tx_idle in Gpark.
  apply andb_true_iff in Gpark; destruct Gpark as [Gpark Gw].
  apply andb_true_iff in Gpark; destruct Gpark as [Gpark Gtp].
  apply andb_true_iff in Gpark; destruct Gpark as [Gest Gidle].
  apply andb_true_iff in Gidle; destruct Gidle as [Glen Gsegs].
  cbn [fp_of_vsock f_state f_tx_len f_segs f_transport_pending] in *.
  assert (Est : v_state s1 = Established) by (destruct (v_state s1); try discriminate; reflexivity).
  assert (Hring : ring (v_tx s1) = []).
  { apply Z.eqb_eq in Glen. destruct (ring (v_tx s1)); [reflexivity|cbn [length] in Glen; lia]. }
  assert (Es : ss_segs (v_segs s1) = []) by (destruct (ss_segs (v_segs s1)); [reflexivity|discriminate]).
  apply negb_true_iff in Gtp.
  assert (Hibe : IBE s1).
  { destruct (poll_pending_ibe cci _ _ E0 Gtp) as [K|K]; [|exact K].
    unfold SC in K. rewrite Est in K. discriminate. }
  (* st2 is a plain poll *)
  unfold plain_poll in Gplain.
  destruct o2; try (rewrite fstep_of_event in Gplain; discriminate Gplain).
  rewrite fstep_of_event in Gplain. cbn [fevent_of] in Gplain.
  destruct script0; [|discriminate Gplain].
  destruct (poll cci (VSockRec.set_sends (set_tx s1 tx1) [])) as [s3 r] eqn:E2.
  unfold emits_data. rewrite (fstep_of_poll cci _ [] s3 r E2). cbn [fs_result].
  (* the guards *)
  unfold can_send_new in Cs. repeat (apply andb_true_iff in Cs; destruct Cs as [Cs ?]).
  cbn [fp_of_vsock f_last_remote_window f_max_ss f_cc_window f_rto_retx f_recovery f_t_retransmit f_t_inactivity] in *.
  unfold idle_seq_ok in Gseq. apply andb_true_iff in Gseq. destruct Gseq as [Gs1 Gs2].
  unfold no_imm_ack in Gack.
  cbn [fp_of_vsock f_last_sent_seq_nr f_snd_una f_cbu f_mss] in *.
  destruct HP1 as (T1 & L1 & M1). destruct HP2 as (T2 & _ & _).
  destruct (prompt_write_poll cci Hcc ti tm s1 tx1 n w buf s3 r T1 T2 Hibe Est Es Hring Ew) as (l & p & l0 & Q1 & Q2 & Q3);
    try assumption.
  - apply Z.leb_le in Cs. lia.
  - apply Z.leb_le. assumption.
  - apply Z.eqb_eq. assumption.
  - unfold is_recovering. destruct (rv_phase (v_recovery s1)); [reflexivity|reflexivity|discriminate].
  - apply negb_true_iff. assumption.
  - apply negb_true_iff. assumption.
  - apply Z.ltb_lt. exact Gack.
  - apply Z.leb_le. exact Gs1.
  - apply Z.leb_le. exact Gs2.
  - intros m Hm. rewrite L1, Hm in Glim. apply Z.leb_le in Glim.
    cbn [fp_of_vsock f_max_ss] in Glim. change (v_ss (set_tx s1 tx1)) with (v_ss s1) in Glim.
    unfold UTP_HEADER in Glim. exact Glim.
  - eapply emits_in; eassumption.
Qed.

Theorem c02_prompt_write_from_trace : forall cfg ops (s : vsock) a,
  PI ti tm s a -> Forall op_clock_ok ops -> c02_prompt_write_from cfg a (ftrace cci s ops) = true.
Proof.
  intros cfg. induction ops as [|o0 rest IH]; intros s a HP Hoc; [reflexivity|].
  inversion Hoc as [|? ? Ho0 Hrest]; subst.
  rewrite ftrace_cons'.
  destruct (poll_finished (vstep_out cci s o0)) eqn:F0; [reflexivity|].
  pose proof (PI_step cci Hcc ti tm s a o0 HP Ho0 F0) as HP1.
  specialize (IH (vstep_state cci s o0) (c10_acc_next a (fstep_of cci s o0)) HP1 Hrest).
  destruct rest as [|o1 rest1]; [reflexivity|].
  inversion Hrest as [|? ? Ho1 Hrest1]; subst.
  rewrite ftrace_cons' in *.
  destruct (poll_finished (vstep_out cci (vstep_state cci s o0) o1)) eqn:F1; [reflexivity|].
  destruct rest1 as [|o2 rest2]; [reflexivity|].
  rewrite ftrace_cons' in *.
  cbn [c02_prompt_write_from] in *.
  apply andb_true_iff. split; [|exact IH].
  apply prompt_write_check; assumption.
Qed.

End Trace3.

Section FromNew2.
Context {CC : Type} (cci : cc_iface CC).
Hypothesis Hcc : cc_total cci.

(* the write half of c02_prompt (with the guards idle_seq_ok / no_imm_ack) on every model trace from a
   fresh connection with a valid configuration and max_segment_retransmissions >= 1 *)
Theorem c02_prompt_write_g_trace : forall cfg (mk : Z -> Z -> CC) c (s0 : vsock CC) ops,
  vconfig_ok c = true -> 1 <= vc_max_retx c -> Forall op_clock_ok ops ->
  vsock_new cci mk c = Some s0 -> c02_prompt_write_g cfg (ftrace cci s0 ops) = true.
Proof.
  intros cfg mk c s0 ops Hok Hmr Hoc H0.
  destruct (vsock_new_x cci mk c Hok) as (s0' & E & Ht & Hl).
  rewrite H0 in E. injection E as <-.
  unfold c02_prompt_write_g. apply (c02_prompt_write_from_trace cci Hcc (vc_tx_init c) (vc_tx_max c)); [|exact Hoc].
  split; [exact Ht|]. split; [rewrite Hl; reflexivity|].
  unfold vsock_new in H0.
  destruct (match (if vc_incoming c then None else _) with Some r => _ | None => _ end); [|discriminate].
  injection H0 as <-. cbn [v_opts o_max_retx]. lia.
Qed.

End FromNew2.
