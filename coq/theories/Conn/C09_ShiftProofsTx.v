(* C09 trace shift, layer 2: the sending side of the connection model (control packets, FIN, data
   packets, the loops of send_tx_queue, split_tx_queue_into_segments) commutes with the relabelling.
   Where a function has a guard, the same walk also shows that the relabelled state is inside the
   guard again (the conjunct `g_f ... (shift_vsock s) = true`). *)
From Utp Require Import Base.Prelude Wire.SeqNr Wire.SeqNr_Proofs Wire.Header Rtt.Rtte Mtu.SegSizes Rx.Rx Tx.Ring
  Tx.Segments Conn.Recovery Conn.Msg Conn.VSockRec Conn.VSock Conn.VSockRun Conn.VObs Conn.C09_Pred
  Conn.C09_Shift Conn.C09_ShiftProofsSeq Conn.C09_ShiftProofsSeg Conn.C09_ShiftProofsRec.

Section Tx.
Variables da db dc : Z.
Context {CC : Type} (cci : cc_iface CC).
Notation vsock := (vsock CC).
Notation sh := (shift_vsock da db dc (CC:=CC)).
Notation so := (shift_out_hdr da db dc).
Notation si := (shift_in_hdr da db).
Notation sst := (shift_step da db dc (CC:=CC)).

Definition idf {A} (x : A) : A := x.

(* a relabelled state chosen by a test that does not depend on the labelling *)
Lemma sh_if (b : bool) (x y : vsock) : (if b then sh x else sh y) = sh (if b then x else y).
Proof. now destruct b. Qed.

Lemma timestamp_shift (s : vsock) : timestamp_microseconds (sh s) = timestamp_microseconds s.
Proof. reflexivity. Qed.

Lemma rx_window_shift (s : vsock) : rx_window (sh s) = rx_window s.
Proof. reflexivity. Qed.

Lemma outgoing_header_shift (s : vsock) : outgoing_header (sh s) = so (outgoing_header s).
Proof. reflexivity. Qed.

Lemma hdr_with_shift h t q sk : hdr_with (so h) t (sh16 da q) sk = so (hdr_with h t q sk).
Proof. reflexivity. Qed.

Lemma on_packet_sent_shift (s : vsock) h : on_packet_sent (sh s) (so h) = sh (on_packet_sent s h).
Proof. reflexivity. Qed.

Lemma emit_shift (s : vsock) p : emit (sh s) (shift_packet da db dc p) = sh (emit s p).
Proof. reflexivity. Qed.

Lemma add_wakes_shift (s : vsock) w : add_wakes (sh s) w = sh (add_wakes s w).
Proof. reflexivity. Qed.

Lemma restart_inactivity_shift (s : vsock) :
  restart_remote_inactivity_timer (sh s) = sh (restart_remote_inactivity_timer s).
Proof. reflexivity. Qed.

Lemma force_immediate_ack_shift (s : vsock) : force_immediate_ack (sh s) = sh (force_immediate_ack s).
Proof. reflexivity. Qed.

Lemma immediate_ack_shift (s : vsock) : immediate_ack_to_transmit (sh s) = immediate_ack_to_transmit s.
Proof. reflexivity. Qed.

Lemma is_remote_fin_shift st : is_remote_fin_or_later (shift_state da db st) = is_remote_fin_or_later st.
Proof. destruct st; reflexivity. Qed.
Lemma is_local_fin_shift st : is_local_fin_or_later (shift_state da db st) = is_local_fin_or_later st.
Proof. destruct st; reflexivity. Qed.
Lemma state_is_closed_shift st w : state_is_closed (shift_state da db st) w = state_is_closed st w.
Proof. destruct st; reflexivity. Qed.
Lemma our_fin_shift st :
  our_fin_if_unacked (shift_state da db st) =
  match our_fin_if_unacked st with Some f => Some (sh16 da f) | None => None end.
Proof. destruct st; reflexivity. Qed.

Lemma should_send_window_update_shift (s : vsock) :
  should_send_window_update (sh s) = should_send_window_update s.
Proof.
  unfold should_send_window_update. shproj. rewrite is_remote_fin_shift. reflexivity.
Qed.

Lemma next_send_shift (s : vsock) n :
  next_send (sh s) n = (sh (fst (next_send s n)), snd (next_send s n)).
Proof.
  unfold next_send. shproj.
  destruct (v_sends s) as [|o r]; [|destruct o]; destruct (v_emsg_limit s) as [m|];
    try destruct (m <? n); reflexivity.
Qed.

Lemma send_control_packet_shift (s : vsock) h :
  send_control_packet (sh s) (so h) = sst idf (send_control_packet s h).
Proof.
  unfold send_control_packet. shproj.
  destruct (v_transport_pending s); [reflexivity|].
  change (fit_sack (sh s) (ch_sack (so h))) with (fit_sack s (ch_sack h)).
  change (hdr_with (so h) (ch_type (so h)) (ch_seq (so h)) (fit_sack s (ch_sack h)))
    with (so (hdr_with h (ch_type h) (ch_seq h) (fit_sack s (ch_sack h)))).
  set (hw := hdr_with h (ch_type h) (ch_seq h) (fit_sack s (ch_sack h))).
  change (ch_sack (so hw)) with (ch_sack hw).
  rewrite next_send_shift.
  destruct (next_send s _) as [s1 o]. cbn [fst snd]. destruct o; reflexivity.
Qed.

Lemma send_ack_shift (s : vsock) : send_ack (sh s) = sst idf (send_ack s).
Proof.
  unfold send_ack. rewrite outgoing_header_shift. shproj.
  exact (send_control_packet_shift s (hdr_with (outgoing_header s) ST_STATE (ch_seq (outgoing_header s)) (sack_of_rx (v_rx s)))).
Qed.

(* sbind under the relabelling *)
Lemma sbind_shift {A B} (fa : A -> A) (fb : B -> B) (m m' : step (CC:=CC) A) k k' :
  m' = sst fa m ->
  (forall s a, m = SOk s a -> k' (sh s) (fa a) = sst fb (k s a)) ->
  sbind m' k' = sst fb (sbind m k).
Proof.
  intros -> H. destruct m as [s a|s e|]; cbn [sbind shift_step]; [now apply H|reflexivity|reflexivity].
Qed.

Lemma maybe_send_fin_shift (s : vsock) : g_maybe_send_fin s = true ->
  maybe_send_fin (sh s) = sst idf (maybe_send_fin s).
Proof.
  unfold g_maybe_send_fin, maybe_send_fin. intros G.
  shproj. destruct (v_transport_pending s); [reflexivity|].
  rewrite our_fin_shift.
  destruct (our_fin_if_unacked (v_state s)) as [q|]; [|reflexivity].
  rewrite (cmp_ok_seq_sub da _ _ G).
  destruct (negb (seq_sub q (v_last_sent_seq_nr s) =? 1)); [reflexivity|].
  rewrite outgoing_header_shift, hdr_with_shift.
  apply (sbind_shift idf idf). { apply send_control_packet_shift. }
  intros s1 sent _. unfold idf. destruct sent; reflexivity.
Qed.

Lemma g_maybe_send_fin_shift (s : vsock) : g_maybe_send_fin s = true -> g_maybe_send_fin (sh s) = true.
Proof.
  unfold g_maybe_send_fin. shproj. rewrite our_fin_shift. shproj.
  destruct (our_fin_if_unacked (v_state s)); [apply cmp_ok_shift|reflexivity].
Qed.

Lemma next_send_keeps (s : vsock) n :
  v_last_sent_seq_nr (fst (next_send s n)) = v_last_sent_seq_nr s /\
  v_seq_nr (fst (next_send s n)) = v_seq_nr s.
Proof.
  unfold next_send. destruct (v_sends s) as [|o r]; [|destruct o]; destruct (v_emsg_limit s) as [m|];
    try destruct (m <? n); split; reflexivity.
Qed.

Lemma send_data_shift (s : vsock) h f : g_send_data s f = true ->
  send_data (sh s) (so h) (shift_fs da f) = sst idf (send_data s h f).
Proof.
  unfold g_send_data. intros G. apply andb_true_iff in G as [G1 G2].
  unfold send_data.
  cbn [shift_fs fs_seg fs_seq fs_idx fs_payload_offset].
  rewrite timestamp_shift. shproj.
  destruct (seg_retransmit_count (fs_seg f) =? o_max_retx (v_opts s)); [reflexivity|].
  destruct (fs_payload_offset f <? 0); [reflexivity|].
  destruct (Z.of_nat (length (ring (v_tx s))) <? fs_payload_offset f); [reflexivity|].
  destruct (Z.of_nat (length (ring (v_tx s))) <? fs_payload_offset f + sg_size (fs_seg f)); [reflexivity|].
  rewrite next_send_shift.
  destruct (next_send_keeps s (20 + sg_size (fs_seg f))) as [L1 L2].
  destruct (next_send s _) as [s1 o]. cbn [fst snd] in *.
  destruct o; try reflexivity.
  set (hd := {| ch_type := ST_DATA; ch_conn_id := ch_conn_id h; ch_ts := timestamp_microseconds s;
                ch_ts_diff := (timestamp_microseconds s - v_last_remote_timestamp s) mod M32;
                ch_wnd := ch_wnd h; ch_seq := fs_seq f; ch_ack := ch_ack h; ch_sack := None;
                ch_close_reason := None |}).
  set (pl := firstn _ (skipn _ (ring (v_tx s)))).
  change {| ch_type := ST_DATA; ch_conn_id := ch_conn_id (so h); ch_ts := timestamp_microseconds s;
            ch_ts_diff := (timestamp_microseconds s - v_last_remote_timestamp s) mod M32;
            ch_wnd := ch_wnd (so h); ch_seq := sh16 da (fs_seq f); ch_ack := ch_ack (so h);
            ch_sack := None; ch_close_reason := None |} with (so hd).
  change (emit (sh s1) {| p_hdr := so hd; p_payload := pl |}) with (sh (emit s1 {| p_hdr := hd; p_payload := pl |})).
  set (s2 := emit s1 _).
  change (set_segs (sh s2) (on_sent (v_segs (sh s2)) (fs_idx f) (v_now (sh s2))))
    with (sh (set_segs s2 (on_sent (v_segs s2) (fs_idx f) (v_now s2)))).
  set (s3 := set_segs s2 _).
  change (on_packet_sent (sh s3) (so hd)) with (sh (on_packet_sent s3 hd)).
  set (s4 := on_packet_sent s3 hd).
  assert (E1 : v_last_sent_seq_nr s4 = v_last_sent_seq_nr s) by (rewrite <- L1; reflexivity).
  assert (E2 : v_seq_nr (set_last_sent_seq_nr s4 (fs_seq f)) = v_seq_nr s) by (rewrite <- L2; reflexivity).
  cbv zeta.
  change (v_seq_nr (set_last_sent_seq_nr (sh s4) (sh16 da (fs_seq f))))
    with (sh16 da (v_seq_nr (set_last_sent_seq_nr s4 (fs_seq f)))).
  shproj. rewrite E1, E2, sh16_wadd16, (cmp_ok_seq_gt da _ _ G1), (cmp_ok_seq_gt da _ _ G2).
  destruct (seq_gt (fs_seq f) (v_last_sent_seq_nr s)); [|reflexivity].
  destruct (seq_gt (wadd16 (fs_seq f) 1) (v_seq_nr s)); reflexivity.
Qed.

Lemma g_send_data_shift (s : vsock) f : g_send_data s f = true -> g_send_data (sh s) (shift_fs da f) = true.
Proof.
  unfold g_send_data. intros G. apply andb_true_iff in G as [G1 G2].
  cbn [shift_fs fs_seq]. shproj. rewrite sh16_wadd16.
  now rewrite (cmp_ok_shift da _ _ G1), (cmp_ok_shift da _ _ G2).
Qed.

Definition shift_opt_vsock (o : option vsock) : option vsock :=
  match o with Some s => Some (sh s) | None => None end.

Lemma on_rto_reactions_shift (s : vsock) :
  on_rto_reactions cci (sh s) = shift_opt_vsock (on_rto_reactions cci s).
Proof.
  unfold on_rto_reactions. shproj. destruct (on_rto_timeout (v_rtte s)) as [rt|]; [|reflexivity].
  rewrite recovery_on_rto_shift. reflexivity.
Qed.

Definition shift_rlres (r : rec_loop_st * bool) : rec_loop_st * bool := (shift_rl da (fst r), snd r).

Lemma recovery_loop_shift h mss0 : forall items (s : vsock) st,
  g_recovery_loop items s h mss0 st = true ->
  recovery_loop (map (shift_fs da) items) (sh s) (so h) mss0 (shift_rl da st) =
  sst shift_rlres (recovery_loop items s h mss0 st) /\
  g_recovery_loop (map (shift_fs da) items) (sh s) (so h) mss0 (shift_rl da st) = true.
Proof.
  induction items as [|f rest IH]; intros s st G; [now split|].
  cbn [map recovery_loop g_recovery_loop] in *.
  cbn [shift_rl rl_total rl_cwnd rl_pipe rl_sent rl_high_rxt].
  change (fs_seg (shift_fs da f)) with (fs_seg f).
  destruct (negb ((rl_total st =? 0) || (mss0 <? rl_cwnd st))); [now split|].
  destruct ((0 <? rl_total st) && negb (sg_lost (fs_seg f))); [now apply IH|].
  destruct ((0 <? rl_total st) && negb (sg_sacks_after (fs_seg f))); [now split|].
  apply andb_true_iff in G as [G1 G2].
  rewrite (g_send_data_shift s f G1), (send_data_shift s h f G1). cbn [andb].
  destruct (send_data s h f) as [s1 r|s1 e|]; [|now split|now split].
  cbn [shift_step]. unfold idf. destruct r; try now split.
  exact (IH s1 _ G2).
Qed.

Lemma new_data_loop_shift h : forall items (s : vsock) remaining,
  g_new_data_loop items s h remaining = true ->
  new_data_loop (map (shift_fs da) items) (sh s) (so h) remaining =
  sst (fun o => match o with Some (q, sz) => Some (sh16 da q, sz) | None => None end)
      (new_data_loop items s h remaining) /\
  g_new_data_loop (map (shift_fs da) items) (sh s) (so h) remaining = true.
Proof.
  induction items as [|f rest IH]; intros s remaining G; [now split|].
  cbn [map new_data_loop g_new_data_loop] in *.
  change (fs_seg (shift_fs da f)) with (fs_seg f).
  destruct (remaining <? sg_size (fs_seg f)); [now split|].
  apply andb_true_iff in G as [G1 G2].
  rewrite (g_send_data_shift s f G1), (send_data_shift s h f G1). cbn [andb].
  destruct (send_data s h f) as [s1 r|s1 e|]; [|now split|now split].
  cbn [shift_step]. unfold idf. destruct r; try now split.
  exact (IH s1 _ G2).
Qed.

Lemma stq_after_rto_shift (s : vsock) : g_stq_after_rto s = true ->
  stq_after_rto cci (sh s) = sst idf (stq_after_rto cci s) /\ g_stq_after_rto (sh s) = true.
Proof.
  unfold g_stq_after_rto, stq_after_rto. intros G.
  shproj. destruct (timer_expired (v_t_retransmit s) (v_now s)); [|now split].
  rewrite iter_for_sending_shift_none.
  destruct (iter_for_sending (v_segs s) None) as [|f l]; cbn [map].
  - rewrite our_fin_shift.
    destruct (our_fin_if_unacked (v_state s)) as [fin|]; [|now split].
    apply andb_true_iff in G as [G1 G2]. apply andb_true_iff in G1 as [Ga Gb].
    rewrite eq_ok_shift, (sh16_eqb da _ _ Ga Gb). cbn [andb].
    destruct (v_last_sent_seq_nr s =? fin); [|now split].
    rewrite sh16_wsub16, st_last_sent_seq_nr. split; [|now apply g_maybe_send_fin_shift].
    apply (sbind_shift idf idf). { now apply maybe_send_fin_shift. }
    intros s2 sent _. unfold idf. destruct sent; [|reflexivity].
    rewrite on_rto_reactions_shift. destruct (on_rto_reactions cci s2); reflexivity.
  - rewrite (g_send_data_shift s f G). split; [|reflexivity].
    rewrite outgoing_header_shift, (send_data_shift s _ f G).
    destruct (send_data s (outgoing_header s) f) as [s1 r|s1 e|]; [|reflexivity|reflexivity].
    cbn [shift_step]. unfold idf. destruct r; try reflexivity.
    cbn [shift_fs fs_seg fs_seq].
    destruct (negb (sg_probe (fs_seg f))); [|reflexivity].
    rewrite on_rto_reactions_shift. destruct (on_rto_reactions cci s1); reflexivity.
Qed.

Lemma take_while_map {A B} (f : A -> B) (P' : B -> bool) (P : A -> bool) l :
  (forall x, In x l -> P' (f x) = P x) ->
  take_while P' (map f l) = map f (take_while P l).
Proof.
  induction l as [|x r IH]; intros H; [reflexivity|].
  cbn [map take_while]. rewrite (H x (or_introl eq_refl)).
  destruct (P x); [|reflexivity]. cbn [map]. rewrite IH; [reflexivity|].
  intros y Hy. apply H. now right.
Qed.

Lemma skip_while_map {A B} (f : A -> B) (P' : B -> bool) (P : A -> bool) l :
  (forall x, In x l -> P' (f x) = P x) ->
  skip_while P' (map f l) = map f (skip_while P l).
Proof.
  induction l as [|x r IH]; intros H; [reflexivity|].
  cbn [map skip_while]. rewrite (H x (or_introl eq_refl)).
  destruct (P x); [|reflexivity]. apply IH. intros y Hy. apply H. now right.
Qed.

Lemma skip_while_incl {A} (P : A -> bool) l x : In x (skip_while P l) -> In x l.
Proof.
  induction l as [|y r IH]; [easy|]. cbn [skip_while]. destruct (P y); [|easy].
  intros H. right. now apply IH.
Qed.

Lemma stq_rec_items_shift (s : vsock) rc : g_stq_rec_items s rc = true ->
  stq_rec_items (sh s) (shift_recovering da rc) = map (shift_fs da) (stq_rec_items s rc).
Proof.
  unfold g_stq_rec_items, stq_rec_items. intros G.
  shproj. rewrite iter_for_sending_shift_none.
  cbn [shift_segments ss_sack_depth shift_recovering rc_recovery_point rc_high_rxt].
  rewrite firstn_map.
  set (l := firstn _ (iter_for_sending (v_segs s) None)) in *.
  rewrite forallb_forall in G.
  rewrite (skip_while_map (shift_fs da) _ (fun f => seq_le (fs_seq f) (rc_high_rxt rc))).
  2:{ intros x Hx. apply G in Hx. apply andb_true_iff in Hx as [H1 _].
      cbn [shift_fs fs_seq]. now apply cmp_ok_seq_le. }
  apply take_while_map. intros x Hx. apply skip_while_incl in Hx. apply G in Hx.
  apply andb_true_iff in Hx as [_ H2]. cbn [shift_fs fs_seq]. now apply cmp_ok_seq_le.
Qed.

Lemma g_stq_rec_items_shift (s : vsock) rc : g_stq_rec_items s rc = true ->
  g_stq_rec_items (sh s) (shift_recovering da rc) = true.
Proof.
  unfold g_stq_rec_items. shproj. rewrite iter_for_sending_shift_none.
  cbn [shift_segments ss_sack_depth shift_recovering rc_recovery_point rc_high_rxt].
  rewrite firstn_map, !forallb_forall. intros G x Hx.
  apply in_map_iff in Hx as (y & <- & Hy). apply G in Hy. apply andb_true_iff in Hy as [H1 H2].
  cbn [shift_fs fs_seq]. now rewrite (cmp_ok_shift da _ _ H1), (cmp_ok_shift da _ _ H2).
Qed.

Lemma stq_rec_finish_shift (s : vsock) rc (s1 : vsock) res : g_stq_rec_finish res = true ->
  stq_rec_finish (sh s) (shift_recovering da rc) (sh s1) (shift_rlres res) =
  sst idf (stq_rec_finish s rc s1 res).
Proof.
  unfold g_stq_rec_finish, stq_rec_finish. intros G. destruct res as [st early].
  cbn [fst snd shift_rlres] in *. cbv zeta.
  cbn [shift_rl rl_high_rxt rl_total rl_pipe rl_cwnd rl_sent shift_recovering rc_recovery_point
       rc_high_rxt rc_total_retx rc_pipe rc_recalc rc_cwnd].
  shproj.
  change (set_recovering (sh s1)
            {| rc_recovery_point := sh16 da (rc_recovery_point rc); rc_high_rxt := sh16 da (rl_high_rxt st);
               rc_total_retx := rl_total st; rc_pipe := rl_pipe st; rc_recalc := rc_recalc rc;
               rc_cwnd := rc_cwnd rc |})
    with (sh (set_recovering s1
            {| rc_recovery_point := rc_recovery_point rc; rc_high_rxt := rl_high_rxt st;
               rc_total_retx := rl_total st; rc_pipe := rl_pipe st; rc_recalc := rc_recalc rc;
               rc_cwnd := rc_cwnd rc |})).
  set (s2 := set_recovering s1 _).
  destruct early; [reflexivity|].
  set (s3' := if rl_cwnd st <? mss (v_ss s) then _ else sh s2).
  set (s3 := if rl_cwnd st <? mss (v_ss s) then _ else s2).
  assert (E : s3' = sh s3).
  { unfold s3', s3. destruct (rl_cwnd st <? mss (v_ss s)); [|reflexivity].
    destruct (rc_recalc rc); [reflexivity|]. destruct (0 <? rl_sent st); reflexivity. }
  rewrite E. clear E s3'.
  shproj. rewrite our_fin_shift.
  destruct (our_fin_if_unacked (v_state s3)) as [fin|]; [|reflexivity].
  rewrite sh16_wsub16, (sh16_eqb da _ _ G (u16_ok_wsub16 _ _)).
  destruct (rl_high_rxt st =? wsub16 fin 1); reflexivity.
Qed.

(* a bind whose continuation is guarded: the relabelled run commutes and stays inside the guard *)
Lemma sbind_shift_g {A B} (fa : A -> A) (fb : B -> B) (m m' : step (CC:=CC) A) k k'
    (gk gk' : vsock -> A -> bool) :
  m' = sst fa m -> gstep m gk = true ->
  (forall s a, gk s a = true -> k' (sh s) (fa a) = sst fb (k s a) /\ gk' (sh s) (fa a) = true) ->
  sbind m' k' = sst fb (sbind m k) /\ gstep m' gk' = true.
Proof.
  intros -> G H. destruct m as [s a|s e|]; cbn [sbind shift_step gstep] in *;
    [now apply H|now split|now split].
Qed.

Lemma sbind_assoc {A B C} (m : step (CC:=CC) A) (k1 : vsock -> A -> step B) (k2 : vsock -> B -> step C) :
  sbind (sbind m k1) k2 = sbind m (fun s a => sbind (k1 s a) k2).
Proof. destruct m; reflexivity. Qed.

Lemma stq_remaining_shift (s : vsock) :
  match remaining_cwnd (v_recovery s) (v_last_remote_window s) with
  | Some _ => true
  | None => g_calc_flight_size (v_segs s) (v_last_sent_seq_nr s)
  end = true ->
  stq_remaining cci (sh s) = stq_remaining cci s.
Proof.
  unfold stq_remaining. intros G.
  shproj. rewrite remaining_cwnd_shift.
  destruct (remaining_cwnd (v_recovery s) (v_last_remote_window s)); [reflexivity|].
  now rewrite calc_flight_size_shift.
Qed.

Lemma iter_for_sending_u16 t st f : In f (iter_for_sending t st) -> u16_ok (fs_seq f) = true.
Proof.
  unfold iter_for_sending. intros H. apply filter_In in H as [H _].
  apply in_map_iff in H as [[i g] [<- _]]. cbn [fs_seq]. apply u16_ok_wadd16.
Qed.

Lemma new_data_loop_too_long h : forall items (s : vsock) remaining s1 q sz,
  new_data_loop items s h remaining = SOk s1 (Some (q, sz)) ->
  exists f, In f items /\ q = fs_seq f.
Proof.
  induction items as [|f rest IH]; intros s remaining s1 q sz H; cbn [new_data_loop] in H; [discriminate|].
  destruct (remaining <? sg_size (fs_seg f)); [discriminate|].
  destruct (send_data s h f) as [s2 r|s2 e|]; [|discriminate|discriminate].
  destruct r.
  - apply IH in H as (g & Hg & ->). exists g. split; [now right|reflexivity].
  - discriminate.
  - injection H as _ <- _. exists f. split; [now left|reflexivity].
Qed.

Lemma stq_new_data_shift h (s : vsock) : g_stq_new_data cci h s = true ->
  stq_new_data cci (so h) (sh s) = sst idf (stq_new_data cci h s) /\
  g_stq_new_data cci (so h) (sh s) = true.
Proof.
  unfold g_stq_new_data, stq_new_data. intros G.
  apply andb_true_iff in G as [G G3]. apply andb_true_iff in G as [G1 G2].
  rewrite (stq_remaining_shift s G1). shproj. rewrite remaining_cwnd_shift, sh16_wadd16.
  change (Some (sh16 da (wadd16 (v_last_sent_seq_nr s) 1)))
    with (shift_start da (Some (wadd16 (v_last_sent_seq_nr s) 1))).
  rewrite (iter_for_sending_shift da _ _ G2), (g_iter_for_sending_shift da _ _ G2).
  destruct (new_data_loop_shift h _ s _ G3) as [EL ->]. split.
  - eapply sbind_shift. { exact EL. }
    intros s1 too_long Hm. destruct too_long as [[q sz]|]; [|reflexivity].
    apply new_data_loop_too_long in Hm as (f & Hf & ->). apply iter_for_sending_u16 in Hf.
    shproj. rewrite (pop_mtu_probe_shift da _ _ Hf).
    destruct (pop_mtu_probe (v_segs s1) (fs_seq f)) as [segs' popped]. cbn [fst snd].
    destruct popped; reflexivity.
  - destruct (remaining_cwnd (v_recovery s) (v_last_remote_window s)); [reflexivity|].
    now rewrite g_calc_flight_size_shift.
Qed.

Lemma stq_tail2_shift h (s : vsock) ret : g_stq_tail2 cci h s ret = true ->
  stq_tail2 cci (so h) (sh s) (idf ret) = sst idf (stq_tail2 cci h s ret) /\
  g_stq_tail2 cci (so h) (sh s) (idf ret) = true.
Proof.
  unfold g_stq_tail2, stq_tail2, idf. destruct ret; [now split|]. apply stq_new_data_shift.
Qed.

Lemma stq_tail1_shift h (s : vsock) ret : g_stq_tail1 cci h s ret = true ->
  stq_tail1 cci (so h) (sh s) (idf ret) = sst idf (stq_tail1 cci h s ret) /\
  g_stq_tail1 cci (so h) (sh s) (idf ret) = true.
Proof.
  unfold g_stq_tail1, stq_tail1, idf. intros G. destruct ret; [now split|].
  shproj. destruct (0 <? v_rto_retransmissions s); [now split|].
  cbn [shift_segments ss_segs].
  destruct (ss_segs (v_segs s)) as [|x l]; [now split|].
  cbn [shift_recovery rv_phase].
  destruct (rv_phase (v_recovery s)) as [rp|d|rc]; cbn [shift_rphase];
    [exact (stq_tail2_shift h s false G)|exact (stq_tail2_shift h s false G)|].
  apply andb_true_iff in G as [G G3]. apply andb_true_iff in G as [G1 G2].
  change {| rc_recovery_point := sh16 da (rc_recovery_point rc); rc_high_rxt := sh16 da (rc_high_rxt rc);
            rc_total_retx := rc_total_retx rc; rc_pipe := rc_pipe rc; rc_recalc := rc_recalc rc;
            rc_cwnd := rc_cwnd rc |} with (shift_recovering da rc).
  rewrite (g_stq_rec_items_shift s rc G1), (stq_rec_items_shift s rc G1). shproj.
  change (stq_rec_st0 (shift_recovering da rc)) with (shift_rl da (stq_rec_st0 rc)).
  destruct (recovery_loop_shift h _ _ s _ G2) as [EL ->]. cbn [andb].
  rewrite !sbind_assoc.
  eapply sbind_shift_g. { exact EL. } { exact G3. }
  intros s1 res Gr. cbv beta in *. apply andb_true_iff in Gr as [Gr1 Gr2].
  assert (Gf : g_stq_rec_finish (shift_rlres res) = true).
  { unfold g_stq_rec_finish, shift_rlres. cbn [fst shift_rl rl_high_rxt]. apply u16_ok_sh16. }
  rewrite Gf. cbn [andb].
  eapply sbind_shift_g. { now apply stq_rec_finish_shift. } { exact Gr2. }
  intros s2 ret Gt. now apply stq_tail2_shift.
Qed.

Lemma send_tx_queue_decompose (s : vsock) :
  send_tx_queue cci s =
  if v_transport_pending s then SOk s tt
  else sbind (stq_after_rto cci s) (stq_tail1 cci (outgoing_header s)).
Proof.
  unfold send_tx_queue. destruct (v_transport_pending s); [reflexivity|].
  fold (stq_after_rto cci s).
  destruct (stq_after_rto cci s) as [s1 ret|s1 e|]; [|reflexivity|reflexivity].
  cbn [sbind]. unfold stq_tail1. destruct ret; [reflexivity|].
  destruct (0 <? v_rto_retransmissions s1); [reflexivity|].
  destruct (ss_segs (v_segs s1)); [reflexivity|].
  destruct (rv_phase (v_recovery s1)); reflexivity.
Qed.

Lemma send_tx_queue_shift_guard (s : vsock) : g_send_tx_queue cci s = true ->
  send_tx_queue cci (sh s) = sst idf (send_tx_queue cci s) /\ g_send_tx_queue cci (sh s) = true.
Proof.
  unfold g_send_tx_queue. intros G. rewrite !send_tx_queue_decompose. shproj.
  destruct (v_transport_pending s); [now split|].
  apply andb_true_iff in G as [G1 G2]. destruct (stq_after_rto_shift s G1) as [E ->].
  rewrite outgoing_header_shift. cbn [andb].
  eapply sbind_shift_g. { exact E. } { exact G2. }
  intros s1 ret Gt. now apply stq_tail1_shift.
Qed.

Lemma send_tx_queue_shift (s : vsock) : g_send_tx_queue cci s = true ->
  send_tx_queue cci (sh s) = sst idf (send_tx_queue cci s).
Proof. intros G. exact (proj1 (send_tx_queue_shift_guard s G)). Qed.

(* ---- split_tx_queue_into_segments ---- *)
Definition split_cont (tx_len : Z) (s2 : vsock) : step unit :=
        let segmented_len := ss_len_bytes (v_segs s2) in
        if tx_len <? segmented_len then SErr s2 (ErrBug BugInBufferComputations)
        else
          match segment_loop (ring (v_tx s2)) (o_nagle (v_opts s2)) (v_ss s2) (v_segs s2)
                             (tx_len - segmented_len) (v_last_remote_window s2) with
          | None => SPanic
          | Some (ss', segs', remaining) =>
              SOk (set_unsegmented (set_segs (set_ss s2 ss') segs') remaining) tt
          end.

Definition split_rest (tx_len : Z) (s1 : vsock) : step unit :=
    if is_remote_fin_or_later (v_state s1) then SOk s1 tt
    else
      let '(segs1, pe) := pop_expired_mtu_probe (v_segs s1)
                            (timer_expired (v_t_retransmit s1) (v_now s1) && negb (is_local_fin_or_later (v_state s1)))
                            (o_mtu_probe_max_retx (v_opts s1)) in
      match pe with
      | PeExpired rewind_to payload_size =>
          let s1' := set_segs s1 segs1 in
          let s2 := set_rto_retransmissions
                      (set_t_retransmit s1'
                         (match ss_segs segs1 with
                          | [] => None
                          | _ => timer_arm (v_t_retransmit s1') (v_now s1')
                                           (retransmission_timeout (v_rtte s1')) true
                          end)) 0 in
          let s3 := if seq_gt (v_last_sent_seq_nr s2) rewind_to
                    then set_last_sent_seq_nr s2 rewind_to else s2 in
          split_cont tx_len (set_ss s3 (on_probe_failed (v_ss s3) payload_size))
      | PeNotExpired =>
          SOk (set_unsegmented s1 (sat_sub tx_len (ss_len_bytes (v_segs s1)))) tt
      | PeEmpty => split_cont tx_len s1
      end.

Lemma split_decompose (s : vsock) :
  split_tx_queue_into_segments cci s =
  let tx_len := Z.of_nat (length (ring (v_tx s))) in
  if tx_len =? 0 then SOk (set_tx s (register_dispatcher_if_empty (v_tx s))) tt
  else split_rest tx_len (split_s1 cci s).
Proof. reflexivity. Qed.

Lemma split_s1_shift (s : vsock) : split_s1 cci (sh s) = sh (split_s1 cci s).
Proof.
  unfold split_s1. shproj.
  destruct ((cap (v_tx s) <? _) && _); [|reflexivity].
  destruct (grow (v_tx s) (o_tx_max (v_opts s))) as [tx1 g]. destruct g; [|reflexivity].
  destruct (wake_writer tx1) as [tx2 w]. reflexivity.
Qed.

Lemma segment_loop_shift : forall fuel nagle ss segs remaining rwr,
  segment_loop fuel nagle ss (shift_segments da segs) remaining rwr =
  match segment_loop fuel nagle ss segs remaining rwr with
  | Some (ss', segs', r) => Some (ss', shift_segments da segs', r)
  | None => None
  end.
Proof.
  induction fuel as [|x fuel IH]; intros; cbn [segment_loop]; [reflexivity|].
  destruct ((0 <? remaining) && (0 <? rwr)); [|reflexivity].
  destruct (next_segment_size ss) as [[ss1 sz]|]; [|reflexivity].
  cbn [shift_segments ss_segs].
  destruct (nagle && _ && _); [reflexivity|].
  rewrite enqueue_shift.
  destruct (mss ss1 <? _); [reflexivity|]. apply IH.
Qed.

Lemma split_cont_shift tx_len (s : vsock) : split_cont tx_len (sh s) = sst idf (split_cont tx_len s).
Proof.
  unfold split_cont. shproj.
  cbn [shift_segments ss_len_bytes].
  destruct (tx_len <? ss_len_bytes (v_segs s)); [reflexivity|].
  fold (shift_segments da (v_segs s)). rewrite segment_loop_shift.
  destruct (segment_loop _ _ _ (v_segs s) _ _) as [[[ss' segs'] r]|]; reflexivity.
Qed.

Lemma split_rest_shift tx_len (s1 : vsock) :
  match snd (pop_expired_mtu_probe (v_segs s1) (timer_expired (v_t_retransmit s1) (v_now s1) && negb (is_local_fin_or_later (v_state s1)))
                                   (o_mtu_probe_max_retx (v_opts s1))) with
  | PeExpired rewind_to _ => cmp_ok (v_last_sent_seq_nr s1) rewind_to
  | _ => true
  end = true ->
  split_rest tx_len (sh s1) = sst idf (split_rest tx_len s1).
Proof.
  unfold split_rest. intros G. shproj. rewrite is_remote_fin_shift.
  destruct (is_remote_fin_or_later (v_state s1)); [reflexivity|].
  rewrite is_local_fin_shift, pop_expired_shift.
  destruct (pop_expired_mtu_probe (v_segs s1) _ _) as [segs1 pe]. cbn [fst snd] in *.
  destruct pe as [rw psz| |]; cbn [shift_pe].
  - cbv zeta. rewrite st_segs.
    set (s1' := set_segs s1 segs1).
    cbn [shift_segments ss_segs].
    rewrite st_t_retransmit, st_rto_retransmissions.
    set (s2 := set_rto_retransmissions _ 0).
    assert (E : v_last_sent_seq_nr s2 = v_last_sent_seq_nr s1) by reflexivity.
    shproj. rewrite E, (cmp_ok_seq_gt da _ _ G).
    destruct (seq_gt (v_last_sent_seq_nr s1) rw); rewrite ?st_last_sent_seq_nr; shproj; rewrite st_ss;
      apply split_cont_shift.
  - reflexivity.
  - apply split_cont_shift.
Qed.

Lemma split_shift (s : vsock) : g_split cci s = true ->
  split_tx_queue_into_segments cci (sh s) = sst idf (split_tx_queue_into_segments cci s).
Proof.
  unfold g_split. intros G. rewrite !split_decompose. cbv zeta. shproj.
  destruct (Z.of_nat (length (ring (v_tx s))) =? 0); [reflexivity|].
  rewrite split_s1_shift. now apply split_rest_shift.
Qed.

Lemma g_split_shift (s : vsock) : g_split cci s = true -> g_split cci (sh s) = true.
Proof.
  unfold g_split. shproj. destruct (Z.of_nat (length (ring (v_tx s))) =? 0); [reflexivity|].
  cbv zeta. rewrite split_s1_shift. shproj. rewrite is_local_fin_shift, pop_expired_shift.
  cbn [snd]. destruct (snd (pop_expired_mtu_probe _ _ _)) as [rw psz| |]; cbn [shift_pe]; try reflexivity.
  apply cmp_ok_shift.
Qed.

End Tx.
