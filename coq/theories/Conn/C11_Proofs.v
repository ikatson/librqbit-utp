(* C11, connection-level clause: every datagram a connection emits carries the connection id owed to
   its direction, one of the BEP-29 types, a payload exactly when it is ST_DATA, and a header that
   `serialize` writes with version 1 and `deserialize` reads back unchanged (hdr_okb).

   J (below) is the invariant: the connection's send id never changes; seq_nr, last_consumed and the
   sequence number reserved for our FIN are u16 values; the proven payload size is at least 1 and every
   segment of the table has at least one byte; every packet emitted so far in this poll is well-formed.
   It holds of vsock_new (for a configuration whose ids / sequence numbers are u16) and is kept by every
   function poll_body calls, whatever the peer delivers and whatever the transport answers. *)
From Utp Require Import Base.Prelude Wire.SeqNr Wire.SeqNr_Proofs Wire.Header Wire.Header_Proofs
  Rtt.Rtte Mtu.SegSizes Rx.Rx Tx.Ring Tx.Segments Tx.Segments_Proofs
  Conn.Recovery Conn.Msg Conn.VSockRec Conn.VSock Conn.VSockRun Conn.VObs
  Conn.VSock_Lemmas Conn.VSock_LemmasStep Conn.VSock_LemmasIn Conn.C05_Proofs Conn.C11_Pred.

Arguments SOk {CC A}. Arguments SErr {CC A}. Arguments SPanic {CC A}.
Arguments BrReturn {CC}. Arguments BrRestart {CC}. Arguments BrPanic {CC}.
Arguments TblDrop {CC}. Arguments TblErr {CC}. Arguments TblContinue {CC}.

Definition u16 (x : Z) : Prop := 0 <= x < M16.
Definition u32 (x : Z) : Prop := 0 <= x < M32.

Lemma wadd16_u16 a b : u16 (wadd16 a b).
Proof. unfold u16, wadd16, M16. lia. Qed.
Lemma wsub16_u16 a b : u16 (wsub16 a b).
Proof. unfold u16, wsub16, M16. lia. Qed.
Lemma mod32_u32 a : u32 (a mod M32).
Proof. unfold u32, M32. lia. Qed.

(* ------------------------------------------------------------------ one header *)
Definition sack_good (sk : option sackbits) : Prop :=
  match sk with Some k => sk_len k = 64 /\ length (sk_bits k) = 64%nat | None => True end.

Lemma sack_of_bits_wf k : sack_wfb (sack_of_bits k) = true.
Proof.
  unfold sack_wfb, sack_of_bits, bytes_okb; cbn [sack_bytes].
  rewrite map_length. apply andb_true_intro. split; [reflexivity|].
  apply forallb_forall. intros b Hb. apply in_map_iff in Hb. destruct Hb as (j & <- & _).
  apply byte_okb_iff, sack_byte_range.
Qed.

Lemma hdr_okb_intro (h : chdr) :
  u16 (ch_conn_id h) -> u32 (ch_ts h) -> u32 (ch_ts_diff h) -> u32 (ch_wnd h) ->
  u16 (ch_seq h) -> u16 (ch_ack h) -> sack_good (ch_sack h) -> ch_close_reason h = None ->
  hdr_okb (hdr_of_chdr h) = true.
Proof.
  unfold u16, u32, M16, M32. intros H1 H2 H3 H4 H5 H6 H7 H8.
  unfold hdr_okb, fields_okb, ext_okb, hdr_of_chdr, u16b, u32b;
    cbn [h_conn h_ts h_tsdiff h_wnd h_seq h_ack h_ext e_sack e_close]. rewrite H8.
  assert (E : match ch_sack h with Some k => Some (sack_of_bits k) | None => None end = None \/
              exists k, ch_sack h = Some k /\ sk_len k = 64).
  { destruct (ch_sack h) as [k|]; [right; exists k; split; [reflexivity|exact (proj1 H7)]|left; reflexivity]. }
  destruct (ch_sack h) as [k|].
  - destruct E as [E|(k' & E & E64)]; [discriminate|]. injection E as <-.
    unfold sack_okb. rewrite sack_of_bits_wf. cbn [sack_of_bits sack_len]. rewrite E64.
    cbn [Z.eqb Pos.eqb andb].
    repeat (apply andb_true_intro; split); lia.
  - repeat (apply andb_true_intro; split); lia.
Qed.

Lemma sack_len64_intro sk : sack_good sk -> sack_len64 sk = true.
Proof.
  destruct sk as [k|]; cbn [sack_good sack_len64]; [|reflexivity].
  intros [-> ->]. reflexivity.
Qed.

(* ------------------------------------------------------------------ segment sizes stay positive *)
Definition pos_list (l : list seg) : Prop := Forall (fun g => 1 <= sg_size g) l.

Lemma pos_shape : forall l' l, shape l' = shape l -> pos_list l -> pos_list l'.
Proof.
  unfold pos_list. induction l' as [|x xs IH]; intros l E H; [constructor|].
  destruct l as [|y ys]; [discriminate|]. cbn [shape map] in E. injection E as E1 _ E2.
  inversion H; subst. constructor; [lia|]. eapply IH; [exact E2|assumption].
Qed.

Lemma pos_skipn n l : pos_list l -> pos_list (skipn n l).
Proof. apply Forall_skipn. Qed.

Lemma pos_app_r a b : pos_list (a ++ b) -> pos_list b.
Proof. unfold pos_list. intro H. apply Forall_app in H. tauto. Qed.

Lemma pos_app_l a b : pos_list (a ++ b) -> pos_list a.
Proof. unfold pos_list. intro H. apply Forall_app in H. tauto. Qed.

Lemma sack_phase_shape t rest a1 su now ack sk rest2 a2 depth lse :
  sack_phase t rest a1 su now ack sk = (rest2, a2, depth, lse) -> shape rest2 = shape rest.
Proof.
  unfold sack_phase. intro E2.
  destruct rest as [|s0 r0] eqn:Er; [injection E2 as <- _ _ _; reflexivity|].
  destruct sk as [k|]; [|injection E2 as <- _ _ _; reflexivity].
  destruct (seq_gt _ ack); [|injection E2 as <- _ _ _; reflexivity].
  destruct (0 <=? seq_sub (wadd16 ack 2) _).
  - destruct (apply_sack (skipn _ (s0 :: r0)) (sk_bits k) now _) as [tl' a'] eqn:Ea.
    injection E2 as <- _ _ _. rewrite shape_app, (apply_sack_shape _ _ _ _ _ _ Ea), <- shape_app, firstn_skipn.
    reflexivity.
  - destruct (apply_sack (s0 :: r0) _ now _) as [l' a'] eqn:Ea.
    injection E2 as <- _ _ _. exact (apply_sack_shape _ _ _ _ _ _ Ea).
Qed.

Lemma remove_up_to_ack_pos t now ack sk t' r :
  remove_up_to_ack t now ack sk = (t', r) -> pos_list (ss_segs t) -> pos_list (ss_segs t').
Proof.
  unfold remove_up_to_ack. intros H Hp.
  destruct (sack_phase _ _ _ _ _ _ _) as [[[rest2 a2] depth] lse] eqn:E2.
  apply sack_phase_shape in E2.
  destruct (strip_delivered rest2 0 0) as [[rest3 cnt3] bytes3] eqn:E3.
  destruct (strip_delivered_spec _ _ _ _ _ _ E3) as (dropped & Hd & _).
  injection H as <- _. cbn [ss_segs].
  apply (pos_app_r dropped). rewrite <- Hd. eapply pos_shape; [exact E2|]. apply pos_skipn. exact Hp.
Qed.

Lemma calc_pipe_pos t hr hd rtt now t' p rc :
  calc_pipe t hr hd rtt now = Some (t', p, rc) -> pos_list (ss_segs t) -> pos_list (ss_segs t').
Proof.
  unfold calc_pipe. destruct (_ <? _); [discriminate|].
  destruct (pipe_loop _ t hr _ now _) as [upd a] eqn:E. intro H; injection H as <- _ _.
  unfold Segments.set_segs; cbn [ss_segs]. intro Hp. eapply pos_shape; [|exact Hp].
  apply pipe_loop_shape in E. rewrite map_rev, enum_from_snd in E.
  rewrite shape_app, shape_rev, E, shape_rev, rev_involutive, <- shape_app, firstn_skipn. reflexivity.
Qed.

Section WithCC.
Context {CC : Type} (cci : cc_iface CC).
Notation vsock := (vsock CC).

Variable cfg : vconfig.
Hypothesis cid_ok : u16 (conn_id_send_of cfg).
Notation cid := (conn_id_send_of cfg).

(* the parts of an outgoing header that do not depend on the packet *)
Definition base_ok (h : chdr) : Prop :=
  ch_conn_id h = cid /\ u32 (ch_ts h) /\ u32 (ch_ts_diff h) /\ u32 (ch_wnd h) /\ u16 (ch_ack h) /\
  ch_close_reason h = None.

Definition pk_ok (p : packet) : Prop :=
  c11_packet_ok cfg (fpacket_of p) = true /\ conn_type (ch_type (p_hdr p)) = true.

(* a control packet: ST_FIN / ST_STATE, no payload *)
Lemma pk_ok_control (h : chdr) (t : ptype) (seq : Z) (sk : option sackbits) :
  base_ok h -> t = ST_FIN \/ t = ST_STATE -> u16 seq -> sack_good sk ->
  pk_ok {| p_hdr := hdr_with h t seq sk; p_payload := [] |}.
Proof.
  intros (B1 & B2 & B3 & B4 & B5 & B6) Ht Hs Hk.
  assert (Hok : hdr_okb (hdr_of_chdr (hdr_with h t seq sk)) = true).
  { apply hdr_okb_intro; unfold hdr_with;
      cbn [ch_conn_id ch_ts ch_ts_diff ch_wnd ch_seq ch_ack ch_sack ch_close_reason]; auto.
    rewrite B1. exact cid_ok. }
  split.
  - unfold c11_packet_ok, fpacket_of; cbn [fq_hdr fq_plen p_hdr p_payload length Z.of_nat].
    rewrite Hok.
    change (ch_conn_id (hdr_with h t seq sk)) with (ch_conn_id h).
    change (ch_type (hdr_with h t seq sk)) with t.
    change (ch_sack (hdr_with h t seq sk)) with sk.
    rewrite (sack_len64_intro sk Hk), B1.
    destruct Ht as [-> | ->]; cbn [expected_conn_id]; rewrite Z.eqb_refl; reflexivity.
  - cbn [p_hdr]. unfold hdr_with; cbn [ch_type]. destruct Ht as [-> | ->]; reflexivity.
Qed.

(* a data packet *)
Lemma pk_ok_data (h : chdr) (ts tsd seq : Z) (payload : list Z) :
  base_ok h -> u32 ts -> u32 tsd -> u16 seq -> payload <> [] ->
  pk_ok {| p_hdr := {| ch_type := ST_DATA; ch_conn_id := ch_conn_id h; ch_ts := ts; ch_ts_diff := tsd;
                       ch_wnd := ch_wnd h; ch_seq := seq; ch_ack := ch_ack h; ch_sack := None;
                       ch_close_reason := None |};
           p_payload := payload |}.
Proof.
  intros (B1 & B2 & B3 & B4 & B5 & B6) Hts Htsd Hs Hp.
  match goal with |- pk_ok {| p_hdr := ?x; p_payload := _ |} => set (hd := x) end.
  assert (Hok : hdr_okb (hdr_of_chdr hd) = true).
  { apply hdr_okb_intro; subst hd;
      cbn [ch_conn_id ch_ts ch_ts_diff ch_wnd ch_seq ch_ack ch_sack ch_close_reason sack_good]; auto.
    rewrite B1. exact cid_ok. }
  split; [|reflexivity].
  unfold c11_packet_ok, fpacket_of; cbn [fq_hdr fq_plen p_hdr p_payload].
  rewrite Hok. subst hd; cbn [ch_conn_id ch_type ch_sack sack_len64 expected_conn_id].
  rewrite B1, Z.eqb_refl.
  destruct payload as [|b r]; [congruence|]. cbn [length].
  replace (0 <=? Z.of_nat (S (length r))) with true by (symmetry; lia).
  replace (0 <? Z.of_nat (S (length r))) with true by (symmetry; lia).
  reflexivity.
Qed.

(* ------------------------------------------------------------------ the invariant *)
Definition fin_ok (st : vstate) : Prop :=
  match st with FinWait1 f | LastAck f _ => u16 f | _ => True end.

Definition J (s : vsock) : Prop :=
  v_conn_id_send s = cid /\
  1 <= mss (v_ss s) /\
  u16 (v_seq_nr s) /\
  u16 (v_last_consumed s) /\
  fin_ok (v_state s) /\
  pos_list (ss_segs (v_segs s)) /\
  Forall pk_ok (v_out s).

(* the fields J reads are unchanged *)
Definition keep (s s' : vsock) : Prop :=
  v_conn_id_send s' = v_conn_id_send s /\ v_ss s' = v_ss s /\ v_seq_nr s' = v_seq_nr s /\
  v_last_consumed s' = v_last_consumed s /\ v_state s' = v_state s /\ v_segs s' = v_segs s /\
  v_out s' = v_out s.

Lemma J_keep s s' : keep s s' -> J s -> J s'.
Proof.
  intros (K1 & K2 & K3 & K4 & K5 & K6 & K7) H. unfold J in *. rewrite K1, K2, K3, K4, K5, K6, K7. exact H.
Qed.

Ltac keep_triv := unfold keep; vsimpl_goal; repeat split; reflexivity.
Ltac J_split := unfold J; vsimpl_goal; (split; [|split; [|split; [|split; [|split; [|split]]]]]).

(* Names the state t, of which F : J t is known, by a variable z bound by a lambda in the proof term.
   A name made by `set` (with or without `clearbody`) stays a local definition there, and at Qed the
   kernel compares v_f z with v_f (set_g z x) by unfolding z: with a stack of setters under z that
   comparison is exponential in the height of the stack. *)
Ltac abs_as t F z := revert F; generalize t; intros z F.

(* J of a state built from s by setters, from H : J s: the parts about untouched fields are closed,
   the parts about the fields that were set remain *)
Ltac J_from H := destruct H as (?B & ?B & ?B & ?B & ?B & ?B & ?B); J_split; try assumption.

Lemma J_segs_pos s : J s -> pos_list (ss_segs (v_segs s)).
Proof. intro H. apply H. Qed.

Definition stJ {A} (m : step A) : Prop :=
  match m with SOk s' _ | SErr s' _ => J s' | SPanic => True end.

Lemma stJ_sbind {A B} (m : step A) (f : vsock -> A -> step B) :
  stJ m -> (forall s1 a, J s1 -> stJ (f s1 a)) -> stJ (sbind m f).
Proof. destruct m as [s1 a|s1 e|]; cbn [sbind stJ]; auto. Qed.

(* ------------------------------------------------------------------ headers built from a state *)
Lemma rx_window_u32 (s : vsock) : 1 <= mss (v_ss s) -> u32 (rx_window s).
Proof.
  intro Hm. unfold rx_window, u32.
  set (w := remaining_rx_window (v_rx s) mod M32). assert (Hw : 0 <= w < M32) by (subst w; unfold M32; lia).
  clearbody w. destruct (w <? mss (v_ss s)) eqn:E; [unfold M32; lia|].
  apply Z.ltb_ge in E. assert (0 <= w mod mss (v_ss s) < mss (v_ss s)) by (apply Z.mod_pos_bound; lia). lia.
Qed.

Lemma outgoing_header_base (s : vsock) : J s -> base_ok (outgoing_header s) /\ u16 (ch_seq (outgoing_header s)).
Proof.
  intros (J1 & J2 & J3 & J4 & _). unfold base_ok, outgoing_header;
    cbn [ch_conn_id ch_ts ch_ts_diff ch_wnd ch_ack ch_close_reason ch_seq].
  repeat split; try assumption; try apply mod32_u32; try apply (rx_window_u32 s J2);
    try (unfold timestamp_microseconds; apply mod32_u32);
    try (destruct J3; assumption); try (destruct J4; assumption).
Qed.

Lemma base_ok_hdr_with h t seq sk : base_ok h -> base_ok (hdr_with h t seq sk).
Proof. unfold base_ok, hdr_with; cbn [ch_conn_id ch_ts ch_ts_diff ch_wnd ch_ack ch_close_reason]. tauto. Qed.

Lemma length_sack_bits : forall n l, length (sack_bits l n) = n.
Proof. induction n as [|n IH]; intros l; cbn [sack_bits length]; [reflexivity|]. destruct l; cbn [length]; rewrite IH; reflexivity. Qed.

Lemma sack_of_rx_good r : sack_good (sack_of_rx r).
Proof.
  unfold sack_of_rx, selective_ack. destruct (ooq_is_empty r); [exact I|].
  destruct (_ <=? _); [exact I|]. cbn [sack_good sk_len sk_bits]. split; [reflexivity|apply length_sack_bits].
Qed.

(* ------------------------------------------------------------------ sending *)
Lemma next_send_keep (s : vsock) n s1 o : next_send s n = (s1, o) -> keep s s1.
Proof.
  unfold next_send. intro H.
  destruct (v_sends s) as [|o1 r].
  - destruct (v_emsg_limit s) as [m|]; [destruct (m <? n)|]; injection H as <- _; keep_triv.
  - destruct o1; try (injection H as <- _; keep_triv).
    destruct (v_emsg_limit s) as [m|]; [destruct (m <? n)|]; injection H as <- _; keep_triv.
Qed.

(* a control header: built from a base, ST_FIN / ST_STATE, a u16 sequence number, a SelectiveAck::new *)
Definition ctl_ok (h : chdr) : Prop :=
  base_ok h /\ (ch_type h = ST_FIN \/ ch_type h = ST_STATE) /\ u16 (ch_seq h) /\ sack_good (ch_sack h).

Lemma send_control_packet_J (s : vsock) h : J s -> ctl_ok h -> stJ (send_control_packet s h).
Proof.
  intros Hj (Hb & Ht & Hs & Hk). unfold send_control_packet.
  destruct (v_transport_pending s); [exact Hj|].
  destruct (next_send s _) as [s1 o] eqn:E. apply next_send_keep in E.
  pose proof (J_keep _ _ E Hj) as Hj1.
  destruct o; cbn [stJ]; try exact Hj1.
  (* sent *)
  destruct Hj1 as (A1 & A2 & A3 & A4 & A5 & A6 & A7).
    unfold on_packet_sent, emit. J_split; try assumption.
    constructor; [|exact A7].
    assert (Hk' : sack_good (fit_sack s (ch_sack h))) by (unfold fit_sack; destruct (_ <=? _); [exact Hk|exact I]).
    replace (hdr_with h (ch_type h) (ch_seq h) (fit_sack s (ch_sack h)))
      with (hdr_with h (ch_type h) (ch_seq h) (fit_sack s (ch_sack h))) by reflexivity.
    apply pk_ok_control; assumption.
Qed.

Lemma send_ack_J (s : vsock) : J s -> stJ (send_ack s).
Proof.
  intro Hj. unfold send_ack. apply send_control_packet_J; [exact Hj|].
  destruct (outgoing_header_base s Hj) as [Hb Hs].
  split; [apply base_ok_hdr_with; exact Hb|]. unfold hdr_with; cbn [ch_type ch_seq ch_sack].
  split; [right; reflexivity|]. split; [exact Hs|apply sack_of_rx_good].
Qed.

Lemma maybe_send_fin_J (s : vsock) : J s -> stJ (maybe_send_fin s).
Proof.
  intro Hj. unfold maybe_send_fin.
  destruct (v_transport_pending s); [exact Hj|].
  destruct (our_fin_if_unacked (v_state s)) as [seq|] eqn:Ef; [|exact Hj].
  destruct (negb _); [exact Hj|].
  apply stJ_sbind.
  - apply send_control_packet_J; [exact Hj|].
    destruct (outgoing_header_base s Hj) as [Hb _].
    split; [apply base_ok_hdr_with; exact Hb|]. unfold hdr_with; cbn [ch_type ch_seq ch_sack].
    split; [left; reflexivity|]. split; [|exact I].
    destruct Hj as (_ & _ & _ & _ & Hf & _). unfold our_fin_if_unacked in Ef.
    destruct (v_state s); try discriminate; injection Ef as <-; exact Hf.
  - intros s1 [|] Hj1; cbn [stJ]; [|exact Hj1]. eapply J_keep; [|exact Hj1]. keep_triv.
Qed.

(* ---- data ---- *)
Lemma update_nth_pos (f : seg -> seg) : (forall g, sg_size (f g) = sg_size g) ->
  forall l n, pos_list l -> pos_list (update_nth l n f).
Proof.
  intros Hf. unfold pos_list. induction l as [|x xs IH]; intros [|n] H; cbn [update_nth]; auto.
  - inversion H; subst. constructor; [rewrite Hf; assumption|assumption].
  - inversion H; subst. constructor; [assumption|apply IH; assumption].
Qed.

Lemma on_sent_pos t idx now : pos_list (ss_segs t) -> pos_list (ss_segs (on_sent t idx now)).
Proof.
  intro H. unfold on_sent, Segments.set_segs; cbn [ss_segs]. apply update_nth_pos; [|exact H].
  intro g. reflexivity.
Qed.

Definition item_ok (f : for_sending) : Prop := 1 <= sg_size (fs_seg f) /\ u16 (fs_seq f).

Lemma payload_nonempty (ring : list Z) off plen :
  0 <= off -> off + plen <= Z.of_nat (length ring) -> 1 <= plen ->
  firstn (Z.to_nat plen) (skipn (Z.to_nat off) ring) <> [].
Proof.
  intros H0 H1 H2 E. apply (f_equal (@length Z)) in E. rewrite firstn_length, skipn_length in E.
  cbn [length] in E. lia.
Qed.

Lemma send_data_J (s : vsock) h f : J s -> base_ok h -> item_ok f -> stJ (send_data s h f).
Proof.
  intros Hj Hb [Hsz Hseq]. unfold send_data.
  destruct (_ =? o_max_retx _); [exact Hj|].
  destruct (fs_payload_offset f <? 0) eqn:E0; [exact I|]. apply Z.ltb_ge in E0.
  destruct (_ <? fs_payload_offset f); [exact Hj|].
  destruct (_ <? fs_payload_offset f + _) eqn:E2; [exact Hj|]. apply Z.ltb_ge in E2.
  destruct (next_send s _) as [s1 o] eqn:E. apply next_send_keep in E.
  pose proof (J_keep _ _ E Hj) as Hj1.
  destruct o; cbn [stJ]; try exact Hj1.
  (* the packet is recorded *)
  match goal with |- context [set_last_sent_seq_nr ?x _] => assert (H4 : J x); [|abs_as x H4 s4] end.
  { destruct Hj1 as (A1 & A2 & A3 & A4 & A5 & A6 & A7).
    unfold on_packet_sent, emit. J_split; try assumption.
    - apply on_sent_pos. exact A6.
    - constructor; [|exact A7].
      apply pk_ok_data; try assumption; try apply mod32_u32;
        try (unfold timestamp_microseconds; apply mod32_u32).
      apply payload_nonempty; assumption. }
  (* the sequence counters move forward *)
  match goal with |- J (set_t_inactivity (set_t_retransmit ?x _) _) => assert (H5 : J x); [|abs_as x H5 s5] end.
  { destruct (seq_gt _ _); [|exact H4].
    destruct (seq_gt _ _).
    - J_from H4. apply wadd16_u16.
    - eapply J_keep; [|exact H4]. keep_triv. }
  eapply J_keep; [|exact H5]. keep_triv.
Qed.

Lemma on_rto_reactions_J (s s1 : vsock) : on_rto_reactions cci s = Some s1 -> J s -> J s1.
Proof.
  unfold on_rto_reactions. destruct (Rtte.on_rto_timeout _); [|discriminate].
  intro H; injection H as <-. intro Hj. exact Hj.
Qed.

Lemma iter_items_ok t st : pos_list (ss_segs t) -> Forall item_ok (iter_for_sending t st).
Proof.
  unfold pos_list. intro Hp. apply Forall_forall. intros f Hf.
  unfold iter_for_sending in Hf. apply filter_In in Hf. destruct Hf as [Hf _].
  apply in_map_iff in Hf. destruct Hf as ([i g] & <- & Hin). cbn [fs_seg fs_seq].
  split; [|apply wadd16_u16].
  apply enum_from_In in Hin.
  assert (Hg : In g (ss_segs t)).
  { revert Hin. generalize (ss_segs t). generalize (match st with
      | Some s0 => Z.to_nat (Z.max (seq_sub s0 (ss_snd_una t)) 0) | None => 0%nat end).
    induction n as [|n IH]; intros l; [cbn [skipn]; auto|]. destruct l; cbn [skipn]; [intros []|].
    intro H. right. apply IH. exact H. }
  rewrite Forall_forall in Hp. exact (Hp _ Hg).
Qed.

Lemma Forall_take_while {A} (P : A -> Prop) p l : Forall P l -> Forall P (take_while p l).
Proof.
  induction l as [|x r IH]; cbn [take_while]; intro H; [constructor|].
  inversion H; subst. destruct (p x); [constructor; auto|constructor].
Qed.

Lemma Forall_skip_while {A} (P : A -> Prop) p l : Forall P l -> Forall P (skip_while p l).
Proof.
  induction l as [|x r IH]; cbn [skip_while]; intro H; [constructor|].
  inversion H; subst. destruct (p x); [auto|exact H].
Qed.

Lemma Forall_firstn' {A} (P : A -> Prop) n l : Forall P l -> Forall P (firstn n l).
Proof.
  revert l; induction n as [|n IH]; intros l H; cbn [firstn]; [constructor|].
  destruct l; [constructor|]. inversion H; subst. constructor; auto.
Qed.

Lemma recovery_loop_J h mss0 : base_ok h -> forall items (s : vsock) st,
  J s -> Forall item_ok items -> stJ (recovery_loop items s h mss0 st).
Proof.
  intro Hb. induction items as [|f rest IH]; intros s st Hj Hi; cbn [recovery_loop]; [exact Hj|].
  inversion Hi as [|? ? Hf Hr]; subst.
  destruct (negb _); [exact Hj|].
  destruct (_ && negb (sg_lost _)); [apply IH; assumption|].
  destruct (_ && negb (sg_sacks_after _)); [exact Hj|].
  pose proof (send_data_J s h f Hj Hb Hf) as F.
  destruct (send_data s h f) as [s1 r|s1 e|]; cbn [stJ] in *; auto.
  destruct r; cbn [stJ]; auto.
Qed.

Lemma new_data_loop_J h : base_ok h -> forall items (s : vsock) remaining,
  J s -> Forall item_ok items -> stJ (new_data_loop items s h remaining).
Proof.
  intro Hb. induction items as [|f rest IH]; intros s remaining Hj Hi; cbn [new_data_loop]; [exact Hj|].
  inversion Hi as [|? ? Hf Hr]; subst.
  destruct (_ <? _); [exact Hj|].
  pose proof (send_data_J s h f Hj Hb Hf) as F.
  destruct (send_data s h f) as [s1 r|s1 e|]; cbn [stJ] in *; auto.
  destruct r; cbn [stJ]; auto.
Qed.

Lemma pop_mtu_probe_pos t q t' b : pop_mtu_probe t q = (t', b) ->
  pos_list (ss_segs t) -> pos_list (ss_segs t').
Proof.
  unfold pop_mtu_probe. destruct (last_and_init (ss_segs t)) as [[init g]|] eqn:E.
  - apply last_and_init_spec in E. destruct (_ && _).
    + intro H; injection H as <- _. unfold Segments.set_segs; cbn [ss_segs]. rewrite E.
      apply Forall_app_l.
    + intro H; injection H as <- _. auto.
  - intro H; injection H as <- _. auto.
Qed.

Lemma pop_expired_pos t to mr t' p : pop_expired_mtu_probe t to mr = (t', p) ->
  pos_list (ss_segs t) -> pos_list (ss_segs t').
Proof.
  unfold pop_expired_mtu_probe. destruct (last_and_init (ss_segs t)) as [[init g]|] eqn:E.
  - apply last_and_init_spec in E. destruct (sg_delivered g); [intro H; injection H as <- _; auto|].
    destruct (_ && _).
    + intro H; injection H as <- _. unfold Segments.set_segs; cbn [ss_segs]. rewrite E.
      apply Forall_app_l.
    + destruct (sg_probe g); intro H; injection H as <- _; auto.
  - intro H; injection H as <- _. auto.
Qed.

Lemma send_tx_queue_J (s : vsock) : J s -> stJ (send_tx_queue cci s).
Proof.
  intro Hj. unfold send_tx_queue.
  destruct (v_transport_pending s); [exact Hj|].
  destruct (outgoing_header_base s Hj) as [Hb _]. set (h := outgoing_header s) in *. clearbody h.
  apply stJ_sbind.
  - destruct (timer_expired _ _); [|exact Hj].
    destruct (iter_for_sending (v_segs s) None) as [|f rest] eqn:Ei.
    + destruct (our_fin_if_unacked (v_state s)); [|exact Hj].
      destruct (_ =? _); [|exact Hj].
      apply stJ_sbind.
      * apply maybe_send_fin_J. exact Hj.
      * intros s2 [|] Hj2; cbn [stJ]; [|exact Hj2].
        destruct (on_rto_reactions cci s2) as [s3|] eqn:Er; [|exact I].
        apply (on_rto_reactions_J _ _ Er) in Hj2. exact Hj2.
    + assert (Hf : item_ok f).
      { pose proof (iter_items_ok (v_segs s) None (J_segs_pos s Hj)) as Hi.
        rewrite Ei in Hi. inversion Hi; assumption. }
      pose proof (send_data_J s h f Hj Hb Hf) as F.
      destruct (send_data s h f) as [s1 r|s1 e|]; cbn [stJ] in *; auto.
      destruct r; cbn [stJ]; auto.
      destruct (negb (sg_probe (fs_seg f))).
      * destruct (on_rto_reactions cci s1) as [s2|] eqn:Er; [|exact I].
        apply (on_rto_reactions_J _ _ Er) in F. exact F.
      * exact F.
  - intros s1 ret Hj1. destruct ret; [exact Hj1|].
    destruct (0 <? _); [exact Hj1|].
    destruct (ss_segs (v_segs s1)) eqn:Esegs; [exact Hj1|].
    assert (Hitems : forall st, Forall item_ok (iter_for_sending (v_segs s1) st)).
    { intro st. apply iter_items_ok. exact (J_segs_pos s1 Hj1). }
    clear Esegs.
    apply stJ_sbind.
    + destruct (rv_phase (v_recovery s1)) as [rp|d|rc]; try exact Hj1.
      apply stJ_sbind.
      * apply recovery_loop_J; [exact Hb|exact Hj1|].
        apply Forall_take_while, Forall_skip_while, Forall_firstn', Hitems.
      * intros s2 [st early] Hj2. unfold set_recovering.
        repeat break_match; cbn [stJ]; exact Hj2.
    + intros s3 ret Hj3. destruct ret; [exact Hj3|].
      clear Hitems.
      apply stJ_sbind.
      * apply new_data_loop_J; [exact Hb|exact Hj3|]. apply iter_items_ok.
        exact (J_segs_pos s3 Hj3).
      * intros s4 too_long Hj4. destruct too_long as [[seq size]|]; [|exact Hj4].
        destruct (pop_mtu_probe (v_segs s4) seq) as [segs' popped] eqn:Ep.
        destruct popped; [|exact Hj4]. cbn [stJ].
        pose proof (pop_mtu_probe_pos _ _ _ _ Ep (J_segs_pos s4 Hj4)). J_from Hj4.
Qed.

Lemma maybe_send_ack_J (s : vsock) : J s -> stJ (maybe_send_ack s).
Proof.
  intro Hj. unfold maybe_send_ack.
  destruct (immediate_ack_to_transmit s); [apply send_ack_J; exact Hj|].
  destruct (should_send_window_update s); [apply send_ack_J; exact Hj|].
  destruct (timer_expired _ _); [destruct (ack_to_transmit s); [apply send_ack_J; exact Hj|exact Hj]|].
  destruct (0 <? _); exact Hj.
Qed.


(* ------------------------------------------------------------------ segmentation *)
Lemma split_J (s : vsock) : J s -> stJ (split_tx_queue_into_segments cci s).
Proof.
  intro Hj. unfold split_tx_queue_into_segments.
  destruct (_ =? 0); [exact Hj|].
  match goal with |- context [is_remote_fin_or_later (v_state ?x)] => set (s1 := x) end.
  assert (H1 : J s1).
  { subst s1. destruct (_ && _); [|exact Hj].
    destruct (grow _ _) as [tx1 g]. destruct g; [destruct (wake_writer tx1)|]; exact Hj. }
  clearbody s1.
  destruct (is_remote_fin_or_later _); [exact H1|].
  destruct (pop_expired_mtu_probe _ _ _) as [segs1 pe] eqn:Ep.
  pose proof (pop_expired_pos _ _ _ _ _ Ep (J_segs_pos s1 H1)) as Hp1.
  assert (Hcont : forall s2 : vsock, J s2 ->
    stJ
      (if Z.of_nat (length (ring (v_tx s))) <? ss_len_bytes (v_segs s2)
       then SErr s2 (ErrBug BugInBufferComputations)
       else match segment_loop (ring (v_tx s2)) (o_nagle (v_opts s2)) (v_ss s2) (v_segs s2)
                    (Z.of_nat (length (ring (v_tx s))) - ss_len_bytes (v_segs s2))
                    (v_last_remote_window s2) with
            | Some (ss', segs', remaining) =>
                SOk (set_unsegmented (VSockRec.set_segs (set_ss s2 ss') segs') remaining) tt
            | None => SPanic
            end)).
  { intros s2 H2. destruct (_ <? _); [exact H2|].
    destruct (segment_loop _ _ _ _ _ _) as [[[ss' segs'] rem']|] eqn:E; [|exact I].
    destruct H2 as (B1 & B2 & B3 & B4 & B5 & B6 & B7).
    destruct (segment_loop_pos _ _ _ _ _ _ _ _ _ B2 B6 E) as [Hp Hm].
    cbn [stJ]. J_split; try assumption. unfold mss in *. lia. }
  destruct H1 as (B1 & B2 & B3 & B4 & B5 & B6 & B7).
  destruct pe.
  - apply Hcont. destruct (seq_gt _ _); J_split; assumption.
  - cbn [stJ]. J_split; assumption.
  - apply Hcont. J_split; assumption.
Qed.

(* ------------------------------------------------------------------ death, transitions *)
Lemma mark_both_closed_J (s : vsock) : J s -> J (mark_both_closed s).
Proof.
  intro Hj. unfold mark_both_closed.
  destruct (rx_mark_vsock_closed _); destruct (mark_vsock_closed _). exact Hj.
Qed.

Lemma just_before_death_J (s : vsock) e : J s -> J (just_before_death s e).
Proof.
  intro Hj. unfold just_before_death.
  match goal with |- context [mark_both_closed ?x] => set (s1 := x) end.
  assert (H1 : J s1).
  { subst s1. destruct e; [destruct (rx_enqueue_error _)|]; exact Hj. }
  clearbody s1.
  pose proof (mark_both_closed_J s1 H1) as H2. set (s2 := mark_both_closed s1) in *. clearbody s2.
  destruct e; [|exact H2].
  destruct (negb _); [|exact H2].
  assert (H3 : J (set_seq_nr s2 (wadd16 (v_seq_nr s2) 1))).
  { J_from H2. apply wadd16_u16. }
  assert (Hc : ctl_ok (hdr_with (outgoing_header s2) ST_FIN (v_seq_nr s2) None)).
  { destruct (outgoing_header_base s2 H2) as [Hb _].
    split; [apply base_ok_hdr_with; exact Hb|]. unfold hdr_with; cbn [ch_type ch_seq ch_sack].
    split; [left; reflexivity|]. split; [exact (proj1 (proj2 (proj2 H2)))|exact I]. }
  pose proof (send_control_packet_J _ _ H3 Hc) as F.
  destruct (send_control_packet _ _); cbn [stJ] in F; assumption.
Qed.

Lemma transition_to_fin_wait_1_J (s : vsock) : J s -> J (transition_to_fin_wait_1 s).
Proof.
  intros (B1 & B2 & B3 & B4 & B5 & B6 & B7). unfold transition_to_fin_wait_1.
  destruct (v_state s) eqn:Est; try (J_split; try assumption; rewrite ?Est; cbn [fin_ok]; auto using wadd16_u16).
Qed.

(* ------------------------------------------------------------------ incoming messages *)
Definition tblJ (r : table_res) : Prop :=
  match r with TblDrop s1 | TblErr s1 _ | TblContinue s1 => J s1 end.

Lemma state_table_J (s : vsock) h : J s -> tblJ (state_table s h).
Proof.
  intros (B1 & B2 & B3 & B4 & B5 & B6 & B7). unfold state_table, restart_remote_inactivity_timer.
  destruct (v_state s) eqn:Est; cbn [fin_ok] in B5;
    repeat break_match; cbn [tblJ]; J_split; try assumption;
    rewrite ?Est; cbn [fin_ok]; auto using wadd16_u16.
Qed.

(* a FIN that changes last_consumed is the next packet in sequence *)
Lemma state_table_fin_seq (s : vsock) h :
  match state_table s h with
  | TblContinue _ =>
      ch_type h = ST_FIN -> is_remote_fin_or_later (v_state s) = false ->
      ch_seq h = wadd16 (v_last_consumed s) 1
  | _ => True
  end.
Proof.
  unfold state_table. destruct (ch_type h) eqn:Et; try (repeat break_match; try exact I; discriminate).
  destruct (v_state s); cbn [is_remote_fin_or_later]; try exact I;
    repeat break_match; try exact I; intros _ Hr; try discriminate Hr;
    match goal with Hn : negb (_ =? _) = false |- _ =>
      apply negb_false_iff, Z.eqb_eq in Hn; exact Hn end.
Qed.

Lemma recovery_on_ack_segs r h segs ls cc now rtt r' segs' cc' :
  recovery_on_ack cci r h segs ls cc now rtt = Some (r', segs', cc') ->
  segs' = segs \/ exists hr hd p rc, calc_pipe segs hr hd rtt now = Some (segs', p, rc).
Proof.
  intros H. unfold recovery_on_ack in H. cbn [rv_phase rv_supports_sack rv_last_ack] in H.
  repeat break_match_hyp H; try discriminate H; injection H as <- <- <-; try (left; reflexivity).
  all: right; eexists _, _, _, _; eassumption.
Qed.

Lemma recovery_on_ack_pos r h segs ls cc now rtt r' segs' cc' :
  recovery_on_ack cci r h segs ls cc now rtt = Some (r', segs', cc') ->
  pos_list (ss_segs segs) -> pos_list (ss_segs segs').
Proof.
  intros H Hp. apply recovery_on_ack_segs in H. destruct H as [->|(hr & hd & p & rc & Hc)]; [exact Hp|].
  exact (calc_pipe_pos _ _ _ _ _ _ _ _ Hc Hp).
Qed.

Lemma force_immediate_ack_J (s : vsock) : J s -> J (force_immediate_ack s).
Proof. apply J_keep. unfold force_immediate_ack. keep_triv. Qed.

Lemma pim_ack_J (s1 : vsock) h s2 res : J s1 -> pim_ack cci s1 h = Some (s2, res) -> J s2.
Proof.
  intros (B1 & B2 & B3 & B4 & B5 & B6 & B7). unfold pim_ack.
  destruct (remove_up_to_ack _ _ _ _) as [segs1 res0] eqn:Er.
  destruct (match is_recovering _ with true => _ | false => _ end) as [rtte1|]; [|discriminate].
  destruct (cc_on_ack _ _ _ _ _) as [cc3|]; [|discriminate].
  destruct (recovery_on_ack _ _ _ _ _ _ _ _) as [[[rec1 segs2] cc4]|] eqn:Ero; [|discriminate].
  intro H; injection H as <- _. J_split; try assumption.
  - pose proof (mss_on_payload_delivered (v_ss s1) (ar_max_acked_payload res0)). lia.
  - exact (recovery_on_ack_pos _ _ _ _ _ _ _ _ _ _ Ero (remove_up_to_ack_pos _ _ _ _ _ _ Er B6)).
Qed.

Lemma data_in_J (s : vsock) n rx1 wk : J s -> J (data_in cci s n rx1 wk).
Proof.
  intro Hj. unfold data_in, add_wakes. J_from Hj.
  pose proof (mss_on_payload_delivered (v_ss s) n). lia.
Qed.

Lemma data_consumed_J (s : vsock) r : J s -> J (data_consumed s r).
Proof.
  intro Hj. unfold data_consumed. destruct r; try exact Hj.
  unfold restart_remote_inactivity_timer. J_from Hj. apply wadd16_u16.
Qed.

Lemma data_tail_J (s4 : vsock) was_empty ar res : J s4 -> stJ (data_tail s4 was_empty ar res).
Proof.
  intro H4. unfold data_tail. destruct ar as [r|]; [|exact I].
  destruct (add_err r); [exact H4|].
  pose proof (data_consumed_J s4 r H4) as H5. cbv zeta.
  destruct (_ || _); [|exact H5].
  apply stJ_sbind; [apply send_ack_J, force_immediate_ack_J; exact H5|]. intros s6 _ H6. exact H6.
Qed.

Lemma pim_data_J (s2 : vsock) m res offset : J s2 -> stJ (pim_data cci s2 m res offset).
Proof.
  intro H2. rewrite pim_data_eq. destruct (offset <? 0); [exact (force_immediate_ack_J s2 H2)|].
  destruct (rx_add_remove _ _ _ _) as [[rx1 ar] w].
  apply data_tail_J, data_in_J. exact H2.
Qed.

(* a FIN moves last_consumed to its own sequence number *)
Lemma pim_fin_J (s2 : vsock) m res offset seen :
  J s2 -> (seen = false -> u16 (ch_seq (m_hdr m))) -> stJ (pim_fin s2 m res offset seen).
Proof.
  intros H2 Hseq. unfold pim_fin, force_immediate_ack. cbv zeta.
  destruct (negb seen && _) eqn:Ec; [|exact H2].
  apply andb_prop in Ec. destruct Ec as [Ec _]. apply negb_true_iff in Ec. specialize (Hseq Ec).
  destruct (rx_add_remove _ _ _ _) as [[rx1 ar] w].
  destruct ar as [r|]; [|exact I].
  destruct (add_err r); [|destruct (mark_vsock_closed _)]; cbn [stJ]; unfold add_wakes; J_from H2.
Qed.

Lemma pim_cont_J (s1 : vsock) m seen :
  J s1 -> (ch_type (m_hdr m) = ST_FIN -> seen = false -> u16 (ch_seq (m_hdr m))) ->
  stJ (pim_cont cci s1 m seen).
Proof.
  intros H1 Hf. unfold pim_cont.
  destruct (pim_ack cci s1 (m_hdr m)) as [[s2 res]|] eqn:Ea; [|exact I].
  apply (pim_ack_J _ _ _ _ H1) in Ea. cbv zeta.
  destruct (ch_type (m_hdr m)); try exact Ea.
  - apply pim_data_J. exact Ea.
  - apply pim_fin_J; [exact Ea|exact (Hf eq_refl)].
Qed.

Lemma pim_J (s : vsock) m : J s -> stJ (process_incoming_message cci s m).
Proof.
  intro Hj. rewrite process_incoming_message_eq.
  pose proof (state_table_J s (m_hdr m) Hj) as T.
  pose proof (state_table_fin_seq s (m_hdr m)) as Tf.
  destruct (state_table s (m_hdr m)) as [s1|s1 e|s1]; cbn [tblJ] in T; try exact T.
  apply pim_cont_J; [exact T|]. intros Ht Hs. rewrite (Tf Ht Hs). apply wadd16_u16.
Qed.

Lemma recv_loop_J : forall fuel (s : vsock) acc, J s -> stJ (recv_loop cci fuel s acc).
Proof.
  assert (Hend : forall (s : vsock) (acc : on_ack_result), J s ->
    stJ (sbind (maybe_send_fin (transition_to_fin_wait_1 s))
               (fun s2 _ => SOk (set_state s2 Closed) (acc, true)))).
  { intros s acc Hj. apply stJ_sbind; [apply maybe_send_fin_J, transition_to_fin_wait_1_J; exact Hj|].
    intros s2 _ H2. cbn [stJ]. J_from H2. exact I. }
  induction fuel as [|x fuel IH]; intros s acc Hj.
  - cbn [recv_loop]. destruct (v_inbox s).
    + destruct (v_inbox_closed s); [apply Hend; exact Hj|exact Hj].
    + exact I.
  - cbn [recv_loop]. destruct (v_inbox s) as [|m rest].
    + destruct (v_inbox_closed s); [apply Hend; exact Hj|exact Hj].
    + apply stJ_sbind.
      * apply (pim_J (set_inbox s rest) m). exact Hj.
      * intros s1 r H1. destruct (_ || _); [exact H1|]. apply IH. exact H1.
Qed.

Lemma process_all_incoming_messages_J (s : vsock) : J s -> stJ (process_all_incoming_messages cci s).
Proof.
  intro Hj. unfold process_all_incoming_messages.
  apply stJ_sbind; [apply recv_loop_J; exact Hj|].
  intros s1 [r early] H1.
  apply stJ_sbind.
  - unfold restart_remote_inactivity_timer, acked_counts_as_sent.
    repeat break_match; cbn [stJ]; exact H1.
  - intros s3 _ H3. destruct (rv_phase (v_recovery s3)); try exact H3.
    destruct (calc_pipe _ _ _ _ _) as [[[segs' pipe] recalc]|] eqn:Ec; [|exact I].
    pose proof (calc_pipe_pos _ _ _ _ _ _ _ _ Ec (J_segs_pos s3 H3)). cbn [stJ]. unfold set_recovering. J_from H3.
Qed.

Lemma maybe_send_syn_ack_J (s : vsock) : J s -> stJ (maybe_send_syn_ack s).
Proof.
  intro Hj. unfold maybe_send_syn_ack.
  assert (G : forall c, stJ
     (if c =? o_max_retx (v_opts s) then SErr s ErrMaxSynAckRetransmissionsReached
      else sbind (send_ack s) (fun s1 sent =>
        if sent then SOk (set_t_syn_ack_resend (set_state s1 (SynAckSent (c + 1)))
               (timer_arm (v_t_syn_ack_resend s1) (v_now s1) SYNACK_RESEND_INTERNAL true)) tt
        else SOk s1 tt))).
  { intros c. destruct (_ =? _); [exact Hj|].
    apply stJ_sbind; [apply send_ack_J; exact Hj|].
    intros s1 [|] H1; cbn [stJ]; J_from H1. exact I. }
  destruct (v_state s); try exact Hj.
  - apply G.
  - destruct (timer_expired _ _); [apply G | exact Hj].
Qed.

Lemma poll_tail_J (s : vsock) : J s -> J (poll_tail s).
Proof.
  intro Hj. unfold poll_tail.
  match goal with |- context [next_timer_to_poll ?x] => set (s1 := x) end.
  assert (H1 : J s1) by (subst s1; destruct (is_local_fin_or_later _); exact Hj).
  clearbody s1. unfold next_timer_to_poll.
  destruct (v_transport_pending s1).
  - destruct (v_t_inactivity s1); [|exact H1]. unfold arm_in. destruct (_ <=? 0); exact H1.
  - destruct (opt_min _ _); [|exact H1]. unfold arm_in. destruct (_ <=? 0); exact H1.
Qed.

(* ------------------------------------------------------------------ a whole poll *)
Definition RJ (s s' : vsock) : Prop := J s -> J s'.

Lemma stJ_stR {A} (s : vsock) (m : step A) : (J s -> stJ m) -> stR RJ s m.
Proof. intro H. destruct m; cbn [stR stJ] in *; auto; exact H. Qed.

Lemma poll_J (s s' : vsock) r : poll cci s = (s', r) -> J (poll_init s) -> J s'.
Proof.
  intro H. revert H. apply (poll_R cci RJ).
  - intros a Ha. exact Ha.
  - intros a b c Hab Hbc Ha. auto.
  - intros a Ha. exact Ha.
  - intros a. apply stJ_stR, maybe_send_syn_ack_J.
  - intros a. apply stJ_stR, send_ack_J.
  - intros a. apply stJ_stR, process_all_incoming_messages_J.
  - intros a rx1 fb w _ Ha. exact Ha.
  - intros a. apply stJ_stR, split_J.
  - intros a. apply stJ_stR, send_tx_queue_J.
  - intros a. exact (transition_to_fin_wait_1_J a).
  - intros a. apply stJ_stR, maybe_send_fin_J.
  - intros a. apply stJ_stR, maybe_send_ack_J.
  - intros a e. exact (just_before_death_J a e).
  - intros a. exact (poll_tail_J a).
Qed.

(* only a poll emits or touches what J reads *)
Lemma vstep_nonpoll (s : vsock) o : (forall sc, o <> VoPoll sc) ->
  keep s (vstep_state cci s o) /\ emitted_of (fs_result (fstep_of cci s o)) = [].
Proof.
  intro Hn. unfold vstep_state, fstep_of.
  destruct o; try (exfalso; exact (Hn _ eq_refl)); cbn [vstep].
  - split; [keep_triv|reflexivity].
  - split; [keep_triv|reflexivity].
  - destruct (v_inbox_closed s); (split; [keep_triv|reflexivity]).
  - split; [keep_triv|reflexivity].
  - destruct (writer_dropped _); [|destruct (poll_write _ _) as [[tx1 r] w]]; (split; [keep_triv|reflexivity]).
  - destruct (writer_dropped _); [|destruct (poll_flush _) as [[tx1 r] w]]; (split; [keep_triv|reflexivity]).
  - destruct (writer_dropped _); [|destruct (poll_shutdown _) as [[tx1 r] w]]; (split; [keep_triv|reflexivity]).
  - destruct (reader_dropped _); [|destruct (rx_read _ _) as [[rx1 r] w]; destruct r];
      (split; [keep_triv|reflexivity]).
  - destruct (reader_dropped _); [|destruct (rx_drop_reader _) as [rx1 w]]; (split; [keep_triv|reflexivity]).
  - destruct (drop_writer _) as [tx1 w]; (split; [keep_triv|reflexivity]).
Qed.

End WithCC.

(* ================================================================== every step, every trace *)
Section Trace.
Context {CC : Type} (cci : cc_iface CC).
Notation vsock := (vsock CC).
Variable cfg : vconfig.
Hypothesis cfg_ok : c11_config_ok cfg = true.

Lemma cid_ok_of_cfg : u16 (conn_id_send_of cfg).
Proof.
  unfold conn_id_send_of. destruct (vc_incoming cfg); [|apply wadd16_u16].
  unfold c11_config_ok in cfg_ok. unfold u16. lia.
Qed.

Notation Jc := (J cfg).

Lemma vsock_new_J mk s0 : vsock_new cci mk cfg = Some s0 -> Jc s0.
Proof.
  unfold vsock_new.
  destruct (match (if vc_incoming cfg then None else Some _) with Some r => _ | None => _ end); [|discriminate].
  intro H; injection H as <-. unfold J; vsimpl_goal.
  unfold c11_config_ok in cfg_ok.
  split; [reflexivity|]. split; [apply mss_ss_new_pos|].
  split; [destruct (vc_incoming cfg); [unfold u16; lia|apply wadd16_u16]|].
  split; [destruct (vc_incoming cfg); [unfold u16; lia|apply wsub16_u16]|].
  split; [destruct (vc_incoming cfg); exact I|].
  split; constructor.
Qed.

Lemma poll_init_J (s : vsock) : Jc s -> Jc (poll_init s).
Proof.
  intros (B1 & B2 & B3 & B4 & B5 & B6 & B7). unfold poll_init, J; vsimpl_goal.
  repeat (split; [assumption|]). constructor.
Qed.

Lemma vstep_J (s : vsock) o : Jc s -> Jc (vstep_state cci s o).
Proof.
  intro Hj. destruct o as [t|m|script|m| |buf| | |n| |];
    try (eapply J_keep; [apply vstep_nonpoll; intros sc; discriminate|exact Hj]).
  unfold vstep_state. cbn [vstep]. destruct (poll cci (VSockRec.set_sends s script)) as [s' r] eqn:E.
  apply (poll_J cci cfg cid_ok_of_cfg _ _ _ E), poll_init_J. exact Hj.
Qed.

Lemma emitted_nonpoll (s : vsock) o : (forall sc, o <> VoPoll sc) ->
  emitted_of (fs_result (fstep_of cci s o)) = [].
Proof. intro Hn. exact (proj2 (vstep_nonpoll cci s o Hn)). Qed.

Lemma emitted_all_ok (s : vsock) o :
  Jc s -> Forall (fun q => c11_packet_ok cfg q = true /\ conn_type (ch_type (fq_hdr q)) = true)
                 (emitted_of (fs_result (fstep_of cci s o))).
Proof.
  intro Hj. destruct o; try (rewrite emitted_nonpoll; [constructor|intros sc; discriminate]).
  destruct (poll cci (VSockRec.set_sends s script)) as [s' r] eqn:E.
  rewrite (fstep_of_poll cci s script s' r E). cbn [fs_result emitted_of].
  assert (H' : Jc s').
  { apply (poll_J cci cfg cid_ok_of_cfg _ _ _ E). apply poll_init_J. exact Hj. }
  destruct H' as (_ & _ & _ & _ & _ & _ & Ho).
  apply Forall_forall. intros q Hq. apply in_map_iff in Hq. destruct Hq as (p & <- & Hp).
  apply in_rev in Hp. rewrite Forall_forall in Ho. exact (Ho p Hp).
Qed.

Theorem c11_emitted_ok_step (s : vsock) o :
  Jc s -> Jc (vstep_state cci s o) /\ c11_emitted_ok cfg (fstep_of cci s o) = true.
Proof.
  intro Hj. split; [apply vstep_J; exact Hj|].
  unfold c11_emitted_ok. apply forallb_forall. intros q Hq.
  pose proof (emitted_all_ok s o Hj) as F. rewrite Forall_forall in F. exact (proj1 (F q Hq)).
Qed.

Theorem c11_conn_types_ok_step (s : vsock) o :
  Jc s -> c11_conn_types_ok cfg (fstep_of cci s o) = true.
Proof.
  intro Hj. unfold c11_conn_types_ok. apply forallb_forall. intros q Hq.
  pose proof (emitted_all_ok s o Hj) as F. rewrite Forall_forall in F. exact (proj2 (F q Hq)).
Qed.

Theorem c11_emitted_ok_trace mk (s0 : vsock) ops :
  vsock_new cci mk cfg = Some s0 -> forallb (c11_emitted_ok cfg) (ftrace cci s0 ops) = true.
Proof.
  intro H. apply (ftrace_forallb cci Jc).
  - intros s o Hj. exact (proj2 (c11_emitted_ok_step s o Hj)).
  - intros s o Hj. apply vstep_J. exact Hj.
  - exact (vsock_new_J mk s0 H).
Qed.

Theorem c11_conn_types_ok_trace mk (s0 : vsock) ops :
  vsock_new cci mk cfg = Some s0 -> forallb (c11_conn_types_ok cfg) (ftrace cci s0 ops) = true.
Proof.
  intro H. apply (ftrace_forallb cci Jc).
  - intros s o Hj. exact (c11_conn_types_ok_step s o Hj).
  - intros s o Hj. apply vstep_J. exact Hj.
  - exact (vsock_new_J mk s0 H).
Qed.

End Trace.

(* ================================================================== what the predicate means on the wire *)
Lemma serialize_version h buflen bs : serialize h buflen = Some bs -> nth 0 bs 0 mod 16 = 1.
Proof.
  unfold serialize. destruct (buflen <? _); [discriminate|]. intro H; injection H as <-.
  unfold encode_packet, fixed_bytes. cbn [app nth]. apply typever_mod.
Qed.

(* an emitted datagram that satisfies the predicate: serialize writes it with version 1, and any receiver
   running `deserialize` reads back exactly the header the connection built, with the payload boundary
   right behind it *)
Theorem packet_ok_on_the_wire (cfg : vconfig) (q : fpacket) (buflen : Z) (payload : list Z) :
  c11_packet_ok cfg q = true ->
  ser_len (hdr_of_chdr (fq_hdr q)) <= buflen -> bytes_okb payload = true ->
  exists bs, serialize (hdr_of_chdr (fq_hdr q)) buflen = Some bs /\
             Zlength bs = ser_len (hdr_of_chdr (fq_hdr q)) /\
             nth 0 bs 0 mod 16 = 1 /\
             nth 0 bs 0 / 16 = type_to_number (ch_type (fq_hdr q)) /\
             deserialize (bs ++ payload) = Some (hdr_of_chdr (fq_hdr q), ser_len (hdr_of_chdr (fq_hdr q))).
Proof.
  intros Hok Hlen Hp. unfold c11_packet_ok in Hok.
  repeat (apply andb_prop in Hok; destruct Hok as [Hok ?]).
  match goal with Hh : hdr_okb _ = true |- _ =>
    destruct (roundtrip _ buflen payload Hh Hlen Hp) as (bs & Hs & Hz & Hd) end.
  exists bs. split; [exact Hs|]. split; [exact Hz|]. split; [exact (serialize_version _ _ _ Hs)|].
  split; [|exact Hd].
  unfold serialize in Hs. destruct (buflen <? _); [discriminate|]. injection Hs as <-.
  unfold encode_packet, fixed_bytes. cbn [app nth hdr_of_chdr h_type]. apply typever_div.
Qed.

(* the payload rule of the predicate is the one UtpMessage::deserialize enforces on the receiving side *)
Lemma packet_ok_payload_rule (cfg : vconfig) (q : fpacket) :
  c11_packet_ok cfg q = true -> 0 <= fq_plen q /\ (0 < fq_plen q <-> ch_type (fq_hdr q) = ST_DATA).
Proof.
  intro Hok. unfold c11_packet_ok in Hok.
  repeat (apply andb_prop in Hok; destruct Hok as [Hok ?]).
  match goal with Hb : Bool.eqb _ _ = true |- _ => apply Bool.eqb_prop in Hb; rename Hb into Hb' end.
  split; [lia|]. rewrite <- ptype_eqb_iff, <- Hb'. lia.
Qed.

Lemma packet_ok_conn_id (cfg : vconfig) (q : fpacket) :
  c11_packet_ok cfg q = true -> ch_conn_id (fq_hdr q) = expected_conn_id cfg (ch_type (fq_hdr q)).
Proof.
  intro Hok. unfold c11_packet_ok in Hok.
  repeat (apply andb_prop in Hok; destruct Hok as [Hok ?]). lia.
Qed.

(* ================================================================== non-vacuity
   an outgoing connection (our SYN announced id 2065, so we send with 2066) writes 100 bytes, receives an
   out-of-order data packet, then an ACK of its data, shuts down: the trace contains an ST_DATA, an
   ST_STATE carrying a SACK extension and an ST_FIN; every one satisfies the predicate *)
Definition ex_cc (w : Z) : cc_iface unit :=
  {| cc_window := fun _ => w; cc_sshthresh := fun _ => w; cc_set_mss := fun c _ => c;
     cc_smss := fun _ => 528; cc_on_recovered := fun c _ _ => c;
     cc_on_ack := fun c _ _ _ => Some c; cc_on_rto := fun c _ => c;
     cc_on_enter_recovery := fun c _ => c; cc_set_remote_window := fun c _ => c |}.

Definition ex_cfg : vconfig :=
  {| vc_incoming := false; vc_ipv4 := true; vc_link_mtu := 1500; vc_rx_buf := 65536;
     vc_tx_init := 32768; vc_tx_max := 1048576; vc_nagle := false; vc_max_retx := 5;
     vc_inactivity := 10000000000; vc_wait_last_ack := true; vc_mtu_probe_max_retx := 0;
     vc_isn := 100; vc_remote_seq := 7; vc_remote_conn_id := 2065; vc_remote_wnd := 1048576;
     vc_remote_ts := 5; vc_syn_sent := 0; vc_now0 := 1000000 |}.

Definition ex_hdr (t : ptype) (seq ack : Z) : chdr :=
  {| ch_type := t; ch_conn_id := 2065; ch_ts := 10; ch_ts_diff := 0; ch_wnd := 1048576;
     ch_seq := seq; ch_ack := ack; ch_sack := None; ch_close_reason := None |}.

Definition ex_ops : list vop :=
  [VoWrite (repeat 0 100); VoPoll [];
   VoDeliver {| m_hdr := ex_hdr ST_DATA 8 100; m_payload := [1; 2; 3] |}; VoPoll [];
   VoDeliver {| m_hdr := ex_hdr ST_STATE 6 101; m_payload := [] |}; VoPoll []; VoShutdown; VoPoll []].

Definition ex_trace : list fstep :=
  match vsock_new (ex_cc 1048576) (fun _ _ => tt) ex_cfg with
  | Some s0 => ftrace (ex_cc 1048576) s0 ex_ops
  | None => []
  end.

Definition emits_kind (p : fpacket -> bool) (tr : list fstep) : bool :=
  existsb (fun st => existsb p (emitted_of (fs_result st))) tr.

Lemma c11_emitted_nonvacuous :
  c11_config_ok ex_cfg = true /\
  forallb (c11_emitted_ok ex_cfg) ex_trace = true /\
  emits_kind (fun q => ptype_eqb (ch_type (fq_hdr q)) ST_DATA && (fq_plen q =? 100) &&
                       (ch_conn_id (fq_hdr q) =? 2066)) ex_trace = true /\
  emits_kind (fun q => ptype_eqb (ch_type (fq_hdr q)) ST_STATE &&
                       match ch_sack (fq_hdr q) with Some _ => true | None => false end) ex_trace = true /\
  emits_kind (fun q => ptype_eqb (ch_type (fq_hdr q)) ST_FIN) ex_trace = true.
Proof. vm_compute. repeat split; reflexivity. Qed.

(* the predicate is not trivially true: it rejects a wrong connection id, a data packet without payload,
   a payload on an ACK, an out-of-range field, a SACK of another length *)
Definition ex_pkt (t : ptype) (conn seq : Z) (sk : option sackbits) (plen : Z) : fpacket :=
  {| fq_hdr := {| ch_type := t; ch_conn_id := conn; ch_ts := 10; ch_ts_diff := 0; ch_wnd := 1048576;
                  ch_seq := seq; ch_ack := 6; ch_sack := sk; ch_close_reason := None |};
     fq_plen := plen |}.

Lemma c11_packet_ok_rejects :
  c11_packet_ok ex_cfg (ex_pkt ST_STATE 2066 101 None 0) = true /\
  c11_packet_ok ex_cfg (ex_pkt ST_STATE 2065 101 None 0) = false /\
  c11_packet_ok ex_cfg (ex_pkt ST_SYN 2065 101 None 0) = true /\
  c11_packet_ok ex_cfg (ex_pkt ST_SYN 2066 101 None 0) = false /\
  c11_packet_ok ex_cfg (ex_pkt ST_DATA 2066 101 None 0) = false /\
  c11_packet_ok ex_cfg (ex_pkt ST_STATE 2066 101 None 3) = false /\
  c11_packet_ok ex_cfg (ex_pkt ST_FIN 2066 65536 None 0) = false /\
  c11_packet_ok ex_cfg (ex_pkt ST_STATE 2066 101 (Some {| sk_bits := repeat false 64; sk_len := 64 |}) 0) = true /\
  c11_packet_ok ex_cfg (ex_pkt ST_STATE 2066 101 (Some {| sk_bits := repeat false 64; sk_len := 32 |}) 0) = false.
Proof. vm_compute. repeat split; reflexivity. Qed.
