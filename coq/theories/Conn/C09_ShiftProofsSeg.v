(* C09 trace shift, layer 1: the Segments table and Recovery::on_ack commute with the relabelling
   of our sequence numbers under the comparison guards of Conn/C09_Shift.v, and those guards hold of
   the relabelled arguments again. *)
From Utp Require Import Base.Prelude Wire.SeqNr Wire.SeqNr_Proofs Wire.Header Tx.Segments
  Conn.Recovery Conn.Msg Conn.C09_Pred Conn.C09_Shift Conn.C09_ShiftProofsSeq.

Ltac ssimpl := cbn [shift_segments ss_segs ss_len_bytes ss_offset ss_removed ss_sack_depth
                    ss_last_sack_empty ss_snd_una] in *.

Lemma enqueue_shift d t n p : enqueue (shift_segments d t) n p = shift_segments d (enqueue t n p).
Proof. reflexivity. Qed.

Lemma on_sent_shift d t i now : on_sent (shift_segments d t) i now = shift_segments d (on_sent t i now).
Proof. reflexivity. Qed.

Lemma pop_mtu_probe_shift d t q : u16_ok q = true ->
  pop_mtu_probe (shift_segments d t) (sh16 d q) =
  (shift_segments d (fst (pop_mtu_probe t q)), snd (pop_mtu_probe t q)).
Proof.
  intros Hq. unfold pop_mtu_probe. ssimpl.
  rewrite sh16_wadd16, sh16_wsub16, sh16_eqb by (try apply u16_ok_wsub16; assumption).
  destruct (last_and_init (ss_segs t)) as [[ini s]|]; [|reflexivity].
  destruct ((_ =? q) && sg_probe s && negb (sg_delivered s)); reflexivity.
Qed.

Lemma pop_expired_shift d t to mr :
  pop_expired_mtu_probe (shift_segments d t) to mr =
  (shift_segments d (fst (pop_expired_mtu_probe t to mr)),
   shift_pe d (snd (pop_expired_mtu_probe t to mr))).
Proof.
  unfold pop_expired_mtu_probe. ssimpl.
  destruct (last_and_init (ss_segs t)) as [[ini s]|]; [|reflexivity].
  destruct (sg_delivered s); [reflexivity|].
  destruct (to && sg_probe s && (mr <=? seg_retransmit_count s)).
  - cbn [fst snd shift_pe]. now rewrite sh16_wadd16, sh16_wsub16.
  - destruct (sg_probe s); reflexivity.
Qed.

Lemma sack_phase_shift d t rest a1 u now ack sk :
  match rest with
  | [] => true
  | _ :: _ => match sk with
              | Some _ => cmp_ok u ack && (if seq_gt u ack then cmp_ok (wadd16 ack 2) u else true)
              | None => true
              end
  end = true ->
  sack_phase (shift_segments d t) rest a1 (sh16 d u) now (sh16 d ack) sk =
  sack_phase t rest a1 u now ack sk.
Proof.
  intros G. unfold sack_phase. destruct rest as [|x r]; [reflexivity|].
  destruct sk as [k|]; [|reflexivity].
  apply andb_true_iff in G as [G1 G2]. rewrite (cmp_ok_seq_gt d u ack G1).
  destruct (seq_gt u ack); [|reflexivity].
  rewrite sh16_wadd16, (cmp_ok_seq_sub d _ _ G2). reflexivity.
Qed.

Lemma remove_up_to_ack_shift d t now ack sk : g_remove_up_to_ack t ack sk = true ->
  remove_up_to_ack (shift_segments d t) now (sh16 d ack) sk =
  (shift_segments d (fst (remove_up_to_ack t now ack sk)), snd (remove_up_to_ack t now ack sk)).
Proof.
  unfold g_remove_up_to_ack. intros G. apply andb_true_iff in G as [G1 G2].
  unfold remove_up_to_ack. ssimpl. rewrite (cmp_ok_seq_sub d _ _ G1).
  cbv zeta in G2.
  set (offset := seq_sub ack (ss_snd_una t)) in *.
  set (dc := if 0 <=? offset then Z.to_nat (Z.min (offset + 1) (len_z (ss_segs t))) else 0%nat) in *.
  rewrite sh16_wadd16.
  rewrite sack_phase_shift by exact G2.
  destruct (sack_phase t (skipn dc (ss_segs t)) _ _ now ack sk) as [[[rest2 a2] depth] lse].
  destruct (strip_delivered rest2 0 0) as [[rest3 cnt3] bytes3].
  cbn [fst snd]. unfold shift_segments; cbn [ss_segs ss_len_bytes ss_offset ss_removed ss_sack_depth
    ss_last_sack_empty ss_snd_una]. now rewrite sh16_wadd16.
Qed.

Lemma calc_flight_size_shift d t ls : g_calc_flight_size t ls = true ->
  calc_flight_size (shift_segments d t) (sh16 d ls) = calc_flight_size t ls.
Proof.
  unfold g_calc_flight_size, calc_flight_size. intros G. ssimpl. now rewrite (cmp_ok_seq_sub d _ _ G).
Qed.

Lemma filter_map_shift_fs d (P : for_sending -> bool) l :
  (forall f, P (shift_fs d f) = P f) ->
  filter P (map (shift_fs d) l) = map (shift_fs d) (filter P l).
Proof.
  intros HP. induction l as [|x r IH]; [reflexivity|].
  cbn [map filter]. rewrite HP. destruct (P x); cbn [map]; now rewrite IH.
Qed.

Definition shift_start (d : Z) (st : option Z) : option Z :=
  match st with Some s => Some (sh16 d s) | None => None end.

Lemma iter_for_sending_shift d t st : g_iter_for_sending t st = true ->
  iter_for_sending (shift_segments d t) (shift_start d st) =
  map (shift_fs d) (iter_for_sending t st).
Proof.
  unfold g_iter_for_sending, iter_for_sending. intros G. ssimpl.
  assert (E : match shift_start d st with
              | Some s => Z.to_nat (Z.max (seq_sub s (sh16 d (ss_snd_una t))) 0)
              | None => 0%nat end =
              match st with
              | Some s => Z.to_nat (Z.max (seq_sub s (ss_snd_una t)) 0)
              | None => 0%nat end).
  { destruct st as [s|]; [|reflexivity]. cbn [shift_start]. now rewrite (cmp_ok_seq_sub d _ _ G). }
  rewrite E. clear E.
  set (off := match st with Some s => _ | None => _ end).
  rewrite <- filter_map_shift_fs by reflexivity.
  f_equal. rewrite map_map. apply map_ext. intros [i s]. unfold shift_fs; cbn [fs_idx fs_seq fs_payload_offset fs_seg].
  now rewrite sh16_wadd16.
Qed.

Lemma iter_for_sending_shift_none d t :
  iter_for_sending (shift_segments d t) None = map (shift_fs d) (iter_for_sending t None).
Proof. apply (iter_for_sending_shift d t None). reflexivity. Qed.

Lemma pipe_loop_shift d t hr th now : forall l a,
  (forall p : nat * seg, In p l -> cmp_ok (wadd16 (ss_snd_una t) (Z.of_nat (fst p) mod M16)) hr = true) ->
  pipe_loop l (shift_segments d t) (sh16 d hr) th now a = pipe_loop l t hr th now a.
Proof.
  induction l as [|[off s] r IH]; intros a G; [reflexivity|].
  pose proof (G _ (or_introl eq_refl)) as G1. cbn [fst] in G1.
  specialize (fun a => IH a (fun p H => G p (or_intror H))).
  cbn [pipe_loop]. ssimpl.
  destruct (seg_last_sent s) as [ls|].
  - destruct (sg_delivered s).
    + now rewrite IH.
    + rewrite sh16_wadd16, (cmp_ok_seq_le d _ _ G1). now rewrite IH.
  - now rewrite IH.
Qed.

Definition shift_pipe_res (d : Z) (r : option (segments * Z * option Z)) : option (segments * Z * option Z) :=
  match r with Some (t', p, rc) => Some (shift_segments d t', p, rc) | None => None end.

Lemma calc_pipe_shift d t hr hd rtt now : g_calc_pipe t hr hd = true ->
  calc_pipe (shift_segments d t) (sh16 d hr) (sh16 d hd) rtt now =
  shift_pipe_res d (calc_pipe t hr hd rtt now).
Proof.
  unfold g_calc_pipe. intros G. apply andb_true_iff in G as [G1 G2]. cbv zeta in G2.
  unfold calc_pipe. ssimpl. rewrite (cmp_ok_seq_sub d _ _ G1).
  set (take := Z.min (Z.max (seq_sub hd (ss_snd_una t)) 0) (len_z (ss_segs t))) in *.
  destruct (len_z (ss_segs t) <? take); [reflexivity|].
  rewrite forallb_forall in G2.
  rewrite pipe_loop_shift by (intros p Hp%in_rev; now apply G2).
  destruct (pipe_loop _ t hr _ now _) as [upd a]. reflexivity.
Qed.

(* ---- Recovery ---- *)
Section Rec.
Context {CC : Type} (cci : cc_iface CC).
Variables da db : Z.

Definition shift_rec_res (r : option (recovery * segments * CC)) : option (recovery * segments * CC) :=
  match r with
  | Some (r', t', c) => Some (shift_recovery da r', shift_segments da t', c)
  | None => None
  end.

Lemma count_sack_shift h prev :
  count_sack_duplicates (shift_in_hdr da db h) prev = count_sack_duplicates h prev.
Proof. reflexivity. Qed.

Lemma count_non_sack_shift h prev la :
  match la with Some (_, a) => eq_ok a (ch_ack h) | None => true end = true ->
  count_non_sack_duplicates (shift_in_hdr da db h) prev (shift_last_ack da la) =
  (fst (count_non_sack_duplicates h prev la), shift_last_ack da (snd (count_non_sack_duplicates h prev la))).
Proof.
  intros G. unfold count_non_sack_duplicates. destruct la as [[w a]|]; [|reflexivity].
  cbn [shift_last_ack shift_in_hdr ch_type ch_ack ch_wnd].
  apply andb_true_iff in G as [Ga Gh]. rewrite (sh16_eqb da a (ch_ack h) Ga Gh).
  destruct (ptype_eqb (ch_type h) ST_STATE && (a =? ch_ack h) && negb (negb (w =? ch_wnd h))); reflexivity.
Qed.

Lemma recovery_on_ack_shift r h segs ls cc now rtt :
  g_recovery_on_ack r h segs ls = true ->
  recovery_on_ack cci (shift_recovery da r) (shift_in_hdr da db h) (shift_segments da segs) (sh16 da ls)
                  cc now rtt =
  shift_rec_res (recovery_on_ack cci r h segs ls cc now rtt).
Proof.
  unfold g_recovery_on_ack, recovery_on_ack. intros G.
  cbn [shift_recovery rv_supports_sack rv_last_ack rv_phase shift_in_hdr ch_sack ch_ack]. ssimpl.
  destruct (rv_phase r) as [rp|dup|rc]; cbn [shift_rphase].
  - rewrite (cmp_ok_seq_ge da _ _ G). destruct (seq_ge (ch_ack h) rp); reflexivity.
  - destruct (ss_segs segs) as [|x l] eqn:Es; [reflexivity|].
    apply andb_true_iff in G as [G1 G2].
    fold (shift_in_hdr da db h).
    rewrite count_sack_shift, (count_non_sack_shift h dup (rv_last_ack r) G1).
    set (counted' := if rv_supports_sack r || _ then _ else _).
    set (counted := if rv_supports_sack r || _ then _ else _).
    assert (E : counted' = match counted with Some (dd, la) => Some (dd, shift_last_ack da la) | None => None end).
    { unfold counted, counted'. destruct (rv_supports_sack r || _).
      - destruct (count_sack_duplicates h dup); reflexivity.
      - now destruct (count_non_sack_duplicates h dup (rv_last_ack r)). }
    rewrite E. clear E counted'. destruct counted as [[dd la]|]; [|reflexivity].
    destruct (dd <? SACK_DUP_THRESH); [reflexivity|].
    rewrite sh16_wsub16.
    rewrite (calc_pipe_shift da segs _ _ rtt now G2).
    destruct (calc_pipe segs _ ls rtt now) as [[[segs' pipe] recalc]|]; reflexivity.
  - apply andb_true_iff in G as [G1 G2].
    cbn [rc_recovery_point]. rewrite (cmp_ok_seq_ge da _ _ G1).
    destruct (seq_ge (ch_ack h) (rc_recovery_point rc)); [|reflexivity].
    cbn [rc_cwnd]. fold (shift_segments da segs). rewrite (calc_flight_size_shift da segs ls G2). reflexivity.
Qed.

Lemma recovery_on_rto_shift r ls :
  recovery_on_rto_timeout (shift_recovery da r) (sh16 da ls) =
  shift_recovery da (recovery_on_rto_timeout r ls).
Proof. unfold recovery_on_rto_timeout. cbn [shift_recovery rv_phase]. destruct (rv_phase r); reflexivity. Qed.

Lemma remaining_cwnd_shift r w : remaining_cwnd (shift_recovery da r) w = remaining_cwnd r w.
Proof. unfold remaining_cwnd. cbn [shift_recovery rv_phase]. destruct (rv_phase r); reflexivity. Qed.

Lemma is_recovering_shift r : is_recovering (shift_recovery da r) = is_recovering r.
Proof. unfold is_recovering. cbn [shift_recovery rv_phase]. destruct (rv_phase r); reflexivity. Qed.

End Rec.

(* ---- the guards of this layer hold of the relabelled arguments ---- *)
Lemma g_remove_up_to_ack_shift d t ack sk : g_remove_up_to_ack t ack sk = true ->
  g_remove_up_to_ack (shift_segments d t) (sh16 d ack) sk = true.
Proof.
  unfold g_remove_up_to_ack. intros G. apply andb_true_iff in G as [G1 G2]. ssimpl.
  rewrite (cmp_ok_shift d _ _ G1), (cmp_ok_seq_sub d _ _ G1). cbn [andb]. cbv zeta in *.
  set (dc := if 0 <=? seq_sub ack (ss_snd_una t) then _ else 0%nat) in *.
  destruct (skipn dc (ss_segs t)); [reflexivity|]. destruct sk; [|reflexivity].
  apply andb_true_iff in G2 as [G2 G3].
  rewrite sh16_wadd16, (cmp_ok_shift d _ _ G2), (cmp_ok_seq_gt d _ _ G2). cbn [andb].
  destruct (seq_gt _ ack); [|reflexivity]. rewrite sh16_wadd16. now apply cmp_ok_shift.
Qed.

Lemma g_calc_flight_size_shift d t ls : g_calc_flight_size t ls = true ->
  g_calc_flight_size (shift_segments d t) (sh16 d ls) = true.
Proof. unfold g_calc_flight_size. ssimpl. apply cmp_ok_shift. Qed.

Lemma g_iter_for_sending_shift d t st : g_iter_for_sending t st = true ->
  g_iter_for_sending (shift_segments d t) (shift_start d st) = true.
Proof. unfold g_iter_for_sending. destruct st; [|reflexivity]. ssimpl. apply cmp_ok_shift. Qed.

Lemma g_calc_pipe_shift d t hr hd : g_calc_pipe t hr hd = true ->
  g_calc_pipe (shift_segments d t) (sh16 d hr) (sh16 d hd) = true.
Proof.
  unfold g_calc_pipe. intros G. apply andb_true_iff in G as [G1 G2]. ssimpl.
  rewrite (cmp_ok_shift d _ _ G1), (cmp_ok_seq_sub d _ _ G1). cbn [andb]. cbv zeta in *.
  rewrite forallb_forall in *. intros p Hp. rewrite sh16_wadd16. apply cmp_ok_shift. now apply G2.
Qed.

Lemma g_recovery_on_ack_shift da db r h segs ls : g_recovery_on_ack r h segs ls = true ->
  g_recovery_on_ack (shift_recovery da r) (shift_in_hdr da db h) (shift_segments da segs) (sh16 da ls) = true.
Proof.
  unfold g_recovery_on_ack. cbn [shift_recovery rv_phase rv_last_ack shift_in_hdr ch_ack]. ssimpl.
  destruct (rv_phase r) as [rp|dup|rc]; cbn [shift_rphase rc_recovery_point].
  - apply cmp_ok_shift.
  - destruct (ss_segs segs); [reflexivity|]. intros G. apply andb_true_iff in G as [G1 G2].
    apply andb_true_iff. split.
    + destruct (rv_last_ack r) as [[w a]|]; [apply eq_ok_shift|reflexivity].
    + rewrite sh16_wsub16. fold (shift_segments da segs). now apply g_calc_pipe_shift.
  - intros G. apply andb_true_iff in G as [G1 G2]. rewrite (cmp_ok_shift da _ _ G1). cbn [andb].
    fold (shift_segments da segs). now apply g_calc_flight_size_shift.
Qed.
