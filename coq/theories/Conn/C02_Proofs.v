(* C02 (the wake-up half): theorems about the model for the predicates of C02_Pred.v and
   refutation witness for the known class D9, regression examples for the repaired D2 / D8 / D14. *)
From Utp Require Import Base.Prelude Wire.SeqNr Wire.Header Rtt.Rtte Mtu.SegSizes Rx.Rx Rx.Rx_Proofs
  Tx.Ring Tx.Ring_Proofs Tx.Segments Conn.Recovery Conn.Msg Conn.VSockRec Conn.VSock Conn.VSockRun
  Conn.VObs Conn.C10_Pred Conn.C02_Pred Conn.VSock_Inv Conn.C10_Proofs.

(* ------------------------------------------------------------------ witnesses *)
(* the configuration of most scenarios below and in C02_D20 / C02_Step / C02_Step2 *)
Definition timer_cfg : vconfig :=
  {| vc_incoming := false; vc_ipv4 := true; vc_link_mtu := 1500; vc_rx_buf := 1048576;
     vc_tx_init := 32768; vc_tx_max := 1048576; vc_nagle := false; vc_max_retx := 5;
     vc_inactivity := 10000000000; vc_wait_last_ack := true; vc_mtu_probe_max_retx := 1;
     vc_isn := 100; vc_remote_seq := 1; vc_remote_conn_id := 7; vc_remote_wnd := 1048576;
     vc_remote_ts := 5; vc_syn_sent := 0; vc_now0 := 1000000 |}.

(* D2 (repaired in /repo): P H P — the shutdown on the idle connection wakes the dispatcher parked on
   the TX waker, and the next poll emits the FIN.  Regression example on the witness of the old defect. *)
Definition d2_ops : list vop := [VoPoll []; VoShutdown; VoPoll []].

Lemma shutdown_idle_regression :
  exists w cfg ops,
    vconfig_ok cfg = true /\
    existsb shutdown_idle_guard (wtrace w cfg ops) = true /\
    forallb (c02_shutdown_wakes cfg) (wtrace w cfg ops) = true /\
    existsb (c02_d2_class cfg) (wtrace w cfg ops) = false /\
    c02_prompt cfg (wtrace w cfg ops) = true /\
    match rev (wtrace w cfg ops) with
    | st :: _ => emits (fs_result st) (fun p => match ch_type (fq_hdr p) with ST_FIN => true | _ => false end)
    | [] => false
    end = true.
Proof.
  exists 1056, (wcfg 1048576), d2_ops.
  (* the trace is abstracted first: one evaluation serves every conjunct *)
  set (tr := wtrace _ _ _). pattern tr. subst tr. vm_compute. repeat split.
Qed.

(* D8 (repaired in /repo): P R100 M1(FIN in sequence) P R100 — the reader parked by the first read IS
   woken by the poll that flushes the EOF; the second read returns EOF.  Regression example. *)
Definition d8_ops : list vop :=
  [VoPoll []; VoRead 100; VoDeliver (wmsg ST_FIN 1 100 0); VoPoll []; VoRead 100].

Lemma eof_flush_regression :
  exists w cfg ops,
    vconfig_ok cfg = true /\ Forall op_msg_ok ops /\
    existsb eof_flush_guard (wtrace w cfg ops) = true /\
    forallb (c02_eof_wakes cfg) (wtrace w cfg ops) = true /\
    existsb (c02_d8_class cfg) (wtrace w cfg ops) = false /\
    match rev (wtrace w cfg ops) with st :: _ => fs_result st = FrReadEof | [] => False end.
Proof.
  exists 1056, (wcfg 1048576), d8_ops.
  split; [vm_compute; reflexivity|]. split; [repeat constructor|].
  set (tr := wtrace _ _ _). pattern tr. subst tr. vm_compute. repeat split.
Qed.

(* the same at the component level: `rx 100 10 r10 a1,0,0,0 f` now fires the reader's waker *)
Lemma rx_eof_flush_regression :
  exists s,
    rx_inv s /\ reader_waker s = true /\ q s = [] /\
    let '(s', r, w) := rx_flush s in
    r = FlOk 0 /\ w = [WakeReader] /\ q s' = [QEof] /\ reader_waker s' = false.
Proof.
  exists (rx_run (rx_build 100 10) [ORead 10; OAddRemove KFin [] 0]).
  split; [apply rx_reachable_inv; [lia|lia|repeat constructor; cbn; lia]|].
  vm_compute. repeat split.
Qed.

(* D9: receive buffer 3000, link 1500, two 1100-byte packets: the ACK advertises window 0, no
   RX dispatcher waker is registered, the read of 2200 bytes wakes nobody *)
Definition d9_ops : list vop :=
  [VoPoll []; VoDeliver (wmsg ST_DATA 1 100 1100); VoDeliver (wmsg ST_DATA 2 100 1100); VoPoll [];
   VoRead 3000; VoPoll []].

Lemma zero_window_without_waker_refuted :
  exists w cfg ops,
    vconfig_ok cfg = true /\ Forall op_msg_ok ops /\
    forallb (c02_zero_window_waker cfg) (wtrace w cfg ops) = false /\
    existsb (c02_d9_class cfg) (wtrace w cfg ops) = true /\
    (* the read that drains the queue wakes nobody; only the next poll (made by hand) sends the update *)
    forallb (fun st => match fs_event st with FeRead _ => negb (fs_disp_woken st) | _ => true end)
            (wtrace w cfg ops) = true.
Proof.
  exists 1056, (wcfg 3000), d9_ops.
  split; [vm_compute; reflexivity|]. split.
  { repeat constructor; cbv [op_msg_ok msg_ok wmsg m_hdr ch_type m_payload]; vm_compute; discriminate. }
  set (tr := wtrace _ _ _). pattern tr. subst tr. vm_compute. repeat split.
Qed.

(* D14 (repaired in /repo): a poll that pops an expired MTU probe while other segments are still
   unacknowledged keeps a retransmission timer (re-armed for one RTO from now) instead of turning it
   off.  Regression example on the witness of the old defect (constant window 1056: nothing can be
   sent after the pop, so only the pop itself decides the timer).
   case: vsock out 1 1500 1500 32768 1048576 0 1 10000000000 0 0 65535 0 2065 1048576 2464197817 1000000
         W16434,0 P M2,0,1,524288,0,0,0,- P T520500000 P *)
Definition d14_cfg : vconfig :=
  {| vc_incoming := false; vc_ipv4 := true; vc_link_mtu := 1500; vc_rx_buf := 1500;
     vc_tx_init := 32768; vc_tx_max := 1048576; vc_nagle := false; vc_max_retx := 1;
     vc_inactivity := 10000000000; vc_wait_last_ack := false; vc_mtu_probe_max_retx := 0;
     vc_isn := 65535; vc_remote_seq := 0; vc_remote_conn_id := 2065; vc_remote_wnd := 1048576;
     vc_remote_ts := 2464197817; vc_syn_sent := 0; vc_now0 := 1000000 |}.

Definition d14_ack : msg :=
  {| m_hdr := {| ch_type := ST_STATE; ch_conn_id := 0; ch_ts := 0; ch_ts_diff := 0; ch_wnd := 524288;
                 ch_seq := 0; ch_ack := 1; ch_sack := None; ch_close_reason := None |};
     m_payload := [] |}.

Definition d14_ops : list vop :=
  [VoWrite (repeat 0 (Z.to_nat 16434)); VoPoll []; VoDeliver d14_ack; VoPoll [];
   VoSetNow 520500000; VoPoll []].

(* the situation of D14: a Pending poll with a writable transport lowered max_ss (it popped an
   expired probe) and leaves sent, undelivered segments behind *)
Definition probe_popped_outstanding (st : fstep) : bool :=
  match fs_event st, fs_result st with
  | FePoll _, FrPoll PollPending _ _ _ =>
      (f_max_ss (fs_post st) <? f_max_ss (fs_pre st)) && outstanding (fs_post st) &&
      negb (f_transport_pending (fs_post st))
  | _, _ => false
  end.

Lemma probe_expiry_rto_regression :
  exists w cfg ops,
    vconfig_ok cfg = true /\ Forall op_msg_ok ops /\
    existsb probe_popped_outstanding (wtrace w cfg ops) = true /\
    forallb (c02_rto_armed cfg) (wtrace w cfg ops) = true /\
    existsb (c02_d14_class cfg) (wtrace w cfg ops) = false /\
    (* the timer left behind is one (initial) RTO after the poll *)
    match rev (wtrace w cfg ops) with
    | st :: _ => f_t_retransmit (fs_post st) = Some (fs_now st + f_rto (fs_post st))
    | [] => False
    end.
Proof.
  exists 1056, d14_cfg, d14_ops.
  split; [vm_compute; reflexivity|]. split; [repeat constructor|].
  set (tr := wtrace _ _ _). pattern tr. subst tr. vm_compute. repeat split.
Qed.

(* ------------------------------------------------------------------ theorems: application events *)
Section Thms.
Context {CC : Type} (cci : cc_iface CC).

(* one step as ftrace records it *)
Definition fstep_of (s : vsock CC) (o : vop) : fstep :=
  let '(s', out, dw, sw) := vstep cci s o in
  {| fs_now := v_env_now s'; fs_pre := fp_of_vsock cci s; fs_event := fevent_of o;
     fs_result := fresult_of out; fs_disp_woken := dw; fs_self_woken := sw;
     fs_post := fp_of_vsock cci s' |}.

Lemma ftrace_cons s o rest :
  exists tl, ftrace cci s (o :: rest) = fstep_of s o :: tl.
Proof.
  unfold fstep_of. cbn [ftrace]. destruct (vstep cci s o) as [[[s' out] dw] sw]. eexists; reflexivity.
Qed.

(* a write that stored bytes wakes the dispatcher parked on the TX waker *)
Lemma write_wakes_ok cfg s buf : c02_write_wakes cfg (fstep_of s (VoWrite buf)) = true.
Proof.
  unfold fstep_of, c02_write_wakes. cbn [vstep].
  destruct (writer_dropped (v_tx s)); [reflexivity|].
  destruct (poll_write (v_tx s) buf) as [[tx1 r] w] eqn:E.
  cbn [fs_event fevent_of fs_result fresult_of fs_pre fs_disp_woken].
  destruct r; try reflexivity.
  unfold fp_of_vsock; cbn [f_tx_disp_waker]. destruct (t_disp_waker (v_tx s)) eqn:Ed; [|reflexivity].
  destruct (write_wakes_dispatcher _ _ _ _ _ E Ed) as [-> _]. reflexivity.
Qed.

Lemma drop_writer_wakes_ok cfg s : c02_drop_writer_wakes cfg (fstep_of s VoDropWriter) = true.
Proof.
  unfold fstep_of, c02_drop_writer_wakes. cbn [vstep]. unfold drop_writer.
  cbn [fs_event fevent_of]. unfold fp_of_vsock; cbn [fs_pre f_tx_disp_waker f_tx_writer_dropped].
  destruct (writer_dropped (v_tx s)); cbn [fs_disp_woken fs_pre f_tx_disp_waker f_tx_writer_dropped negb andb];
    [rewrite andb_false_r; reflexivity|].
  destruct (t_disp_waker (v_tx s)); reflexivity.
Qed.

Lemma read_wakes_ok cfg s o :
  (exists n, o = VoRead n) \/ o = VoDropReader -> c02_read_wakes cfg (fstep_of s o) = true.
Proof.
  intros [[n ->]| ->]; unfold fstep_of, c02_read_wakes; cbn [vstep].
  - destruct (reader_dropped (v_rx s)); [reflexivity|].
    unfold rx_read. destruct (read_loop _ _ _ _) as [[[s1 out] dead] err] eqn:E.
    assert (Hdw : disp_waker s1 = disp_waker (v_rx s)).
    { assert (Hq : forall fuel r room o0 r' o' d e, read_loop fuel r room o0 = (r', o', d, e) ->
                   disp_waker r' = disp_waker r).
      { induction fuel as [|fuel IH]; intros r room o0 r' o' d e; cbn [read_loop].
        - intro H; injection H as <- _ _ _; reflexivity.
        - destruct (room <=? 0); [intro H; injection H as <- _ _ _; reflexivity|].
          destruct (current r).
          + destruct (is_eof r); [intro H; injection H as <- _ _ _; reflexivity|].
            destruct (q r) as [|item qr].
            * destruct (vsock_closed r); intro H; injection H as <- _ _ _; reflexivity.
            * destruct item; [intro H; apply IH in H; exact H|..];
                intro H; injection H as <- _ _ _; reflexivity.
          + intro H; apply IH in H; exact H. }
      eapply Hq; exact E. }
    destruct err; [reflexivity|]. destruct out as [|b bs].
    + destruct (is_eof s1); [reflexivity|]. destruct dead; reflexivity.
    + cbn [fs_event fevent_of fs_result fresult_of fs_pre fs_disp_woken].
      unfold fp_of_vsock; cbn [f_rx_disp_waker]. rewrite Hdw.
      destruct (disp_waker (v_rx s)); reflexivity.
  - cbn [fevent_of fs_event]. unfold fp_of_vsock; cbn [fs_pre f_rx_disp_waker f_rx_reader_dropped].
    destruct (reader_dropped (v_rx s)); [rewrite andb_false_r; reflexivity|].
    unfold rx_drop_reader. cbn [fs_disp_woken]. destruct (disp_waker (v_rx s)); reflexivity.
Qed.

(* D2 repaired: a shutdown on an idle established connection wakes the dispatcher parked on the TX
   waker — every state *)
Lemma shutdown_wakes_ok cfg s : c02_shutdown_wakes cfg (fstep_of s VoShutdown) = true.
Proof.
  unfold fstep_of, c02_shutdown_wakes, shutdown_idle_guard. cbn [vstep].
  destruct (writer_dropped (v_tx s)); [reflexivity|].
  destruct (poll_shutdown (v_tx s)) as [[tx1 r] w] eqn:E.
  cbn [fs_event fevent_of fs_result fresult_of fs_pre fs_disp_woken].
  destruct r; try reflexivity.
  unfold idle_established, tx_idle, fp_of_vsock;
    cbn [f_tx_len f_tx_disp_waker f_tx_writer_shutdown f_tx_closed f_segs f_state is_established].
  destruct (is_established _); [|reflexivity]. cbn [andb].
  destruct (Z.eqb_spec (Z.of_nat (length (ring (v_tx s)))) 0) as [Hl|]; [|reflexivity]. cbn [andb].
  destruct (map fseg_of _); [|reflexivity]. cbn [andb].
  destruct (t_disp_waker (v_tx s)) eqn:Ed; [|reflexivity]. cbn [andb].
  destruct (writer_shutdown (v_tx s)) eqn:Es; [reflexivity|]. cbn [negb andb].
  destruct (t_vsock_closed (v_tx s)) eqn:Ec; [reflexivity|]. cbn [negb].
  assert (Hr : ring (v_tx s) = []) by (destruct (ring (v_tx s)); [reflexivity|cbn [length] in Hl; lia]).
  destruct (shutdown_idle_wakes_dispatcher _ _ _ _ Hr Ec Es Ed E) as (_ & -> & _). reflexivity.
Qed.

(* component level: the first shutdown sets writer_shutdown (what the next poll acts on) and fires
   the dispatcher's waker when it is registered *)
Lemma shutdown_sets_flag s tx1 r w :
  poll_shutdown s = (tx1, r, w) -> ring s = [] -> t_vsock_closed s = false ->
  writer_shutdown tx1 = true /\ r = UrPending /\
  (writer_shutdown s = false -> t_disp_waker s = true -> w = [TwDispatcher]).
Proof.
  unfold poll_shutdown. intros H Hr Hc. rewrite Hr, Hc in H.
  destruct (writer_shutdown s) eqn:Es; injection H as <- <- <-.
  - repeat split. discriminate.
  - repeat split. intros _ ->. reflexivity.
Qed.

(* the RX dispatcher waker is registered by every flush that leaves less than one creation-time
   MSS of window (D9: rx_window() rounds to the CURRENT mss instead) *)
Lemma flush_registers_waker s s' r w :
  rx_flush s = (s', r, w) ->
  sat_sub (q_window s) (filled_front_bytes s) < max_incoming_payload s -> r <> FlPanic ->
  disp_waker s' = true.
Proof.
  unfold rx_flush. intros H Hlt Hnp.
  destruct (Z.ltb_spec (sat_sub (q_window s) (filled_front_bytes s)) (max_incoming_payload s)) as [_|]; [|lia].
  set (s0 := set_wakers s true (reader_waker s) (last_remaining_rx_window s)) in *.
  assert (Hloop : forall fuel r0 w0 fb fp r1 w1 fb1 fp1,
            flush_loop fuel r0 w0 fb fp = Some (r1, w1, fb1, fp1) -> disp_waker r1 = disp_waker r0).
  { induction fuel as [|fuel IH]; intros r0 w0 fb fp r1 w1 fb1 fp1; cbn [flush_loop].
    - intro K; injection K as <- _ _ _; reflexivity.
    - destruct (filled_front r0 =? 0); [intro K; injection K as <- _ _ _; reflexivity|].
      destruct (ooq_data r0) as [|m rest]; [discriminate|].
      destruct (w0 <? _); [intro K; injection K as <- _ _ _; reflexivity|].
      destruct (reader_dropped r0); [intro K; injection K as <- _ _ _; reflexivity|].
      destruct (_ <? _); [discriminate|].
      intro K. apply IH in K. rewrite K. reflexivity. }
  destruct (flush_loop _ s0 _ 0 0) as [[[[s1 w1] fb] fp]|] eqn:E.
  - apply Hloop in E. destruct (0 <? fp); injection H as <- _ _; cbn [set_wakers disp_waker];
      rewrite E; reflexivity.
  - injection H as _ <- _. congruence.
Qed.

End Thms.
