(* The joint invariant of one connection and its preservation, function by function.
   Used by Conn/C10_Proofs.v and Conn/C02_Proofs.v. *)
From Utp Require Import Base.Prelude Wire.SeqNr Wire.SeqNr_Proofs Wire.Header Rtt.Rtte Rtt.Rtte_Proofs
  Mtu.SegSizes Rx.Rx Rx.Rx_Proofs Tx.Ring Tx.Ring_Proofs Tx.Segments
  Tx.Segments_Proofs Conn.Recovery Conn.Msg Conn.VSockRec Conn.VSock Conn.VSockRun Conn.VObs
  Conn.C10_Pred.
From Utp Require Conn.VSock_LemmasTx.

Arguments SOk {CC A}. Arguments SErr {CC A}. Arguments SPanic {CC A}.
Arguments BrReturn {CC}. Arguments BrRestart {CC}. Arguments BrPanic {CC}.
Arguments TblDrop {CC}. Arguments TblErr {CC}. Arguments TblContinue {CC}.

(* a congestion controller for witnesses: a constant window *)
Definition fixed_cc (w : Z) : cc_iface unit :=
  {| cc_window := fun _ => w; cc_sshthresh := fun _ => w; cc_set_mss := fun c _ => c;
     cc_smss := fun _ => 528; cc_on_recovered := fun c _ _ => c;
     cc_on_ack := fun c _ _ _ => Some c; cc_on_rto := fun c _ => c;
     cc_on_enter_recovery := fun c _ => c; cc_set_remote_window := fun c _ => c |}.

(* ---- segment sizes (Mtu/SegSizes_Proofs.v is being updated for the D3 fix; the few facts
   needed here are proved locally) ---- *)
Definition ss_ok (s : segsizes) : Prop := 1 <= min_ss s <= max_ss s /\ max_ss s < U16_MAX.

Lemma delivered_ss_ok s n : ss_ok s -> ss_ok (on_payload_delivered s n) /\
  max_ss (on_payload_delivered s n) = max_ss s /\ min_ss s <= min_ss (on_payload_delivered s n).
Proof. unfold ss_ok, on_payload_delivered; cbn [min_ss max_ss]. unfold U16_MAX, M16. lia. Qed.

Lemma failed_ss_ok s n : ss_ok s -> ss_ok (on_probe_failed s n) /\
  max_ss (on_probe_failed s n) <= max_ss s /\ min_ss (on_probe_failed s n) = min_ss s.
Proof. unfold ss_ok, on_probe_failed, sat_sub; cbn [min_ss max_ss]. unfold U16_MAX, M16. lia. Qed.

Lemma disarm_ss_ok s : ss_ok s -> ss_ok (disarm_cooldown s).
Proof. unfold ss_ok, disarm_cooldown; cbn [min_ss max_ss]. tauto. Qed.

Lemma next_size_ok s : ss_ok s ->
  exists s' r, next_segment_size s = Some (s', r) /\ min_ss s' = min_ss s /\ max_ss s' = max_ss s /\
               min_ss s <= r <= max_ss s.
Proof.
  intros [H1 H2]. unfold next_segment_size. destruct (cd_rem s =? 0).
  - unfold next_probe, np_sum2, np_sum1, np_half, np_diff; cbn [min_ss max_ss].
    replace ((0 <=? max_ss s - min_ss s) && (min_ss s + (max_ss s - min_ss s) / 2 <=? U16_MAX) &&
             (min_ss s + (max_ss s - min_ss s) / 2 + 1 <=? U16_MAX)) with true
      by (unfold U16_MAX in *; symmetry; lia).
    cbn [bind]. eexists _, _. split; [reflexivity|]. cbn [min_ss max_ss]. lia.
  - eexists _, _. split; [reflexivity|]. cbn [min_ss max_ss]. lia.
Qed.

(* what the wire parser guarantees about a delivered message (C11) *)
Definition msg_ok (m : msg) : Prop :=
  match ch_type (m_hdr m) with ST_DATA => m_payload m <> [] | _ => m_payload m = [] end.

Section Inv.
Context {CC : Type} (cci : cc_iface CC).
Notation vsock := (vsock CC).
Notation step := (@step CC).

(* the congestion controller's on_ack never panics *)
Definition cc_total : Prop := forall c now len rtt, cc_on_ack cci c now len rtt <> None.

(* ------------------------------------------------------------------ the invariant *)
Definition dup_ok (r : recovery) : Prop :=
  match rv_phase r with CountingDuplicates d => 0 <= d < SACK_DUP_THRESH | _ => True end.

(* the ring and the segment table describe the same byte stream; p = bytes acknowledged by
   messages already processed in this poll but not yet truncated from the ring *)
Definition ring_rel (p : Z) (s : vsock) : Prop :=
  0 <= p /\
  g_removed (v_tx s) + p <= ss_removed (v_segs s) /\
  (v_state s <> Closed -> g_removed (v_tx s) + p = ss_removed (v_segs s)) /\
  ss_offset (v_segs s) <= g_removed (v_tx s) + Z.of_nat (length (ring (v_tx s))).

Definition vs_inv_p (ti tm p : Z) (s : vsock) : Prop :=
  rx_inv (v_rx s) /\
  seg_inv (v_segs s) /\
  tx_inv ti tm (v_tx s) /\ o_tx_max (v_opts s) = tm /\
  ring_rel p s /\
  ss_ok (v_ss s) /\
  no_ovf_inv (v_rtte s) /\
  dup_ok (v_recovery s).

Definition vs_inv (ti tm : Z) (s : vsock) : Prop := vs_inv_p ti tm 0 s.

(* ------------------------------------------------------------------ Hoare triples for `step` *)
Definition not_bug (e : verror) : Prop := match e with ErrBug _ => False | _ => True end.

(* The development is done once for two readings, selected by `strict`:
   strict = true : the transport never answers EMSGSIZE in this poll (emsg_free is threaded
                   through) and NO Bug error is allowed;
   strict = false: any transport; the one Bug error allowed is BugEmsgSizeNoProbe. *)
Variable strict : bool.

Definition allowed (e : verror) : Prop :=
  match e with
  | ErrBug BugEmsgSizeNoProbe => strict = false
  | ErrBug _ => False
  | _ => True
  end.

(* SOk states satisfy Q; an error is an allowed one; no panic *)
Definition sp {A} (m : step A) (Q : vsock -> A -> Prop) : Prop :=
  match m with SOk s a => Q s a | SErr _ e => allowed e | SPanic => False end.

Lemma sp_bind {A B} (m : step A) (f : vsock -> A -> step B) (Q1 : vsock -> A -> Prop)
  (Q2 : vsock -> B -> Prop) :
  sp m Q1 -> (forall s a, Q1 s a -> sp (f s a) Q2) -> sp (sbind m f) Q2.
Proof. destruct m as [s a|s e|]; cbn [sp sbind]; auto. Qed.

Lemma sp_weaken {A} (m : step A) (Q1 Q2 : vsock -> A -> Prop) :
  sp m Q1 -> (forall s a, Q1 s a -> Q2 s a) -> sp m Q2.
Proof. destruct m as [s a|s e|]; cbn [sp]; auto. Qed.

(* ------------------------------------------------------------------ frames
   same_core s s': the fields the invariant reads are unchanged, except v_last_sent_seq_nr
   (range only) *)
Definition same_core (s s' : vsock) : Prop :=
  v_rx s' = v_rx s /\ v_tx s' = v_tx s /\ v_segs s' = v_segs s /\ v_ss s' = v_ss s /\
  v_rtte s' = v_rtte s /\ v_recovery s' = v_recovery s /\ v_opts s' = v_opts s /\
  v_state s' = v_state s /\ v_inbox s' = v_inbox s /\ v_inbox_closed s' = v_inbox_closed s /\
  v_emsg_limit s' = v_emsg_limit s /\ v_now s' = v_now s /\ v_cc s' = v_cc s /\
  v_last_remote_window s' = v_last_remote_window s.

Lemma same_core_refl s : same_core s s.
Proof. unfold same_core; repeat split. Qed.

Lemma same_core_trans a b c : same_core a b -> same_core b c -> same_core a c.
Proof.
  unfold same_core.
  intros (A1&A2&A3&A4&A5&A6&A7&A8&A9&A10&A11&A12&A13&A14) (B1&B2&B3&B4&B5&B6&B7&B8&B9&B10&B11&B12&B13&B14).
  repeat split; congruence.
Qed.

Lemma inv_same_core ti tm p s s' :
  vs_inv_p ti tm p s -> same_core s s' -> vs_inv_p ti tm p s'.
Proof.
  unfold vs_inv_p, ring_rel, same_core.
  intros (I1 & I2 & I3 & I4 & (R0 & R1 & R2 & R3) & I6 & I7 & I8)
         (E1 & E2 & E3 & E4 & E5 & E6 & E7 & E8 & _).
  rewrite E1, E2, E3, E4, E5, E6, E7, E8. tauto.
Qed.

Lemma inv_p_le ti tm p q s : vs_inv_p ti tm p s -> v_state s = Closed -> 0 <= q <= p -> vs_inv_p ti tm q s.
Proof.
  unfold vs_inv_p, ring_rel.
  intros (I1 & I2 & I3 & I4 & (R0 & R1 & R2 & R3) & I6) Hc Hq.
  assert (0 <= q) by lia. assert (g_removed (v_tx s) + q <= ss_removed (v_segs s)) by lia.
  tauto.
Qed.

(* ------------------------------------------------------------------ sending: transport script *)
Definition emsg_free (s : vsock) : Prop :=
  script_legit (v_sends s) = true /\ v_emsg_limit s = None.

Lemma next_send_shape s size s1 o :
  next_send s size = (s1, o) ->
  (s1 = s /\ v_sends s = [] \/ exists o0 r, v_sends s = o0 :: r /\ s1 = set_sends s r) /\
  (emsg_free s -> o <> TEmsgsize).
Proof.
  intro H. destruct (VSock_LemmasTx.next_send_cases _ _ _ _ H) as [Hs Ho]. split; [exact Hs|].
  intros [H1 H2] ->. destruct (Ho eq_refl) as [Hin|Hl]; [|exact (Hl H2)].
  unfold script_legit in H1. rewrite forallb_forall in H1. discriminate (H1 _ Hin).
Qed.

Lemma next_send_core s size s1 o :
  next_send s size = (s1, o) ->
  same_core s s1 /\ v_last_sent_seq_nr s1 = v_last_sent_seq_nr s /\
  v_transport_pending s1 = v_transport_pending s /\ v_restart s1 = v_restart s /\
  (emsg_free s -> emsg_free s1 /\ o <> TEmsgsize).
Proof.
  intro H. destruct (next_send_shape _ _ _ _ H) as [[[-> Hs]|(o0 & r & Hs & ->)] Hf].
  - split; [apply same_core_refl|]. split; [reflexivity|]. split; [reflexivity|]. split; [reflexivity|].
    intro He. split; [exact He|apply Hf; exact He].
  - split; [unfold same_core; vsimpl; repeat split|]. vsimpl.
    split; [reflexivity|]. split; [reflexivity|]. split; [reflexivity|].
    intro He. split; [|apply Hf; exact He]. unfold emsg_free in *; vsimpl.
    destruct He as [H1 H2]. rewrite Hs in H1. cbn [script_legit forallb] in H1.
    apply andb_true_iff in H1. tauto.
Qed.

(* a predicate on states that every `send` helper preserves *)
Definition ef (s : vsock) : Prop := strict = true -> emsg_free s.

Definition send_frame (s s' : vsock) : Prop :=
  same_core s s' /\ (emsg_free s -> emsg_free s') /\ v_restart s' = v_restart s.

Lemma send_frame_ef s s' : send_frame s s' -> ef s -> ef s'.
Proof. unfold send_frame, ef. tauto. Qed.

Lemma send_frame_refl s : send_frame s s.
Proof. unfold send_frame. split; [apply same_core_refl|]. split; auto. Qed.

Lemma send_frame_trans a b c : send_frame a b -> send_frame b c -> send_frame a c.
Proof.
  unfold send_frame. intros (H1 & H2 & H3) (K1 & K2 & K3).
  split; [eapply same_core_trans; eauto|]. split; [auto|congruence].
Qed.

Ltac core_tac := unfold same_core, emsg_free in *; vsimpl; repeat split; tauto.

Lemma send_control_packet_spec s h :
  sp (send_control_packet s h)
     (fun s' _ => send_frame s s' /\ v_last_sent_seq_nr s' = v_last_sent_seq_nr s).
Proof.
  unfold send_control_packet. destruct (v_transport_pending s); [cbn [sp]; split; [apply send_frame_refl|reflexivity]|].
  destruct (next_send s _) as [s1 o] eqn:E.
  destruct (next_send_core _ _ _ _ E) as (Hc & Hl & Htp & Hr & Hf).
  destruct o; cbn [sp]; try exact I.
  - unfold send_frame, on_packet_sent, emit. split; [|vsimpl; exact Hl].
    split; [core_tac|]. split; [|vsimpl; exact Hr]. intro H. destruct (Hf H) as [H1 _]. core_tac.
  - unfold send_frame. split; [|vsimpl; exact Hl].
    split; [core_tac|]. split; [|vsimpl; exact Hr]. intro H. destruct (Hf H) as [H1 _]. core_tac.
Qed.

Lemma send_ack_spec s :
  sp (send_ack s) (fun s' _ => send_frame s s' /\ v_last_sent_seq_nr s' = v_last_sent_seq_nr s).
Proof. unfold send_ack. apply send_control_packet_spec. Qed.

Lemma wsub16_range a b : 0 <= wsub16 a b < M16.
Proof. unfold wsub16, M16. lia. Qed.

Lemma maybe_send_fin_spec s :
  sp (maybe_send_fin s) (fun s' _ => send_frame s s').
Proof.
  unfold maybe_send_fin.
  destruct (v_transport_pending s); [cbn [sp]; apply send_frame_refl|].
  destruct (our_fin_if_unacked (v_state s)) as [seq|] eqn:Ef; [|cbn [sp]; apply send_frame_refl].
  destruct (negb _); [cbn [sp]; apply send_frame_refl|].
  eapply sp_bind; [apply send_control_packet_spec|].
  intros s1 sent [Hfr Hl1]. destruct sent; cbn [sp]; [|exact Hfr].
  eapply send_frame_trans; [exact Hfr|]. unfold send_frame. split; [core_tac|]. split; [core_tac|reflexivity].
Qed.

(* ------------------------------------------------------------------ updating the state *)
Lemma inv_update ti tm p s s' :
  vs_inv_p ti tm p s ->
  v_rx s' = v_rx s -> v_tx s' = v_tx s -> v_opts s' = v_opts s ->
  (v_state s' <> Closed -> v_state s <> Closed) ->
  seg_inv (v_segs s') -> ss_removed (v_segs s') = ss_removed (v_segs s) ->
  ss_offset (v_segs s') <= ss_offset (v_segs s) ->
  ss_ok (v_ss s') -> no_ovf_inv (v_rtte s') -> dup_ok (v_recovery s') ->
  vs_inv_p ti tm p s'.
Proof.
  unfold vs_inv_p, ring_rel.
  intros (I1 & I2 & I3 & I4 & (R0 & R1 & R2 & R3) & I6 & I7 & I8) E1 E2 E3 Hst Hs Hr Ho H1 H2 H3.
  rewrite E1, E2, E3, Hr.
  assert (ss_offset (v_segs s') <= g_removed (v_tx s) + Z.of_nat (length (ring (v_tx s)))) by lia.
  tauto.
Qed.

(* what the rest of a poll keeps fixed once the incoming messages are processed *)
Definition txq_rel (s s' : vsock) : Prop :=
  v_rx s' = v_rx s /\ v_tx s' = v_tx s /\ v_state s' = v_state s /\ v_opts s' = v_opts s /\
  v_inbox s' = v_inbox s /\ v_inbox_closed s' = v_inbox_closed s /\ v_emsg_limit s' = v_emsg_limit s.

Lemma txq_rel_refl s : txq_rel s s.
Proof. unfold txq_rel; repeat split. Qed.
Lemma txq_rel_trans a b c : txq_rel a b -> txq_rel b c -> txq_rel a c.
Proof.
  unfold txq_rel. intros (A1&A2&A3&A4&A5&A6&A7) (B1&B2&B3&B4&B5&B6&B7). repeat split; congruence.
Qed.
Lemma same_core_txq s s' : same_core s s' -> txq_rel s s'.
Proof. unfold same_core, txq_rel. tauto. Qed.

(* ------------------------------------------------------------------ segments inside the ring *)
Lemma tiled_in base l g :
  tiled base l -> In g l -> base <= sg_abs g /\ sg_abs g + sg_size g <= base + sum_sizes l /\ 0 <= sg_size g.
Proof.
  revert base; induction l as [|x xs IH]; intros base Ht Hin; [contradiction|].
  cbn [tiled sum_sizes] in *. destruct Ht as (Ha & H0 & Ht).
  pose proof (tiled_sizes_nonneg _ _ Ht) as Hnn.
  destruct Hin as [->|Hin]; [lia|].
  specialize (IH _ Ht Hin). lia.
Qed.

Definition fs_ok (s : vsock) (f : for_sending) : Prop :=
  0 <= fs_payload_offset f /\ 0 <= sg_size (fs_seg f) /\
  fs_payload_offset f + sg_size (fs_seg f) <= Z.of_nat (length (ring (v_tx s))) /\
  0 <= fs_seq f < M16.

Lemma in_skipn {A} (x : A) n l : In x (skipn n l) -> In x l.
Proof.
  revert l; induction n as [|n IH]; intros [|y ys] H; cbn [skipn] in H; auto.
  right. apply IH. exact H.
Qed.

Lemma iter_fs_ok ti tm p s st :
  vs_inv_p ti tm p s -> Forall (fs_ok s) (iter_for_sending (v_segs s) st).
Proof.
  intros (_ & (Hlb & Hoff & Ht & Hr & Hu) & _ & _ & (R0 & R1 & _ & R3) & _).
  unfold iter_for_sending. apply Forall_forall. intros f Hf.
  apply filter_In in Hf. destruct Hf as [Hin _].
  apply in_map_iff in Hin. destruct Hin as ([i g] & <- & Hin).
  apply enum_from_In in Hin. apply in_skipn in Hin.
  destruct (tiled_in _ _ _ Ht Hin) as (A1 & A2 & A3).
  unfold fs_ok; cbn [fs_payload_offset fs_seg fs_seq].
  split; [lia|]. split; [lia|]. split; [lia|]. apply wadd16_range.
Qed.

Lemma fs_ok_tx s s' f : v_tx s' = v_tx s -> fs_ok s f -> fs_ok s' f.
Proof. unfold fs_ok. intros ->. tauto. Qed.

(* ------------------------------------------------------------------ send_data *)
Lemma on_sent_fields t i now :
  ss_removed (on_sent t i now) = ss_removed t /\ ss_offset (on_sent t i now) = ss_offset t /\
  ss_snd_una (on_sent t i now) = ss_snd_una t.
Proof. unfold on_sent, Segments.set_segs; cbn. auto. Qed.

Lemma inv_parts ti tm p s : vs_inv_p ti tm p s ->
  rx_inv (v_rx s) /\ seg_inv (v_segs s) /\ tx_inv ti tm (v_tx s) /\ o_tx_max (v_opts s) = tm /\
  ring_rel p s /\ ss_ok (v_ss s) /\ no_ovf_inv (v_rtte s) /\ dup_ok (v_recovery s).
Proof. unfold vs_inv_p. tauto. Qed.

Lemma send_data_spec ti tm p s h f :
  vs_inv_p ti tm p s -> ef s -> fs_ok s f ->
  sp (send_data s h f)
     (fun s' r => vs_inv_p ti tm p s' /\ ef s' /\ txq_rel s s' /\ v_restart s' = v_restart s /\
                  v_ss s' = v_ss s /\ v_recovery s' = v_recovery s /\ v_rtte s' = v_rtte s /\
                  (strict = true -> r <> SdEmsgsize)).
Proof.
  intros Hinv Hef (F1 & F0 & F2 & F3). rewrite VSock_LemmasTx.send_data_eq.
  destruct (_ =? o_max_retx _); [cbn [sp allowed]; exact I|].
  destruct (Z.ltb_spec (fs_payload_offset f) 0) as [|_]; [lia|].
  destruct (Z.ltb_spec (Z.of_nat (length (ring (v_tx s)))) (fs_payload_offset f)) as [|_]; [lia|].
  destruct (Z.ltb_spec (Z.of_nat (length (ring (v_tx s)))) (fs_payload_offset f + sg_size (fs_seg f))) as [|_]; [lia|].
  destruct (next_send s _) as [s1 o] eqn:E.
  destruct (next_send_core _ _ _ _ E) as (Hc & Hl & Htp & Hr & Hf).
  assert (Hinv1 : vs_inv_p ti tm p s1).
  { eapply inv_same_core; [exact Hinv|exact Hc]. }
  pose proof (same_core_txq _ _ Hc) as Htx.
  assert (Hef1 : ef s1) by (intro Hs; apply Hf; apply Hef; exact Hs).
  destruct Hc as (C1 & C2 & C3 & C4 & C5 & C6 & C7 & C8 & C9 & C10 & C11 & C12 & C13 & C14).
  destruct (inv_parts _ _ _ _ Hinv1) as (I1 & I2 & I3 & I4 & I5 & I6 & I7 & I8).
  destruct o; cbn [sp allowed]; try exact I.
  - (* sent *)
    destruct (VSock_LemmasTx.sent_state_fields s1 (VSock_LemmasTx.data_pkt s h f) f)
      as ((K2 & _ & _ & K8 & _ & K3 & _ & K7 & K6 & K4 & K12 & _ & _ & _ & _ & K1)
          & _ & K5 & _ & _ & _ & K10 & K11 & K13 & K14).
    set (s7 := VSock_LemmasTx.sent_state s1 _ f) in *. clearbody s7.
    destruct (on_sent_fields (v_segs s1) (fs_idx f) (v_now s1)) as (O1 & O2 & O3).
    split.
    { eapply inv_update; [exact Hinv1|exact K1|exact K2|exact K3|rewrite K4; auto|..];
        rewrite ?K5, ?K6, ?K7, ?K8; try assumption.
      - apply on_sent_inv. exact I2.
      - lia. }
    split; [unfold ef, emsg_free in *; rewrite K10, K11; exact Hef1|].
    split.
    { eapply txq_rel_trans; [exact Htx|]. unfold txq_rel. rewrite K1, K2, K4, K3, K13, K14, K11. repeat split. }
    split; [congruence|]. split; [congruence|]. split; [congruence|]. split; [congruence|].
    discriminate.
  - (* transport pending *)
    split.
    { eapply inv_same_core; [exact Hinv1|]. unfold same_core; vsimpl; repeat split. }
    split; [unfold ef, emsg_free in *; vsimpl; exact Hef1|].
    split; [eapply txq_rel_trans; [exact Htx|]; unfold txq_rel; vsimpl; repeat split|].
    vsimpl. repeat split; try congruence; try discriminate.
  - (* EMSGSIZE *)
    split; [exact Hinv1|]. split; [exact Hef1|]. split; [exact Htx|].
    repeat split; try congruence. intros Hs _. destruct (Hf (Hef Hs)) as [_ Hn]. apply Hn; reflexivity.
Qed.

(* ------------------------------------------------------------------ send_tx_queue *)
Definition TQ ti tm p (s s' : vsock) : Prop := vs_inv_p ti tm p s' /\ ef s' /\ txq_rel s s'.

Lemma TQ_refl ti tm p s : vs_inv_p ti tm p s -> ef s -> TQ ti tm p s s.
Proof. intros. split; [assumption|]. split; [assumption|apply txq_rel_refl]. Qed.

Lemma TQ_trans ti tm p a b c : TQ ti tm p a b -> TQ ti tm p b c -> TQ ti tm p a c.
Proof. intros (_ & _ & H1) (K1 & K2 & K3). split; [exact K1|]. split; [exact K2|eapply txq_rel_trans; eauto]. Qed.

Lemma Forall_fs_ok_tx s s' l : txq_rel s s' -> Forall (fs_ok s) l -> Forall (fs_ok s') l.
Proof.
  intros (_ & Ht & _) H. eapply Forall_impl; [|exact H]. intros f Hf. eapply fs_ok_tx; eauto.
Qed.

Lemma recovery_loop_spec ti tm p h mss0 : forall items s st,
  vs_inv_p ti tm p s -> ef s -> Forall (fs_ok s) items ->
  sp (recovery_loop items s h mss0 st) (fun s' _ => TQ ti tm p s s').
Proof.
  induction items as [|f rest IH]; intros s st Hinv Hef Hok; cbn [recovery_loop].
  { cbn [sp]. apply TQ_refl; assumption. }
  inversion Hok as [|? ? Hf Hrest]; subst.
  destruct (negb _); [cbn [sp]; apply TQ_refl; assumption|].
  destruct (_ && negb (sg_lost _)); [apply IH; assumption|].
  destruct (_ && negb (sg_sacks_after _)); [cbn [sp]; apply TQ_refl; assumption|].
  pose proof (send_data_spec ti tm p s h f Hinv Hef Hf) as Hsd.
  destruct (send_data s h f) as [s1 r|s1 e|]; cbn [sp] in Hsd |- *; [|exact Hsd|exact Hsd].
  destruct Hsd as (Hinv1 & Hef1 & Htx & _).
  assert (HTQ : TQ ti tm p s s1) by (split; [assumption|split; assumption]).
  destruct r; cbn [sp allowed]; [|exact HTQ|exact I].
  eapply sp_weaken; [apply IH; [assumption|assumption|eapply Forall_fs_ok_tx; eauto]|].
  intros s2 a H2. eapply TQ_trans; eauto.
Qed.

Lemma new_data_loop_spec ti tm p h : forall items s remaining,
  vs_inv_p ti tm p s -> ef s -> Forall (fs_ok s) items ->
  sp (new_data_loop items s h remaining)
     (fun s' tl => TQ ti tm p s s' /\ (strict = true -> tl = None)).
Proof.
  induction items as [|f rest IH]; intros s remaining Hinv Hef Hok; cbn [new_data_loop].
  { cbn [sp]. split; [apply TQ_refl; assumption|reflexivity]. }
  inversion Hok as [|? ? Hf Hrest]; subst.
  destruct (_ <? _); [cbn [sp]; split; [apply TQ_refl; assumption|reflexivity]|].
  pose proof (send_data_spec ti tm p s h f Hinv Hef Hf) as Hsd.
  destruct (send_data s h f) as [s1 r|s1 e|]; cbn [sp] in Hsd |- *; [|exact Hsd|exact Hsd].
  destruct Hsd as (Hinv1 & Hef1 & Htx & _ & _ & _ & _ & Hne).
  assert (HTQ : TQ ti tm p s s1) by (split; [assumption|split; assumption]).
  destruct r; cbn [sp].
  - eapply sp_weaken; [apply IH; [assumption|assumption|eapply Forall_fs_ok_tx; eauto]|].
    intros s2 a [H2 H3]. split; [eapply TQ_trans; eauto|exact H3].
  - split; [exact HTQ|reflexivity].
  - split; [exact HTQ|]. intro Hs. exfalso. apply (Hne Hs). reflexivity.
Qed.

Lemma dup_ok_rto r l : dup_ok r -> dup_ok (recovery_on_rto_timeout r l).
Proof. unfold dup_ok, recovery_on_rto_timeout. destruct (rv_phase r) eqn:E; cbn [rv_phase]; rewrite ?E; auto. Qed.

Lemma on_rto_reactions_spec ti tm p s :
  vs_inv_p ti tm p s -> ef s -> exists s2, on_rto_reactions cci s = Some s2 /\ TQ ti tm p s s2.
Proof.
  intros Hinv Hef. destruct (inv_parts _ _ _ _ Hinv) as (I1 & I2 & I3 & I4 & I5 & I6 & I7 & I8).
  unfold on_rto_reactions. destruct (timeout_no_overflow _ I7) as (rt & -> & Hrt).
  eexists. split; [reflexivity|]. split.
  - eapply inv_update; [exact Hinv|..]; vsimpl; try reflexivity; try assumption; try lia; auto.
    apply dup_ok_rto. exact I8.
  - split; [unfold ef, emsg_free in *; vsimpl; exact Hef|unfold txq_rel; vsimpl; repeat split].
Qed.

Lemma pop_mtu_probe_fields t q t' b :
  seg_inv t -> pop_mtu_probe t q = (t', b) ->
  seg_inv t' /\ ss_removed t' = ss_removed t /\ ss_offset t' <= ss_offset t.
Proof.
  intros Hinv H. split; [eapply pop_mtu_probe_inv; eauto|]. revert H. unfold pop_mtu_probe.
  destruct (last_and_init (ss_segs t)) as [[init g]|] eqn:E.
  - destruct (_ && _); intro H; injection H as <- _; [|split; [reflexivity|lia]].
    apply last_and_init_spec in E. destruct Hinv as (_ & _ & Ht & _). rewrite E in Ht.
    apply tiled_app in Ht. destruct Ht as [_ Ht]. cbn [tiled] in Ht.
    unfold Segments.set_segs; cbn [ss_removed ss_offset]. split; [reflexivity|lia].
  - intro H; injection H as <- _. split; [reflexivity|lia].
Qed.

Lemma pop_expired_fields t to mr t' pe :
  seg_inv t -> pop_expired_mtu_probe t to mr = (t', pe) ->
  seg_inv t' /\ ss_removed t' = ss_removed t /\ ss_offset t' <= ss_offset t.
Proof.
  intros Hinv H. split; [eapply pop_expired_inv; eauto|]. revert H. unfold pop_expired_mtu_probe.
  destruct (last_and_init (ss_segs t)) as [[init g]|] eqn:E.
  - destruct (sg_delivered g); [intro H; injection H as <- _; split; [reflexivity|lia]|].
    destruct (to && sg_probe g && (mr <=? seg_retransmit_count g));
      [|destruct (sg_probe g); intro H; injection H as <- _; (split; [reflexivity|lia])].
    intro H; injection H as <- _.
    apply last_and_init_spec in E. destruct Hinv as (_ & _ & Ht & _). rewrite E in Ht.
    apply tiled_app in Ht. destruct Ht as [_ Ht]. cbn [tiled] in Ht.
    unfold Segments.set_segs; cbn [ss_removed ss_offset]. split; [reflexivity|lia].
  - intro H; injection H as <- _. split; [reflexivity|lia].
Qed.

(* a state that differs from an invariant state only in fields the invariant does not read *)
Ltac frame_tac Hinv :=
  (eapply inv_same_core; [exact Hinv|]; unfold same_core; vsimpl; repeat split).

Lemma TQ_frame ti tm p s s1 s2 :
  TQ ti tm p s s1 -> same_core s1 s2 -> v_sends s2 = v_sends s1 -> TQ ti tm p s s2.
Proof.
  intros (H1 & H2 & H3) Hc Hs. split; [eapply inv_same_core; eauto|]. split.
  - unfold ef, emsg_free in *. destruct Hc as (_&_&_&_&_&_&_&_&_&_&He&_). rewrite Hs, He. exact H2.
  - eapply txq_rel_trans; [exact H3|apply same_core_txq; exact Hc].
Qed.

Lemma TQ_set_recovering ti tm p s s1 rc :
  TQ ti tm p s s1 -> TQ ti tm p s (set_recovering s1 rc).
Proof.
  intros (H1 & H2 & H3). destruct (inv_parts _ _ _ _ H1) as (I1 & I2 & I3 & I4 & I5 & I6 & I7 & I8).
  unfold set_recovering. split.
  - eapply inv_update; [exact H1|..]; vsimpl; try reflexivity; try assumption; try lia; auto;
      try (unfold dup_ok; cbn [rv_phase]; exact I).
  - split; [unfold ef, emsg_free in *; vsimpl; exact H2|].
    eapply txq_rel_trans; [exact H3|unfold txq_rel; vsimpl; repeat split].
Qed.

Lemma send_tx_queue_spec ti tm p s :
  vs_inv_p ti tm p s -> ef s -> sp (send_tx_queue cci s) (fun s' _ => TQ ti tm p s s').
Proof.
  intros Hinv Hef. unfold send_tx_queue.
  destruct (v_transport_pending s); [cbn [sp]; apply TQ_refl; assumption|].
  eapply sp_bind with (Q1 := fun s1 (_ : bool) => TQ ti tm p s s1).
  { (* RTO branch *)
    destruct (timer_expired _ _); [|cbn [sp]; apply TQ_refl; assumption].
    pose proof (iter_fs_ok ti tm p s None Hinv) as Hit.
    destruct (iter_for_sending (v_segs s) None) as [|f rest].
    - destruct (our_fin_if_unacked (v_state s)) as [fin|].
      + destruct (_ =? fin).
        * set (s1 := set_last_sent_seq_nr s _).
          assert (H1 : TQ ti tm p s s1).
          { eapply TQ_frame; [apply TQ_refl; assumption| |reflexivity]. unfold s1, same_core; vsimpl; repeat split. }
          eapply sp_bind; [apply maybe_send_fin_spec|].
          intros s2 sent (Hc2 & Hf2 & _).
          assert (H2 : TQ ti tm p s s2).
          { destruct H1 as (A1 & A2 & A3). split; [eapply inv_same_core; eauto|].
            split; [unfold ef in *; auto|]. eapply txq_rel_trans; [exact A3|apply same_core_txq; exact Hc2]. }
          destruct sent; cbn [sp]; [|exact H2].
          destruct H2 as (A1 & A2 & A3).
          destruct (on_rto_reactions_spec ti tm p s2 A1 A2) as (s3 & -> & H3). cbn [sp].
          eapply TQ_frame; [eapply TQ_trans; [split; [exact A1|split; [exact A2|exact A3]]|exact H3]| |reflexivity].
          unfold same_core; vsimpl; repeat split.
        * cbn [sp]. eapply TQ_frame; [apply TQ_refl; assumption| |reflexivity]. unfold same_core; vsimpl; repeat split.
      + cbn [sp]. eapply TQ_frame; [apply TQ_refl; assumption| |reflexivity]. unfold same_core; vsimpl; repeat split.
    - inversion Hit as [|? ? Hf _]; subst.
      pose proof (send_data_spec ti tm p s (outgoing_header s) f Hinv Hef Hf) as Hsd.
      destruct (send_data s (outgoing_header s) f) as [s1 r|s1 e|]; cbn [sp] in Hsd |- *; [|exact Hsd|exact Hsd].
      destruct Hsd as (Hinv1 & Hef1 & Htx & _).
      assert (HTQ : TQ ti tm p s s1) by (split; [assumption|split; assumption]).
      destruct r; cbn [sp allowed]; [|exact HTQ|exact I].
      assert (Hs2 : exists s2, (if negb (sg_probe (fs_seg f)) then on_rto_reactions cci s1 else Some s1) = Some s2 /\
                               TQ ti tm p s s2).
      { destruct (negb _).
        - destruct (on_rto_reactions_spec ti tm p s1 Hinv1 Hef1) as (s2 & E2 & H2).
          exists s2. split; [exact E2|eapply TQ_trans; eauto].
        - exists s1. split; [reflexivity|exact HTQ]. }
      destruct Hs2 as (s2 & -> & H2). cbn [sp].
      eapply TQ_frame; [exact H2| |reflexivity]. unfold same_core; vsimpl; repeat split. }
  intros s1 ret H1. destruct ret; [cbn [sp]; exact H1|].
  destruct (0 <? _); [cbn [sp]; exact H1|].
  destruct (ss_segs (v_segs s1)) as [|g0 gs] eqn:Egs; [cbn [sp]; exact H1|].
  destruct H1 as (Hinv1 & Hef1 & Htx1).
  eapply sp_bind with (Q1 := fun s2 (_ : bool) => TQ ti tm p s s2).
  { (* recovery branch *)
    destruct (rv_phase (v_recovery s1)) as [rp|d|rc] eqn:Eph;
      try (cbn [sp]; split; [assumption|split; assumption]).
    eapply sp_bind.
    { apply (recovery_loop_spec ti tm p); [exact Hinv1|exact Hef1|].
      pose proof (iter_fs_ok ti tm p s1 None Hinv1) as Hit.
      assert (Hsub : forall (P : for_sending -> Prop) l (q1 q2 : for_sending -> bool) n,
                 Forall P l -> Forall P (take_while q1 (skip_while q2 (firstn n l)))).
      { intros P l q1 q2 n Hl. apply Forall_forall. intros x Hx. rewrite Forall_forall in Hl. apply Hl.
        assert (Htw : forall l0, In x (take_while q1 l0) -> In x l0).
        { induction l0 as [|y ys IHl]; cbn [take_while]; [tauto|]. destruct (q1 y); [|intros []].
          intros [->|Hi]; [left; reflexivity|right; auto]. }
        assert (Hsw : forall l0, In x (skip_while q2 l0) -> In x l0).
        { induction l0 as [|y ys IHl]; cbn [skip_while]; [tauto|]. destruct (q2 y); [right; auto|auto]. }
        apply Htw in Hx. apply Hsw in Hx.
        rewrite <- (firstn_skipn n l). apply in_or_app. left. exact Hx. }
      apply Hsub. exact Hit. }
    intros s2 [st early] H2.
    assert (H2' : TQ ti tm p s s2) by (eapply TQ_trans; [split; [exact Hinv1|split; [exact Hef1|exact Htx1]]|exact H2]).
    match goal with |- sp (if early then SOk ?S true else _) _ => set (s3 := S) end.
    assert (H3 : TQ ti tm p s s3) by (apply TQ_set_recovering; exact H2').
    destruct early; [cbn [sp]; exact H3|].
    match goal with |- sp (match our_fin_if_unacked (v_state ?S) with _ => _ end) _ => set (s4 := S) end.
    assert (H4 : TQ ti tm p s s4).
    { unfold s4. destruct (rl_cwnd st <? _); [|exact H3]. destruct (rc_recalc rc).
      - eapply TQ_frame; [exact H3| |reflexivity]. unfold same_core; vsimpl; repeat split.
      - destruct (0 <? _); [|exact H3].
        eapply TQ_frame; [exact H3| |reflexivity]. unfold same_core; vsimpl; repeat split. }
    destruct (our_fin_if_unacked (v_state s4)) as [our_fin|]; [|cbn [sp]; exact H4].
    destruct (_ =? wsub16 our_fin 1); [|cbn [sp]; exact H4].
    cbn [sp]. apply TQ_set_recovering.
    eapply TQ_frame; [exact H4| |reflexivity]. unfold same_core; vsimpl; repeat split. }
  intros s2 ret H2. destruct ret; [cbn [sp]; exact H2|].
  destruct H2 as (Hinv2 & Hef2 & Htx2).
  eapply sp_bind.
  { apply (new_data_loop_spec ti tm p); [exact Hinv2|exact Hef2|]. eapply iter_fs_ok; exact Hinv2. }
  intros s3 tl [H3 Htl].
  assert (H3' : TQ ti tm p s s3) by (eapply TQ_trans; [split; [exact Hinv2|split; [exact Hef2|exact Htx2]]|exact H3]).
  destruct tl as [[seq size]|]; [|cbn [sp]; exact H3'].
  destruct (pop_mtu_probe (v_segs s3) seq) as [segs' popped] eqn:Epop.
  destruct popped; cbn [sp allowed].
  - destruct H3' as (A1 & A2 & A3).
    destruct (inv_parts _ _ _ _ A1) as (I1 & I2 & I3 & I4 & I5 & I6 & I7 & I8).
    destruct (pop_mtu_probe_fields _ _ _ _ I2 Epop) as (P1 & P2 & P3).
    split.
    + eapply inv_update; [exact A1|..]; vsimpl; try reflexivity; try assumption; auto.
      apply disarm_ss_ok. apply failed_ss_ok. exact I6.
    + split; [unfold ef, emsg_free in *; vsimpl; exact A2|].
      eapply txq_rel_trans; [exact A3|unfold txq_rel; vsimpl; repeat split].
  - destruct strict eqn:Es; [|reflexivity]. discriminate (Htl eq_refl).
Qed.

(* ------------------------------------------------------------------ split_tx_queue_into_segments *)
Lemma inv_update_gen ti tm p s s' :
  vs_inv_p ti tm p s ->
  v_rx s' = v_rx s -> v_opts s' = v_opts s ->
  (v_state s' <> Closed -> v_state s <> Closed) ->
  tx_inv ti tm (v_tx s') -> g_removed (v_tx s') = g_removed (v_tx s) ->
  length (ring (v_tx s')) = length (ring (v_tx s)) ->
  seg_inv (v_segs s') -> ss_removed (v_segs s') = ss_removed (v_segs s) ->
  ss_offset (v_segs s') <= g_removed (v_tx s) + Z.of_nat (length (ring (v_tx s))) ->
  ss_ok (v_ss s') -> no_ovf_inv (v_rtte s') -> dup_ok (v_recovery s') ->
  vs_inv_p ti tm p s'.
Proof.
  unfold vs_inv_p, ring_rel.
  intros (I1 & I2 & I3 & I4 & (R0 & R1 & R2 & R3) & I6 & I7 & I8) E1 E3 Hst Ht Hg Hl Hs Hr Ho H1 H2 H3.
  rewrite E1, E3, Hr, Hg, Hl. tauto.
Qed.

Lemma segment_loop_spec : forall fuel nagle ss segs remaining rwr,
  ss_ok ss -> seg_inv segs -> 0 <= remaining ->
  exists ss' segs' rem',
    segment_loop fuel nagle ss segs remaining rwr = Some (ss', segs', rem') /\
    ss_ok ss' /\ seg_inv segs' /\ ss_removed segs' = ss_removed segs /\
    ss_offset segs' + rem' = ss_offset segs + remaining /\ 0 <= rem'.
Proof.
  induction fuel as [|x fuel IH]; intros nagle ss segs remaining rwr Hss Hsg Hrem; cbn [segment_loop].
  { eexists _, _, _. split; [reflexivity|]. split; [exact Hss|]. split; [exact Hsg|]. split; [reflexivity|]. split; lia. }
  destruct (Z.ltb_spec 0 remaining) as [Hr0|Hr0]; cbn [andb];
    [|eexists _, _, _; split; [reflexivity|]; split; [exact Hss|]; split; [exact Hsg|]; split; [reflexivity|]; split; lia].
  destruct (Z.ltb_spec 0 rwr) as [Hw0|Hw0];
    [|eexists _, _, _; split; [reflexivity|]; split; [exact Hss|]; split; [exact Hsg|]; split; [reflexivity|]; split; lia].
  destruct (next_size_ok ss Hss) as (ss1 & sz & -> & Hm & Hx & Hsz).
  assert (Hss1 : ss_ok ss1) by (unfold ss_ok in *; rewrite Hm, Hx; exact Hss).
  set (payload := Z.min (Z.min sz rwr) remaining).
  assert (Hp : 0 < payload <= remaining) by (unfold payload, ss_ok in *; lia).
  destruct (nagle && _ && _).
  { eexists _, _, _. split; [reflexivity|]. split; [exact Hss1|]. split; [exact Hsg|]. split; [reflexivity|]. split; lia. }
  assert (Hsg1 : forall b, seg_inv (enqueue segs payload b)) by (intro b; apply enqueue_inv; [exact Hsg|lia]).
  assert (Hf : forall b, ss_removed (enqueue segs payload b) = ss_removed segs /\
               ss_offset (enqueue segs payload b) = ss_offset segs + payload)
    by (intro b; unfold enqueue, Segments.set_segs; cbn; auto).
  destruct (mss ss1 <? payload).
  { destruct (Hf true) as [Hf1 Hf2].
    eexists _, _, _. split; [reflexivity|]. split; [exact Hss1|]. split; [apply Hsg1|]. split; [exact Hf1|]. split; lia. }
  destruct (Hf false) as [Hf1 Hf2].
  destruct (IH nagle ss1 (enqueue segs payload false) (remaining - payload) (rwr - payload) Hss1 (Hsg1 false))
    as (ss' & segs' & rem' & E & A1 & A2 & A3 & A4 & A5); [lia|].
  eexists _, _, _. split; [exact E|]. split; [exact A1|]. split; [exact A2|]. split; [congruence|]. split; lia.
Qed.

Lemma register_disp_fields t :
  ring (register_dispatcher_if_empty t) = ring t /\ g_removed (register_dispatcher_if_empty t) = g_removed t /\
  forall ti tm, tx_inv ti tm t -> tx_inv ti tm (register_dispatcher_if_empty t).
Proof.
  unfold register_dispatcher_if_empty. destruct (ring t) eqn:E; [|auto].
  cbn [upd ring g_removed]. split; [reflexivity|]. split; [reflexivity|]. intros ti tm H.
  pose proof (flags_only_inv ti tm t (t_vsock_closed t) (writer_dropped t) (writer_shutdown t) true
                (writer_waker t) (written_without_yield t) H) as K. rewrite E in K. exact K.
Qed.

Lemma wake_writer_fields t t' w :
  wake_writer t = (t', w) ->
  ring t' = ring t /\ g_removed t' = g_removed t /\ cap t' = cap t /\
  forall ti tm, tx_inv ti tm t -> tx_inv ti tm t'.
Proof.
  unfold wake_writer. intro H; injection H as <- _. cbn [upd ring g_removed cap].
  split; [reflexivity|]. split; [reflexivity|]. split; [reflexivity|].
  intros ti tm K. apply flags_only_inv. exact K.
Qed.

Lemma mark_closed_fields t t' w :
  mark_vsock_closed t = (t', w) ->
  ring t' = ring t /\ g_removed t' = g_removed t /\
  forall ti tm, tx_inv ti tm t -> tx_inv ti tm t'.
Proof.
  unfold mark_vsock_closed. intro H; injection H as <- _. cbn [upd ring g_removed].
  split; [reflexivity|]. split; [reflexivity|].
  intros ti tm K. apply flags_only_inv. exact K.
Qed.

(* what split keeps fixed *)
Definition split_rel (s s' : vsock) : Prop :=
  v_rx s' = v_rx s /\ v_state s' = v_state s /\ v_opts s' = v_opts s /\
  v_inbox s' = v_inbox s /\ v_inbox_closed s' = v_inbox_closed s /\
  v_emsg_limit s' = v_emsg_limit s /\ v_sends s' = v_sends s /\
  v_transport_pending s' = v_transport_pending s /\ v_restart s' = v_restart s.

Lemma split_spec ti tm s :
  vs_inv ti tm s -> ef s ->
  sp (split_tx_queue_into_segments cci s)
     (fun s' _ => vs_inv ti tm s' /\ ef s' /\ split_rel s s').
Proof.
  intros Hinv Hef. destruct (inv_parts _ _ _ _ Hinv) as (I1 & I2 & I3 & I4 & I5 & I6 & I7 & I8).
  destruct I5 as (R0 & R1 & R2 & R3).
  unfold split_tx_queue_into_segments.
  destruct (Z.eqb_spec (Z.of_nat (length (ring (v_tx s)))) 0) as [Hz|Hnz].
  { cbn [sp]. destruct (register_disp_fields (v_tx s)) as (F1 & F2 & F3).
    split; [|split; [unfold ef, emsg_free in *; vsimpl; exact Hef|unfold split_rel; vsimpl; repeat split]].
    eapply inv_update_gen; [exact Hinv|..]; vsimpl; rewrite ?F1, ?F2; try reflexivity; try assumption; auto;
      try (apply F3; exact I3). }
  (* grow *)
  match goal with |- sp (if is_remote_fin_or_later (v_state ?S) then _ else _) _ => set (s1 := S) end.
  assert (H1 : vs_inv ti tm s1 /\ ef s1 /\ split_rel s s1 /\ v_segs s1 = v_segs s /\ v_ss s1 = v_ss s /\
               length (ring (v_tx s1)) = length (ring (v_tx s)) /\ g_removed (v_tx s1) = g_removed (v_tx s) /\
               v_rtte s1 = v_rtte s /\ v_recovery s1 = v_recovery s).
  { unfold s1. destruct (_ && _).
    - destruct (grow (v_tx s) (o_tx_max (v_opts s))) as [tx1 g] eqn:Eg. rewrite I4 in Eg.
      destruct (grow_spec _ _ _ _ _ I3 Eg) as (G1 & G2 & G3 & G4 & G5).
      destruct g as [c|].
      + destruct (wake_writer tx1) as [tx2 w] eqn:Ew.
        destruct (wake_writer_fields _ _ _ Ew) as (W1 & W2 & W3 & W4).
        unfold add_wakes. vsimpl.
        split; [|split; [unfold ef, emsg_free in *; vsimpl; exact Hef|split; [unfold split_rel; vsimpl; repeat split|]]].
        * eapply inv_update_gen; [exact Hinv|..]; vsimpl; rewrite ?W1, ?W2, ?G2, ?G4;
            try reflexivity; try assumption; auto; try congruence.
        * vsimpl. rewrite W1, W2, G2, G4. repeat split.
      + split; [|split; [unfold ef, emsg_free in *; vsimpl; exact Hef|split; [unfold split_rel; vsimpl; repeat split|]]].
        * eapply inv_update_gen; [exact Hinv|..]; vsimpl; rewrite ?G2, ?G4;
            try reflexivity; try assumption; auto; try congruence.
        * vsimpl. rewrite G2, G4. repeat split.
    - split; [exact Hinv|]. split; [exact Hef|]. split; [unfold split_rel; repeat split|]. repeat split. }
  destruct H1 as (Hinv1 & Hef1 & Hrel1 & Hsg1 & Hss1 & Hlen1 & Hgr1 & Hrt1 & Hrc1).
  destruct (is_remote_fin_or_later (v_state s1)) eqn:Efin; [cbn [sp]; auto|].
  assert (Hnc : v_state s1 <> Closed) by (intro Hc; rewrite Hc in Efin; discriminate).
  destruct (pop_expired_mtu_probe (v_segs s1) _ _) as [segs1 pe] eqn:Epe.
  rewrite Hsg1 in Epe.
  destruct (pop_expired_fields _ _ _ _ _ I2 Epe) as (P1 & P2 & P3).
  assert (Hst1 : v_state s1 = v_state s) by apply Hrel1.
  assert (Heq : g_removed (v_tx s) = ss_removed (v_segs s)) by (rewrite Hst1 in Hnc; specialize (R2 Hnc); lia).
  (* the common continuation *)
  assert (Hcont : forall s2,
     vs_inv ti tm s2 -> ef s2 -> split_rel s s2 -> v_tx s2 = v_tx s1 ->
     sp (if Z.of_nat (length (ring (v_tx s))) <? ss_len_bytes (v_segs s2)
         then SErr s2 (ErrBug BugInBufferComputations)
         else match segment_loop (ring (v_tx s2)) (o_nagle (v_opts s2)) (v_ss s2) (v_segs s2)
                      (Z.of_nat (length (ring (v_tx s))) - ss_len_bytes (v_segs s2))
                      (v_last_remote_window s2) with
              | None => SPanic
              | Some (ss', segs', remaining) =>
                  SOk (set_unsegmented (VSockRec.set_segs (set_ss s2 ss') segs') remaining) tt
              end)
        (fun s' _ => vs_inv ti tm s' /\ ef s' /\ split_rel s s')).
  { intros s2 Hinv2 Hef2 Hrel2 Htx2.
    destruct (inv_parts _ _ _ _ Hinv2) as (J1 & J2 & J3 & J4 & J5 & J6 & J7 & J8).
    destruct J5 as (S0 & S1 & S2 & S3).
    assert (Hst2 : v_state s2 = v_state s) by apply Hrel2.
    assert (Hnc2 : v_state s2 <> Closed) by (rewrite Hst2, <- Hst1; exact Hnc).
    specialize (S2 Hnc2). rewrite Htx2, Hgr1 in S2. rewrite Htx2, Hgr1, Hlen1 in S3.
    destruct J2 as (Hlb & Hoff & Htl & Hrm & Hun).
    destruct (Z.ltb_spec (Z.of_nat (length (ring (v_tx s)))) (ss_len_bytes (v_segs s2))) as [Hbad|Hok]; [lia|].
    destruct (segment_loop_spec (ring (v_tx s2)) (o_nagle (v_opts s2)) (v_ss s2) (v_segs s2)
                (Z.of_nat (length (ring (v_tx s))) - ss_len_bytes (v_segs s2)) (v_last_remote_window s2) J6
                (conj Hlb (conj Hoff (conj Htl (conj Hrm Hun)))))
      as (ss' & segs' & rem' & -> & A1 & A2 & A3 & A4 & A5); [lia|].
    cbn [sp]. split; [|split; [unfold ef, emsg_free in *; vsimpl; exact Hef2|]].
    - eapply inv_update_gen; [exact Hinv2|..]; vsimpl; try reflexivity; try assumption; auto.
      rewrite Htx2, Hgr1, Hlen1. lia.
    - destruct Hrel2 as (Q1&Q2&Q3&Q4&Q5&Q6&Q7&Q8&Q9). unfold split_rel; vsimpl. repeat split; assumption. }
  destruct pe as [rewind_to payload_size| |].
  - (* expired probe: the retransmission timer (re-armed when segments remain) is not read by the
       invariant *)
    apply Hcont.
    + destruct (seq_gt _ _);
        (eapply inv_update_gen; [exact Hinv1|..]; vsimpl; rewrite ?Hsg1, ?Hgr1, ?Hlen1, ?Hss1, ?Hrt1, ?Hrc1;
         try reflexivity; try assumption; auto; try lia; try (apply failed_ss_ok; exact I6);
         try (apply (inv_parts _ _ _ _ Hinv1))).
    + destruct (seq_gt _ _); unfold ef, emsg_free in *; vsimpl; exact Hef1.
    + destruct Hrel1 as (Q1&Q2&Q3&Q4&Q5&Q6&Q7&Q8&Q9).
      destruct (seq_gt _ _); unfold split_rel; vsimpl; repeat split; assumption.
    + destruct (seq_gt _ _); vsimpl; reflexivity.
  - (* probe outstanding: only v_unsegmented is updated *)
    cbn [sp]. split; [unfold vs_inv; frame_tac Hinv1|].
    split; [unfold ef, emsg_free in *; vsimpl; exact Hef1|].
    destruct Hrel1 as (Q1&Q2&Q3&Q4&Q5&Q6&Q7&Q8&Q9). unfold split_rel; vsimpl. repeat split; assumption.
  - apply Hcont; auto.
Qed.

(* ------------------------------------------------------------------ application events *)
Lemma inv_update_tx ti tm p s tx' :
  vs_inv_p ti tm p s -> tx_inv ti tm tx' -> g_removed tx' = g_removed (v_tx s) ->
  (length (ring (v_tx s)) <= length (ring tx'))%nat ->
  vs_inv_p ti tm p (set_tx s tx').
Proof.
  unfold vs_inv_p, ring_rel. vsimpl.
  intros (I1 & I2 & I3 & I4 & (R0 & R1 & R2 & R3) & I6 & I7 & I8) Ht Hg Hl.
  rewrite Hg. assert (ss_offset (v_segs s) <= g_removed (v_tx s) + Z.of_nat (length (ring tx'))) by lia.
  tauto.
Qed.

Lemma inv_update_rx ti tm p s rx' :
  vs_inv_p ti tm p s -> rx_inv rx' -> vs_inv_p ti tm p (set_rx s rx').
Proof. unfold vs_inv_p, ring_rel. vsimpl. tauto. Qed.

Lemma tx_flag_ops t :
  (forall t' r w, poll_flush t = (t', r, w) -> ring t' = ring t /\ g_removed t' = g_removed t) /\
  (forall t' r w, poll_shutdown t = (t', r, w) -> ring t' = ring t /\ g_removed t' = g_removed t) /\
  (forall t' w, drop_writer t = (t', w) -> ring t' = ring t /\ g_removed t' = g_removed t).
Proof.
  split; [|split].
  - intros t' r w. unfold poll_flush. destruct (ring t) eqn:E.
    + intro H; injection H as <- _ _. rewrite E. auto.
    + destruct (t_vsock_closed t); intro H; injection H as <- _ _; cbn [upd ring g_removed]; rewrite ?E; auto.
  - intros t' r w. unfold poll_shutdown. destruct (ring t) eqn:E;
      destruct (t_vsock_closed t); try destruct (writer_shutdown t);
      intro H; injection H as <- _ _; cbn [upd ring g_removed]; rewrite ?E; auto.
  - intros t' w. unfold drop_writer. destruct (writer_dropped t); intro H; injection H as <- _;
      cbn [upd ring g_removed]; auto.
Qed.

Lemma vstep_app_inv ti tm s o :
  vs_inv ti tm s -> (forall sc, o <> VoPoll sc) ->
  let '(s', _, _, _) := vstep cci s o in vs_inv ti tm s'.
Proof.
  intros Hinv Hnp. destruct (inv_parts _ _ _ _ Hinv) as (I1 & I2 & I3 & I4 & I5 & I6 & I7 & I8).
  assert (Hfr : forall s', v_rx s' = v_rx s -> v_tx s' = v_tx s -> v_segs s' = v_segs s -> v_ss s' = v_ss s ->
                 v_rtte s' = v_rtte s -> v_recovery s' = v_recovery s -> v_opts s' = v_opts s ->
                 v_state s' = v_state s -> vs_inv ti tm s').
  { intros s' E1 E2 E3 E4 E5 E6 E7 E8. unfold vs_inv. eapply inv_update; [exact Hinv|..];
      rewrite ?E3, ?E4, ?E5, ?E6, ?E8; try assumption; auto; lia. }
  destruct o; cbn [vstep].
  - apply Hfr; vsimpl; reflexivity.
  - apply Hfr; vsimpl; reflexivity.
  - exfalso. eapply Hnp; reflexivity.
  - destruct (v_inbox_closed s); [exact Hinv|]. apply Hfr; vsimpl; reflexivity.
  - apply Hfr; vsimpl; reflexivity.
  - destruct (writer_dropped (v_tx s)); [exact Hinv|].
    destruct (poll_write (v_tx s) buf) as [[tx1 r] w] eqn:E.
    destruct (poll_write_spec _ _ _ _ _ _ _ I3 E) as (W1 & W2 & W3 & W4 & _).
    apply inv_update_tx; [exact Hinv|exact W1|exact W3|].
    destruct r; try (destruct W4 as [-> _]; lia).
    destruct W4 as (_ & -> & _). rewrite app_length. lia.
  - destruct (writer_dropped (v_tx s)) eqn:Ed; [exact Hinv|].
    destruct (poll_flush (v_tx s)) as [[tx1 r] w] eqn:E.
    destruct (proj1 (tx_flag_ops (v_tx s)) _ _ _ E) as [F1 F2].
    apply inv_update_tx; [exact Hinv| |exact F2|rewrite F1; lia].
    apply (tx_step_inv ti tm (v_tx s) ToFlush tx1 (TxUnit r) w I3 I).
    cbn [tx_step]. rewrite Ed, E. reflexivity.
  - destruct (writer_dropped (v_tx s)) eqn:Ed; [exact Hinv|].
    destruct (poll_shutdown (v_tx s)) as [[tx1 r] w] eqn:E.
    destruct (proj1 (proj2 (tx_flag_ops (v_tx s))) _ _ _ E) as [F1 F2].
    apply inv_update_tx; [exact Hinv| |exact F2|rewrite F1; lia].
    apply (tx_step_inv ti tm (v_tx s) ToShutdown tx1 (TxUnit r) w I3 I).
    cbn [tx_step]. rewrite Ed, E. reflexivity.
  - destruct (reader_dropped (v_rx s)); [exact Hinv|].
    destruct (rx_read (v_rx s) n) as [[rx1 r] w] eqn:E.
    apply inv_update_rx; [exact Hinv|]. exact (proj1 (rx_read_spec _ _ _ _ _ I1 E)).
  - destruct (reader_dropped (v_rx s)) eqn:Ed; [exact Hinv|].
    destruct (rx_drop_reader (v_rx s)) as [rx1 w] eqn:E.
    apply inv_update_rx; [exact Hinv|].
    assert (Hst : rx_step (v_rx s) ODropReader = (rx1, OutUnit, w)) by (cbn [rx_step]; rewrite Ed, E; reflexivity).
    exact (proj1 (rx_step_spec (v_rx s) ODropReader rx1 OutUnit w I1 I Hst)).
  - destruct (drop_writer (v_tx s)) as [tx1 w] eqn:E.
    destruct (proj2 (proj2 (tx_flag_ops (v_tx s))) _ _ E) as [F1 F2].
    apply inv_update_tx; [exact Hinv| |exact F2|rewrite F1; lia].
    apply (tx_step_inv ti tm (v_tx s) ToDropWriter tx1 TxNone w I3 I).
    cbn [tx_step]. rewrite E. reflexivity.
Qed.

(* ------------------------------------------------------------------ construction *)
Lemma ss_new_ok c : 1 <= vc_link_mtu c <= U16_MAX -> ss_ok (ss_new (ss_config_of c)).
Proof.
  intro H. unfold ss_ok, ss_new, ss_config_of, clamped_link_mtu, ss_calc, default_min_mtu, ip_header;
    cbn [min_ss max_ss cfg_ipv4 cfg_link_mtu].
  unfold IPV4_HEADER, IPV6_HEADER, UDP_HEADER, UTP_HEADER, U16_MAX in *. destruct (vc_ipv4 c); lia.
Qed.

Lemma vsock_new_inv (mk_cc : Z -> Z -> CC) c :
  vconfig_ok c = true ->
  exists s0, vsock_new cci mk_cc c = Some s0 /\ vs_inv (vc_tx_init c) (vc_tx_max c) s0.
Proof.
  unfold vconfig_ok. intro H. repeat (apply andb_true_iff in H; destruct H as [H ?]).
  assert (Hss : ss_ok (ss_new (ss_config_of c))) by (apply ss_new_ok; lia).
  unfold vsock_new. fold (ss_config_of c).
  assert (Hrt : exists r0, (match (if vc_incoming c then None else Some (sat_sub (vc_now0 c) (vc_syn_sent c))) with
                            | Some r => sample rtte_default r | None => Some rtte_default end) = Some r0 /\
                           no_ovf_inv r0).
  { destruct (vc_incoming c).
    - exists rtte_default. split; [reflexivity|]. split; [exact default_in_bounds|exact I].
    - apply sample_no_overflow; [split; [exact default_in_bounds|exact I]|]. unfold sat_sub. lia. }
  destruct Hrt as (r0 & -> & Hr0).
  eexists. split; [reflexivity|].
  unfold vs_inv, vs_inv_p, ring_rel; cbn [v_rx v_segs v_tx v_opts v_state v_ss v_rtte v_recovery o_tx_max].
  split; [apply build_inv; [destruct Hss; unfold mss; lia|lia]|].
  split; [apply Segments_Proofs.new_inv; destruct (vc_incoming c); [lia|apply wadd16_range]|].
  split; [apply Ring_Proofs.new_inv; lia|].
  split; [reflexivity|].
  split; [cbn; repeat split; try lia; intros _; lia|].
  split; [exact Hss|]. split; [exact Hr0|].
  unfold dup_ok, recovery_new; cbn [rv_phase]. unfold SACK_DUP_THRESH. lia.
Qed.

(* ------------------------------------------------------------------ incoming side: the Bug sites *)
(* BugUnexpectedPacketInSynReceived: only from SynReceived; there is no other Bug site in the table
   (BugRecvInClosed is gone: a closed connection ignores what is still queued, repair of D15) *)
Lemma state_table_no_bug (s : vsock) h :
  v_state s <> SynReceived ->
  match state_table s h with
  | TblErr _ e => e = ErrStResetReceived
  | TblDrop s' | TblContinue s' => v_state s' <> SynReceived
  end.
Proof.
  intros Hs. unfold state_table.
  destruct (ch_type h); destruct (v_state s) eqn:Est; try congruence;
    repeat match goal with
    | |- context [if ?c then _ else _] => destruct c
    end; vsimpl; try congruence; try discriminate; auto.
Qed.

(* a closed connection ignores every packet: nothing but ST_RESET is even looked at, the state is
   untouched, and ST_RESET reports the (non-Bug) reset error *)
Lemma state_table_closed (s : vsock) h :
  v_state s = Closed ->
  state_table s h =
    match ch_type h with
    | ST_RESET => TblErr (set_state s Closed) ErrStResetReceived
    | _ => TblDrop s
    end.
Proof.
  intros Hc. unfold state_table. cbv zeta. rewrite Hc. destruct (ch_type h); reflexivity.
Qed.

Lemma process_incoming_closed (s : vsock) m :
  v_state s = Closed ->
  process_incoming_message cci s m =
    match ch_type (m_hdr m) with
    | ST_RESET => SErr (set_state s Closed) ErrStResetReceived
    | _ => SOk s on_ack_result_default
    end.
Proof.
  intros Hc. unfold process_incoming_message. cbv zeta. rewrite (state_table_closed s (m_hdr m) Hc).
  destruct (ch_type (m_hdr m)); reflexivity.
Qed.

(* the SYN-ACK is sent (state SynAckSent) before anything else unless the transport is pending *)
Lemma send_control_packet_sent (s : vsock) h :
  sp (send_control_packet s h) (fun s' sent => sent = false -> v_transport_pending s' = true).
Proof.
  unfold send_control_packet. destruct (v_transport_pending s) eqn:E; [cbn [sp]; auto|].
  destruct (next_send s _) as [s1 o]. destruct o; cbn [sp allowed]; auto; try discriminate.
Qed.

Lemma maybe_send_syn_ack_state (s : vsock) :
  sp (maybe_send_syn_ack s)
     (fun s' _ => v_transport_pending s' = false -> v_state s' <> SynReceived).
Proof.
  unfold maybe_send_syn_ack. destruct (v_state s) eqn:Est; cbn [sp]; vsimpl; try congruence.
  - destruct (_ =? _); [cbn [sp allowed]; exact I|].
    eapply sp_bind; [apply send_control_packet_sent|].
    intros s1 sent Hs. destruct sent; cbn [sp]; vsimpl; [discriminate|].
    intro Hp. rewrite (Hs eq_refl) in Hp. discriminate.
  - destruct (timer_expired _ _); [|cbn [sp]; congruence].
    destruct (_ =? _); [cbn [sp allowed]; exact I|].
    eapply sp_bind; [apply send_control_packet_sent|].
    intros s1 sent Hs. destruct sent; cbn [sp]; vsimpl; [discriminate|].
    intro Hp. rewrite (Hs eq_refl) in Hp. discriminate.
Qed.

(* BugInvalidMessageExpectedStDataOrFin / BugAssemblerMissingSlot / UarPanic *)
Lemma rx_add_remove_no_bug r k pl off r' ar w :
  rx_inv r -> 0 <= off -> k <> KOther -> rx_add_remove r k pl off = (r', ar, w) ->
  rx_inv r' /\ exists a, ar = UarOk a /\ a <> ArErrBugInvalidMessage /\ a <> ArErrBugMissingSlot.
Proof.
  intros Hinv Hoff Hk H.
  destruct (rx_add_remove_spec _ _ _ _ _ _ _ Hinv Hoff H) as (Hinv' & (a & -> & _) & _).
  split; [exact Hinv'|]. exists a. split; [reflexivity|].
  revert H. unfold rx_add_remove.
  destruct (ooq_add_remove r k pl off) as [s1 a0] eqn:E.
  assert (Ha0 : a0 <> ArErrBugInvalidMessage /\ a0 <> ArErrBugMissingSlot).
  { revert E. unfold ooq_add_remove. destruct (ooq_is_full r); [intro K; injection K as _ <-; split; discriminate|].
    destruct (Z.leb_spec (Z.of_nat (length (ooq_data r))) (off + filled_front r)) as [|Hlt];
      [intro K; injection K as _ <-; split; discriminate|].
    pose proof (inv_ff_bounds r Hinv) as Hb.
    destruct (nth_error (ooq_data r) (Z.to_nat (off + filled_front r))) as [old|] eqn:En;
      [|apply nth_error_None in En; lia].
    destruct k; [destruct pl| |congruence];
      repeat match goal with
      | |- context [if ?c then _ else _] => destruct c
      | |- context [let '(_, _) := ?t in _] => destruct t
      end; intro K; injection K as _ <-; split; discriminate. }
  destruct a0; try (intro K; inversion K; subst; exact Ha0).
  destruct (_ && _); [|intro K; inversion K; subst; split; discriminate].
  destruct (rx_flush s1) as [[s2 fr] w2]. destruct fr; intro K; inversion K; subst; split; discriminate.
Qed.

(* BugTruncateFront: the bytes acknowledged by the messages of one poll are in the ring *)
Lemma truncate_ok ti tm p s :
  vs_inv_p ti tm p s ->
  exists tx1, truncate_front (v_tx s) p = (tx1, TrOk) /\ vs_inv_p ti tm 0 (set_tx s tx1).
Proof.
  intros Hinv. destruct (inv_parts _ _ _ _ Hinv) as (I1 & I2 & I3 & I4 & I5 & I6 & I7 & I8).
  destruct I5 as (R0 & R1 & R2 & R3). destruct I2 as (Hlb & Hoff & Htl & Hrm & Hun).
  pose proof (tiled_sizes_nonneg _ _ Htl) as Hnn.
  destruct (truncate_front (v_tx s) p) as [tx1 tr] eqn:E.
  destruct (truncate_spec _ _ _ _ _ _ I3 R0 E) as (T1 & T2 & T3 & T4 & T5 & T6).
  assert (Hle : p <= Z.of_nat (length (ring (v_tx s)))) by lia.
  assert (tr = TrOk) by (apply T6; exact Hle). subst tr.
  exists tx1. split; [reflexivity|].
  unfold vs_inv_p, ring_rel; vsimpl.
  assert (Hlen : Z.of_nat (length (ring tx1)) = Z.of_nat (length (ring (v_tx s))) - p).
  { rewrite T4, skipn_length. lia. }
  rewrite T5, Hlen.
  assert (A1 : g_removed (v_tx s) + Z.min p (Z.of_nat (length (ring (v_tx s)))) + 0 <= ss_removed (v_segs s)) by lia.
  assert (A2 : v_state s <> Closed ->
               g_removed (v_tx s) + Z.min p (Z.of_nat (length (ring (v_tx s)))) + 0 = ss_removed (v_segs s))
    by (intro Hc; specialize (R2 Hc); lia).
  assert (A3 : ss_offset (v_segs s) <=
               g_removed (v_tx s) + Z.min p (Z.of_nat (length (ring (v_tx s)))) +
               (Z.of_nat (length (ring (v_tx s))) - p)) by lia.
  assert (A0 : 0 <= 0) by lia.
  unfold seg_inv. tauto.
Qed.

(* ------------------------------------------------------------------ bounded buffering *)
Lemma bounded_buffering ti tm p s :
  vs_inv_p ti tm p s ->
  Z.of_nat (length (ring (v_tx s))) <= cap (v_tx s) <= Z.max ti tm /\
  0 <= q_len_bytes (v_rx s) <= q_capacity (v_rx s) /\
  0 <= filled_front (v_rx s) <= ooq_len (v_rx s) /\ ooq_len (v_rx s) <= ooq_capacity (v_rx s) /\
  0 <= ss_len_bytes (v_segs s) <= Z.of_nat (length (ring (v_tx s))).
Proof.
  intros Hinv. destruct (inv_parts _ _ _ _ Hinv) as (I1 & I2 & I3 & I4 & I5 & I6 & I7 & I8).
  destruct I5 as (R0 & R1 & R2 & R3). destruct I2 as (Hlb & Hoff & Htl & Hrm & Hun).
  pose proof (tiled_sizes_nonneg _ _ Htl) as Hnn.
  destruct I3 as (T1 & T2 & _). destruct (accounting _ I1) as (A1 & A2 & _ & _ & _ & A6).
  repeat split; lia.
Qed.

End Inv.
