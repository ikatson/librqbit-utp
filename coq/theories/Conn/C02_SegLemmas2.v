(* Segment-table facts used by Conn/C02_Lemmas2.v and Conn/C02_Step2.v:
   - [und]: an undelivered segment exists; which operations of Tx/Segments.v can make it false;
   - accounting of remove_up_to_ack: if it reports no acknowledged and no newly SACKed segment,
     the table is unchanged;
   - calc_pipe / on_sent keep the delivered flags; enqueue only appends. *)
From Utp Require Import Base.Prelude Wire.SeqNr Tx.Segments Tx.Segments_Proofs Tx.Segments_ProofsOut.

Definition und (l : list seg) : bool := existsb (fun g => negb (sg_delivered g)) l.

Definition dlv (l : list seg) : list bool := map sg_delivered l.

Lemma und_dlv : forall l l', dlv l' = dlv l -> und l' = und l.
Proof.
  induction l as [|x xs IH]; intros [|y ys] H; cbn [dlv map] in H; try discriminate; [reflexivity|].
  injection H as H1 H2. unfold und. cbn [existsb]. rewrite H1. f_equal. apply IH. exact H2.
Qed.

Lemma und_app : forall a b, und (a ++ b) = und a || und b.
Proof. intros. apply existsb_app. Qed.

Lemma und_In : forall l, und l = true <-> exists g, In g l /\ sg_delivered g = false.
Proof.
  intros l. unfold und. rewrite existsb_exists. split; intros (g & G1 & G2); exists g; split; auto.
  - apply negb_true_iff. exact G2.
  - apply negb_true_iff. exact G2.
Qed.

(* ---- accounting of remove_up_to_ack ---- *)
Lemma apply_sack_cnt : forall l bits now a l' a',
  apply_sack l bits now a = (l', a') ->
  ac_cnt a <= ac_cnt a' /\ (ac_cnt a' = ac_cnt a -> l' = l).
Proof.
  induction l as [|s r IH]; intros bits now a l' a'; cbn [apply_sack].
  - intro H; injection H as <- <-. split; [lia|reflexivity].
  - destruct bits as [|b bs]; [intro H; injection H as <- <-; split; [lia|reflexivity]|].
    destruct (negb (sg_delivered s) && b).
    + destruct (apply_sack r bs now _) as [r' a''] eqn:E. intro H; injection H as <- <-.
      destruct (IH _ _ _ _ _ E) as [H1 H2]. cbn [ac_cnt] in H1. split; [lia|]. intro K. lia.
    + destruct (apply_sack r bs now a) as [r' a''] eqn:E. intro H; injection H as <- <-.
      destruct (IH _ _ _ _ _ E) as [H1 H2]. split; [exact H1|]. intro K. rewrite (H2 K). reflexivity.
Qed.

Lemma sack_phase_cnt : forall t rest a1 su now ack sk l' a' dp lse,
  sack_phase t rest a1 su now ack sk = (l', a', dp, lse) ->
  0 <= ac_cnt a' /\ (ac_cnt a' = 0 -> l' = rest).
Proof.
  intros t rest a1 su now ack sk l' a' dp lse. unfold sack_phase.
  destruct rest as [|x xs]; [intro H; injection H as <- <- _ _; cbn [ac_cnt]; split; [lia|reflexivity]|].
  destruct sk as [k|]; [|intro H; injection H as <- <- _ _; cbn [ac_cnt]; split; [lia|reflexivity]].
  destruct (seq_gt su ack); [|intro H; injection H as <- <- _ _; cbn [ac_cnt]; split; [lia|reflexivity]].
  set (rest := x :: xs). set (so := seq_sub (wadd16 ack 2) su).
  destruct (0 <=? so).
  - destruct (apply_sack (skipn (Z.to_nat so) rest) _ now _) as [tl' a''] eqn:E.
    intro H; injection H as <- <- _ _. apply apply_sack_cnt in E. cbn [ac_cnt] in E.
    destruct E as [E1 E2]. split; [lia|]. intro K. rewrite (E2 K). apply firstn_skipn.
  - destruct (apply_sack rest _ now _) as [l2 a''] eqn:E.
    intro H; injection H as <- <- _ _. apply apply_sack_cnt in E. cbn [ac_cnt] in E.
    destruct E as [E1 E2]. split; [lia|]. exact E2.
Qed.

Lemma remove_up_to_ack_cnt : forall t now ack sk t' r,
  remove_up_to_ack t now ack sk = (t', r) ->
  0 <= ar_acked_segments r /\ 0 <= ar_newly_sacked_segments r /\
  (ar_acked_segments r = 0 -> ar_newly_sacked_segments r = 0 -> ss_segs t' = ss_segs t).
Proof.
  intros t now ack sk t' r. unfold remove_up_to_ack.
  set (dc := if 0 <=? seq_sub ack (ss_snd_una t) then _ else 0%nat).
  set (a1 := drain_acc (firstn dc (ss_segs t)) now {| ac_rtt := None; ac_maxp := 0; ac_cnt := 0; ac_bytes := 0 |}).
  destruct (drain_acc_spec (firstn dc (ss_segs t)) now {| ac_rtt := None; ac_maxp := 0; ac_cnt := 0; ac_bytes := 0 |})
    as [Hc1 _]. fold a1 in Hc1. cbn [ac_cnt] in Hc1.
  destruct (sack_phase t (skipn dc (ss_segs t)) a1 _ now ack sk) as [[[rest2 a2] dp] lse] eqn:E2.
  destruct (strip_delivered rest2 0 0) as [[rest3 cnt3] bytes3] eqn:E3.
  intro H; injection H as <- <-. cbn [ss_segs ar_acked_segments ar_newly_sacked_segments].
  destruct (sack_phase_cnt _ _ _ _ _ _ _ _ _ _ _ E2) as [S1 S2].
  destruct (strip_delivered_spec _ _ _ _ _ _ E3) as (dropped & Hd & D1 & _).
  split; [lia|]. split; [exact S1|]. intros K1 K2.
  assert (Hl : length (firstn dc (ss_segs t)) = 0%nat) by lia.
  assert (Hdr : dropped = []) by (destruct dropped; [reflexivity | cbn [length] in D1; lia]).
  rewrite Hdr in Hd. cbn [app] in Hd. rewrite <- Hd, (S2 K2).
  destruct (firstn dc (ss_segs t)) as [|y ys] eqn:Ef; [|discriminate Hl].
  rewrite <- (firstn_skipn dc (ss_segs t)) at 2. rewrite Ef. reflexivity.
Qed.

(* ---- flags only ---- *)
Lemma pipe_loop_dlv : forall l t hr th now a l' a',
  pipe_loop l t hr th now a = (l', a') -> dlv l' = dlv (map snd l).
Proof.
  induction l as [|[off s] r IH]; intros t hr th now a l' a'; cbn [pipe_loop].
  - intro H; injection H as <- _. reflexivity.
  - destruct (seg_last_sent s).
    + destruct (sg_delivered s) eqn:Ed.
      * destruct (pipe_loop r t hr th now _) as [r' a''] eqn:E. intro H; injection H as <- _.
        cbn [dlv map snd]. f_equal. exact (IH _ _ _ _ _ _ _ E).
      * destruct (pipe_loop r t hr th now _) as [r' a''] eqn:E. intro H; injection H as <- _.
        cbn [dlv map snd sg_delivered]. f_equal; [symmetry; exact Ed|]. exact (IH _ _ _ _ _ _ _ E).
    + destruct (pipe_loop r t hr th now a) as [r' a''] eqn:E. intro H; injection H as <- _.
      cbn [dlv map snd]. f_equal. exact (IH _ _ _ _ _ _ _ E).
Qed.

Lemma calc_pipe_dlv : forall t hr hd rtt now t' p rc,
  calc_pipe t hr hd rtt now = Some (t', p, rc) -> dlv (ss_segs t') = dlv (ss_segs t).
Proof.
  intros t hr hd rtt now t' p rc. unfold calc_pipe. destruct (_ <? _); [discriminate|].
  set (n := Z.to_nat _).
  destruct (pipe_loop _ t hr _ now _) as [upd a] eqn:E. intro H; injection H as <- _ _.
  cbn [set_segs ss_segs]. apply pipe_loop_dlv in E. unfold dlv in *.
  rewrite map_app, map_rev, E, map_rev, enum_from_snd, <- !map_rev, rev_involutive.
  rewrite <- map_app, firstn_skipn. reflexivity.
Qed.

Lemma update_nth_dlv : forall (f : seg -> seg), (forall s, sg_delivered (f s) = sg_delivered s) ->
  forall l n, dlv (update_nth l n f) = dlv l.
Proof.
  intros f Hf. induction l as [|x xs IH]; intros [|n]; cbn [update_nth dlv map]; try reflexivity.
  - rewrite Hf. reflexivity.
  - f_equal. apply IH.
Qed.

Lemma on_sent_dlv : forall t i now, dlv (ss_segs (on_sent t i now)) = dlv (ss_segs t).
Proof. intros. unfold on_sent. cbn [set_segs ss_segs]. apply update_nth_dlv. reflexivity. Qed.

Lemma enqueue_segs : forall t len p, exists g,
  ss_segs (enqueue t len p) = ss_segs t ++ [g] /\ sg_delivered g = false /\ sg_sent g = NotSent /\
  sg_size g = len.
Proof. intros. unfold enqueue. cbn [set_segs ss_segs]. eexists. split; [reflexivity|]. repeat split. Qed.

(* ---- the iterator ---- *)
Lemma in_enum_from : forall {A} (l : list A) g i, In g l -> exists j, In (j, g) (enum_from i l).
Proof.
  induction l as [|y ys IH]; intros g i []; cbn [enum_from].
  - subst. exists i. left; reflexivity.
  - destruct (IH g (S i) H) as (j & J). exists j. right; exact J.
Qed.

Lemma iter_nil_und : forall t, iter_for_sending t None = [] -> und (ss_segs t) = false.
Proof.
  intros t H. destruct (und (ss_segs t)) eqn:K; [|reflexivity]. exfalso.
  apply und_In in K. destruct K as (g & G1 & G2).
  unfold iter_for_sending in H. cbn [skipn] in H.
  destruct (in_enum_from _ g 0%nat G1) as (i & Hi).
  pose proof (filter_nil_forall _ _ H) as F.
  match type of F with forall x, In x (map ?mk ?items) -> _ => specialize (F (mk (i, g)) (in_map mk _ _ Hi)) end.
  cbn [fs_seg] in F. rewrite G2 in F. discriminate.
Qed.

Lemma iter_cons_und : forall t st f l, iter_for_sending t st = f :: l -> und (ss_segs t) = true.
Proof.
  intros t st f l H.
  assert (Hin : In f (iter_for_sending t st)) by (rewrite H; left; reflexivity).
  unfold iter_for_sending in Hin. apply filter_In in Hin. destruct Hin as [Hin Hd].
  apply in_map_iff in Hin. destruct Hin as ([i g] & <- & Hin). cbn [fs_seg] in Hd.
  apply enum_from_In in Hin.
  apply und_In. exists g. split; [|apply negb_true_iff; exact Hd].
  rewrite <- (firstn_skipn (match st with Some s => Z.to_nat (Z.max (seq_sub s (ss_snd_una t)) 0) | None => 0%nat end)
                           (ss_segs t)).
  apply in_or_app. right. exact Hin.
Qed.

Lemma pop_back_und_false : forall l init (x : seg), last_and_init l = Some (init, x) ->
  und l = false -> und init = false.
Proof.
  intros l init x E H. apply last_and_init_app in E. rewrite E, und_app in H.
  apply orb_false_iff in H. tauto.
Qed.
