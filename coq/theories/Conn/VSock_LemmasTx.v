(* Reusable Hoare-style lemmas about the transmit path of the connection model
   (send_data, the three parts of send_tx_queue, the segment table as the sender uses it).
   Used by Conn/C05_Proofs.v and Conn/C06_Proofs.v.  Definitions here are proof devices
   (copies of local `let`s of the frozen model, shown equal to it by reflexivity). *)
From Utp Require Import Base.Prelude Wire.SeqNr Wire.SeqNr_Proofs Wire.Header Rtt.Rtte Rtt.Rtte_Proofs
  Mtu.SegSizes Rx.Rx Tx.Ring Tx.Ring_Proofs Tx.Segments Tx.Segments_Proofs
  Conn.Recovery Conn.Msg Conn.VSockRec Conn.VSock.

Arguments SOk {CC A}. Arguments SErr {CC A}. Arguments SPanic {CC A}.

(* ------------------------------------------------------------------ list helpers *)
Lemma nth_error_update_nth {A} (f : A -> A) : forall (l : list A) n m,
  nth_error (update_nth l n f) m =
  if Nat.eqb n m then option_map f (nth_error l m) else nth_error l m.
Proof.
  induction l as [|x xs IH]; intros [|n] [|m]; cbn [update_nth nth_error Nat.eqb option_map]; try reflexivity.
  all: try (destruct (Nat.eqb _ _); reflexivity).
  apply IH.
Qed.

Lemma update_nth_length {A} (f : A -> A) : forall (l : list A) n, length (update_nth l n f) = length l.
Proof. induction l as [|x xs IH]; intros [|n]; cbn [update_nth length]; auto. Qed.

Lemma map_update_nth {A B} (g : A -> B) (f : A -> A) :
  (forall x, g (f x) = g x) -> forall l n, map g (update_nth l n f) = map g l.
Proof.
  intro H. induction l as [|x xs IH]; intros [|n]; cbn [update_nth map]; try reflexivity.
  - rewrite H. reflexivity.
  - rewrite IH. reflexivity.
Qed.

Lemma enum_from_nth {A} : forall (l : list A) i j x,
  In (j, x) (enum_from i l) -> (i <= j)%nat /\ nth_error l (j - i) = Some x.
Proof.
  induction l as [|y ys IH]; intros i j x; cbn [enum_from In]; [tauto|].
  intros [H|H].
  - injection H as <- <-. rewrite Nat.sub_diag. split; [lia|reflexivity].
  - destruct (IH _ _ _ H) as [Hle Hn]. split; [lia|].
    replace (j - i)%nat with (S (j - S i)) by lia. exact Hn.
Qed.

Lemma nth_error_skipn {A} : forall n (l : list A) k, nth_error (skipn n l) k = nth_error l (n + k).
Proof.
  induction n as [|n IH]; intros [|x xs] k; cbn [skipn plus nth_error]; try reflexivity.
  - destruct k; reflexivity.
  - apply IH.
Qed.

(* ------------------------------------------------------------------ the sender's view of the table *)
(* what the sender reads of a segment when it builds a datagram: everything but the
   sent-status and the loss flags *)
Definition dview (g : seg) : Z * Z * bool := (sg_size g, sg_abs g, sg_delivered g).

Definition dshape (t : segments) : Z * Z * list (Z * Z * bool) :=
  (ss_snd_una t, ss_removed t, map dview (ss_segs t)).

Lemma on_sent_dshape t i now : dshape (on_sent t i now) = dshape t.
Proof.
  unfold dshape, on_sent, Segments.set_segs; cbn [ss_snd_una ss_removed ss_segs].
  rewrite map_update_nth; [reflexivity|]. intro x; reflexivity.
Qed.

(* a for_sending item names the undelivered segment at its index, with the sequence number and
   the ring offset the table assigns to it *)
Definition item_ok (t : segments) (f : for_sending) : Prop :=
  nth_error (map dview (ss_segs t)) (fs_idx f) = Some (sg_size (fs_seg f), sg_abs (fs_seg f), false) /\
  sg_delivered (fs_seg f) = false /\
  fs_seq f = wadd16 (ss_snd_una t) (Z.of_nat (fs_idx f) mod M16) /\
  fs_payload_offset f = sg_abs (fs_seg f) - ss_removed t.

Lemma item_ok_dshape t t' f : dshape t' = dshape t -> item_ok t f -> item_ok t' f.
Proof.
  unfold dshape, item_ok. intro H; injection H as H1 H2 H3. rewrite H1, H2, H3. tauto.
Qed.

Lemma iter_item_ok t st f : In f (iter_for_sending t st) -> item_ok t f.
Proof.
  unfold iter_for_sending. intro H. apply filter_In in H. destruct H as [Hin Hnd].
  apply negb_true_iff in Hnd. apply in_map_iff in Hin. destruct Hin as ([i g] & <- & Hin).
  cbn [fs_seg fs_idx fs_seq fs_payload_offset] in *.
  apply enum_from_nth in Hin. destruct Hin as [Hle Hn]. rewrite nth_error_skipn in Hn.
  replace (_ + (i - _))%nat with i in Hn by lia.
  unfold item_ok; cbn [fs_seg fs_idx fs_seq fs_payload_offset].
  repeat split; try assumption; try reflexivity.
  rewrite nth_error_map, Hn. cbn [option_map]. unfold dview. rewrite Hnd. reflexivity.
Qed.

(* the head of the unrestricted iterator is the FIRST undelivered segment of the table *)
Lemma filter_head {A} (p : A -> bool) : forall l x r,
  filter p l = x :: r -> exists pre post, l = pre ++ x :: post /\ forallb (fun y => negb (p y)) pre = true /\ p x = true.
Proof.
  induction l as [|y ys IH]; intros x r; cbn [filter]; [discriminate|].
  destruct (p y) eqn:Ep.
  - intro H; injection H as <- _. exists [], ys. cbn. auto.
  - intro H. destruct (IH _ _ H) as (pre & post & -> & Hpre & Hx).
    exists (y :: pre), post. cbn [app forallb]. rewrite Ep, Hpre. auto.
Qed.

Lemma enum_from_app {A} : forall (a b : list A) i,
  enum_from i (a ++ b) = enum_from i a ++ enum_from (i + length a) b.
Proof.
  induction a as [|x xs IH]; intros b i; cbn [app enum_from length].
  - rewrite Nat.add_0_r. reflexivity.
  - rewrite IH. replace (S i + length xs)%nat with (i + S (length xs))%nat by lia. reflexivity.
Qed.

Lemma enum_from_length {A} : forall (l : list A) i, length (enum_from i l) = length l.
Proof. induction l as [|x xs IH]; intro i; cbn [enum_from length]; auto. Qed.

Lemma nth_enum_from_In {A} : forall (l : list A) i j x,
  nth_error l j = Some x -> In ((i + j)%nat, x) (enum_from i l).
Proof.
  induction l as [|y ys IH]; intros i j x Hn; [destruct j; discriminate|].
  destruct j as [|j]; cbn [nth_error enum_from In] in *.
  - injection Hn as ->. left. f_equal. lia.
  - right. replace (i + S j)%nat with (S i + j)%nat by lia. apply IH. exact Hn.
Qed.

Lemma iter_head_first_undelivered t f rest :
  iter_for_sending t None = f :: rest ->
  item_ok t f /\
  (forall j g, (j < fs_idx f)%nat -> nth_error (ss_segs t) j = Some g -> sg_delivered g = true).
Proof.
  intro H. split; [apply (iter_item_ok t None); rewrite H; left; reflexivity|].
  unfold iter_for_sending in H. cbn [skipn] in H.
  apply filter_head in H. destruct H as (pre & post & Hl & Hpre & _).
  (* split the enumerated table at the head *)
  assert (Hsplit : exists a g b, ss_segs t = a ++ g :: b /\ length a = fs_idx f /\
                    map (fun '(i, s) => {| fs_idx := i; fs_seq := wadd16 (ss_snd_una t) (Z.of_nat i mod M16);
                                           fs_payload_offset := sg_abs s - ss_removed t; fs_seg := s |})
                        (enum_from 0 a) = pre).
  { remember (ss_segs t) as l eqn:El. clear El.
    assert (Hgen : forall (l : list seg) i pre0,
      map (fun '(i, s) => {| fs_idx := i; fs_seq := wadd16 (ss_snd_una t) (Z.of_nat i mod M16);
                             fs_payload_offset := sg_abs s - ss_removed t; fs_seg := s |})
          (enum_from i l) = pre0 ++ f :: post ->
      exists a g b, l = a ++ g :: b /\ (i + length a)%nat = fs_idx f /\
        map (fun '(i, s) => {| fs_idx := i; fs_seq := wadd16 (ss_snd_una t) (Z.of_nat i mod M16);
                               fs_payload_offset := sg_abs s - ss_removed t; fs_seg := s |})
            (enum_from i a) = pre0).
    { clear. induction l as [|x xs IH]; intros i pre0; cbn [enum_from map].
      - destruct pre0; discriminate.
      - destruct pre0 as [|p ps]; cbn [app].
        + intro H; injection H as Hf _. exists [], x, xs. cbn [app length enum_from map].
          rewrite <- Hf. cbn [fs_idx]. split; [reflexivity|]. split; [lia|reflexivity].
        + intro H; injection H as Hp Hrest. destruct (IH _ _ Hrest) as (a & g & b & -> & Hi & Hm).
          exists (x :: a), g, b. cbn [app length enum_from map]. split; [reflexivity|].
          split; [lia|]. rewrite Hp, Hm. reflexivity. }
    destruct (Hgen l 0%nat pre Hl) as (a & g & b & E & Hi & Hm). exists a, g, b. auto. }
  destruct Hsplit as (a & g & b & Hs & Hlen & Hm).
  intros j g0 Hj Hn. rewrite Hs in Hn. rewrite nth_error_app1 in Hn by lia.
  subst pre. rewrite forallb_forall in Hpre.
  assert (Hin : In (j, g0) (enum_from 0 a)) by (apply (nth_enum_from_In a 0%nat j g0 Hn)).
  specialize (Hpre _ (in_map _ _ _ Hin)). cbn [fs_seg] in Hpre.
  rewrite negb_involutive in Hpre. exact Hpre.
Qed.

(* ------------------------------------------------------------------ send_data *)
Section WithCC.
Context {CC : Type} (cci : cc_iface CC).
Notation vsock := (vsock CC).

Definition step_st {A} (r : step A) : option vsock :=
  match r with SOk s _ => Some s | SErr s _ => Some s | SPanic => None end.

(* the fields no part of the data-sending path touches *)
Definition sd_frame (s s' : vsock) : Prop :=
  v_tx s' = v_tx s /\ v_cc s' = v_cc s /\ v_last_remote_window s' = v_last_remote_window s /\
  v_recovery s' = v_recovery s /\ v_rto_retransmissions s' = v_rto_retransmissions s /\
  v_opts s' = v_opts s /\ v_now s' = v_now s /\ v_rtte s' = v_rtte s /\ v_ss s' = v_ss s /\
  v_state s' = v_state s /\ v_restart s' = v_restart s /\
  v_last_remote_timestamp s' = v_last_remote_timestamp s /\ v_socket_created s' = v_socket_created s /\
  v_conn_id_send s' = v_conn_id_send s /\ v_last_consumed s' = v_last_consumed s /\ v_rx s' = v_rx s.

Lemma sd_frame_refl s : sd_frame s s.
Proof. unfold sd_frame. repeat split. Qed.

Lemma sd_frame_trans s1 s2 s3 : sd_frame s1 s2 -> sd_frame s2 s3 -> sd_frame s1 s3.
Proof.
  unfold sd_frame. intros H1 H2.
  repeat match goal with H : _ /\ _ |- _ => destruct H end.
  repeat split; congruence.
Qed.

(* the transport call consumes at most the head of the script; EMSGSIZE is answered only from the
   script or because of the size limit *)
Lemma next_send_cases (s : vsock) size s1 o : next_send s size = (s1, o) ->
  (s1 = s /\ v_sends s = [] \/ exists o0 r, v_sends s = o0 :: r /\ s1 = set_sends s r) /\
  (o = TEmsgsize -> In TEmsgsize (v_sends s) \/ v_emsg_limit s <> None).
Proof.
  unfold next_send. destruct (v_sends s) as [|o0 r] eqn:Es.
  - destruct (v_emsg_limit s) as [m|]; [destruct (m <? size)|]; intro H; injection H as <- <-;
      (split; [left; auto|]); intro E; try discriminate E; right; discriminate.
  - destruct o0; destruct (v_emsg_limit s) as [m|]; try destruct (m <? size);
      intro H; injection H as <- <-; (split; [right; eauto|]); intro E; try discriminate E;
      first [right; discriminate | left; left; reflexivity].
Qed.

Lemma next_send_frame s sz s1 o : next_send s sz = (s1, o) ->
  sd_frame s s1 /\ v_out s1 = v_out s /\ v_segs s1 = v_segs s /\
  v_last_sent_seq_nr s1 = v_last_sent_seq_nr s /\ v_t_retransmit s1 = v_t_retransmit s /\
  v_transport_pending s1 = v_transport_pending s /\ v_seq_nr s1 = v_seq_nr s /\
  v_t_inactivity s1 = v_t_inactivity s.
Proof.
  intro H. destruct (next_send_cases _ _ _ _ H) as [[[-> _]|(o0 & r & _ & ->)] _].
  - split; [apply sd_frame_refl|repeat split].
  - split; [unfold sd_frame|]; vsimpl; repeat split.
Qed.

(* the ST_DATA header send_data! builds *)
Definition data_hdr (s : vsock) (h : chdr) (f : for_sending) : chdr :=
  let ts := timestamp_microseconds s in
  {| ch_type := ST_DATA; ch_conn_id := ch_conn_id h; ch_ts := ts;
     ch_ts_diff := (ts - v_last_remote_timestamp s) mod M32;
     ch_wnd := ch_wnd h; ch_seq := fs_seq f; ch_ack := ch_ack h;
     ch_sack := None; ch_close_reason := None |}.

Definition data_payload (s : vsock) (f : for_sending) : list Z :=
  firstn (Z.to_nat (sg_size (fs_seg f))) (skipn (Z.to_nat (fs_payload_offset f)) (ring (v_tx s))).

Definition data_pkt (s : vsock) (h : chdr) (f : for_sending) : packet :=
  {| p_hdr := data_hdr s h f; p_payload := data_payload s f |}.

Lemma data_pkt_frame s s' h f : sd_frame s s' -> data_pkt s' h f = data_pkt s h f.
Proof.
  unfold sd_frame. intro H. repeat match goal with H : _ /\ _ |- _ => destruct H end.
  unfold data_pkt, data_hdr, data_payload, timestamp_microseconds. congruence.
Qed.

Definition sd_unchanged (s s' : vsock) : Prop :=
  sd_frame s s' /\ v_out s' = v_out s /\ v_segs s' = v_segs s /\
  v_last_sent_seq_nr s' = v_last_sent_seq_nr s /\ v_t_retransmit s' = v_t_retransmit s /\
  v_seq_nr s' = v_seq_nr s /\ v_t_inactivity s' = v_t_inactivity s.

(* the state send_data! leaves behind once the transport has taken datagram p of item f;
   s1 is the state after the transport call *)
Definition sent_state (s1 : vsock) (p : packet) (f : for_sending) : vsock :=
  let s2 := emit s1 p in
  let s3 := set_segs s2 (on_sent (v_segs s2) (fs_idx f) (v_now s2)) in
  let s4 := on_packet_sent s3 (p_hdr p) in
  let s5 := if seq_gt (fs_seq f) (v_last_sent_seq_nr s4)
            then let s4' := set_last_sent_seq_nr s4 (fs_seq f) in
                 if seq_gt (wadd16 (fs_seq f) 1) (v_seq_nr s4')
                 then set_seq_nr s4' (wadd16 (fs_seq f) 1) else s4'
            else s4 in
  let s6 := set_t_retransmit s5 (timer_arm (v_t_retransmit s5) (v_now s5)
                                   (retransmission_timeout (v_rtte s5)) false) in
  set_t_inactivity s6 (timer_arm (v_t_inactivity s6) (v_now s6) (o_inactivity (v_opts s6)) false).

Lemma send_data_eq s h f :
  send_data s h f =
  if seg_retransmit_count (fs_seg f) =? o_max_retx (v_opts s) then SErr s ErrMaxRetransmissionsReached
  else if fs_payload_offset f <? 0 then SPanic
  else if Z.of_nat (length (ring (v_tx s))) <? fs_payload_offset f
  then SErr s (ErrBug BugOffsetBeyondBufferBounds)
  else if Z.of_nat (length (ring (v_tx s))) <? fs_payload_offset f + sg_size (fs_seg f)
  then SErr s (ErrBug BugRequestedLengthExceedsBufferBounds)
  else let '(s1, o) := next_send s (20 + sg_size (fs_seg f)) in
       match o with
       | TSent => SOk (sent_state s1 (data_pkt s h f) f) SdSent
       | TPending => SOk (set_transport_pending s1 true) SdPending
       | TEmsgsize => SOk s1 SdEmsgsize
       | TIoErr => SErr s1 ErrSend
       end.
Proof. reflexivity. Qed.

(* two nested tests since the repair of D13: last_sent moves, seq_nr is only raised *)
Lemma sent_state_fields (s1 : vsock) p f :
  sd_frame s1 (sent_state s1 p f) /\
  v_out (sent_state s1 p f) = p :: v_out s1 /\
  v_segs (sent_state s1 p f) = on_sent (v_segs s1) (fs_idx f) (v_now s1) /\
  v_last_sent_seq_nr (sent_state s1 p f) =
    (if seq_gt (fs_seq f) (v_last_sent_seq_nr s1) then fs_seq f else v_last_sent_seq_nr s1) /\
  v_t_retransmit (sent_state s1 p f) =
    timer_arm (v_t_retransmit s1) (v_now s1) (retransmission_timeout (v_rtte s1)) false /\
  v_transport_pending (sent_state s1 p f) = v_transport_pending s1 /\
  v_sends (sent_state s1 p f) = v_sends s1 /\ v_emsg_limit (sent_state s1 p f) = v_emsg_limit s1 /\
  v_inbox (sent_state s1 p f) = v_inbox s1 /\ v_inbox_closed (sent_state s1 p f) = v_inbox_closed s1.
Proof.
  unfold sent_state, sd_frame, on_packet_sent, emit. vsimpl.
  destruct (seq_gt (fs_seq f) _); [destruct (seq_gt _ _)|]; repeat split.
Qed.

Lemma send_data_spec s h f :
  match send_data s h f with
  | SOk s' SdSent =>
      sd_frame s s' /\
      v_out s' = data_pkt s h f :: v_out s /\
      v_segs s' = on_sent (v_segs s) (fs_idx f) (v_now s) /\
      v_last_sent_seq_nr s' =
        (if seq_gt (fs_seq f) (v_last_sent_seq_nr s) then fs_seq f else v_last_sent_seq_nr s) /\
      v_t_retransmit s' = timer_arm (v_t_retransmit s) (v_now s) (retransmission_timeout (v_rtte s)) false /\
      v_transport_pending s' = v_transport_pending s /\
      seg_retransmit_count (fs_seg f) <> o_max_retx (v_opts s) /\
      0 <= fs_payload_offset f /\
      fs_payload_offset f + sg_size (fs_seg f) <= Z.of_nat (length (ring (v_tx s)))
  | SOk s' SdPending => sd_unchanged s s' /\ v_transport_pending s' = true
  | SOk s' SdEmsgsize => sd_unchanged s s' /\ v_transport_pending s' = v_transport_pending s
  | SErr s' e => sd_unchanged s s' /\ v_transport_pending s' = v_transport_pending s /\
                 (e = ErrMaxRetransmissionsReached -> s' = s)
  | SPanic => True
  end.
Proof.
  rewrite send_data_eq.
  assert (Hrefl : sd_unchanged s s) by (unfold sd_unchanged; repeat split; apply sd_frame_refl).
  destruct (Z.eqb_spec (seg_retransmit_count (fs_seg f)) (o_max_retx (v_opts s))) as [He|Hne].
  { split; [exact Hrefl|split; reflexivity]. }
  destruct (Z.ltb_spec (fs_payload_offset f) 0) as [Hneg|Hoff]; [exact I|].
  destruct (Z.ltb_spec (Z.of_nat (length (ring (v_tx s)))) (fs_payload_offset f)) as [Hb1|Hb1].
  { split; [exact Hrefl|split; [reflexivity|discriminate]]. }
  destruct (Z.ltb_spec (Z.of_nat (length (ring (v_tx s)))) (fs_payload_offset f + sg_size (fs_seg f))) as [Hb2|Hb2].
  { split; [exact Hrefl|split; [reflexivity|discriminate]]. }
  destruct (next_send s (20 + sg_size (fs_seg f))) as [s1 o] eqn:En.
  destruct (next_send_frame _ _ _ _ En) as (Hf & Ho & Hsg & Hls & Htr & Htp & Hsq & Hti).
  destruct o.
  - destruct (sent_state_fields s1 (data_pkt s h f) f) as (G & Go & Gsg & Gls & Gtr & Gtp & _).
    assert (Hnow : v_now s1 = v_now s) by apply Hf.
    assert (Hrt : v_rtte s1 = v_rtte s) by apply Hf.
    split; [exact (sd_frame_trans _ _ _ Hf G)|].
    rewrite Go, Gsg, Gls, Gtr, Gtp, Ho, Hsg, Hls, Htr, Htp, Hnow, Hrt. repeat split; assumption.
  - unfold sd_unchanged. unfold sd_frame in *. vsimpl. tauto.
  - unfold sd_unchanged. tauto.
  - unfold sd_unchanged. split; [tauto|]. split; [exact Htp|discriminate].
Qed.

(* ------------------------------------------------------------------ the loops *)
Fixpoint fs_bytes (l : list for_sending) : Z :=
  match l with [] => 0 | f :: r => sg_size (fs_seg f) + fs_bytes r end.

Lemma fs_bytes_app a b : fs_bytes (a ++ b) = fs_bytes a + fs_bytes b.
Proof. induction a as [|x xs IH]; cbn [app fs_bytes]; lia. Qed.

(* what send_data checked before it emitted the datagram of item f *)
Definition sent_ok (s : vsock) (f : for_sending) : Prop :=
  seg_retransmit_count (fs_seg f) <> o_max_retx (v_opts s) /\ 0 <= fs_payload_offset f /\
  fs_payload_offset f + sg_size (fs_seg f) <= Z.of_nat (length (ring (v_tx s))).

Lemma sent_ok_frame s s' f : sd_frame s s' -> sent_ok s' f -> sent_ok s f.
Proof.
  unfold sd_frame, sent_ok. intros H. repeat match goal with H : _ /\ _ |- _ => destruct H end.
  congruence.
Qed.

Definition on_sent_all (t : segments) (now : Z) (sent : list for_sending) : segments :=
  fold_left (fun t f => on_sent t (fs_idx f) now) sent t.

Lemma on_sent_all_dshape now : forall sent t, dshape (on_sent_all t now sent) = dshape t.
Proof.
  induction sent as [|f r IH]; intro t; cbn [on_sent_all fold_left]; [reflexivity|].
  fold (on_sent_all (on_sent t (fs_idx f) now) now r). rewrite IH. apply on_sent_dshape.
Qed.

(* what a run of send_data calls leaves behind: `sent` = the items whose datagram went out *)
Definition emitted (s s' : vsock) (h : chdr) (sent : list for_sending) : Prop :=
  sd_frame s s' /\
  v_out s' = rev (map (data_pkt s h) sent) ++ v_out s /\
  v_segs s' = on_sent_all (v_segs s) (v_now s) sent /\
  Forall (sent_ok s) sent /\
  (sent = [] -> v_last_sent_seq_nr s' = v_last_sent_seq_nr s /\ v_t_retransmit s' = v_t_retransmit s).

Lemma emitted_nil s s' h : sd_unchanged s s' -> emitted s s' h [].
Proof.
  unfold sd_unchanged, emitted. intros (Hf & Ho & Hs & Hl & Ht & _).
  cbn [map rev app on_sent_all fold_left].
  split; [exact Hf|]. split; [exact Ho|]. split; [exact Hs|]. split; [constructor|]. intros _. split; assumption.
Qed.

Lemma emitted_cons s s1 s' h f sent :
  sd_frame s s1 -> v_out s1 = data_pkt s h f :: v_out s ->
  v_segs s1 = on_sent (v_segs s) (fs_idx f) (v_now s) -> sent_ok s f ->
  emitted s1 s' h sent -> emitted s s' h (f :: sent).
Proof.
  intros Hf Ho Hs Hok (Hf2 & Ho2 & Hs2 & Hok2 & _). unfold emitted.
  split; [eapply sd_frame_trans; eauto|].
  split.
  { rewrite Ho2, Ho. cbn [map rev]. rewrite <- app_assoc. cbn [app].
    f_equal. rewrite (map_ext _ _ (fun g => data_pkt_frame s s1 h g Hf)). reflexivity. }
  split.
  { rewrite Hs2, Hs. cbn [on_sent_all fold_left].
    assert (v_now s1 = v_now s) as -> by (unfold sd_frame in Hf; tauto). reflexivity. }
  split.
  { constructor; [exact Hok|]. eapply Forall_impl; [|exact Hok2]. intros g; apply sent_ok_frame; exact Hf. }
  discriminate.
Qed.

Lemma sd_unchanged_refl s : sd_unchanged s s.
Proof. unfold sd_unchanged. repeat split; apply sd_frame_refl. Qed.

Lemma new_data_loop_spec : forall items s h rem s',
  0 <= rem -> step_st (new_data_loop items s h rem) = Some s' ->
  exists sent rest, items = sent ++ rest /\ emitted s s' h sent /\ fs_bytes sent <= rem.
Proof.
  induction items as [|f rest IH]; intros s h rem s' Hrem; cbn [new_data_loop].
  - cbn [step_st]. intro H; injection H as <-. exists [], []. split; [reflexivity|].
    split; [apply emitted_nil, sd_unchanged_refl|cbn; lia].
  - (* every way the loop stops at f without sending it *)
    assert (Hstop : forall s1, sd_unchanged s s1 -> Some s1 = Some s' ->
              exists sent rest0, f :: rest = sent ++ rest0 /\ emitted s s' h sent /\ fs_bytes sent <= rem).
    { intros s1 Hun H. injection H as <-. exists [], (f :: rest). split; [reflexivity|].
      split; [apply emitted_nil, Hun|cbn; lia]. }
    destruct (Z.ltb_spec rem (sg_size (fs_seg f))) as [Hlt|Hge]; [exact (Hstop s (sd_unchanged_refl s))|].
    pose proof (send_data_spec s h f) as Hsd.
    destruct (send_data s h f) as [s1 [| |]|s1 e|] eqn:Esd;
      [|exact (Hstop s1 (proj1 Hsd)) ..|discriminate].
    destruct Hsd as (Hf & Ho & Hs & Hl & Ht & Htp & Hne & Hoff & Hb).
    intro H. destruct (IH s1 h (rem - sg_size (fs_seg f)) s' ltac:(lia) H) as (sent & rest' & -> & Hem & Hb').
    exists (f :: sent), rest'. split; [reflexivity|].
    split; [eapply emitted_cons; eauto; unfold sent_ok; auto|cbn [fs_bytes]; lia].
Qed.

(* a zero budget stops the loop at its first item when that item has a positive size *)
Lemma new_data_loop_zero items (s : vsock) h :
  Forall (fun f => 1 <= sg_size (fs_seg f)) items -> new_data_loop items s h 0 = SOk s None.
Proof.
  destruct items as [|f rest]; cbn [new_data_loop]; [reflexivity|].
  intro H. inversion H as [|? ? H1 _]; subst.
  destruct (Z.ltb_spec 0 (sg_size (fs_seg f))); [reflexivity|lia].
Qed.

Lemma recovery_loop_spec : forall items s h mss0 st s',
  step_st (recovery_loop items s h mss0 st) = Some s' ->
  exists sent, incl sent items /\ emitted s s' h sent /\
    (rl_total st = 0 -> forall f rest, items = f :: rest ->
       match send_data s h f with SOk _ SdSent => exists sent', sent = f :: sent' | _ => sent = [] end).
Proof.
  induction items as [|f rest IH]; intros s h mss0 st s'; cbn [recovery_loop].
  - cbn [step_st]. intro H; injection H as <-. exists []. split; [apply incl_nil_l|].
    split; [apply emitted_nil, sd_unchanged_refl|]. intros _ f rest H; discriminate.
  - (* every way the loop stops at f without sending it *)
    assert (Hstop : forall s1, sd_unchanged s s1 ->
              (rl_total st = 0 -> match send_data s h f with SOk _ SdSent => False | _ => True end) ->
              Some s1 = Some s' ->
              exists sent, incl sent (f :: rest) /\ emitted s s' h sent /\
                (rl_total st = 0 -> forall f0 rest0, f :: rest = f0 :: rest0 ->
                   match send_data s h f0 with
                   | SOk _ SdSent => exists sent', sent = f0 :: sent' | _ => sent = [] end)).
    { intros s1 Hun Hns H. injection H as <-. exists []. split; [apply incl_nil_l|].
      split; [apply emitted_nil, Hun|]. intros Ht f0 rest0 E. injection E as <- <-. specialize (Hns Ht).
      destruct (send_data s h f) as [? [| |]| |]; [contradiction|reflexivity ..]. }
    destruct (Z.eqb_spec (rl_total st) 0) as [Ht0|Htn]; cbn [orb negb].
    + (* the first retransmission of this recovery goes through unconditionally *)
      replace (0 <? rl_total st) with false by (symmetry; apply Z.ltb_ge; lia). cbn [andb].
      pose proof (send_data_spec s h f) as Hsd.
      destruct (send_data s h f) as [s1 [| |]|s1 e|] eqn:Esd;
        [|apply (Hstop s1 (proj1 Hsd)); intros _; exact I ..|discriminate].
      destruct Hsd as (Hf & Ho & Hs & Hl & Htr & Htp & Hne & Hoff & Hb).
      intro H. destruct (IH _ _ _ _ _ H) as (sent & Hincl & Hem & _).
      exists (f :: sent). split; [apply incl_cons; [left; reflexivity|apply incl_tl; exact Hincl]|].
      split; [eapply emitted_cons; eauto; unfold sent_ok; auto|].
      intros _ f0 rest0 E; injection E as <- <-. rewrite Esd. eauto.
    + destruct (negb (mss0 <? rl_cwnd st)) eqn:Ec;
        [apply (Hstop s (sd_unchanged_refl s)); intro; contradiction|].
      destruct ((0 <? rl_total st) && negb (sg_lost (fs_seg f))).
      { intro H. destruct (IH _ _ _ _ _ H) as (sent & Hincl & Hem & _).
        exists sent. split; [apply incl_tl; exact Hincl|]. split; [exact Hem|]. intro; contradiction. }
      destruct ((0 <? rl_total st) && negb (sg_sacks_after (fs_seg f)));
        [apply (Hstop s (sd_unchanged_refl s)); intro; contradiction|].
      pose proof (send_data_spec s h f) as Hsd.
      destruct (send_data s h f) as [s1 [| |]|s1 e|] eqn:Esd;
        [|apply (Hstop s1 (proj1 Hsd)); intro; contradiction ..|discriminate].
      destruct Hsd as (Hf & Ho & Hs & Hl & Htr & Htp & Hne & Hoff & Hb).
      intro H. destruct (IH _ _ _ _ _ H) as (sent & Hincl & Hem & _).
      exists (f :: sent). split; [apply incl_cons; [left; reflexivity|apply incl_tl; exact Hincl]|].
      split; [eapply emitted_cons; eauto; unfold sent_ok; auto|]. intro; contradiction.
Qed.

(* ------------------------------------------------------------------ send_tx_queue, by parts *)
(* copies of the three local parts of send_tx_queue; send_tx_queue_eq shows (by computation) that
   the model's function is their composition *)
Definition rto_branch (s : vsock) (h : chdr) : step bool :=
  if timer_expired (v_t_retransmit s) (v_now s) then
    match iter_for_sending (v_segs s) None with
    | f :: _ =>
        match send_data s h f with
        | SPanic => SPanic
        | SErr s1 e => SErr s1 e
        | SOk s1 SdEmsgsize => SErr s1 ErrSend
        | SOk s1 SdPending => SOk s1 true
        | SOk s1 SdSent =>
            let s2o := if negb (sg_probe (fs_seg f)) then on_rto_reactions cci s1 else Some s1 in
            match s2o with
            | None => SPanic
            | Some s2 =>
                let s3 := set_t_retransmit s2 (timer_arm (v_t_retransmit s2) (v_now s2)
                                                 (retransmission_timeout (v_rtte s2)) true) in
                SOk (set_rto_retransmissions (set_last_sent_seq_nr s3 (fs_seq f))
                                             (v_rto_retransmissions s3 + 1)) false
            end
        end
    | [] =>
        match our_fin_if_unacked (v_state s) with
        | Some fin =>
            if v_last_sent_seq_nr s =? fin then
              let s1 := set_last_sent_seq_nr s (wsub16 (v_last_sent_seq_nr s) 1) in
              sbind (maybe_send_fin s1) (fun s2 sent =>
                if sent then
                  match on_rto_reactions cci s2 with
                  | None => SPanic
                  | Some s3 =>
                      SOk (set_t_retransmit s3 (timer_arm (v_t_retransmit s3) (v_now s3)
                                                  (retransmission_timeout (v_rtte s3)) true)) false
                  end
                else SOk s2 false)
            else SOk (set_t_retransmit s None) false
        | None => SOk (set_t_retransmit s None) false
        end
    end
  else SOk s false.

Definition rec_items (s : vsock) (rc : recovering) : list for_sending :=
  take_while (fun f => seq_le (fs_seq f) (rc_recovery_point rc))
    (skip_while (fun f => seq_le (fs_seq f) (rc_high_rxt rc))
       (firstn (Z.to_nat (ss_sack_depth (v_segs s) + 1)) (iter_for_sending (v_segs s) None))).

Definition rec_st0 (rc : recovering) : rec_loop_st :=
  {| rl_high_rxt := rc_high_rxt rc; rl_total := rc_total_retx rc;
     rl_pipe := rc_pipe rc; rl_cwnd := rec_cwnd rc; rl_sent := 0 |}.

Definition rec_after (rc : recovering) (h : chdr) (mss0 : Z) (s1 : vsock) (res : rec_loop_st * bool) : step bool :=
  let rp := rc_recovery_point rc in
  let '(st, early) := res in
  let rc1 := {| rc_recovery_point := rp; rc_high_rxt := rl_high_rxt st;
                rc_total_retx := rl_total st; rc_pipe := rl_pipe st;
                rc_recalc := rc_recalc rc; rc_cwnd := rc_cwnd rc |} in
  let s2 := set_recovering s1 rc1 in
  if early then SOk s2 true
  else
    let s3 :=
      if rl_cwnd st <? mss0 then
        match rc_recalc rc with
        | Some t => set_t_recovery_pipe s2 (Some t)
        | None =>
            if 0 <? rl_sent st then
              set_t_recovery_pipe s2
                (timer_arm (v_t_recovery_pipe s2) (v_now s2)
                   (calc_pipe_expiry (roundtrip_time (v_rtte s2))) true)
            else s2
        end
      else s2 in
    match our_fin_if_unacked (v_state s3) with
    | Some our_fin =>
        if rl_high_rxt st =? wsub16 our_fin 1 then
          let rc2 := {| rc_recovery_point := rp; rc_high_rxt := our_fin;
                        rc_total_retx := rl_total st + 1; rc_pipe := rl_pipe st;
                        rc_recalc := rc_recalc rc; rc_cwnd := rc_cwnd rc |} in
          SOk (set_recovering (set_last_sent_seq_nr s3 (wsub16 our_fin 1)) rc2) true
        else SOk s3 false
    | None => SOk s3 false
    end.

Definition rec_branch (s : vsock) (h : chdr) : step bool :=
  match rv_phase (v_recovery s) with
  | Recovering rc =>
      sbind (recovery_loop (rec_items s rc) s h (mss (v_ss s)) (rec_st0 rc))
            (rec_after rc h (mss (v_ss s)))
  | _ => SOk s false
  end.

Definition new_remaining (s : vsock) : Z :=
  match remaining_cwnd (v_recovery s) (v_last_remote_window s) with
  | Some r => r
  | None => sat_sub (Z.min (cc_window cci (v_cc s)) (v_last_remote_window s))
                    (calc_flight_size (v_segs s) (v_last_sent_seq_nr s))
  end.

Definition new_items (s : vsock) : list for_sending :=
  iter_for_sending (v_segs s) (Some (wadd16 (v_last_sent_seq_nr s) 1)).

Definition new_after (s1 : vsock) (too_long : option (Z * Z)) : step unit :=
  match too_long with
  | None => SOk s1 tt
  | Some (seq, size) =>
      let '(segs', popped) := pop_mtu_probe (v_segs s1) seq in
      if popped then
        SOk (set_restart
               (set_ss (set_segs s1 segs')
                       (disarm_cooldown (on_probe_failed (v_ss s1) size))) true) tt
      else SErr s1 (ErrBug BugEmsgSizeNoProbe)
  end.

Definition new_branch (s : vsock) (h : chdr) : step unit :=
  sbind (new_data_loop (new_items s) s h (new_remaining s)) new_after.

Definition after_rto_k (h : chdr) (s : vsock) (ret : bool) : step unit :=
  if ret then SOk s tt
  else if 0 <? v_rto_retransmissions s then SOk s tt
  else match ss_segs (v_segs s) with
       | [] => SOk s tt
       | _ :: _ => sbind (rec_branch s h) (fun s ret => if ret then SOk s tt else new_branch s h)
       end.

Lemma send_tx_queue_eq s :
  send_tx_queue cci s =
  if v_transport_pending s then SOk s tt
  else sbind (rto_branch s (outgoing_header s)) (after_rto_k (outgoing_header s)).
Proof. reflexivity. Qed.

(* the fields the datagram of an item depends on *)
Definition pk_frame (s s' : vsock) : Prop :=
  v_tx s' = v_tx s /\ v_now s' = v_now s /\ v_socket_created s' = v_socket_created s /\
  v_last_remote_timestamp s' = v_last_remote_timestamp s /\ v_opts s' = v_opts s.

Lemma pk_frame_refl s : pk_frame s s.
Proof. unfold pk_frame; repeat split. Qed.
Lemma pk_frame_trans a b c : pk_frame a b -> pk_frame b c -> pk_frame a c.
Proof. unfold pk_frame. intros (A1&A2&A3&A4&A5) (B1&B2&B3&B4&B5). repeat split; congruence. Qed.
Lemma sd_pk_frame s s' : sd_frame s s' -> pk_frame s s'.
Proof. unfold sd_frame, pk_frame. tauto. Qed.
Lemma data_pkt_pk_frame s s' h f : pk_frame s s' -> data_pkt s' h f = data_pkt s h f.
Proof.
  unfold pk_frame. intros (A1&A2&A3&A4&A5).
  unfold data_pkt, data_hdr, data_payload, timestamp_microseconds. congruence.
Qed.
Lemma sent_ok_pk_frame s s' f : pk_frame s s' -> sent_ok s' f -> sent_ok s f.
Proof. unfold pk_frame, sent_ok. intros (A1&A2&A3&A4&A5). congruence. Qed.

(* ------------------------------------------------------------------ control packets, FIN *)
Definition ctrl_pkt (s : vsock) (h : chdr) : packet :=
  {| p_hdr := hdr_with h (ch_type h) (ch_seq h) (fit_sack s (ch_sack h)); p_payload := [] |}.

Lemma send_control_packet_spec s h :
  match send_control_packet s h with
  | SOk s' true =>
      sd_frame s s' /\ v_out s' = ctrl_pkt s h :: v_out s /\ v_segs s' = v_segs s /\
      v_last_sent_seq_nr s' = v_last_sent_seq_nr s /\ v_t_retransmit s' = v_t_retransmit s /\
      v_seq_nr s' = v_seq_nr s /\ v_transport_pending s = false
  | SOk s' false => sd_unchanged s s'
  | SErr s' _ => sd_unchanged s s'
  | SPanic => True
  end.
Proof.
  unfold send_control_packet.
  destruct (v_transport_pending s) eqn:Ep.
  { unfold sd_unchanged. repeat split; apply sd_frame_refl. }
  destruct (next_send s _) as [s1 o] eqn:En.
  destruct (next_send_frame _ _ _ _ En) as (Hf & Ho & Hsg & Hls & Htr & Htp & Hsq & Hti).
  assert (Hf' := Hf). unfold sd_frame in Hf'.
  destruct Hf' as (F1 & F2 & F3 & F4 & F5 & F6 & F7 & F8 & F9 & F10 & F11 & F12 & F13 & F14 & F15 & F16).
  destruct o.
  - unfold on_packet_sent, emit, ctrl_pkt. split; [unfold sd_frame; vsimpl; repeat split; assumption|].
    vsimpl. rewrite Ho. repeat split; assumption.
  - unfold sd_unchanged, sd_frame. vsimpl. repeat split; assumption.
  - unfold sd_unchanged. repeat split; assumption.
  - unfold sd_unchanged. repeat split; assumption.
Qed.

Definition fin_pkt (s : vsock) (seq : Z) : packet :=
  ctrl_pkt s (hdr_with (outgoing_header s) ST_FIN seq None).

Lemma maybe_send_fin_spec s :
  match maybe_send_fin s with
  | SOk s' true =>
      exists seq, our_fin_if_unacked (v_state s) = Some seq /\ seq_sub seq (v_last_sent_seq_nr s) = 1 /\
        sd_frame s s' /\ v_out s' = fin_pkt s seq :: v_out s /\ v_segs s' = v_segs s /\
        v_last_sent_seq_nr s' = seq /\
        v_t_retransmit s' = timer_arm (v_t_retransmit s) (v_now s) (retransmission_timeout (v_rtte s)) false /\
        v_seq_nr s' = v_seq_nr s /\ v_transport_pending s = false
  | SOk s' false => sd_unchanged s s'
  | SErr s' _ => sd_unchanged s s'
  | SPanic => True
  end.
Proof.
  unfold maybe_send_fin.
  assert (Hrefl : sd_unchanged s s) by (unfold sd_unchanged; repeat split; apply sd_frame_refl).
  destruct (v_transport_pending s) eqn:Ep; [exact Hrefl|].
  destruct (our_fin_if_unacked (v_state s)) as [seq|] eqn:Ef; [|exact Hrefl].
  destruct (Z.eqb_spec (seq_sub seq (v_last_sent_seq_nr s)) 1) as [He|Hne]; cbn [negb]; [|exact Hrefl].
  pose proof (send_control_packet_spec s (hdr_with (outgoing_header s) ST_FIN seq None)) as Hc.
  destruct (send_control_packet s _) as [s1 [|]|s1 e|]; cbn [sbind]; try exact Hc.
  destruct Hc as (Hf & Ho & Hsg & Hls & Htr & Hsq & Hp).
  assert (Hf' := Hf). unfold sd_frame in Hf'.
  destruct Hf' as (F1 & F2 & F3 & F4 & F5 & F6 & F7 & F8 & F9 & F10 & F11 & F12 & F13 & F14 & F15 & F16).
  exists seq. split; [reflexivity|]. split; [exact He|].
  split; [unfold sd_frame; vsimpl; repeat split; assumption|].
  vsimpl. unfold fin_pkt. rewrite Ho, Htr, F7, F8. repeat split; assumption.
Qed.

Lemma on_rto_reactions_spec s s' :
  on_rto_reactions cci s = Some s' ->
  on_rto_timeout (v_rtte s) = Some (v_rtte s') /\
  v_cc s' = cc_on_rto cci (v_cc s) (v_now s) /\
  v_recovery s' = recovery_on_rto_timeout (v_recovery s) (v_last_sent_seq_nr s) /\
  v_out s' = v_out s /\ v_segs s' = v_segs s /\ v_tx s' = v_tx s /\
  v_last_remote_window s' = v_last_remote_window s /\
  v_rto_retransmissions s' = v_rto_retransmissions s /\ v_t_retransmit s' = v_t_retransmit s /\
  v_now s' = v_now s /\ v_last_sent_seq_nr s' = v_last_sent_seq_nr s /\ v_opts s' = v_opts s /\
  v_state s' = v_state s /\ v_ss s' = v_ss s /\ v_transport_pending s' = v_transport_pending s /\
  pk_frame s s'.
Proof.
  unfold on_rto_reactions. destruct (on_rto_timeout (v_rtte s)) as [rt|]; [|discriminate].
  intro H; injection H as <-. unfold pk_frame. vsimpl. repeat split.
Qed.

(* ------------------------------------------------------------------ the RTO part *)
Lemma timer_arm_restart t now d : timer_arm t now d true = Some (now + d).
Proof. destruct t; reflexivity. Qed.

Inductive rto_outcome (s : vsock) (h : chdr) (r : step bool) (s' : vsock) : Prop :=
| RtoQuiet :
    v_out s' = v_out s -> sd_frame s s' -> v_segs s' = v_segs s ->
    (v_last_sent_seq_nr s' = v_last_sent_seq_nr s \/ iter_for_sending (v_segs s) None = []) ->
    (timer_expired (v_t_retransmit s) (v_now s) = false -> r = SOk s false) ->
    (forall f rest, timer_expired (v_t_retransmit s) (v_now s) = true ->
                    iter_for_sending (v_segs s) None = f :: rest -> r <> SOk s' false) ->
    rto_outcome s h r s'
| RtoData (f : for_sending) (rest : list for_sending) :
    timer_expired (v_t_retransmit s) (v_now s) = true ->
    iter_for_sending (v_segs s) None = f :: rest ->
    r = SOk s' false ->
    v_out s' = data_pkt s h f :: v_out s ->
    sent_ok s f ->
    v_segs s' = on_sent (v_segs s) (fs_idx f) (v_now s) ->
    v_rto_retransmissions s' = v_rto_retransmissions s + 1 ->
    v_last_sent_seq_nr s' = fs_seq f ->
    v_tx s' = v_tx s -> v_opts s' = v_opts s -> v_now s' = v_now s ->
    v_last_remote_window s' = v_last_remote_window s -> v_state s' = v_state s ->
    (if sg_probe (fs_seg f)
     then v_rtte s' = v_rtte s /\ v_cc s' = v_cc s /\ v_recovery s' = v_recovery s
     else on_rto_timeout (v_rtte s) = Some (v_rtte s') /\
          v_cc s' = cc_on_rto cci (v_cc s) (v_now s) /\
          (is_recovering (v_recovery s) = false -> v_recovery s' = v_recovery s)) ->
    v_t_retransmit s' = Some (v_now s + retransmission_timeout (v_rtte s')) ->
    pk_frame s s' ->
    rto_outcome s h r s'
| RtoFin (fin : Z) :
    timer_expired (v_t_retransmit s) (v_now s) = true ->
    iter_for_sending (v_segs s) None = [] ->
    our_fin_if_unacked (v_state s) = Some fin -> v_last_sent_seq_nr s = fin ->
    r = SOk s' false ->
    v_out s' = fin_pkt (set_last_sent_seq_nr s (wsub16 fin 1)) fin :: v_out s ->
    v_segs s' = v_segs s ->
    v_rto_retransmissions s' = v_rto_retransmissions s ->
    v_last_sent_seq_nr s' = fin ->
    v_tx s' = v_tx s -> v_opts s' = v_opts s -> v_now s' = v_now s ->
    on_rto_timeout (v_rtte s) = Some (v_rtte s') ->
    v_t_retransmit s' = Some (v_now s + retransmission_timeout (v_rtte s')) ->
    pk_frame s s' ->
    rto_outcome s h r s'.

Lemma recovery_on_rto_not_recovering r ls : is_recovering r = false -> recovery_on_rto_timeout r ls = r.
Proof. unfold is_recovering, recovery_on_rto_timeout. destruct (rv_phase r); [reflexivity|reflexivity|discriminate]. Qed.

Lemma rto_branch_spec s h s' :
  step_st (rto_branch s h) = Some s' -> rto_outcome s h (rto_branch s h) s'.
Proof.
  unfold rto_branch.
  destruct (timer_expired (v_t_retransmit s) (v_now s)) eqn:Eexp.
  2:{ cbn [step_st]. intro H; injection H as <-. apply RtoQuiet; auto using sd_frame_refl; intros; congruence. }
  destruct (iter_for_sending (v_segs s) None) as [|f rest] eqn:Eit.
  - (* nothing to retransmit: FIN or switch the timer off *)
    assert (Hoff : step_st (SOk (A:=bool) (set_t_retransmit s None) false) = Some s' ->
                   rto_outcome s h (SOk (set_t_retransmit s None) false) s').
    { cbn [step_st]. intro H; injection H as <-. apply RtoQuiet; vsimpl; auto; try congruence; try (intros; congruence).
      unfold sd_frame; vsimpl; repeat split. }
    destruct (our_fin_if_unacked (v_state s)) as [fin|] eqn:Efin; [|exact Hoff].
    destruct (Z.eqb_spec (v_last_sent_seq_nr s) fin) as [Hls|Hls]; [|exact Hoff].
    set (s1 := set_last_sent_seq_nr s (wsub16 (v_last_sent_seq_nr s) 1)).
    pose proof (maybe_send_fin_spec s1) as Hm.
    assert (Hf1 : sd_frame s s1) by (unfold sd_frame, s1; vsimpl; repeat split).
    destruct (maybe_send_fin s1) as [s2 [|]|s2 e|] eqn:Em; cbn [sbind].
    + destruct Hm as (seq & Hfin2 & Hsub & Hf & Ho & Hsg & Hl2 & Htr & Hsq & Hp).
      unfold s1 in Hfin2; vsimpl. rewrite Efin in Hfin2. injection Hfin2 as <-.
      destruct (on_rto_reactions cci s2) as [s3|] eqn:Er; [|discriminate].
      destruct (on_rto_reactions_spec _ _ Er) as (R1 & R2 & R3 & R4 & R5 & R6 & R7 & R8 & R9 & R10 & R11 & R12 & R13 & R14 & R15 & RP).
      assert (Hf' := Hf). unfold sd_frame in Hf'.
      destruct Hf' as (F1 & F2 & F3 & F4 & F5 & F6 & F7 & F8 & F9 & F10 & F11 & F12 & F13 & F14 & F15 & F16).
      cbn [step_st]. intro H; injection H as <-.
      assert (PK : pk_frame s s3).
      { destruct RP as (Q1&Q2&Q3&Q4&Q5). clear - Q1 Q2 Q3 Q4 Q5 F1 F7 F13 F12 F6. unfold pk_frame. subst s1. vsimpl.
        repeat split; congruence. }
      eapply (RtoFin _ _ _ _ fin); vsimpl; auto; try congruence.
      * rewrite R4, Ho. unfold s1. rewrite Hls. reflexivity.
      * rewrite R5, Hsg. reflexivity.
      * rewrite R8, F5. reflexivity.
      * rewrite R6, F1. reflexivity.
      * rewrite R12, F6. reflexivity.
      * rewrite R10, F7. reflexivity.
      * rewrite <- R1. rewrite F8. reflexivity.
      * rewrite timer_arm_restart. rewrite R10, F7. reflexivity.
    + cbn [step_st]. intro H; injection H as <-. destruct Hm as (Hf & Ho & Hsg & Hl2 & Htr & _).
      apply RtoQuiet; auto; try congruence; try (intros; congruence); eapply sd_frame_trans; eauto.
    + cbn [step_st]. intro H; injection H as <-. destruct Hm as (Hf & Ho & Hsg & Hl2 & Htr & _).
      apply RtoQuiet; auto; try congruence; try (intros; congruence); eapply sd_frame_trans; eauto.
    + discriminate.
  - pose proof (send_data_spec s h f) as Hsd.
    destruct (send_data s h f) as [s1 [| |]|s1 e|] eqn:Esd.
    + destruct Hsd as (Hf & Ho & Hs & Hl & Htr & Htp & Hne & Hoff & Hb).
      assert (Hf' := Hf). unfold sd_frame in Hf'.
      destruct Hf' as (F1 & F2 & F3 & F4 & F5 & F6 & F7 & F8 & F9 & F10 & F11 & F12 & F13 & F14 & F15 & F16).
      destruct (sg_probe (fs_seg f)) eqn:Epr; cbn [negb].
      * cbn [step_st]. intro H; injection H as <-.
        eapply (RtoData _ _ _ _ f rest); vsimpl; auto; try (unfold sent_ok; auto; fail);
          try (unfold pk_frame; vsimpl; repeat split; assumption).
        -- rewrite F5; reflexivity.
        -- rewrite Epr. auto.
        -- rewrite timer_arm_restart, F7. reflexivity.
      * destruct (on_rto_reactions cci s1) as [s2|] eqn:Er; [|discriminate].
        destruct (on_rto_reactions_spec _ _ Er) as (R1 & R2 & R3 & R4 & R5 & R6 & R7 & R8 & R9 & R10 & R11 & R12 & R13 & R14 & R15 & RP).
        cbn [step_st]. intro H; injection H as <-.
        assert (PK : pk_frame s s2).
        { destruct RP as (Q1&Q2&Q3&Q4&Q5). unfold pk_frame. repeat split; congruence. }
        eapply (RtoData _ _ _ _ f rest); vsimpl; auto; try congruence; try (unfold sent_ok; auto; fail);
          try (destruct PK as (Q1&Q2&Q3&Q4&Q5); unfold pk_frame; vsimpl; repeat split; assumption).
        -- rewrite Epr. split; [rewrite <- R1, F8; reflexivity|]. split; [rewrite R2, F2, F7; reflexivity|].
           intro Hnr. rewrite R3, F4. apply recovery_on_rto_not_recovering. exact Hnr.
        -- rewrite timer_arm_restart, R10, F7. reflexivity.
    + cbn [step_st]. intro H; injection H as <-. destruct Hsd as ((Hf & Ho & Hsg & Hl2 & Htr & _) & _).
      apply RtoQuiet; auto; try congruence; intros; discriminate.
    + cbn [step_st]. intro H; injection H as <-. destruct Hsd as ((Hf & Ho & Hsg & Hl2 & Htr & _) & _).
      apply RtoQuiet; auto; try congruence; intros; discriminate.
    + cbn [step_st]. intro H; injection H as <-. destruct Hsd as ((Hf & Ho & Hsg & Hl2 & Htr & _) & _).
      apply RtoQuiet; auto; try congruence; intros; discriminate.
    + discriminate.
Qed.

(* ------------------------------------------------------------------ recovery part, new-data part *)
Lemma rec_after_spec rc h mss0 s1 res s' :
  step_st (rec_after rc h mss0 s1 res) = Some s' ->
  pk_frame s1 s' /\ v_out s' = v_out s1 /\ v_segs s' = v_segs s1 /\ v_cc s' = v_cc s1 /\
  v_last_remote_window s' = v_last_remote_window s1 /\ v_ss s' = v_ss s1 /\
  v_rto_retransmissions s' = v_rto_retransmissions s1 /\ v_rtte s' = v_rtte s1 /\
  v_t_retransmit s' = v_t_retransmit s1 /\ v_state s' = v_state s1 /\
  is_recovering (v_recovery s') = true.
Proof.
  unfold rec_after. destruct res as [st early].
  destruct early.
  { cbn [step_st]. intro H; injection H as <-. unfold set_recovering, pk_frame, is_recovering. vsimpl.
    cbn [rv_phase]. repeat split. }
  set (s2 := set_recovering s1 _).
  set (s3 := if rl_cwnd st <? mss0 then _ else s2).
  assert (H3 : pk_frame s1 s3 /\ v_out s3 = v_out s1 /\ v_segs s3 = v_segs s1 /\ v_cc s3 = v_cc s1 /\
               v_last_remote_window s3 = v_last_remote_window s1 /\ v_ss s3 = v_ss s1 /\
               v_rto_retransmissions s3 = v_rto_retransmissions s1 /\ v_rtte s3 = v_rtte s1 /\
               v_t_retransmit s3 = v_t_retransmit s1 /\ v_state s3 = v_state s1 /\
               is_recovering (v_recovery s3) = true).
  { unfold s3, s2, set_recovering, pk_frame, is_recovering.
    destruct (rl_cwnd st <? mss0); [destruct (rc_recalc rc); [|destruct (0 <? rl_sent st)]|];
      vsimpl; cbn [rv_phase]; repeat split. }
  clearbody s3. destruct H3 as (P & A1 & A2 & A3 & A4 & A5 & A6 & A7 & A8 & A9 & A10).
  destruct P as (P1 & P2 & P3 & P4 & P5).
  destruct (our_fin_if_unacked (v_state s3)) as [fin|].
  - destruct (rl_high_rxt st =? wsub16 fin 1); cbn [step_st]; intro H; injection H as <-.
    + unfold set_recovering, pk_frame, is_recovering. vsimpl. cbn [rv_phase].
      repeat split; assumption.
    + unfold pk_frame. repeat split; assumption.
  - cbn [step_st]; intro H; injection H as <-. unfold pk_frame. repeat split; assumption.
Qed.

Lemma rec_branch_spec s h s' :
  step_st (rec_branch s h) = Some s' ->
  (is_recovering (v_recovery s) = false /\ rec_branch s h = SOk s false /\ s' = s) \/
  exists rc sent s1,
    rv_phase (v_recovery s) = Recovering rc /\ incl sent (rec_items s rc) /\ emitted s s1 h sent /\
    pk_frame s1 s' /\ v_out s' = v_out s1 /\ v_segs s' = v_segs s1 /\ v_cc s' = v_cc s1 /\
    v_last_remote_window s' = v_last_remote_window s1 /\
    v_rto_retransmissions s' = v_rto_retransmissions s1 /\ v_state s' = v_state s1 /\
    (rc_total_retx rc = 0 -> forall f rest, rec_items s rc = f :: rest ->
       match send_data s h f with SOk _ SdSent => exists sent', sent = f :: sent' | _ => sent = [] end).
Proof.
  unfold rec_branch, is_recovering. destruct (rv_phase (v_recovery s)) as [rp|d|rc] eqn:Eph.
  - cbn [step_st]. intro H; injection H as <-. left. auto.
  - cbn [step_st]. intro H; injection H as <-. left. auto.
  - intro H. right. exists rc.
    destruct (recovery_loop (rec_items s rc) s h (mss (v_ss s)) (rec_st0 rc)) as [s1 res|s1 e|] eqn:El;
      cbn [sbind] in H.
    + assert (Hl : step_st (recovery_loop (rec_items s rc) s h (mss (v_ss s)) (rec_st0 rc)) = Some s1)
        by (rewrite El; reflexivity).
      destruct (recovery_loop_spec _ _ _ _ _ _ Hl) as (sent & Hincl & Hem & Hfirst).
      destruct (rec_after_spec _ _ _ _ _ _ H) as (P & A1 & A2 & A3 & A4 & A5 & A6 & A7 & A8 & A9 & A10).
      exists sent, s1. split; [reflexivity|]. split; [exact Hincl|]. split; [exact Hem|].
      repeat (split; [assumption|]). exact Hfirst.
    + cbn [step_st] in H. injection H as <-.
      assert (Hl : step_st (recovery_loop (rec_items s rc) s h (mss (v_ss s)) (rec_st0 rc)) = Some s1)
        by (rewrite El; reflexivity).
      destruct (recovery_loop_spec _ _ _ _ _ _ Hl) as (sent & Hincl & Hem & Hfirst).
      exists sent, s1. split; [reflexivity|]. split; [exact Hincl|]. split; [exact Hem|].
      split; [apply pk_frame_refl|]. repeat (split; [reflexivity|]). exact Hfirst.
    + discriminate.
Qed.

Lemma new_remaining_nonneg s : 0 <= new_remaining s.
Proof.
  unfold new_remaining, remaining_cwnd. destruct (rv_phase (v_recovery s)); unfold sat_sub; lia.
Qed.

Lemma new_after_spec s1 tl s' :
  step_st (new_after s1 tl) = Some s' ->
  pk_frame s1 s' /\ v_out s' = v_out s1 /\ v_cc s' = v_cc s1 /\
  v_last_remote_window s' = v_last_remote_window s1 /\
  v_rto_retransmissions s' = v_rto_retransmissions s1 /\ v_recovery s' = v_recovery s1 /\
  v_t_retransmit s' = v_t_retransmit s1 /\ v_rtte s' = v_rtte s1 /\ v_state s' = v_state s1 /\
  (tl = None -> s' = s1).
Proof.
  unfold new_after. destruct tl as [[seq size]|].
  - destruct (pop_mtu_probe (v_segs s1) seq) as [segs' popped]. destruct popped; cbn [step_st];
      intro H; injection H as <-; unfold pk_frame; vsimpl; repeat split; discriminate.
  - cbn [step_st]; intro H; injection H as <-. unfold pk_frame; repeat split.
Qed.

Lemma new_branch_spec s h s' :
  step_st (new_branch s h) = Some s' ->
  exists sent rest s1,
    new_items s = sent ++ rest /\ emitted s s1 h sent /\ fs_bytes sent <= new_remaining s /\
    pk_frame s1 s' /\ v_out s' = v_out s1 /\ v_cc s' = v_cc s1 /\
    v_last_remote_window s' = v_last_remote_window s1 /\
    v_rto_retransmissions s' = v_rto_retransmissions s1 /\ v_recovery s' = v_recovery s1 /\
    v_t_retransmit s' = v_t_retransmit s1 /\ v_rtte s' = v_rtte s1 /\ v_state s' = v_state s1.
Proof.
  unfold new_branch.
  destruct (new_data_loop (new_items s) s h (new_remaining s)) as [s1 tl|s1 e|] eqn:El; cbn [sbind].
  - intro H.
    assert (Hl : step_st (new_data_loop (new_items s) s h (new_remaining s)) = Some s1) by (rewrite El; reflexivity).
    destruct (new_data_loop_spec _ _ _ _ _ (new_remaining_nonneg s) Hl) as (sent & rest & E & Hem & Hb).
    destruct (new_after_spec _ _ _ H) as (P & A1 & A2 & A3 & A4 & A5 & A6 & A7 & A8 & _).
    exists sent, rest, s1. split; [exact E|]. split; [exact Hem|]. split; [exact Hb|].
    repeat (split; [assumption|]). assumption.
  - cbn [step_st]. intro H; injection H as <-.
    assert (Hl : step_st (new_data_loop (new_items s) s h (new_remaining s)) = Some s1) by (rewrite El; reflexivity).
    destruct (new_data_loop_spec _ _ _ _ _ (new_remaining_nonneg s) Hl) as (sent & rest & E & Hem & Hb).
    exists sent, rest, s1. split; [exact E|]. split; [exact Hem|]. split; [exact Hb|].
    split; [apply pk_frame_refl|]. repeat (split; [reflexivity|]). reflexivity.
  - discriminate.
Qed.

(* nothing undelivered at all => every restricted iterator is empty too *)
Lemma filter_nil_iff {A} (p : A -> bool) l : filter p l = [] <-> (forall x, In x l -> p x = false).
Proof.
  induction l as [|y ys IH]; cbn [filter In]; [tauto|].
  destruct (p y) eqn:E; split.
  - discriminate.
  - intro H. specialize (H y (or_introl eq_refl)). congruence.
  - intros H x [<-|Hx]; [exact E|]. apply IH; assumption.
  - intro H. apply IH. intros x Hx. apply H. right; exact Hx.
Qed.

Lemma iter_none_nil t st : iter_for_sending t None = [] -> iter_for_sending t st = [].
Proof.
  unfold iter_for_sending. cbn [skipn]. rewrite !filter_nil_iff. intros H f Hf.
  apply in_map_iff in Hf. destruct Hf as ([i g] & <- & Hin). cbn [fs_seg].
  apply enum_from_nth in Hin. destruct Hin as [Hle Hn]. rewrite nth_error_skipn in Hn.
  pose proof (nth_enum_from_In (ss_segs t) 0%nat _ _ Hn) as Hin0.
  specialize (H _ (in_map _ _ _ Hin0)). cbn [fs_seg] in H. exact H.
Qed.

(* ------------------------------------------------------------------ everything one call emits *)
Lemma In_take_while {A} (p : A -> bool) x : forall l, In x (take_while p l) -> In x l.
Proof.
  induction l as [|y ys IH]; cbn [take_while In]; [tauto|]. destruct (p y); cbn [In]; [|intros []].
  intros [<-|H]; [left; reflexivity|right; apply IH; exact H].
Qed.

Lemma In_skip_while {A} (p : A -> bool) x : forall l, In x (skip_while p l) -> In x l.
Proof.
  induction l as [|y ys IH]; cbn [skip_while In]; [tauto|]. destruct (p y); cbn [In]; [|tauto].
  intro H. right. apply IH. exact H.
Qed.

Lemma In_firstn {A} (x : A) : forall n l, In x (firstn n l) -> In x l.
Proof.
  induction n as [|n IH]; intros [|y ys]; cbn [firstn In]; try tauto.
  intros [<-|H]; [left; reflexivity|right; apply IH; exact H].
Qed.

Lemma rec_items_incl (s : vsock) rc : incl (rec_items s rc) (iter_for_sending (v_segs s) None).
Proof.
  unfold rec_items. intros x H. apply In_take_while in H. apply In_skip_while in H.
  apply In_firstn in H. exact H.
Qed.

Lemma Forall_incl {A} (P : A -> Prop) a b : incl a b -> Forall P b -> Forall P a.
Proof. intros Hi Hb. apply Forall_forall. intros x Hx. rewrite Forall_forall in Hb. apply Hb, Hi, Hx. Qed.

Lemma iter_all_item_ok t st : Forall (item_ok t) (iter_for_sending t st).
Proof. apply Forall_forall. intros f Hf. eapply iter_item_ok; eauto. Qed.

(* the datagrams of one send_tx_queue call: at most one FIN (only from the RTO part, and then no
   data), and ST_DATA datagrams each built from an undelivered segment that is in the table at
   entry, with the sequence number and the ring offset the table assigns to it *)
Definition stq_emits (s s' : vsock) (ctl : list packet) (sent : list for_sending) : Prop :=
  v_out s' = rev (map (data_pkt s (outgoing_header s)) sent) ++ ctl ++ v_out s /\
  Forall (item_ok (v_segs s)) sent /\ Forall (sent_ok s) sent /\
  (ctl = [] \/ (sent = [] /\ exists fin, ctl = [fin_pkt (set_last_sent_seq_nr s (wsub16 fin 1)) fin])).

Lemma rec_new_emits h s1 s' :
  step_st (sbind (rec_branch s1 h) (fun s ret => if ret then SOk s tt else new_branch s h)) = Some s' ->
  exists sent, v_out s' = rev (map (data_pkt s1 h) sent) ++ v_out s1 /\
    Forall (item_ok (v_segs s1)) sent /\ Forall (sent_ok s1) sent /\ pk_frame s1 s'.
Proof.
  intro H.
  assert (Hrec : forall s2, step_st (rec_branch s1 h) = Some s2 ->
            exists sent_r, v_out s2 = rev (map (data_pkt s1 h) sent_r) ++ v_out s1 /\
              Forall (item_ok (v_segs s1)) sent_r /\ Forall (sent_ok s1) sent_r /\ pk_frame s1 s2 /\
              dshape (v_segs s2) = dshape (v_segs s1)).
  { intros s2 Hs2.
    destruct (rec_branch_spec _ _ _ Hs2) as [(_ & _ & ->)|(rc & sent & s1' & Eph & Hincl & Hem & P & A1 & A2 & _)].
    - exists []. cbn [map rev app]. repeat split; auto using pk_frame_refl.
    - destruct Hem as (Hf & Ho & Hsg & Hok & Hnil). exists sent.
      split; [congruence|].
      split; [eapply Forall_incl; [exact Hincl|]; eapply Forall_incl; [apply rec_items_incl|apply iter_all_item_ok]|].
      split; [exact Hok|]. split; [eapply pk_frame_trans; [apply sd_pk_frame; exact Hf|exact P]|].
      rewrite A2, Hsg. apply on_sent_all_dshape. }
  destruct (rec_branch s1 h) as [s2 ret|s2 e|] eqn:Erb; cbn [sbind] in H; [| |discriminate].
  - destruct (Hrec s2 eq_refl) as (sent_r & Ho & Hit & Hok & P & Hd).
    destruct ret.
    { cbn [step_st] in H. injection H as <-. exists sent_r. auto. }
    destruct (new_branch_spec _ _ _ H) as (sent_n & rest & s3 & E & (Hf3 & Ho3 & Hsg3 & Hok3 & _) & _ & P3 & A1 & _).
    exists (sent_r ++ sent_n).
    assert (P13 : pk_frame s1 s3) by (eapply pk_frame_trans; [exact P|apply sd_pk_frame; exact Hf3]).
    split.
    { rewrite A1, Ho3, Ho, map_app, rev_app_distr, <- app_assoc. f_equal.
      f_equal. apply map_ext. intro g. apply data_pkt_pk_frame. exact P. }
    split.
    { apply Forall_app. split; [exact Hit|].
      assert (Hn : Forall (item_ok (v_segs s2)) sent_n).
      { eapply Forall_incl; [|apply (iter_all_item_ok (v_segs s2) (Some (wadd16 (v_last_sent_seq_nr s2) 1)))].
        unfold new_items in E. rewrite E. apply incl_appl, incl_refl. }
      eapply Forall_impl; [|exact Hn]. intro g. apply item_ok_dshape. symmetry. exact Hd. }
    split.
    { apply Forall_app. split; [exact Hok|]. eapply Forall_impl; [|exact Hok3]. intro g. apply sent_ok_pk_frame. exact P. }
    eapply pk_frame_trans; [exact P13|exact P3].
  - cbn [step_st] in H. injection H as <-. destruct (Hrec s2 eq_refl) as (sent_r & Ho & Hit & Hok & P & Hd).
    exists sent_r. auto.
Qed.

Lemma send_tx_queue_emits s s' :
  0 <= v_rto_retransmissions s ->
  step_st (send_tx_queue cci s) = Some s' ->
  exists ctl sent, stq_emits s s' ctl sent /\ pk_frame s s'.
Proof.
  intros Hcnt. rewrite send_tx_queue_eq. unfold stq_emits.
  destruct (v_transport_pending s).
  { cbn [step_st]. intro H; injection H as <-. exists [], []. cbn [map rev app].
    repeat split; auto using pk_frame_refl. }
  set (h := outgoing_header s).
  destruct (rto_branch s h) as [s1 ret|s1 e|] eqn:Er; cbn [sbind]; [| |discriminate].
  - assert (Hs : step_st (rto_branch s h) = Some s1) by (rewrite Er; reflexivity).
    pose proof (rto_branch_spec _ _ _ Hs) as Ho. rewrite Er in Ho.
    (* the later parts, started from a state s1 whose table and ring are those of s *)
    assert (Hlater : forall pre, v_out s1 = pre ++ v_out s -> pk_frame s s1 -> dshape (v_segs s1) = dshape (v_segs s) ->
              (pre = [] \/ (iter_for_sending (v_segs s1) None = [] /\
                            exists fin, pre = [fin_pkt (set_last_sent_seq_nr s (wsub16 fin 1)) fin])) ->
              step_st (after_rto_k h s1 ret) = Some s' ->
              exists ctl sent,
                (v_out s' = rev (map (data_pkt s h) sent) ++ ctl ++ v_out s /\
                 Forall (item_ok (v_segs s)) sent /\ Forall (sent_ok s) sent /\
                 (ctl = [] \/ (sent = [] /\ exists fin, ctl = [fin_pkt (set_last_sent_seq_nr s (wsub16 fin 1)) fin]))) /\
                pk_frame s s').
    { intros pre Hpre P Hd Hctl. unfold after_rto_k.
      match goal with |- _ -> ?G => assert (Hstop : step_st (SOk (A:=unit) s1 tt) = Some s' -> G) end.
      { cbn [step_st]. intro H; injection H as <-. exists pre, []. cbn [map rev app].
        split; [|exact P]. split; [exact Hpre|]. split; [constructor|]. split; [constructor|].
        destruct Hctl as [->|(_ & fin & ->)]; [left; reflexivity|right; eauto]. }
      destruct ret; [exact Hstop|].
      destruct (0 <? v_rto_retransmissions s1); [exact Hstop|].
      destruct (ss_segs (v_segs s1)) as [|g0 gs] eqn:Esg; [exact Hstop|].
      intro H. destruct (rec_new_emits _ _ _ H) as (sent & Ho2 & Hit & Hok & P2).
      destruct Hctl as [->|(Hnil & fin & ->)].
      - exists [], sent. cbn [app] in *. split; [|eapply pk_frame_trans; eauto].
        split; [rewrite Ho2, Hpre; f_equal; f_equal; apply map_ext; intro g; apply data_pkt_pk_frame; exact P|].
        split; [eapply Forall_impl; [|exact Hit]; intro g; apply item_ok_dshape; symmetry; exact Hd|].
        split; [eapply Forall_impl; [|exact Hok]; intro g; apply sent_ok_pk_frame; exact P|]. left; reflexivity.
      - (* nothing undelivered: no data can follow the FIN *)
        assert (sent = []).
        { destruct sent as [|f0 r0]; [reflexivity|exfalso]. inversion Hit as [|? ? Hf0 _]; subst.
          destruct Hf0 as (Hn & _).
          (* an item_ok segment is undelivered and in the table, so the unrestricted iterator is not empty *)
          rewrite nth_error_map in Hn. destruct (nth_error (ss_segs (v_segs s1)) (fs_idx f0)) as [g|] eqn:Eg; [|discriminate].
          cbn [option_map] in Hn. unfold dview in Hn. injection Hn as _ _ Hdel.
          unfold iter_for_sending in Hnil. cbn [skipn] in Hnil. rewrite filter_nil_iff in Hnil.
          pose proof (nth_enum_from_In _ 0%nat _ _ Eg) as Hin.
          specialize (Hnil _ (in_map _ _ _ Hin)). cbn [fs_seg] in Hnil. rewrite Hdel in Hnil. discriminate. }
        subst sent. cbn [map rev app] in Ho2.
        exists [fin_pkt (set_last_sent_seq_nr s (wsub16 fin 1)) fin], []. cbn [map rev app].
        split; [|eapply pk_frame_trans; eauto].
        split; [rewrite Ho2, Hpre; reflexivity|]. split; [constructor|]. split; [constructor|]. right; eauto. }
    destruct Ho as [Ho Hf Hsg Hls Hne Hnq
                   | f rest Hexp Hit Hr Ho Hok Hsg Hrto Hls Htx Hop Hnow Hrw Hst Hpr Htr P
                   | fin Hexp Hit Hfin Hls Hr Ho Hsg Hrto Hls' Htx Hop Hnow Hrt Htr P].
    + intro H. apply (Hlater []); auto; [apply sd_pk_frame; exact Hf|rewrite Hsg; reflexivity].
    + injection Hr as ->. unfold after_rto_k.
      destruct (Z.ltb_spec 0 (v_rto_retransmissions s1)) as [Hpos|Hz]; [|exfalso; lia].
      cbn [step_st]. intro H; injection H as <-.
      exists [], [f]. cbn [map rev app].
      split; [|exact P]. split; [exact Ho|]. split; [constructor; [|constructor]; apply (iter_item_ok _ None); rewrite Hit; left; reflexivity|].
      split; [constructor; [exact Hok|constructor]|left; reflexivity].
    + injection Hr as ->. intro H.
      apply (Hlater [fin_pkt (set_last_sent_seq_nr s (wsub16 fin 1)) fin]); auto.
      * rewrite Hsg; reflexivity.
      * right. split; [rewrite Hsg; exact Hit|eauto].
  - cbn [step_st]. intro H; injection H as <-.
    assert (Hs : step_st (rto_branch s h) = Some s1) by (rewrite Er; reflexivity).
    pose proof (rto_branch_spec _ _ _ Hs) as Ho. rewrite Er in Ho.
    destruct Ho as [Ho Hf _ _ _ _
                   | f' rest' _ _ Hr _ _ _ _ _ _ _ _ _ _ _ _ _
                   | fin _ _ _ _ Hr _ _ _ _ _ _ _ _ _ _]; try discriminate.
    exists [], []. cbn [map rev app]. split; [|apply sd_pk_frame; exact Hf].
    split; [exact Ho|]. split; [constructor|]. split; [constructor|left; reflexivity].
Qed.

End WithCC.
