(* C06, trace level: c06_rp_exit_ok (Conn/C06_Pred.v) as a THEOREM about every trace of the model from vsock_new.
   The phase IgnoringUntilRecoveryPoint rp (entered by an RTO during fast recovery) ends in the poll that takes an
   acknowledgement reaching rp from the inbox:
     - the retransmission timer, not expired when the poll starts, does not expire within the poll (ghost
       invariant J of Conn/C05_StepLemmas.v, relation KJ stage by stage), so the RTO branch of send_tx_queue is
       not taken and the phase cannot be re-entered (stq_pq);
     - the connection state only moves forward (rk, fpr): Established after the poll = Established throughout;
     - receive loop: "Established -> not Ignoring, or Ignoring rp with a message reaching rp still queued"
       (recv_loop_Sa); when the loop ends with the inbox empty the phase is over (Sn).
   The guards near_z / tol_ok of the predicate are not needed by the model. *)
From Utp Require Conn.VSock_Inv.
From Utp Require Import Base.Prelude Wire.SeqNr Wire.SeqNr_Proofs Wire.Header Rtt.Rtte Rtt.Rtte_Proofs
  Mtu.SegSizes Rx.Rx Tx.Ring Tx.Ring_Proofs Tx.Segments Tx.Segments_Proofs
  Conn.Recovery Conn.Msg Conn.VSockRec Conn.VSock Conn.VSockRun Conn.VObs
  Conn.VSock_Lemmas Conn.VSock_LemmasStep Conn.VSock_LemmasReach Conn.VSock_LemmasTx
  Conn.VSock_LemmasIn Conn.VSock_LemmasFin Conn.VSock_LemmasTimers Conn.VSock_LemmasPipe Conn.C17_StepLemmas
  Conn.C05_StepLemmas Conn.C05_StepZw
  Conn.C05_Pred Conn.C06_Pred Conn.C06_RecProofs Conn.C06_StepLemmas Conn.C06_Step Conn.C10_Pred Conn.C10_Proofs.

Definition ign (r : recovery) : option Z :=
  match rv_phase r with IgnoringUntilRecoveryPoint x => Some x | _ => None end.

Lemma seq_le_ge : forall a b, seq_le a b = seq_ge b a.
Proof.
  intros a b. unfold seq_le, seq_ge, seq_sub, seq_nr_offset, wsub16, WRAP_TOLERANCE, M16.
  destruct (Z.ltb_spec b a); destruct (Z.ltb_spec a b); try lia;
    repeat match goal with |- context [if ?c then _ else _] => destruct c eqn:? end; lia.
Qed.

Section WithCC.
Context {CC : Type} (cci : cc_iface CC).
Notation vsock := (vsock CC).

(* ------------------------------------------------------------------ recovery_on_ack and the Ignoring phase *)
Lemma roa_ign : forall r h segs ls cc now rtt r' segs' cc',
  recovery_on_ack cci r h segs ls cc now rtt = Some (r', segs', cc') ->
  (forall x, ign r' = Some x -> ign r = Some x) /\
  (forall x, ign r = Some x -> seq_ge (ch_ack h) x = true -> ign r' = None).
Proof.
  intros r h segs ls cc now rtt r' segs' cc'. unfold recovery_on_ack, ign. cbn [rv_phase rv_supports_sack rv_last_ack].
  destruct (rv_phase r) as [rp|d|rc] eqn:E; intro H.
  - destruct (seq_ge (ch_ack h) rp) eqn:G; inversion H; subst; cbn [rv_phase]; split; intros x Hx; try discriminate; auto.
    intro G'. inversion Hx; subst. congruence.
  - split; intros x Hx; [|discriminate]. exfalso.
    repeat match type of H with
           | context [match ?c with _ => _ end] => destruct c eqn:?
           end; try discriminate H; inversion H; subst; cbn [rv_phase] in Hx; discriminate Hx.
  - split; intros x Hx; [|discriminate]. exfalso.
    destruct (seq_ge _ _); inversion H; subst; cbn [rv_phase] in Hx; discriminate Hx.
Qed.

Lemma pim_ack_ign : forall (s1 s2 : vsock) h res, pim_ack cci s1 h = Some (s2, res) ->
  v_state s2 = v_state s1 /\ v_inbox s2 = v_inbox s1 /\
  (forall x, ign (v_recovery s2) = Some x -> ign (v_recovery s1) = Some x) /\
  (forall x, ign (v_recovery s1) = Some x -> seq_ge (ch_ack h) x = true -> ign (v_recovery s2) = None).
Proof.
  intros s1 s2 h res H.
  destruct (pim_ack_shape cci _ _ _ _ H) as (segs1 & rtte1 & cc3 & rec1 & segs2 & cc4 & _ & Er & ->).
  vsimpl_goal. split; [reflexivity|]. split; [reflexivity|].
  exact (roa_ign _ _ _ _ _ _ _ _ _ _ Er).
Qed.

(* ------------------------------------------------------------------ the two stage predicates *)
Variable rp : Z.

Definition Reach (s : vsock) : Prop := Exists (fun m => reaches_rp rp (m_hdr m) = true) (v_inbox s).
Definition PHI (s : vsock) : Prop :=
  match ign (v_recovery s) with Some x => x = rp /\ Reach s | None => True end.
Definition Sa (s : vsock) : Prop := 2 <= rk (v_state s) /\ (v_state s = Established -> PHI s).
Definition Sn (s : vsock) : Prop := 2 <= rk (v_state s) /\ (v_state s = Established -> ign (v_recovery s) = None).

Lemma Sn_Sa : forall s, Sn s -> Sa s.
Proof. intros s [H1 H2]. split; [exact H1|]. intro E. unfold PHI. rewrite (H2 E). exact I. Qed.

Lemma rk_est : forall st, rk st = 2 -> st = Established.
Proof. intros st. destruct st; cbn [rk]; intro H; try lia. reflexivity. Qed.

Lemma est_back : forall (s s' : vsock), rk (v_state s) <= rk (v_state s') -> 2 <= rk (v_state s) ->
  v_state s' = Established -> v_state s = Established.
Proof. intros s s' H1 H2 H3. rewrite H3 in H1. cbn [rk] in H1. apply rk_est. lia. Qed.

Lemma Sa_keep : forall s s' : vsock,
  rk (v_state s) <= rk (v_state s') -> v_recovery s' = v_recovery s -> v_inbox s' = v_inbox s -> Sa s -> Sa s'.
Proof.
  intros s s' K R I0 [H1 H2]. split; [lia|]. intro E. specialize (H2 (est_back s s' K H1 E)).
  unfold PHI, Reach in *. rewrite R, I0. exact H2.
Qed.

Lemma Sn_keep : forall s s' : vsock,
  rk (v_state s) <= rk (v_state s') -> v_recovery s' = v_recovery s -> Sn s -> Sn s'.
Proof.
  intros s s' K R [H1 H2]. split; [lia|]. intro E. rewrite R. exact (H2 (est_back s s' K H1 E)).
Qed.

Lemma Sa_fpr : forall s s', fpr s s' -> Sa s -> Sa s'.
Proof.
  intros s s' (_ & _ & _ & _ & _ & _ & _ & _ & _ & _ & R & I0 & _ & K). apply Sa_keep; assumption.
Qed.
Lemma Sn_fpr : forall s s', fpr s s' -> Sn s -> Sn s'.
Proof.
  intros s s' (_ & _ & _ & _ & _ & _ & _ & _ & _ & _ & R & I0 & _ & K). apply Sn_keep; assumption.
Qed.

(* ------------------------------------------------------------------ one message *)
Lemma reaches_type : forall h, reaches_rp rp h = true ->
  (ch_type h = ST_DATA \/ ch_type h = ST_STATE) /\ seq_ge (ch_ack h) rp = true.
Proof.
  intros h. unfold reaches_rp. rewrite seq_le_ge. destruct (ch_type h); intro H; try discriminate; auto.
Qed.

Lemma pim_data_fin_fpr : forall (s2 : vsock) m res seen,
  sfp s2 (let offset := seq_sub (ch_seq (m_hdr m)) (wadd16 (v_last_consumed s2) 1) in
          match ch_type (m_hdr m) with
          | ST_DATA => pim_data cci s2 m res offset
          | ST_FIN => pim_fin s2 m res offset seen
          | _ => SOk s2 res
          end).
Proof.
  intros s2 m res seen. cbv zeta. destruct (ch_type (m_hdr m)); try (cbn [sfp]; apply fpr_refl).
  - apply pim_data_fpr. - apply pim_fin_fpr.
Qed.

(* what one message does: the inbox is kept, the state moves forward, Ignoring is never entered, and a message
   reaching rp taken in Established ends Ignoring rp *)
Lemma pim_msg_ign : forall (s : vsock) m,
  match process_incoming_message cci s m with
  | SOk s1 _ =>
      v_inbox s1 = v_inbox s /\ rk (v_state s) <= rk (v_state s1) /\
      (forall x, ign (v_recovery s1) = Some x -> ign (v_recovery s) = Some x) /\
      (v_state s = Established -> reaches_rp rp (m_hdr m) = true -> ign (v_recovery s) = Some rp ->
       ign (v_recovery s1) = None)
  | _ => True
  end.
Proof.
  intros s m. rewrite process_incoming_message_eq.
  destruct (state_table_fpr s (m_hdr m)) as [Ht _].
  destruct (state_table s (m_hdr m)) as [s1|s1 e|s1] eqn:Et; cbn [tbl_state] in Ht; [|exact I|].
  - destruct Ht as (_ & _ & _ & _ & _ & _ & _ & _ & _ & _ & R & I0 & _ & K).
    split; [exact I0|]. split; [exact K|]. split; [intros x Hx; rewrite <- R; exact Hx|].
    intros Es Hr _. exfalso. destruct (reaches_type _ Hr) as [Hty _].
    unfold state_table in Et. rewrite Es in Et. destruct Hty as [Hty|Hty]; rewrite Hty in Et; discriminate Et.
  - destruct Ht as (_ & _ & _ & _ & _ & _ & _ & _ & _ & _ & R & I0 & _ & K).
    unfold pim_cont. destruct (pim_ack cci s1 (m_hdr m)) as [[s2 res]|] eqn:Ea; [|exact I].
    destruct (pim_ack_ign _ _ _ _ Ea) as (A1 & A2 & A3 & A4).
    pose proof (pim_data_fin_fpr s2 m res (is_remote_fin_or_later (v_state s))) as F. cbv zeta in F.
    match goal with |- match ?c with _ => _ end => destruct c as [s3 r3|s3 e3|]; [|exact I|exact I] end.
    cbn [sfp] in F. destruct F as (_ & _ & _ & _ & _ & _ & _ & _ & _ & _ & R3 & I3 & _ & K3).
    split; [congruence|]. split; [rewrite A1 in K3; lia|]. rewrite R3.
    split; [intros x Hx; rewrite <- R; apply A3; exact Hx|].
    intros Es Hr Hi. destruct (reaches_type _ Hr) as [_ Hge].
    apply (A4 rp); [rewrite R; exact Hi | exact Hge].
Qed.

(* ------------------------------------------------------------------ the receive loop *)
Definition spA {X} (m : step X) : Prop :=
  match m with
  | SOk s' _ => Sa s' /\
      (v_transport_pending s' = false -> state_is_closed (v_state s') (o_wait_for_last_ack (v_opts s')) = false ->
       v_inbox s' = [])
  | _ => True
  end.

Lemma closed_not_est : forall st w, st = Established -> state_is_closed st w = false.
Proof. intros st w ->. reflexivity. Qed.

Lemma recv_loop_Sa : forall fuel (s : vsock) acc, Sa s -> spA (recv_loop cci fuel s acc).
Proof.
  assert (Hbase : forall (s : vsock) (acc : on_ack_result), Sa s -> v_inbox s = [] ->
    spA (if v_inbox_closed s
         then sbind (maybe_send_fin (transition_to_fin_wait_1 s))
                    (fun s2 _ => SOk (set_state s2 Closed) (acc, true))
         else SOk (set_inbox_waker s true) (acc, false))).
  { intros s acc Hs Hi. destruct (v_inbox_closed s).
    - pose proof (maybe_send_fin_fpr (transition_to_fin_wait_1 s)) as F.
      destruct (maybe_send_fin (transition_to_fin_wait_1 s)) as [s2 b|s2 e|]; cbn [sbind spA sfp] in *; auto.
      pose proof (fpr_trans _ _ _ (transition_fpr s) F) as F2.
      destruct F2 as (_ & _ & _ & _ & _ & _ & _ & _ & _ & _ & R & I0 & _ & K).
      split.
      + split; [vsimpl_goal; cbn [rk]; lia|]. vsimpl_goal. discriminate.
      + intros _ _. vsimpl_goal. congruence.
    - cbn [spA]. split; [apply (Sa_keep s); try reflexivity; try apply Z.le_refl; exact Hs|].
      intros _ _. exact Hi. }
  induction fuel as [|m0 fuel IH]; intros s acc Hs; cbn [recv_loop];
    destruct (v_inbox s) as [|m rest] eqn:Ei; try (apply Hbase; assumption); try exact I.
  pose proof (pim_msg_ign (set_inbox s rest) m) as Hm.
  destruct (process_incoming_message cci (set_inbox s rest) m) as [s1 r|s1 e|]; cbn [sbind]; [|exact I|exact I].
  destruct Hm as (M1 & M2 & M3 & M4).
  change (v_inbox (set_inbox s rest)) with rest in M1.
  change (v_state (set_inbox s rest)) with (v_state s) in *.
  change (v_recovery (set_inbox s rest)) with (v_recovery s) in *.
  assert (Hs1 : Sa s1).
  { destruct Hs as [H1 H2]. split; [lia|]. intro E.
    assert (E0 : v_state s = Established) by (apply rk_est; rewrite E in M2; cbn [rk] in M2; lia).
    specialize (H2 E0). unfold PHI, Reach in *.
    destruct (ign (v_recovery s1)) as [x|] eqn:Ex; [|exact I].
    pose proof (M3 x eq_refl) as Hx. rewrite Hx in H2. cbv beta iota in H2. destruct H2 as [Hxr Hre]. subst x.
    rewrite Ei in Hre. rewrite M1. inversion Hre as [? ? Hh|? ? Hh]; subst.
    - pose proof (M4 E0 Hh Hx) as Hc. discriminate Hc.
    - split; [reflexivity | exact Hh]. }
  destruct (state_is_closed _ _ || v_transport_pending s1) eqn:Eb.
  - cbn [spA]. split; [exact Hs1|]. intros T Cc. rewrite T, Cc in Eb. discriminate.
  - apply IH. exact Hs1.
Qed.

(* ------------------------------------------------------------------ the bookkeeping after the loop *)
Lemma paim_rest_Sn : forall (s1 : vsock) r, Sn s1 -> stU Sn (paim_rest s1 r).
Proof.
  intros s1 r H1.
  assert (K : spI Sn (paim_rest s1 r)).
  { unfold paim_rest.
    match goal with |- spI _ (sbind ?m _) =>
      match m with context [acked_counts_as_sent ?x] => set (s2 := x) end end.
    assert (F2 : Sn s2).
    { subst s2. unfold restart_remote_inactivity_timer. destruct (_ || _); [|exact H1].
      destruct (ss_segs _); [destruct (our_fin_if_unacked _)|];
        (eapply Sn_keep; [| |exact H1]; [vsimpl_goal; apply Z.le_refl | reflexivity]). }
    clearbody s2.
    apply spI_bind.
    - destruct (0 <? _); [|exact F2].
      assert (F2' : Sn (acked_counts_as_sent s2)).
      { eapply Sn_fpr; [|exact F2]. unfold acked_counts_as_sent.
        destruct (seq_gt _ _ && seq_lt _ _); [apply fpr_same; first [reflexivity | apply Z.le_refl] | apply fpr_refl]. }
      revert F2'. generalize (acked_counts_as_sent s2). intros s2' F2'.
      destruct (truncate_front _ _) as [tx1 tr].
      destruct tr; cbn [spI].
      + destruct (wake_writer tx1) as [tx2 w]. cbn [spI]. eapply Sn_keep; [| |exact F2']; [apply Z.le_refl | reflexivity].
      + split; [eapply Sn_keep; [| |exact F2']; [apply Z.le_refl | reflexivity] | discriminate].
    - intros s3 _ H3. destruct (rv_phase (v_recovery s3)) eqn:Eph; try exact H3.
      destruct (calc_pipe _ _ _ _ _) as [[[sg pp] rcl]|] eqn:Ec; [|exact I].
      cbn [spI]. destruct H3 as [G1 G2]. split; [exact G1|]. intros _. reflexivity. }
  destruct (paim_rest s1 r); cbn [spI stU] in *; auto.
Qed.

Lemma paim_rest_frame : forall (s1 : vsock) r,
  stU (fun s' => v_inbox s' = v_inbox s1 /\ v_state s' = v_state s1 /\ v_opts s' = v_opts s1 /\
                  v_transport_pending s' = v_transport_pending s1) (paim_rest s1 r).
Proof.
  intros s1 r.
  assert (K : spI (fun s' => v_inbox s' = v_inbox s1 /\ v_state s' = v_state s1 /\ v_opts s' = v_opts s1 /\
                  v_transport_pending s' = v_transport_pending s1)
                  (paim_rest s1 r)).
  { unfold paim_rest.
    match goal with |- spI _ (sbind ?m _) =>
      match m with context [acked_counts_as_sent ?x] => set (s2 := x) end end.
    assert (F2 : v_inbox s2 = v_inbox s1 /\ v_state s2 = v_state s1 /\ v_opts s2 = v_opts s1 /\
                 v_transport_pending s2 = v_transport_pending s1).
    { subst s2. unfold restart_remote_inactivity_timer. destruct (_ || _); [|auto].
      destruct (ss_segs _); [destruct (our_fin_if_unacked _)|]; auto. }
    clearbody s2.
    apply spI_bind.
    - destruct (0 <? _); [|exact F2].
      assert (F2' : v_inbox (acked_counts_as_sent s2) = v_inbox s1 /\ v_state (acked_counts_as_sent s2) = v_state s1 /\
                    v_opts (acked_counts_as_sent s2) = v_opts s1 /\
                    v_transport_pending (acked_counts_as_sent s2) = v_transport_pending s1).
      { unfold acked_counts_as_sent. destruct (seq_gt _ _ && seq_lt _ _); exact F2. }
      revert F2'. generalize (acked_counts_as_sent s2). intros s2' F2'.
      destruct (truncate_front _ _) as [tx1 tr].
      destruct tr; cbn [spI].
      + destruct (wake_writer tx1) as [tx2 w]. cbn [spI]. exact F2'.
      + split; [exact F2' | discriminate].
    - intros s3 _ H3. destruct (rv_phase (v_recovery s3)) eqn:Eph; try exact H3.
      destruct (calc_pipe _ _ _ _ _) as [[[sg pp] rcl]|] eqn:Ec; [|exact I].
      cbn [spI]. exact H3. }
  destruct (paim_rest s1 r); cbn [spI stU] in *; auto.
Qed.

(* process_all_incoming_messages: from Sa to Sn (unless the transport blocked) *)
Lemma pim_Sa_Sn : forall s : vsock, Sa s ->
  match process_all_incoming_messages cci s with
  | SOk s' _ => v_transport_pending s' = false -> Sn s'
  | _ => True
  end.
Proof.
  intros s Hs. rewrite paim_eq.
  pose proof (recv_loop_Sa (v_inbox s ++ [ {| m_hdr := outgoing_header s; m_payload := [] |} ]) s
                on_ack_result_default Hs) as Hl.
  destruct (recv_loop cci _ s on_ack_result_default) as [s1 res|s1 e|]; cbn [sbind spA] in *; auto.
  destruct Hl as [[H1 H2] Hin].
  pose proof (paim_rest_Sn s1 (fst res)) as Kn. pose proof (paim_rest_frame s1 (fst res)) as Kf.
  destruct (paim_rest s1 (fst res)) as [s' u|s' e|] eqn:Er; cbn [stU stR] in *; auto.
  intro T. destruct Kf as (F1 & F2 & F3 & F4).
  assert (T1 : v_transport_pending s1 = false) by congruence.
  apply Kn. split; [exact H1|]. intro E.
  specialize (H2 E). unfold PHI, Reach in H2.
  destruct (ign (v_recovery s1)) as [x|]; [|reflexivity].
  destruct H2 as [_ Hre]. rewrite (Hin T1 (closed_not_est _ _ E)) in Hre. inversion Hre.
Qed.


(* ------------------------------------------------------------------ send_tx_queue without an expired timer:
   the state is kept and the Ignoring phase is not entered *)
Definition pq (s s' : vsock) : Prop :=
  v_state s' = v_state s /\ (ign (v_recovery s) = None -> ign (v_recovery s') = None).
Lemma pq_refl : forall s, pq s s. Proof. intro s. split; auto. Qed.
Lemma pq_trans : forall a b c, pq a b -> pq b c -> pq a c.
Proof. intros a b c [A1 A2] [B1 B2]. split; [congruence | auto]. Qed.
Lemma pq_same : forall s s' : vsock, v_state s' = v_state s -> v_recovery s' = v_recovery s -> pq s s'.
Proof. intros s s' E R. split; [exact E | rewrite R; auto]. Qed.
Lemma pq_data_sent : forall (s : vsock) p f, pq s (sent_state s p f).
Proof. intros s p f. apply pq_same; [apply (txf_data_sent s p f) | apply (qb_data_sent s p f)]. Qed.

(* a Recovering phase is not an Ignoring one *)
Lemma set_recovering_pq : forall (s : vsock) rc, pq s (set_recovering s rc).
Proof. intros s rc. split; [reflexivity | intros _; reflexivity]. Qed.

Lemma stq_pq : forall s : vsock,
  timer_expired (v_t_retransmit s) (v_now s) = false -> stR pq s (send_tx_queue cci s).
Proof.
  assert (Ls : forall (a : vsock) l, pq a (set_sends a l)) by (intros; apply pq_same; reflexivity).
  assert (Lb : forall a : vsock, pq a (set_transport_pending a true)) by (intros; apply pq_same; reflexivity).
  intros s Hne. apply (stq_rule cci pq pq_refl pq_trans Ls Lb pq_data_sent).
  - unfold rto_branch. rewrite Hne. apply pq_refl.
  - apply (rec_branch_stR pq pq_refl pq_trans Ls Lb pq_data_sent); try (intros; apply pq_same; reflexivity).
    exact set_recovering_pq.
  - intros s1 q segs' ss' _. apply pq_same; reflexivity.
Qed.

Lemma split_state : forall s : vsock,
  stR (fun a b : vsock => v_state b = v_state a) s (split_tx_queue_into_segments cci s).
Proof. apply split_stR; intros; first [reflexivity | congruence]. Qed.

(* ------------------------------------------------------------------ the whole poll *)
Variable now r0 : Z.
Hypothesis r0_nn : 0 <= r0.

Definition BJ (s : vsock) : Prop := B now s /\ J r0 false now s.

Lemma KJ_BJ : forall s s' : vsock, KJ s s' -> BJ s -> BJ s'.
Proof. intros s s' K [H1 H2]. exact (K now r0 false r0_nn H1 H2). Qed.

Lemma BJ_ne : forall s : vsock, BJ s -> timer_expired (v_t_retransmit s) (v_now s) = false.
Proof.
  intros s [(_ & Hn & _) HJ]. rewrite Hn. fold (texp s now).
  destruct (texp s now) eqn:E; [|reflexivity].
  destruct HJ as [_ _ A3|_ A2|p _ _ A3 _ _ _]; [symmetry; apply A3; exact E | congruence | discriminate A3].
Qed.

Definition QPt (s : vsock) : Prop := True.
Definition QEt (s : vsock) (e : verror) : Prop := True.
Definition ASa (s : vsock) : Prop := BJ s /\ Sa s.
Definition BSn (s : vsock) : Prop := BJ s /\ Sn s.

Lemma stH_of : forall X (S : vsock -> Prop) (s : vsock) (m : step X),
  (forall s', fpr s s' -> S s -> S s') ->
  BJ s -> S s -> stRk KJ s m -> sfp s m -> stH QPt QEt (fun s => BJ s /\ S s) m.
Proof.
  intros X S s m Sf Hb Hs Hk Hf. destruct m as [s' a|s' e|]; cbn [stH stRk sfp] in *; try exact I.
  split; [intros _; exact I|]. intros _. split; [eapply KJ_BJ; eauto | apply Sf; assumption].
Qed.

Theorem poll_loop_Sn : forall fuel (s s' : vsock),
  ASa s -> poll_loop cci fuel s = (s', PollPending) -> v_transport_pending s' = true \/ Sn s'.
Proof.
  intros fuel s s' HA H.
  refine (_ (poll_loop_H cci ASa ASa BSn BSn BSn BSn QPt QEt _ _ _ _ _ _ _ _ _ _ _ fuel s s' PollPending HA H)).
  - cbn [resH]. intros [[T _]|(sb & [_ Hs] & _ & _ & _ & ->)]; [left; exact T|right].
    eapply Sn_fpr; [apply poll_tail_fpr | exact Hs].
  - intros x [Hb Hs]. split; [eapply KJ_BJ; [apply poll_start_KJ | exact Hb]|].
    apply (Sa_keep x); try reflexivity; try apply Z.le_refl; exact Hs.
  - intros x [Hb Hs] _. apply (stH_of _ Sa x); auto; [intros; eapply Sa_fpr; eauto | apply maybe_send_syn_ack_KJ | apply maybe_send_syn_ack_fpr].
  - intros x [Hb Hs] _. apply (stH_of _ Sa x); auto; [intros; eapply Sa_fpr; eauto | apply send_ack_KJ | apply send_ack_fpr].
  - intros x [Hb Hs] _. pose proof (process_all_KJ cci x) as K. pose proof (pim_Sa_Sn x Hs) as P.
    destruct (process_all_incoming_messages cci x) as [x' a|x' e|]; cbn [stH stRk] in *; try exact I.
    split; [intros _; exact I|]. intro T. split; [eapply KJ_BJ; eauto | apply P; exact T].
  - intros x rx1 fb w [Hb Hs] _ _. split; [eapply KJ_BJ; [apply rx_flush_KJ | exact Hb]|].
    apply (Sn_keep x); try reflexivity; try apply Z.le_refl; exact Hs.
  - intros x _. exact I.
  - intros x [Hb Hs] _. pose proof (split_KJ cci x) as K. pose proof (split_state x) as St.
    pose proof (split_tx_queue_into_segments_qb cci x) as Q.
    destruct (split_tx_queue_into_segments cci x) as [x' a|x' e|]; cbn [stB stRk stR] in *; try exact I.
    split; [eapply KJ_BJ; eauto|]. destruct Q as (_ & _ & R & _).
    apply (Sn_keep x); [rewrite St; apply Z.le_refl | exact R | exact Hs].
  - intros x [Hb Hs] _ _. pose proof (send_tx_queue_KJ cci x) as K. pose proof (stq_pq x (BJ_ne x Hb)) as P.
    destruct (send_tx_queue cci x) as [x' a|x' e|]; cbn [stQ stRk stR] in *; try exact I.
    assert (G : BSn x').
    { split; [eapply KJ_BJ; eauto|]. destruct P as [P1 P2]. destruct Hs as [H1 H2]. split; [rewrite P1; exact H1|].
      intro E. apply P2. apply H2. congruence. }
    split; [intros _; split; [exact (proj1 G) | apply Sn_Sa; exact (proj2 G)]|].
    split; [intros _ _; exact I | intros _ _; exact G].
  - intros x [Hb Hs] _. split; [eapply KJ_BJ; [apply transition_to_fin_wait_1_KJ | exact Hb]|].
    eapply Sn_fpr; [apply transition_fpr | exact Hs].
  - intros x [Hb Hs] _. apply (stH_of _ Sn x); auto; [intros; eapply Sn_fpr; eauto | apply maybe_send_fin_KJ | apply maybe_send_fin_fpr].
  - intros x [Hb Hs] _. apply (stH_of _ Sn x); auto; [intros; eapply Sn_fpr; eauto | apply maybe_send_ack_KJ | apply maybe_send_ack_fpr].
Qed.

End WithCC.

(* ================================================================== the poll, then every trace *)
Section Trace.
Context {CC : Type} (cci : cc_iface CC).
Notation vsock := (vsock CC).

Theorem poll_rp_exit : forall rp (s : vsock) sc s',
  ti s -> v_state s = Established -> ign (v_recovery s) = Some rp ->
  Exists (fun m => reaches_rp rp (m_hdr m) = true) (v_inbox s) ->
  timer_expired (v_t_retransmit s) (v_env_now s) = false ->
  poll cci (VSockRec.set_sends s sc) = (s', PollPending) ->
  v_transport_pending s' = true \/ (v_state s' = Established -> ign (v_recovery s') = None).
Proof.
  intros rp s sc s' Hti Est Hig Hre Hne H. rewrite poll_unfold in H. apply poll_loop_start in H.
  pose proof Hti as (T1 & T2 & T3).
  pose proof (poll_loop_Sn cci rp (v_env_now s) (v_rto_retransmissions s) T2 64%nat (poll_start (poll_init (VSockRec.set_sends s sc))) s') as L.
  refine (_ (L _ H)).
  - intros [T|[_ Hn]]; [left; exact T | right; exact Hn].
  - split; [split|].
    + split; [split; [exact T1|split; [exact T2|exact T3]]|]. split; reflexivity.
    + apply JA; [reflexivity|reflexivity|]. intro Hx.
      change (timer_expired (v_t_retransmit s) (v_env_now s) = true) in Hx. congruence.
    + apply (Sa_keep rp s); try reflexivity; try apply Z.le_refl.
      split; [rewrite Est; cbn [rk]; lia|]. intros _. unfold PHI. rewrite Hig. split; [reflexivity | exact Hre].
Qed.

Definition PInv (s : vsock) (pending : option (list chdr)) : Prop :=
  match pending with
  | Some l => v_inbox_closed s = false /\ incl l (map (@m_hdr) (v_inbox s))
  | None => True
  end.

Lemma vstep_inbox : forall (s : vsock) o,
  match o with
  | VoPoll _ => True
  | VoDeliver m =>
      if v_inbox_closed s then vstep_state cci s o = s
      else v_inbox (vstep_state cci s o) = v_inbox s ++ [m] /\ v_inbox_closed (vstep_state cci s o) = false
  | VoCloseInbox => True
  | _ => v_inbox (vstep_state cci s o) = v_inbox s /\ v_inbox_closed (vstep_state cci s o) = v_inbox_closed s
  end.
Proof.
  intros s o. unfold vstep_state. destruct o; try exact I; cbn [vstep].
  3: { destruct (v_inbox_closed s) eqn:E; cbn [fst]; [reflexivity | split; [reflexivity | exact E]]. }
  all: repeat break_match; cbn [fst]; split; reflexivity.
Qed.

Lemma existsb_reach : forall rp l (inbox : list msg),
  existsb (reaches_rp rp) l = true -> incl l (map (@m_hdr) inbox) ->
  Exists (fun m => reaches_rp rp (m_hdr m) = true) inbox.
Proof.
  intros rp l inbox He Hi. apply existsb_exists in He. destruct He as (h & Hh & Hr).
  apply Hi in Hh. apply in_map_iff in Hh. destruct Hh as (m & <- & Hm).
  apply Exists_exists. exists m. split; assumption.
Qed.

Lemma poll_env_closed : forall (s : vsock) sc s' r,
  poll cci (VSockRec.set_sends s sc) = (s', r) ->
  v_env_now s' = v_env_now s /\ v_inbox_closed s' = v_inbox_closed s.
Proof.
  intros s sc s' r E. rewrite poll_unfold in E.
  pose proof (VSock_LemmasFin.poll_loop_frame0 cci 64 (poll_init (VSockRec.set_sends s sc))) as F.
  rewrite E in F. cbn [fst] in F. destruct F as (_ & _ & _ & F4 & _ & F6 & _). split; [exact F4 | exact F6].
Qed.

Theorem rp_exit_poll : forall (s : vsock) sc s' l,
  ti s -> poll cci (VSockRec.set_sends s sc) = (s', PollPending) ->
  v_transport_pending s' = false -> incl l (map (@m_hdr) (v_inbox s)) ->
  rp_exit_poll_ok l (fstep_of cci s (VoPoll sc)) = true.
Proof.
  intros s sc s' l Hti E T Hi. rewrite (fstep_of_poll cci s sc s' _ E). unfold rp_exit_poll_ok.
  cbn [fs_pre fs_post fs_now]. cbn [fp_of_vsock f_recovery f_state f_t_retransmit f_segs f_snd_una].
  destruct (rv_phase (v_recovery s)) as [rp|d|rc] eqn:Eph; try reflexivity.
  destruct (v_state s) eqn:Est; try reflexivity. destruct (v_state s') eqn:Est'; try reflexivity.
  match goal with |- (if ?c then _ else _) = true => destruct c eqn:G end; [|reflexivity].
  apply andb_true_iff in G. destruct G as [G G4]. apply andb_true_iff in G. destruct G as [G G3].
  apply andb_true_iff in G. destruct G as [G1 G2]. apply negb_true_iff in G3.
  destruct (poll_env_closed _ _ _ _ E) as [Hen _]. rewrite Hen in G3.
  destruct (poll_rp_exit rp s sc s' Hti Est) as [K|K]; auto.
  - unfold ign. rewrite Eph. reflexivity.
  - eapply existsb_reach; eauto.
  - congruence.
  - specialize (K Est'). unfold ign in K. destruct (rv_phase (v_recovery s')); try reflexivity. discriminate K.
Qed.

Theorem rp_exit_scan_ok : forall ops (s : vsock) pending,
  ti s -> PInv s pending -> rp_exit_scan (ftrace cci s ops) pending = true.
Proof.
  induction ops as [|o rest IH]; intros s pending Hti Hp; [reflexivity|].
  rewrite ftrace_cons'. cbn [rp_exit_scan]. rewrite fstep_of_event.
  pose proof (ti_vstep cci s o Hti) as Hti'. pose proof (vstep_inbox s o) as Hin.
  assert (Hnon : (forall sc, o <> VoPoll sc) -> forall pending',
            PInv (vstep_state cci s o) pending' ->
            rp_exit_scan (if poll_finished (vstep_out cci s o) then [] else ftrace cci (vstep_state cci s o) rest)
              pending' = true).
  { intros Hnp pending' Hp'. destruct (C06_Step.vstep_nonpoll_out cci s o Hnp) as [Hf _]. rewrite Hf.
    apply IH; assumption. }
  assert (Hsame : v_inbox (vstep_state cci s o) = v_inbox s /\
                  v_inbox_closed (vstep_state cci s o) = v_inbox_closed s -> PInv (vstep_state cci s o) pending).
  { intros [I1 I2]. unfold PInv in *. destruct pending; [|exact I]. rewrite I1, I2. exact Hp. }
  destruct o as [t|m|sc|m| |buf| | |n| |]; cbn [fevent_of];
    try (apply Hnon; [discriminate | apply Hsame; exact Hin]).
  - (* poll *) clear Hnon Hsame Hin.
    destruct (poll cci (VSockRec.set_sends s sc)) as [s' r] eqn:E.
    destruct (vstep_poll cci s sc s' r E) as [V1 V2]. rewrite V1, V2 in *.
    assert (Hr : fs_result (fstep_of cci s (VoPoll sc)) =
                 FrPoll r (map fpacket_of (rev (v_out s'))) (rev (v_wakes s')) (v_arm_in s') /\
                 fs_post (fstep_of cci s (VoPoll sc)) = fp_of_vsock cci s').
    { rewrite (fstep_of_poll cci s sc s' r E). split; reflexivity. }
    destruct Hr as [Hr1 Hr2]. rewrite Hr1, Hr2. cbn [poll_finished].
    change (f_transport_pending (fp_of_vsock cci s')) with (v_transport_pending s').
    destruct r; try (destruct pending; reflexivity).
    destruct (poll_env_closed _ _ _ _ E) as [_ Hcl].
    apply andb_true_intro. split.
    + destruct pending as [l|]; [|reflexivity]. destruct (v_transport_pending s') eqn:T; [reflexivity|].
      destruct Hp as [_ Hi]. eapply rp_exit_poll; eauto.
    + apply IH; [exact Hti'|]. destruct (v_transport_pending s'); [exact I|].
      destruct pending as [l|]; [|exact I]. destruct Hp as [Hc _]. split; [congruence | intros x []].
  - (* deliver *) apply Hnon; [discriminate|]. unfold PInv in *. destruct pending as [l|]; [|exact I].
    destruct Hp as [Hc Hi]. rewrite Hc in Hin. destruct Hin as [I1 I2]. split; [exact I2|].
    rewrite I1, map_app. cbn [map]. apply incl_app; [apply incl_appl; exact Hi | apply incl_appr, incl_refl].
  - (* close *) apply Hnon; [discriminate | exact I].
Qed.

Theorem c06_rp_exit_ok_trace : forall cfg mk c (s0 : vsock) ops,
  vsock_new cci mk c = Some s0 -> c06_rp_exit_ok cfg (ftrace cci s0 ops) = true.
Proof.
  intros cfg mk c s0 ops H0. unfold c06_rp_exit_ok. apply rp_exit_scan_ok; [eapply ti_vsock_new; exact H0|].
  unfold vsock_new in H0.
  destruct (match (if vc_incoming c then None else _) with Some r => _ | None => _ end); [|discriminate].
  inversion H0; subst. split; [reflexivity | intros x []].
Qed.

End Trace.

(* ------------------------------------------------------------------ the clause is met by a reachable poll:
   three duplicate ACKs (Recovering, recovery point 101), the retransmission timer expires (Ignoring 101), the
   acknowledgement of 101 arrives, the next poll takes it with the timer running: the phase is over *)
Definition rpx_ops : list vop :=
  [VoWrite (repeat 0 (Z.to_nat 528)); VoPoll [];
   VoDeliver nv_dup; VoDeliver nv_dup; VoDeliver nv_dup; VoDeliver nv_dup; VoPoll [];
   VoSetNow 3000000000; VoPoll [];
   VoDeliver (wmsg ST_STATE 1 101 0); VoPoll []].

(* a Pending poll, transport writable, that starts in Ignoring rp, Established, with the timer running, and ends
   outside the phase *)
Definition rp_exit_seen (st : fstep) : bool :=
  match fs_event st, fs_result st, f_recovery (fs_pre st), f_state (fs_pre st), f_state (fs_post st),
        f_recovery (fs_post st) with
  | FePoll _, FrPoll PollPending _ _ _, IgnoringUntilRecoveryPoint _, Established, Established, CountingDuplicates _ =>
      negb (timer_expired (f_t_retransmit (fs_pre st)) (fs_now st)) && negb (f_transport_pending (fs_post st)) &&
      tol_ok (fs_pre st)
  | _, _, _, _, _, _ => false
  end.

Lemma rp_exit_nonvacuous :
  exists w cfg ops,
    vconfig_ok cfg = true /\ Forall op_msg_ok ops /\
    existsb rp_exit_seen (wtrace w cfg ops) = true /\
    c06_rp_exit_ok cfg (wtrace w cfg ops) = true.
Proof.
  exists 1000, nv_cfg, rpx_ops.
  split; [vm_compute; reflexivity|]. split.
  { unfold rpx_ops. repeat (apply Forall_cons; [try exact I|]); try apply Forall_nil; vm_compute; reflexivity. }
  split; vm_compute; reflexivity.
Qed.
