(* C02, second batch: step-level and trace-level theorems about the predicates of Conn/C02_Pred.v
   that Conn/C02_Step.v left open (c02_no_silent_stall, ...), and about the predicates of
   Conn/C02_Pred2.v. *)
From Utp Require Import Base.Prelude Wire.SeqNr Wire.Header Rtt.Rtte Rtt.Rtte_Proofs Mtu.SegSizes
  Rx.Rx Tx.Ring Tx.Segments Tx.Segments_Proofs Tx.Segments_ProofsOut
  Conn.Recovery Conn.Msg Conn.VSockRec Conn.VSock Conn.VSockRun Conn.VObs Conn.C10_Pred Conn.C02_Pred
  Conn.C02_Pred2 Conn.VSock_LemmasTx Conn.VSock_Lemmas Conn.VSock_LemmasStep Conn.VSock_LemmasReach
  Conn.VSock_LemmasTimers Conn.VSock_LemmasPipe Conn.C02_Step
  Conn.C02_SegLemmas2 Conn.C02_Lemmas2 Conn.C02_Stall2 Conn.C02_Fin2.

Section WithCC.
Context {CC : Type} (cci : cc_iface CC).
Notation vsock := (vsock CC).

(* ================================================================== c02_rto_mode_armed *)
Lemma rm_fp : forall (s : vsock), rm s ->
  (if 0 <? f_rto_retx (fp_of_vsock cci s)
   then match f_t_retransmit (fp_of_vsock cci s) with Some _ => true | None => false end &&
        existsb (fun g => negb (fg_delivered g)) (f_segs (fp_of_vsock cci s))
   else true) = true.
Proof.
  intros s H. cbn [fp_of_vsock f_rto_retx f_t_retransmit f_segs].
  destruct (Z.ltb_spec 0 (v_rto_retransmissions s)) as [L|L]; [|reflexivity].
  destruct (H L) as [H1 H2]. destruct (v_t_retransmit s); [|congruence]. cbn [andb].
  rewrite <- H2. unfold und. generalize (ss_segs (v_segs s)).
  induction l as [|x xs IH]; [reflexivity|]. cbn [map existsb fseg_of fg_delivered]. rewrite IH. reflexivity.
Qed.

Theorem c02_rto_mode_armed_step : forall cfg (s : vsock) o,
  rm s -> c02_rto_mode_armed cfg (fstep_of cci s o) = true.
Proof.
  intros cfg s o Hrm. unfold c02_rto_mode_armed.
  rewrite fstep_of_result, fstep_of_post.
  destruct (poll_ready (fresult_of (vstep_out cci s o))) eqn:Er; [reflexivity|].
  apply rm_fp. apply rm_vstep_live; [exact Hrm|].
  destruct (vstep_out cci s o) as [|r pk w a| | |]; try reflexivity.
  destruct r; cbn [fresult_of poll_ready poll_finished] in *; congruence.
Qed.

Theorem c02_rto_mode_armed_trace : forall cfg mk c (s0 : vsock) ops,
  vsock_new cci mk c = Some s0 -> forallb (c02_rto_mode_armed cfg) (ftrace cci s0 ops) = true.
Proof.
  intros cfg mk c s0 ops H0.
  apply (ftrace_forallb_live cci rm).
  - intros s o Hp. apply c02_rto_mode_armed_step; exact Hp.
  - intros s o Hp Hl. apply rm_vstep_live; assumption.
  - eapply rm_vsock_new; exact H0.
Qed.

(* ================================================================== c02_no_silent_stall *)
(* the frame of the stages after send_tx_queue *)
Lemma skr_trans : forall a b c : vsock, skr a b -> skr b c -> skr a c.
Proof.
  intros a b c H [K|(E1 & E2 & E3 & E4 & E5 & E6)]; [left; exact K|].
  destruct H as [H|(F1 & F2 & F3 & F4 & F5 & F6)]; [left; congruence|].
  right. repeat split; congruence.
Qed.

Ltac skr_leaf := first [apply skr_same; exact eq_refl | left; vsimpl_goal; apply timer_arm_some].

Lemma maybe_send_fin_skr : forall s : vsock, stR skr s (maybe_send_fin s).
Proof.
  apply (maybe_send_fin_by skr skr_refl skr_trans); [|intros; skr_leaf].
  apply (send_control_packet_R skr skr_refl skr_trans); intros; skr_leaf.
Qed.

Lemma maybe_send_ack_skr : forall s : vsock, stR skr s (maybe_send_ack s).
Proof. apply (maybe_send_ack_R skr skr_refl skr_trans); intros; skr_leaf. Qed.

Lemma poll_tail_skr : forall s : vsock, skr s (poll_tail s).
Proof.
  intros s. unfold poll_tail, next_timer_to_poll, arm_in, add_wakes.
  repeat break_match; try (inversion Heqp; subst); apply skr_same; exact eq_refl.
Qed.

Lemma stm_stU : forall X (s : vsock) (m : step X), stR rmR s m -> rm s -> stU rm m.
Proof. intros X s m H K. destruct m; cbn [stR stU] in *; auto. Qed.

Lemma stmk_stU : forall X (s : vsock) (m : step X), stRk rmR s m -> rm s -> stU rm m.
Proof. intros X s m H K. destruct m; cbn [stRk stU] in *; auto. Qed.

(* a Pending poll with a writable transport ends in the timer tail of a state that satisfies the clause *)
Theorem poll_stall : forall (s s' : vsock),
  rm s -> poll cci s = (s', PollPending) -> v_transport_pending s' = false -> stall_ok cci s'.
Proof.
  intros s s' Hrm H Hnp.
  assert (HS : tail_shape (stall_ok cci) s').
  { apply (poll_S_nr cci rm rm rm rm (stall_ok cci) (stall_ok cci)) with (s := s); try exact H.
    - intros a Ha. apply (sdr_rm _ _ (poll_start_sdr a) Ha).
    - intros a Ha. apply stU_stC. apply (stm_stU _ a); [apply sts_stm, maybe_send_syn_ack_sdr | exact Ha].
    - intros a Ha. apply stU_stC. apply (stm_stU _ a); [apply sts_stm, send_ack_sdr | exact Ha].
    - intros a Ha. apply stU_stC. apply (stmk_stU _ a); [apply process_all_incoming_messages_rm | exact Ha].
    - intros a rx1 fb w Ha _. apply (sdr_rm _ _ (rx_flush_sdr a rx1 (rx_wakes w)) Ha).
    - intros a Ha. apply (stm_stU _ a); [apply split_tx_queue_into_segments_rm | exact Ha].
    - (* send_tx_queue *)
      intros a Ha Ra.
      pose proof (send_tx_queue_rm cci a) as M.
      pose proof (send_tx_queue_stall cci a) as St.
      destruct (send_tx_queue cci a) as [b u| |]; cbn [stU stR] in *; auto.
      split; [intros _; exact (M Ha)|]. intros Rb Tb. eapply St; eauto.
    - intros a Ha. apply (skr_ok cci a); [|exact Ha].
      unfold transition_to_fin_wait_1. destruct (v_state a); first [apply skr_refl | apply skr_same; exact eq_refl].
    - intros a Ha. pose proof (maybe_send_fin_skr a) as K.
      destruct (maybe_send_fin a) as [b x| |]; cbn [stC stR] in *; auto.
      intros _. apply (skr_ok cci a); assumption.
    - intros a Ha. pose proof (maybe_send_ack_skr a) as K.
      destruct (maybe_send_ack a) as [b x| |]; cbn [stC stR] in *; auto.
      intros _. apply (skr_ok cci a); assumption.
    - exact Hrm. }
  destruct HS as [HS|(sb & Hb & _ & _ & _ & ->)]; [congruence|].
  apply (skr_ok cci sb); [apply poll_tail_skr | exact Hb].
Qed.

(* ---- on the fingerprint ---- *)
Lemma never_sent_und_fseg : forall g, never_sent_und (fseg_of g) = seg_nsu g.
Proof.
  intros g. unfold never_sent_und, seg_nsu, fseg_of. cbn [fg_sent_kind fg_delivered].
  destruct (sg_sent g); reflexivity.
Qed.

Lemma find_map_fseg : forall l,
  find never_sent_und (map fseg_of l) = option_map fseg_of (find seg_nsu l).
Proof.
  induction l as [|x xs IH]; [reflexivity|]. cbn [map find]. rewrite never_sent_und_fseg.
  destruct (seg_nsu x); [reflexivity|exact IH].
Qed.

Lemma existsb_map_fseg : forall l, existsb never_sent_und (map fseg_of l) = existsb seg_nsu l.
Proof.
  induction l as [|x xs IH]; [reflexivity|]. cbn [map existsb]. rewrite never_sent_und_fseg, IH. reflexivity.
Qed.

Lemma strand_free_fp : forall s : vsock, strand_free (fp_of_vsock cci s) = strand_free_s s.
Proof.
  intros s. unfold strand_free, strand_free_s. cbn [fp_of_vsock f_last_sent_seq_nr f_snd_una f_segs].
  rewrite firstn_map, existsb_map_fseg. reflexivity.
Qed.

Lemma stall_ok_fp : forall cfg (st : fstep) (s' : vsock) sc pk w a,
  fs_event st = FePoll sc -> fs_result st = FrPoll PollPending pk w a ->
  fs_post st = fp_of_vsock cci s' ->
  (v_transport_pending s' = false -> stall_ok cci s') ->
  c02_no_silent_stall_g cfg st = true.
Proof.
  intros cfg st s' sc pk w a Ee Er Ep Hs. unfold c02_no_silent_stall_g.
  destruct (strand_free (fs_post st)) eqn:Esf; [|reflexivity].
  unfold c02_no_silent_stall. rewrite Ee, Er, Ep in *.
  rewrite strand_free_fp in Esf.
  match goal with |- (if ?c then _ else _) = true => destruct c eqn:G end; [|reflexivity].
  repeat (apply andb_true_iff in G; destruct G as [G ?]).
  rename H into Grec, H0 into Gout.
  cbn [fp_of_vsock f_transport_pending] in G. apply negb_true_iff in G.
  apply negb_true_iff in Gout. rewrite outstanding_split in Gout. apply orb_false_iff in Gout.
  destruct Gout as [Gout _]. rewrite data_outstanding_fp in Gout.
  assert (Hrec : is_recovering (v_recovery s') = false).
  { cbn [fp_of_vsock f_recovery] in Grec. unfold is_recovering. destruct (rv_phase (v_recovery s')); [reflexivity|reflexivity|discriminate]. }
  unfold first_unsent. cbn [fp_of_vsock f_segs].
  change (fun g : fseg => (fg_sent_kind g =? 0) && negb (fg_delivered g)) with never_sent_und.
  rewrite find_map_fseg.
  destruct (find seg_nsu (ss_segs (v_segs s'))) as [g|] eqn:Ef; cbn [option_map]; [|reflexivity].
  cbn [fp_of_vsock fseg_of fg_size f_last_remote_window f_cc_window f_t_retransmit].
  destruct (Z.leb_spec (sg_size g) (v_last_remote_window s')) as [L1|L1]; [|reflexivity].
  destruct (Z.leb_spec (sg_size g) (cc_window cci (v_cc s'))) as [L2|L2]; [|reflexivity].
  cbn [andb].
  pose proof (Hs G Gout Hrec g Ef L1 L2 Esf) as K.
  destruct (v_t_retransmit s'); [reflexivity|congruence].
Qed.

Theorem c02_no_silent_stall_g_step : forall cfg (s : vsock) o,
  rm s -> c02_no_silent_stall_g cfg (fstep_of cci s o) = true.
Proof.
  intros cfg s o Hrm.
  destruct o; try (unfold c02_no_silent_stall_g, c02_no_silent_stall; rewrite fstep_of_event;
                   destruct (strand_free _); reflexivity).
  destruct (poll cci (VSockRec.set_sends s script)) as [s' r] eqn:E.
  rewrite (fstep_of_poll cci s script s' r E).
  destruct r; try (unfold c02_no_silent_stall_g, c02_no_silent_stall; cbn [fs_event fs_result];
                   destruct (strand_free _); reflexivity).
  eapply stall_ok_fp; try reflexivity.
  intro Tp. eapply poll_stall; [|exact E|exact Tp]. exact Hrm.
Qed.

Theorem c02_no_silent_stall_g_trace : forall cfg mk c (s0 : vsock) ops,
  vsock_new cci mk c = Some s0 -> forallb (c02_no_silent_stall_g cfg) (ftrace cci s0 ops) = true.
Proof.
  intros cfg mk c s0 ops H0.
  apply (ftrace_forallb_live cci rm).
  - intros s o Hp. apply c02_no_silent_stall_g_step; exact Hp.
  - intros s o Hp Hl. apply rm_vstep_live; assumption.
  - eapply rm_vsock_new; exact H0.
Qed.

(* ================================================================== c02_rto_armed, FIN half *)
Lemma fin_guard_K0 : forall (s : vsock) sc,
  ti s -> fin_alloc_guard (fp_of_vsock cci s) = true -> K0 (VSockRec.set_sends s sc).
Proof.
  intros s sc T G. unfold fin_alloc_guard in G.
  apply andb_true_iff in G. destruct G as [G Gn]. apply andb_true_iff in G. destruct G as [Gl Go].
  cbn [fp_of_vsock f_state] in Gl.
  split; [exact T|]. split; [exact Gl|]. split.
  - intros fin Hf Hl. unfold fin_of in Hf.
    change (v_state (VSockRec.set_sends s sc)) with (v_state s) in Hf.
    change (v_last_sent_seq_nr (VSockRec.set_sends s sc)) with (v_last_sent_seq_nr s) in Hl.
    change (v_t_retransmit (VSockRec.set_sends s sc)) with (v_t_retransmit s).
    unfold fo_fp, fin_out in Go. cbn [fp_of_vsock f_state f_last_sent_seq_nr f_t_retransmit] in Go.
    rewrite Hf, Hl, Z.eqb_refl in Go. destruct (v_t_retransmit s); [discriminate|discriminate Go].
  - intros fin E. left.
    change (v_state (VSockRec.set_sends s sc)) with (v_state s) in E.
    change (v_segs (VSockRec.set_sends s sc)) with (v_segs s).
    unfold fn_fp in Gn. cbn [fp_of_vsock f_state f_snd_una f_segs] in Gn. rewrite E in Gn.
    apply Z.eqb_eq in Gn. rewrite map_length in Gn. exact Gn.
Qed.

Theorem c02_rto_armed_fin_g_step : forall cfg (s : vsock) o,
  ti s -> c02_rto_armed_fin_g cfg (fstep_of cci s o) = true.
Proof.
  intros cfg s o T. unfold c02_rto_armed_fin_g. rewrite fstep_of_pre.
  destruct (fin_alloc_guard (fp_of_vsock cci s)) eqn:G; [|reflexivity].
  destruct o; try (unfold c02_rto_armed; rewrite fstep_of_event; reflexivity).
  destruct (poll cci (VSockRec.set_sends s script)) as [s' r] eqn:E.
  rewrite (fstep_of_poll cci s script s' r E).
  destruct r; try reflexivity.
  unfold c02_rto_armed. cbn [fs_event fs_result fs_post].
  cbn [fp_of_vsock f_transport_pending].
  destruct (v_transport_pending s') eqn:Tp; [reflexivity|]. cbn [negb andb].
  destruct (poll_fin_armed cci _ _ (fin_guard_K0 s script T G) E Tp) as [T' F'].
  rewrite outstanding_split.
  destruct (data_outstanding (fp_of_vsock cci s')) eqn:Ed; cbn [orb].
  - apply ti_timer_fp; assumption.
  - destruct (fin_outstanding (fp_of_vsock cci s')) eqn:Ef; [|reflexivity].
    unfold fin_outstanding in Ef. cbn [fp_of_vsock f_state f_last_sent_seq_nr f_t_retransmit] in *.
    destruct (our_fin_if_unacked (v_state s')) as [fin|] eqn:Eo; [|discriminate].
    apply Z.eqb_eq in Ef. specialize (F' fin Eo Ef). destruct (v_t_retransmit s'); [reflexivity|congruence].
Qed.

Theorem c02_rto_armed_fin_g_trace : forall cfg mk c (s0 : vsock) ops,
  vsock_new cci mk c = Some s0 -> forallb (c02_rto_armed_fin_g cfg) (ftrace cci s0 ops) = true.
Proof.
  intros cfg mk c s0 ops H0.
  apply (ftrace_forallb cci ti).
  - intros s o Hp. apply c02_rto_armed_fin_g_step; exact Hp.
  - intros s o Hp. apply ti_vstep; exact Hp.
  - eapply ti_vsock_new; exact H0.
Qed.

End WithCC.

(* ------------------------------------------------------------------ the guards are met by reachable
   states (the theorems above are not vacuous) *)
From Utp Require Import Conn.VSock_Inv Conn.C10_Proofs Conn.C02_Proofs.

(* write 528, poll (sent), three seconds later poll: the segment is resent, the counter is 1 *)
Definition rto_mode_ops : list vop :=
  [VoWrite (repeat 0 (Z.to_nat 528)); VoPoll []; VoSetNow 3000000000; VoPoll []].

Lemma rto_mode_armed_nonvacuous :
  exists w cfg ops,
    vconfig_ok cfg = true /\ Forall op_msg_ok ops /\
    existsb (fun st => (0 <? f_rto_retx (fs_post st)) && negb (poll_ready (fs_result st))) (wtrace w cfg ops) = true /\
    forallb (c02_rto_mode_armed cfg) (wtrace w cfg ops) = true.
Proof.
  exists 1056, timer_cfg, rto_mode_ops.
  split; [vm_compute; reflexivity|]. split; [repeat constructor|].
  set (tr := wtrace _ _ _). pattern tr. subst tr. vm_compute. repeat split.
Qed.

(* every guard of c02_no_silent_stall but the window test, and no stranded segment: a segment cut
   but larger than the congestion window (constant window of 100 bytes) *)
Definition stall_guard_but_window (st : fstep) : bool :=
  match fs_event st, fs_result st with
  | FePoll _, FrPoll PollPending _ _ _ =>
      let f := fs_post st in
      negb (f_transport_pending f) && negb (is_remote_fin_or_later (f_state f)) &&
      match f_state f with SynReceived | SynAckSent _ | Closed => false | _ => true end &&
      negb (outstanding f) && match f_recovery f with Recovering _ => false | _ => true end &&
      match first_unsent (f_segs f) with Some _ => true | None => false end && strand_free f
  | _, _ => false
  end.

Lemma no_silent_stall_g_nonvacuous :
  exists w cfg ops,
    vconfig_ok cfg = true /\ Forall op_msg_ok ops /\
    existsb stall_guard_but_window (wtrace w cfg ops) = true /\
    forallb (c02_no_silent_stall cfg) (wtrace w cfg ops) = true.
Proof.
  exists 100, timer_cfg, [VoWrite (repeat 0 (Z.to_nat 528)); VoPoll []].
  split; [vm_compute; reflexivity|]. split; [repeat constructor|].
  set (tr := wtrace _ _ _). pattern tr. subst tr. vm_compute. repeat split.
Qed.

(* FIN half: 528 bytes sent, both halves dropped (FIN 102 sent behind the data), RTO (data and FIN
   resent), the data acknowledged, RTO of the FIN alone: at every poll from the third on the guard
   holds before the poll and our FIN is outstanding after it *)
Definition fin_half_ops : list vop :=
  [VoWrite (repeat 0 (Z.to_nat 528)); VoPoll []; VoDropWriter; VoDropReader; VoPoll [];
   VoSetNow 300000000; VoPoll []; VoDeliver (wmsg ST_STATE 1 101 0); VoPoll [];
   VoSetNow 950000000; VoPoll []].

Lemma rto_armed_fin_g_nonvacuous :
  exists w cfg ops,
    vconfig_ok cfg = true /\ Forall op_msg_ok ops /\
    existsb (fun st => fin_alloc_guard (fs_pre st) && fin_out (fs_post st) &&
                       negb (f_transport_pending (fs_post st)) &&
                       match fs_result st with FrPoll PollPending _ _ _ => true | _ => false end)
            (wtrace w cfg ops) = true /\
    forallb (c02_rto_armed cfg) (wtrace w cfg ops) = true.
Proof.
  exists 1056, timer_cfg, fin_half_ops.
  split; [vm_compute; reflexivity|]. split; [repeat constructor|].
  set (tr := wtrace _ _ _). pattern tr. subst tr. vm_compute. repeat split.
Qed.

(* the write half of c02_prompt: the guards are met and the poll after the write emits ST_DATA *)
Lemma prompt_write_g_nonvacuous :
  exists w cfg ops,
    vconfig_ok cfg = true /\ 1 <= vc_max_retx cfg /\
    match wtrace w cfg ops with
    | [st0; st1; st2] =>
        prompt_window cfg (c10_acc_next c10_acc0 st0) st0 st1 st2 && idle_seq_ok (fs_pre st1) &&
        no_imm_ack (fs_pre st1) && can_send_new (fs_now st1) 528 (fs_pre st1) && emits_data st2
    | _ => false
    end = true /\
    c02_prompt_write_g cfg (wtrace w cfg ops) = true.
Proof.
  exists 1056, timer_cfg, [VoPoll []; VoWrite (repeat 0 (Z.to_nat 528)); VoPoll []].
  split; [vm_compute; reflexivity|]. split; [vm_compute; discriminate|].
  set (tr := wtrace _ _ _). pattern tr. subst tr. vm_compute. repeat split.
Qed.

(* c02_prompt is FALSE of the model for a configuration with max_segment_retransmissions = 0, which
   vconfig_ok admits (the Rust option is a NonZeroUsize: not reachable in the implementation): the first
   transmission of the first segment already reports ErrMaxRetransmissionsReached.  Hence the hypothesis
   1 <= vc_max_retx of c02_prompt_write_g_every_trace. *)
Definition retx0_cfg : vconfig :=
  {| vc_incoming := false; vc_ipv4 := true; vc_link_mtu := 1500; vc_rx_buf := 1048576;
     vc_tx_init := 32768; vc_tx_max := 1048576; vc_nagle := false; vc_max_retx := 0;
     vc_inactivity := 10000000000; vc_wait_last_ack := true; vc_mtu_probe_max_retx := 1;
     vc_isn := 100; vc_remote_seq := 1; vc_remote_conn_id := 7; vc_remote_wnd := 1048576;
     vc_remote_ts := 5; vc_syn_sent := 0; vc_now0 := 1000000 |}.

Lemma prompt_max_retx_zero_refuted :
  exists w cfg ops,
    vconfig_ok cfg = true /\ vc_max_retx cfg = 0 /\
    c02_prompt cfg (wtrace w cfg ops) = false /\
    match rev (wtrace w cfg ops) with
    | st :: _ => match fs_result st with
                 | FrPoll (PollReadyErr ErrMaxRetransmissionsReached) _ _ _ => True
                 | _ => False
                 end
    | [] => False
    end.
Proof.
  exists 1056, retx0_cfg, [VoPoll []; VoWrite (repeat 0 (Z.to_nat 528)); VoPoll []].
  split; [vm_compute; reflexivity|]. split; [reflexivity|].
  set (tr := wtrace _ _ _). pattern tr. subst tr. vm_compute. repeat split.
Qed.
