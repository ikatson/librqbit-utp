(* C06, step level: reusable machinery.
   - [PollHoare]: staged Hoare reasoning about a whole poll, for EVERY result (Pending with the
     transport blocked or not, Ready, error exits, restarts): stage invariants
       A0 (head of an iteration)  A (up to the incoming messages)  B1 (after them)
       B2 (after the flush, up to send_tx_queue)  C (after it)  D (after maybe_send_ack),
     QP = what a Pending exit with a blocked transport leaves, QE = what an error exit leaves
     (the state handed to just_before_death);
     (an instance of VSock_Lemmas.poll_body_walk);
   - [SplitRule] / [StqRule]: the leaves of VSock_LemmasReach.StepRel grouped for the segmentation and
     for send_tx_queue, as the relations of this family discharge them;
   - segment-table facts: the indices of an iterator are pairwise distinct, what a probe pop does ([popped]);
   - the invariants used by Conn/C06_Step.v, function by function. *)
From Utp Require Conn.VSock_Inv Conn.VSock_PollTx.
From Utp Require Import Base.Prelude Wire.SeqNr Wire.SeqNr_Proofs Wire.Header Rtt.Rtte Rtt.Rtte_Proofs
  Mtu.SegSizes Rx.Rx Tx.Ring Tx.Ring_Proofs Tx.Segments Tx.Segments_Proofs Tx.Segments_ProofsOut
  Conn.Recovery Conn.Msg Conn.VSockRec Conn.VSock Conn.VSockRun Conn.VObs
  Conn.VSock_Lemmas Conn.VSock_LemmasStep Conn.VSock_LemmasReach Conn.VSock_LemmasTx
  Conn.VSock_LemmasIn Conn.VSock_LemmasFin Conn.VSock_LemmasTimers Conn.VSock_LemmasPipe Conn.C17_StepLemmas
  Conn.C06_RecProofs.

Section WithCC.
Context {CC : Type} (cci : cc_iface CC).
Notation vsock := (vsock CC).

(* ================================================================== no function but send_tx_queue
   asks for a restart; none but the senders touches the transport flag *)
Lemma nr_syn_ack : forall s : vsock, no_restart s (maybe_send_syn_ack s).
Proof. intro s. apply no_restart_qb, maybe_send_syn_ack_qb. Qed.
Lemma nr_send_ack : forall s : vsock, no_restart s (send_ack s).
Proof. intro s. apply no_restart_qb, send_ack_qb. Qed.
Lemma nr_pim : forall s : vsock, no_restart s (process_all_incoming_messages cci s).
Proof.
  intros s Ra. pose proof (process_all_incoming_messages_pimr cci s) as P'.
  destruct (process_all_incoming_messages cci s); cbn [stU stR] in *; auto.
  destruct P' as (_ & _ & _ & _ & _ & P6 & _). congruence.
Qed.
Lemma nr_split : forall s : vsock, no_restart s (split_tx_queue_into_segments cci s).
Proof. intro s. apply no_restart_qb, split_tx_queue_into_segments_qb. Qed.
Lemma nr_fin : forall s : vsock, no_restart s (maybe_send_fin s).
Proof. intro s. apply no_restart_qb, maybe_send_fin_qb. Qed.
Lemma nr_msa : forall s : vsock, no_restart s (maybe_send_ack s).
Proof. intro s. apply no_restart_qb, maybe_send_ack_qb. Qed.

(* ================================================================== both ways of giving up an MTU probe
   leave the table alone or drop its last entry, an undelivered one *)
Definition popped (t t' : segments) : Prop :=
  t' = t \/
  exists init x, ss_segs t = init ++ [x] /\ sg_delivered x = false /\
    t' = Segments.set_segs t init (ss_len_bytes t - sg_size x) (ss_offset t - sg_size x).

Lemma pop_mtu_probe_popped : forall t q t' b, pop_mtu_probe t q = (t', b) -> popped t t'.
Proof.
  intros t q t' b. unfold pop_mtu_probe.
  destruct (last_and_init (ss_segs t)) as [[init x]|] eqn:E; [|intro H; injection H as <- _; left; reflexivity].
  apply last_and_init_app in E.
  destruct (_ && sg_probe x) ; [|intro H; injection H as <- _; left; reflexivity].
  destruct (sg_delivered x) eqn:Ed; intro H; injection H as <- _; [left; reflexivity|].
  right. exists init, x. auto.
Qed.

Lemma pop_expired_popped : forall t to mr t' pe, pop_expired_mtu_probe t to mr = (t', pe) -> popped t t'.
Proof.
  intros t to mr t' pe. unfold pop_expired_mtu_probe.
  destruct (last_and_init (ss_segs t)) as [[init x]|] eqn:E; [|intro H; injection H as <- _; left; reflexivity].
  apply last_and_init_app in E.
  destruct (sg_delivered x) eqn:Ed; [intro H; injection H as <- _; left; reflexivity|].
  destruct (_ && _ && _); [|destruct (sg_probe x); intro H; injection H as <- _; left; reflexivity].
  intro H; injection H as <- _. right. exists init, x. auto.
Qed.

(* a predicate of the table that enqueue keeps is kept by the segmentation loop *)
Lemma segment_loop_kept : forall P : segments -> Prop,
  (forall t len p, P t -> P (enqueue t len p)) ->
  forall fuel nagle ss segs rem rwr ss' segs' rem',
  segment_loop fuel nagle ss segs rem rwr = Some (ss', segs', rem') -> P segs -> P segs'.
Proof.
  intros P HP. induction fuel as [|x fuel IH]; intros nagle ss segs rem rwr ss' segs' rem' H K;
    cbn [segment_loop] in H.
  - inversion H; subst; exact K.
  - destruct (_ && _); [|inversion H; subst; exact K].
    destruct (next_segment_size ss) as [[ss1 sz]|]; [|discriminate].
    destruct (_ && _ && _); [inversion H; subst; exact K|].
    destruct (mss ss1 <? _); [inversion H; subst; apply HP; exact K|].
    eapply IH; [exact H|]. apply HP. exact K.
Qed.

(* ================================================================== a rule for the segmentation: a
   relation that every elementary change of split_tx_queue_into_segments satisfies holds across it
   (the hypotheses group the leaves of VSock_LemmasReach.split_tx_queue_into_segments_R by what changes) *)
Lemma grow_fields : forall t mx t' g, grow t mx = (t', g) -> g_removed t' = g_removed t /\ ring t' = ring t.
Proof. intros t mx t' g. unfold grow. destruct (_ <=? _); intro H; injection H as <- _; split; reflexivity. Qed.

Section SplitRule.
Variable R : vsock -> vsock -> Prop.
Hypothesis R_refl : forall s, R s s.
Hypothesis R_trans : forall a b c, R a b -> R b c -> R a c.
Hypothesis R_tx : forall (s : vsock) tx,
  g_removed tx = g_removed (v_tx s) -> ring tx = ring (v_tx s) -> R s (set_tx s tx).
Hypothesis R_wakes : forall (s : vsock) w, R s (add_wakes s w).
Hypothesis R_pop : forall (s : vsock) segs1, popped (v_segs s) segs1 -> R s (VSockRec.set_segs s segs1).
Hypothesis R_rearm : forall (s : vsock) t, R s (set_rto_retransmissions (set_t_retransmit s t) 0).
Hypothesis R_rewind : forall (s : vsock) q, R s (set_last_sent_seq_nr s q).
Hypothesis R_ss : forall (s : vsock) x, R s (set_ss s x).
Hypothesis R_unsegmented : forall (s : vsock) n, R s (set_unsegmented s n).
Hypothesis R_loop : forall (s : vsock) rem ss' segs' rem',
  segment_loop (ring (v_tx s)) (o_nagle (v_opts s)) (v_ss s) (v_segs s) rem (v_last_remote_window s)
    = Some (ss', segs', rem') ->
  R s (VSockRec.set_segs (set_ss s ss') segs').

(* the leaves of VSock_LemmasReach.split_tx_queue_into_segments_R follow from the changes above *)
Theorem split_stR : forall s : vsock, stR R s (split_tx_queue_into_segments cci s).
Proof.
  apply (split_tx_queue_into_segments_R cci R R_refl R_trans).
  - intro s. apply R_tx; apply VSock_Inv.register_disp_fields.
  - intros s tx1 g Eg. apply grow_fields in Eg. apply R_tx; apply Eg.
  - intros s tx1 tx2 w Ew. destruct (VSock_Inv.wake_writer_fields _ _ _ Ew) as (W1 & W2 & _).
    eapply R_trans; [exact (R_tx (set_tx s tx1) tx2 W2 W1) | exact (R_wakes (set_tx s tx2) _)].
  - intros s segs1 rw ps Ep. unfold probe_given_up. cbv zeta.
    eapply R_trans; [eapply R_pop, pop_expired_popped; exact Ep|].
    eapply R_trans; [apply R_rearm|].
    destruct (seq_gt _ _); [eapply R_trans; [apply R_rewind|]|]; apply R_ss.
  - exact R_unsegmented.
  - intros s tl ss' segs' rem' E. eapply R_trans; [eapply R_loop; exact E | apply R_unsegmented].
Qed.

End SplitRule.

Lemma split_tp : forall s : vsock,
  stR (fun a b : vsock => v_transport_pending b = v_transport_pending a) s (split_tx_queue_into_segments cci s).
Proof. apply split_stR; intros; first [reflexivity | congruence]. Qed.

(* ================================================================== staged Hoare reasoning *)
Section PollHoare.
Variables A0 A B1 B2 C D : vsock -> Prop.
Variable QP : vsock -> Prop.
Variable QE : vsock -> verror -> Prop.

(* a sending stage: the state it leaves satisfies P, or QP when the transport blocked *)
Definition stH (P : vsock -> Prop) {X} (m : step X) : Prop :=
  match m with
  | SOk s' _ => (v_transport_pending s' = true -> QP s') /\ (v_transport_pending s' = false -> P s')
  | SErr s' e => QE s' e
  | SPanic => True
  end.

(* a stage that cannot block *)
Definition stB (P : vsock -> Prop) {X} (m : step X) : Prop :=
  match m with SOk s' _ => P s' | SErr s' e => QE s' e | SPanic => True end.

Definition stQ (m : step unit) : Prop :=
  match m with
  | SOk s' _ => (v_restart s' = true -> A0 s') /\
                (v_restart s' = false -> v_transport_pending s' = true -> QP s') /\
                (v_restart s' = false -> v_transport_pending s' = false -> C s')
  | SErr s' e => QE s' e
  | SPanic => True
  end.

Hypothesis H_start : forall s, A0 s -> A (poll_start s).
Hypothesis H_syn_ack : forall s, A s -> v_transport_pending s = false -> stH A (maybe_send_syn_ack s).
Hypothesis H_send_ack : forall s, A s -> v_transport_pending s = false -> stH A (send_ack s).
Hypothesis H_pim : forall s, A s -> v_transport_pending s = false ->
  stH B1 (process_all_incoming_messages cci s).
Hypothesis H_flush : forall s rx1 fb w, B1 s -> v_transport_pending s = false ->
  rx_flush (v_rx s) = (rx1, FlOk fb, w) -> B2 (add_wakes (set_rx s rx1) (rx_wakes w)).
Hypothesis H_inact : forall s, B2 s -> QE s ErrRemoteInactiveForTooLong.
Hypothesis H_split : forall s, B2 s -> v_transport_pending s = false ->
  stB B2 (split_tx_queue_into_segments cci s).
Hypothesis H_stq : forall s, B2 s -> v_transport_pending s = false -> v_restart s = false ->
  stQ (send_tx_queue cci s).
Hypothesis H_fw1 : forall s, C s -> v_transport_pending s = false -> C (transition_to_fin_wait_1 s).
Hypothesis H_fin : forall s, C s -> v_transport_pending s = false -> stH C (maybe_send_fin s).
Hypothesis H_msa : forall s, C s -> v_transport_pending s = false -> stH D (maybe_send_ack s).

(* every way out of one iteration *)
Definition brH (r : body_res) : Prop :=
  match r with
  | BrReturn s' PollPending =>
      (v_transport_pending s' = true /\ QP s') \/
      (exists sb, D sb /\ v_transport_pending sb = false /\ v_restart sb = false /\
                  state_is_closed (v_state sb) (o_wait_for_last_ack (v_opts sb)) = false /\
                  s' = poll_tail sb)
  | BrReturn s' PollReadyOk =>
      exists sb, D sb /\ v_transport_pending sb = false /\ s' = just_before_death sb None
  | BrReturn s' (PollReadyErr e) => exists sb, QE sb e /\ s' = just_before_death sb (Some e)
  | BrReturn _ PollPanic => False
  | BrRestart s' => A0 s'
  | BrPanic => True
  end.

(* a stage that cannot restart, as a stage of VSock_Lemmas.poll_body_walk *)
Lemma stH_stage : forall X (P : vsock -> Prop) (s : vsock) (m : step X),
  v_restart s = false -> no_restart s m -> stH P m -> stage brH true P m.
Proof.
  intros X P s m R0 Hn Hm. specialize (Hn R0).
  destruct m as [s1 a|s1 e|]; cbn [stH stU stage andb] in *.
  - rewrite Hn. destruct Hm as [Hp Hq]. destruct (v_transport_pending s1) eqn:T.
    + left. split; [exact T | apply Hp; reflexivity].
    + apply Hq; reflexivity.
  - exists s1. split; [exact Hm | reflexivity].
  - exact I.
Qed.

(* the stage between the segmentation and send_tx_queue also knows the transport writable: segmentation
   does not touch the flag *)
Theorem poll_body_H : forall s0, A0 s0 -> brH (poll_body cci s0).
Proof.
  intros s0 HA.
  apply (poll_body_walk cci brH A B1 B2 (fun s => B2 s /\ v_transport_pending s = false) C D); try exact I.
  - intros s K [R T]. apply (stH_stage _ A s _ R); [apply nr_syn_ack | apply H_syn_ack; assumption].
  - intros s K [R T] _. apply (stH_stage _ A s _ R); [apply nr_send_ack | apply H_send_ack; assumption].
  - intros s K [R T]. apply (stH_stage _ B1 s _ R); [apply nr_pim | apply H_pim; assumption].
  - intros s rx1 fb w K [R T] E. eapply H_flush; eauto.
  - intros s K _ _. exists s. split; [apply H_inact; exact K | reflexivity].
  - intros s K [R T] _. pose proof (H_split s K T) as HB. pose proof (nr_split s R) as R5.
    pose proof (split_tp s) as T5.
    destruct (split_tx_queue_into_segments cci s) as [s5 a|s5 e|]; cbn [stB stU stR stage andb] in *.
    + rewrite R5. split; [exact HB | congruence].
    + exists s5. split; [exact HB | reflexivity].
    + exact I.
  - intros s [K T] R. pose proof (H_stq s K T R) as H6.
    destruct (send_tx_queue cci s) as [s6 a|s6 e|]; cbn [stQ stage andb] in *.
    + destruct H6 as (H6r & H6p & H6c). destruct (v_restart s6) eqn:R6; [apply H6r; reflexivity|].
      destruct (v_transport_pending s6) eqn:T6; [|apply H6c; reflexivity].
      left. split; [exact T6 | apply H6p; reflexivity].
    + exists s6. split; [exact H6 | reflexivity].
    + exact I.
  - intros s K [R T] _. apply H_fw1; assumption.
  - intros s K [R T]. apply (stH_stage _ C s _ R); [apply nr_fin | apply H_fin; assumption].
  - intros s K [R T]. apply (stH_stage _ D s _ R); [apply nr_msa | apply H_msa; assumption].
  - intros s K [R T] Cl. exists s. split; [exact K|]. split; [exact T | reflexivity].
  - intros s K [R T] Cl. right. exists s. repeat split; assumption.
  - apply H_start. exact HA.
Qed.

(* the result of a whole poll *)
Definition resH (s' : vsock) (r : poll_result) : Prop :=
  match r with
  | PollPending =>
      (v_transport_pending s' = true /\ QP s') \/
      (exists sb, D sb /\ v_transport_pending sb = false /\ v_restart sb = false /\
                  state_is_closed (v_state sb) (o_wait_for_last_ack (v_opts sb)) = false /\
                  s' = poll_tail sb)
  | PollReadyOk => exists sb, D sb /\ v_transport_pending sb = false /\ s' = just_before_death sb None
  | PollReadyErr e => exists sb, QE sb e /\ s' = just_before_death sb (Some e)
  | PollPanic => A0 s'
  end.

Theorem poll_loop_H : forall fuel s s' r,
  A0 s -> poll_loop cci fuel s = (s', r) -> resH s' r.
Proof.
  induction fuel as [|fuel IH]; intros s s' r HA H; cbn [poll_loop] in H.
  - inversion H; subst. exact HA.
  - pose proof (poll_body_H s HA) as F.
    destruct (poll_body cci s) as [s1 r1|s1|]; cbn [brH] in *.
    + inversion H; subst. destruct r; try exact F. destruct F.
    + eapply IH; [exact F | exact H].
    + inversion H; subst. exact HA.
Qed.

Theorem poll_H : forall s s' r, A0 (poll_init s) -> poll cci s = (s', r) -> resH s' r.
Proof. intros s s' r HA H. rewrite poll_unfold in H. eapply poll_loop_H; [exact HA | exact H]. Qed.

End PollHoare.

(* ================================================================== a rule for send_tx_queue, by parts
   (Conn/VSock_LemmasTx.v send_tx_queue_eq): a reflexive, transitive relation that holds across the leaves
   of a transmission and across the elementary changes of the RTO arm (resp. of the recovery arm) holds
   across that arm; the arms, the loop over new data and the probe pop give the whole. *)
Section StqRule.
Variable R : vsock -> vsock -> Prop.
Hypothesis R_refl : forall s, R s s.
Hypothesis R_trans : forall a b c, R a b -> R b c -> R a c.
(* the leaves of a transmission (VSock_LemmasReach Section StepRel: send_data_R and the two loops) *)
Hypothesis L_sends : forall (s : vsock) l, R s (set_sends s l).
Hypothesis L_blocked : forall s : vsock, R s (set_transport_pending s true).
Hypothesis L_data_sent : forall (s : vsock) p f, R s (sent_state s p f).

Hypothesis R_rewind : forall (s : vsock) q, R s (set_last_sent_seq_nr s q).

(* the two arms are VSock_LemmasReach.rto_branch_R and rec_branch_R; the hypotheses here group their leaves *)
Section Rto.
Hypothesis L_sent : forall (s s0 : vsock) h0 t q sk h, v_opts s0 = v_opts s ->
  R s (on_packet_sent (emit s {| p_hdr := hdr_with h0 t q (fit_sack s0 sk); p_payload := [] |}) h).
Hypothesis R_react : forall s s1 : vsock, on_rto_reactions cci s = Some s1 -> R s s1.
Hypothesis R_timer : forall (s : vsock) t, R s (set_t_retransmit s t).
Hypothesis R_retx : forall (s : vsock) n, R s (set_rto_retransmissions s n).

Lemma rto_branch_stR : forall (s : vsock) h, stR R s (rto_branch cci s h).
Proof.
  apply (rto_branch_R cci R R_refl R_trans L_sends L_sent L_blocked R_rewind); auto; intros; apply R_timer.
Qed.
End Rto.

Section Rec.
Hypothesis R_recovering : forall (s : vsock) rc, R s (set_recovering s rc).
Hypothesis R_pipe : forall (s : vsock) t, R s (set_t_recovery_pipe s t).

Lemma rec_branch_stR : forall (s : vsock) h, stR R s (rec_branch s h).
Proof. exact (rec_branch_R R R_refl R_trans L_sends L_blocked R_rewind L_data_sent R_recovering R_pipe). Qed.
End Rec.

(* the composition, with the two arms as premises: relations that the recovery arm (or the RTO arm) keeps only
   for a reason of their own cannot offer the leaves that VSock_LemmasReach.send_tx_queue_R asks for *)
Theorem stq_rule : forall s : vsock,
  stR R s (rto_branch cci s (outgoing_header s)) ->
  (forall (s1 : vsock) h, stR R s1 (rec_branch s1 h)) ->
  (forall (s1 : vsock) q segs' ss', pop_mtu_probe (v_segs s1) q = (segs', true) ->
     R s1 (set_restart (set_ss (VSockRec.set_segs s1 segs') ss') true)) ->
  stR R s (send_tx_queue cci s).
Proof.
  intros s Hrto Hrec Hpop. rewrite send_tx_queue_eq. destruct (v_transport_pending s); [apply R_refl|].
  apply (stR_sbind R R_trans); [apply Hrto|].
  intros s1 ret. unfold after_rto_k. destruct ret; [apply R_refl|].
  destruct (0 <? _); [apply R_refl|]. destruct (ss_segs _); [apply R_refl|].
  apply (stR_sbind R R_trans); [apply Hrec|].
  intros s2 ret. destruct ret; [apply R_refl|]. unfold new_branch.
  apply (stR_sbind R R_trans); [apply (new_data_loop_R R R_refl R_trans L_sends L_blocked L_data_sent)|].
  intros s3 tl. unfold new_after. destruct tl as [[sq sz]|]; [|apply R_refl].
  destruct (pop_mtu_probe _ _) as [segs' popped] eqn:Ep.
  destruct popped; cbn [stR]; [eapply Hpop; exact Ep | apply R_refl].
Qed.

End StqRule.

(* ================================================================== a projection of the segment table
   that on_sent and pop_mtu_probe keep is kept by everything send_tx_queue does *)
Section SegProj.
Variable X : Type.
Variable phi : segments -> X.
Hypothesis phi_on_sent : forall t i now, phi (on_sent t i now) = phi t.
Hypothesis phi_pop : forall t t', popped t t' -> phi t' = phi t.

Definition sgp (s s' : vsock) : Prop := phi (v_segs s') = phi (v_segs s).
Lemma sgp_refl : forall s, sgp s s. Proof. intro s. reflexivity. Qed.
Lemma sgp_trans : forall a b c, sgp a b -> sgp b c -> sgp a c.
Proof. unfold sgp. intros a b c H1 H2. congruence. Qed.
Notation stg := (stR sgp).

Lemma kp_sgp : forall s s', kp s s' -> sgp s s'.
Proof. intros s s' (K & _). unfold sgp. rewrite K. reflexivity. Qed.

Lemma data_sent_segs : forall (s : vsock) p f,
  v_segs (sent_state s p f) = on_sent (v_segs s) (fs_idx f) (v_now s).
Proof.
  intros. unfold sent_state, on_packet_sent, emit.
  destruct (seq_gt _ _); [destruct (seq_gt _ _)|]; reflexivity.
Qed.

Lemma send_tx_queue_sgp : forall (s : vsock), stg s (send_tx_queue cci s).
Proof.
  apply (send_tx_queue_R cci sgp sgp_refl sgp_trans); try (intros; reflexivity).
  - intros s p f. unfold sgp. rewrite data_sent_segs. apply phi_on_sent.
  - intros a s1 H. apply kp_sgp. eapply on_rto_reactions_kp; exact H.
  - intros s q size segs' Ep. unfold sgp. vsimpl. eapply phi_pop, pop_mtu_probe_popped; exact Ep.
Qed.

End SegProj.

(* ================================================================== iterator items in sync with the table:
   indices increasing from n on, the snapshot an item carries IS the table entry, undelivered *)
Fixpoint synced (u : Z) (l : list seg) (n : nat) (items : list for_sending) : Prop :=
  match items with
  | [] => True
  | f :: r => (n <= fs_idx f)%nat /\ nth_error l (fs_idx f) = Some (fs_seg f) /\
              (sg_delivered (fs_seg f) = false /\ fs_seq f = wadd16 u (Z.of_nat (fs_idx f) mod M16)) /\
              synced u l (S (fs_idx f)) r
  end.

Lemma synced_weaken : forall u l items n m, (m <= n)%nat -> synced u l n items -> synced u l m items.
Proof.
  intros u l items n m H. destruct items as [|f r]; cbn [synced]; [auto|].
  intros (A & B & C & D). split; [lia|]. split; [exact B|]. split; [exact C | exact D].
Qed.

Lemma synced_update : forall u l phi i items n,
  (i < n)%nat -> synced u l n items -> synced u (update_nth l i phi) n items.
Proof.
  intros u l phi i. induction items as [|f r IH]; intros n H; cbn [synced]; [auto|].
  intros (A & B & C & D). split; [exact A|]. split.
  - rewrite nth_error_update_nth. destruct (Nat.eqb_spec i (fs_idx f)); [lia | exact B].
  - split; [exact C|]. apply IH; [lia | exact D].
Qed.

Lemma synced_filter : forall u l p items n, synced u l n items -> synced u l n (filter p items).
Proof.
  intros u l p. induction items as [|f r IH]; intros n; cbn [synced filter]; [auto|].
  intros (A & B & C & D). destruct (p f); cbn [synced].
  - split; [exact A|]. split; [exact B|]. split; [exact C | apply IH; exact D].
  - eapply synced_weaken; [|apply IH; exact D]. lia.
Qed.

Lemma synced_firstn : forall u l k items n, synced u l n items -> synced u l n (firstn k items).
Proof.
  intros u l. induction k as [|k IH]; intros [|f r] n; cbn [synced firstn]; auto.
  intros (A & B & C & D). split; [exact A|]. split; [exact B|]. split; [exact C | apply IH; exact D].
Qed.

Lemma synced_take_while : forall u l p items n, synced u l n items -> synced u l n (take_while p items).
Proof.
  intros u l p. induction items as [|f r IH]; intros n; cbn [synced take_while]; [auto|].
  intros (A & B & C & D). destruct (p f); cbn [synced]; [|exact I].
  split; [exact A|]. split; [exact B|]. split; [exact C | apply IH; exact D].
Qed.

Lemma synced_skip_while : forall u l p items n, synced u l n items -> synced u l n (skip_while p items).
Proof.
  intros u l p. induction items as [|f r IH]; intros n; cbn [synced skip_while]; [auto|].
  intros (A & B & C & D). destruct (p f); cbn [synced]; [|split; [exact A|]; split; [exact B|]; split; [exact C | exact D]].
  eapply synced_weaken; [|apply IH; exact D]. lia.
Qed.

Lemma synced_In : forall u l items n f, synced u l n items -> In f items ->
  nth_error l (fs_idx f) = Some (fs_seg f) /\ sg_delivered (fs_seg f) = false /\
  fs_seq f = wadd16 u (Z.of_nat (fs_idx f) mod M16).
Proof.
  intros u l. induction items as [|g r IH]; intros n f; cbn [synced In]; [tauto|].
  intros (A & B & [C C'] & D) [<-|H]; [auto | eapply IH; eauto].
Qed.

Lemma synced_iter_gen : forall (u rm : Z) (t l' : list seg) i,
  (forall k x, nth_error l' k = Some x -> nth_error t (i + k) = Some x) ->
  synced u t i
    (filter (fun f => negb (sg_delivered (fs_seg f)))
       (map (fun '(i, s) => {| fs_idx := i; fs_seq := wadd16 u (Z.of_nat i mod M16);
                               fs_payload_offset := sg_abs s - rm; fs_seg := s |})
            (enum_from i l'))).
Proof.
  intros u rm t. induction l' as [|x xs IH]; intros i H; cbn [enum_from map filter synced]; [exact I|].
  assert (Hx : forall k y, nth_error xs k = Some y -> nth_error t (S i + k) = Some y).
  { intros k y Hk. replace (S i + k)%nat with (i + S k)%nat by lia. apply H. exact Hk. }
  cbn [fs_seg]. destruct (sg_delivered x) eqn:Ed; cbn [negb synced fs_idx fs_seg].
  - eapply synced_weaken; [|apply IH; exact Hx]. lia.
  - split; [lia|]. split; [rewrite <- (Nat.add_0_r i); apply H; reflexivity|].
    split; [split; [exact Ed | reflexivity]|]. apply IH. exact Hx.
Qed.

Lemma synced_iter : forall t st, synced (ss_snd_una t) (ss_segs t) 0 (iter_for_sending t st).
Proof.
  intros t st. unfold iter_for_sending.
  eapply synced_weaken; [|apply synced_iter_gen]; [lia|].
  intros k x Hk. rewrite nth_error_skipn in Hk. exact Hk.
Qed.

(* ================================================================== a rule for send_tx_queue:
   an invariant I that reads only (segs, out, opts, now, env_now, tx), is kept by a transmission and by
   popping the failed probe, holds after send_tx_queue; E is what an error leaves *)
Lemma send_data_err_max : forall (s s1 : vsock) h f,
  send_data s h f = SErr s1 ErrMaxRetransmissionsReached ->
  s1 = s /\ seg_retransmit_count (fs_seg f) = o_max_retx (v_opts s).
Proof.
  intros s s1 h f. unfold send_data.
  destruct (Z.eqb_spec (seg_retransmit_count (fs_seg f)) (o_max_retx (v_opts s))) as [E|E].
  - intro H; inversion H; subst. auto.
  - destruct (_ <? 0); [discriminate|]. destruct (_ <? fs_payload_offset f); [intro H; inversion H|].
    destruct (_ <? _ + _); [intro H; inversion H|].
    destruct (next_send s _) as [s2 o]. destruct o; intro H; inversion H.
Qed.

Definition nodata (p : packet) : Prop := ch_type (p_hdr p) <> ST_DATA.

(* ================================================================== the footprint relation: the segment
   table, the options and the clocks are untouched, the datagrams appended are not ST_DATA.  Everything a
   poll does outside send_tx_queue, the ACK processing, the segmentation and poll_start satisfies it. *)
Lemma skipn_add : forall A (l : list A) a b, skipn b (skipn a l) = skipn (a + b) l.
Proof.
  intros A l a. revert l. induction a as [|a IH]; intros l b; [reflexivity|].
  destruct l as [|x xs]; [destruct b; reflexivity|]. cbn [skipn plus]. apply IH.
Qed.

(* the connection state only moves forward *)
Definition rk (st : vstate) : Z :=
  match st with SynReceived => 0 | SynAckSent _ => 1 | Established => 2 | _ => 3 end.
Lemma rk_max : forall st, rk st <= 3. Proof. destruct st; cbn [rk]; lia. Qed.

Definition fpr (s s' : vsock) : Prop :=
  v_segs s' = v_segs s /\ v_opts s' = v_opts s /\ v_now s' = v_now s /\ v_env_now s' = v_env_now s /\
  v_emsg_limit s' = v_emsg_limit s /\ v_restart s' = v_restart s /\
  (exists k, v_sends s' = skipn k (v_sends s)) /\
  (exists l, v_out s' = l ++ v_out s /\ Forall nodata l) /\
  v_rtte s' = v_rtte s /\ v_rto_retransmissions s' = v_rto_retransmissions s /\
  v_recovery s' = v_recovery s /\
  v_inbox s' = v_inbox s /\ v_inbox_closed s' = v_inbox_closed s /\ rk (v_state s) <= rk (v_state s').

Lemma fpr_refl : forall s, fpr s s.
Proof.
  intro s. unfold fpr. repeat split; try apply Z.le_refl. - exists 0%nat. reflexivity.
  - exists []. split; [reflexivity | constructor].
Qed.

Lemma fpr_trans : forall a b c, fpr a b -> fpr b c -> fpr a c.
Proof.
  unfold fpr. intros a b c (A1 & A2 & A3 & A4 & A5 & A6 & (k1 & A9) & (l1 & A10 & A11) & A12 & A13 & A14 & A15 & A16 & A17)
    (B1 & B2 & B3 & B4 & B5 & B6 & (k2 & B9) & (l2 & B10 & B11) & B12 & B13 & B14 & B15 & B16 & B17).
  repeat split; try congruence; try lia.
  - exists (k1 + k2)%nat. rewrite B9, A9. apply skipn_add.
  - exists (l2 ++ l1). split; [rewrite B10, A10; apply app_assoc|].
    apply Forall_app. split; assumption.
Qed.

Lemma fpr_same : forall s s' : vsock,
  v_segs s' = v_segs s -> v_opts s' = v_opts s -> v_now s' = v_now s -> v_env_now s' = v_env_now s ->
  v_emsg_limit s' = v_emsg_limit s -> v_restart s' = v_restart s -> v_sends s' = v_sends s ->
  v_out s' = v_out s -> v_rtte s' = v_rtte s ->
  v_rto_retransmissions s' = v_rto_retransmissions s -> v_recovery s' = v_recovery s ->
  v_inbox s' = v_inbox s -> v_inbox_closed s' = v_inbox_closed s -> rk (v_state s) <= rk (v_state s') ->
  fpr s s'.
Proof.
  intros s s' E1 E2 E3 E4 E5 E6 E9 E10 E11 E12 E13 E14 E15 E16. unfold fpr. repeat split; auto.
  - exists 0%nat. exact E9.
  - exists []. split; [exact E10 | constructor].
Qed.

Ltac fpr_leaf := apply fpr_same; first [reflexivity | apply Z.le_refl].
(* a step that moves the state forward *)
Ltac fpr_st E := apply fpr_same; try reflexivity; vsimpl_goal; rewrite ?E; cbn [rk]; pose proof rk_max; try lia.

(* the same without the claim on the RTT estimator (the RTO reaction of send_tx_queue changes it) *)
Definition fpw (s s' : vsock) : Prop :=
  v_segs s' = v_segs s /\ v_opts s' = v_opts s /\ v_now s' = v_now s /\ v_env_now s' = v_env_now s /\
  v_emsg_limit s' = v_emsg_limit s /\ v_restart s' = v_restart s /\
  (exists k, v_sends s' = skipn k (v_sends s)) /\
  (exists l, v_out s' = l ++ v_out s /\ Forall nodata l).

Lemma fpr_fpw : forall s s', fpr s s' -> fpw s s'.
Proof. unfold fpr, fpw. intros s s' H. tauto. Qed.

Lemma fpw_same : forall s s' : vsock,
  v_segs s' = v_segs s -> v_opts s' = v_opts s -> v_now s' = v_now s -> v_env_now s' = v_env_now s ->
  v_emsg_limit s' = v_emsg_limit s -> v_restart s' = v_restart s -> v_sends s' = v_sends s ->
  v_out s' = v_out s -> fpw s s'.
Proof.
  intros s s' E1 E2 E3 E4 E5 E6 E9 E10. unfold fpw. repeat split; auto.
  - exists 0%nat. exact E9.
  - exists []. split; [exact E10 | constructor].
Qed.

Ltac fpw_leaf := apply fpw_same; reflexivity.

(* errors other than the retransmission cap *)
Definition nmax (e : verror) : Prop := e <> ErrMaxRetransmissionsReached.

Definition sfp {X} (s : vsock) (m : step X) : Prop :=
  match m with SOk s' _ => fpr s s' | SErr s' e => fpr s s' /\ nmax e | SPanic => True end.

Lemma sfp_bind : forall X Y (s : vsock) (m : step X) (k : vsock -> X -> step Y),
  sfp s m -> (forall s1 a, sfp s1 (k s1 a)) -> sfp s (sbind m k).
Proof.
  intros X Y s m k Hm Hk. destruct m as [s1 a|s1 e|]; cbn [sbind sfp] in *; auto.
  specialize (Hk s1 a). destruct (k s1 a); cbn [sfp] in *; auto.
  - eapply fpr_trans; eauto.
  - destruct Hk as [K1 K2]. split; [eapply fpr_trans; eauto | exact K2].
Qed.

Lemma sfp_weaken : forall X (s0 s : vsock) (m : step X), fpr s0 s -> sfp s m -> sfp s0 m.
Proof.
  intros X s0 s m H Hm. destruct m; cbn [sfp] in *; auto; [eapply fpr_trans; eauto|].
  destruct Hm as [K1 K2]. split; [eapply fpr_trans; eauto | exact K2].
Qed.

Lemma next_send_fpr : forall (s : vsock) n s1 o, next_send s n = (s1, o) -> fpr s s1.
Proof.
  intros s n s1 o E. destruct (VSock_Inv.next_send_shape _ _ _ _ E) as [[[-> _]|(o0 & r & Hs & ->)] _];
    [apply fpr_refl|].
  unfold fpr. vsimpl_goal. repeat split; try apply Z.le_refl.
  - exists 1%nat. rewrite Hs. reflexivity.
  - exists []. split; [reflexivity | constructor].
Qed.

Lemma send_control_packet_fpr : forall (s : vsock) h,
  ch_type h <> ST_DATA -> sfp s (send_control_packet s h).
Proof.
  intros s h Ht. unfold send_control_packet. destruct (v_transport_pending s); [apply fpr_refl|].
  destruct (next_send s _) as [s1 o] eqn:E. apply next_send_fpr in E.
  destruct o; cbn [sfp].
  - eapply fpr_trans; [exact E|]. unfold on_packet_sent, emit, fpr. vsimpl_goal. repeat split; try apply Z.le_refl.
    + exists 0%nat. reflexivity.
    + eexists [_]. split; [reflexivity|]. constructor; [|constructor]. unfold nodata, hdr_with.
      cbn [p_hdr ch_type]. exact Ht.
  - eapply fpr_trans; [exact E | fpr_leaf].
  - split; [exact E | discriminate].
  - split; [exact E | discriminate].
Qed.

Lemma send_ack_fpr : forall s : vsock, sfp s (send_ack s).
Proof. intro s. unfold send_ack. apply send_control_packet_fpr. unfold hdr_with. cbn [ch_type]. discriminate. Qed.

Lemma maybe_send_fin_fpr : forall s : vsock, sfp s (maybe_send_fin s).
Proof.
  intro s. unfold maybe_send_fin. destruct (v_transport_pending s); [apply fpr_refl|].
  destruct (our_fin_if_unacked (v_state s)); [|apply fpr_refl].
  destruct (negb _); [apply fpr_refl|].
  apply sfp_bind; [apply send_control_packet_fpr; unfold hdr_with; cbn [ch_type]; discriminate|].
  intros s1 a. destruct a; cbn [sfp]; [fpr_leaf | apply fpr_refl].
Qed.

Lemma maybe_send_ack_fpr : forall s : vsock, sfp s (maybe_send_ack s).
Proof.
  intro s. unfold maybe_send_ack.
  destruct (immediate_ack_to_transmit s); [apply send_ack_fpr|].
  destruct (should_send_window_update s); [apply send_ack_fpr|].
  destruct (timer_expired _ _).
  - destruct (ack_to_transmit s); [apply send_ack_fpr | cbn [sfp]; fpr_leaf].
  - destruct (0 <? _); cbn [sfp]; [fpr_leaf | apply fpr_refl].
Qed.

Lemma maybe_send_syn_ack_fpr : forall s : vsock, sfp s (maybe_send_syn_ack s).
Proof.
  intro s. unfold maybe_send_syn_ack.
  assert (G : (forall c, rk (v_state s) <= rk (SynAckSent c)) -> forall c, sfp s
     (if c =? o_max_retx (v_opts s) then SErr s ErrMaxSynAckRetransmissionsReached
      else sbind (send_ack s) (fun s1 sent =>
        if sent then SOk (set_t_syn_ack_resend (set_state s1 (SynAckSent (c + 1)))
               (timer_arm (v_t_syn_ack_resend s1) (v_now s1) SYNACK_RESEND_INTERNAL true)) tt
        else SOk s1 tt))).
  { intros Hst c. destruct (_ =? _); [split; [apply fpr_refl | discriminate]|].
    pose proof (send_ack_fpr s) as F. pose proof (send_ack_txf s) as T.
    destruct (send_ack s) as [s1 sent|s1 e|]; cbn [sbind sfp stR] in *; auto.
    destruct sent; cbn [sfp]; [|exact F].
    eapply fpr_trans; [exact F|]. destruct T as (_ & _ & _ & _ & _ & _ & T7 & _).
    apply fpr_same; try reflexivity. vsimpl_goal. rewrite T7. apply Hst. }
  destruct (v_state s) eqn:Est; try (cbn [sfp]; fpr_leaf).
  - apply G. intros c. cbn [rk]. lia.
  - destruct (timer_expired _ _); [apply G; intros c; cbn [rk]; lia | apply fpr_refl].
Qed.

Lemma transition_fpr : forall s : vsock, fpr s (transition_to_fin_wait_1 s).
Proof.
  intro s. unfold transition_to_fin_wait_1.
  destruct (v_state s) eqn:Est; first [apply fpr_refl | fpr_st Est].
Qed.

Lemma poll_tail_fpr : forall s : vsock, fpr s (poll_tail s).
Proof.
  intro s.
  unfold poll_tail, next_timer_to_poll, arm_in, add_wakes.
  repeat break_match; try (inversion Heqp; subst); fpr_leaf.
Qed.

Lemma state_table_fpr : forall (s : vsock) h,
  fpr s (tbl_state (state_table s h)) /\
  match state_table s h with TblErr _ e => nmax e | _ => True end.
Proof.
  intros s h. unfold state_table, restart_remote_inactivity_timer.
  destruct (ch_type h); destruct (v_state s) eqn:Est; cbn [tbl_state negb];
    repeat (match goal with |- context [if ?c then _ else _] => destruct c end);
    cbn [tbl_state]; (split; [first [apply fpr_refl | fpr_st Est] | first [exact I | discriminate]]).
Qed.

Lemma add_err_nmax : forall r e, add_err r = Some e -> nmax e.
Proof. intros r e. destruct r; cbn [add_err]; intro H; inversion H; discriminate. Qed.

(* what pim_data does to the state after a payload was consumed; stated for a variable state, so that
   the walk below carries no case analysis under a local definition *)
Lemma consumed_fpr : forall (s4 : vsock) r,
  fpr s4 match r with
         | ArConsumed n bytes =>
             set_cbu (set_last_consumed (restart_remote_inactivity_timer s4)
                        (wadd16 (v_last_consumed s4) (n mod M16))) (sat_add_usize (v_cbu s4) bytes)
         | _ => s4
         end.
Proof.
  intros s4 r. unfold restart_remote_inactivity_timer. destruct r; first [apply fpr_refl | fpr_leaf].
Qed.

Lemma pim_data_fpr : forall (s2 : vsock) m res offset, sfp s2 (pim_data cci s2 m res offset).
Proof.
  intros s2 m res offset. unfold pim_data. destruct (offset <? 0).
  { cbn [sfp]. unfold force_immediate_ack. fpr_leaf. }
  cbv zeta.
  destruct (rx_add_remove _ KData (m_payload m) offset) as [[rx1 ar] w].
  set (s4 := add_wakes _ _).
  assert (H4 : fpr s2 s4) by (unfold s4, add_wakes; fpr_leaf).
  clearbody s4.
  destruct ar as [r|]; [|exact I].
  destruct (add_err r) eqn:Ea; [cbn [sfp]; split; [exact H4 | eapply add_err_nmax; exact Ea]|].
  pose proof (fpr_trans _ _ _ H4 (consumed_fpr s4 r)) as H5.
  set (s5 := match r with ArConsumed _ _ => _ | _ => s4 end) in *.
  clearbody s5.
  destruct (_ || _); [|exact H5].
  apply (sfp_weaken _ s2 (force_immediate_ack s5)).
  { eapply fpr_trans; [exact H5|]. unfold force_immediate_ack. fpr_leaf. }
  apply sfp_bind; [apply send_ack_fpr|]. intros s6 _. apply fpr_refl.
Qed.

Lemma pim_fin_fpr : forall (s2 : vsock) m res offset seen, sfp s2 (pim_fin s2 m res offset seen).
Proof.
  intros s2 m res offset seen. unfold pim_fin. cbv zeta. destruct (_ && _).
  - destruct (rx_add_remove _ KFin _ _) as [[rx1 ar] w].
    destruct ar as [r|]; [|exact I].
    destruct (add_err r) eqn:Ea.
    + cbn [sfp]. split; [unfold add_wakes, force_immediate_ack; fpr_leaf | eapply add_err_nmax; exact Ea].
    + unfold mark_vsock_closed. cbn [sfp]. unfold add_wakes, force_immediate_ack. fpr_leaf.
  - cbn [sfp]. unfold force_immediate_ack. fpr_leaf.
Qed.

(* a transmission attempt that does not put a datagram on the wire *)
Lemma send_data_fpr_other : forall (s : vsock) h f,
  match send_data s h f with
  | SOk s1 SdSent => True
  | SOk s1 _ | SErr s1 _ => fpr s s1
  | SPanic => True
  end.
Proof.
  intros s h f. unfold send_data.
  destruct (_ =? o_max_retx _); [apply fpr_refl|].
  destruct (_ <? 0); [exact I|].
  destruct (_ <? fs_payload_offset f); [apply fpr_refl|].
  destruct (_ <? _ + _); [apply fpr_refl|].
  destruct (next_send s _) as [s1 o] eqn:E. apply next_send_fpr in E.
  destruct o; auto; try (eapply fpr_trans; [exact E | fpr_leaf]).
Qed.

Lemma verror_eq_max : forall e : verror,
  e = ErrMaxRetransmissionsReached \/ e <> ErrMaxRetransmissionsReached.
Proof. intro e. destruct e; first [left; reflexivity | right; discriminate]. Qed.

Section SendRule.
Variable Iv : vsock -> Prop.
Variable Jv : vsock -> Prop.          (* after a transmission attempt answered EMSGSIZE *)
Variable Ev : vsock -> verror -> Prop.
Hypothesis I_fpw : forall s s' : vsock, fpw s s' -> Iv s -> Iv s'.
Hypothesis I_emsg : forall (s : vsock) h f s1, Iv s -> send_data s h f = SOk s1 SdEmsgsize -> Jv s1.
Hypothesis J_E : forall s e, Jv s -> e <> ErrMaxRetransmissionsReached -> Ev s e.
Hypothesis I_sent : forall (s : vsock) h f s1 n rest,
  Iv s -> synced (ss_snd_una (v_segs s)) (ss_segs (v_segs s)) n (f :: rest) -> send_data s h f = SOk s1 SdSent -> Iv s1.
Hypothesis E_of_I : forall s e, Iv s -> e <> ErrMaxRetransmissionsReached -> Ev s e.
Hypothesis E_max : forall (s : vsock) f n rest,
  Iv s -> synced (ss_snd_una (v_segs s)) (ss_segs (v_segs s)) n (f :: rest) ->
  seg_retransmit_count (fs_seg f) = o_max_retx (v_opts s) -> Ev s ErrMaxRetransmissionsReached.
Hypothesis I_pop : forall (s : vsock) segs' q ss',
  Jv s -> pop_mtu_probe (v_segs s) q = (segs', true) ->
  Iv (set_restart (set_ss (VSockRec.set_segs s segs') ss') true).

Definition stN (m : step (option (Z * Z))) : Prop :=
  match m with
  | SOk s' None => Iv s'
  | SOk s' (Some _) => Jv s'
  | SErr s' e => Ev s' e
  | SPanic => True
  end.

Definition stI {X} (m : step X) : Prop :=
  match m with SOk s' _ => Iv s' | SErr s' e => Ev s' e | SPanic => True end.

Lemma stI_bind : forall X Y (m : step X) (k : vsock -> X -> step Y),
  stI m -> (forall s1 a, Iv s1 -> stI (k s1 a)) -> stI (sbind m k).
Proof. intros X Y m k Hm Hk. destruct m as [s1 a|s1 e|]; cbn [sbind stI] in *; auto. Qed.

(* one transmission attempt *)
Lemma send_data_rule : forall (s : vsock) h f n rest,
  Iv s -> synced (ss_snd_una (v_segs s)) (ss_segs (v_segs s)) n (f :: rest) ->
  match send_data s h f with
  | SOk s1 SdSent => Iv s1 /\ synced (ss_snd_una (v_segs s1)) (ss_segs (v_segs s1)) (S (fs_idx f)) rest
  | SOk s1 SdPending => Iv s1
  | SOk s1 SdEmsgsize => Jv s1
  | SErr s1 e => Ev s1 e
  | SPanic => True
  end.
Proof.
  intros s h f n rest Hi Hs.
  pose proof (send_data_spec s h f) as Hd. pose proof (send_data_fpr_other s h f) as Hf.
  destruct (send_data s h f) as [s1 [| |]|s1 e|] eqn:Ed; try exact I.
  - split; [eapply I_sent; eauto|].
    destruct Hd as (_ & _ & Hsg & _). rewrite Hsg. unfold on_sent, Segments.set_segs. cbn [ss_segs ss_snd_una].
    destruct Hs as (_ & _ & _ & Hr). apply synced_update; [lia | exact Hr].
  - apply (I_fpw s s1 (fpr_fpw _ _ Hf) Hi).
  - eapply I_emsg; eauto.
  - destruct (verror_eq_max e) as [->|Hne].
    + apply send_data_err_max in Ed. destruct Ed as [-> Hc]. eapply E_max; eauto.
    + apply E_of_I; [apply (I_fpw s s1 (fpr_fpw _ _ Hf) Hi) | exact Hne].
Qed.

Lemma recovery_loop_rule : forall items (s : vsock) h mss0 st n,
  Iv s -> synced (ss_snd_una (v_segs s)) (ss_segs (v_segs s)) n items -> stI (recovery_loop items s h mss0 st).
Proof.
  induction items as [|f rest IH]; intros s h mss0 st n Hi Hs; cbn [recovery_loop]; [exact Hi|].
  destruct (negb _); [exact Hi|].
  destruct (_ && negb (sg_lost _)); [apply (IH s h mss0 st (S (fs_idx f))); [exact Hi | apply Hs]|].
  destruct (_ && negb (sg_sacks_after _)); [exact Hi|].
  pose proof (send_data_rule s h f n rest Hi Hs) as Hd.
  destruct (send_data s h f) as [s1 r|s1 e|]; cbn [stI]; auto.
  destruct r; cbn [stI].
  - destruct Hd as [H1 H2]. eapply IH; eauto.
  - exact Hd.
  - apply J_E; [exact Hd | discriminate].
Qed.

Lemma new_data_loop_rule : forall items (s : vsock) h remaining n,
  Iv s -> synced (ss_snd_una (v_segs s)) (ss_segs (v_segs s)) n items -> stN (new_data_loop items s h remaining).
Proof.
  induction items as [|f rest IH]; intros s h remaining n Hi Hs; cbn [new_data_loop]; [exact Hi|].
  destruct (_ <? _); [exact Hi|].
  pose proof (send_data_rule s h f n rest Hi Hs) as Hd.
  destruct (send_data s h f) as [s1 r|s1 e|]; cbn [stN]; auto.
  destruct r; cbn [stN].
  - destruct Hd as [H1 H2]. eapply IH; eauto.
  - exact Hd.
  - exact Hd.
Qed.

Lemma on_rto_reactions_I : forall (s s1 : vsock), on_rto_reactions cci s = Some s1 -> Iv s -> Iv s1.
Proof.
  intros s s1 H Hi. unfold on_rto_reactions in H. destruct (on_rto_timeout _); [|discriminate].
  injection H as <-. eapply I_fpw; [|exact Hi]. fpw_leaf.
Qed.

Lemma sfp_stI : forall X (s : vsock) (m : step X), Iv s -> sfp s m -> stI m.
Proof.
  intros X s m Hi H. destruct m; cbn [sfp stI] in *; auto.
  - eapply I_fpw; [apply fpr_fpw|]; eauto.
  - destruct H as [H1 H2]. apply E_of_I; [eapply I_fpw; [apply fpr_fpw|]; eauto | exact H2].
Qed.

Lemma maybe_send_fin_I : forall s : vsock, Iv s -> stI (maybe_send_fin s).
Proof. intros s Hi. eapply sfp_stI; [exact Hi | apply maybe_send_fin_fpr]. Qed.

Ltac i_same a := apply (I_fpw a); [fpw_leaf|].

Theorem send_tx_queue_rule : forall s : vsock, Iv s -> stI (send_tx_queue cci s).
Proof.
  intros s Hi. unfold send_tx_queue.
  destruct (v_transport_pending s); [exact Hi|].
  apply stI_bind.
  - (* the RTO part *)
    destruct (timer_expired _ _); [|exact Hi].
    destruct (iter_for_sending (v_segs s) None) as [|f l] eqn:Eit.
    + assert (Hoff : stI (SOk (A:=bool) (set_t_retransmit s None) false)) by (cbn [stI]; i_same s; exact Hi).
      destruct (our_fin_if_unacked _); [|exact Hoff].
      destruct (_ =? _); [|exact Hoff].
      apply stI_bind.
      { apply maybe_send_fin_I. i_same s. exact Hi. }
      intros s1 a H1. destruct a; [|exact H1].
      destruct (on_rto_reactions cci s1) as [s2|] eqn:E; [|exact I].
      pose proof (on_rto_reactions_I _ _ E H1) as H2. cbn [stI]. i_same s2. exact H2.
    + pose proof (synced_iter (v_segs s) None) as Hsy. rewrite Eit in Hsy.
      pose proof (send_data_rule s (outgoing_header s) f 0%nat l Hi Hsy) as Hd.
      destruct (send_data _ _ f) as [s1 r|s1 e|]; cbn [stI]; auto.
      destruct r; cbn [stI].
      * destruct Hd as [H1 _]. cbv zeta.
        match goal with |- stI (match ?o with _ => _ end) => destruct o as [s2|] eqn:E end; [|exact I].
        assert (H2 : Iv s2).
        { destruct (negb _); [eapply on_rto_reactions_I; eauto | injection E as <-; exact H1]. }
        cbn [stI]. i_same s2. exact H2.
      * exact Hd.
      * apply J_E; [exact Hd | discriminate].
  - intros s1 ret H1. destruct ret; [exact H1|].
    destruct (0 <? _); [exact H1|]. destruct (ss_segs (v_segs s1)) eqn:Esg; [exact H1|].
    apply stI_bind.
    + (* the recovery part *)
      destruct (rv_phase _) as [rp|d|rc]; try exact H1.
      apply stI_bind.
      { apply (recovery_loop_rule _ s1 _ _ _ 0%nat); [exact H1|].
        apply synced_take_while, synced_skip_while, synced_firstn, synced_iter. }
      intros s2 [st early] H2. cbv beta iota zeta.
      assert (H2' : forall rc', Iv (set_recovering s2 rc')) by (intro rc'; unfold set_recovering; i_same s2; exact H2).
      destruct early; [apply H2'|].
      match goal with |- stI (match our_fin_if_unacked (v_state ?y) with _ => _ end) =>
        assert (F3 : Iv y); [|revert F3; generalize y; intros sy F3] end.
      { destruct (_ <? _); [|apply H2']. destruct (rc_recalc _).
        - match goal with |- Iv (set_t_recovery_pipe ?a _) => i_same a; apply H2' end.
        - destruct (0 <? _); [|apply H2'].
          match goal with |- Iv (set_t_recovery_pipe ?a _) => i_same a; apply H2' end. }
      destruct (our_fin_if_unacked _); [destruct (_ =? _)|]; cbn [stI]; auto.
      unfold set_recovering. i_same sy. exact F3.
    + (* never-sent data *)
      intros s2 ret H2. destruct ret; [exact H2|].
      match goal with |- stI (sbind (new_data_loop ?it ?st ?h ?rem) _) =>
        pose proof (new_data_loop_rule it st h rem 0%nat H2 (synced_iter _ _)) as Hn;
        destruct (new_data_loop it st h rem) as [s3 tl|s3 e|] end; cbn [sbind stN stI] in *; auto.
      destruct tl as [[sq sz]|]; [|exact Hn].
      destruct (pop_mtu_probe _ _) as [segs' popped] eqn:Ep. destruct popped; cbn [stI].
      * eapply I_pop; eauto.
      * apply J_E; [exact Hn | discriminate].
Qed.

End SendRule.


(* ================================================================== a rule for the incoming path *)
Section PimRule.
Variable Iv : vsock -> Prop.
Hypothesis I_fpr : forall s s', fpr s s' -> Iv s -> Iv s'.
(* taking a message from the inbox; the channel-closed arm *)
Hypothesis I_inbox : forall (s : vsock) l, Iv s -> Iv (set_inbox s l).
(* the bookkeeping after an acknowledgement: RTO counter and two timers *)
Hypothesis I_prog : forall (s : vsock) c tr ti, Iv s ->
  Iv (set_t_inactivity (set_t_retransmit (set_rto_retransmissions s c) tr) ti).
Hypothesis I_ack : forall (s1 s2 : vsock) h res, Iv s1 -> pim_ack cci s1 h = Some (s2, res) -> Iv s2.
Hypothesis I_calc : forall (s3 : vsock) rc hd rtt now segs' p recalc,
  Iv s3 -> rv_phase (v_recovery s3) = Recovering rc ->
  calc_pipe (v_segs s3) (rc_high_rxt rc) hd rtt now = Some (segs', p, recalc) ->
  Iv (set_recovering (VSockRec.set_segs s3 segs')
        {| rc_recovery_point := rc_recovery_point rc; rc_high_rxt := rc_high_rxt rc;
           rc_total_retx := rc_total_retx rc; rc_pipe := p; rc_recalc := recalc;
           rc_cwnd := rc_cwnd rc |}).

Definition spI {X} (m : step X) : Prop :=
  match m with SOk s' _ => Iv s' | SErr s' e => Iv s' /\ nmax e | SPanic => True end.

Lemma spI_bind : forall X Y (m : step X) (k : vsock -> X -> step Y),
  spI m -> (forall s1 a, Iv s1 -> spI (k s1 a)) -> spI (sbind m k).
Proof. intros X Y m k Hm Hk. destruct m as [s1 a|s1 e|]; cbn [sbind spI] in *; auto. Qed.

Lemma sfp_spI : forall X (s : vsock) (m : step X), Iv s -> sfp s m -> spI m.
Proof.
  intros X s m Hi H. destruct m; cbn [sfp spI] in *; auto.
  - eapply I_fpr; eauto.
  - destruct H as [H1 H2]. split; [eapply I_fpr; eauto | exact H2].
Qed.

Lemma pim_msg_rule : forall (s : vsock) m, Iv s -> spI (process_incoming_message cci s m).
Proof.
  intros s m Hi. rewrite process_incoming_message_eq.
  destruct (state_table_fpr s (m_hdr m)) as [Ht He].
  destruct (state_table s (m_hdr m)) as [s1|s1 e|s1]; cbn [tbl_state] in Ht; cbn [spI].
  - eapply I_fpr; eauto.
  - split; [eapply I_fpr; eauto | exact He].
  - assert (H1 : Iv s1) by (eapply I_fpr; eauto).
    unfold pim_cont. destruct (pim_ack cci s1 (m_hdr m)) as [[s2 res]|] eqn:Ea; [|exact I].
    pose proof (I_ack _ _ _ _ H1 Ea) as H2. cbv zeta.
    destruct (ch_type (m_hdr m)); try exact H2.
    + eapply sfp_spI; [exact H2 | apply pim_data_fpr].
    + eapply sfp_spI; [exact H2 | apply pim_fin_fpr].
Qed.

Lemma recv_loop_rule : forall fuel (s : vsock) acc, Iv s -> spI (recv_loop cci fuel s acc).
Proof.
  assert (Hbase : forall (s : vsock) (acc : on_ack_result), Iv s ->
    spI (if v_inbox_closed s
         then sbind (maybe_send_fin (transition_to_fin_wait_1 s))
                    (fun s2 _ => SOk (set_state s2 Closed) (acc, true))
         else SOk (set_inbox_waker s true) (acc, false))).
  { intros s acc Hi. destruct (v_inbox_closed s).
    - apply spI_bind.
      + eapply sfp_spI; [eapply I_fpr; [apply transition_fpr | exact Hi] | apply maybe_send_fin_fpr].
      + intros s2 _ H2. cbn [spI]. eapply I_fpr; [|exact H2].
        apply fpr_same; try reflexivity. vsimpl_goal. cbn [rk]. apply rk_max.
    - cbn [spI]. eapply I_fpr; [|exact Hi]. fpr_leaf. }
  induction fuel as [|m0 fuel IH]; intros s acc Hi; cbn [recv_loop];
    destruct (v_inbox s) as [|m rest] eqn:Ei; try (apply Hbase; exact Hi); try exact I.
  apply spI_bind.
  - apply pim_msg_rule. apply I_inbox. exact Hi.
  - intros s1 r H1. destruct (_ || _); [exact H1 | apply IH; exact H1].
Qed.

Theorem pim_rule : forall s : vsock, Iv s -> spI (process_all_incoming_messages cci s).
Proof.
  intros s Hi. rewrite paim_eq. apply spI_bind; [apply recv_loop_rule; exact Hi|].
  intros s1 res H1. unfold paim_rest.
  match goal with |- spI (sbind ?m _) =>
    match m with context [acked_counts_as_sent ?x] => set (s2 := x) end end.
  assert (F2 : Iv s2).
  { subst s2. unfold restart_remote_inactivity_timer. destruct (_ || _); [|exact H1].
    destruct (ss_segs _); [destruct (our_fin_if_unacked _)|]; apply I_prog; exact H1. }
  clearbody s2.
  apply spI_bind.
  - destruct (0 <? _); [|exact F2].
    assert (F2' : Iv (acked_counts_as_sent s2)).
    { eapply I_fpr; [|exact F2]. unfold acked_counts_as_sent.
      destruct (seq_gt _ _ && seq_lt _ _); [fpr_leaf | apply fpr_refl]. }
    revert F2'. generalize (acked_counts_as_sent s2). intros s2' F2'.
    destruct (truncate_front _ _) as [tx1 tr].
    destruct tr; cbn [spI].
    + destruct (wake_writer tx1) as [tx2 w]. cbn [spI]. eapply I_fpr; [|exact F2']. unfold add_wakes. fpr_leaf.
    + split; [eapply I_fpr; [|exact F2']; fpr_leaf | discriminate].
  - intros s3 _ H3. destruct (rv_phase (v_recovery s3)) eqn:Eph; try exact H3.
    destruct (calc_pipe _ _ _ _ _) as [[[sg pp] rcl]|] eqn:Ec; [|exact I].
    cbn [spI]. eapply I_calc; eauto.
Qed.

End PimRule.

(* ================================================================== a property of the sent-status of every
   segment of the table survives everything but on_sent *)
Section SentPred.
Variable P : sent_status -> Prop.
Definition SP (l : list seg) : Prop := Forall (fun g => P (sg_sent g)) l.

Lemma SP_app : forall a b, SP (a ++ b) <-> SP a /\ SP b.
Proof. intros a b. unfold SP. apply Forall_app. Qed.

Lemma SP_firstn : forall n l, SP l -> SP (firstn n l).
Proof. intros n l H. rewrite <- (firstn_skipn n l) in H. apply SP_app in H. tauto. Qed.

Lemma SP_skipn : forall n l, SP l -> SP (skipn n l).
Proof. intros n l H. rewrite <- (firstn_skipn n l) in H. apply SP_app in H. tauto. Qed.

Lemma apply_sack_SP : forall l bits now a l' a', apply_sack l bits now a = (l', a') -> SP l -> SP l'.
Proof.
  induction l as [|x r IH]; intros bits now a l' a'; cbn [apply_sack].
  - intro H; injection H as <- _. auto.
  - destruct bits as [|b bs]; [intro H; injection H as <- _; auto|].
    destruct (negb (sg_delivered x) && b).
    + destruct (apply_sack r bs now _) as [r' a''] eqn:E. intro H; injection H as <- _.
      intro K. inversion K; subst. constructor; [exact H1 | eapply IH; eauto].
    + destruct (apply_sack r bs now a) as [r' a''] eqn:E. intro H; injection H as <- _.
      intro K. inversion K; subst. constructor; [exact H1 | eapply IH; eauto].
Qed.

Lemma strip_delivered_SP : forall l cnt bytes l' cnt' bytes',
  strip_delivered l cnt bytes = (l', cnt', bytes') -> SP l -> SP l'.
Proof.
  induction l as [|x r IH]; intros cnt bytes l' cnt' bytes'; cbn [strip_delivered].
  - intro H; injection H as <- _ _. auto.
  - destruct (sg_delivered x).
    + intros H K. inversion K; subst. eapply IH; eauto.
    + intro H; injection H as <- _ _. auto.
Qed.

Lemma sack_phase_SP : forall t rest a1 su now ack sk l' a' dp lse,
  sack_phase t rest a1 su now ack sk = (l', a', dp, lse) -> SP rest -> SP l'.
Proof.
  intros t rest a1 su now ack sk l' a' dp lse. unfold sack_phase.
  destruct rest as [|x xs]; [intro H; injection H as <- _ _ _; auto|].
  destruct sk as [k|]; [|intro H; injection H as <- _ _ _; auto].
  destruct (seq_gt su ack); [|intro H; injection H as <- _ _ _; auto].
  set (rest := x :: xs). set (so := seq_sub (wadd16 ack 2) su).
  destruct (0 <=? so).
  - destruct (apply_sack (skipn (Z.to_nat so) rest) _ now _) as [tl' a''] eqn:E.
    intro H; injection H as <- _ _ _. intro K. apply SP_app. split; [apply SP_firstn; exact K|].
    eapply apply_sack_SP; [exact E | apply SP_skipn; exact K].
  - destruct (apply_sack rest _ now _) as [l2 a''] eqn:E.
    intro H; injection H as <- _ _ _. eapply apply_sack_SP; exact E.
Qed.

Lemma remove_up_to_ack_SP : forall t now ack sk t' r,
  remove_up_to_ack t now ack sk = (t', r) -> SP (ss_segs t) -> SP (ss_segs t').
Proof.
  intros t now ack sk t' r. unfold remove_up_to_ack.
  set (dc := if 0 <=? seq_sub ack (ss_snd_una t) then _ else 0%nat).
  destruct (sack_phase t (skipn dc (ss_segs t)) _ _ now ack sk) as [[[rest2 a2] dp] lse] eqn:E2.
  destruct (strip_delivered rest2 0 0) as [[rest3 cnt3] bytes3] eqn:E3.
  intro H; injection H as <- _. cbn [ss_segs]. intro K.
  eapply strip_delivered_SP; [exact E3|]. eapply sack_phase_SP; [exact E2|]. apply SP_skipn. exact K.
Qed.

Lemma pipe_loop_SP : forall l t hr th now a l' a',
  pipe_loop l t hr th now a = (l', a') -> SP (map snd l) -> SP l'.
Proof.
  induction l as [|[off x] r IH]; intros t hr th now a l' a'; cbn [pipe_loop].
  - intro H; injection H as <- _. auto.
  - cbn [map snd]. destruct (seg_last_sent x).
    + destruct (sg_delivered x).
      * destruct (pipe_loop r t hr th now _) as [r' a''] eqn:E. intro H; injection H as <- _.
        intro K. inversion K; subst. constructor; [exact H1 | eapply IH; eauto].
      * destruct (pipe_loop r t hr th now _) as [r' a''] eqn:E. intro H; injection H as <- _.
        intro K. inversion K; subst. constructor; [exact H1 | eapply IH; eauto].
    + destruct (pipe_loop r t hr th now a) as [r' a''] eqn:E. intro H; injection H as <- _.
      intro K. inversion K; subst. constructor; [exact H1 | eapply IH; eauto].
Qed.

Lemma SP_rev : forall l, SP l -> SP (rev l).
Proof. intros l H. unfold SP in *. apply Forall_rev. exact H. Qed.

Lemma calc_pipe_SP : forall t hr hd rtt now t' p rc,
  calc_pipe t hr hd rtt now = Some (t', p, rc) -> SP (ss_segs t) -> SP (ss_segs t').
Proof.
  intros t hr hd rtt now t' p rc. unfold calc_pipe. destruct (_ <? _); [discriminate|].
  set (n := Z.to_nat _).
  destruct (pipe_loop _ t hr _ now _) as [upd a] eqn:E. intro H; injection H as <- _ _.
  cbn [Segments.set_segs ss_segs]. intro K. apply SP_app. split; [|apply SP_skipn; exact K].
  apply SP_rev. eapply pipe_loop_SP; [exact E|].
  rewrite map_rev, enum_from_snd. apply SP_rev, SP_firstn. exact K.
Qed.

Lemma recovery_on_ack_SP : forall r h segs ls cc now rtt r' segs' cc',
  recovery_on_ack cci r h segs ls cc now rtt = Some (r', segs', cc') -> SP (ss_segs segs) -> SP (ss_segs segs').
Proof.
  intros r h segs ls cc now rtt r' segs' cc'. unfold recovery_on_ack. cbv zeta.
  cbn [rv_phase rv_supports_sack rv_last_ack]. intros H K.
  destruct (rv_phase r).
  - destruct (seq_ge _ _); injection H as _ <- _; auto.
  - destruct (ss_segs segs) eqn:Es; [injection H as _ <- _; rewrite Es; auto|]. rewrite <- Es in *.
    match type of H with (match ?c with _ => _ end) = _ => destruct c as [[dup' la']|] end; [|discriminate].
    destruct (dup' <? SACK_DUP_THRESH); [injection H as _ <- _; auto|].
    destruct (calc_pipe _ _ _ _ _) as [[[sg pipe] recalc]|] eqn:Ec; [|discriminate].
    injection H as _ <- _. eapply calc_pipe_SP; eauto.
  - destruct (seq_ge _ _); injection H as _ <- _; auto.
Qed.

Lemma pim_ack_SP : forall (s1 s2 : vsock) h res,
  pim_ack cci s1 h = Some (s2, res) -> SP (ss_segs (v_segs s1)) ->
  SP (ss_segs (v_segs s2)) /\ v_opts s2 = v_opts s1 /\ v_out s2 = v_out s1 /\ v_now s2 = v_now s1 /\
  v_env_now s2 = v_env_now s1.
Proof.
  intros s1 s2 h res H K. destruct (pim_ack_shape cci _ _ _ _ H) as (segs1 & rtte1 & cc3 & rec1 & segs2 & cc4 & Er & Ero & ->).
  vsimpl_goal. repeat split.
  eapply recovery_on_ack_SP; [exact Ero|]. eapply remove_up_to_ack_SP; eauto.
Qed.

Lemma popped_SP : forall t t', popped t t' -> SP (ss_segs t) -> SP (ss_segs t').
Proof.
  intros t t' [->|(init & x & E & _ & ->)] K; [exact K|].
  cbn [Segments.set_segs ss_segs]. rewrite E in K. apply SP_app in K. tauto.
Qed.

Hypothesis P_unsent : P NotSent.

Lemma enqueue_SP : forall t len p, SP (ss_segs t) -> SP (ss_segs (enqueue t len p)).
Proof.
  intros t len p K. unfold enqueue. cbn [Segments.set_segs ss_segs]. apply SP_app. split; [exact K|].
  constructor; [exact P_unsent | constructor].
Qed.

End SentPred.

(* ================================================================== the retry cap: no segment of the table
   shows more retransmissions than configured; the error exit of the cap shows a segment at the cap *)
Definition capP (mx : Z) (st : sent_status) : Prop :=
  0 <= match st with Retransmitted c _ => c | _ => 0 end <= mx.

Definition CAP (s : vsock) : Prop :=
  SP (capP (o_max_retx (v_opts s))) (ss_segs (v_segs s)) /\ 0 <= o_max_retx (v_opts s).

Definition MAXW (s : vsock) : Prop :=
  exists g, In g (ss_segs (v_segs s)) /\ seg_retransmit_count g = o_max_retx (v_opts s) /\
            sg_delivered g = false.

Definition ECAP (s : vsock) (e : verror) : Prop :=
  CAP s /\ (e = ErrMaxRetransmissionsReached -> MAXW s).

Lemma CAP_eq : forall s s' : vsock, v_segs s' = v_segs s -> v_opts s' = v_opts s -> CAP s -> CAP s'.
Proof. intros s s' E1 E2. unfold CAP. rewrite E1, E2. auto. Qed.

Lemma MAXW_eq : forall s s' : vsock, v_segs s' = v_segs s -> v_opts s' = v_opts s -> MAXW s -> MAXW s'.
Proof. intros s s' E1 E2. unfold MAXW. rewrite E1, E2. auto. Qed.

Lemma CAP_fpw : forall s s', fpw s s' -> CAP s -> CAP s'.
Proof. intros s s' (E1 & E2 & _). apply CAP_eq; assumption. Qed.

Lemma CAP_fpr : forall s s', fpr s s' -> CAP s -> CAP s'.
Proof. intros s s' H. apply CAP_fpw, fpr_fpw, H. Qed.

Lemma Forall_update_nth : forall A (Q : A -> Prop) (phi : A -> A) l i,
  Forall Q l -> (forall x, nth_error l i = Some x -> Q (phi x)) -> Forall Q (update_nth l i phi).
Proof.
  intros A Q phi. induction l as [|y ys IH]; intros [|i] H K; cbn [update_nth]; auto.
  - inversion H; subst. constructor; [apply K; reflexivity | assumption].
  - inversion H; subst. constructor; [assumption | apply IH; auto].
Qed.

Lemma CAP_sent : forall (s : vsock) h f s1 n rest,
  CAP s -> synced (ss_snd_una (v_segs s)) (ss_segs (v_segs s)) n (f :: rest) -> send_data s h f = SOk s1 SdSent -> CAP s1.
Proof.
  intros s h f s1 n rest [Hc H0] (_ & Hn & _ & _) E.
  pose proof (send_data_spec s h f) as Hd. rewrite E in Hd.
  destruct Hd as ((_ & _ & _ & _ & _ & F6 & _) & _ & Hsg & _ & _ & _ & Hne & _).
  unfold CAP. rewrite Hsg, F6. split; [|exact H0].
  unfold on_sent, Segments.set_segs. cbn [ss_segs]. apply Forall_update_nth; [exact Hc|].
  intros x Hx. rewrite Hn in Hx. injection Hx as <-.
  unfold SP in Hc. rewrite Forall_forall in Hc. specialize (Hc _ (nth_error_In _ _ Hn)).
  unfold capP, seg_on_sent, seg_retransmit_count in *. cbn [sg_sent].
  destruct (sg_sent (fs_seg f)); lia.
Qed.

Lemma CAP_pop : forall (s : vsock) segs' q ss',
  CAP s -> pop_mtu_probe (v_segs s) q = (segs', true) ->
  CAP (set_restart (set_ss (VSockRec.set_segs s segs') ss') true).
Proof.
  intros s segs' q ss' [Hc H0] E. unfold CAP. vsimpl_goal. split; [|exact H0].
  eapply popped_SP; [eapply pop_mtu_probe_popped; exact E | exact Hc].
Qed.

Lemma ECAP_max : forall (s : vsock) f n rest,
  CAP s -> synced (ss_snd_una (v_segs s)) (ss_segs (v_segs s)) n (f :: rest) ->
  seg_retransmit_count (fs_seg f) = o_max_retx (v_opts s) -> ECAP s ErrMaxRetransmissionsReached.
Proof.
  intros s f n rest Hc (_ & Hn & [Hd _] & _) Hm. split; [exact Hc|]. intros _.
  exists (fs_seg f). split; [eapply nth_error_In; exact Hn|]. auto.
Qed.

Lemma ECAP_of : forall s e, CAP s -> e <> ErrMaxRetransmissionsReached -> ECAP s e.
Proof. intros s e Hc Hn. split; [exact Hc | intro K; contradiction]. Qed.

Lemma stq_CAP : forall s : vsock, CAP s -> stI CAP ECAP (send_tx_queue cci s).
Proof.
  intros s Hc. apply (send_tx_queue_rule CAP CAP ECAP); try exact Hc.
  - exact CAP_fpw.
  - intros a h f a1 K E. pose proof (send_data_fpr_other a h f) as F. rewrite E in F.
    eapply CAP_fpr; eauto.
  - exact ECAP_of.
  - exact CAP_sent.
  - exact ECAP_of.
  - exact ECAP_max.
  - exact CAP_pop.
Qed.

Lemma pim_CAP : forall s : vsock, CAP s -> spI CAP (process_all_incoming_messages cci s).
Proof.
  intros s Hc. apply pim_rule; try exact Hc.
  - exact CAP_fpr.
  - intros a l K. eapply CAP_eq; [| |exact K]; reflexivity.
  - intros a c tr ti K. eapply CAP_eq; [| |exact K]; reflexivity.
  - intros s1 s2 h res [H1 H0] E. destruct (pim_ack_SP _ _ _ _ _ E H1) as (K1 & K2 & _).
    unfold CAP. rewrite K2. auto.
  - intros s3 rc hd rtt now segs' p recalc [H1 H0] _ E. unfold CAP, set_recovering. vsimpl_goal.
    split; [eapply calc_pipe_SP; eauto | exact H0].
Qed.

Lemma capP_unsent : forall mx, 0 <= mx -> capP mx NotSent.
Proof. intros mx H. unfold capP. lia. Qed.

Lemma split_CAP : forall s : vsock,
  stR (fun a b : vsock => CAP a -> CAP b) s (split_tx_queue_into_segments cci s).
Proof.
  apply split_stR; auto; try (intros; eapply CAP_eq; [| |eassumption]; reflexivity).
  - intros s segs1 E [F F0]. split; [|exact F0]. eapply popped_SP; eauto.
  - intros s rem ss' segs' rem' E [F F0]. split; [|exact F0].
    eapply (segment_loop_kept (fun t => SP (capP (o_max_retx (v_opts s))) (ss_segs t))); [|exact E | exact F].
    intros t len p. apply enqueue_SP, capP_unsent. exact F0.
Qed.

Lemma jbd_CAP : forall (s : vsock) e, CAP s -> CAP (just_before_death s e).
Proof.
  intros s e. destruct (jbd_kp s e) as (K & _). destruct (VSock_Lemmas.just_before_death_frame s e) as (F & _).
  apply CAP_eq; assumption.
Qed.

Lemma jbd_MAXW : forall (s : vsock) e, MAXW s -> MAXW (just_before_death s e).
Proof.
  intros s e. destruct (jbd_kp s e) as (K & _). destruct (VSock_Lemmas.just_before_death_frame s e) as (F & _).
  apply MAXW_eq; assumption.
Qed.

Lemma sfp_stH_CAP : forall X (s : vsock) (m : step X), CAP s -> sfp s m -> stH CAP ECAP CAP m.
Proof.
  intros X s m Hc H. destruct m as [s' a|s' e|]; cbn [sfp stH] in *; auto.
  - split; intros _; eapply CAP_fpr; eauto.
  - destruct H as [H1 H2]. apply ECAP_of; [eapply CAP_fpr; eauto | exact H2].
Qed.

Lemma spI_stH_CAP : forall X (m : step X), spI CAP m -> stH CAP ECAP CAP m.
Proof.
  intros X m H. destruct m as [s' a|s' e|]; cbn [spI stH] in *; auto.
  destruct H as [H1 H2]. apply ECAP_of; assumption.
Qed.

(* CAP after every poll, whatever its result; the error exit of the cap shows a segment at the cap *)
Theorem poll_CAP : forall (s s' : vsock) r,
  CAP s -> poll cci s = (s', r) ->
  CAP s' /\ (r = PollReadyErr ErrMaxRetransmissionsReached -> MAXW s').
Proof.
  intros s s' r Hc H.
  assert (HR : resH CAP CAP CAP ECAP s' r).
  { apply (poll_H CAP CAP CAP CAP CAP CAP CAP ECAP) with (s := s); try exact H.
    - intros a K. eapply CAP_eq; [| |exact K]; reflexivity.
    - intros a K _. eapply sfp_stH_CAP; [exact K | apply maybe_send_syn_ack_fpr].
    - intros a K _. eapply sfp_stH_CAP; [exact K | apply send_ack_fpr].
    - intros a K _. apply spI_stH_CAP, pim_CAP. exact K.
    - intros a rx1 fb w K _ _. eapply CAP_eq; [| |exact K]; reflexivity.
    - intros a K. apply ECAP_of; [exact K | discriminate].
    - intros a K _. pose proof (split_CAP a) as S. pose proof (VSock_PollTx.split_err cci a) as Se.
      destruct (split_tx_queue_into_segments cci a) as [b u|b e|]; cbn [stB stR] in *; auto.
      apply ECAP_of; [auto | rewrite (Se b e eq_refl); discriminate].
    - intros a K _ _. pose proof (stq_CAP a K) as S.
      destruct (send_tx_queue cci a); cbn [stI stQ] in *; auto.
    - intros a K _. eapply CAP_fpr; [apply transition_fpr | exact K].
    - intros a K _. eapply sfp_stH_CAP; [exact K | apply maybe_send_fin_fpr].
    - intros a K _. eapply sfp_stH_CAP; [exact K | apply maybe_send_ack_fpr].
    - eapply CAP_eq; [| |exact Hc]; reflexivity. }
  destruct r; cbn [resH] in HR.
  - split; [|discriminate]. destruct HR as [[_ K]|(sb & K & _ & _ & _ & ->)]; [exact K|].
    eapply CAP_fpr; [apply poll_tail_fpr | exact K].
  - split; [|discriminate]. destruct HR as (sb & K & _ & ->). apply jbd_CAP. exact K.
  - destruct HR as (sb & [K1 K2] & ->). split; [apply jbd_CAP; exact K1|].
    intro E. injection E as ->. apply jbd_MAXW. apply K2. reflexivity.
  - split; [exact HR | discriminate].
Qed.

(* ================================================================== what the segmentation and the ACK
   processing keep besides the table: the datagrams, the clocks, the transport script, the restart flag *)
Definition skr (s s' : vsock) : Prop :=
  v_out s' = v_out s /\ v_opts s' = v_opts s /\ v_now s' = v_now s /\ v_env_now s' = v_env_now s /\
  v_emsg_limit s' = v_emsg_limit s /\ v_restart s' = v_restart s /\ v_sends s' = v_sends s.

Lemma skr_refl : forall s, skr s s. Proof. intro s. unfold skr. repeat split. Qed.
Lemma skr_trans : forall a b c, skr a b -> skr b c -> skr a c.
Proof.
  unfold skr. intros a b c (A1 & A2 & A3 & A4 & A5 & A6 & A7) (B1 & B2 & B3 & B4 & B5 & B6 & B7).
  repeat split; congruence.
Qed.
Ltac skr_leaf := unfold skr; repeat split; reflexivity.

Lemma split_skr : forall s : vsock, stR skr s (split_tx_queue_into_segments cci s).
Proof. apply (split_stR skr skr_refl skr_trans); intros; skr_leaf. Qed.

Lemma pim_ack_skr : forall (s1 s2 : vsock) h res, pim_ack cci s1 h = Some (s2, res) -> skr s1 s2.
Proof.
  intros s1 s2 h res H. destruct (pim_ack_shape cci _ _ _ _ H) as (segs1 & rtte1 & cc3 & rec1 & segs2 & cc4 & Er & Ero & ->). skr_leaf.
Qed.

(* ================================================================== the transport never answers EMSGSIZE *)
Definition EF (s : vsock) : Prop := VSock_Inv.emsg_free s.

Lemma script_legit_skipn : forall k l, C10_Pred.script_legit l = true -> C10_Pred.script_legit (skipn k l) = true.
Proof.
  unfold C10_Pred.script_legit. induction k as [|k IH]; intros [|x xs] H; cbn [skipn]; auto.
  cbn [forallb] in H. apply andb_true_iff in H. apply IH. tauto.
Qed.

Lemma EF_fpr : forall s s', fpw s s' -> EF s -> EF s'.
Proof.
  intros s s' (_ & _ & _ & _ & E5 & _ & (k & E7) & _) [H1 H2]. unfold EF, VSock_Inv.emsg_free.
  rewrite E5, E7. split; [apply script_legit_skipn; exact H1 | exact H2].
Qed.

Lemma EF_skr : forall s s', skr s s' -> EF s -> EF s'.
Proof.
  intros s s' (_ & _ & _ & _ & E5 & _ & E7) H. unfold EF, VSock_Inv.emsg_free in *. rewrite E5, E7. exact H.
Qed.

(* a transmission: the script is only consumed *)
Lemma send_data_script : forall (s : vsock) h f,
  match send_data s h f with
  | SOk s1 r => v_emsg_limit s1 = v_emsg_limit s /\ (exists k, v_sends s1 = skipn k (v_sends s)) /\
                v_env_now s1 = v_env_now s /\ (EF s -> r <> SdEmsgsize)
  | _ => True
  end.
Proof.
  intros s h f. unfold send_data.
  destruct (_ =? o_max_retx _); [exact I|].
  destruct (_ <? 0); [exact I|].
  destruct (_ <? fs_payload_offset f); [exact I|].
  destruct (_ <? _ + _); [exact I|].
  destruct (next_send s _) as [s1 o] eqn:E.
  destruct (VSock_Inv.next_send_shape _ _ _ _ E) as [Hsh Hne].
  assert (K : v_emsg_limit s1 = v_emsg_limit s /\ (exists k, v_sends s1 = skipn k (v_sends s)) /\
              v_env_now s1 = v_env_now s).
  { destruct Hsh as [[-> _]|(o0 & r & Hs & ->)].
    - repeat split. exists 0%nat. reflexivity.
    - vsimpl_goal. repeat split. exists 1%nat. rewrite Hs. reflexivity. }
  destruct K as (K1 & K2 & K3).
  destruct o; try exact I.
  - cbv zeta. unfold on_packet_sent, emit.
    destruct (seq_gt _ _); [destruct (seq_gt _ _)|]; vsimpl_goal; repeat split; auto; discriminate.
  - vsimpl_goal. repeat split; auto. discriminate.
  - repeat split; auto. intros He _. apply (Hne He). reflexivity.
Qed.

Lemma EF_send : forall (s : vsock) h f s1 r, EF s -> send_data s h f = SOk s1 r -> EF s1 /\ r <> SdEmsgsize.
Proof.
  intros s h f s1 r [L1 L2] E. pose proof (send_data_script s h f) as Hs. rewrite E in Hs.
  destruct Hs as (S1 & (k & S2) & _ & Hne). split; [|apply Hne; split; assumption].
  unfold EF, VSock_Inv.emsg_free. rewrite S1, S2. split; [apply script_legit_skipn; exact L1 | exact L2].
Qed.

(* ================================================================== every ST_DATA of the poll names a live
   segment of the table: in the table, not delivered, sent, of that payload size, (re)transmitted at this
   poll's clock *)
Definition live_pkt (s : vsock) (p : packet) : Prop :=
  ch_type (p_hdr p) = ST_DATA ->
  exists j g, nth_error (ss_segs (v_segs s)) j = Some g /\
    ch_seq (p_hdr p) = wadd16 (ss_snd_una (v_segs s)) (Z.of_nat j mod M16) /\
    sg_delivered g = false /\ sg_sent g <> NotSent /\
    sg_size g = Z.of_nat (length (p_payload p)) /\ seg_last_sent g = Some (v_now s).

Definition OUT (s : vsock) : Prop := Forall (live_pkt s) (v_out s).
Definition SZ (s : vsock) : Prop := Forall (fun g => 0 <= sg_size g) (ss_segs (v_segs s)).

Lemma nodata_live : forall (s : vsock) p, nodata p -> live_pkt s p.
Proof. intros s p H K. contradiction. Qed.

Lemma OUT_fpr : forall s s', fpw s s' -> OUT s -> OUT s'.
Proof.
  intros s s' (E1 & _ & E3 & _ & _ & _ & _ & l & E8 & E9) H. unfold OUT. rewrite E8.
  apply Forall_app. split.
  - eapply Forall_impl; [|exact E9]. intros p Hp. apply nodata_live. exact Hp.
  - eapply Forall_impl; [|exact H]. intros p Hp. unfold live_pkt. rewrite E1, E3. exact Hp.
Qed.

Lemma nodata_OUT : forall s : vsock, Forall nodata (v_out s) -> OUT s.
Proof. intros s H. unfold OUT. eapply Forall_impl; [|exact H]. intros p Hp. apply nodata_live. exact Hp. Qed.

Lemma seg_inv_SZ : forall s : vsock, seg_inv (v_segs s) -> SZ s.
Proof.
  intros s (_ & _ & Ht & _). unfold SZ. apply Forall_forall. intros g Hg.
  destruct (VSock_Inv.tiled_in _ _ _ Ht Hg) as (_ & _ & H). exact H.
Qed.

(* the invariant of send_tx_queue in the strict regime *)
Definition IO (s : vsock) : Prop :=
  EF s /\ v_restart s = false /\ NW s /\ OUT s /\ SZ s.

Lemma IO_fpr : forall s s', fpw s s' -> IO s -> IO s'.
Proof.
  intros s s' F (H1 & H2 & H3 & H4 & H5).
  pose proof F as (E1 & _ & E3 & E4 & _ & E6 & _).
  split; [eapply EF_fpr; eauto|]. split; [congruence|]. split; [unfold NW in *; congruence|].
  split; [eapply OUT_fpr; eauto|]. unfold SZ. rewrite E1. exact H5.
Qed.

Lemma seg_on_sent_last : forall g now, seg_last_sent (seg_on_sent g now) = Some now.
Proof. intros g now. unfold seg_last_sent, seg_on_sent. cbn [sg_sent]. destruct (sg_sent g); reflexivity. Qed.

Lemma seg_on_sent_sent : forall g now, sg_sent (seg_on_sent g now) <> NotSent.
Proof. intros g now. unfold seg_on_sent. cbn [sg_sent]. destruct (sg_sent g); discriminate. Qed.

Lemma IO_sent : forall (s : vsock) h f s1 n rest,
  IO s -> synced (ss_snd_una (v_segs s)) (ss_segs (v_segs s)) n (f :: rest) ->
  send_data s h f = SOk s1 SdSent -> IO s1.
Proof.
  intros s h f s1 n rest (H1 & H2 & H3 & H4 & H5) (_ & Hn & [Hdl Hsq] & _) E.
  pose proof (send_data_spec s h f) as Hd. rewrite E in Hd.
  pose proof (send_data_script s h f) as Hs. rewrite E in Hs.
  destruct Hd as (Hf & Ho & Hsg & _ & _ & _ & _ & Hoff & Hb).
  destruct Hs as (_ & _ & S3 & _).
  assert (Hf' := Hf). destruct Hf' as (_ & _ & _ & _ & _ & _ & F7 & _ & _ & _ & F11 & _).
  assert (Hsz : 0 <= sg_size (fs_seg f)).
  { unfold SZ in H5. rewrite Forall_forall in H5. apply H5. eapply nth_error_In; exact Hn. }
  split; [exact (proj1 (EF_send s h f s1 _ H1 E))|].
  split; [congruence|]. split; [unfold NW in *; congruence|].
  split.
  - unfold OUT. rewrite Ho. constructor.
    + intros _. exists (fs_idx f), (seg_on_sent (fs_seg f) (v_now s)).
      rewrite Hsg, F7. unfold on_sent, Segments.set_segs. cbn [ss_segs ss_snd_una].
      split; [rewrite nth_error_update_nth, Nat.eqb_refl, Hn; reflexivity|].
      split; [exact Hsq|]. split; [exact Hdl|]. split; [apply seg_on_sent_sent|].
      split; [|apply seg_on_sent_last].
      unfold data_pkt, data_payload, seg_on_sent. cbn [p_payload sg_size].
      rewrite firstn_length, skipn_length. lia.
    + eapply Forall_impl; [|exact H4]. intros p Hp Ht. destruct (Hp Ht) as (j & g & A1 & A2 & A3 & A4 & A5 & A6).
      rewrite Hsg, F7. unfold on_sent, Segments.set_segs. cbn [ss_segs ss_snd_una].
      destruct (Nat.eqb_spec (fs_idx f) j) as [Ej|Ej].
      * exists j, (seg_on_sent g (v_now s)).
        split; [rewrite nth_error_update_nth; subst j; rewrite Nat.eqb_refl, A1; reflexivity|].
        split; [exact A2|]. split; [exact A3|]. split; [apply seg_on_sent_sent|].
        split; [exact A5 | apply seg_on_sent_last].
      * exists j, g. split; [rewrite nth_error_update_nth|]; auto.
        destruct (Nat.eqb_spec (fs_idx f) j); [contradiction | exact A1].
  - unfold SZ. rewrite Hsg. unfold on_sent, Segments.set_segs. cbn [ss_segs].
    apply Forall_update_nth; [exact H5|]. intros x Hx. unfold SZ in H5. rewrite Forall_forall in H5.
    apply (H5 x). eapply nth_error_In; exact Hx.
Qed.

(* the stage before send_tx_queue *)
Definition IA (s : vsock) : Prop :=
  EF s /\ v_restart s = false /\ NW s /\ Forall nodata (v_out s).

Lemma IA_fpr : forall s s', fpr s s' -> IA s -> IA s'.
Proof.
  intros s s' F0 (H1 & H2 & H3 & H4). pose proof (fpr_fpw _ _ F0) as F.
  pose proof F as (_ & _ & E3 & E4 & _ & E6 & _ & l & E8 & E9).
  split; [eapply EF_fpr; eauto|]. split; [congruence|]. split; [unfold NW in *; congruence|].
  rewrite E8. apply Forall_app. split; assumption.
Qed.

Lemma IA_skr : forall s s', skr s s' -> IA s -> IA s'.
Proof.
  intros s s' K (H1 & H2 & H3 & H4). pose proof K as (E1 & _ & E3 & E4 & _ & E6 & _).
  split; [eapply EF_skr; eauto|]. split; [congruence|]. split; [unfold NW in *; congruence|].
  rewrite E1. exact H4.
Qed.

(* ================================================================== the joint relation of ring and table,
   after every Pending poll:  bytes truncated from the ring = bytes the table dropped as acknowledged,
   and bytes truncated + bytes in the ring = bytes ever accepted from the writer *)
Definition JQ (s : vsock) : Prop := g_removed (v_tx s) = ss_removed (v_segs s).
Definition TW (s : vsock) : Z := g_removed (v_tx s) + Z.of_nat (length (ring (v_tx s))).
Definition JI (w : Z) (s : vsock) : Prop := LB 0 s /\ JQ s /\ TW s = w.

(* the numbers JQ and TW read are untouched *)
Definition jq (s s' : vsock) : Prop :=
  g_removed (v_tx s') = g_removed (v_tx s) /\ ring (v_tx s') = ring (v_tx s) /\
  ss_removed (v_segs s') = ss_removed (v_segs s).
Lemma jq_refl : forall s, jq s s. Proof. intro s. repeat split; reflexivity. Qed.
Lemma jq_trans : forall a b c, jq a b -> jq b c -> jq a c.
Proof. unfold jq. intros a b c (A1 & A2 & A3) (B1 & B2 & B3). repeat split; congruence. Qed.
Lemma JQ_jq : forall s s', jq s s' -> JQ s -> JQ s'.
Proof. unfold jq, JQ. intros s s' (A1 & A2 & A3) H. congruence. Qed.
Lemma TW_jq : forall s s', jq s s' -> TW s' = TW s.
Proof. unfold jq, TW. intros s s' (A1 & A2 & A3). rewrite A1, A2. reflexivity. Qed.

Lemma txf_kp_jq : forall A (s : vsock) (m : step A), stR txf s m -> skp s m -> stR jq s m.
Proof.
  intros A s m H K. destruct m as [s' a|s' e|]; cbn [stR skp] in *; auto.
  - destruct H as (_ & Ht & _). destruct K as (Ks & _). unfold jq. rewrite Ht, Ks. auto.
  - destruct H as (_ & Ht & _). destruct K as (Ks & _). unfold jq. rewrite Ht, Ks. auto.
Qed.

Lemma popped_removed : forall t t', popped t t' -> ss_removed t' = ss_removed t.
Proof. intros t t' [->|(init & x & _ & _ & ->)]; reflexivity. Qed.

Lemma stq_jq : forall s : vsock, stR jq s (send_tx_queue cci s).
Proof.
  intro s. pose proof (send_tx_queue_txf cci s) as T.
  pose proof (send_tx_queue_sgp Z ss_removed (fun _ _ _ => eq_refl) popped_removed s) as G.
  destruct (send_tx_queue cci s) as [s' a|s' e|]; cbn [stR] in *; auto.
  - destruct T as (_ & Ht & _). unfold jq. rewrite Ht. repeat split; try reflexivity; exact G.
  - destruct T as (_ & Ht & _). unfold jq. rewrite Ht. repeat split; try reflexivity; exact G.
Qed.

Lemma split_jq : forall s : vsock, stR jq s (split_tx_queue_into_segments cci s).
Proof.
  apply (split_stR jq jq_refl jq_trans); try (intros; repeat split; reflexivity).
  - intros s tx G1 G2. repeat split; assumption.
  - intros s segs1 E. repeat split. apply popped_removed; exact E.
  - intros s rem ss' segs' rem' E. repeat split.
    exact (segment_loop_kept (fun t => ss_removed t = ss_removed (v_segs s)) (fun _ _ _ H => H)
             _ _ _ _ _ _ _ _ _ E eq_refl).
Qed.

(* JI through every function of a poll (the states that matter: SOk) *)
Definition jiR (w : Z) (s s' : vsock) : Prop := JI w s -> JI w s'.
Lemma jiR_refl : forall w s, jiR w s s. Proof. intros w s H; exact H. Qed.
Lemma jiR_trans : forall w a b c, jiR w a b -> jiR w b c -> jiR w a c.
Proof. intros w a b c H1 H2 H. auto. Qed.

Lemma jiR_of : forall w A (s : vsock) (m : step A),
  (LB 0 s -> sLB 0 m) -> stR jq s m -> stRk (jiR w) s m.
Proof.
  intros w A s m HL HJ. destruct m as [s' a|s' e|]; cbn [stRk stR sLB] in *; auto.
  intros (L & Q & T). split; [apply HL; exact L|]. split; [eapply JQ_jq; eauto|].
  rewrite (TW_jq _ _ HJ). exact T.
Qed.

Lemma JI_joint : forall w (s : vsock), JI w s -> joint_rel 0 s.
Proof.
  intros w s ((A & B & C & D) & Q & _). unfold joint_rel, JQ in *.
  split; [exact A|]. split; [lia|]. rewrite (seg_len_eq _ A) in D. lia.
Qed.

Lemma paim_rest_TW : forall (s1 : vsock) r s' u,
  0 <= ar_acked_bytes r -> paim_rest s1 r = SOk s' u -> TW s' = TW s1.
Proof.
  intros s1 r s' u Hr. unfold paim_rest.
  match goal with |- sbind ?m _ = _ -> _ =>
    match m with context [acked_counts_as_sent ?x] => set (s2 := x) end end.
  assert (F2 : v_tx s2 = v_tx s1).
  { subst s2. unfold restart_remote_inactivity_timer. repeat break_match; reflexivity. }
  clearbody s2.
  assert (Hfin : forall s3 : vsock, TW s3 = TW s1 ->
    (match rv_phase (v_recovery s3) with
     | Recovering rc =>
         match calc_pipe (v_segs s3) (rc_high_rxt rc) (v_last_sent_seq_nr s3)
                         (roundtrip_time (v_rtte s3)) (v_now s3) with
         | None => SPanic
         | Some (segs', pipe, recalc) =>
             SOk (set_recovering (VSockRec.set_segs s3 segs')
                    {| rc_recovery_point := rc_recovery_point rc; rc_high_rxt := rc_high_rxt rc;
                       rc_total_retx := rc_total_retx rc; rc_pipe := pipe; rc_recalc := recalc;
                       rc_cwnd := rc_cwnd rc |}) tt
         end
     | _ => SOk s3 tt
     end) = SOk s' u -> TW s' = TW s1).
  { intros s3 H3. destruct (rv_phase (v_recovery s3)); try (intro H; inversion H; subst; exact H3).
    destruct (calc_pipe _ _ _ _ _) as [[[sg pp] rcl]|]; [|discriminate].
    intro H; inversion H; subst. exact H3. }
  destruct (0 <? ar_acked_segments r).
  - assert (F2' : v_tx (acked_counts_as_sent s2) = v_tx s1).
    { unfold acked_counts_as_sent. destruct (seq_gt _ _ && seq_lt _ _); exact F2. }
    revert F2'. generalize (acked_counts_as_sent s2). intros s2' F2'.
    unfold truncate_front. cbv zeta.
    destruct (_ =? _); [|discriminate].
    unfold wake_writer. cbn [sbind]. apply Hfin.
    unfold TW, add_wakes. vsimpl_goal. cbn [ring g_removed upd]. rewrite F2', skipn_length.
    pose proof (Zle_0_nat (length (ring (v_tx s1)))). lia.
  - cbn [sbind]. apply Hfin. unfold TW. rewrite F2. reflexivity.
Qed.

Lemma pim_jiR : forall w (s : vsock), stRk (jiR w) s (process_all_incoming_messages cci s).
Proof.
  intros w s.
  pose proof (process_all_LB cci s) as HL.
  destruct (process_all_incoming_messages cci s) as [s' u|s' e|] eqn:E; cbn [stRk]; auto.
  intros HJ. pose proof (JI_joint w s HJ) as J0. destruct HJ as (L & Q & T). split; [exact (HL L)|].
  pose proof E as E2. rewrite paim_eq in E2.
  unfold process_all_incoming_messages in E.
  destruct (recv_loop cci (v_inbox s ++ [ {| m_hdr := outgoing_header s; m_payload := [] |} ]) s
              on_ack_result_default) as [s1 [r early]|s1 e1|] eqn:El; cbn [sbind] in E, E2; try discriminate.
  pose proof (joint_inv_process_all cci s s1 r early J0 El) as K.
  unfold process_all_incoming_messages in K. rewrite El in K. cbn [sbind] in K. rewrite E in K.
  destruct K as (_ & K & _). split; [unfold JQ; lia|].
  assert (J0' : joint_rel (ar_acked_bytes on_ack_result_default) s) by exact J0.
  destruct (recv_loop_joint cci _ _ _ _ _ _ acc_ok_default J0' El) as ((_ & Hb & _) & _).
  cbn [fst] in E2. rewrite (paim_rest_TW s1 r s' u Hb E2).
  assert (Hl : step_st (recv_loop cci (v_inbox s ++ [ {| m_hdr := outgoing_header s; m_payload := [] |} ]) s
              on_ack_result_default) = Some s1) by (rewrite El; reflexivity).
  apply VSock_LemmasIn.recv_loop_frame in Hl. destruct Hl as (_ & _ & _ & L4 & _ & L6).
  unfold TW. rewrite L4, L6. exact T.
Qed.

Lemma send_ack_jq : forall s : vsock, stR jq s (send_ack s).
Proof. intro s. apply txf_kp_jq; [apply send_ack_txf | apply send_ack_kp]. Qed.

Lemma maybe_send_syn_ack_jq : forall s : vsock, stR jq s (maybe_send_syn_ack s).
Proof.
  intros s. unfold maybe_send_syn_ack.
  assert (G : forall c, stR jq s
     (if c =? o_max_retx (v_opts s) then SErr s ErrMaxSynAckRetransmissionsReached
      else sbind (send_ack s) (fun s1 sent =>
        if sent then SOk (set_t_syn_ack_resend (set_state s1 (SynAckSent (c + 1)))
               (timer_arm (v_t_syn_ack_resend s1) (v_now s1) SYNACK_RESEND_INTERNAL true)) tt
        else SOk s1 tt))).
  { intros c. destruct (_ =? _); [apply jq_refl|].
    apply (stR_sbind jq jq_trans); [apply send_ack_jq|].
    intros s1 [|]; cbn [stR]; [repeat split; reflexivity | apply jq_refl]. }
  destruct (v_state s); try (cbn [stR]; repeat split; reflexivity).
  - apply G.
  - destruct (timer_expired _ _); [apply G | apply jq_refl].
Qed.

Theorem poll_JI : forall w (s s' : vsock),
  JI w s -> poll cci s = (s', PollPending) -> JI w s'.
Proof.
  intros w s s' HJ H.
  assert (Hp : pend_shape (jiR w) (poll_init s) s').
  { apply (poll_Rp cci (jiR w) (jiR_refl w) (jiR_trans w)); try exact H.
    - intros a K. exact K.
    - intro a. apply jiR_of; [intro L; apply (skp_sLB 0 a); [exact L | apply maybe_send_syn_ack_kp]|].
      apply maybe_send_syn_ack_jq.
    - intro a. apply jiR_of; [intro L; apply (skp_sLB 0 a); [exact L | apply send_ack_kp]|].
      apply send_ack_jq.
    - apply pim_jiR.
    - intros a rx1 fb w0 _ K. exact K.
    - intro a. apply jiR_of; [apply split_LB | apply split_jq].
    - intro a. apply jiR_of; [apply send_tx_queue_LB | apply stq_jq].
    - intros a (L & Q & T). split; [eapply LB_kp; [exact L | apply transition_kp]|].
      assert (K : jq a (transition_to_fin_wait_1 a))
        by (unfold jq, transition_to_fin_wait_1; destruct (v_state a); repeat split; reflexivity).
      split; [eapply JQ_jq; eauto | rewrite (TW_jq _ _ K); exact T].
    - intro a. apply jiR_of; [intro L; apply (skp_sLB 0 a); [exact L | apply maybe_send_fin_kp]|].
      apply txf_kp_jq; [apply maybe_send_fin_txf | apply maybe_send_fin_kp].
    - intro a. apply jiR_of; [intro L; apply (skp_sLB 0 a); [exact L | apply maybe_send_ack_kp]|].
      apply txf_kp_jq; [apply maybe_send_ack_txf | apply maybe_send_ack_kp]. }
  assert (H0 : JI w (poll_init s)) by exact HJ.
  destruct Hp as [[_ R]|(sa & sb & b & R1 & _ & R2 & _ & _ & _ & ->)].
  - exact (R H0).
  - specialize (R2 (R1 H0)). destruct R2 as (L & Q & T).
    destruct (poll_tail_fields sb) as (_ & F2 & _ & _ & _ & _ & _ & _ & _ & _ & _ & _ & F13 & _ & _ & F16 & _).
    split; [eapply LB_kp; [exact L|]; unfold kp; rewrite F13, F2, F16; auto|].
    unfold JQ, TW in *. rewrite F13, F16. auto.
Qed.

End WithCC.
