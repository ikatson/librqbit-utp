(* C05, window clause: list-level facts about the flight computation and the for-sending iterator.
   - [FLp l n]: undelivered payload of the first n segments; monotone, insensitive to the sent-status;
   - [iter_prefix]: what a prefix of the iterator adds up to, in terms of FLp;
   - sequence-number arithmetic within the wrap tolerance. *)
From Utp Require Import Base.Prelude Wire.SeqNr Wire.SeqNr_Proofs Wire.Header Tx.Segments Tx.Segments_Proofs
  Conn.Recovery Conn.Msg Conn.VSockRec Conn.VSock Conn.VSock_LemmasTx Conn.C05_Proofs.

(* ------------------------------------------------------------------ arithmetic *)
Lemma seq_sub_succ_le a b : 0 <= a < M16 -> 0 <= b < M16 -> seq_sub (wadd16 a 1) b <= seq_sub a b + 1.
Proof.
  unfold seq_sub, seq_nr_offset, wadd16, wsub16, WRAP_TOLERANCE, M16. intros Ha Hb.
  repeat match goal with |- context [if ?c then _ else _] => destruct c eqn:? end; lia.
Qed.

Lemma seq_sub_mod a b k :
  0 <= a < M16 -> 0 <= b < M16 -> -1024 <= k <= 1024 -> (a - b - k) mod M16 = 0 -> seq_sub a b = k.
Proof.
  intros Ha Hb Hk Hm. unfold seq_sub. apply offset_true_distance_pair; auto; unfold WRAP_TOLERANCE; lia.
Qed.

Lemma wsub16_range a b : 0 <= wsub16 a b < M16.
Proof. unfold wsub16, M16. lia. Qed.

(* ------------------------------------------------------------------ flight of a prefix *)
Definition FLp (l : list seg) (n : nat) : Z := flight_sum (firstn n l).

Definition lnn (l : list seg) : Prop := Forall (fun g => 0 <= sg_size g) l.

Lemma flight_sum_app a b : flight_sum (a ++ b) = flight_sum a + flight_sum b.
Proof. induction a as [|x xs IH]; cbn [app flight_sum]; lia. Qed.

Lemma flight_sum_nn l : lnn l -> 0 <= flight_sum l.
Proof. induction 1 as [|g r Hg _ IH]; cbn [flight_sum]; [lia|]. destruct (sg_delivered g); lia. Qed.

Lemma lnn_app a b : lnn (a ++ b) <-> lnn a /\ lnn b.
Proof. unfold lnn. apply Forall_app. Qed.

Lemma lnn_skipn n l : lnn l -> lnn (skipn n l).
Proof. intro H. rewrite <- (firstn_skipn n l) in H. apply lnn_app in H. apply H. Qed.

Lemma lnn_firstn n l : lnn l -> lnn (firstn n l).
Proof. intro H. rewrite <- (firstn_skipn n l) in H. apply lnn_app in H. apply H. Qed.

Lemma firstn_plus {A} : forall n m (l : list A), firstn (n + m) l = firstn n l ++ firstn m (skipn n l).
Proof.
  induction n as [|n IH]; intros m l; [reflexivity|].
  destruct l as [|x xs]; cbn [plus firstn skipn app]; [destruct m; reflexivity|]. rewrite IH. reflexivity.
Qed.

Lemma FLp_mono l n m : lnn l -> (n <= m)%nat -> FLp l n <= FLp l m.
Proof.
  intros Hl Hnm. unfold FLp.
  replace m with (n + (m - n))%nat by lia. rewrite firstn_plus, flight_sum_app.
  pose proof (flight_sum_nn (firstn (m - n) (skipn n l)) (lnn_firstn _ _ (lnn_skipn _ _ Hl))). lia.
Qed.

Lemma FLp_nn l n : lnn l -> 0 <= FLp l n.
Proof. intro H. apply flight_sum_nn, lnn_firstn, H. Qed.

Lemma FLp_skipn l o n : flight_sum (firstn n (skipn o l)) = FLp l (o + n) - FLp l o.
Proof. unfold FLp. rewrite firstn_plus, flight_sum_app. lia. Qed.

Lemma flight_sum_dview l l' : map dview l = map dview l' -> flight_sum l = flight_sum l'.
Proof.
  revert l'. induction l as [|x xs IH]; intros [|y ys] H; cbn [map] in H; try discriminate; [reflexivity|].
  injection H as A1 A2 A3 A4.
  cbn [flight_sum]. rewrite (IH _ A4), A1, A3. reflexivity.
Qed.

Lemma FLp_dview l l' n : map dview l = map dview l' -> FLp l n = FLp l' n.
Proof.
  intro H. unfold FLp. apply flight_sum_dview. rewrite <- !firstn_map, H. reflexivity.
Qed.

Lemma FLp_app l x n : (n <= length l)%nat -> FLp (l ++ x) n = FLp l n.
Proof. intro H. unfold FLp. rewrite firstn_app. replace (n - length l)%nat with 0%nat by lia. cbn [firstn]. rewrite app_nil_r. reflexivity. Qed.

Lemma FLp_0 l : FLp l 0 = 0.
Proof. reflexivity. Qed.

(* an undelivered segment sits at index i *)
Definition und_at (l : list seg) (i : nat) : Prop :=
  exists g, nth_error l i = Some g /\ sg_delivered g = false.

Lemma und_at_lt l i : und_at l i -> (i < length l)%nat.
Proof. intros (g & H & _). apply nth_error_Some. congruence. Qed.

Lemma und_at_dview l l' i : map dview l = map dview l' -> und_at l i -> und_at l' i.
Proof.
  intros H (g & Hn & Hd).
  assert (E : nth_error (map dview l') i = Some (dview g)) by (rewrite <- H, nth_error_map, Hn; reflexivity).
  rewrite nth_error_map in E. destruct (nth_error l' i) as [g'|] eqn:Eg; [|discriminate].
  cbn [option_map] in E. injection E as E1 E2 E3. exists g'. split; [exact Eg|]. congruence.
Qed.

Lemma und_at_app l x i : und_at l i -> und_at (l ++ x) i.
Proof. intros (g & Hn & Hd). exists g. split; [|exact Hd]. rewrite nth_error_app1; [exact Hn|]. apply nth_error_Some. congruence. Qed.

Lemma und_at_init l g i : (i < length l)%nat -> und_at (l ++ [g]) i -> und_at l i.
Proof. intros Hi (g' & Hn & Hd). exists g'. split; [|exact Hd]. rewrite nth_error_app1 in Hn; assumption. Qed.

(* an undelivered segment between o and a makes the flight grow *)
Lemma FLp_und_lt l o a i :
  lnn l -> (o <= i)%nat -> (i < a)%nat -> und_at l i -> (forall g, nth_error l i = Some g -> 1 <= sg_size g) ->
  FLp l o < FLp l a.
Proof.
  intros Hl Hoi Hia (g & Hn & Hd) Hsz. specialize (Hsz g Hn).
  assert (H1 : FLp l o <= FLp l i) by (apply FLp_mono; assumption).
  assert (H2 : FLp l (S i) <= FLp l a) by (apply FLp_mono; [assumption|lia]).
  assert (H3 : FLp l (S i) = FLp l i + sg_size g).
  { unfold FLp. replace (S i) with (i + 1)%nat by lia. rewrite firstn_plus, flight_sum_app.
    assert (E : firstn 1 (skipn i l) = [g]).
    { clear - Hn. revert i Hn. induction l as [|x xs IH]; intros [|i] Hn; cbn in *; try discriminate.
      - injection Hn as ->. reflexivity.
      - apply IH. exact Hn. }
    rewrite E. cbn [flight_sum]. rewrite Hd. lia. }
  lia.
Qed.

(* ------------------------------------------------------------------ the iterator, by prefixes *)
Definition mkf (t : segments) : nat * seg -> for_sending :=
  fun '(i, s) => {| fs_idx := i; fs_seq := wadd16 (ss_snd_una t) (Z.of_nat i mod M16);
                    fs_payload_offset := sg_abs s - ss_removed t; fs_seg := s |}.

Definition undf (f : for_sending) : bool := negb (sg_delivered (fs_seg f)).

Definition iter_off (t : segments) (start : option Z) : nat :=
  match start with
  | Some s => Z.to_nat (Z.max (seq_sub s (ss_snd_una t)) 0)
  | None => O
  end.

Lemma iter_for_sending_eq t start :
  iter_for_sending t start =
  filter undf (map (mkf t) (enum_from (iter_off t start) (skipn (iter_off t start) (ss_segs t)))).
Proof. reflexivity. Qed.

(* strictly increasing list of indices *)
Fixpoint sinc (l : list nat) : Prop :=
  match l with
  | a :: (b :: _) as r => (a < b)%nat /\ sinc r
  | _ => True
  end.

Lemma sinc_cons a l : sinc (a :: l) <-> (match l with b :: _ => (a < b)%nat | [] => True end) /\ sinc l.
Proof.
  destruct l as [|b l']; [cbn; tauto|].
  change (sinc (a :: b :: l')) with ((a < b)%nat /\ sinc (b :: l')). tauto.
Qed.

Lemma sinc_app a b : sinc (a ++ b) -> sinc a /\ sinc b.
Proof.
  induction a as [|x xs IH]; cbn [app]; [intro H; split; [exact I|exact H]|].
  intro H. apply sinc_cons in H. destruct H as [H1 H2]. destruct (IH H2) as [I1 I2].
  split; [|exact I2]. apply sinc_cons. split; [|exact I1].
  destruct xs as [|y ys]; [exact I|]. exact H1.
Qed.

Lemma sinc_app_last a x b y : sinc ((a ++ [x]) ++ y :: b) -> (x < y)%nat.
Proof.
  induction a as [|z zs IH]; cbn [app]; intro H.
  - apply H.
  - apply sinc_cons in H. apply IH. apply H.
Qed.

Lemma iter_prefix t : forall l o sent rest,
  filter undf (map (mkf t) (enum_from o l)) = sent ++ rest ->
  exists n, (n <= length l)%nat /\ fs_bytes sent = flight_sum (firstn n l) /\
    (sent = [] -> n = 0%nat) /\
    (forall pre f, sent = pre ++ [f] -> (fs_idx f + 1 = o + n)%nat) /\
    (forall f post, sent = f :: post -> (o <= fs_idx f)%nat /\ flight_sum (firstn (fs_idx f - o) l) = 0) /\
    sinc (map fs_idx sent) /\
    (forall f post, rest = f :: post -> (o + n <= fs_idx f)%nat /\
                                        flight_sum (firstn (fs_idx f - o) l) = flight_sum (firstn n l)).
Proof.
  induction l as [|x xs IH]; intros o sent rest H.
  - cbn in H. destruct sent; [|discriminate]. destruct rest; [|discriminate].
    exists 0%nat. cbn. repeat split; auto; try (intros; discriminate); try lia.
    intros pre f E. destruct pre; discriminate.
  - cbn [enum_from map filter] in H. unfold undf at 1 in H. cbn [mkf fs_seg] in H.
    destruct (sg_delivered x) eqn:Ed; cbn [negb] in H.
    + (* x delivered: skipped *)
      destruct (IH _ _ _ H) as (n & Hn & Hb & Hnil & Hlast & Hhd & Hs & Hr).
      destruct sent as [|f0 sent'].
      * exists 0%nat. cbn [firstn flight_sum fs_bytes length]. repeat split; auto; try lia; try (intros; discriminate).
        -- intros pre f E. destruct pre; discriminate.
        -- specialize (Hr f post H0). lia.
        -- specialize (Hr f post H0). rewrite (Hnil eq_refl) in Hr. destruct Hr as [Hr1 Hr2].
           replace (fs_idx f - o)%nat with (S (fs_idx f - S o)) by lia. cbn [firstn flight_sum]. rewrite Ed.
           cbn [firstn flight_sum] in Hr2. lia.
      * exists (S n). cbn [firstn flight_sum length]. rewrite Ed.
        split; [lia|]. split; [lia|]. split; [discriminate|].
        split; [intros pre f E; specialize (Hlast pre f E); lia|].
        split.
        { intros f post E. destruct (Hhd f post E) as [A1 A2]. split; [lia|].
          replace (fs_idx f - o)%nat with (S (fs_idx f - S o)) by lia. cbn [firstn flight_sum]. rewrite Ed. lia. }
        split; [exact Hs|].
        intros f post E. destruct (Hr f post E) as [A1 A2]. split; [lia|].
        replace (fs_idx f - o)%nat with (S (fs_idx f - S o)) by lia. cbn [firstn flight_sum]. rewrite Ed. lia.
    + (* x undelivered: the next item *)
      destruct sent as [|f0 sent'].
      * exists 0%nat. cbn [firstn flight_sum fs_bytes length]. repeat split; auto; try lia; try (intros; discriminate).
        -- intros pre f E. destruct pre; discriminate.
        -- cbn [app] in H. rewrite <- H in H0. injection H0 as <- _. cbn [fs_idx]. lia.
        -- cbn [app] in H. rewrite <- H in H0. injection H0 as <- _. cbn [fs_idx]. rewrite Nat.sub_diag. reflexivity.
      * cbn [app] in H. injection H as Hf0 H.
        destruct (IH _ _ _ H) as (n & Hn & Hb & Hnil & Hlast & Hhd & Hs & Hr).
        exists (S n). cbn [firstn flight_sum length fs_bytes]. rewrite Ed, <- Hf0. cbn [fs_seg fs_idx].
        split; [lia|]. split; [lia|]. split; [discriminate|].
        split.
        { intros pre f E. destruct pre as [|p0 pre'].
          - cbn [app] in E. injection E as E1 E2. subst sent'. rewrite (Hnil eq_refl). rewrite <- E1. cbn [fs_idx]. lia.
          - cbn [app] in E. injection E as E1 E2. specialize (Hlast pre' f E2). lia. }
        split.
        { intros f post E. injection E as <- _. cbn [fs_idx]. split; [lia|]. rewrite Nat.sub_diag. reflexivity. }
        split.
        { cbn [map]. apply sinc_cons. split; [|exact Hs].
          destruct sent' as [|f1 s1]; [exact I|]. cbn [map]. destruct (Hhd f1 s1 eq_refl) as [A _]. cbn [fs_idx]. lia. }
        intros f post E. destruct (Hr f post E) as [A1 A2]. split; [lia|].
        replace (fs_idx f - o)%nat with (S (fs_idx f - S o)) by lia. cbn [firstn flight_sum]. rewrite Ed. lia.
Qed.

(* ------------------------------------------------------------------ more list facts *)
Lemma last_default' {A} : forall (l : list A) x d d', last (x :: l) d = last (x :: l) d'.
Proof. induction l as [|y ys IH]; intros x d d'; [reflexivity|]. cbn [last]. apply (IH y d d'). Qed.

Lemma last_cons_ne {A} (y : A) l d : l <> [] -> last (y :: l) d = last l d.
Proof. destruct l; [congruence|reflexivity]. Qed.

Lemma last_app_cons {A} : forall (a : list A) x b d, last (a ++ x :: b) d = last (x :: b) d.
Proof.
  induction a as [|y ys IH]; intros x b d; [reflexivity|].
  cbn [app]. rewrite last_cons_ne by (destruct ys; discriminate). apply IH.
Qed.

Lemma last_in {A} (x : A) l : In (last (x :: l) x) (x :: l).
Proof.
  destruct l as [|y ys]; [left; reflexivity|].
  assert (Hne : x :: y :: ys <> []) by discriminate. destruct (exists_last Hne) as (l' & z & El).
  rewrite El, last_app_cons. cbn [last]. apply in_or_app. right. left. reflexivity.
Qed.

Lemma last_map {A B} (f : A -> B) : forall l d, last (map f l) (f d) = f (last l d).
Proof.
  induction l as [|x xs IH]; intro d; [reflexivity|].
  cbn [map]. destruct xs as [|y ys]; [reflexivity|]. cbn [map last] in *. apply (IH d).
Qed.

Lemma sinc_le_last : forall l d, sinc l -> Forall (fun i => (i <= last l d)%nat) l.
Proof.
  induction l as [|x xs IH]; intros d H; [constructor|].
  apply sinc_cons in H. destruct H as [H1 H2].
  destruct xs as [|y ys]; [constructor; [cbn; lia|constructor]|].
  specialize (IH d H2). change (last (x :: y :: ys) d) with (last (y :: ys) d).
  constructor; [|exact IH]. inversion IH; subst. lia.
Qed.

Lemma sinc_app_intro : forall a b d,
  sinc a -> sinc b -> (a = [] \/ match b with [] => True | y :: _ => (last a d < y)%nat end) -> sinc (a ++ b).
Proof.
  induction a as [|x xs IH]; intros b d Ha Hb Hl; [exact Hb|].
  cbn [app]. apply sinc_cons. apply sinc_cons in Ha. destruct Ha as [Ha1 Ha2].
  destruct Hl as [Hl|Hl]; [discriminate|].
  split.
  - destruct xs as [|y ys]; cbn [app]; [destruct b; [exact I|exact Hl]|exact Ha1].
  - apply (IH b d Ha2 Hb). destruct xs as [|y ys]; [left; reflexivity|right].
    destruct b; [exact I|]. exact Hl.
Qed.

(* seq_nr_offset always returns a value congruent to the difference *)
Lemma seq_sub_congr a b : 0 <= a < M16 -> 0 <= b < M16 -> (a - b - seq_sub a b) mod M16 = 0.
Proof.
  unfold seq_sub, seq_nr_offset, wsub16, WRAP_TOLERANCE, M16. intros Ha Hb.
  repeat match goal with |- context [if ?c then _ else _] => destruct c eqn:? end; lia.
Qed.
