(* The incoming path of the connection model, by parts: process_incoming_message is shown (by
   computation) to be the composition of the named pieces below; a lemma about the function is a
   lemma about each piece, with the state between two pieces a variable. *)
From Utp Require Import Base.Prelude Wire.SeqNr Wire.Header Rtt.Rtte Mtu.SegSizes Rx.Rx Tx.Ring
  Tx.Segments Conn.Recovery Conn.Msg Conn.VSockRec Conn.VSock Conn.VSock_LemmasTx.

Section WithCC.
Context {CC : Type} (cci : cc_iface CC).
Notation vsock := (vsock CC).

Definition pim_data (s2 : vsock) (m : msg) (res : on_ack_result) (offset : Z) : step on_ack_result :=
  if offset <? 0 then SOk (force_immediate_ack s2) res
  else
    let was_empty := ooq_is_empty (v_rx s2) in
    let ss2 := on_payload_delivered (v_ss s2) (Z.of_nat (length (m_payload m))) in
    let s3 := set_cc (set_ss s2 ss2) (cc_set_mss cci (v_cc s2) (mss ss2)) in
    let '(rx1, ar, w) := rx_add_remove (v_rx s3) KData (m_payload m) offset in
    let s4 := add_wakes (set_rx s3 rx1) (rx_wakes w) in
    match ar with
    | UarPanic => SPanic
    | UarOk r =>
        match add_err r with
        | Some e => SErr s4 e
        | None =>
            let s5 :=
              match r with
              | ArConsumed n bytes =>
                  set_cbu
                    (set_last_consumed (restart_remote_inactivity_timer s4)
                       (wadd16 (v_last_consumed s4) (n mod M16)))
                    (sat_add_usize (v_cbu s4) bytes)
              | _ => s4
              end in
            if negb (ooq_is_empty (v_rx s5)) || negb was_empty then
              sbind (send_ack (force_immediate_ack s5)) (fun s6 _ => SOk s6 res)
            else SOk s5 res
        end
    end.

Definition pim_fin (s2 : vsock) (m : msg) (res : on_ack_result) (offset : Z) (seen : bool) : step on_ack_result :=
  let h := m_hdr m in
  let s3 := force_immediate_ack s2 in
  if negb seen && (0 <=? offset) then
    let s4 := set_last_consumed s3 (ch_seq h) in
    let '(rx1, ar, w) := rx_add_remove (v_rx s4) KFin (m_payload m) offset in
    let s5 := add_wakes (set_rx s4 rx1) (rx_wakes w) in
    match ar with
    | UarPanic => SPanic
    | UarOk r =>
        match add_err r with
        | Some e => SErr s5 e
        | None =>
            let '(tx1, w2) := mark_vsock_closed (v_tx s5) in
            SOk (add_wakes (set_tx s5 tx1) (tx_wakes w2)) res
        end
    end
  else SOk s3 res.

(* the part between the state table and the per-type handling: ACK processing *)
Definition pim_ack (s1 : vsock) (h : chdr) : option (vsock * on_ack_result) :=
  let '(segs1, res) := remove_up_to_ack (v_segs s1) (v_now s1) (ch_ack h) (ch_sack h) in
  let ss1 := on_payload_delivered (v_ss s1) (ar_max_acked_payload res) in
  let cc1 := cc_set_mss cci (v_cc s1) (mss ss1) in
  let rtte1o :=
    match is_recovering (v_recovery s1), ar_new_rtt res with
    | false, Some rtt => sample (v_rtte s1) rtt
    | _, _ => Some (v_rtte s1)
    end in
  match rtte1o with
  | None => None
  | Some rtte1 =>
      let cc2 := cc_set_remote_window cci cc1 (ch_wnd h) in
      match cc_on_ack cci cc2 (v_now s1) (ar_acked_bytes res) (roundtrip_time rtte1) with
      | None => None
      | Some cc3 =>
          match recovery_on_ack cci (v_recovery s1) h segs1 (v_last_sent_seq_nr s1) cc3
                                (v_now s1) (roundtrip_time rtte1) with
          | None => None
          | Some (rec1, segs2, cc4) =>
              Some (set_recovery
                      (set_last_remote_window
                         (set_last_remote_timestamp
                            (set_cc (set_rtte (set_ss (set_segs s1 segs2) ss1) rtte1) cc4)
                            (ch_ts h))
                         (ch_wnd h))
                      rec1, res)
          end
      end
  end.

Definition pim_cont (s1 : vsock) (m : msg) (seen : bool) : step on_ack_result :=
  match pim_ack s1 (m_hdr m) with
  | None => SPanic
  | Some (s2, res) =>
      let offset := seq_sub (ch_seq (m_hdr m)) (wadd16 (v_last_consumed s2) 1) in
      match ch_type (m_hdr m) with
      | ST_DATA => pim_data s2 m res offset
      | ST_FIN => pim_fin s2 m res offset seen
      | _ => SOk s2 res
      end
  end.

Lemma process_incoming_message_eq s m :
  process_incoming_message cci s m =
  match state_table s (m_hdr m) with
  | TblDrop s1 => SOk s1 on_ack_result_default
  | TblErr s1 e => SErr s1 e
  | TblContinue s1 => pim_cont s1 m (is_remote_fin_or_later (v_state s))
  end.
Proof.
  unfold process_incoming_message, pim_cont, pim_ack.
  destruct (state_table s (m_hdr m)) as [s1|s1 e|s1]; try reflexivity.
  destruct (remove_up_to_ack _ _ _ _) as [segs1 res].
  destruct (match is_recovering (v_recovery s1) with true => _ | false => _ end) as [rtte1|]; [|reflexivity].
  destruct (cc_on_ack cci _ _ _ _) as [cc3|]; [|reflexivity].
  destruct (recovery_on_ack cci _ _ _ _ _ _ _) as [[[rec1 segs2] cc4]|]; reflexivity.
Qed.

(* the ST_DATA arm once more by parts, so that each part is a statement about a variable state:
   the state after the receiver was called, the bookkeeping of consumed bytes, the tail *)
Definition data_in (s2 : vsock) (n : Z) (rx1 : rx) (wk : list vwake) : vsock :=
  let ss2 := on_payload_delivered (v_ss s2) n in
  add_wakes (set_rx (set_cc (set_ss s2 ss2) (cc_set_mss cci (v_cc s2) (mss ss2))) rx1) wk.

Definition data_consumed (s4 : vsock) (r : add_result) : vsock :=
  match r with
  | ArConsumed n bytes =>
      set_cbu
        (set_last_consumed (restart_remote_inactivity_timer s4) (wadd16 (v_last_consumed s4) (n mod M16)))
        (sat_add_usize (v_cbu s4) bytes)
  | _ => s4
  end.

Definition data_tail (s4 : vsock) (was_empty : bool) (ar : user_add_result) (res : on_ack_result)
  : step on_ack_result :=
  match ar with
  | UarPanic => SPanic
  | UarOk r =>
      match add_err r with
      | Some e => SErr s4 e
      | None =>
          let s5 := data_consumed s4 r in
          if negb (ooq_is_empty (v_rx s5)) || negb was_empty then
            sbind (send_ack (force_immediate_ack s5)) (fun s6 _ => SOk s6 res)
          else SOk s5 res
      end
  end.

Lemma pim_data_eq s2 m res offset :
  pim_data s2 m res offset =
  if offset <? 0 then SOk (force_immediate_ack s2) res
  else
    let '(rx1, ar, w) := rx_add_remove (v_rx s2) KData (m_payload m) offset in
    data_tail (data_in s2 (Z.of_nat (length (m_payload m))) rx1 (rx_wakes w)) (ooq_is_empty (v_rx s2)) ar res.
Proof. unfold pim_data. destruct (offset <? 0); reflexivity. Qed.

(* ------------------------------------------------------------------ what the incoming path leaves alone *)
Definition in_frame (s s' : vsock) : Prop :=
  v_rto_retransmissions s' = v_rto_retransmissions s /\ v_opts s' = v_opts s /\ v_now s' = v_now s /\
  v_last_sent_seq_nr s' = v_last_sent_seq_nr s /\ v_t_retransmit s' = v_t_retransmit s /\
  ring (v_tx s') = ring (v_tx s) /\ g_written (v_tx s') = g_written (v_tx s) /\
  g_removed (v_tx s') = g_removed (v_tx s).

Lemma in_frame_refl s : in_frame s s.
Proof. unfold in_frame. repeat split. Qed.

Lemma in_frame_trans a b c : in_frame a b -> in_frame b c -> in_frame a c.
Proof.
  unfold in_frame. intros (A1&A2&A3&A4&A5&A6&A7&A8) (B1&B2&B3&B4&B5&B6&B7&B8). repeat split; congruence.
Qed.

Lemma sd_in_frame s s' :
  sd_frame s s' -> v_last_sent_seq_nr s' = v_last_sent_seq_nr s -> v_t_retransmit s' = v_t_retransmit s ->
  in_frame s s'.
Proof.
  unfold sd_frame, in_frame. intros H A B.
  repeat match goal with H : _ /\ _ |- _ => destruct H end. repeat split; congruence.
Qed.

Lemma send_ack_in_frame (s : vsock) :
  match send_ack s with
  | SOk s1 _ | SErr s1 _ => in_frame s s1
  | SPanic => True
  end.
Proof.
  unfold send_ack. pose proof (send_control_packet_spec s
    (hdr_with (outgoing_header s) ST_STATE (ch_seq (outgoing_header s)) (sack_of_rx (v_rx s)))) as H.
  destruct (send_control_packet s _) as [s1 [|]|s1 e|]; try exact I;
    destruct H as (Hf & _ & _ & A & B & _); apply sd_in_frame; assumption.
Qed.

Definition tbl_state (r : table_res (CC:=CC)) : vsock :=
  match r with TblDrop s1 | TblErr s1 _ | TblContinue s1 => s1 end.

Lemma state_table_in_frame (s : vsock) h : in_frame s (tbl_state (state_table s h)).
Proof.
  unfold state_table, restart_remote_inactivity_timer, in_frame.
  destruct (ch_type h); destruct (v_state s); cbn [tbl_state negb];
    repeat (match goal with |- context [if ?c then _ else _] => destruct c end);
    cbn [tbl_state]; repeat split.
Qed.

Lemma force_ack_in_frame s : in_frame s (force_immediate_ack s).
Proof. unfold in_frame, force_immediate_ack. vsimpl. repeat split. Qed.

Lemma data_tail_in_frame s4 we ar res s' : step_st (data_tail s4 we ar res) = Some s' -> in_frame s4 s'.
Proof.
  unfold data_tail. destruct ar as [r|]; [|discriminate].
  destruct (add_err r); [cbn [step_st]; intro H; injection H as <-; apply in_frame_refl|].
  assert (H5 : in_frame s4 (data_consumed s4 r)).
  { unfold data_consumed, restart_remote_inactivity_timer, in_frame. destruct r; vsimpl; repeat split. }
  cbv zeta. generalize dependent (data_consumed s4 r). intros s5 H5.
  destruct (_ || _); [|cbn [step_st]; intro H; injection H as <-; exact H5].
  pose proof (send_ack_in_frame (force_immediate_ack s5)) as Ha.
  destruct (send_ack (force_immediate_ack s5)) as [s6 b|s6 e|]; cbn [sbind step_st]; [| |discriminate];
    intro H; injection H as <-;
    exact (in_frame_trans _ _ _ H5 (in_frame_trans _ _ _ (force_ack_in_frame s5) Ha)).
Qed.

Lemma pim_data_in_frame s2 m res offset s' :
  step_st (pim_data s2 m res offset) = Some s' -> in_frame s2 s'.
Proof.
  rewrite pim_data_eq. destruct (offset <? 0).
  { cbn [step_st]. intro H; injection H as <-. apply force_ack_in_frame. }
  destruct (rx_add_remove _ KData (m_payload m) offset) as [[rx1 ar] w]. intro H.
  eapply in_frame_trans; [|exact (data_tail_in_frame _ _ _ _ _ H)].
  unfold data_in, add_wakes, in_frame. vsimpl. repeat split.
Qed.

Lemma pim_fin_in_frame s2 m res offset seen s' :
  step_st (pim_fin s2 m res offset seen) = Some s' -> in_frame s2 s'.
Proof.
  unfold pim_fin. cbv zeta. destruct (_ && _).
  - destruct (rx_add_remove _ KFin _ _) as [[rx1 ar] w].
    destruct ar as [r|]; [|discriminate].
    destruct (add_err r).
    + cbn [step_st]; intro H; injection H as <-. unfold in_frame, add_wakes, force_immediate_ack. vsimpl. repeat split.
    + unfold mark_vsock_closed. cbn [step_st]. intro H; injection H as <-.
      unfold in_frame, add_wakes, force_immediate_ack. vsimpl. cbn [ring g_written g_removed upd]. repeat split.
  - cbn [step_st]. intro H; injection H as <-. unfold in_frame, force_immediate_ack. vsimpl. repeat split.
Qed.

Lemma pim_ack_in_frame s1 h s2 res : pim_ack s1 h = Some (s2, res) -> in_frame s1 s2.
Proof.
  unfold pim_ack. destruct (remove_up_to_ack _ _ _ _) as [segs1 res0].
  destruct (match is_recovering (v_recovery s1) with true => _ | false => _ end) as [rtte1|]; [|discriminate].
  destruct (cc_on_ack cci _ _ _ _) as [cc3|]; [|discriminate].
  destruct (recovery_on_ack cci _ _ _ _ _ _ _) as [[[rec1 segs2] cc4]|]; [|discriminate].
  intro H; injection H as <- _. unfold in_frame. vsimpl. repeat split.
Qed.

Lemma pim_cont_in_frame s1 m seen s' : step_st (pim_cont s1 m seen) = Some s' -> in_frame s1 s'.
Proof.
  unfold pim_cont. destruct (pim_ack s1 (m_hdr m)) as [[s2 res]|] eqn:Ea; [|discriminate].
  pose proof (pim_ack_in_frame _ _ _ _ Ea) as H2. cbv zeta.
  destruct (ch_type (m_hdr m)); try (cbn [step_st]; intro H; injection H as <-; exact H2).
  - intro H. eapply in_frame_trans; [exact H2|]. eapply pim_data_in_frame; exact H.
  - intro H. eapply in_frame_trans; [exact H2|]. eapply pim_fin_in_frame; exact H.
Qed.

Lemma process_incoming_message_in_frame s m s' :
  step_st (process_incoming_message cci s m) = Some s' -> in_frame s s'.
Proof.
  rewrite process_incoming_message_eq.
  pose proof (state_table_in_frame s (m_hdr m)) as Ht.
  destruct (state_table s (m_hdr m)) as [s1|s1 e|s1]; cbn [tbl_state] in Ht;
    try (cbn [step_st]; intro H; injection H as <-; exact Ht).
  intro H. eapply in_frame_trans; [exact Ht|]. eapply pim_cont_in_frame; exact H.
Qed.

(* the receive loop leaves the RTO counter, the options and the transmit ring alone *)
Definition loop_frame (s s' : vsock) : Prop :=
  v_rto_retransmissions s' = v_rto_retransmissions s /\ v_opts s' = v_opts s /\ v_now s' = v_now s /\
  ring (v_tx s') = ring (v_tx s) /\ g_written (v_tx s') = g_written (v_tx s) /\
  g_removed (v_tx s') = g_removed (v_tx s).

Lemma sd_loop_frame s s' : sd_frame s s' -> loop_frame s s'.
Proof.
  unfold sd_frame, loop_frame. intro H.
  repeat match goal with H : _ /\ _ |- _ => destruct H end. repeat split; congruence.
Qed.

Lemma maybe_send_fin_in_frame_weak (s : vsock) :
  match maybe_send_fin s with
  | SOk s1 _ | SErr s1 _ => loop_frame s s1
  | SPanic => True
  end.
Proof.
  pose proof (maybe_send_fin_spec s) as H.
  destruct (maybe_send_fin s) as [s1 [|]|s1 e|]; try exact I; apply sd_loop_frame.
  - destruct H as (seq & _ & _ & Hf & _). exact Hf.
  - exact (proj1 H).
  - exact (proj1 H).
Qed.

Lemma in_loop_frame s s' : in_frame s s' -> loop_frame s s'.
Proof. unfold in_frame, loop_frame. tauto. Qed.

Lemma loop_frame_trans a b c : loop_frame a b -> loop_frame b c -> loop_frame a c.
Proof.
  unfold loop_frame. intros (A1&A2&A3&A4&A5&A6) (B1&B2&B3&B4&B5&B6). repeat split; congruence.
Qed.

Lemma recv_loop_frame : forall fuel s acc s',
  step_st (recv_loop cci fuel s acc) = Some s' -> loop_frame s s'.
Proof.
  assert (Hbase : forall (s : vsock) (acc : on_ack_result) s',
    v_inbox s = [] ->
    step_st (if v_inbox_closed s
             then sbind (maybe_send_fin (transition_to_fin_wait_1 s))
                        (fun s2 _ => SOk (set_state s2 Closed) (acc, true))
             else SOk (set_inbox_waker s true) (acc, false)) = Some s' -> loop_frame s s').
  { intros s acc s' _. destruct (v_inbox_closed s).
    - pose proof (maybe_send_fin_in_frame_weak (transition_to_fin_wait_1 s)) as Hm.
      assert (Ht : loop_frame s (transition_to_fin_wait_1 s))
        by (unfold transition_to_fin_wait_1, loop_frame; destruct (v_state s); vsimpl; repeat split).
      destruct (maybe_send_fin (transition_to_fin_wait_1 s)) as [s2 b|s2 e|]; cbn [sbind step_st]; [| |discriminate];
        intro H; injection H as <-; (eapply loop_frame_trans; [exact Ht|]); unfold loop_frame; vsimpl; exact Hm.
    - cbn [step_st]. intro H; injection H as <-. unfold loop_frame. vsimpl. repeat split. }
  induction fuel as [|m0 fuel IH]; intros s acc s'; cbn [recv_loop];
    destruct (v_inbox s) as [|m rest] eqn:Ei; try (apply Hbase; exact Ei); try discriminate.
  pose proof (process_incoming_message_in_frame (set_inbox s rest) m) as Hf.
  destruct (process_incoming_message cci (set_inbox s rest) m) as [s1 r|s1 e|]; cbn [sbind]; [| |discriminate];
    specialize (Hf s1 eq_refl); apply in_loop_frame in Hf; change (loop_frame s s1) in Hf.
  - destruct (_ || _).
    + cbn [step_st]. intro H; injection H as <-. exact Hf.
    + intro H. eapply loop_frame_trans; [exact Hf|]. eapply IH; exact H.
  - cbn [step_st]. intro H; injection H as <-. exact Hf.
Qed.

End WithCC.
