(* C17 — proofs about the model of VirtualSocket::poll (Conn/VSock.v). *)
From Utp Require Import Base.Prelude Wire.SeqNr Wire.Header Rtt.Rtte Mtu.SegSizes Rx.Rx Tx.Ring
  Tx.Segments Conn.Recovery Conn.Msg Conn.VSockRec Conn.VSock Conn.VSockRun Conn.VObs
  Conn.VSock_LemmasFin Conn.C17_Pred.
From Utp Require Conn.VSock_LemmasStep Conn.VSock_LemmasReach.

Ltac eqb_rw := repeat match goal with
  | H : ?a = ?b |- context [?a =? ?b] => rewrite (proj2 (Z.eqb_eq a b) H)
  | H : ?a <> ?b |- context [?a =? ?b] => rewrite (proj2 (Z.eqb_neq a b) H)
  end.

Section WithCC.
Context {CC : Type} (cci : cc_iface CC).
Notation vsock := (vsock CC).

Definition data_or_state (t : ptype) : Prop := t = ST_DATA \/ t = ST_STATE.
Definition in_seq (s : vsock) (h : chdr) : Prop := ch_seq h = wadd16 (v_last_consumed s) 1.

(* ================================================================== (b) the transition table *)
(* one conjunct per arm of the Rust `match (self.state, hdr.get_type())`, in source order *)
Theorem transition_table : forall (s : vsock) (h : chdr),
  (* 1  (LastAck{our_fin}, ST_RESET) if ack_nr == our_fin *)
  (forall f r, ch_type h = ST_RESET -> v_state s = LastAck f r -> ch_ack h = f ->
     state_table s h = TblDrop (set_state s Closed)) /\
  (* 2  (_, ST_RESET) *)
  (ch_type h = ST_RESET -> (forall f r, v_state s = LastAck f r -> ch_ack h <> f) ->
     state_table s h = TblErr (set_state s Closed) ErrStResetReceived) /\
  (* 3  (_, ST_SYN) *)
  (ch_type h = ST_SYN -> state_table s h = TblDrop s) /\
  (* 4  (Closed, _) : ignored (repair of D15) *)
  (ch_type h <> ST_RESET -> ch_type h <> ST_SYN -> v_state s = Closed ->
     state_table s h = TblDrop s) /\
  (* 5  (SynReceived, _) *)
  (ch_type h <> ST_RESET -> ch_type h <> ST_SYN -> v_state s = SynReceived ->
     state_table s h = TblErr s (ErrBug BugUnexpectedPacketInSynReceived)) /\
  (* 6  (SynAckSent, ST_DATA | ST_STATE), ack_nr != seq_nr - 1 : dropped *)
  (forall k, data_or_state (ch_type h) -> v_state s = SynAckSent k ->
     ch_ack h <> wsub16 (v_seq_nr s) 1 -> state_table s h = TblDrop s) /\
  (* 7  (SynAckSent, ST_DATA | ST_STATE), ack_nr == seq_nr - 1 : established *)
  (forall k, data_or_state (ch_type h) -> v_state s = SynAckSent k ->
     ch_ack h = wsub16 (v_seq_nr s) 1 ->
     state_table s h = TblContinue (set_state (restart_remote_inactivity_timer s) Established)) /\
  (* 7a (SynAckSent, ST_FIN) if seq_nr != last_consumed + 1 : dropped (repair of D19) *)
  (forall k, ch_type h = ST_FIN -> v_state s = SynAckSent k -> ~ in_seq s h ->
     state_table s h = TblDrop s) /\
  (* 8  (SynAckSent, ST_FIN) *)
  (forall k, ch_type h = ST_FIN -> v_state s = SynAckSent k -> in_seq s h ->
     state_table s h = TblContinue (set_state s Closed)) /\
  (* 9  (Established, ST_DATA | ST_STATE) *)
  (data_or_state (ch_type h) -> v_state s = Established -> state_table s h = TblContinue s) /\
  (* 10 (Established | FinWait1 | FinWait2, ST_FIN) if seq_nr != last_consumed + 1 : dropped *)
  (ch_type h = ST_FIN ->
     (v_state s = Established \/ (exists f, v_state s = FinWait1 f) \/ v_state s = FinWait2) ->
     ~ in_seq s h -> state_table s h = TblDrop s) /\
  (* 11 (Established, ST_FIN) *)
  (ch_type h = ST_FIN -> v_state s = Established -> in_seq s h ->
     state_table s h = TblContinue (set_seq_nr (set_state s (LastAck (v_seq_nr s) (ch_seq h)))
                                               (wadd16 (v_seq_nr s) 1))) /\
  (* 12 (FinWait1{our_fin}, ST_FIN) if ack_nr == our_fin *)
  (forall f, ch_type h = ST_FIN -> v_state s = FinWait1 f -> in_seq s h -> ch_ack h = f ->
     state_table s h = TblContinue (set_state s Closed)) /\
  (* 13 (FinWait1{our_fin}, ST_FIN) *)
  (forall f, ch_type h = ST_FIN -> v_state s = FinWait1 f -> in_seq s h -> ch_ack h <> f ->
     state_table s h = TblContinue (set_state s (LastAck f (ch_seq h)))) /\
  (* 14 (FinWait1{our_fin}, ST_DATA | ST_STATE) if ack_nr == our_fin *)
  (forall f, data_or_state (ch_type h) -> v_state s = FinWait1 f -> ch_ack h = f ->
     state_table s h =
     TblContinue (if ptype_eqb (ch_type h) ST_STATE && (seq_sub (ch_seq h) (v_last_consumed s) =? 1)
                  then set_state (set_state (restart_remote_inactivity_timer s) FinWait2) Closed
                  else set_state (restart_remote_inactivity_timer s) FinWait2)) /\
  (* 15 (FinWait1, ST_DATA | ST_STATE) *)
  (forall f, data_or_state (ch_type h) -> v_state s = FinWait1 f -> ch_ack h <> f ->
     state_table s h = TblContinue s) /\
  (* 16 (FinWait2, ST_FIN) *)
  (ch_type h = ST_FIN -> v_state s = FinWait2 -> in_seq s h ->
     state_table s h = TblContinue (set_state (restart_remote_inactivity_timer s) Closed)) /\
  (* 17 (FinWait2, ST_DATA | ST_STATE) *)
  (data_or_state (ch_type h) -> v_state s = FinWait2 -> state_table s h = TblContinue s) /\
  (* 18 (LastAck{our_fin}, _) if ack_nr == our_fin *)
  (forall f r, ch_type h <> ST_RESET -> ch_type h <> ST_SYN -> v_state s = LastAck f r -> ch_ack h = f ->
     state_table s h = TblContinue (set_state (restart_remote_inactivity_timer s) Closed)) /\
  (* 19 (LastAck{remote_fin}, _) if seq_nr > remote_fin : ST_DATA dropped, others continue *)
  (forall f r, ch_type h <> ST_RESET -> ch_type h <> ST_SYN -> v_state s = LastAck f r -> ch_ack h <> f ->
     seq_gt (ch_seq h) r = true ->
     state_table s h = if ptype_eqb (ch_type h) ST_DATA then TblDrop s else TblContinue s) /\
  (* 20 (LastAck, _) *)
  (forall f r, ch_type h <> ST_RESET -> ch_type h <> ST_SYN -> v_state s = LastAck f r -> ch_ack h <> f ->
     seq_gt (ch_seq h) r = false -> state_table s h = TblContinue s).
Proof.
  intros s h. unfold data_or_state, in_seq.
  repeat match goal with |- _ /\ _ => split end.
  - intros f r Ht Hs Ha. unfold state_table. rewrite Ht, Hs. eqb_rw. reflexivity.
  - intros Ht Hn. unfold state_table. rewrite Ht. destruct (v_state s) eqn:Es; try reflexivity.
    specialize (Hn _ _ eq_refl). eqb_rw. reflexivity.
  - intros Ht. unfold state_table. rewrite Ht. reflexivity.
  - intros H1 H2 Hs. unfold state_table. rewrite Hs. destruct (ch_type h); try reflexivity; congruence.
  - intros H1 H2 Hs. unfold state_table. rewrite Hs. destruct (ch_type h); try reflexivity; congruence.
  - intros k [Ht|Ht] Hs Ha; unfold state_table; rewrite Ht, Hs; eqb_rw; reflexivity.
  - intros k [Ht|Ht] Hs Ha; unfold state_table; rewrite Ht, Hs; eqb_rw; reflexivity.
  - intros k Ht Hs Hn. unfold state_table. rewrite Ht, Hs. eqb_rw. reflexivity.
  - intros k Ht Hs Hi. unfold state_table. rewrite Ht, Hs. eqb_rw. reflexivity.
  - intros [Ht|Ht] Hs; unfold state_table; rewrite Ht, Hs; reflexivity.
  - intros Ht [Hs|[[f Hs]|Hs]] Hn; unfold state_table; rewrite Ht, Hs; eqb_rw; reflexivity.
  - intros Ht Hs Hi. unfold state_table. rewrite Ht, Hs. eqb_rw. reflexivity.
  - intros f Ht Hs Hi Ha. unfold state_table. rewrite Ht, Hs. eqb_rw. reflexivity.
  - intros f Ht Hs Hi Ha. unfold state_table. rewrite Ht, Hs. eqb_rw. reflexivity.
  - intros f [Ht|Ht] Hs Ha; unfold state_table; rewrite Ht, Hs; eqb_rw; cbn [ptype_eqb type_to_number Z.eqb andb].
    + reflexivity.
    + destruct (seq_sub _ _ =? 1); reflexivity.
  - intros f [Ht|Ht] Hs Ha; unfold state_table; rewrite Ht, Hs; eqb_rw; reflexivity.
  - intros Ht Hs Hi. unfold state_table. rewrite Ht, Hs. eqb_rw. reflexivity.
  - intros [Ht|Ht] Hs; unfold state_table; rewrite Ht, Hs; reflexivity.
  - intros f r H1 H2 Hs Ha. unfold state_table. rewrite Hs. eqb_rw.
    destruct (ch_type h); try reflexivity; congruence.
  - intros f r H1 H2 Hs Ha Hg. unfold state_table. rewrite Hs, Hg. eqb_rw.
    destruct (ch_type h); try reflexivity; congruence.
  - intros f r H1 H2 Hs Ha Hg. unfold state_table. rewrite Hs, Hg. eqb_rw.
    destruct (ch_type h); try reflexivity; congruence.
Qed.

(* the table is total over the rows above: a dropped packet changes NOTHING (the state returned is
   the state given, so not even its ack_nr is processed), except in row 1 *)
Theorem table_drop_unchanged : forall (s s' : vsock) h,
  state_table s h = TblDrop s' -> ch_type h <> ST_RESET -> s' = s.
Proof.
  intros s s' h H Hr. unfold state_table in H.
  destruct (ch_type h); try congruence; destruct (v_state s);
    repeat match type of H with context [if ?c then _ else _] => destruct c end;
    try discriminate; injection H as <-; reflexivity.
Qed.

(* our FIN number, once recorded in the state, is never changed by the table *)
Theorem table_keeps_our_fin : forall (s s' : vsock) h f,
  our_fin_if_unacked (v_state s) = Some f ->
  (state_table s h = TblDrop s' \/ state_table s h = TblContinue s' \/
   exists e, state_table s h = TblErr s' e) ->
  our_fin_if_unacked (v_state s') = Some f \/ our_fin_if_unacked (v_state s') = None.
Proof.
  intros s s' h f Hf H. unfold state_table, restart_remote_inactivity_timer in H.
  destruct (v_state s) eqn:Es; cbn [our_fin_if_unacked] in Hf; try discriminate; injection Hf as ->;
    destruct (ch_type h);
    repeat match type of H with context [if ?c then _ else _] => destruct c end;
    destruct H as [H|[H|[e H]]]; try discriminate; injection H as <-; vsimpl;
    try rewrite Es; cbn [our_fin_if_unacked]; auto.
Qed.

(* ================================================================== control packets *)
(* the three outcomes of one control packet *)
Lemma send_control_packet_cases (s : vsock) h :
  v_transport_pending s = false ->
  (exists s1, same_but_sends s s1 /\
     send_control_packet s h =
       SOk (on_packet_sent (emit s1 {| p_hdr := hdr_with h (ch_type h) (ch_seq h) (fit_sack s (ch_sack h));
                                       p_payload := [] |}) h) true) \/
  (exists s1, same_but_sends s s1 /\ send_control_packet s h = SOk (set_transport_pending s1 true) false) \/
  (exists s1, same_but_sends s s1 /\ send_control_packet s h = SErr s1 ErrSend).
Proof.
  intro Hp. unfold send_control_packet. rewrite Hp.
  destruct (next_send s _) as [s1 o] eqn:E. apply next_send_same in E.
  destruct o; [left|right; left|right; right|right; right]; exists s1; split; auto.
Qed.

(* ================================================================== (c) our own FIN *)
(* maybe_send_fin emits at most one datagram; if it does, it is a FIN numbered with the number
   recorded in the state, and that number directly follows the last number sent *)
Theorem maybe_send_fin_spec : forall (s s' : vsock) b,
  maybe_send_fin s = SOk s' b ->
  v_state s' = v_state s /\ v_seq_nr s' = v_seq_nr s /\
  ((b = false /\ v_out s' = v_out s /\ v_last_sent_seq_nr s' = v_last_sent_seq_nr s) \/
   (b = true /\ exists f p,
      our_fin_if_unacked (v_state s) = Some f /\ seq_sub f (v_last_sent_seq_nr s) = 1 /\
      v_out s' = p :: v_out s /\ ch_type (p_hdr p) = ST_FIN /\ ch_seq (p_hdr p) = f /\
      ch_ack (p_hdr p) = v_last_consumed s /\ p_payload p = [] /\ v_last_sent_seq_nr s' = f)).
Proof.
  intros s s' b. unfold maybe_send_fin.
  destruct (v_transport_pending s) eqn:Ep.
  { intro H; injection H as <- <-. repeat split; auto. }
  destruct (our_fin_if_unacked (v_state s)) as [f|] eqn:Ef.
  2:{ intro H; injection H as <- <-. repeat split; auto. }
  destruct (Z.eqb_spec (seq_sub f (v_last_sent_seq_nr s)) 1) as [H1|H1]; cbn [negb].
  2:{ intro H; injection H as <- <-. repeat split; auto. }
  destruct (send_control_packet_cases s (hdr_with (outgoing_header s) ST_FIN f None) Ep)
    as [(s1 & Hs & ->)|[(s1 & Hs & ->)|(s1 & Hs & ->)]]; cbn [sbind].
  - intro H; injection H as <- <-.
    destruct Hs as [->|[r ->]]; unfold on_packet_sent, emit; vsimpl;
      (split; [reflexivity|]; split; [reflexivity|]; right; split; [reflexivity|];
       eexists; eexists; repeat split; try eassumption; try reflexivity).
  - intro H; injection H as <- <-.
    destruct Hs as [->|[r ->]]; vsimpl; repeat split; auto.
  - discriminate.
Qed.

Theorem maybe_send_fin_err_silent : forall (s s' : vsock) e,
  maybe_send_fin s = SErr s' e -> v_out s' = v_out s /\ v_state s' = v_state s.
Proof.
  intros s s' e. unfold maybe_send_fin.
  destruct (v_transport_pending s) eqn:Ep; [discriminate|].
  destruct (our_fin_if_unacked (v_state s)) as [f|]; [|discriminate].
  destruct (negb _); [discriminate|].
  destruct (send_control_packet_cases s (hdr_with (outgoing_header s) ST_FIN f None) Ep)
    as [(s1 & Hs & ->)|[(s1 & Hs & ->)|(s1 & Hs & ->)]]; cbn [sbind]; try discriminate.
  intro H; injection H as <- <-. destruct Hs as [->|[r ->]]; vsimpl; auto.
Qed.

(* the FIN goes out as soon as it directly follows the last number sent and the transport takes it *)
Theorem maybe_send_fin_sends : forall (s : vsock) f s1,
  v_transport_pending s = false -> our_fin_if_unacked (v_state s) = Some f ->
  seq_sub f (v_last_sent_seq_nr s) = 1 -> next_send s 20 = (s1, TSent) ->
  exists s', maybe_send_fin s = SOk s' true.
Proof.
  intros s f s1 Hp Hf H1 Hn. unfold maybe_send_fin, send_control_packet. rewrite Hp, Hf, H1.
  cbn [Z.eqb negb hdr_with ch_sack fit_sack]. unfold fit_sack. cbn [ch_sack].
  replace (if 30 <=? o_tmp_buf_len (v_opts s) then None else None) with (@None sackbits)
    by (destruct (30 <=? _); reflexivity).
  rewrite Hn. cbn [sbind]. eexists; reflexivity.
Qed.

(* transition_to_fin_wait_1 numbers the FIN with seq_nr and takes that number *)
Theorem transition_spec : forall s : vsock,
  is_local_fin_or_later (v_state s) = false ->
  v_state (transition_to_fin_wait_1 s) = FinWait1 (v_seq_nr s) /\
  v_seq_nr (transition_to_fin_wait_1 s) = wadd16 (v_seq_nr s) 1 /\
  v_out (transition_to_fin_wait_1 s) = v_out s /\
  v_last_sent_seq_nr (transition_to_fin_wait_1 s) = v_last_sent_seq_nr s.
Proof.
  intros s H. unfold transition_to_fin_wait_1.
  destruct (v_state s); cbn [is_local_fin_or_later] in H; try discriminate; vsimpl; auto.
Qed.

Theorem transition_noop : forall s : vsock,
  is_local_fin_or_later (v_state s) = true -> transition_to_fin_wait_1 s = s.
Proof.
  intros s H. unfold transition_to_fin_wait_1.
  destruct (v_state s); cbn [is_local_fin_or_later] in H; try discriminate; reflexivity.
Qed.

(* poll_body closes on its own initiative only under this guard (it is the `if` of body_rest) *)
Theorem should_close_guard : forall s : vsock,
  should_close_on_own_initiative s = true ->
  ((reader_dropped (v_rx s) = true /\ writer_dropped (v_tx s) = true) \/ writer_shutdown (v_tx s) = true) /\
  unsent_data_exists s = false /\ is_local_fin_or_later (v_state s) = false.
Proof.
  intros s H. unfold should_close_on_own_initiative in H.
  apply andb_prop in H as (H & H3). apply andb_prop in H as (H1 & H2).
  apply negb_true_iff in H2, H3. apply orb_prop in H1. split; [|auto].
  destruct H1 as [H1|H1]; [left; apply andb_prop in H1; exact H1|right; exact H1].
Qed.

(* ---- FIN only after all accepted data ---- *)
(* `unsegmented_data` of this poll is what split_tx_queue_into_segments computes whenever it looks at
   a non-empty send buffer before the peer's FIN (since the repair of D10 also when it returns early
   on an outstanding MTU probe, see split_fresh_after): ring length minus segmented length, saturating *)
Definition split_fresh (s : vsock) : Prop :=
  v_unsegmented s = sat_sub (Z.of_nat (length (ring (v_tx s)))) (ss_len_bytes (v_segs s)).

Lemma in_iter_for_sending : forall (t : segments) g,
  In g (ss_segs t) -> sg_delivered g = false ->
  exists f, In f (iter_for_sending t None) /\ fs_seg f = g.
Proof.
  intros t g Hin Hd. unfold iter_for_sending. cbn [skipn].
  set (mk := fun '(i, s0) => {| fs_idx := i; fs_seq := wadd16 (ss_snd_una t) (Z.of_nat i mod M16);
                               fs_payload_offset := sg_abs s0 - ss_removed t; fs_seg := s0 |}).
  assert (G : forall l i, In g l -> exists f, In f (map mk (enum_from i l)) /\ fs_seg f = g).
  { induction l as [|x l IH]; intros i Hi; [destruct Hi|].
    cbn [enum_from map]. destruct Hi as [->|Hi].
    - eexists; split; [left; reflexivity|reflexivity].
    - destruct (IH (S i) Hi) as (f & Hf & Hg). exists f; split; [right; exact Hf|exact Hg]. }
  destruct (G (ss_segs t) O Hin) as (f & Hf & Hg). exists f. split; [|exact Hg].
  apply filter_In. split; [exact Hf|]. rewrite Hg, Hd. reflexivity.
Qed.

(* no unsent data: every segment still in the table was delivered or sent at least once *)
Lemma all_sent_of_guard (s : vsock) :
  unsent_data_exists s = false ->
  forall g, In g (ss_segs (v_segs s)) -> sg_delivered g = true \/ seg_send_count g <> 0.
Proof.
  intros Hu g Hin. unfold unsent_data_exists in Hu. apply orb_false_iff in Hu as (_ & Hu2).
  destruct (sg_delivered g) eqn:Hd; [left; reflexivity|right].
  destruct (in_iter_for_sending _ _ Hin Hd) as (f & Hfin & Hg).
  assert (Hx : (seg_send_count (fs_seg f) =? 0) = false).
  { destruct (seg_send_count (fs_seg f) =? 0) eqn:E; [|reflexivity].
    rewrite <- Hu2. symmetry. apply existsb_exists. exists f; split; [assumption|].
    rewrite E. reflexivity. }
  rewrite Hg in Hx. apply Z.eqb_neq in Hx. exact Hx.
Qed.

Theorem fin_after_all_data : forall s : vsock,
  should_close_on_own_initiative s = true -> split_fresh s ->
  Z.of_nat (length (ring (v_tx s))) <= ss_len_bytes (v_segs s) /\
  (forall g, In g (ss_segs (v_segs s)) -> sg_delivered g = true \/ seg_send_count g <> 0).
Proof.
  intros s H Hf. apply should_close_guard in H as (_ & Hu & _).
  split; [|apply all_sent_of_guard; exact Hu].
  unfold unsent_data_exists in Hu. apply orb_false_iff in Hu as (Hu1 & _).
  unfold split_fresh, sat_sub in Hf. lia.
Qed.

(* segmentation that runs to its end leaves `unsegmented` fresh *)
Lemma segment_loop_rem : forall fuel nagle ss segs rem rwr ss' segs' rem',
  segment_loop fuel nagle ss segs rem rwr = Some (ss', segs', rem') ->
  rem' = rem - (ss_len_bytes segs' - ss_len_bytes segs) /\ (0 <= rem -> 0 <= rem').
Proof.
  induction fuel as [|x fuel IH]; intros nagle ss segs rem rwr ss' segs' rem'; cbn [segment_loop].
  { intro H; injection H as <- <- <-. lia. }
  destruct (_ && _); [|intro H; injection H as <- <- <-; lia].
  destruct (next_segment_size ss) as [[ss1 sz]|]; [|discriminate].
  cbv zeta. destruct (_ && _ && _); [intro H; injection H as <- <- <-; lia|].
  destruct (_ <? _).
  - intro H; injection H as <- <- <-. unfold enqueue, Segments.set_segs. cbn [ss_len_bytes]. lia.
  - intro H. apply IH in H. unfold enqueue, Segments.set_segs in H. cbn [ss_len_bytes] in H. lia.
Qed.

Lemma segment_loop_len : forall fuel nagle ss segs rem rwr ss' segs' rem',
  segment_loop fuel nagle ss segs rem rwr = Some (ss', segs', rem') ->
  rem' = rem - (ss_len_bytes segs' - ss_len_bytes segs).
Proof. intros fuel nagle ss segs rem rwr ss' segs' rem' H. apply (segment_loop_rem _ _ _ _ _ _ _ _ _ H). Qed.

(* the part of split_tx_queue_into_segments after the MTU-probe decision *)
Lemma split_cont_fresh (s2 s' : vsock) tl :
  tl = Z.of_nat (length (ring (v_tx s2))) ->
  (if tl <? ss_len_bytes (v_segs s2) then SErr s2 (ErrBug BugInBufferComputations)
   else match segment_loop (ring (v_tx s2)) (o_nagle (v_opts s2)) (v_ss s2) (v_segs s2)
                (tl - ss_len_bytes (v_segs s2)) (v_last_remote_window s2) with
        | Some (ss', segs', remaining) =>
            SOk (set_unsegmented (set_segs (set_ss s2 ss') segs') remaining) tt
        | None => SPanic
        end) = SOk s' tt ->
  split_fresh s'.
Proof.
  intros Htl. destruct (Z.ltb_spec tl (ss_len_bytes (v_segs s2))) as [Hlt|Hge]; [discriminate|].
  destruct (segment_loop _ _ _ _ _ _) as [[[ss' segs'] rem]|] eqn:E; [|discriminate].
  intro H; injection H as <-. unfold split_fresh. vsimpl.
  destruct (segment_loop_rem _ _ _ _ _ _ _ _ _ E) as [Hl Hn].
  unfold sat_sub. lia.
Qed.

(* every segmentation that looks at a non-empty send buffer before the peer's FIN leaves
   `unsegmented` fresh - also the early return on an outstanding MTU probe (repair of D10).
   (With an empty buffer, or after the peer's FIN, the function returns before it touches the field;
   in the second case the state is LastAck / Closed and no FIN is decided any more.) *)
Theorem split_fresh_after : forall (s s' : vsock),
  split_tx_queue_into_segments cci s = SOk s' tt ->
  is_remote_fin_or_later (v_state s) = false -> ring (v_tx s) <> [] -> split_fresh s'.
Proof.
  intros s s' H Hst Hne. unfold split_tx_queue_into_segments in H. cbv zeta in H.
  destruct (Z.eqb_spec (Z.of_nat (length (ring (v_tx s)))) 0) as [E0|E0].
  { destruct (ring (v_tx s)); [congruence|cbn [length] in E0; lia]. }
  revert H.
  match goal with |- (if is_remote_fin_or_later (v_state ?x) then _ else _) = _ -> _ =>
    assert (F : v_state x = v_state s /\ ring (v_tx x) = ring (v_tx s)); [|revert F; generalize x; intros s1 (F1 & F2)] end.
  { destruct (_ && _); [|split; reflexivity]. unfold grow.
    destruct (_ <=? _); cbn [fst snd]; [vsimpl; split; reflexivity|].
    unfold wake_writer, add_wakes. vsimpl. cbn [ring upd]. split; reflexivity. }
  rewrite F1, Hst.
  destruct (pop_expired_mtu_probe _ _ _) as [segs1 pe]. destruct pe.
  - apply split_cont_fresh. destruct (seq_gt _ _); vsimpl; rewrite F2; reflexivity.
  - intro H; injection H as <-. unfold split_fresh. vsimpl. rewrite F2. reflexivity.
  - apply split_cont_fresh. rewrite F2; reflexivity.
Qed.

(* with an empty send buffer the function only registers the dispatcher waker *)
Theorem split_empty_ring : forall s : vsock,
  ring (v_tx s) = [] ->
  split_tx_queue_into_segments cci s = SOk (set_tx s (register_dispatcher_if_empty (v_tx s))) tt.
Proof. intros s H. unfold split_tx_queue_into_segments. rewrite H. reflexivity. Qed.

(* ---- between the segmentation and the decision to close: send_tx_queue ---- *)
(* what send_tx_queue leaves alone, unless it pops a failed MTU probe and asks for a restart of the poll *)
Definition uframe (s s' : vsock) : Prop :=
  v_unsegmented s' = v_unsegmented s /\ ring (v_tx s') = ring (v_tx s) /\
  ss_len_bytes (v_segs s') = ss_len_bytes (v_segs s).

Lemma uframe_refl s : uframe s s.
Proof. unfold uframe. auto. Qed.

Lemma uframe_trans a b c : uframe a b -> uframe b c -> uframe a c.
Proof. unfold uframe. intros (A1 & A2 & A3) (B1 & B2 & B3). repeat split; congruence. Qed.

Definition sufr_r {A} (s : vsock) (m : step A) : Prop :=
  match m with SOk s' _ => uframe s s' \/ v_restart s' = true | _ => True end.

Ltac uf_triv := unfold uframe; vsimpl; repeat split; reflexivity.
Ltac abs_as t F z := revert F; generalize t; intros z F.

Lemma uframe_set_transport_pending s x : uframe s (set_transport_pending s x).
Proof. uf_triv. Qed.

(* as a relation through the functions of send_tx_queue: uframe, unless a restart has been asked for *)
Definition ufr (s s' : vsock) : Prop := v_restart s' = false -> uframe s s' /\ v_restart s = false.

Lemma ufr_refl s : ufr s s.
Proof. intro H. split; [apply uframe_refl|exact H]. Qed.

Lemma ufr_trans a b c : ufr a b -> ufr b c -> ufr a c.
Proof.
  intros F G H. destruct (G H) as [G1 G2]. destruct (F G2) as [F1 F2].
  split; [eapply uframe_trans; eauto|exact F2].
Qed.

Lemma ufr_of s s' : uframe s s' -> v_restart s' = v_restart s -> ufr s s'.
Proof. intros U E H. split; [exact U|congruence]. Qed.

(* on_sent keeps the segmented length: by conversion *)
Lemma ufr_data_sent s p f : ufr s (VSock_LemmasTx.sent_state s p f).
Proof.
  unfold VSock_LemmasTx.sent_state, on_packet_sent, emit.
  destruct (seq_gt _ _); try destruct (seq_gt _ _); (apply ufr_of; [uf_triv|reflexivity]).
Qed.

Lemma ufr_on_rto s s' : on_rto_reactions cci s = Some s' -> ufr s s'.
Proof.
  unfold on_rto_reactions. destruct (on_rto_timeout _); [|discriminate].
  intro H; injection H as <-. apply ufr_of; [uf_triv|reflexivity].
Qed.

(* ufr contains every elementary update of send_tx_queue (VSock_LemmasReach, Section StepRel); the
   one that sets the restart flag (a failed MTU probe popped) is in it for that reason *)
Ltac ufr_leaf :=
  first [ exact ufr_data_sent | exact ufr_on_rto
        | intros; unfold on_packet_sent, emit, set_recovering; apply ufr_of; [uf_triv|reflexivity]
        | intros; let H := fresh in intro H; discriminate H ].

Theorem send_tx_queue_uframe s : sufr_r s (send_tx_queue cci s).
Proof.
  assert (H : VSock_LemmasStep.stR ufr s (send_tx_queue cci s))
    by (apply (VSock_LemmasReach.send_tx_queue_R cci ufr ufr_refl ufr_trans); ufr_leaf).
  destruct (send_tx_queue cci s) as [s' u|s' e|]; cbn [VSock_LemmasStep.stR sufr_r] in *; auto.
  destruct (v_restart s') eqn:R; [right; reflexivity|left; exact (proj1 (H R))].
Qed.

(* the composition as it appears in poll_body:
     bail (split_tx_queue_into_segments s4) (fun s5 _ => pend (send_tx_queue s5) (fun s6 _ =>
       let s := if should_close_on_own_initiative s6 then transition_to_fin_wait_1 s6 else s6 in ...
   (pend hands s6 on only when no restart was requested).  FIN only after all accepted data, with NO
   hypothesis on `unsegmented`: whenever a poll that looked at a non-empty send buffer before the peer's
   FIN decides to close, every byte of the buffer is segmented and every segment was sent at least once *)
Theorem fin_after_all_data_in_poll : forall (s4 s5 s6 : vsock),
  split_tx_queue_into_segments cci s4 = SOk s5 tt ->
  is_remote_fin_or_later (v_state s4) = false -> ring (v_tx s4) <> [] ->
  send_tx_queue cci s5 = SOk s6 tt -> v_restart s6 = false ->
  should_close_on_own_initiative s6 = true ->
  Z.of_nat (length (ring (v_tx s6))) <= ss_len_bytes (v_segs s6) /\
  (forall g, In g (ss_segs (v_segs s6)) -> sg_delivered g = true \/ seg_send_count g <> 0).
Proof.
  intros s4 s5 s6 Hsp Hst Hne Htx Hr Hc.
  pose proof (split_fresh_after s4 s5 Hsp Hst Hne) as Hf.
  pose proof (send_tx_queue_uframe s5) as Hu. rewrite Htx in Hu. cbn [sufr_r] in Hu.
  destruct Hu as [(U1 & U2 & U3)|Hu]; [|congruence].
  apply fin_after_all_data; [exact Hc|].
  unfold split_fresh in *. rewrite U1, U2, U3. exact Hf.
Qed.

(* ---- the number of the next NEW packet never moves backwards (repair of D13) ---- *)
(* send_data either leaves seq_nr alone or raises it (in the circular order) to one past the
   segment just sent; an error leaves it alone *)
Theorem send_data_seq_nr_mono : forall (s s' : vsock) h f r,
  send_data s h f = SOk s' r ->
  v_seq_nr s' = v_seq_nr s \/
  (v_seq_nr s' = wadd16 (fs_seq f) 1 /\ seq_gt (wadd16 (fs_seq f) 1) (v_seq_nr s) = true /\
   v_last_sent_seq_nr s' = fs_seq f).
Proof.
  intros s s' h f r. unfold send_data.
  destruct (_ =? _); [discriminate|].
  destruct (_ <? 0); [discriminate|]. destruct (_ <? _); [discriminate|].
  destruct (_ <? _); [discriminate|].
  destruct (next_send s _) as [s1 o] eqn:E. apply next_send_same in E.
  destruct o; try discriminate.
  - cbv zeta. unfold on_packet_sent, emit.
    destruct E as [->|[q ->]]; vsimpl;
      (destruct (seq_gt (fs_seq f) (v_last_sent_seq_nr s));
       [destruct (seq_gt (wadd16 (fs_seq f) 1) (v_seq_nr s)) eqn:Eg|]);
      intro H; injection H as <- _; vsimpl; auto.
  - intro H; injection H as <- _. destruct E as [->|[q ->]]; vsimpl; auto.
  - intro H; injection H as <- _. destruct E as [->|[q ->]]; vsimpl; auto.
Qed.

Theorem send_data_err_seq_nr : forall (s s' : vsock) h f e,
  send_data s h f = SErr s' e -> v_seq_nr s' = v_seq_nr s.
Proof.
  intros s s' h f e. unfold send_data.
  destruct (_ =? _); [intro H; injection H as <- _; reflexivity|].
  destruct (_ <? 0); [discriminate|].
  destruct (_ <? _); [intro H; injection H as <- _; reflexivity|].
  destruct (_ <? _); [intro H; injection H as <- _; reflexivity|].
  destruct (next_send s _) as [s1 o] eqn:E. apply next_send_same in E.
  destruct o; try discriminate.
  intro H; injection H as <- _. destruct E as [->|[q ->]]; vsimpl; auto.
Qed.


(* ================================================================== (d) the peer's FIN *)
Lemma seq_sub_refl x : seq_sub x x = 0.
Proof. unfold seq_sub, seq_nr_offset. rewrite Z.ltb_irrefl, Z.eqb_refl. reflexivity. Qed.

(* out of sequence: the message is consumed and NOTHING else happens (same state returned);
   since the repair of D19 also while our SYN-ACK is unanswered *)
Theorem peer_fin_out_of_sequence : forall (s : vsock) m,
  ch_type (m_hdr m) = ST_FIN ->
  ((exists k, v_state s = SynAckSent k) \/
   v_state s = Established \/ (exists f, v_state s = FinWait1 f) \/ v_state s = FinWait2) ->
  ~ in_seq s (m_hdr m) ->
  process_incoming_message cci s m = SOk s on_ack_result_default.
Proof.
  intros s m Ht Hs Hn. unfold process_incoming_message. cbv zeta.
  destruct (transition_table s (m_hdr m)) as (_&_&_&_&_&_&_&R7a&_&_&R10&_).
  destruct Hs as [[k Hs]|Hs].
  - rewrite (R7a k Ht Hs Hn). reflexivity.
  - rewrite (R10 Ht Hs Hn). reflexivity.
Qed.

(* in sequence, from Established: consumed, immediate ACK forced, our FIN numbered seq_nr, the
   writer is told the stream is closed; nothing is put on the wire by this function *)
Theorem peer_fin_in_sequence_established : forall (s : vsock) m s' r,
  v_state s = Established -> ch_type (m_hdr m) = ST_FIN -> in_seq s (m_hdr m) ->
  process_incoming_message cci s m = SOk s' r ->
  v_state s' = LastAck (v_seq_nr s) (ch_seq (m_hdr m)) /\ v_seq_nr s' = wadd16 (v_seq_nr s) 1 /\
  v_last_consumed s' = ch_seq (m_hdr m) /\ v_cbu s' = USIZE_MAX /\
  t_vsock_closed (v_tx s') = true /\ v_out s' = v_out s /\
  v_last_sent_seq_nr s' = v_last_sent_seq_nr s.
Proof.
  intros s m s' r Hs Ht Hi. unfold process_incoming_message. cbv zeta.
  destruct (transition_table s (m_hdr m)) as (_&_&_&_&_&_&_&_&_&_&_&R11&_).
  rewrite (R11 Ht Hs Hi). rewrite Hs. cbn [is_remote_fin_or_later negb].
  destruct (remove_up_to_ack _ _ _ _) as [segs1 res].
  match goal with |- context [match ?o with Some rtte1 => _ | None => SPanic end] => destruct o as [rtte1|] end;
    [|discriminate].
  destruct (cc_on_ack _ _ _ _ _) as [cc3|]; [|discriminate].
  destruct (recovery_on_ack _ _ _ _ _ _ _ _) as [[[rec1 segs2] cc4]|]; [|discriminate].
  rewrite Ht.
  match goal with |- context [set_last_consumed (force_immediate_ack ?x) _] =>
    assert (F : v_state x = LastAck (v_seq_nr s) (ch_seq (m_hdr m)) /\ v_seq_nr x = wadd16 (v_seq_nr s) 1 /\
                v_last_consumed x = v_last_consumed s /\ v_out x = v_out s /\
                v_last_sent_seq_nr x = v_last_sent_seq_nr s) by (vsimpl; repeat split);
    revert F; generalize x; intros s2 (F1 & F2 & F3 & F4 & F5) end.
  unfold in_seq in Hi. rewrite F3, <- Hi, seq_sub_refl. cbn [Z.leb Z.compare andb].
  destruct (rx_add_remove _ _ _ _) as [[rx1 ar] w]. destruct ar as [ra|]; [|discriminate].
  destruct (add_err ra); [discriminate|].
  unfold mark_vsock_closed, add_wakes, force_immediate_ack. intro H; injection H as <- <-.
  vsimpl. cbn [t_vsock_closed upd]. repeat split; assumption.
Qed.

(* ================================================================== (e) RESET *)
Definition past_handshake (st : vstate) : bool :=
  match st with SynReceived | SynAckSent _ => false | _ => true end.

Lemma reset_message_err : forall (s : vsock) m,
  ch_type (m_hdr m) = ST_RESET ->
  (forall f r, v_state s = LastAck f r -> ch_ack (m_hdr m) <> f) ->
  process_incoming_message cci s m = SErr (set_state s Closed) ErrStResetReceived.
Proof.
  intros s m Ht Hn. unfold process_incoming_message. cbv zeta.
  destruct (transition_table s (m_hdr m)) as (_&R2&_). rewrite (R2 Ht Hn). reflexivity.
Qed.

Lemma reset_message_acks_fin : forall (s : vsock) m f r,
  ch_type (m_hdr m) = ST_RESET -> v_state s = LastAck f r -> ch_ack (m_hdr m) = f ->
  process_incoming_message cci s m = SOk (set_state s Closed) on_ack_result_default.
Proof.
  intros s m f r Ht Hs Ha. unfold process_incoming_message. cbv zeta.
  destruct (transition_table s (m_hdr m)) as (R1&_). rewrite (R1 f r Ht Hs Ha). reflexivity.
Qed.

(* a reset at the head of the inbox, past the handshake, not acknowledging our FIN in LastAck:
   the poll reports it at once; NOTHING is put on the wire in that poll (no FIN, no reply: the state
   is Closed when just_before_death looks at it); both halves closed, the error queued for the reader *)
Theorem reset_err_poll : forall (s : vsock) script m rest,
  past_handshake (v_state s) = true -> vsock_closed (v_rx s) = false ->
  immediate_ack_to_transmit s = false ->
  v_inbox s = m :: rest -> ch_type (m_hdr m) = ST_RESET ->
  (forall f r, v_state s = LastAck f r -> ch_ack (m_hdr m) <> f) ->
  exists s', poll cci (set_sends s script) = (s', PollReadyErr ErrStResetReceived) /\
    v_out s' = [] /\ v_state s' = Closed /\ both_closed s' /\ reader_waker (v_rx s') = false /\
    q (v_rx s') = q (v_rx s) ++ [QError] /\ v_inbox s' = rest.
Proof.
  intros s script m rest Hp Hlive Himm Hin Ht Hn.
  unfold poll. set (s0 := set_arm_in (set_wakes (set_out (set_sends s script) []) []) None).
  change (poll_loop cci 64 s0) with
    (match poll_body cci s0 with
     | BrReturn s' r => (s', r) | BrRestart s' => poll_loop cci 63 s' | BrPanic => (s0, PollPanic) end).
  rewrite poll_body_decomp.
  assert (Hsyn : maybe_send_syn_ack (body_start s0) = SOk (set_t_syn_ack_resend (body_start s0) None) tt).
  { unfold maybe_send_syn_ack. change (v_state (body_start s0)) with (v_state s).
    destruct (v_state s); try discriminate; reflexivity. }
  rewrite Hsyn. set (s1 := set_t_syn_ack_resend (body_start s0) None).
  unfold pend at 1, bail at 1.
  change (v_restart s1) with false. change (v_transport_pending s1) with false. cbv beta iota.
  unfold body_rest.
  change (immediate_ack_to_transmit s1) with (immediate_ack_to_transmit s). rewrite Himm.
  unfold pend at 1, bail at 1.
  change (v_restart s1) with false. change (v_transport_pending s1) with false. cbv beta iota.
  unfold process_all_incoming_messages.
  change (v_inbox s1) with (v_inbox s). rewrite Hin. cbn [app recv_loop].
  change (v_inbox s1) with (v_inbox s). rewrite Hin.
  rewrite (reset_message_err (set_inbox s1 rest) m Ht Hn). cbn [sbind].
  unfold pend at 1, bail at 1, die.
  eexists. split; [reflexivity|].
  pose proof (just_before_death_spec (set_state (set_inbox s1 rest) Closed) (Some ErrStResetReceived) Hlive) as H.
  cbv zeta in H. destruct H as (B & Hrw & Hst & _ & _ & _ & Hq & _ & _ & Hout).
  split; [rewrite Hout; [reflexivity|right; reflexivity]|].
  split; [rewrite Hst; reflexivity|]. split; [exact B|]. split; [exact Hrw|].
  split; [rewrite Hq; reflexivity|].
  unfold just_before_death. cbv zeta. cbn [is_local_fin_or_later negb v_state set_state].
  unfold mark_both_closed, rx_enqueue_error, rx_mark_vsock_closed, mark_vsock_closed, add_wakes. vsimpl.
  cbn [vsock_closed set_flags]. change (vsock_closed (v_rx s1)) with (vsock_closed (v_rx s)). rewrite Hlive.
  vsimpl. reflexivity.
Qed.

(* the reset that acknowledges our FIN in LastAck closes cleanly; the rest of the inbox is left
   unread in that poll (the loop stops on Closed) and the poll goes on (flush, inactivity check,
   segmentation, send_tx_queue, maybe_send_ack may still emit) before just_before_death(None) *)
Theorem reset_ok_recv_loop : forall (s : vsock) m rest f r fuel acc x,
  v_inbox s = m :: rest -> ch_type (m_hdr m) = ST_RESET -> v_state s = LastAck f r ->
  ch_ack (m_hdr m) = f ->
  recv_loop cci (x :: fuel) s acc =
  SOk (set_state (set_inbox s rest) Closed) (result_update acc on_ack_result_default, false).
Proof.
  intros s m rest f r fuel acc x Hin Ht Hs Ha. cbn [recv_loop]. rewrite Hin.
  rewrite (reset_message_acks_fin (set_inbox s rest) m f r Ht Hs Ha). cbn [sbind].
  vsimpl. cbn [state_is_closed orb]. reflexivity.
Qed.

(* ================================================================== (a) SYN-ACK *)
Lemma timer_arm_restart t now d : timer_arm t now d true = Some (now + d).
Proof. destruct t; reflexivity. Qed.

Theorem maybe_send_syn_ack_spec : forall s : vsock,
  v_transport_pending s = false ->
  let due := match v_state s with
             | SynReceived => true
             | SynAckSent _ => timer_expired (v_t_syn_ack_resend s) (v_now s)
             | _ => false end in
  let k0 := match v_state s with SynAckSent k => k | _ => 0 end in
  let handshaking := match v_state s with SynReceived | SynAckSent _ => true | _ => false end in
  (handshaking = false -> maybe_send_syn_ack s = SOk (set_t_syn_ack_resend s None) tt) /\
  (handshaking = true -> due = false -> maybe_send_syn_ack s = SOk s tt) /\
  (handshaking = true -> due = true -> k0 = o_max_retx (v_opts s) ->
     maybe_send_syn_ack s = SErr s ErrMaxSynAckRetransmissionsReached) /\
  (handshaking = true -> due = true -> k0 <> o_max_retx (v_opts s) ->
     (exists s1 p h, same_but_sends s s1 /\
        maybe_send_syn_ack s =
          SOk (set_t_syn_ack_resend (set_state (on_packet_sent (emit s1 p) h) (SynAckSent (k0 + 1)))
                 (Some (v_now s + SYNACK_RESEND_INTERNAL))) tt /\
        ch_type (p_hdr p) = ST_STATE /\ ch_seq (p_hdr p) = v_seq_nr s /\
        ch_ack (p_hdr p) = v_last_consumed s /\ p_payload p = []) \/
     (exists s1, same_but_sends s s1 /\ maybe_send_syn_ack s = SOk (set_transport_pending s1 true) tt) \/
     (exists s1, same_but_sends s s1 /\ maybe_send_syn_ack s = SErr s1 ErrSend)).
Proof.
  intros s Hp. cbv zeta.
  assert (G : forall c, c <> o_max_retx (v_opts s) ->
    let go := if c =? o_max_retx (v_opts s) then SErr s ErrMaxSynAckRetransmissionsReached
              else sbind (send_ack s) (fun s1 sent => if sent then
                SOk (set_t_syn_ack_resend (set_state s1 (SynAckSent (c + 1)))
                      (timer_arm (v_t_syn_ack_resend s1) (v_now s1) SYNACK_RESEND_INTERNAL true)) tt
                else SOk s1 tt) in
    (exists s1 p h, same_but_sends s s1 /\
        go = SOk (set_t_syn_ack_resend (set_state (on_packet_sent (emit s1 p) h) (SynAckSent (c + 1)))
                 (Some (v_now s + SYNACK_RESEND_INTERNAL))) tt /\
        ch_type (p_hdr p) = ST_STATE /\ ch_seq (p_hdr p) = v_seq_nr s /\
        ch_ack (p_hdr p) = v_last_consumed s /\ p_payload p = []) \/
     (exists s1, same_but_sends s s1 /\ go = SOk (set_transport_pending s1 true) tt) \/
     (exists s1, same_but_sends s s1 /\ go = SErr s1 ErrSend)).
  { intros c Hc. cbv zeta. eqb_rw. unfold send_ack.
    set (H := hdr_with (outgoing_header s) ST_STATE (ch_seq (outgoing_header s)) (sack_of_rx (v_rx s))).
    destruct (send_control_packet_cases s H Hp)
      as [(s1 & Hs & ->)|[(s1 & Hs & ->)|(s1 & Hs & ->)]]; cbn [sbind].
    - left. exists s1. eexists. exists H. split; [exact Hs|]. rewrite timer_arm_restart.
      assert (Hnow : v_now (on_packet_sent (emit s1 {| p_hdr := hdr_with H (ch_type H) (ch_seq H) (fit_sack s (ch_sack H));
                                                       p_payload := [] |}) H) = v_now s)
        by (destruct Hs as [->|[r ->]]; reflexivity).
      rewrite Hnow. split; [reflexivity|]. repeat split.
    - right; left. exists s1; auto.
    - right; right. exists s1; auto. }
  unfold maybe_send_syn_ack. destruct (v_state s) eqn:Es.
  3-7: repeat split; intros; try discriminate; reflexivity.
  - repeat split; intros; try discriminate.
    + eqb_rw. reflexivity.
    + apply G; assumption.
  - repeat split; intros; try discriminate.
    + rewrite H0. reflexivity.
    + rewrite H0. eqb_rw. reflexivity.
    + rewrite H0. apply G; assumption.
Qed.

(* the configured number of SYN-ACKs went unanswered: the poll fails at once *)
Theorem synack_exhausted_poll : forall (s : vsock) script k,
  v_state s = SynAckSent k -> timer_expired (v_t_syn_ack_resend s) (v_env_now s) = true ->
  k = o_max_retx (v_opts s) -> vsock_closed (v_rx s) = false ->
  exists s', poll cci (set_sends s script) = (s', PollReadyErr ErrMaxSynAckRetransmissionsReached) /\
             v_state s' = SynAckSent k /\ both_closed s' /\ q (v_rx s') = q (v_rx s) ++ [QError].
Proof.
  intros s script k Hs Hexp Hk Hlive.
  unfold poll. set (s0 := set_arm_in (set_wakes (set_out (set_sends s script) []) []) None).
  change (poll_loop cci 64 s0) with
    (match poll_body cci s0 with
     | BrReturn s' r => (s', r) | BrRestart s' => poll_loop cci 63 s' | BrPanic => (s0, PollPanic) end).
  rewrite poll_body_decomp.
  assert (Hsyn : maybe_send_syn_ack (body_start s0) = SErr (body_start s0) ErrMaxSynAckRetransmissionsReached).
  { unfold maybe_send_syn_ack. change (v_state (body_start s0)) with (v_state s). rewrite Hs.
    change (timer_expired (v_t_syn_ack_resend (body_start s0)) (v_now (body_start s0)))
      with (timer_expired (v_t_syn_ack_resend s) (v_env_now s)). rewrite Hexp.
    change (o_max_retx (v_opts (body_start s0))) with (o_max_retx (v_opts s)). eqb_rw. reflexivity. }
  rewrite Hsyn. unfold pend, bail, die. eexists. split; [reflexivity|].
  pose proof (just_before_death_spec (body_start s0) (Some ErrMaxSynAckRetransmissionsReached) Hlive) as H.
  cbv zeta in H. destruct H as (B & _ & Hst & _ & _ & _ & Hq & _).
  split; [rewrite Hst; exact Hs|]. split; [exact B|exact Hq].
Qed.

End WithCC.

(* ================================================================== regression witnesses *)
(* a congestion controller with a constant window (the witnesses do not depend on CUBIC) *)
Definition fixed_cc (w : Z) : cc_iface unit :=
  {| cc_window := fun _ => w; cc_sshthresh := fun _ => w; cc_set_mss := fun c _ => c;
     cc_smss := fun _ => 528; cc_on_recovered := fun c _ _ => c; cc_on_ack := fun c _ _ _ => Some c;
     cc_on_rto := fun c _ => c; cc_on_enter_recovery := fun c _ => c;
     cc_set_remote_window := fun c _ => c |}.

Definition wit_cfg (mtu : Z) : vconfig :=
  {| vc_incoming := false; vc_ipv4 := true; vc_link_mtu := mtu; vc_rx_buf := 1048576;
     vc_tx_init := 32768; vc_tx_max := 1048576; vc_nagle := true; vc_max_retx := 5;
     vc_inactivity := 10000000000; vc_wait_last_ack := true; vc_mtu_probe_max_retx := 1;
     vc_isn := 100; vc_remote_seq := 1; vc_remote_conn_id := 7; vc_remote_wnd := 1048576;
     vc_remote_ts := 0; vc_syn_sent := 0; vc_now0 := 1000000000 |}.

(* D10 (repaired): 528 + 991 bytes written and sent (the second segment is an MTU probe, outstanding);
   100 more bytes written; both halves dropped; the next poll returns early from
   split_tx_queue_into_segments (PeNotExpired).  Before the repair `unsegmented` stayed 0 and the FIN
   was numbered 103 and sent while 100 bytes of the ring were never segmented; now `unsegmented` is
   100, the connection stays Established and no FIN is emitted *)
Definition d10_ops : list vop :=
  [VoWrite (repeat 7 1519); VoPoll []; VoWrite (repeat 9 100); VoDropReader; VoDropWriter; VoPoll []].

Definition d10_regression_b : bool :=
  match vsock_new (fixed_cc 4096) (fun _ _ => tt) (wit_cfg 1500) with
  | Some s0 =>
      let tr := ftrace (fixed_cc 4096) s0 d10_ops in
      forallb (c17_fin_after_data_ok (wit_cfg 1500)) tr &&
      c17_fin_seq_ok (wit_cfg 1500) tr &&
      negb (existsb (pkt_is ST_FIN) (all_pkts tr)) &&
      match last tr {| fs_now := 0; fs_pre := fp_of_vsock (fixed_cc 4096) s0; fs_event := FeFlush;
                       fs_result := FrNone; fs_disp_woken := false; fs_self_woken := false;
                       fs_post := fp_of_vsock (fixed_cc 4096) s0 |} with
      | st => match f_state (fs_post st), fs_result st with
              | Established, FrPoll PollPending _ _ _ =>
                  (f_tx_len (fs_post st) =? 1619) && (f_seg_len_bytes (fs_post st) =? 1519) &&
                  (f_unsegmented (fs_post st) =? 100)
              | _, _ => false
              end
      end
  | None => false
  end.

Theorem fin_overtakes_data_regression : d10_regression_b = true.
Proof. vm_compute. reflexivity. Qed.

(* D13 (repaired): three segments 101..103 sent; RTO resends 101 and rewinds last_sent_seq_nr to 101;
   the ack of 101 (window 528) lets 102 go out again.  Before the repair send_data set seq_nr := 103
   although segment 103 is still outstanding and the FIN took the number of a data segment; now
   seq_nr stays 104: both halves dropped, the FIN is numbered 104 (FinWait1 104), above the number of
   every data segment on the wire (103 among them) and of every segment still outstanding *)
Definition d13_ack : msg :=
  {| m_hdr := {| ch_type := ST_STATE; ch_conn_id := 0; ch_ts := 6; ch_ts_diff := 0; ch_wnd := 528;
                 ch_seq := 1; ch_ack := 101; ch_sack := None; ch_close_reason := None |};
     m_payload := [] |}.
Definition d13_ops : list vop :=
  [VoWrite (repeat 7 1584); VoPoll []; VoSetNow 8000000000; VoPoll []; VoDeliver d13_ack; VoPoll [];
   VoDropReader; VoDropWriter; VoPoll []].

Definition d13_regression_b : bool :=
  match vsock_new (fixed_cc 1584) (fun _ _ => tt) (wit_cfg 576) with
  | Some s0 =>
      let tr := ftrace (fixed_cc 1584) s0 d13_ops in
      c17_fin_seq_ok (wit_cfg 576) tr &&
      forallb (c17_fin_number_step_ok (wit_cfg 576)) tr &&
      forallb (c17_fin_after_data_ok (wit_cfg 576)) tr &&
      existsb (fun p => pkt_is ST_DATA p && (pkt_seq p =? 103)) (all_pkts tr) &&
      match last tr {| fs_now := 0; fs_pre := fp_of_vsock (fixed_cc 1584) s0; fs_event := FeFlush;
                       fs_result := FrNone; fs_disp_woken := false; fs_self_woken := false;
                       fs_post := fp_of_vsock (fixed_cc 1584) s0 |} with
      | st => match f_state (fs_post st) with
              | FinWait1 f =>
                  (f =? 104) && (f_seq_nr (fs_post st) =? 105) &&
                  (* above every data segment ever put on the wire ... *)
                  forallb (fun p => if pkt_is ST_DATA p then seq_lt (pkt_seq p) f else true) (all_pkts tr) &&
                  (* ... and above every segment still outstanding (snd_una + index) *)
                  negb (match f_segs (fs_post st) with [] => true | _ => false end) &&
                  seq_lt (wadd16 (f_snd_una (fs_post st))
                                 (Z.of_nat (length (f_segs (fs_post st))) - 1)) f
              | _ => false
              end
      end
  | None => false
  end.

Theorem fin_number_collides_with_data_regression : d13_regression_b = true.
Proof. vm_compute. reflexivity. Qed.
