(* C09 trace shift, layer 4: VirtualSocket::poll, one step of the connection-level trace, and the
   whole trace commute with the relabelling, and poll keeps the relabelled state inside its guard;
   the extracted predicate c09_shift_ok holds of the two model traces. *)
From Utp Require Import Base.Prelude Wire.SeqNr Wire.SeqNr_Proofs Wire.Header Rtt.Rtte Mtu.SegSizes Rx.Rx Tx.Ring
  Tx.Segments Conn.Recovery Conn.Msg Conn.VSockRec Conn.VSock Conn.VSockRun Conn.VObs
  Conn.C09_Pred Conn.C09_Shift Conn.C09_ShiftProofsSeq Conn.C09_ShiftProofsSeg Conn.C09_ShiftProofsRec
  Conn.C09_ShiftProofsTx Conn.C09_ShiftProofsIn.

Section Poll.
Variables da db dc : Z.
Context {CC : Type} (cci : cc_iface CC).
Notation vsock := (vsock CC).
Notation sh := (shift_vsock da db dc (CC:=CC)).
Notation so := (shift_out_hdr da db dc).
Notation si := (shift_in_hdr da db).
Notation sm := (shift_msg da db).
Notation sst := (shift_step da db dc (CC:=CC)).
Notation sbr := (shift_body_res da db dc (CC:=CC)).

Lemma ack_to_transmit_shift (s : vsock) : g_ack_to_transmit s = true ->
  ack_to_transmit (sh s) = ack_to_transmit s.
Proof.
  unfold g_ack_to_transmit, ack_to_transmit. intros G.
  shproj. now rewrite (cmp_ok_seq_gt db _ _ G).
Qed.

Lemma g_ack_to_transmit_shift (s : vsock) : g_ack_to_transmit s = true -> g_ack_to_transmit (sh s) = true.
Proof. unfold g_ack_to_transmit. apply cmp_ok_shift. Qed.

Lemma maybe_send_ack_shift (s : vsock) : g_ack_to_transmit s = true ->
  maybe_send_ack (sh s) = sst idf (maybe_send_ack s).
Proof.
  intros G. unfold maybe_send_ack.
  rewrite immediate_ack_shift, should_send_window_update_shift. shproj. rewrite (ack_to_transmit_shift s G).
  destruct (immediate_ack_to_transmit s); [apply send_ack_shift|].
  destruct (should_send_window_update s); [apply send_ack_shift|].
  destruct (timer_expired (v_t_ack_delay s) (v_now s)).
  - destruct (ack_to_transmit s); [apply send_ack_shift|reflexivity].
  - destruct (0 <? v_cbu s); reflexivity.
Qed.

Lemma maybe_send_syn_ack_shift (s : vsock) :
  maybe_send_syn_ack (sh s) = sst idf (maybe_send_syn_ack s).
Proof.
  unfold maybe_send_syn_ack. shproj.
  (* the two cases that send end in the same `go count`: SynReceived with count 0, and
     SynAckSent count once the resend timer has expired *)
  destruct (v_state s) as [|c| |f| |f r|]; cbn [shift_state]; try reflexivity;
    [|destruct (timer_expired (v_t_syn_ack_resend s) (v_now s)); [|reflexivity]].
  all: destruct (_ =? o_max_retx (v_opts s)); [reflexivity|].
  all: eapply (sbind_shift da db dc idf idf); [apply send_ack_shift|].
  all: intros s1 sent _; unfold idf; destruct sent; reflexivity.
Qed.

Lemma mark_both_closed_shift (s : vsock) : mark_both_closed (sh s) = sh (mark_both_closed s).
Proof.
  unfold mark_both_closed. shproj.
  destruct (rx_mark_vsock_closed (v_rx s)) as [rx1 w1]. destruct (mark_vsock_closed (v_tx s)) as [tx1 w2].
  reflexivity.
Qed.

Lemma just_before_death_shift (s : vsock) err :
  just_before_death (sh s) err = sh (just_before_death s err).
Proof.
  unfold just_before_death. destruct err as [e|].
  - shproj. destruct (rx_enqueue_error (v_rx s)) as [rx1 w].
    rewrite st_rx, add_wakes_shift, mark_both_closed_shift.
    set (s2 := mark_both_closed _).
    shproj. rewrite is_local_fin_shift.
    destruct (negb (is_local_fin_or_later (v_state s2))); [|reflexivity].
    rewrite outgoing_header_shift, hdr_with_shift, sh16_wadd16, st_seq_nr, send_control_packet_shift.
    destruct (send_control_packet _ _) as [s4 b|s4 e'|]; reflexivity.
  - apply mark_both_closed_shift.
Qed.

Lemma existsb_map {A B} (f : B -> bool) (g : A -> B) l : existsb f (map g l) = existsb (fun x => f (g x)) l.
Proof. induction l as [|x r IH]; [reflexivity|]. cbn [map existsb]. now rewrite IH. Qed.

Lemma unsent_data_exists_shift (s : vsock) : unsent_data_exists (sh s) = unsent_data_exists s.
Proof.
  unfold unsent_data_exists. shproj. rewrite iter_for_sending_shift_none, existsb_map.
  reflexivity.
Qed.

Lemma should_close_shift (s : vsock) :
  should_close_on_own_initiative (sh s) = should_close_on_own_initiative s.
Proof.
  unfold should_close_on_own_initiative.
  shproj. rewrite unsent_data_exists_shift. now rewrite is_local_fin_shift.
Qed.

Lemma next_timer_shift (s : vsock) :
  next_timer_to_poll (sh s) = (sh (fst (next_timer_to_poll s)), snd (next_timer_to_poll s)).
Proof. unfold next_timer_to_poll. shproj. destruct (v_transport_pending s); reflexivity. Qed.

Lemma arm_in_shift (s : vsock) d : arm_in (sh s) d = sh (arm_in s d).
Proof. unfold arm_in. destruct (d <=? 0); reflexivity. Qed.

Lemma die_shift (s : vsock) e : die (sh s) e = sbr (die s e).
Proof. unfold die. rewrite just_before_death_shift. reflexivity. Qed.

(* the two early exits of poll_body, with a guarded continuation: the relabelled run commutes and
   stays inside the guard *)
Lemma bail_shift {A} (fa : A -> A) (m m' : step (CC:=CC) A) k k' (gk gk' : vsock -> A -> bool) :
  m' = sst fa m -> gbail m gk = true ->
  (forall s a, gk s a = true -> k' (sh s) (fa a) = sbr (k s a) /\ gk' (sh s) (fa a) = true) ->
  bail m' k' = sbr (bail m k) /\ gbail m' gk' = true.
Proof.
  intros -> G H. destruct m as [s a|s e|]; cbn [bail shift_step gbail] in *.
  - shproj. destruct (v_restart s); [now split|now apply H].
  - split; [apply die_shift|reflexivity].
  - now split.
Qed.

Lemma pend_shift {A} (fa : A -> A) (m m' : step (CC:=CC) A) k k' (gk gk' : vsock -> A -> bool) :
  m' = sst fa m -> gpend m gk = true ->
  (forall s a, gk s a = true -> k' (sh s) (fa a) = sbr (k s a) /\ gk' (sh s) (fa a) = true) ->
  pend m' k' = sbr (pend m k) /\ gpend m' gk' = true.
Proof.
  intros E G H. unfold pend, gpend in *. eapply bail_shift; [exact E|exact G|].
  intros s a Gk. cbv beta in Gk. shproj.
  destruct (v_transport_pending s); [now split|]. destruct (v_restart s); [now split|]. now apply H.
Qed.

Lemma gpend_true {A} (m : step (CC:=CC) A) : gpend m (fun _ _ => true) = true.
Proof.
  unfold gpend, gbail. destruct m as [s a| |]; try reflexivity.
  destruct (v_restart s); [reflexivity|]. destruct (v_transport_pending s); reflexivity.
Qed.

Lemma poll_body_shift (s0 : vsock) : g_poll_body cci s0 = true ->
  poll_body cci (sh s0) = sbr (poll_body cci s0) /\ g_poll_body cci (sh s0) = true.
Proof.
  unfold g_poll_body, poll_body. intros G.
  shproj. rewrite st_transport_pending, st_now, st_restart.
  set (s := set_restart _ false) in *.
  eapply (pend_shift idf). { apply maybe_send_syn_ack_shift. } { exact G. }
  clear G s. intros s u G. cbv beta in G.
  eapply (pend_shift idf).
  { rewrite immediate_ack_shift. destruct (immediate_ack_to_transmit s); [apply send_ack_shift|reflexivity]. }
  { exact G. }
  clear G s u. intros s b G. cbv beta in G. apply andb_true_iff in G as [Ga G].
  destruct (process_all_shift_guard da db dc cci s Ga) as [E ->]. cbn [andb].
  eapply (pend_shift idf). { exact E. } { exact G. }
  clear Ga G E s b. intros s u G. cbv beta in G.
  shproj. destruct (rx_flush (v_rx s)) as [[rx1 fr] w]. destruct fr as [fb|]; [|now split].
  rewrite st_rx, add_wakes_shift.
  set (s' := add_wakes (set_rx s rx1) (rx_wakes w)) in *.
  shproj.
  destruct (timer_expired (v_t_inactivity s') (v_now s')); [split; [apply die_shift|reflexivity]|].
  apply andb_true_iff in G as [Ga G].
  rewrite (g_split_shift da db dc cci s' Ga). cbn [andb].
  eapply (bail_shift idf). { now apply split_shift. } { exact G. }
  clear Ga G s' s u. intros s u G. cbv beta in G. apply andb_true_iff in G as [Ga G].
  destruct (send_tx_queue_shift_guard da db dc cci s Ga) as [E ->]. cbn [andb].
  eapply (pend_shift idf). { exact E. } { exact G. }
  clear Ga G E s u. intros s u G. cbv beta zeta in G.
  rewrite should_close_shift.
  cbv zeta. rewrite transition_to_fin_wait_1_shift, (sh_if da db dc).
  set (s' := if should_close_on_own_initiative s then _ else s) in *.
  apply andb_true_iff in G as [Ga G].
  rewrite (g_maybe_send_fin_shift da db dc s' Ga). cbn [andb].
  eapply (pend_shift idf). { now apply maybe_send_fin_shift. } { exact G. }
  clear Ga G s' s u. intros s b G. cbv beta in G.
  split; [|now apply g_ack_to_transmit_shift].
  (* from here on nothing is compared: the continuation is unguarded *)
  eapply proj1, (pend_shift idf) with (gk := fun _ _ => true) (gk' := fun _ _ => true).
  { now apply maybe_send_ack_shift. } { apply gpend_true. }
  clear G s b. intros s b _. split; [|reflexivity].
  shproj. rewrite state_is_closed_shift. shproj.
  destruct (state_is_closed (v_state s) (o_wait_for_last_ack (v_opts s))).
  { rewrite just_before_death_shift. reflexivity. }
  rewrite is_local_fin_shift.
  rewrite st_t_inactivity, (sh_if da db dc).
  set (s' := if is_local_fin_or_later (v_state s) then _ else s).
  rewrite next_timer_shift. destruct (next_timer_to_poll s') as [s2 t]. cbn [fst snd].
  destruct t as [instant|]; [|reflexivity].
  rewrite arm_in_shift. reflexivity.
Qed.

End Poll.

(* ------------------------------------------------------------------ reflexivity of the comparison
   functions of Conn/C09_Pred.v *)
Lemma oz_eqb_refl a : oz_eqb a a = true.
Proof. destruct a; [apply Z.eqb_refl|reflexivity]. Qed.

Lemma list_eqb_refl {A} (e : A -> A -> bool) : (forall x, e x x = true) -> forall l, list_eqb e l l = true.
Proof. intros H. induction l as [|x r IH]; [reflexivity|]. cbn [list_eqb]. now rewrite H, IH. Qed.

Lemma vstate_eqb_refl a : vstate_eqb a a = true.
Proof. destruct a; cbn [vstate_eqb]; rewrite ?Z.eqb_refl; reflexivity. Qed.

Lemma rphase_eqb_refl a : rphase_eqb a a = true.
Proof. destruct a; cbn [rphase_eqb]; rewrite ?Z.eqb_refl, ?oz_eqb_refl; reflexivity. Qed.

Lemma fseg_eqb_refl a : fseg_eqb a a = true.
Proof. unfold fseg_eqb. rewrite ?Z.eqb_refl, ?oz_eqb_refl, ?Bool.eqb_reflx. reflexivity. Qed.

Lemma vfp_eqb_refl a : vfp_eqb a a = true.
Proof.
  unfold vfp_eqb.
  rewrite vstate_eqb_refl, rphase_eqb_refl, (list_eqb_refl fseg_eqb fseg_eqb_refl).
  rewrite ?Z.eqb_refl, ?oz_eqb_refl, ?Bool.eqb_reflx. reflexivity.
Qed.

Lemma sack_eqb_refl a : sack_eqb a a = true.
Proof.
  destruct a as [k|]; [|reflexivity]. cbn [sack_eqb].
  now rewrite (list_eqb_refl Bool.eqb Bool.eqb_reflx), Z.eqb_refl.
Qed.

Lemma chdr_eqb_refl a : chdr_eqb a a = true.
Proof.
  unfold chdr_eqb, ptype_eqb. rewrite sack_eqb_refl, ?Z.eqb_refl, ?oz_eqb_refl. reflexivity.
Qed.

Lemma fpacket_eqb_refl a : fpacket_eqb a a = true.
Proof. unfold fpacket_eqb. now rewrite chdr_eqb_refl, Z.eqb_refl. Qed.

Lemma vwake_eqb_refl a : vwake_eqb a a = true.
Proof. destruct a; reflexivity. Qed.

Lemma poll_result_eqb_refl a : poll_result_eqb a a = true.
Proof. destruct a as [| |e|]; try reflexivity. destruct e; reflexivity. Qed.

Lemma fresult_eqb_refl a : fresult_eqb a a = true.
Proof.
  destruct a as [|r pk w arm|r|r|n| | | |]; cbn [fresult_eqb]; try reflexivity.
  - now rewrite poll_result_eqb_refl, (list_eqb_refl _ fpacket_eqb_refl),
      (list_eqb_refl _ vwake_eqb_refl), oz_eqb_refl.
  - destruct r; cbn [write_result_eqb]; rewrite ?Z.eqb_refl; reflexivity.
  - destruct r; reflexivity.
  - apply Z.eqb_refl.
Qed.

Lemma fevent_eqb_refl a : fevent_eqb a a = true.
Proof.
  destruct a; cbn [fevent_eqb]; rewrite ?Z.eqb_refl, ?oz_eqb_refl, ?chdr_eqb_refl; reflexivity.
Qed.

Section Trace.
Variables da db dc : Z.
Context {CC : Type} (cci : cc_iface CC).
Notation vsock := (vsock CC).
Notation sh := (shift_vsock da db dc (CC:=CC)).
Notation sm := (shift_msg da db).

Lemma poll_loop_shift : forall fuel (s : vsock), g_poll_loop cci fuel s = true ->
  poll_loop cci fuel (sh s) = (sh (fst (poll_loop cci fuel s)), snd (poll_loop cci fuel s)) /\
  g_poll_loop cci fuel (sh s) = true.
Proof.
  induction fuel as [|fuel IH]; intros s G; [now split|].
  cbn [poll_loop g_poll_loop] in *. apply andb_true_iff in G as [G1 G2].
  destruct (poll_body_shift da db dc cci s G1) as [-> ->]. cbn [andb].
  destruct (poll_body cci s) as [s' r|s'|]; cbn [shift_body_res fst snd]; [now split|now apply IH|now split].
Qed.

Lemma poll_shift_guard (s : vsock) : g_poll cci s = true ->
  poll cci (sh s) = (sh (fst (poll cci s)), snd (poll cci s)) /\ g_poll cci (sh s) = true.
Proof.
  unfold g_poll, poll. intros G.
  change (set_out (sh s) []) with (sh (set_out s [])). rewrite st_wakes, st_arm_in.
  now apply poll_loop_shift.
Qed.

Lemma poll_shift (s : vsock) : g_poll cci s = true ->
  poll cci (sh s) = (sh (fst (poll cci s)), snd (poll cci s)).
Proof. intros G. exact (proj1 (poll_shift_guard s G)). Qed.

Definition shift_vres (r : vsock * vout * bool * bool) : vsock * vout * bool * bool :=
  let '(s', out, dw, sw) := r in (sh s', shift_vout da db dc out, dw, sw).

Lemma c09_guard_vstep_unfold (s : vsock) o :
  c09_guard_vstep cci s o =
  match o with VoPoll script => g_poll cci (set_sends s script) | _ => true end.
Proof. reflexivity. Qed.

(* only VoPoll compares sequence numbers; every other event copies fields *)
Lemma vstep_shift (s : vsock) o : c09_guard_vstep cci s o = true ->
  vstep cci (sh s) (shift_op da db o) = shift_vres (vstep cci s o).
Proof.
  rewrite c09_guard_vstep_unfold. intros G. destruct o; cbn [shift_op]; unfold vstep.
  - unfold shift_vres. rewrite st_env_now. reflexivity.
  - unfold shift_vres. rewrite st_emsg_limit. reflexivity.
  - rewrite st_sends, (poll_shift _ G). destruct (poll cci (set_sends s script)) as [s' r].
    cbn [fst snd shift_vres shift_vout]. rewrite map_rev. reflexivity.
  - shproj. destruct (v_inbox_closed s); [reflexivity|].
    change [sm m] with (map sm [m]). rewrite <- map_app. reflexivity.
  - unfold shift_vres. rewrite st_inbox_closed, st_inbox_waker. reflexivity.
  - shproj. destruct (writer_dropped (v_tx s)); [reflexivity|].
    destruct (poll_write (v_tx s) buf) as [[tx1 r] w]. unfold shift_vres. rewrite st_tx. reflexivity.
  - shproj. destruct (writer_dropped (v_tx s)); [reflexivity|].
    destruct (poll_flush (v_tx s)) as [[tx1 r] w]. unfold shift_vres. rewrite st_tx. reflexivity.
  - shproj. destruct (writer_dropped (v_tx s)); [reflexivity|].
    destruct (poll_shutdown (v_tx s)) as [[tx1 r] w]. unfold shift_vres. rewrite st_tx. reflexivity.
  - shproj. destruct (reader_dropped (v_rx s)); [reflexivity|].
    destruct (rx_read (v_rx s) n) as [[rx1 r] w]. unfold shift_vres. rewrite st_rx. reflexivity.
  - shproj. destruct (reader_dropped (v_rx s)); [reflexivity|].
    destruct (rx_drop_reader (v_rx s)) as [rx1 w]. unfold shift_vres. rewrite st_rx. reflexivity.
  - shproj. destruct (drop_writer (v_tx s)) as [tx1 w]. unfold shift_vres. rewrite st_tx. reflexivity.
Qed.

Lemma fp_of_vsock_shift (s : vsock) : fp_of_vsock cci (sh s) = shift_fp da db (fp_of_vsock cci s).
Proof.
  unfold fp_of_vsock, shift_fp.
  cbn [f_recovery].
  shproj. cbn [shift_recovery rv_phase].
  destruct (rv_phase (v_recovery s)) as [rp|d|rc]; reflexivity.
Qed.

Lemma fevent_of_shift o : fevent_of (shift_op da db o) = shift_event da db (fevent_of o).
Proof. destruct o; reflexivity. Qed.

Lemma fresult_of_shift out : fresult_of (shift_vout da db dc out) = shift_result da db dc (fresult_of out).
Proof.
  destruct out as [|r pk w a|r|r|r]; cbn [shift_vout fresult_of shift_result]; try reflexivity.
  - f_equal. rewrite !map_map. apply map_ext. reflexivity.
  - destruct r; reflexivity.
Qed.

Lemma poll_finished_shift out : poll_finished (shift_vout da db dc out) = poll_finished out.
Proof. destruct out; reflexivity. Qed.

(* the trace of the relabelled run is the relabelled trace *)
Theorem ftrace_shift : forall ops (s : vsock), c09_guard_trace cci s ops = true ->
  ftrace cci (sh s) (map (shift_op da db) ops) = map (shift_fstep da db dc) (ftrace cci s ops).
Proof.
  induction ops as [|o rest IH]; intros s G; [reflexivity|].
  cbn [map ftrace c09_guard_trace] in *. apply andb_true_iff in G as [G1 G2].
  rewrite (vstep_shift s o G1).
  destruct (vstep cci s o) as [[[s' out] dw] sw]. cbn [shift_vres map].
  rewrite poll_finished_shift. unfold shift_fstep at 1.
  cbn [fs_now fs_pre fs_event fs_result fs_disp_woken fs_self_woken fs_post].
  rewrite !fp_of_vsock_shift, fevent_of_shift, fresult_of_shift. shproj.
  f_equal. destruct (poll_finished out); [reflexivity|]. now apply IH.
Qed.

Lemma c09_step_shift_ok_refl a : c09_step_shift_ok da db dc a (shift_fstep da db dc a) = true.
Proof.
  unfold c09_step_shift_ok, shift_fstep.
  cbn [fs_now fs_pre fs_event fs_result fs_disp_woken fs_self_woken fs_post].
  now rewrite Z.eqb_refl, fevent_eqb_refl, !vfp_eqb_refl, fresult_eqb_refl, !Bool.eqb_reflx.
Qed.

Lemma c09_shift_ok_refl tr : c09_shift_ok da db dc tr (map (shift_fstep da db dc) tr) = true.
Proof.
  induction tr as [|a r IH]; [reflexivity|]. cbn [map c09_shift_ok]. now rewrite c09_step_shift_ok_refl, IH.
Qed.

(* the fingerprint-level tolerance guard of the metamorphic check does not depend on the labelling:
   it judges both runs alike *)
Lemma c09_step_within_tol_shift tol st :
  c09_step_within_tol tol (shift_fstep da db dc st) = c09_step_within_tol tol st.
Proof.
  unfold c09_step_within_tol, shift_fstep.
  cbn [fs_pre fs_event shift_fp f_segs f_seq_nr f_snd_una f_last_sent_seq_nr f_last_sent_ack_nr
       f_last_consumed f_rx_len].
  rewrite !near_shift.
  destruct (fs_event st); try reflexivity.
  cbn [shift_event shift_in_hdr ch_seq ch_ack]. now rewrite !near_shift.
Qed.

Lemma c09_within_tol_shift tol tr :
  c09_within_tol tol (map (shift_fstep da db dc) tr) = c09_within_tol tol tr.
Proof.
  unfold c09_within_tol. induction tr as [|a r IH]; [reflexivity|].
  cbn [map forallb]. now rewrite c09_step_within_tol_shift, IH.
Qed.

(* C09, trace-shift clause, on the model: the extracted predicate holds of the two model traces *)
Theorem model_trace_shift_ok (s : vsock) ops : c09_guard_trace cci s ops = true ->
  c09_shift_ok da db dc (ftrace cci s ops) (ftrace cci (sh s) (map (shift_op da db) ops)) = true.
Proof. intros G. rewrite (ftrace_shift ops s G). apply c09_shift_ok_refl. Qed.

End Trace.
