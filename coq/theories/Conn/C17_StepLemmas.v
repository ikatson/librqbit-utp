(* C17, step level: reusable relational lemmas about every function a poll calls.
   - [st_rel]: how the connection state may move once our FIN is numbered (never back, the number kept);
   - [pk_ok]:  what a datagram emitted in a given state looks like (never ST_RESET / ST_SYN; an ST_FIN only
               once our FIN is numbered, and then carrying that number);
   - [G0] / [G]: the relation every function of a poll satisfies between its entry and exit state
               (state movement, datagrams appended, inbox only drained, inbox_closed and options kept;
               [G] adds [W]: nobody but transition_to_fin_wait_1 enters FinWait1), proved function by
               function; [GE] is what an error leaves behind (the channel-closed arm of the receive loop
               leaves FinWait1 only with ErrSend); no function but process_incoming_message reports
               ErrStResetReceived ([sG]);
   - poll_body in parts ([body_head] / [body_mid] / [body_back]) with generic walks under G
               ([body_head_walk], [body_mid_walk], [body_front_walk]) and the G0 summary of a whole
               poll_body ([poll_body_G0]); [poll_loop_ind]: induction over the restart loop;
   - [GN]: datagrams other than ST_FIN (incoming path, SYN-ACK, ACKs); the reset error comes from the
               state table with the state Closed ([recv_loop_N], [process_all_N]); send_tx_queue asks
               for a restart only when it emitted ST_DATA only ([stq_restart_data]);
   - [LB]: the bound 0 <= segmented bytes <= ring length (with the segment-table and segment-size
               invariants), proved Hoare-style for every function, poll, every event and vsock_new. *)
From Utp Require Conn.VSock_Inv Conn.VSock_Lemmas Conn.VSock_LemmasStep Conn.VSock_LemmasReach.
From Utp Require Import Base.Prelude Wire.SeqNr Wire.Header Wire.Header_Proofs Rtt.Rtte Mtu.SegSizes
  Rx.Rx Tx.Ring Tx.Segments Tx.Segments_Proofs Conn.VSock_LemmasIn Conn.Recovery Conn.Msg Conn.VSockRec Conn.VSock Conn.VSockRun Conn.VObs
  Conn.VSock_LemmasTx Conn.VSock_LemmasFin Conn.C17_Pred Conn.C17_Proofs.

Ltac abs_as t F z := revert F; generalize t; intros z F.

Section WithCC.
Context {CC : Type} (cci : cc_iface CC).
Notation vsock := (vsock CC).

(* ------------------------------------------------------------------ states *)
Definition st_rel (a b : vstate) : Prop :=
  match a with
  | FinWait1 f => match b with FinWait1 f' | LastAck f' _ => f' = f | FinWait2 | Closed => True | _ => False end
  | FinWait2 => match b with FinWait2 | Closed => True | _ => False end
  | LastAck f _ => match b with LastAck f' _ => f' = f | Closed => True | _ => False end
  | Closed => match b with Closed => True | _ => False end
  | _ => True
  end.

Lemma st_rel_refl a : st_rel a a.
Proof. destruct a; cbn [st_rel]; auto. Qed.

Lemma st_rel_trans a b c : st_rel a b -> st_rel b c -> st_rel a c.
Proof. destruct a, b, c; cbn [st_rel]; intros; try tauto; try congruence. Qed.

Lemma st_rel_eq a b : b = a -> st_rel a b.
Proof. intros ->. apply st_rel_refl. Qed.

Lemma st_rel_fin a b f f' :
  st_rel a b -> our_fin_if_unacked a = Some f -> our_fin_if_unacked b = Some f' -> f = f'.
Proof. destruct a, b; cbn [st_rel our_fin_if_unacked]; intros H H1 H2; try discriminate; try tauto; congruence. Qed.

Lemma st_rel_local a b : st_rel a b -> is_local_fin_or_later a = true -> is_local_fin_or_later b = true.
Proof. destruct a, b; cbn [st_rel is_local_fin_or_later]; intros; try tauto; try discriminate; auto. Qed.

(* ------------------------------------------------------------------ datagrams *)
Definition hk_ok (st : vstate) (t : ptype) (seq : Z) : Prop :=
  t <> ST_RESET /\ t <> ST_SYN /\
  (t = ST_FIN -> is_local_fin_or_later st = true /\ forall f, our_fin_if_unacked st = Some f -> seq = f).

Definition pk_ok (st : vstate) (p : packet) : Prop := hk_ok st (ch_type (p_hdr p)) (ch_seq (p_hdr p)).

Lemma hk_ok_mono a b t q : st_rel a b -> hk_ok a t q -> hk_ok b t q.
Proof.
  intros Hr (H1 & H1' & H2). split; [exact H1|]. split; [exact H1'|]. intro Ht. destruct (H2 Ht) as (L & F).
  split; [eapply st_rel_local; eauto|].
  intros f Hf. destruct a, b; cbn [st_rel our_fin_if_unacked is_local_fin_or_later] in *;
    try discriminate; try tauto; injection Hf as <-; subst; apply F; reflexivity.
Qed.

Lemma pk_ok_mono a b p : st_rel a b -> pk_ok a p -> pk_ok b p.
Proof. apply hk_ok_mono. Qed.

Lemma hk_ok_state st q : hk_ok st ST_STATE q.
Proof. repeat split; discriminate. Qed.
Lemma hk_ok_data st q : hk_ok st ST_DATA q.
Proof. repeat split; discriminate. Qed.
Lemma hk_ok_fin st f : our_fin_if_unacked st = Some f -> hk_ok st ST_FIN f.
Proof.
  intro H. split; [discriminate|]. split; [discriminate|]. intros _.
  split; [destruct st; try discriminate; reflexivity|]. intros f' H'. congruence.
Qed.

(* ------------------------------------------------------------------ the relation of a poll *)
Definition G0 (s s' : vsock) : Prop :=
  st_rel (v_state s) (v_state s') /\
  (exists l, v_out s' = l ++ v_out s /\ Forall (pk_ok (v_state s')) l) /\
  (v_inbox s = [] -> v_inbox s' = []) /\
  v_inbox_closed s' = v_inbox_closed s /\
  v_opts s' = v_opts s.

(* nobody but transition_to_fin_wait_1 moves into FinWait1.  (The arm of the receive loop that runs
   when the dispatcher's channel is closed calls it too, but sets the state to Closed at once; only
   when its FIN cannot be sent does the state stay FinWait1: see [GE] below.) *)
Definition W (s s' : vsock) : Prop :=
  forall f, v_state s' = FinWait1 f -> v_state s = FinWait1 f.

Definition G (s s' : vsock) : Prop := G0 s s' /\ W s s'.

Lemma G0_refl s : G0 s s.
Proof. unfold G0. split; [apply st_rel_refl|]. split; [exists []; split; [reflexivity|constructor]|]. auto. Qed.

Lemma G0_opts a b : G0 a b -> v_opts b = v_opts a.
Proof. intros (_ & _ & _ & _ & H). exact H. Qed.

Lemma G0_trans a b c : G0 a b -> G0 b c -> G0 a c.
Proof.
  intros (A1 & (l1 & A2 & A3) & A4 & A5 & A6) (B1 & (l2 & B2 & B3) & B4 & B5 & B6).
  split; [eapply st_rel_trans; eauto|]. split; [|split; [auto|split; congruence]].
  exists (l2 ++ l1). split; [rewrite B2, A2, app_assoc; reflexivity|].
  apply Forall_app. split; [exact B3|]. eapply Forall_impl; [|exact A3]. intro p. apply pk_ok_mono. exact B1.
Qed.

Lemma W_refl s : W s s.
Proof. unfold W. auto. Qed.

Lemma G_refl s : G s s.
Proof. split; [apply G0_refl|apply W_refl]. Qed.

Lemma G_trans a b c : G a b -> G b c -> G a c.
Proof.
  intros (A & WA) (B & WB). split; [eapply G0_trans; eauto|].
  intros f Hf. apply WA. apply WB. exact Hf.
Qed.

Lemma G_G0 a b : G a b -> G0 a b.
Proof. intros [H _]; exact H. Qed.

(* the three ways a primitive step relates its states *)
Lemma G_same (s s' : vsock) :
  v_state s' = v_state s -> v_out s' = v_out s -> v_inbox s' = v_inbox s ->
  v_inbox_closed s' = v_inbox_closed s -> v_opts s' = v_opts s -> G s s'.
Proof.
  intros E1 E2 E3 E4 E6. split.
  - split; [rewrite E1; apply st_rel_refl|]. split; [exists []; split; [exact E2|constructor]|].
    split; [congruence|split; [exact E4|exact E6]].
  - intros f Hf. congruence.
Qed.

Lemma G_emit (s s' : vsock) p :
  v_state s' = v_state s -> v_out s' = p :: v_out s -> v_inbox s' = v_inbox s ->
  v_inbox_closed s' = v_inbox_closed s -> v_opts s' = v_opts s -> pk_ok (v_state s) p -> G s s'.
Proof.
  intros E1 E2 E3 E4 E6 Hp. split.
  - split; [rewrite E1; apply st_rel_refl|].
    split; [exists [p]; split; [exact E2|constructor; [rewrite E1; exact Hp|constructor]]|].
    split; [congruence|split; [exact E4|exact E6]].
  - intros f Hf. congruence.
Qed.

Lemma G_state (s s' : vsock) :
  st_rel (v_state s) (v_state s') -> v_out s' = v_out s -> (v_inbox s = [] -> v_inbox s' = []) ->
  v_inbox_closed s' = v_inbox_closed s -> v_opts s' = v_opts s ->
  (forall f, v_state s' = FinWait1 f -> v_state s = FinWait1 f) -> G s s'.
Proof.
  intros E1 E2 E3 E4 E6 E5. split.
  - split; [exact E1|]. split; [exists []; split; [exact E2|constructor]|].
    split; [exact E3|split; [exact E4|exact E6]].
  - exact E5.
Qed.

Ltac g_same := apply G_same; vsimpl; reflexivity.

(* ------------------------------------------------------------------ step results *)
(* the state an error leaves behind: as [G], except that the channel-closed arm of the receive loop
   leaves FinWait1 behind when its FIN cannot be sent (the error is then ErrSend) *)
Definition GE (s s' : vsock) (e : verror) : Prop :=
  G0 s s' /\ (W s s' \/ (v_inbox_closed s = true /\ e = ErrSend)).

Lemma GE_G s s' e : G s s' -> GE s s' e.
Proof. intros [H1 H2]. split; [exact H1|left; exact H2]. Qed.

Lemma GE_trans a b c e : G a b -> GE b c e -> GE a c e.
Proof.
  intros (A & WA) (B & HB). split; [eapply G0_trans; eauto|].
  destruct HB as [WB|(Hc & He)].
  - left. intros f Hf. apply WA. apply WB. exact Hf.
  - right. split; [|exact He]. destruct A as (_ & _ & _ & A5 & _). congruence.
Qed.

(* [sG]: an error is never the reset error.  [sGr]: no claim on the error (incoming path). *)
Definition sG {A} (s : vsock) (m : step A) : Prop :=
  match m with SOk s' _ => G s s' | SErr s' e => GE s s' e /\ e <> ErrStResetReceived | SPanic => True end.
Definition sGr {A} (s : vsock) (m : step A) : Prop :=
  match m with SOk s' _ => G s s' | SErr s' e => GE s s' e | SPanic => True end.

Lemma sG_sGr {A} s (m : step A) : sG s m -> sGr s m.
Proof. destruct m; cbn [sG sGr]; tauto. Qed.

Lemma sG_bind {A B} s (m : step A) (f : vsock -> A -> step B) :
  sG s m -> (forall s1 a, sG s1 (f s1 a)) -> sG s (sbind m f).
Proof.
  intros Hm Hf. destruct m as [s1 a|s1 e|]; cbn [sbind sG] in *; auto.
  specialize (Hf s1 a). destruct (f s1 a); cbn [sG] in *; auto.
  - eapply G_trans; eauto.
  - destruct Hf as [Hf He]. split; [eapply GE_trans; eauto|exact He].
Qed.

Lemma sGr_bind {A B} s (m : step A) (f : vsock -> A -> step B) :
  sGr s m -> (forall s1 a, sGr s1 (f s1 a)) -> sGr s (sbind m f).
Proof.
  intros Hm Hf. destruct m as [s1 a|s1 e|]; cbn [sbind sGr] in *; auto.
  specialize (Hf s1 a). destruct (f s1 a); cbn [sGr] in *; auto;
    [eapply G_trans; eauto|eapply GE_trans; eauto].
Qed.

Lemma sG_weaken {A} s0 s (m : step A) : G s0 s -> sG s m -> sG s0 m.
Proof.
  intros H Hm. destruct m; cbn [sG] in *; auto; [eapply G_trans; eauto|].
  destruct Hm as [Hm He]. split; [eapply GE_trans; eauto|exact He].
Qed.

Lemma sGr_weaken {A} s0 s (m : step A) : G s0 s -> sGr s m -> sGr s0 m.
Proof.
  intros H Hm. destruct m; cbn [sGr] in *; auto; [eapply G_trans; eauto|eapply GE_trans; eauto].
Qed.

(* ------------------------------------------------------------------ sending *)
Lemma next_send_G (s : vsock) n s1 o : next_send s n = (s1, o) -> G s s1.
Proof. intro E. apply next_send_same in E. destruct E as [->|[r ->]]; [apply G_refl|g_same]. Qed.

Lemma send_control_packet_G (s : vsock) h :
  hk_ok (v_state s) (ch_type h) (ch_seq h) -> sG s (send_control_packet s h).
Proof.
  intro Hk. unfold send_control_packet. destruct (v_transport_pending s); [apply G_refl|].
  destruct (next_send s _) as [s1 o] eqn:E. apply next_send_same in E.
  destruct o; cbn [sG].
  - destruct E as [->|[r ->]]; unfold on_packet_sent, emit;
      (eapply G_emit; vsimpl; [reflexivity..|exact Hk]).
  - destruct E as [->|[r ->]]; g_same.
  - split; [apply GE_G; destruct E as [->|[r ->]]; [apply G_refl|g_same]|discriminate].
  - split; [apply GE_G; destruct E as [->|[r ->]]; [apply G_refl|g_same]|discriminate].
Qed.

Lemma send_ack_G (s : vsock) : sG s (send_ack s).
Proof. unfold send_ack. apply send_control_packet_G. apply hk_ok_state. Qed.

Lemma maybe_send_fin_G (s : vsock) : sG s (maybe_send_fin s).
Proof.
  unfold maybe_send_fin. destruct (v_transport_pending s); [apply G_refl|].
  destruct (our_fin_if_unacked (v_state s)) as [f|] eqn:Ef; [|apply G_refl].
  destruct (negb _); [apply G_refl|].
  apply sG_bind; [apply send_control_packet_G; apply hk_ok_fin; exact Ef|].
  intros s1 a. destruct a; cbn [sG]; [g_same|apply G_refl].
Qed.

Lemma send_data_G (s : vsock) h f : sG s (send_data s h f).
Proof.
  unfold send_data. destruct (_ =? _); [split; [apply GE_G, G_refl|discriminate]|].
  destruct (_ <? 0); [exact I|]. destruct (_ <? _); [split; [apply GE_G, G_refl|discriminate]|].
  destruct (_ <? _); [split; [apply GE_G, G_refl|discriminate]|].
  destruct (next_send s _) as [s1 o] eqn:E. apply next_send_same in E.
  destruct o; cbn [sG].
  - cbv zeta. unfold on_packet_sent, emit.
    destruct E as [->|[r ->]]; vsimpl;
      (destruct (seq_gt (fs_seq f) _); [destruct (seq_gt (wadd16 (fs_seq f) 1) _)|]);
      (eapply G_emit; vsimpl; [reflexivity..|apply hk_ok_data]).
  - destruct E as [->|[r ->]]; g_same.
  - destruct E as [->|[r ->]]; [apply G_refl|g_same].
  - split; [apply GE_G; destruct E as [->|[r ->]]; [apply G_refl|g_same]|discriminate].
Qed.

Lemma on_rto_reactions_G s s' : on_rto_reactions cci s = Some s' -> G s s'.
Proof. unfold on_rto_reactions. destruct (on_rto_timeout _); [|discriminate].
  intro H; injection H as <-. g_same. Qed.

Lemma recovery_loop_G : forall items s h mss0 st, sG s (recovery_loop items s h mss0 st).
Proof.
  induction items as [|f rest IH]; intros; cbn [recovery_loop]; [apply G_refl|].
  destruct (negb _); [apply G_refl|].
  destruct (_ && _); [apply IH|]. destruct (_ && _); [apply G_refl|].
  pose proof (send_data_G s h f) as Hd. destruct (send_data s h f) as [s1 r|s1 e|]; cbn [sG] in *; auto.
  destruct r; cbn [sG]; auto; [eapply sG_weaken; [exact Hd|apply IH]|split; [apply GE_G; exact Hd|discriminate]].
Qed.

Lemma new_data_loop_G : forall items s h rem, sG s (new_data_loop items s h rem).
Proof.
  induction items as [|f rest IH]; intros; cbn [new_data_loop]; [apply G_refl|].
  destruct (_ <? _); [apply G_refl|].
  pose proof (send_data_G s h f) as Hd. destruct (send_data s h f) as [s1 r|s1 e|]; cbn [sG] in *; auto.
  destruct r; cbn [sG]; auto. eapply sG_weaken; [exact Hd|apply IH].
Qed.

Lemma set_recovering_G (s : vsock) rc : G s (set_recovering s rc).
Proof. unfold set_recovering. g_same. Qed.

Lemma send_tx_queue_G (s : vsock) : sG s (send_tx_queue cci s).
Proof.
  unfold send_tx_queue. destruct (v_transport_pending s); [apply G_refl|].
  apply sG_bind.
  { destruct (timer_expired _ _); [|apply G_refl].
    destruct (iter_for_sending _ _) as [|f l].
    - destruct (our_fin_if_unacked _); [|cbn [sG]; g_same].
      destruct (_ =? _); [|cbn [sG]; g_same].
      apply sG_weaken with (s := set_last_sent_seq_nr s (wsub16 (v_last_sent_seq_nr s) 1)); [g_same|].
      apply sG_bind; [apply maybe_send_fin_G|].
      intros s1 a. destruct a; [|apply G_refl].
      destruct (on_rto_reactions cci s1) eqn:E; [|exact I]. apply on_rto_reactions_G in E.
      cbn [sG]. eapply G_trans; [exact E|]. g_same.
    - pose proof (send_data_G s (outgoing_header s) f) as Hd.
      destruct (send_data _ _ f) as [s1 r|s1 e|]; cbn [sG] in *; auto.
      destruct r; cbn [sG]; auto; [|split; [apply GE_G; exact Hd|discriminate]].
      cbv zeta.
      match goal with |- sG _ (match ?o with _ => _ end) => destruct o as [s2|] eqn:E end; [|exact I].
      assert (F2 : G s1 s2).
      { destruct (negb _); [apply on_rto_reactions_G; exact E|injection E as <-; apply G_refl]. }
      cbn [sG]. eapply G_trans; [exact Hd|]. eapply G_trans; [exact F2|]. g_same. }
  intros s1 ret. destruct ret; [apply G_refl|].
  destruct (0 <? _); [apply G_refl|]. destruct (ss_segs _); [apply G_refl|].
  apply sG_bind.
  { destruct (rv_phase _); try apply G_refl.
    apply sG_bind; [apply recovery_loop_G|].
    intros s2 [st early]. cbv beta iota zeta.
    destruct early; [apply set_recovering_G|].
    match goal with |- sG _ (match our_fin_if_unacked (v_state ?y) with _ => _ end) =>
      assert (F3 : G s2 y); [|abs_as y F3 sy] end.
    { eapply G_trans; [apply set_recovering_G|].
      destruct (_ <? _); [|apply G_refl]. destruct (rc_recalc _); [g_same|].
      destruct (0 <? _); [g_same|apply G_refl]. }
    destruct (our_fin_if_unacked _); [destruct (_ =? _)|]; cbn [sG]; auto. }
  intros s2 ret. destruct ret; [apply G_refl|].
  apply sG_bind; [apply new_data_loop_G|].
  intros s3 tl. destruct tl as [[sq sz]|]; [|apply G_refl].
  destruct (pop_mtu_probe _ _) as [segs' popped]. destruct popped; cbn [sG]; [g_same|].
  split; [apply GE_G, G_refl|discriminate].
Qed.

Lemma maybe_send_ack_G (s : vsock) : sG s (maybe_send_ack s).
Proof.
  unfold maybe_send_ack. destruct (immediate_ack_to_transmit s); [apply send_ack_G|].
  destruct (should_send_window_update s); [apply send_ack_G|].
  destruct (timer_expired _ _).
  - destruct (ack_to_transmit s); [apply send_ack_G|cbn [sG]; g_same].
  - destruct (0 <? _); cbn [sG]; [g_same|apply G_refl].
Qed.

Lemma add_wakes_G (s : vsock) w : G s (add_wakes s w).
Proof. unfold add_wakes. g_same. Qed.

Lemma split_cont_G (s0 s2 : vsock) tl :
  G s0 s2 ->
  sG s0 (if tl <? ss_len_bytes (v_segs s2) then SErr s2 (ErrBug BugInBufferComputations)
       else match segment_loop (ring (v_tx s2)) (o_nagle (v_opts s2)) (v_ss s2) (v_segs s2)
                    (tl - ss_len_bytes (v_segs s2)) (v_last_remote_window s2) with
            | Some (ss', segs', remaining) =>
                SOk (set_unsegmented (set_segs (set_ss s2 ss') segs') remaining) tt
            | None => SPanic
            end).
Proof.
  intros F2. destruct (_ <? _); [split; [apply GE_G; exact F2|discriminate]|].
  destruct (segment_loop _ _ _ _ _ _) as [[[ss' segs'] rem]|]; [|exact I].
  cbn [sG]. eapply G_trans; [exact F2|g_same].
Qed.

Lemma split_G (s : vsock) : sG s (split_tx_queue_into_segments cci s).
Proof.
  unfold split_tx_queue_into_segments. cbv zeta. destruct (_ =? 0); [cbn [sG]; g_same|].
  match goal with |- sG _ (if is_remote_fin_or_later (v_state ?x) then _ else _) =>
    assert (F : G s x); [|abs_as x F sx] end.
  { destruct (_ && _); [|apply G_refl]. destruct (grow _ _) as [tx1 g]. destruct g.
    - destruct (wake_writer tx1) as [tx2 w]. eapply G_trans; [|apply add_wakes_G]. g_same.
    - g_same. }
  destruct (is_remote_fin_or_later _); [exact F|].
  destruct (pop_expired_mtu_probe _ _ _) as [segs1 pe].
  destruct pe.
  - apply split_cont_G. eapply G_trans; [exact F|].
    destruct (seq_gt _ _); g_same.
  - cbn [sG]. eapply G_trans; [exact F|g_same].
  - apply split_cont_G. exact F.
Qed.

Lemma mark_both_closed_G (s : vsock) : G s (mark_both_closed s).
Proof.
  unfold mark_both_closed. destruct (rx_mark_vsock_closed _) as [rx1 w1].
  destruct (mark_vsock_closed _) as [tx1 w2].
  eapply G_trans; [|apply add_wakes_G]. g_same.
Qed.

Lemma restart_inact_G (s : vsock) : G s (restart_remote_inactivity_timer s).
Proof. unfold restart_remote_inactivity_timer. g_same. Qed.

Lemma force_ack_G (s : vsock) : G s (force_immediate_ack s).
Proof. unfold force_immediate_ack. g_same. Qed.

(* transition_to_fin_wait_1 satisfies G0, not W *)
Lemma transition_G0 (s : vsock) : G0 s (transition_to_fin_wait_1 s).
Proof.
  unfold transition_to_fin_wait_1.
  destruct (v_state s) eqn:Es; try apply G0_refl;
    (split; [vsimpl; rewrite Es; exact I|]; split; [exists []; split; [reflexivity|constructor]|];
     split; [vsimpl; auto|split; reflexivity]).
Qed.

Lemma maybe_send_fin_err (s s' : vsock) e : maybe_send_fin s = SErr s' e -> e = ErrSend.
Proof.
  unfold maybe_send_fin. destruct (v_transport_pending s) eqn:Ep; [discriminate|].
  destruct (our_fin_if_unacked (v_state s)) as [f|]; [|discriminate].
  destruct (negb _); [discriminate|].
  destruct (send_control_packet_cases s (hdr_with (outgoing_header s) ST_FIN f None) Ep)
    as [(s1 & Hs & ->)|[(s1 & Hs & ->)|(s1 & Hs & ->)]]; cbn [sbind]; try discriminate.
  intro H; injection H as _ <-. reflexivity.
Qed.

(* ------------------------------------------------------------------ incoming messages *)
Definition tG (s : vsock) (r : table_res) : Prop :=
  match r with TblDrop s' | TblContinue s' => G s s' | TblErr s' _ => G s s' end.

Lemma state_table_G (s : vsock) h : tG s (state_table s h).
Proof.
  unfold state_table, restart_remote_inactivity_timer.
  destruct (ch_type h); destruct (v_state s) eqn:Es; cbn [tG];
    repeat match goal with |- context [if ?c then _ else _] => destruct c end;
    cbn [tG]; try apply G_refl;
    (apply G_state; vsimpl; rewrite ?Es; cbn [st_rel]; auto; intros; discriminate).
Qed.

Lemma process_incoming_message_G (s : vsock) m : sGr s (process_incoming_message cci s m).
Proof.
  unfold process_incoming_message. cbv zeta.
  pose proof (state_table_G s (m_hdr m)) as Ht.
  destruct (state_table s (m_hdr m)) as [s1|s1 e|s1]; cbn [tG sGr] in *; auto using GE_G.
  destruct (remove_up_to_ack _ _ _ _) as [segs1 res].
  match goal with |- sGr _ (match ?o with Some _ => _ | None => _ end) => destruct o as [rtte1|] end; [|exact I].
  destruct (cc_on_ack _ _ _ _ _) as [cc3|]; [|exact I].
  destruct (recovery_on_ack _ _ _ _ _ _ _ _) as [[[rec1 segs2] cc4]|]; [|exact I].
  match goal with |- sGr _ (match ch_type _ with ST_DATA => _ | ST_FIN => _ | ST_STATE => SOk ?x _
                                | ST_RESET => _ | ST_SYN => _ end) =>
    assert (F2 : G s x) by (eapply G_trans; [exact Ht|g_same]); abs_as x F2 s2 end.
  destruct (ch_type (m_hdr m)); try exact F2.
  - (* ST_DATA *)
    destruct (_ <? 0); [cbn [sGr]; eapply G_trans; [exact F2|apply force_ack_G]|].
    destruct (rx_add_remove _ _ _ _) as [[rx1 ar] w].
    destruct ar as [r|]; [|exact I].
    match goal with |- sGr _ (match add_err r with Some e => SErr ?x e | None => _ end) =>
      assert (F4 : G s x); [|abs_as x F4 s4] end.
    { eapply G_trans; [exact F2|]. eapply G_trans; [|apply add_wakes_G]. g_same. }
    destruct (add_err r); [apply GE_G; exact F4|].
    match goal with |- sGr _ (if _ then _ else SOk ?x _) =>
      assert (F5 : G s x); [|abs_as x F5 s5] end.
    { destruct r; exact F4. }
    destruct (_ || _); [|exact F5].
    eapply sGr_weaken; [eapply G_trans; [exact F5|apply force_ack_G]|].
    apply sGr_bind; [apply sG_sGr, send_ack_G|]. intros; apply G_refl.
  - (* ST_FIN *)
    destruct (_ && _); [|cbn [sGr]; eapply G_trans; [exact F2|apply force_ack_G]].
    destruct (rx_add_remove _ _ _ _) as [[rx1 ar] w].
    destruct ar as [r|]; [|exact I].
    match goal with |- sGr _ (match add_err r with Some e => SErr ?x e | None => _ end) =>
      assert (F5 : G s x); [|abs_as x F5 s5] end.
    { eapply G_trans; [exact F2|]. eapply G_trans; [|apply add_wakes_G].
      unfold force_immediate_ack. g_same. }
    destruct (add_err r); [apply GE_G; exact F5|].
    destruct (mark_vsock_closed _) as [tx1 w2]. cbn [sGr].
    eapply G_trans; [exact F5|]. eapply G_trans; [|apply add_wakes_G]. g_same.
Qed.

(* the arm of the receive loop that runs when the inbox is empty *)
Lemma recv_empty_G (s : vsock) (acc : on_ack_result) :
  v_inbox s = [] ->
  sG s (if v_inbox_closed s
        then sbind (maybe_send_fin (transition_to_fin_wait_1 s))
                   (fun s2 _ => SOk (set_state s2 Closed) (acc, true))
        else SOk (set_inbox_waker s true) (acc, false)).
Proof.
  intro Hi. destruct (v_inbox_closed s) eqn:Hc; [|cbn [sG]; g_same].
  pose proof (transition_G0 s) as HT. pose proof (maybe_send_fin_G (transition_to_fin_wait_1 s)) as HF.
  destruct (maybe_send_fin (transition_to_fin_wait_1 s)) as [s2 b|s2 e|] eqn:Em; cbn [sbind sG] in *; [| |exact I].
  - split.
    + eapply G0_trans; [exact HT|]. eapply G0_trans; [apply G_G0; exact HF|].
      split; [vsimpl; destruct (v_state s2); exact I|].
      split; [exists []; split; [reflexivity|constructor]|]. split; [vsimpl; auto|split; reflexivity].
    + intros f Hf. vsimpl. discriminate.
  - destruct HF as [(HF & _) He]. split; [|exact He]. split; [eapply G0_trans; eauto|].
    right. split; [exact Hc|]. eapply maybe_send_fin_err; exact Em.
Qed.

Lemma recv_loop_G : forall fuel s acc, sGr s (recv_loop cci fuel s acc).
Proof.
  induction fuel as [|m0 fuel IH]; intros s acc; cbn [recv_loop]; destruct (v_inbox s) as [|m rest] eqn:Ei.
  - apply sG_sGr. apply recv_empty_G. exact Ei.
  - exact I.
  - apply sG_sGr. apply recv_empty_G. exact Ei.
  - eapply sGr_weaken with (s := set_inbox s rest).
    { apply G_state; vsimpl; try reflexivity; [apply st_rel_refl|congruence|auto]. }
    apply sGr_bind; [apply process_incoming_message_G|].
    intros s1 r. destruct (_ || _); [apply G_refl|apply IH].
Qed.

Lemma acked_counts_as_sent_G (s : vsock) : G s (acked_counts_as_sent s).
Proof. unfold acked_counts_as_sent. destruct (seq_gt _ _ && seq_lt _ _); [g_same|apply G_refl]. Qed.

(* the bookkeeping of process_all_incoming_messages after the receive loop *)
Definition pa_tail (s1 : vsock) (res : on_ack_result * bool) : step unit :=
    let '(r, _) := res in
      let s2 :=
        if (0 <? ar_acked_segments r) || (0 <? ar_newly_sacked_segments r) then
          let s' := set_rto_retransmissions s1 0 in
          match ss_segs (v_segs s'), our_fin_if_unacked (v_state s') with
          | [], None => set_t_inactivity (set_t_retransmit s' None) None
          | _, _ =>
              restart_remote_inactivity_timer
                (set_t_retransmit s' (timer_arm (v_t_retransmit s') (v_now s')
                                        (retransmission_timeout (v_rtte s')) true))
          end
        else s1 in
      let s3o : step unit :=
        if 0 <? ar_acked_segments r then
          let s2 := acked_counts_as_sent s2 in
          let '(tx1, tr) := truncate_front (v_tx s2) (ar_acked_bytes r) in
          match tr with
          | TrBug _ _ => SErr (set_tx s2 tx1) (ErrBug BugTruncateFront)
          | TrOk => let '(tx2, w) := wake_writer tx1 in
                    SOk (add_wakes (set_tx s2 tx2) (tx_wakes w)) tt
          end
        else SOk s2 tt in
      sbind s3o (fun s3 _ =>
        match rv_phase (v_recovery s3) with
        | Recovering rc =>
            match calc_pipe (v_segs s3) (rc_high_rxt rc) (v_last_sent_seq_nr s3)
                            (roundtrip_time (v_rtte s3)) (v_now s3) with
            | None => SPanic
            | Some (segs', pipe, recalc) =>
                SOk (set_recovering (set_segs s3 segs')
                       {| rc_recovery_point := rc_recovery_point rc; rc_high_rxt := rc_high_rxt rc;
                          rc_total_retx := rc_total_retx rc; rc_pipe := pipe; rc_recalc := recalc;
                          rc_cwnd := rc_cwnd rc |}) tt
            end
        | _ => SOk s3 tt
        end).

Lemma process_all_eq (s : vsock) :
  process_all_incoming_messages cci s =
  sbind (recv_loop cci (v_inbox s ++ [ {| m_hdr := outgoing_header s; m_payload := [] |} ]) s
                   on_ack_result_default) pa_tail.
Proof. reflexivity. Qed.

Lemma pa_tail_G (s1 : vsock) res : sG s1 (pa_tail s1 res).
Proof.
  destruct res as [r early]. unfold pa_tail. cbv beta iota zeta.
  match goal with |- context [acked_counts_as_sent ?x] =>
    assert (F2 : G s1 x); [|abs_as x F2 s2] end.
  { destruct (_ || _); [|apply G_refl].
    destruct (ss_segs _); [destruct (our_fin_if_unacked _)|];
      unfold restart_remote_inactivity_timer; g_same. }
  eapply sG_weaken; [exact F2|].
  apply sG_bind.
  { destruct (0 <? _); [|apply G_refl].
    eapply sG_weaken; [apply acked_counts_as_sent_G|].
    generalize (acked_counts_as_sent s2). intro s2'.
    destruct (truncate_front _ _) as [tx1 tr]. destruct tr; cbn [sG]; [|split; [apply GE_G; g_same|discriminate]].
    destruct (wake_writer tx1) as [tx2 w]. eapply G_trans; [|apply add_wakes_G]. g_same. }
  intros s3 _. destruct (rv_phase _); try apply G_refl.
  destruct (calc_pipe _ _ _ _ _) as [[[segs' pipe] recalc]|]; [|exact I].
  cbn [sG]. eapply G_trans; [|apply set_recovering_G]. g_same.
Qed.

(* the bookkeeping touches neither the inbox, nor the state, nor the transport flag, and emits nothing *)
Definition keeps_in (s s' : vsock) : Prop :=
  v_inbox s' = v_inbox s /\ v_state s' = v_state s /\ v_opts s' = v_opts s /\
  v_transport_pending s' = v_transport_pending s /\ v_out s' = v_out s.

Lemma pa_tail_keeps (s1 : vsock) res s3 u : pa_tail s1 res = SOk s3 u -> keeps_in s1 s3.
Proof.
  destruct res as [r early]. unfold pa_tail, keeps_in. cbv beta iota zeta.
  match goal with |- context [acked_counts_as_sent ?x] =>
    assert (F2 : keeps_in s1 x); [|abs_as x F2 s2] end.
  { unfold keeps_in. destruct (_ || _); [|auto].
    destruct (ss_segs _); [destruct (our_fin_if_unacked _)|];
      unfold restart_remote_inactivity_timer; vsimpl; auto. }
  assert (K : forall s3' : vsock, keeps_in s1 s3' ->
     match rv_phase (v_recovery s3') with
     | Recovering rc =>
         match calc_pipe (v_segs s3') (rc_high_rxt rc) (v_last_sent_seq_nr s3')
                         (roundtrip_time (v_rtte s3')) (v_now s3') with
         | None => SPanic
         | Some (segs', pipe, recalc) =>
             SOk (set_recovering (set_segs s3' segs')
                    {| rc_recovery_point := rc_recovery_point rc; rc_high_rxt := rc_high_rxt rc;
                       rc_total_retx := rc_total_retx rc; rc_pipe := pipe; rc_recalc := recalc;
                       rc_cwnd := rc_cwnd rc |}) tt
         end
     | _ => SOk s3' tt
     end = SOk s3 u -> keeps_in s1 s3).
  { intros s3' F3. destruct (rv_phase _).
    - intro H; injection H as <-. exact F3.
    - intro H; injection H as <-. exact F3.
    - destruct (calc_pipe _ _ _ _ _) as [[[segs' pipe] recalc]|]; [|discriminate].
      intro H; injection H as <-. exact F3. }
  destruct (0 <? ar_acked_segments r).
  - assert (Ha : keeps_in s1 (acked_counts_as_sent s2))
      by (unfold acked_counts_as_sent; destruct (seq_gt _ _ && seq_lt _ _); exact F2).
    revert Ha. generalize (acked_counts_as_sent s2). intros s2' Ha.
    destruct (truncate_front _ _) as [tx1 tr]. destruct tr; cbn [sbind]; [|discriminate].
    destruct (wake_writer tx1) as [tx2 w]. apply K. exact Ha.
  - cbn [sbind]. apply K. exact F2.
Qed.

Lemma process_all_G (s : vsock) : sGr s (process_all_incoming_messages cci s).
Proof.
  rewrite process_all_eq. apply sGr_bind; [apply recv_loop_G|]. intros s1 res. apply sG_sGr, pa_tail_G.
Qed.

(* ------------------------------------------------------------------ handshake *)
Lemma maybe_send_syn_ack_G (s : vsock) : sG s (maybe_send_syn_ack s).
Proof.
  unfold maybe_send_syn_ack.
  assert (Gg : forall c, is_local_fin_or_later (v_state s) = false ->
    sG s (if c =? o_max_retx (v_opts s) then SErr s ErrMaxSynAckRetransmissionsReached
     else sbind (send_ack s) (fun s1 sent => if sent then
        SOk (set_t_syn_ack_resend (set_state s1 (SynAckSent (c + 1)))
              (timer_arm (v_t_syn_ack_resend s1) (v_now s1) SYNACK_RESEND_INTERNAL true)) tt
        else SOk s1 tt))).
  { intros c Hl. destruct (_ =? _); [split; [apply GE_G, G_refl|discriminate]|].
    pose proof (send_ack_G s) as H. unfold send_ack in H |- *.
    match goal with |- context [send_control_packet s ?h] =>
      pose proof (send_control_packet_fields s h) as Hf end.
    destruct (send_control_packet s _) as [s1 a|s1 e|]; cbn [sbind sG] in *; auto.
    destruct a; cbn [sG]; [|exact H]. eapply G_trans; [exact H|].
    destruct Hf as (_ & _ & Hst & _).
    apply G_state; vsimpl; auto; [|intros; discriminate].
    rewrite Hst. destruct (v_state s); cbn [is_local_fin_or_later] in Hl; try discriminate; exact I. }
  destruct (v_state s) eqn:Es; try (cbn [sG]; g_same).
  - apply Gg. reflexivity.
  - destruct (timer_expired _ _); [apply Gg; reflexivity|apply G_refl].
Qed.

(* ------------------------------------------------------------------ death *)
(* just_before_death: the state and the send side are kept; at most one datagram is added, the FIN of
   the error path (only for an error in a state before our own FIN), numbered seq_nr *)
Lemma jbd_spec (s : vsock) e :
  let s' := just_before_death s e in
  v_state s' = v_state s /\ v_segs s' = v_segs s /\ ring (v_tx s') = ring (v_tx s) /\
  v_inbox s' = v_inbox s /\ v_inbox_closed s' = v_inbox_closed s /\
  v_t_syn_ack_resend s' = v_t_syn_ack_resend s /\
  (v_out s' = v_out s \/
   (is_local_fin_or_later (v_state s) = false /\ e <> None /\
    exists p, v_out s' = p :: v_out s /\ ch_type (p_hdr p) = ST_FIN /\ ch_seq (p_hdr p) = v_seq_nr s)).
Proof.
  unfold just_before_death. cbv zeta.
  match goal with |- context [mark_both_closed ?x] =>
    assert (H1 : v_state x = v_state s /\ v_segs x = v_segs s /\ ring (v_tx x) = ring (v_tx s) /\
                 v_inbox x = v_inbox s /\ v_inbox_closed x = v_inbox_closed s /\
                 v_t_syn_ack_resend x = v_t_syn_ack_resend s /\ v_out x = v_out s /\ v_seq_nr x = v_seq_nr s);
    [|revert H1; generalize x; intros s1 (A1 & A2 & A3 & A4 & A5 & A6 & A7 & A8)] end.
  { destruct e; [|repeat split]. unfold rx_enqueue_error, add_wakes. vsimpl. repeat split. }
  assert (H2 : v_state (mark_both_closed s1) = v_state s /\ v_segs (mark_both_closed s1) = v_segs s /\
               ring (v_tx (mark_both_closed s1)) = ring (v_tx s) /\
               v_inbox (mark_both_closed s1) = v_inbox s /\
               v_inbox_closed (mark_both_closed s1) = v_inbox_closed s /\
               v_t_syn_ack_resend (mark_both_closed s1) = v_t_syn_ack_resend s /\
               v_out (mark_both_closed s1) = v_out s /\ v_seq_nr (mark_both_closed s1) = v_seq_nr s).
  { unfold mark_both_closed. destruct (rx_mark_vsock_closed (v_rx s1)) as [rx1 w1].
    unfold mark_vsock_closed, add_wakes. vsimpl. cbn [ring upd]. repeat split; assumption. }
  revert H2. generalize (mark_both_closed s1). intros s2 (B1 & B2 & B3 & B4 & B5 & B6 & B7 & B8).
  destruct e as [err|]; [|repeat split; auto].
  destruct (negb (is_local_fin_or_later (v_state s2))) eqn:El; [|repeat split; auto].
  assert (Hl : is_local_fin_or_later (v_state s) = false) by (rewrite <- B1; apply negb_true_iff; exact El).
  set (s3 := set_seq_nr s2 (wadd16 (v_seq_nr s2) 1)).
  set (h := hdr_with (outgoing_header s2) ST_FIN (v_seq_nr s2) None).
  (* the outcomes of the FIN as explicit states: every field is read off *)
  destruct (v_transport_pending s3) eqn:Ep.
  { unfold send_control_packet. rewrite Ep. unfold s3. vsimpl. repeat split; auto. }
  destruct (send_control_packet_cases s3 h Ep) as [(s4 & Hs & ->)|[(s4 & Hs & ->)|(s4 & Hs & ->)]];
    cbv beta iota.
  - destruct Hs as [->|[r ->]]; unfold on_packet_sent, emit, s3; vsimpl;
      (repeat (split; [assumption|])); right; (split; [exact Hl|]); (split; [discriminate|]);
      eexists; (split; [rewrite B7; reflexivity|split; [reflexivity|rewrite <- B8; reflexivity]]).
  - destruct Hs as [->|[r ->]]; unfold s3; vsimpl; repeat split; auto.
  - destruct Hs as [->|[r ->]]; unfold s3; vsimpl; repeat split; auto.
Qed.

Lemma jbd_G0 (s0 s1 : vsock) e :
  G0 s0 s1 -> (is_local_fin_or_later (v_state s1) = true \/ e = None) -> G0 s0 (just_before_death s1 e).
Proof.
  intros H Hc. pose proof (jbd_spec s1 e) as J. cbv zeta in J.
  destruct J as (J1 & _ & _ & J4 & J5 & _ & J7).
  assert (Ho : v_out (just_before_death s1 e) = v_out s1).
  { destruct J7 as [J7|(Hl & He & _)]; [exact J7|]. destruct Hc; congruence. }
  destruct H as (A1 & (l & A2 & A3) & A4 & A5 & A6).
  split; [rewrite J1; exact A1|]. split; [exists l; rewrite Ho, J1; auto|].
  split; [intro Hi; rewrite J4; auto|]. split; [congruence|].
  pose proof (just_before_death_frame s1 e) as ((Fo & _) & _). congruence.
Qed.

(* ------------------------------------------------------------------ poll_body, in two parts *)
(* the end of poll_body, after maybe_send_ack *)
Definition body_finish (s : vsock) : body_res :=
  if state_is_closed (v_state s) (o_wait_for_last_ack (v_opts s)) then
    BrReturn (just_before_death s None) PollReadyOk
  else
    let s := if is_local_fin_or_later (v_state s)
             then set_t_inactivity s (timer_arm (v_t_inactivity s) (v_now s)
                                        SHUTDOWN_FINAL_CHANCE_DELAY false)
             else s in
    let '(s, t) := next_timer_to_poll s in
    let s := match t with
             | Some instant => arm_in s (sat_sub instant (v_now s))
             | None => s
             end in
    BrReturn s PollPending.

(* from the decision to close on own initiative on *)
Definition body_back (s : vsock) : body_res :=
  let s := if should_close_on_own_initiative s then transition_to_fin_wait_1 s else s in
  pend (maybe_send_fin s) (fun s _ =>
  pend (maybe_send_ack s) (fun s _ => body_finish s)).

(* everything before, with the rest as a continuation: the head (up to the incoming messages) and the
   middle part (flush, inactivity, segmentation, send_tx_queue) *)
Definition body_head (k : vsock -> body_res) (s0 : vsock) : body_res :=
  pend (maybe_send_syn_ack (body_start s0)) (fun s _ =>
  pend (if immediate_ack_to_transmit s then send_ack s else SOk s false) (fun s _ =>
  pend (process_all_incoming_messages cci s) (fun s _ => k s))).

Definition body_mid (k : vsock -> body_res) (s : vsock) : body_res :=
  let '(rx1, fr, w) := rx_flush (v_rx s) in
  match fr with
  | FlPanic => BrPanic
  | FlOk _ =>
    let s := add_wakes (set_rx s rx1) (rx_wakes w) in
    if timer_expired (v_t_inactivity s) (v_now s) then die s ErrRemoteInactiveForTooLong
    else
    bail (split_tx_queue_into_segments cci s) (fun s _ =>
    pend (send_tx_queue cci s) (fun s _ => k s))
  end.

Definition body_front (k : vsock -> body_res) (s0 : vsock) : body_res := body_head (body_mid k) s0.

Lemma poll_body_parts s0 : poll_body cci s0 = body_front body_back s0.
Proof. reflexivity. Qed.

(* past the handshake and with no immediate ACK owed, a poll goes straight to the incoming messages *)
Lemma body_head_past_handshake k (s0 : vsock) :
  past_handshake (v_state s0) = true -> immediate_ack_to_transmit s0 = false ->
  body_head k s0 =
  pend (process_all_incoming_messages cci (set_t_syn_ack_resend (body_start s0) None)) (fun s _ => k s).
Proof.
  intros Hp Himm. unfold body_head.
  assert (Hsyn : maybe_send_syn_ack (body_start s0) = SOk (set_t_syn_ack_resend (body_start s0) None) tt).
  { unfold maybe_send_syn_ack. change (v_state (body_start s0)) with (v_state s0).
    destruct (v_state s0); try discriminate; reflexivity. }
  rewrite Hsyn. set (s1 := set_t_syn_ack_resend (body_start s0) None).
  unfold pend at 1, bail at 1.
  change (v_restart s1) with false. change (v_transport_pending s1) with false. cbv beta iota.
  change (immediate_ack_to_transmit s1) with (immediate_ack_to_transmit s0). rewrite Himm.
  unfold pend at 1, bail at 1.
  change (v_restart s1) with false. change (v_transport_pending s1) with false. cbv beta iota.
  reflexivity.
Qed.

Lemma poll_past_handshake (s : vsock) sc :
  past_handshake (v_state s) = true -> immediate_ack_to_transmit s = false ->
  poll cci (VSockRec.set_sends s sc) =
  let s0 := VSock_Lemmas.poll_init (VSockRec.set_sends s sc) in
  match pend (process_all_incoming_messages cci (set_t_syn_ack_resend (body_start s0) None))
             (fun s _ => body_mid body_back s) with
  | BrReturn s' r => (s', r)
  | BrRestart s' => poll_loop cci 63 s'
  | BrPanic => (s0, PollPanic)
  end.
Proof.
  intros Hp Himm. cbv zeta. unfold poll. fold (VSock_Lemmas.poll_init (VSockRec.set_sends s sc)).
  set (s0 := VSock_Lemmas.poll_init (VSockRec.set_sends s sc)).
  change (poll_loop cci 64 s0) with
    (match poll_body cci s0 with
     | BrReturn s' r => (s', r) | BrRestart s' => poll_loop cci 63 s' | BrPanic => (s0, PollPanic) end).
  rewrite poll_body_parts. unfold body_front.
  rewrite (body_head_past_handshake (body_mid body_back) s0 Hp Himm). reflexivity.
Qed.

(* the ways out of the front part: all of them under G *)
Definition early (s : vsock) (r : body_res) : Prop :=
  match r with
  | BrRestart s' => G s s'
  | BrReturn s' PollPending => G s s' /\ v_transport_pending s' = true
  | BrReturn s' (PollReadyErr e) => exists s1, GE s s1 e /\ s' = just_before_death s1 (Some e)
  | BrReturn _ _ => False
  | BrPanic => True
  end.

Lemma bail_walk {A} (P : body_res -> Prop) (s0 s : vsock) (m : step A) k :
  G s0 s -> sGr s m -> (forall r, early s0 r -> P r) ->
  (forall s1 a, m = SOk s1 a -> G s0 s1 -> v_restart s1 = false -> P (k s1 a)) -> P (bail m k).
Proof.
  intros F Hm He Hk. unfold bail. destruct m as [s1 a|s1 e|]; cbn [sGr] in Hm.
  - assert (F1 : G s0 s1) by (eapply G_trans; eauto).
    destruct (v_restart s1) eqn:R; [apply He; exact F1|apply Hk; auto].
  - apply He. unfold die. cbn [early]. exists s1. split; [eapply GE_trans; eauto|reflexivity].
  - apply He. exact I.
Qed.

Lemma pend_walk {A} (P : body_res -> Prop) (s0 s : vsock) (m : step A) k :
  G s0 s -> sGr s m -> (forall r, early s0 r -> P r) ->
  (forall s1 a, m = SOk s1 a -> G s0 s1 -> v_restart s1 = false -> v_transport_pending s1 = false ->
                P (k s1 a)) ->
  P (pend m k).
Proof.
  intros F Hm He Hk. unfold pend. eapply bail_walk; eauto.
  intros s1 a Em F1 R. destruct (v_transport_pending s1) eqn:T; [apply He; split; assumption|].
  rewrite R. apply Hk; assumption.
Qed.

Lemma body_start_G (s0 : vsock) : G s0 (body_start s0).
Proof. unfold body_start. g_same. Qed.

Lemma body_head_walk (P : body_res -> Prop) k (s0 : vsock) :
  (forall r, early s0 r -> P r) ->
  (forall s2 s3, G s0 s2 -> v_transport_pending s2 = false ->
                 process_all_incoming_messages cci s2 = SOk s3 tt -> G s0 s3 ->
                 v_restart s3 = false -> v_transport_pending s3 = false -> P (k s3)) ->
  P (body_head k s0).
Proof.
  intros He Hk. unfold body_head.
  eapply pend_walk; [apply body_start_G|apply sG_sGr, maybe_send_syn_ack_G|exact He|]. intros s1 _ _ F1 _ _.
  eapply pend_walk; [exact F1| |exact He|].
  { destruct (immediate_ack_to_transmit s1); [apply sG_sGr, send_ack_G|apply G_refl]. }
  intros s2 _ _ F2 _ T2.
  eapply pend_walk; [exact F2|apply process_all_G|exact He|]. intros s3 [] E3 F3 R3 T3.
  apply (Hk s2 s3); assumption.
Qed.

Lemma body_mid_walk (P : body_res -> Prop) k (s0 s3 : vsock) :
  G s0 s3 ->
  (forall r, early s0 r -> P r) ->
  (forall s4 s5 s6, G s0 s4 -> split_tx_queue_into_segments cci s4 = SOk s5 tt ->
                    send_tx_queue cci s5 = SOk s6 tt -> G s0 s6 ->
                    v_restart s6 = false -> v_transport_pending s6 = false -> P (k s6)) ->
  P (body_mid k s3).
Proof.
  intros F3 He Hk. unfold body_mid.
  destruct (rx_flush (v_rx s3)) as [[rx1 fr] w]. destruct fr; cbv beta iota zeta; [|apply He; exact I].
  assert (F4 : G s0 (add_wakes (set_rx s3 rx1) (rx_wakes w))).
  { eapply G_trans; [exact F3|]. eapply G_trans; [|apply add_wakes_G]. g_same. }
  abs_as (add_wakes (set_rx s3 rx1) (rx_wakes w)) F4 s4.
  destruct (timer_expired _ _).
  { apply He. unfold die. cbn [early]. exists s4. split; [apply GE_G; exact F4|reflexivity]. }
  eapply bail_walk; [exact F4|apply sG_sGr, split_G|exact He|]. intros s5 [] E5 F5 _.
  eapply pend_walk; [exact F5|apply sG_sGr, send_tx_queue_G|exact He|]. intros s6 [] E6 F6 R6 T6.
  apply (Hk s4 s5 s6); assumption.
Qed.

Lemma body_front_walk (P : body_res -> Prop) k (s0 : vsock) :
  (forall r, early s0 r -> P r) ->
  (forall s4 s5 s6, G s0 s4 -> split_tx_queue_into_segments cci s4 = SOk s5 tt ->
                    send_tx_queue cci s5 = SOk s6 tt -> G s0 s6 ->
                    v_restart s6 = false -> v_transport_pending s6 = false -> P (k s6)) ->
  P (body_front k s0).
Proof.
  intros He Hk. unfold body_front. apply body_head_walk; [exact He|].
  intros s2 s3 _ _ _ F3 _ _. apply (body_mid_walk P k s0 s3 F3 He Hk).
Qed.

(* what a whole poll_body does, under G0; a Pending return with a writable transport comes from the end
   of the body, where the connection is not closed *)
Definition not_closed (s : vsock) : Prop :=
  state_is_closed (v_state s) (o_wait_for_last_ack (v_opts s)) = false.

Definition bG0 (s0 : vsock) (r : body_res) : Prop :=
  match r with
  | BrRestart s' => G0 s0 s'
  | BrReturn s' PollPending => G0 s0 s' /\ (v_transport_pending s' = false -> not_closed s')
  | BrReturn s' PollReadyOk => exists s1, G0 s0 s1 /\ s' = just_before_death s1 None
  | BrReturn s' (PollReadyErr e) => exists s1, G0 s0 s1 /\ s' = just_before_death s1 (Some e)
  | BrReturn _ PollPanic => False
  | BrPanic => True
  end.

Lemma early_bG0 s0 r : early s0 r -> bG0 s0 r.
Proof.
  destruct r as [s' [| |e|]|s'|]; cbn [early bG0]; auto using G_G0; try tauto.
  - intros [H T]. split; [apply G_G0; exact H|]. intro X. congruence.
  - intros (s1 & H & E). exists s1. split; [apply H|exact E].
Qed.

Definition sG0 {A} (s : vsock) (m : step A) : Prop :=
  match m with SOk s' _ | SErr s' _ => G0 s s' | SPanic => True end.

Lemma sG_sG0 {A} s (m : step A) : sG s m -> sG0 s m.
Proof. destruct m; cbn [sG sG0]; [apply G_G0|intros [[H _] _]; exact H|auto]. Qed.

Lemma pend_G0 {A} (s0 s : vsock) (m : step A) k :
  G0 s0 s -> sG0 s m -> (forall s1 a, G0 s0 s1 -> bG0 s0 (k s1 a)) -> bG0 s0 (pend m k).
Proof.
  intros F Hm Hk. unfold pend, bail. destruct m as [s1 a|s1 e|]; cbn [sG0] in Hm; [| |exact I].
  - assert (F1 : G0 s0 s1) by (eapply G0_trans; eauto).
    destruct (v_restart s1); [exact F1|]. destruct (v_transport_pending s1) eqn:T.
    + cbn [bG0]. split; [exact F1|]. intro X. congruence.
    + apply Hk; exact F1.
  - unfold die. cbn [bG0]. exists s1. split; [eapply G0_trans; eauto|reflexivity].
Qed.

Lemma body_finish_G0 (s0 s : vsock) : G0 s0 s -> bG0 s0 (body_finish s).
Proof.
  intro F. unfold body_finish. destruct (state_is_closed _ _) eqn:Ec.
  { cbn [bG0]. exists s. auto. }
  match goal with |- context [next_timer_to_poll ?x] =>
    assert (F10 : G0 s0 x /\ not_closed x); [|abs_as x F10 s10] end.
  { destruct (is_local_fin_or_later (v_state s)); split; try exact F; exact Ec. }
  destruct F10 as [F10 N10].
  unfold next_timer_to_poll, arm_in, add_wakes. destruct (v_transport_pending s10).
  - destruct (v_t_inactivity s10); cbn [bG0]; [|split; [exact F10|intros _; exact N10]].
    destruct (_ <=? _); (split; [exact F10|intros _; exact N10]).
  - match goal with |- bG0 _ (BrReturn match ?t with _ => _ end _) => destruct t end; cbn [bG0];
      [destruct (_ <=? _)|]; (split; [exact F10|intros _; exact N10]).
Qed.

Lemma body_back_G0 (s0 s6 : vsock) : G0 s0 s6 -> bG0 s0 (body_back s6).
Proof.
  intro F6. unfold body_back.
  assert (F7 : G0 s0 (if should_close_on_own_initiative s6 then transition_to_fin_wait_1 s6 else s6)).
  { destruct (should_close_on_own_initiative s6); [eapply G0_trans; [exact F6|apply transition_G0]|exact F6]. }
  eapply pend_G0; [exact F7|apply sG_sG0, maybe_send_fin_G|]. intros s8 _ F8.
  eapply pend_G0; [exact F8|apply sG_sG0, maybe_send_ack_G|]. intros s9 _ F9.
  apply body_finish_G0. exact F9.
Qed.

(* the middle and back parts from any state reached under G *)
Lemma body_mid_back_G0 (s0 s3 : vsock) : G s0 s3 -> bG0 s0 (body_mid body_back s3).
Proof.
  intro F3. apply (body_mid_walk (bG0 s0) body_back s0 s3 F3).
  - apply early_bG0.
  - intros s4 s5 s6 _ _ _ F6 _ _. apply body_back_G0. apply G_G0. exact F6.
Qed.

Theorem poll_body_G0 (s0 : vsock) : bG0 s0 (poll_body cci s0).
Proof.
  rewrite poll_body_parts. apply body_front_walk.
  - apply early_bG0.
  - intros s4 s5 s6 _ _ _ F6 _ _. apply body_back_G0. apply G_G0. exact F6.
Qed.

(* the restart loop *)
Lemma poll_loop_ind (I : vsock -> Prop) (Q : vsock -> poll_result -> Prop) :
  (forall s, I s -> Q s PollPanic) ->
  (forall s, I s -> match poll_body cci s with
                    | BrReturn s' r => Q s' r
                    | BrRestart s' => I s'
                    | BrPanic => True
                    end) ->
  forall fuel s, I s -> Q (fst (poll_loop cci fuel s)) (snd (poll_loop cci fuel s)).
Proof.
  intros Hp Hb. induction fuel as [|fuel IH]; intros s Hi; cbn [poll_loop fst snd]; [apply Hp; exact Hi|].
  specialize (Hb s Hi). destruct (poll_body cci s) as [s' r|s'|]; cbn [fst snd].
  - exact Hb.
  - apply IH. exact Hb.
  - apply Hp. exact Hi.
Qed.

(* ================================================================== datagrams other than ST_FIN *)
Definition nofin (p : packet) : Prop := ch_type (p_hdr p) <> ST_FIN.

Definition GN (s s' : vsock) : Prop := exists l, v_out s' = l ++ v_out s /\ Forall nofin l.

Lemma GN_refl s : GN s s.
Proof. exists []. split; [reflexivity|constructor]. Qed.

Lemma GN_trans a b c : GN a b -> GN b c -> GN a c.
Proof.
  intros (l1 & A1 & A2) (l2 & B1 & B2). exists (l2 ++ l1).
  split; [rewrite B1, A1, app_assoc; reflexivity|apply Forall_app; auto].
Qed.

Lemma GN_eq (s s' : vsock) : v_out s' = v_out s -> GN s s'.
Proof. intro E. exists []. split; [exact E|constructor]. Qed.

Definition is_reset_err (e : verror) : Prop := e = ErrStResetReceived.

(* an error is never the reset error *)
Definition sGN {A} (s : vsock) (m : step A) : Prop :=
  match m with SOk s' _ => GN s s' | SErr s' e => GN s s' /\ e <> ErrStResetReceived | SPanic => True end.

Lemma sGN_bind {A B} s (m : step A) (f : vsock -> A -> step B) :
  sGN s m -> (forall s1 a, sGN s1 (f s1 a)) -> sGN s (sbind m f).
Proof.
  intros Hm Hf. destruct m as [s1 a|s1 e|]; cbn [sbind sGN] in *; auto.
  specialize (Hf s1 a). destruct (f s1 a); cbn [sGN] in *; auto.
  - eapply GN_trans; eauto.
  - destruct Hf as [Hf He]. split; [eapply GN_trans; eauto|exact He].
Qed.

Lemma sGN_weaken {A} s0 s (m : step A) : GN s0 s -> sGN s m -> sGN s0 m.
Proof.
  intros H Hm. destruct m; cbn [sGN] in *; auto; [eapply GN_trans; eauto|].
  destruct Hm as [Hm He]. split; [eapply GN_trans; eauto|exact He].
Qed.

Lemma send_control_packet_GN (s : vsock) h : ch_type h <> ST_FIN -> sGN s (send_control_packet s h).
Proof.
  intro Hk. unfold send_control_packet. destruct (v_transport_pending s); [(apply GN_eq; reflexivity)|].
  destruct (next_send s _) as [s1 o] eqn:E. apply next_send_same in E.
  destruct o; cbn [sGN].
  - destruct E as [->|[r ->]]; unfold on_packet_sent, emit;
      (eexists [_]; split; [reflexivity|constructor; [exact Hk|constructor]]).
  - destruct E as [->|[r ->]]; (apply GN_eq; reflexivity).
  - split; [destruct E as [->|[r ->]]; (apply GN_eq; reflexivity)|discriminate].
  - split; [destruct E as [->|[r ->]]; (apply GN_eq; reflexivity)|discriminate].
Qed.

Lemma send_ack_GN (s : vsock) : sGN s (send_ack s).
Proof. unfold send_ack. apply send_control_packet_GN. discriminate. Qed.

Lemma maybe_send_syn_ack_GN (s : vsock) : sGN s (maybe_send_syn_ack s).
Proof.
  unfold maybe_send_syn_ack.
  assert (Gg : forall c,
    sGN s (if c =? o_max_retx (v_opts s) then SErr s ErrMaxSynAckRetransmissionsReached
     else sbind (send_ack s) (fun s1 sent => if sent then
        SOk (set_t_syn_ack_resend (set_state s1 (SynAckSent (c + 1)))
              (timer_arm (v_t_syn_ack_resend s1) (v_now s1) SYNACK_RESEND_INTERNAL true)) tt
        else SOk s1 tt))).
  { intros c. destruct (_ =? _); [split; [(apply GN_eq; reflexivity)|discriminate]|].
    apply sGN_bind; [apply send_ack_GN|]. intros s1 a. destruct a; (apply GN_eq; reflexivity). }
  destruct (v_state s); try (apply GN_eq; reflexivity); try apply Gg.
  destruct (timer_expired _ _); [apply Gg|(apply GN_eq; reflexivity)].
Qed.

Lemma state_table_keeps (s : vsock) h :
  match state_table s h with
  | TblDrop s' | TblContinue s' => v_out s' = v_out s
  | TblErr s' e => v_out s' = v_out s /\ (e = ErrStResetReceived -> v_state s' = Closed)
  end.
Proof.
  unfold state_table, restart_remote_inactivity_timer.
  destruct (ch_type h); destruct (v_state s);
    repeat match goal with |- context [if ?c then _ else _] => destruct c end;
    try reflexivity; (split; [reflexivity|]); try reflexivity; intros; try discriminate; reflexivity.
Qed.

Lemma add_err_not_reset r e : add_err r = Some e -> e <> ErrStResetReceived.
Proof. destruct r; cbn [add_err]; intro H; try discriminate; injection H as <-; discriminate. Qed.

(* process_incoming_message emits state packets only; it reports the reset error only from the table,
   with the state set to Closed *)
Definition sGNr {A} (s : vsock) (m : step A) : Prop :=
  match m with
  | SOk s' _ => GN s s'
  | SErr s' e => GN s s' /\ (e = ErrStResetReceived -> v_state s' = Closed)
  | SPanic => True
  end.

Lemma sGN_sGNr {A} s (m : step A) : sGN s m -> sGNr s m.
Proof. destruct m; cbn [sGN sGNr]; auto. intros [H He]. split; [exact H|]. intro; contradiction. Qed.

Lemma process_incoming_message_GN (s : vsock) m : sGNr s (process_incoming_message cci s m).
Proof.
  unfold process_incoming_message. cbv zeta.
  pose proof (state_table_keeps s (m_hdr m)) as Ht.
  destruct (state_table s (m_hdr m)) as [s1|s1 e|s1]; cbn [sGNr].
  - apply GN_eq. exact Ht.
  - destruct Ht as [Ht He]. split; [apply GN_eq; exact Ht|exact He].
  - destruct (remove_up_to_ack _ _ _ _) as [segs1 res].
    match goal with |- sGNr _ (match ?o with Some _ => _ | None => _ end) => destruct o as [rtte1|] end; [|exact I].
    destruct (cc_on_ack _ _ _ _ _) as [cc3|]; [|exact I].
    destruct (recovery_on_ack _ _ _ _ _ _ _ _) as [[[rec1 segs2] cc4]|]; [|exact I].
    match goal with |- sGNr _ (match ch_type _ with ST_DATA => _ | ST_FIN => _ | ST_STATE => SOk ?x _
                                  | ST_RESET => _ | ST_SYN => _ end) =>
      assert (F2 : GN s x) by (apply GN_eq; exact Ht); abs_as x F2 s2 end.
    destruct (ch_type (m_hdr m)); try exact F2.
    + (* ST_DATA *)
      destruct (_ <? 0); [exact F2|].
      destruct (rx_add_remove _ _ _ _) as [[rx1 ar] w].
      destruct ar as [r|]; [|exact I].
      match goal with |- sGNr _ (match add_err r with Some e => SErr ?x e | None => _ end) =>
        assert (F4 : GN s x) by exact F2; abs_as x F4 s4 end.
      destruct (add_err r) as [e|] eqn:Ea.
      { split; [exact F4|]. intro He. exfalso. exact (add_err_not_reset _ _ Ea He). }
      match goal with |- sGNr _ (if _ then _ else SOk ?x _) =>
        assert (F5 : GN s x) by (destruct r; exact F4); abs_as x F5 s5 end.
      destruct (_ || _); [|exact F5].
      apply sGN_sGNr. eapply sGN_weaken with (s := force_immediate_ack s5); [exact F5|].
      apply sGN_bind; [apply send_ack_GN|]. intros; apply GN_refl.
    + (* ST_FIN *)
      destruct (_ && _); [|exact F2].
      destruct (rx_add_remove _ _ _ _) as [[rx1 ar] w].
      destruct ar as [r|]; [|exact I].
      destruct (add_err r) as [e|] eqn:Ea.
      { split; [exact F2|]. intro He. exfalso. exact (add_err_not_reset _ _ Ea He). }
      destruct (mark_vsock_closed _) as [tx1 w2]. exact F2.
Qed.

(* the receive loop: the reset error means: a message was processed, the state is Closed, and only
   non-FIN datagrams were emitted on the way; a normal return means: only non-FIN datagrams were
   emitted, or the inbox is empty (the channel-closed arm may have sent our FIN) *)
Definition rlN {A} (s : vsock) (m : step A) : Prop :=
  match m with
  | SOk s' _ => GN s s' \/ v_inbox s' = []
  | SErr s' e => e = ErrStResetReceived -> v_state s' = Closed /\ v_inbox s <> [] /\ GN s s'
  | SPanic => True
  end.

Lemma recv_empty_N (s : vsock) (acc : on_ack_result) :
  v_inbox s = [] ->
  rlN s (if v_inbox_closed s
         then sbind (maybe_send_fin (transition_to_fin_wait_1 s))
                    (fun s2 _ => SOk (set_state s2 Closed) (acc, true))
         else SOk (set_inbox_waker s true) (acc, false)).
Proof.
  intro Hi. pose proof (recv_empty_G s acc Hi) as HG.
  destruct (v_inbox_closed s); [|left; apply GN_eq; reflexivity].
  destruct (sbind _ _) as [s' x|s' e|]; cbn [sG rlN] in *; auto.
  - right. destruct HG as ((_ & _ & H3 & _) & _). auto.
  - destruct HG as [_ He]. intro; contradiction.
Qed.

Lemma recv_loop_N : forall fuel s acc, rlN s (recv_loop cci fuel s acc).
Proof.
  induction fuel as [|m0 fuel IH]; intros s acc; cbn [recv_loop]; destruct (v_inbox s) as [|m rest] eqn:Ei.
  - apply recv_empty_N. exact Ei.
  - exact I.
  - apply recv_empty_N. exact Ei.
  - pose proof (process_incoming_message_GN (set_inbox s rest) m) as Hp.
    destruct (process_incoming_message cci (set_inbox s rest) m) as [s1 r|s1 e|]; cbn [sbind sGNr] in *; auto.
    + destruct (_ || _); [left; exact Hp|].
      specialize (IH s1 (result_update acc r)).
      destruct (recv_loop cci fuel s1 (result_update acc r)) as [s2 x|s2 e|]; cbn [rlN] in *; auto.
      * destruct IH as [IH|IH]; [left; eapply GN_trans; [exact Hp|exact IH]|right; exact IH].
      * intro He. destruct (IH He) as (A1 & _ & A3). split; [exact A1|]. split; [rewrite Ei; discriminate|].
        eapply GN_trans; [exact Hp|exact A3].
    + destruct Hp as [Hp He]. intro H. split; [apply He; exact H|]. split; [rewrite Ei; discriminate|exact Hp].
Qed.

Lemma process_all_N (s : vsock) : rlN s (process_all_incoming_messages cci s).
Proof.
  rewrite process_all_eq.
  pose proof (recv_loop_N (v_inbox s ++ [{| m_hdr := outgoing_header s; m_payload := [] |}]) s
                on_ack_result_default) as Hl.
  destruct (recv_loop _ _ _ _) as [s1 res|s1 e|]; cbn [sbind]; [|exact Hl|exact I].
  pose proof (pa_tail_G s1 res) as HG. pose proof (pa_tail_keeps s1 res) as HK.
  destruct (pa_tail s1 res) as [s3 u|s3 e|]; cbn [rlN sG] in *; [| |exact I].
  - destruct (HK s3 u eq_refl) as (K1 & _ & _ & _ & K5).
    destruct Hl as [(l & Hl1 & Hl2)|Hl]; [left; exists l; split; [congruence|exact Hl2]|right; congruence].
  - intro He. destruct HG as [_ HG]. contradiction.
Qed.

(* ------------------------------------------------------------------ segmentation emits nothing and never
   asks for a restart *)
Definition keeps_out (s s' : vsock) : Prop := v_out s' = v_out s /\ v_restart s' = v_restart s.

Lemma split_keeps (s : vsock) :
  match split_tx_queue_into_segments cci s with
  | SOk s' _ | SErr s' _ => keeps_out s s'
  | SPanic => True
  end.
Proof.
  unfold split_tx_queue_into_segments, keeps_out. cbv zeta. destruct (_ =? 0); [split; reflexivity|].
  match goal with |- match (if is_remote_fin_or_later (v_state ?x) then _ else _) with _ => _ end =>
    assert (F : v_out x = v_out s /\ v_restart x = v_restart s); [|abs_as x F sx] end.
  { destruct (_ && _); [|auto]. destruct (grow _ _) as [tx1 g]. destruct g; [|auto].
    destruct (wake_writer tx1) as [tx2 w]. unfold add_wakes. vsimpl. auto. }
  destruct (is_remote_fin_or_later _); [exact F|].
  destruct (pop_expired_mtu_probe _ _ _) as [segs1 pe].
  assert (Hcont : forall (s2 : vsock) tl, v_out s2 = v_out s /\ v_restart s2 = v_restart s ->
    match (if tl <? ss_len_bytes (v_segs s2) then SErr s2 (ErrBug BugInBufferComputations)
           else match segment_loop (ring (v_tx s2)) (o_nagle (v_opts s2)) (v_ss s2) (v_segs s2)
                        (tl - ss_len_bytes (v_segs s2)) (v_last_remote_window s2) with
                | Some (ss', segs', remaining) =>
                    SOk (set_unsegmented (set_segs (set_ss s2 ss') segs') remaining) tt
                | None => SPanic
                end) with
    | SOk s' _ | SErr s' _ => v_out s' = v_out s /\ v_restart s' = v_restart s
    | SPanic => True
    end).
  { intros s2 tl F2. destruct (_ <? _); [exact F2|].
    destruct (segment_loop _ _ _ _ _ _) as [[[ss' segs'] rem]|]; [exact F2|exact I]. }
  destruct pe.
  - apply Hcont. destruct (seq_gt _ _); exact F.
  - exact F.
  - apply Hcont. exact F.
Qed.

(* ------------------------------------------------------------------ send_tx_queue asks for a restart only
   when the datagrams it emitted are all ST_DATA (the FIN of the RTO branch goes out only when no
   segment is undelivered, and then nothing is left that could be too long for the path) *)
Lemma data_pkts_nofin (s : vsock) h sent : Forall nofin (rev (map (data_pkt s h) sent)).
Proof.
  apply Forall_forall. intros p Hp. apply in_rev in Hp. apply in_map_iff in Hp. destruct Hp as (f & <- & _).
  unfold nofin, data_pkt, data_hdr. cbn [p_hdr ch_type]. discriminate.
Qed.

Lemma sd_frame_restart (s s' : vsock) : sd_frame s s' -> v_restart s' = v_restart s.
Proof. unfold sd_frame. tauto. Qed.

Lemma on_rto_reactions_restart (s s' : vsock) : on_rto_reactions cci s = Some s' -> v_restart s' = v_restart s.
Proof. unfold on_rto_reactions. destruct (on_rto_timeout _); [|discriminate]. intro H; injection H as <-. reflexivity. Qed.

Lemma rto_branch_restart (s : vsock) h s1 :
  step_st (rto_branch cci s h) = Some s1 -> v_restart s1 = v_restart s.
Proof.
  unfold rto_branch. destruct (timer_expired _ _); [|cbn [step_st]; intro H; injection H as <-; reflexivity].
  destruct (iter_for_sending _ _) as [|f rest].
  - destruct (our_fin_if_unacked _); [|cbn [step_st]; intro H; injection H as <-; reflexivity].
    destruct (_ =? _); [|cbn [step_st]; intro H; injection H as <-; reflexivity].
    set (sx := set_last_sent_seq_nr s (wsub16 (v_last_sent_seq_nr s) 1)).
    pose proof (VSock_LemmasTx.maybe_send_fin_spec sx) as Hm.
    destruct (maybe_send_fin sx) as [s2 [|]|s2 e|]; cbn [sbind step_st]; try discriminate.
    + destruct Hm as (seq & _ & _ & Hf & _). apply sd_frame_restart in Hf.
      destruct (on_rto_reactions cci s2) as [s3|] eqn:Er; [|discriminate].
      apply on_rto_reactions_restart in Er. cbn [step_st]. intro H; injection H as <-.
      change (v_restart s3 = v_restart s). rewrite Er, Hf. reflexivity.
    + intro H; injection H as <-. destruct Hm as (Hf & _). apply sd_frame_restart in Hf. exact Hf.
    + intro H; injection H as <-. destruct Hm as (Hf & _). apply sd_frame_restart in Hf. exact Hf.
  - pose proof (send_data_spec s h f) as Hd.
    destruct (send_data s h f) as [s2 [| |]|s2 e|]; cbn [step_st]; try discriminate.
    + destruct Hd as (Hf & _). apply sd_frame_restart in Hf.
      destruct (negb _).
      * destruct (on_rto_reactions cci s2) as [s3|] eqn:Er; [|discriminate].
        apply on_rto_reactions_restart in Er. cbn [step_st]. intro H; injection H as <-.
        change (v_restart s3 = v_restart s). congruence.
      * cbn [step_st]. intro H; injection H as <-. exact Hf.
    + intro H; injection H as <-. destruct Hd as ((Hf & _) & _). apply sd_frame_restart in Hf. exact Hf.
    + intro H; injection H as <-. destruct Hd as ((Hf & _) & _). apply sd_frame_restart in Hf. exact Hf.
    + intro H; injection H as <-. destruct Hd as ((Hf & _) & _). apply sd_frame_restart in Hf. exact Hf.
Qed.

Lemma rec_items_empty (s : vsock) rc : iter_for_sending (v_segs s) None = [] -> rec_items s rc = [].
Proof. unfold rec_items. intros ->. destruct (Z.to_nat _); reflexivity. Qed.

Lemma new_branch_empty (s : vsock) h :
  iter_for_sending (v_segs s) None = [] -> new_branch cci s h = SOk s tt.
Proof.
  intro Hi. unfold new_branch, new_items. rewrite (iter_none_nil _ _ Hi). reflexivity.
Qed.

Lemma after_rto_k_norestart h (s1 : vsock) ret s' u :
  iter_for_sending (v_segs s1) None = [] -> after_rto_k cci h s1 ret = SOk s' u ->
  v_restart s' = v_restart s1.
Proof.
  intros Hi. unfold after_rto_k.
  destruct ret; [intro H; injection H as <-; reflexivity|].
  destruct (0 <? _); [intro H; injection H as <-; reflexivity|].
  destruct (ss_segs _); [intro H; injection H as <-; reflexivity|].
  unfold rec_branch. destruct (rv_phase (v_recovery s1)) as [| |rc] eqn:Eph; cbn [sbind].
  - rewrite (new_branch_empty _ _ Hi). intro H; injection H as <-; reflexivity.
  - rewrite (new_branch_empty _ _ Hi). intro H; injection H as <-; reflexivity.
  - rewrite (rec_items_empty _ _ Hi). cbn [recovery_loop sbind]. unfold rec_after. cbv zeta.
    match goal with |- context [our_fin_if_unacked (v_state ?x)] =>
      assert (F : v_restart x = v_restart s1 /\ v_segs x = v_segs s1); [|abs_as x F s3] end.
    { unfold set_recovering. destruct (_ <? _); [|auto]. destruct (rc_recalc rc); [auto|].
      destruct (0 <? _); auto. }
    destruct F as [F1 F2].
    destruct (our_fin_if_unacked _); [destruct (_ =? _)|]; cbn [sbind].
    + intro H; injection H as <-. exact F1.
    + rewrite new_branch_empty by (rewrite F2; exact Hi). intro H; injection H as <-. exact F1.
    + rewrite new_branch_empty by (rewrite F2; exact Hi). intro H; injection H as <-. exact F1.
Qed.

Lemma after_rto_k_GN h (s1 : vsock) ret s' u : after_rto_k cci h s1 ret = SOk s' u -> GN s1 s'.
Proof.
  unfold after_rto_k.
  destruct ret; [intro H; injection H as <-; apply GN_refl|].
  destruct (0 <? _); [intro H; injection H as <-; apply GN_refl|].
  destruct (ss_segs _); [intro H; injection H as <-; apply GN_refl|].
  intro H.
  assert (Hs : step_st (sbind (rec_branch s1 h) (fun s ret => if ret then SOk s tt else new_branch cci s h))
               = Some s') by (rewrite H; reflexivity).
  destruct (rec_new_emits cci _ _ _ Hs) as (sent & Ho & _).
  exists (rev (map (data_pkt s1 h) sent)). split; [exact Ho|apply data_pkts_nofin].
Qed.

Theorem stq_restart_data (s s' : vsock) u :
  send_tx_queue cci s = SOk s' u -> v_restart s = false -> v_restart s' = true -> GN s s'.
Proof.
  rewrite send_tx_queue_eq. destruct (v_transport_pending s); [intro H; injection H as <-; congruence|].
  set (h := outgoing_header s).
  destruct (rto_branch cci s h) as [s1 ret|s1 e|] eqn:Er; cbn [sbind]; try discriminate.
  intros H R0 R1.
  assert (Hs : step_st (rto_branch cci s h) = Some s1) by (rewrite Er; reflexivity).
  pose proof (rto_branch_restart _ _ _ Hs) as Rr.
  pose proof (rto_branch_spec cci _ _ _ Hs) as Ho. rewrite Er in Ho.
  pose proof (after_rto_k_GN _ _ _ _ _ H) as Hl.
  destruct Ho as [Ho _ _ _ _ _
                 | f rest _ _ _ Ho _ _ _ _ _ _ _ _ _ _ _ _
                 | fin _ Hit _ _ _ _ Hsg _ _ _ _ _ _ _ _].
  - eapply GN_trans; [apply GN_eq; exact Ho|exact Hl].
  - eapply GN_trans; [|exact Hl]. exists [data_pkt s h f]. split; [exact Ho|].
    constructor; [|constructor]. unfold nofin, data_pkt, data_hdr. cbn [p_hdr ch_type]. discriminate.
  - exfalso. rewrite <- Hsg in Hit. pose proof (after_rto_k_norestart _ _ _ _ _ Hit H) as K. congruence.
Qed.

(* ================================================================== the segmented bytes lie within the
   send buffer: 0 <= ss_len_bytes <= length ring, an invariant of every trace (p = bytes acknowledged by
   messages already processed in this poll and not yet truncated from the ring) *)
Notation ss_ok := VSock_Inv.ss_ok.

Definition LB (p : Z) (s : vsock) : Prop :=
  seg_inv (v_segs s) /\ ss_ok (v_ss s) /\ 0 <= p /\
  ss_len_bytes (v_segs s) + p <= Z.of_nat (length (ring (v_tx s))).

Lemma LB_zero p s : LB p s -> LB 0 s.
Proof. unfold LB. intros (A & B & C & D). split; [exact A|]. split; [exact B|]. split; lia. Qed.

Lemma seg_len_eq t : seg_inv t -> ss_len_bytes t = ss_offset t - ss_removed t.
Proof. intros (_ & H & _). lia. Qed.

Lemma seg_len_nonneg t : seg_inv t -> 0 <= ss_len_bytes t.
Proof. intros (H1 & _ & H3 & _). rewrite H1. eapply tiled_sizes_nonneg; eauto. Qed.

(* steps that touch neither the segments, nor the segment sizes, nor the ring *)
Definition kp (s s' : vsock) : Prop :=
  v_segs s' = v_segs s /\ v_ss s' = v_ss s /\ ring (v_tx s') = ring (v_tx s).

Lemma kp_refl s : kp s s.
Proof. unfold kp. auto. Qed.
Lemma kp_trans a b c : kp a b -> kp b c -> kp a c.
Proof. unfold kp. intros (A1 & A2 & A3) (B1 & B2 & B3). repeat split; congruence. Qed.

Lemma LB_kp p s s' : LB p s -> kp s s' -> LB p s'.
Proof. unfold LB. intros H (K1 & K2 & K3). rewrite K1, K2, K3. exact H. Qed.

Lemma sd_kp (s s' : vsock) : sd_frame s s' -> v_segs s' = v_segs s -> kp s s'.
Proof.
  unfold sd_frame, kp. intros H Hs. repeat match goal with H : _ /\ _ |- _ => destruct H end.
  repeat split; congruence.
Qed.

Definition skp {A} (s : vsock) (m : step A) : Prop :=
  match m with SOk s' _ | SErr s' _ => kp s s' | SPanic => True end.

Lemma skp_bind {A B} s (m : step A) (f : vsock -> A -> step B) :
  skp s m -> (forall s1 a, skp s1 (f s1 a)) -> skp s (sbind m f).
Proof.
  intros Hm Hf. destruct m as [s1 a|s1 e|]; cbn [sbind skp] in *; auto.
  specialize (Hf s1 a). destruct (f s1 a); cbn [skp] in *; auto; eapply kp_trans; eauto.
Qed.

Ltac kp_triv := cbn [skp]; unfold kp; vsimpl; auto.

(* kp contains the elementary updates of the control packets (VSock_LemmasReach, StepRel) *)
Ltac kp_leaf := intros; unfold on_packet_sent, emit; kp_triv.

Lemma send_control_packet_kp (s : vsock) h : skp s (send_control_packet s h).
Proof. apply (VSock_LemmasReach.send_control_packet_R kp kp_refl kp_trans); kp_leaf. Qed.

Lemma send_ack_kp (s : vsock) : skp s (send_ack s).
Proof. unfold send_ack. apply send_control_packet_kp. Qed.

Lemma maybe_send_fin_kp (s : vsock) : skp s (maybe_send_fin s).
Proof. apply (VSock_LemmasReach.maybe_send_fin_R kp kp_refl kp_trans); kp_leaf. Qed.

Lemma maybe_send_ack_kp (s : vsock) : skp s (maybe_send_ack s).
Proof. apply (VSock_LemmasReach.maybe_send_ack_R kp kp_refl kp_trans); kp_leaf. Qed.

Lemma maybe_send_syn_ack_kp (s : vsock) : skp s (maybe_send_syn_ack s).
Proof. apply (VSock_LemmasReach.maybe_send_syn_ack_R kp kp_refl kp_trans); kp_leaf. Qed.

Lemma transition_kp (s : vsock) : kp s (transition_to_fin_wait_1 s).
Proof. unfold transition_to_fin_wait_1. destruct (v_state s); kp_triv. Qed.

Lemma mark_both_closed_kp (s : vsock) : kp s (mark_both_closed s).
Proof.
  unfold mark_both_closed. destruct (rx_mark_vsock_closed (v_rx s)) as [rx1 w1].
  unfold mark_vsock_closed, add_wakes, kp. vsimpl. cbn [ring upd]. auto.
Qed.

Lemma jbd_kp (s : vsock) e : kp s (just_before_death s e).
Proof.
  unfold just_before_death. cbv zeta.
  match goal with |- context [mark_both_closed ?x] => assert (H1 : kp s x); [|revert H1; generalize x; intros s1 H1] end.
  { destruct e; [|kp_triv]. unfold rx_enqueue_error, add_wakes, kp. vsimpl. auto. }
  assert (H2 : kp s (mark_both_closed s1)) by (eapply kp_trans; [exact H1|apply mark_both_closed_kp]).
  revert H2. generalize (mark_both_closed s1). intros s2 H2.
  destruct e; [|exact H2]. destruct (negb _); [|exact H2].
  pose proof (send_control_packet_kp (set_seq_nr s2 (wadd16 (v_seq_nr s2) 1))
                (hdr_with (outgoing_header s2) ST_FIN (v_seq_nr s2) None)) as K.
  destruct (send_control_packet _ _); cbn [skp] in K; try exact H2;
    (eapply kp_trans; [exact H2|exact K]).
Qed.

(* ---- Hoare-style results ---- *)
Definition sLB {A} (p : Z) (m : step A) : Prop :=
  match m with SOk s' _ => LB p s' | SErr s' _ => LB 0 s' | SPanic => True end.

Lemma sLB_bind {A B} p (m : step A) (f : vsock -> A -> step B) :
  sLB p m -> (forall s1 a, LB p s1 -> sLB p (f s1 a)) -> sLB p (sbind m f).
Proof. intros Hm Hf. destruct m as [s1 a|s1 e|]; cbn [sbind sLB] in *; auto. Qed.

Lemma skp_sLB {A} p s (m : step A) : LB p s -> skp s m -> sLB p m.
Proof.
  intros H K. destruct m; cbn [skp sLB] in *; auto; [eapply LB_kp; eauto|].
  apply LB_zero with (p := p). eapply LB_kp; eauto.
Qed.

Lemma on_sent_len t i now : ss_len_bytes (on_sent t i now) = ss_len_bytes t.
Proof. reflexivity. Qed.

Lemma send_data_LB p (s : vsock) h f : LB p s -> sLB p (send_data s h f).
Proof.
  intros H. pose proof (send_data_spec s h f) as Hd.
  destruct (send_data s h f) as [s' [| |]|s' e|]; cbn [sLB]; try exact I.
  - destruct Hd as (Hf & _ & Hs & _). destruct H as (A & B & C & D).
    assert (Htx : v_tx s' = v_tx s /\ v_ss s' = v_ss s) by (unfold sd_frame in Hf; tauto).
    destruct Htx as [Htx Hss]. unfold LB. rewrite Hs, Hss, Htx, on_sent_len.
    split; [apply on_sent_inv; exact A|]. auto.
  - destruct Hd as ((Hf & _ & Hs & _) & _). eapply LB_kp; [exact H|apply sd_kp; assumption].
  - destruct Hd as ((Hf & _ & Hs & _) & _). eapply LB_kp; [exact H|apply sd_kp; assumption].
  - destruct Hd as ((Hf & _ & Hs & _) & _). apply LB_zero with (p := p).
    eapply LB_kp; [exact H|apply sd_kp; assumption].
Qed.

Lemma recovery_loop_LB p : forall items (s : vsock) h mss0 st, LB p s -> sLB p (recovery_loop items s h mss0 st).
Proof.
  induction items as [|f rest IH]; intros s h mss0 st H; cbn [recovery_loop]; [exact H|].
  destruct (negb _); [exact H|].
  destruct (_ && _); [apply IH; exact H|]. destruct (_ && _); [exact H|].
  pose proof (send_data_LB p s h f H) as Hd.
  destruct (send_data s h f) as [s1 r|s1 e|]; cbn [sLB] in *; auto.
  destruct r; cbn [sLB]; [apply IH; exact Hd|exact Hd|apply LB_zero with (p := p); exact Hd].
Qed.

Lemma new_data_loop_LB p : forall items (s : vsock) h rem, LB p s -> sLB p (new_data_loop items s h rem).
Proof.
  induction items as [|f rest IH]; intros s h rem H; cbn [new_data_loop]; [exact H|].
  destruct (_ <? _); [exact H|].
  pose proof (send_data_LB p s h f H) as Hd.
  destruct (send_data s h f) as [s1 r|s1 e|]; cbn [sLB] in *; auto.
  destruct r; cbn [sLB]; [apply IH; exact Hd|exact Hd|exact Hd].
Qed.

Lemma on_rto_reactions_kp (s s' : vsock) : on_rto_reactions cci s = Some s' -> kp s s'.
Proof. unfold on_rto_reactions. destruct (on_rto_timeout _); [|discriminate].
  intro H; injection H as <-. kp_triv. Qed.

Lemma send_tx_queue_LB p (s : vsock) : LB p s -> sLB p (send_tx_queue cci s).
Proof.
  intro H. unfold send_tx_queue. destruct (v_transport_pending s); [exact H|].
  apply sLB_bind.
  { destruct (timer_expired _ _); [|exact H].
    destruct (iter_for_sending _ _) as [|f l].
    - destruct (our_fin_if_unacked _); [|exact H].
      destruct (_ =? _); [|exact H].
      apply sLB_bind.
      { apply (skp_sLB p (set_last_sent_seq_nr s (wsub16 (v_last_sent_seq_nr s) 1))); [exact H|].
        apply maybe_send_fin_kp. }
      intros s1 a H1. destruct a; [|exact H1].
      destruct (on_rto_reactions cci s1) eqn:E; [|exact I]. apply on_rto_reactions_kp in E.
      cbn [sLB]. eapply LB_kp; [exact H1|]. eapply kp_trans; [exact E|kp_triv].
    - pose proof (send_data_LB p s (outgoing_header s) f H) as Hd.
      destruct (send_data _ _ f) as [s1 r|s1 e|]; cbn [sLB] in *; auto.
      destruct r; cbn [sLB]; auto; [|apply LB_zero with (p := p); exact Hd].
      cbv zeta.
      match goal with |- sLB _ (match ?o with _ => _ end) => destruct o as [s2|] eqn:E end; [|exact I].
      assert (F2 : kp s1 s2).
      { destruct (negb _); [apply on_rto_reactions_kp; exact E|injection E as <-; kp_triv]. }
      cbn [sLB]. eapply LB_kp; [exact Hd|]. eapply kp_trans; [exact F2|kp_triv]. }
  intros s1 ret H1. destruct ret; [exact H1|].
  destruct (0 <? _); [exact H1|]. destruct (ss_segs _); [exact H1|].
  apply sLB_bind.
  { destruct (rv_phase _); try exact H1.
    apply sLB_bind; [apply recovery_loop_LB; exact H1|].
    intros s2 [st early] H2. cbv beta iota zeta.
    destruct early; [exact H2|].
    match goal with |- sLB _ (match our_fin_if_unacked (v_state ?y) with _ => _ end) =>
      assert (F3 : LB p y); [|revert F3; generalize y; intros sy F3] end.
    { unfold set_recovering. destruct (_ <? _); [|exact H2]. destruct (rc_recalc _); [exact H2|].
      destruct (0 <? _); exact H2. }
    destruct (our_fin_if_unacked _); [destruct (_ =? _)|]; cbn [sLB]; exact F3. }
  intros s2 ret H2. destruct ret; [exact H2|].
  apply sLB_bind; [apply new_data_loop_LB; exact H2|].
  intros s3 tl H3. destruct tl as [[sq sz]|]; [|exact H3].
  destruct (pop_mtu_probe _ _) as [segs' popped] eqn:Ep. destruct popped; cbn [sLB];
    [|apply LB_zero with (p := p); exact H3].
  destruct H3 as (A & B & C & D).
  destruct (VSock_Inv.pop_mtu_probe_fields _ _ _ _ A Ep) as (A' & Hr & Ho).
  unfold LB. vsimpl. split; [exact A'|].
  split; [apply VSock_Inv.disarm_ss_ok; apply VSock_Inv.failed_ss_ok; exact B|].
  split; [exact C|]. rewrite (seg_len_eq _ A'). rewrite (seg_len_eq _ A) in D. lia.
Qed.

(* ---- segmentation ---- *)
Lemma split_LB (s : vsock) : LB 0 s -> sLB 0 (split_tx_queue_into_segments cci s).
Proof.
  intro H. unfold split_tx_queue_into_segments. cbv zeta.
  destruct (_ =? 0).
  { cbn [sLB]. eapply LB_kp; [exact H|]. unfold kp. vsimpl. unfold register_dispatcher_if_empty.
    destruct (ring (v_tx s)) eqn:Er; cbn [ring upd]; auto. }
  match goal with |- sLB _ (if is_remote_fin_or_later (v_state ?x) then _ else _) =>
    assert (F : LB 0 x /\ ring (v_tx x) = ring (v_tx s)); [|revert F; generalize x; intros s1 [F Fr]] end.
  { destruct (_ && _); [|auto]. unfold grow.
    destruct (_ <=? _); cbn [fst snd]; [split; [exact H|reflexivity]|].
    unfold wake_writer, add_wakes. split; [|vsimpl; reflexivity].
    eapply LB_kp; [exact H|]. unfold kp. vsimpl. cbn [ring upd]. auto. }
  destruct (is_remote_fin_or_later _); [exact F|].
  destruct (pop_expired_mtu_probe _ _ _) as [segs1 pe] eqn:Ep.
  destruct F as (A & B & C & D).
  destruct (VSock_Inv.pop_expired_fields _ _ _ _ _ A Ep) as (A1 & Hr1 & Ho1).
  assert (Hl1 : ss_len_bytes segs1 <= ss_len_bytes (v_segs s1)).
  { rewrite (seg_len_eq _ A1), (seg_len_eq _ A). lia. }
  assert (Hcont : forall s2 : vsock, seg_inv (v_segs s2) -> ss_ok (v_ss s2) -> ring (v_tx s2) = ring (v_tx s) ->
     ss_len_bytes (v_segs s2) <= Z.of_nat (length (ring (v_tx s))) ->
     sLB 0 (if Z.of_nat (length (ring (v_tx s))) <? ss_len_bytes (v_segs s2)
            then SErr s2 (ErrBug BugInBufferComputations)
            else match segment_loop (ring (v_tx s2)) (o_nagle (v_opts s2)) (v_ss s2) (v_segs s2)
                         (Z.of_nat (length (ring (v_tx s))) - ss_len_bytes (v_segs s2))
                         (v_last_remote_window s2) with
                 | Some (ss', segs', remaining) =>
                     SOk (set_unsegmented (set_segs (set_ss s2 ss') segs') remaining) tt
                 | None => SPanic
                 end)).
  { intros s2 A2 B2 R2 L2.
    destruct (Z.ltb_spec (Z.of_nat (length (ring (v_tx s)))) (ss_len_bytes (v_segs s2))) as [Hbad|Hok].
    - exfalso. lia.
    - destruct (VSock_Inv.segment_loop_spec (ring (v_tx s2)) (o_nagle (v_opts s2)) (v_ss s2) (v_segs s2)
                  (Z.of_nat (length (ring (v_tx s))) - ss_len_bytes (v_segs s2)) (v_last_remote_window s2) B2 A2)
        as (ss' & segs' & rem' & -> & A1' & A2' & A3' & A4' & A5'); [lia|].
      cbn [sLB]. unfold LB. vsimpl. split; [exact A2'|]. split; [exact A1'|]. split; [lia|].
      rewrite R2. rewrite (seg_len_eq _ A2'). rewrite (seg_len_eq _ A2) in A4', Hok. lia. }
  destruct pe as [rewind_to payload_size| |].
  - apply Hcont.
    + destruct (seq_gt _ _); vsimpl; exact A1.
    + destruct (seq_gt _ _); vsimpl; apply VSock_Inv.failed_ss_ok; exact B.
    + destruct (seq_gt _ _); vsimpl; exact Fr.
    + rewrite <- Fr. destruct (seq_gt _ _); vsimpl; lia.
  - cbn [sLB]. unfold LB. vsimpl. auto.
  - apply Hcont; try assumption. rewrite <- Fr. lia.
Qed.

(* ---- incoming messages ---- *)
Lemma remove_up_to_ack_zero t now ack sk t' r :
  remove_up_to_ack t now ack sk = (t', r) -> ar_acked_segments r = 0 -> ar_acked_bytes r = 0.
Proof.
  unfold remove_up_to_ack.
  set (dc := if 0 <=? seq_sub ack (ss_snd_una t)
             then Z.to_nat (Z.min (seq_sub ack (ss_snd_una t) + 1) (len_z (ss_segs t))) else 0%nat).
  set (a1 := drain_acc (firstn dc (ss_segs t)) now {| ac_rtt := None; ac_maxp := 0; ac_cnt := 0; ac_bytes := 0 |}).
  destruct (drain_acc_spec (firstn dc (ss_segs t)) now {| ac_rtt := None; ac_maxp := 0; ac_cnt := 0; ac_bytes := 0 |})
    as [Hc1 Hb1]. fold a1 in Hc1, Hb1. cbn [ac_cnt ac_bytes] in Hc1, Hb1.
  destruct (sack_phase t _ a1 _ now ack sk) as [[[rest2 a2] depth] lse].
  destruct (strip_delivered rest2 0 0) as [[rest3 cnt3] bytes3] eqn:E3.
  destruct (strip_delivered_spec _ _ _ _ _ _ E3) as (dropped & Hd & Hc3 & Hb3 & _).
  intro H; injection H as <- <-. cbn [ar_acked_segments ar_acked_bytes]. intro Hz.
  assert (L : length (firstn dc (ss_segs t)) = 0%nat /\ length dropped = 0%nat) by lia.
  destruct L as [L1 L2]. apply length_zero_iff_nil in L1, L2. rewrite L1 in Hb1. rewrite L2 in Hb3.
  cbn [sum_sizes] in *. lia.
Qed.

Lemma calc_pipe_len t hr hd rtt now t' p rc :
  calc_pipe t hr hd rtt now = Some (t', p, rc) -> ss_len_bytes t' = ss_len_bytes t.
Proof.
  unfold calc_pipe. destruct (_ <? _); [discriminate|].
  destruct (pipe_loop _ t hr _ now _) as [upd a]. intro H; injection H as <- _ _. reflexivity.
Qed.

Lemma recovery_on_ack_segs r h segs ls cc now rtt r' segs' cc' :
  recovery_on_ack cci r h segs ls cc now rtt = Some (r', segs', cc') -> seg_inv segs ->
  seg_inv segs' /\ ss_len_bytes segs' = ss_len_bytes segs.
Proof.
  unfold recovery_on_ack. cbv zeta. cbn [rv_phase rv_supports_sack rv_last_ack]. intros H Hinv.
  destruct (rv_phase r).
  - destruct (seq_ge _ _); injection H as _ <- _; auto.
  - destruct (ss_segs segs); [injection H as _ <- _; auto|].
    match type of H with (match ?c with _ => _ end) = _ => destruct c as [[dup' la']|] end; [|discriminate].
    destruct (dup' <? SACK_DUP_THRESH); [injection H as _ <- _; auto|].
    destruct (calc_pipe _ _ _ _ _) as [[[sg pipe] recalc]|] eqn:Ec; [|discriminate].
    injection H as _ <- _. split; [eapply calc_pipe_inv; eauto|eapply calc_pipe_len; eauto].
  - destruct (seq_ge _ _); injection H as _ <- _; auto.
Qed.

Definition res_ok (res : on_ack_result) : Prop :=
  0 <= ar_acked_bytes res /\ 0 <= ar_acked_segments res /\
  (ar_acked_segments res = 0 -> ar_acked_bytes res = 0).

Lemma pim_ack_LB p (s1 : vsock) h s2 res :
  LB p s1 -> pim_ack cci s1 h = Some (s2, res) -> LB (p + ar_acked_bytes res) s2 /\ res_ok res.
Proof.
  intros (A & B & C & D). unfold pim_ack.
  destruct (remove_up_to_ack _ _ _ _) as [segs1 res0] eqn:Er.
  match goal with |- (match ?o with Some _ => _ | None => _ end) = _ -> _ => destruct o as [rtte1|] end; [|discriminate].
  destruct (cc_on_ack cci _ _ _ _) as [cc3|]; [|discriminate].
  destruct (recovery_on_ack cci _ _ _ _ _ _ _) as [[[rec1 segs2] cc4]|] eqn:Ero; [|discriminate].
  intro H; injection H as <- <-.
  destruct (remove_up_to_ack_inv _ _ _ _ _ _ A Er) as (A1 & Hb & Hb0 & Hoff & _ & Hs0).
  pose proof (remove_up_to_ack_zero _ _ _ _ _ _ Er) as Hz.
  destruct (recovery_on_ack_segs _ _ _ _ _ _ _ _ _ _ Ero A1) as (A2 & Hl2).
  split; [|repeat split; assumption].
  unfold LB. vsimpl. split; [exact A2|]. split; [apply VSock_Inv.delivered_ss_ok; exact B|].
  split; [lia|]. rewrite Hl2. rewrite (seg_len_eq _ A1). rewrite (seg_len_eq _ A) in D. lia.
Qed.

Lemma pim_data_LB p (s2 : vsock) m res offset :
  LB p s2 ->
  match pim_data cci s2 m res offset with
  | SOk s' r' => LB p s' /\ r' = res
  | SErr s' _ => LB 0 s'
  | SPanic => True
  end.
Proof.
  intro H. unfold pim_data. destruct (offset <? 0); [split; [exact H|reflexivity]|]. cbv zeta.
  destruct (rx_add_remove _ KData (m_payload m) offset) as [[rx1 ar] w].
  match goal with |- match (match ar with UarPanic => _ | UarOk r => match add_err r with Some e => SErr ?x e | None => _ end end) with _ => _ end =>
    assert (H4 : LB p x); [|revert H4; generalize x; intros s4 H4] end.
  { destruct H as (A & B & C & D). unfold LB, add_wakes. vsimpl.
    split; [exact A|]. split; [apply VSock_Inv.delivered_ss_ok; exact B|]. split; assumption. }
  destruct ar as [r|]; [|exact I].
  destruct (add_err r); [apply LB_zero with (p := p); exact H4|].
  match goal with |- match (if _ then _ else SOk ?x _) with _ => _ end =>
    assert (H5 : LB p x); [|revert H5; generalize x; intros s5 H5] end.
  { destruct r; exact H4. }
  destruct (_ || _); [|split; [exact H5|reflexivity]].
  pose proof (send_ack_kp (force_immediate_ack s5)) as K.
  destruct (send_ack (force_immediate_ack s5)) as [s6 b|s6 e|]; cbn [sbind skp] in *; [| |exact I].
  - split; [|reflexivity]. eapply LB_kp; [exact H5|exact K].
  - apply LB_zero with (p := p). eapply LB_kp; [exact H5|exact K].
Qed.

Lemma pim_fin_LB p (s2 : vsock) m res offset seen :
  LB p s2 ->
  match pim_fin s2 m res offset seen with
  | SOk s' r' => LB p s' /\ r' = res
  | SErr s' _ => LB 0 s'
  | SPanic => True
  end.
Proof.
  intro H. unfold pim_fin. cbv zeta. destruct (_ && _); [|split; [exact H|reflexivity]].
  destruct (rx_add_remove _ KFin _ _) as [[rx1 ar] w].
  destruct ar as [r|]; [|exact I].
  destruct (add_err r); [apply LB_zero with (p := p); exact H|].
  unfold mark_vsock_closed. split; [|reflexivity].
  eapply LB_kp; [exact H|]. unfold kp, add_wakes, force_immediate_ack. vsimpl. cbn [ring upd]. auto.
Qed.

Lemma state_table_kp (s : vsock) h : kp s (tbl_state (state_table s h)).
Proof.
  unfold state_table, restart_remote_inactivity_timer, kp.
  destruct (ch_type h); destruct (v_state s); cbn [tbl_state negb];
    repeat (match goal with |- context [if ?c then _ else _] => destruct c end);
    cbn [tbl_state]; vsimpl; repeat split.
Qed.

Lemma pim_LB p (s : vsock) m :
  LB p s ->
  match process_incoming_message cci s m with
  | SOk s' res => LB (p + ar_acked_bytes res) s' /\ res_ok res
  | SErr s' _ => LB 0 s'
  | SPanic => True
  end.
Proof.
  intro H. rewrite process_incoming_message_eq.
  pose proof (state_table_kp s (m_hdr m)) as Ht.
  destruct (state_table s (m_hdr m)) as [s1|s1 e|s1]; cbn [tbl_state] in Ht.
  - split; [|unfold res_ok; cbn; lia]. replace (p + ar_acked_bytes on_ack_result_default) with p by (cbn; lia).
    eapply LB_kp; eauto.
  - apply LB_zero with (p := p). eapply LB_kp; eauto.
  - assert (H1 : LB p s1) by (eapply LB_kp; eauto).
    unfold pim_cont. destruct (pim_ack cci s1 (m_hdr m)) as [[s2 res]|] eqn:Ea; [|exact I].
    destruct (pim_ack_LB _ _ _ _ _ H1 Ea) as [H2 Hr]. cbv zeta.
    destruct (ch_type (m_hdr m)).
    + pose proof (pim_data_LB _ s2 m res (seq_sub (ch_seq (m_hdr m)) (wadd16 (v_last_consumed s2) 1)) H2) as K.
      destruct (pim_data _ _ _ _ _) as [s' r'|s' e|]; auto. destruct K as [K ->]. auto.
    + pose proof (pim_fin_LB _ s2 m res (seq_sub (ch_seq (m_hdr m)) (wadd16 (v_last_consumed s2) 1))
                    (is_remote_fin_or_later (v_state s)) H2) as K.
      destruct (pim_fin _ _ _ _ _) as [s' r'|s' e|]; auto. destruct K as [K ->]. auto.
    + auto.
    + auto.
    + auto.
Qed.

(* the accumulated result of the receive loop against the pending byte count *)
Definition acc_ok (acc : on_ack_result) (p : Z) : Prop :=
  ar_acked_bytes acc = p /\ 0 <= ar_acked_segments acc /\ (ar_acked_segments acc = 0 -> p = 0).

Lemma acc_ok_update acc p r : acc_ok acc p -> res_ok r -> 0 <= p -> acc_ok (result_update acc r) (p + ar_acked_bytes r).
Proof.
  unfold acc_ok, res_ok, result_update. cbn [ar_acked_bytes ar_acked_segments].
  intros (A1 & A2 & A3) (B1 & B2 & B3) Hp. repeat split; lia.
Qed.

Lemma recv_loop_LB : forall fuel (s : vsock) acc p,
  LB p s -> acc_ok acc p ->
  match recv_loop cci fuel s acc with
  | SOk s' (acc', _) => exists p', LB p' s' /\ acc_ok acc' p'
  | SErr s' _ => LB 0 s'
  | SPanic => True
  end.
Proof.
  assert (Hbase : forall (s : vsock) (acc : on_ack_result) p,
    LB p s -> acc_ok acc p ->
    match (if v_inbox_closed s
           then sbind (maybe_send_fin (transition_to_fin_wait_1 s))
                      (fun s2 _ => SOk (set_state s2 Closed) (acc, true))
           else SOk (set_inbox_waker s true) (acc, false)) with
    | SOk s' (acc', _) => exists p', LB p' s' /\ acc_ok acc' p'
    | SErr s' _ => LB 0 s'
    | SPanic => True
    end).
  { intros s acc p H Ha. destruct (v_inbox_closed s); [|exists p; split; [exact H|exact Ha]].
    pose proof (maybe_send_fin_kp (transition_to_fin_wait_1 s)) as K.
    assert (H1 : LB p (transition_to_fin_wait_1 s)) by (eapply LB_kp; [exact H|apply transition_kp]).
    destruct (maybe_send_fin _) as [s2 b|s2 e|]; cbn [sbind skp] in *; [| |exact I].
    - exists p. split; [|exact Ha]. eapply LB_kp; [exact H1|]. eapply kp_trans; [exact K|]. unfold kp. vsimpl. auto.
    - apply LB_zero with (p := p). eapply LB_kp; eauto. }
  induction fuel as [|m0 fuel IH]; intros s acc p H Ha; cbn [recv_loop];
    destruct (v_inbox s) as [|m rest] eqn:Ei; try (apply (Hbase s acc p); assumption); try exact I.
  pose proof (pim_LB p (set_inbox s rest) m H) as K.
  destruct (process_incoming_message cci (set_inbox s rest) m) as [s1 r|s1 e|]; cbn [sbind]; [| exact K | exact I].
  destruct K as [K Hr].
  assert (Ha1 : acc_ok (result_update acc r) (p + ar_acked_bytes r)).
  { apply acc_ok_update; try assumption. destruct H as (_ & _ & Hp & _). exact Hp. }
  destruct (_ || _); [exists (p + ar_acked_bytes r); split; assumption|].
  apply (IH s1 (result_update acc r) (p + ar_acked_bytes r)); assumption.
Qed.

Lemma pa_tail_LB p (s1 : vsock) r early : LB p s1 -> acc_ok r p -> sLB 0 (pa_tail s1 (r, early)).
Proof.
  intros H (Ha1 & Ha2 & Ha3). unfold pa_tail. cbv beta iota zeta.
  match goal with |- context [acked_counts_as_sent ?x] =>
    assert (F2 : LB p x); [|revert F2; generalize x; intros s2 F2] end.
  { destruct (_ || _); [|exact H].
    destruct (ss_segs _); [destruct (our_fin_if_unacked _)|];
      unfold restart_remote_inactivity_timer; exact H. }
  assert (K : forall s3 : vsock, LB 0 s3 ->
     sLB 0 (match rv_phase (v_recovery s3) with
            | Recovering rc =>
                match calc_pipe (v_segs s3) (rc_high_rxt rc) (v_last_sent_seq_nr s3)
                                (roundtrip_time (v_rtte s3)) (v_now s3) with
                | None => SPanic
                | Some (segs', pipe, recalc) =>
                    SOk (set_recovering (set_segs s3 segs')
                           {| rc_recovery_point := rc_recovery_point rc; rc_high_rxt := rc_high_rxt rc;
                              rc_total_retx := rc_total_retx rc; rc_pipe := pipe; rc_recalc := recalc;
                              rc_cwnd := rc_cwnd rc |}) tt
                end
            | _ => SOk s3 tt
            end)).
  { intros s3 H3. destruct (rv_phase _); try exact H3.
    destruct (calc_pipe _ _ _ _ _) as [[[segs' pipe] recalc]|] eqn:Ec; [|exact I].
    cbn [sLB]. destruct H3 as (A & B & C & D). unfold LB, set_recovering. vsimpl.
    split; [eapply calc_pipe_inv; eauto|]. split; [exact B|]. split; [exact C|].
    rewrite (calc_pipe_len _ _ _ _ _ _ _ _ Ec). exact D. }
  destruct (Z.ltb_spec 0 (ar_acked_segments r)) as [Hpos|Hz].
  - assert (Hx : LB p (acked_counts_as_sent s2))
      by (unfold acked_counts_as_sent; destruct (seq_gt _ _ && seq_lt _ _); exact F2).
    revert Hx. generalize (acked_counts_as_sent s2). intros s2' (A & B & C & D).
    pose proof (seg_len_nonneg _ A) as Hn.
    unfold truncate_front. cbv zeta. rewrite Ha1.
    replace (Z.min p (Z.of_nat (length (ring (v_tx s2'))))) with p by lia.
    rewrite Z.eqb_refl. unfold wake_writer. cbn [sbind]. apply K.
    unfold LB, add_wakes. vsimpl. cbn [ring upd]. split; [exact A|]. split; [exact B|]. split; [lia|].
    rewrite skipn_length. lia.
  - cbn [sbind]. apply K. apply LB_zero with (p := p). exact F2.
Qed.

Lemma process_all_LB (s : vsock) : LB 0 s -> sLB 0 (process_all_incoming_messages cci s).
Proof.
  intro H. rewrite process_all_eq.
  pose proof (recv_loop_LB (v_inbox s ++ [{| m_hdr := outgoing_header s; m_payload := [] |}]) s
                on_ack_result_default 0 H) as K.
  assert (Ha : acc_ok on_ack_result_default 0) by (unfold acc_ok; cbn; repeat split; lia).
  specialize (K Ha).
  destruct (recv_loop cci _ s on_ack_result_default) as [s1 [r early]|s1 e|]; cbn [sbind]; [|exact K|exact I].
  destruct K as (p' & K1 & K2). eapply pa_tail_LB; eauto.
Qed.

(* ---- poll ---- *)
(* LB 0 is kept by every function a poll calls, hence by the poll (VSock_LemmasStep.poll_R) *)
Definition LBR (s s' : vsock) : Prop := LB 0 s -> LB 0 s'.

Lemma sLB_R {A} s (m : step A) : (LB 0 s -> sLB 0 m) -> VSock_LemmasStep.stR LBR s m.
Proof. intro H. unfold LBR. destruct m; cbn [VSock_LemmasStep.stR sLB] in *; auto. Qed.

Lemma skp_R {A} s (m : step A) : skp s m -> VSock_LemmasStep.stR LBR s m.
Proof. intro K. apply sLB_R. intro H. exact (skp_sLB 0 s m H K). Qed.

Lemma kp_R s s' : kp s s' -> LBR s s'.
Proof. intros K H. exact (LB_kp 0 s s' H K). Qed.

Theorem poll_LB (s : vsock) : LB 0 s -> LB 0 (fst (poll cci s)).
Proof.
  intro H. destruct (poll cci s) as [s' r] eqn:E.
  refine (VSock_LemmasStep.poll_R cci LBR _ _ _ _ _ _ _ _ _ _ _ _ _ _ s s' r E H).
  - intros a Ha. exact Ha.
  - intros a b c F1 F2 Ha. exact (F2 (F1 Ha)).
  - intro a. apply kp_R. unfold VSock_Lemmas.poll_start. kp_triv.
  - intro a. apply skp_R, maybe_send_syn_ack_kp.
  - intro a. apply skp_R, send_ack_kp.
  - intro a. apply sLB_R, process_all_LB.
  - intros a rx1 fb w _. apply kp_R. unfold add_wakes. kp_triv.
  - intro a. apply sLB_R, split_LB.
  - intro a. apply sLB_R, send_tx_queue_LB.
  - intro a. apply kp_R, transition_kp.
  - intro a. apply skp_R, maybe_send_fin_kp.
  - intro a. apply skp_R, maybe_send_ack_kp.
  - intros a e. apply kp_R, jbd_kp.
  - intro a. apply kp_R.
    destruct (VSock_Lemmas.poll_tail_fields a)
      as (_ & F2 & _ & _ & _ & _ & _ & _ & _ & _ & _ & _ & F13 & _ & _ & F16 & _).
    unfold kp. rewrite F2, F13, F16. auto.
Qed.

(* ---- application events, construction ---- *)
Lemma poll_write_ring t buf t' r w : poll_write t buf = (t', r, w) -> exists l, ring t' = ring t ++ l.
Proof.
  unfold poll_write.
  destruct (_ <? _); [intro H; injection H as <- _ _; exists []; cbn [ring upd]; rewrite app_nil_r; reflexivity|].
  destruct (t_vsock_closed t); [intro H; injection H as <- _ _; exists []; rewrite app_nil_r; reflexivity|].
  destruct (writer_shutdown t); [intro H; injection H as <- _ _; exists []; rewrite app_nil_r; reflexivity|].
  destruct (writer_dropped t); [intro H; injection H as <- _ _; exists []; rewrite app_nil_r; reflexivity|].
  cbv zeta. destruct (_ =? 0); intro H; injection H as <- _ _; cbn [ring upd];
    [exists []; rewrite app_nil_r; reflexivity|eexists; reflexivity].
Qed.

Lemma vstep_LB (s : vsock) o : LB 0 s -> LB 0 (fst (fst (fst (vstep cci s o)))).
Proof.
  intro H. destruct o; cbn [vstep].
  - exact H.
  - exact H.
  - pose proof (poll_LB (VSockRec.set_sends s script) H) as K.
    destruct (poll cci (VSockRec.set_sends s script)) as [s' r]. exact K.
  - destruct (v_inbox_closed s); exact H.
  - exact H.
  - destruct (writer_dropped (v_tx s)); [exact H|].
    destruct (poll_write (v_tx s) buf) as [[tx1 r] w] eqn:E. cbn [fst].
    destruct (poll_write_ring _ _ _ _ _ E) as (l & Hl).
    destruct H as (A & B & C & D). unfold LB. vsimpl. rewrite Hl, app_length.
    split; [exact A|]. split; [exact B|]. split; lia.
  - destruct (writer_dropped (v_tx s)); [exact H|].
    destruct (poll_flush (v_tx s)) as [[tx1 r] w] eqn:E. cbn [fst].
    destruct (proj1 (VSock_Inv.tx_flag_ops (v_tx s)) _ _ _ E) as [F1 _].
    eapply LB_kp; [exact H|]. unfold kp. vsimpl. auto.
  - destruct (writer_dropped (v_tx s)); [exact H|].
    destruct (poll_shutdown (v_tx s)) as [[tx1 r] w] eqn:E. cbn [fst].
    destruct (proj1 (proj2 (VSock_Inv.tx_flag_ops (v_tx s))) _ _ _ E) as [F1 _].
    eapply LB_kp; [exact H|]. unfold kp. vsimpl. auto.
  - destruct (reader_dropped (v_rx s)); [exact H|].
    destruct (rx_read (v_rx s) n) as [[rx1 r] w]. exact H.
  - destruct (reader_dropped (v_rx s)); [exact H|].
    destruct (rx_drop_reader (v_rx s)) as [rx1 w]. exact H.
  - destruct (drop_writer (v_tx s)) as [tx1 w] eqn:E. cbn [fst].
    destruct (proj2 (proj2 (VSock_Inv.tx_flag_ops (v_tx s))) _ _ E) as [F1 _].
    eapply LB_kp; [exact H|]. unfold kp. vsimpl. auto.
Qed.

Lemma vsock_new_LB mk c (s0 : vsock) :
  C10_Pred.vconfig_ok c = true -> vsock_new cci mk c = Some s0 -> LB 0 s0.
Proof.
  intros Hc Hn. destruct (VSock_Inv.vsock_new_inv cci mk c Hc) as (s0' & E & Hinv).
  rewrite Hn in E. injection E as <-.
  destruct (VSock_Inv.inv_parts _ _ _ _ Hinv) as (_ & A & _ & _ & _ & B & _).
  destruct (VSock_Inv.bounded_buffering _ _ _ _ Hinv) as (_ & _ & _ & _ & _ & D).
  unfold LB. split; [exact A|]. split; [exact B|]. split; lia.
Qed.

End WithCC.
