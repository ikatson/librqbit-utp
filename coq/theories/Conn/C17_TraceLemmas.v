(* The receive-side relation [RX] that every function of a poll EXCEPT the processing of one incoming message
   satisfies between its entry and exit state:
     - last_consumed (the acknowledgement number), the inbox and its closed flag are untouched;
     - the connection state is kept, or moves within the handshake, or into FinWait1 ([strel]);
     - the receiver is only flushed / flagged ([rxrel]: slots popped from the front of the reassembly queue,
       bytes moved to the reader's queue, the invariant of Rx/Rx_Proofs.v kept);
     - datagrams are only appended, each of them acknowledges last_consumed and none is an ST_SYN; consumed-
       but-unacknowledged bytes (cbu) change only when a datagram goes out.
   Used by Conn/C17_Trace.v (c17_peer_fin_ok) and Conn/C04_Step.v (c04_vsock_ack_ok) through the generic
   whole-poll theorems of Conn/VSock_LemmasStep.v. *)
From Utp Require Rx.Rx_Slots.
From Utp Require Import Base.Prelude Wire.SeqNr Wire.Header Wire.Header_Proofs Rtt.Rtte Mtu.SegSizes
  Rx.Rx Rx.Rx_Proofs Tx.Ring Tx.Segments Conn.Recovery Conn.Msg Conn.VSockRec Conn.VSock Conn.VSockRun Conn.VObs
  Conn.VSock_Lemmas Conn.VSock_LemmasStep Conn.VSock_LemmasTx Conn.VSock_LemmasFin Conn.C17_Pred Conn.C17_Proofs
  Conn.C17_StepLemmas.

(* ------------------------------------------------------------------ the receiver *)
Definition dshift (r r' : rx) : Prop :=
  g_base r <= g_base r' /\
  forall (i : nat) sl, nth_error (ooq_data r') i = Some sl -> slot_is_default sl = false ->
    nth_error (ooq_data r) (i + Z.to_nat (g_base r' - g_base r)) = Some sl.

Definition rxrel (r r' : rx) : Prop :=
  (rx_inv r -> rx_inv r') /\
  consumed r' = consumed r /\
  ooq_len r' - filled_front r' = ooq_len r - filled_front r /\
  q_len_bytes r' + ooq_len_bytes r' = q_len_bytes r + ooq_len_bytes r /\
  (filled_front r = 0 -> filled_front r' = 0 /\ ooq_len r' = ooq_len r /\ q_len_bytes r' = q_len_bytes r) /\
  dshift r r'.

Lemma dshift_refl r : dshift r r.
Proof.
  split; [lia|]. intros i sl H _. replace (g_base r - g_base r) with 0 by lia.
  cbn [Z.to_nat]. rewrite Nat.add_0_r. exact H.
Qed.

Lemma dshift_trans a b c : dshift a b -> dshift b c -> dshift a c.
Proof.
  intros [A1 A2] [B1 B2]. split; [lia|]. intros i sl H Hd.
  specialize (B2 i sl H Hd). specialize (A2 _ sl B2 Hd).
  replace (i + Z.to_nat (g_base c - g_base a))%nat
    with (i + Z.to_nat (g_base c - g_base b) + Z.to_nat (g_base b - g_base a))%nat by lia.
  exact A2.
Qed.

Lemma rxrel_refl r : rxrel r r.
Proof.
  unfold rxrel. split; [auto|]. split; [reflexivity|]. split; [reflexivity|]. split; [reflexivity|].
  split; [auto|apply dshift_refl].
Qed.

Lemma rxrel_trans a b c : rxrel a b -> rxrel b c -> rxrel a c.
Proof.
  intros (A1 & A2 & A3 & A4 & A5 & A6) (B1 & B2 & B3 & B4 & B5 & B6).
  split; [auto|]. split; [congruence|]. split; [lia|]. split; [lia|].
  split; [|eapply dshift_trans; eauto].
  intro H. destruct (A5 H) as (X1 & X2 & X3). destruct (B5 X1) as (Y1 & Y2 & Y3).
  split; [exact Y1|]. split; congruence.
Qed.

Lemma rxrel_eq r r' : r' = r -> rxrel r r'.
Proof. intros ->. apply rxrel_refl. Qed.

(* flags, wakers and the reader's queue (error marker) only *)
Lemma rxrel_flags (r r' : rx) :
  ooq_data r' = ooq_data r -> filled_front r' = filled_front r -> ooq_len r' = ooq_len r ->
  ooq_len_bytes r' = ooq_len_bytes r -> ooq_capacity r' = ooq_capacity r ->
  q_len_bytes r' = q_len_bytes r -> sum_q_bytes (q r') = sum_q_bytes (q r) -> q_capacity r' = q_capacity r ->
  last_remaining_rx_window r' = last_remaining_rx_window r -> g_base r' = g_base r ->
  rxrel r r'.
Proof.
  intros E1 E2 E3 E4 E5 E6 E7 E8 E9 E10. unfold rxrel, consumed.
  split.
  { unfold rx_inv. rewrite E1, E2, E3, E4, E5, E6, E7, E8, E9, E10. auto. }
  split; [congruence|]. split; [lia|]. split; [lia|]. split; [intro; repeat split; congruence|].
  split; [lia|]. intros i sl H _. rewrite E10, E1 in *. replace (g_base r - g_base r) with 0 by lia.
  cbn [Z.to_nat]. rewrite Nat.add_0_r. exact H.
Qed.

(* ---- the flush loop: pops from the front ---- *)
Lemma nth_error_skipn_app_default (d : list slot) (m m' i : nat) sl :
  nth_error (skipn m d ++ repeat slot_default m') i = Some sl -> slot_is_default sl = false ->
  nth_error d (i + m) = Some sl.
Proof.
  intros Hn Hd. destruct (Nat.lt_ge_cases i (length (skipn m d))) as [Hlt|Hge].
  - rewrite nth_error_app1 in Hn by exact Hlt. rewrite Rx_Slots.nth_error_skipn in Hn.
    rewrite Nat.add_comm. exact Hn.
  - rewrite nth_error_app2 in Hn by exact Hge. apply Rx_Slots.nth_error_repeat in Hn. subst sl. discriminate.
Qed.

Lemma flush_loop_shape : forall fuel s w fb fp s' w' fb' fp',
  flush_loop fuel s w fb fp = Some (s', w', fb', fp') ->
  exists m m' : nat,
    ooq_data s' = skipn m (ooq_data s) ++ repeat slot_default m' /\
    g_base s' = g_base s + Z.of_nat m /\
    filled_front s' = filled_front s - Z.of_nat m /\
    ooq_len s' = ooq_len s - Z.of_nat m /\
    q_len_bytes s' + ooq_len_bytes s' = q_len_bytes s + ooq_len_bytes s /\
    (filled_front s = 0 -> s' = s).
Proof.
  induction fuel as [|fuel IH]; intros s w fb fp s' w' fb' fp'; cbn [flush_loop].
  { intro H; injection H as <- _ _ _. exists 0%nat, 0%nat. cbn [skipn repeat]. rewrite app_nil_r.
    repeat split; try lia; reflexivity. }
  assert (Hsame : Some (s, w, fb, fp) = Some (s', w', fb', fp') ->
    exists m m' : nat,
      ooq_data s' = skipn m (ooq_data s) ++ repeat slot_default m' /\
      g_base s' = g_base s + Z.of_nat m /\ filled_front s' = filled_front s - Z.of_nat m /\
      ooq_len s' = ooq_len s - Z.of_nat m /\
      q_len_bytes s' + ooq_len_bytes s' = q_len_bytes s + ooq_len_bytes s /\ (filled_front s = 0 -> s' = s)).
  { intro H; injection H as <- _ _ _. exists 0%nat, 0%nat. cbn [skipn repeat]. rewrite app_nil_r.
    repeat split; try lia; reflexivity. }
  destruct (Z.eqb_spec (filled_front s) 0) as [E0|N0]; [exact Hsame|].
  destruct (ooq_data s) as [|m rest] eqn:Ed; [discriminate|].
  destruct (w <? slot_len_bytes m); [exact Hsame|].
  destruct (reader_dropped s); [exact Hsame|].
  destruct (q_capacity s - q_len_bytes s <? slot_len_bytes m); [discriminate|].
  intro H. destruct (IH _ _ _ _ _ _ _ _ H) as (m1 & m1' & Hd & Hg & Hf & Hl & Hb & _).
  cbn [pop_front_state ooq_data g_base filled_front ooq_len q_len_bytes ooq_len_bytes] in Hd, Hg, Hf, Hl, Hb.
  destruct (Rx_Slots.skipn_app_one_default slot_default m1 rest m1') as (k' & Hk).
  exists (S m1), k'. cbn [skipn]. rewrite Hd.
  split; [exact Hk|]. split; [lia|]. split; [lia|]. split; [lia|]. split; [lia|]. intro; contradiction.
Qed.

Lemma rx_flush_rxrel (r r' : rx) fb w : rx_flush r = (r', FlOk fb, w) -> rxrel r r'.
Proof.
  intro H.
  assert (Hinv : rx_inv r -> rx_inv r').
  { intro Hi. destruct (rx_flush_spec _ _ _ _ Hi H) as (X & _). exact X. }
  revert H. unfold rx_flush.
  set (s0 := set_wakers r _ _ _).
  assert (D0 : ooq_data s0 = ooq_data r /\ g_base s0 = g_base r /\ filled_front s0 = filled_front r /\
               ooq_len s0 = ooq_len r /\ q_len_bytes s0 = q_len_bytes r /\ ooq_len_bytes s0 = ooq_len_bytes r)
    by (unfold s0; cbn; repeat split).
  destruct D0 as (D1 & D2 & D3 & D4 & D5 & D6).
  destruct (flush_loop _ s0 _ 0 0) as [[[[s1 w1] fb1] fp1]|] eqn:E; [|discriminate].
  destruct (flush_loop_shape _ _ _ _ _ _ _ _ _ E) as (m & m' & Hd & Hg & Hf & Hl & Hb & Hz).
  assert (Hres : ooq_data r' = ooq_data s1 /\ g_base r' = g_base s1 /\ filled_front r' = filled_front s1 /\
                 ooq_len r' = ooq_len s1 /\ q_len_bytes r' = q_len_bytes s1 /\
                 ooq_len_bytes r' = ooq_len_bytes s1 -> rxrel r r').
  { intros (A1 & A2 & A3 & A4 & A5 & A6). unfold rxrel, consumed.
    split; [exact Hinv|]. split; [lia|]. split; [lia|]. split; [lia|].
    split.
    { intro Z0. rewrite <- D3 in Z0. specialize (Hz Z0). subst s1. repeat split; congruence. }
    split; [lia|]. intros i sl Hn Hdf. rewrite A1, Hd, D1 in Hn.
    replace (g_base r' - g_base r) with (Z.of_nat m) by lia. rewrite Nat2Z.id.
    eapply nth_error_skipn_app_default; eauto. }
  destruct (0 <? fp1); intro H; injection H as <- _ _; apply Hres; cbn; repeat split.
Qed.

Section WithCC.
Context {CC : Type} (cci : cc_iface CC).
Notation vsock := (vsock CC).

(* ------------------------------------------------------------------ the connection state *)
Definition is_hs (a : vstate) : bool := match a with SynReceived | SynAckSent _ => true | _ => false end.

Definition strel (a a' : vstate) : Prop :=
  a' = a \/
  (is_local_fin_or_later a = false /\ ((is_hs a = true /\ is_hs a' = true) \/ exists f, a' = FinWait1 f)).

Lemma strel_refl a : strel a a.
Proof. left. reflexivity. Qed.

Lemma strel_trans a b c : strel a b -> strel b c -> strel a c.
Proof.
  intros [->|(L & [(H1 & H2)|(f & ->)])] [->|(L' & [(H1' & H2')|(f' & ->)])].
  - left. reflexivity.
  - right. split; [exact L'|left; auto].
  - right. split; [exact L'|right; eauto].
  - right. split; [exact L|left; auto].
  - right. split; [exact L|left; auto].
  - right. split; [exact L|right; eauto].
  - right. split; [exact L|right; eauto].
  - discriminate.
  - discriminate.
Qed.

Lemma strel_remote_fin a a' : strel a a' -> is_remote_fin_or_later a' = is_remote_fin_or_later a.
Proof.
  intros [->|(L & [(H1 & H2)|(f & ->)])]; [reflexivity| |];
    destruct a; try discriminate; try reflexivity; destruct a'; try discriminate; reflexivity.
Qed.

Lemma strel_last_ack a f r : strel a (LastAck f r) -> a = LastAck f r.
Proof. intros [H|(L & [(H1 & H2)|(f' & H)])]; [auto|discriminate|discriminate]. Qed.

Lemma strel_closed a : strel a Closed -> a = Closed.
Proof. intros [H|(L & [(H1 & H2)|(f' & H)])]; [auto|discriminate|discriminate]. Qed.

Lemma strel_local_fin a a' : strel a a' -> is_local_fin_or_later a = true -> a' = a.
Proof. intros [H|(L & _)] Hl; [exact H|congruence]. Qed.

Lemma strel_data_state a a' : strel a a' -> is_data_state a = true -> is_data_state a' = true.
Proof.
  intros [->|(L & [(H1 & H2)|(f & ->)])] Hd; [exact Hd| |reflexivity].
  destruct a; discriminate.
Qed.

(* ------------------------------------------------------------------ the relation *)
Definition ackp (lc : Z) (p : packet) : Prop := ch_ack (p_hdr p) = lc /\ ch_type (p_hdr p) <> ST_SYN.

Definition RX (s s' : vsock) : Prop :=
  v_last_consumed s' = v_last_consumed s /\ v_inbox s' = v_inbox s /\
  v_inbox_closed s' = v_inbox_closed s /\
  strel (v_state s) (v_state s') /\ rxrel (v_rx s) (v_rx s') /\
  exists l, v_out s' = l ++ v_out s /\ Forall (ackp (v_last_consumed s)) l /\ (l = [] -> v_cbu s' = v_cbu s).

Lemma RX_refl s : RX s s.
Proof.
  unfold RX. split; [reflexivity|]. split; [reflexivity|]. split; [reflexivity|].
  split; [apply strel_refl|]. split; [apply rxrel_refl|]. exists []. auto.
Qed.

Lemma RX_trans a b c : RX a b -> RX b c -> RX a c.
Proof.
  intros (A1 & A2 & A3 & A4 & A5 & l1 & A6 & A7 & A8) (B1 & B2 & B3 & B4 & B5 & l2 & B6 & B7 & B8).
  split; [congruence|]. split; [congruence|]. split; [congruence|].
  split; [eapply strel_trans; eauto|]. split; [eapply rxrel_trans; eauto|].
  exists (l2 ++ l1). split; [rewrite B6, A6, app_assoc; reflexivity|].
  split; [apply Forall_app; split; [rewrite <- A1; exact B7|exact A7]|].
  intro E. apply app_eq_nil in E. destruct E as [E2 E1]. rewrite B8, A8; auto.
Qed.

Lemma RX_same (s s' : vsock) :
  v_last_consumed s' = v_last_consumed s -> v_inbox s' = v_inbox s -> v_inbox_closed s' = v_inbox_closed s ->
  v_state s' = v_state s -> v_rx s' = v_rx s -> v_out s' = v_out s -> v_cbu s' = v_cbu s -> RX s s'.
Proof.
  intros E1 E2 E3 E4 E5 E6 E7. split; [exact E1|]. split; [exact E2|]. split; [exact E3|].
  split; [left; exact E4|]. split; [apply rxrel_eq; exact E5|]. exists []. auto.
Qed.

Lemma RX_emit (s s' : vsock) p :
  v_last_consumed s' = v_last_consumed s -> v_inbox s' = v_inbox s -> v_inbox_closed s' = v_inbox_closed s ->
  v_state s' = v_state s -> v_rx s' = v_rx s -> v_out s' = p :: v_out s -> ackp (v_last_consumed s) p -> RX s s'.
Proof.
  intros E1 E2 E3 E4 E5 E6 Hp. split; [exact E1|]. split; [exact E2|]. split; [exact E3|].
  split; [left; exact E4|]. split; [apply rxrel_eq; exact E5|]. exists [p]. split; [exact E6|].
  split; [constructor; [exact Hp|constructor]|discriminate].
Qed.

Ltac rx_same := apply RX_same; vsimpl; reflexivity.

Notation stRX := (stR RX).

Lemma stRX_bind {A B} s (m : step A) (f : vsock -> A -> step B) :
  stRX s m -> (forall s1 a, stRX s1 (f s1 a)) -> stRX s (sbind m f).
Proof. apply (stR_sbind RX RX_trans). Qed.

Lemma stRX_weaken {A} s0 s (m : step A) : RX s0 s -> stRX s m -> stRX s0 m.
Proof. apply (stR_weaken RX RX_trans). Qed.

(* ------------------------------------------------------------------ sending *)
Lemma next_send_RX (s : vsock) n s1 o : next_send s n = (s1, o) -> RX s s1.
Proof. intro E. apply next_send_same in E. destruct E as [->|[r ->]]; [apply RX_refl|rx_same]. Qed.

Lemma send_control_packet_RX (s : vsock) h :
  ch_ack h = v_last_consumed s -> ch_type h <> ST_SYN -> stRX s (send_control_packet s h).
Proof.
  intros Ha Ht. unfold send_control_packet. destruct (v_transport_pending s); [apply RX_refl|].
  destruct (next_send s _) as [s1 o] eqn:E. apply next_send_same in E.
  destruct o; cbn [stR].
  - destruct E as [->|[r ->]]; unfold on_packet_sent, emit;
      (eapply RX_emit; vsimpl; [reflexivity..|split; [exact Ha|exact Ht]]).
  - destruct E as [->|[r ->]]; rx_same.
  - destruct E as [->|[r ->]]; [apply RX_refl|rx_same].
  - destruct E as [->|[r ->]]; [apply RX_refl|rx_same].
Qed.

Lemma send_ack_RX (s : vsock) : stRX s (send_ack s).
Proof. unfold send_ack. apply send_control_packet_RX; [reflexivity|discriminate]. Qed.

Lemma maybe_send_fin_RX (s : vsock) : stRX s (maybe_send_fin s).
Proof.
  unfold maybe_send_fin. destruct (v_transport_pending s); [apply RX_refl|].
  destruct (our_fin_if_unacked (v_state s)) as [f|]; [|apply RX_refl].
  destruct (negb _); [apply RX_refl|].
  apply stRX_bind; [apply send_control_packet_RX; [reflexivity|discriminate]|].
  intros s1 a. destruct a; cbn [stR]; [rx_same|apply RX_refl].
Qed.

Lemma send_data_RX (s : vsock) h f : ch_ack h = v_last_consumed s -> stRX s (send_data s h f).
Proof.
  intro Ha. unfold send_data. destruct (_ =? _); [apply RX_refl|].
  destruct (_ <? 0); [exact I|]. destruct (_ <? _); [apply RX_refl|].
  destruct (_ <? _); [apply RX_refl|].
  destruct (next_send s _) as [s1 o] eqn:E. apply next_send_same in E.
  destruct o; cbn [stR].
  - cbv zeta. unfold on_packet_sent, emit.
    destruct E as [->|[r ->]]; vsimpl;
      (destruct (seq_gt (fs_seq f) _); [destruct (seq_gt (wadd16 (fs_seq f) 1) _)|]);
      (eapply RX_emit; vsimpl; [reflexivity..|split; [exact Ha|discriminate]]).
  - destruct E as [->|[r ->]]; rx_same.
  - destruct E as [->|[r ->]]; [apply RX_refl|rx_same].
  - destruct E as [->|[r ->]]; [apply RX_refl|rx_same].
Qed.

Lemma on_rto_reactions_RX s s' : on_rto_reactions cci s = Some s' -> RX s s'.
Proof. unfold on_rto_reactions. destruct (on_rto_timeout _); [|discriminate].
  intro H; injection H as <-. rx_same. Qed.

Lemma RX_lc (s s' : vsock) : RX s s' -> v_last_consumed s' = v_last_consumed s.
Proof. intros (H & _). exact H. Qed.

Lemma recovery_loop_RX : forall items s h mss0 st,
  ch_ack h = v_last_consumed s -> stRX s (recovery_loop items s h mss0 st).
Proof.
  induction items as [|f rest IH]; intros s h mss0 st Ha; cbn [recovery_loop]; [apply RX_refl|].
  destruct (negb _); [apply RX_refl|].
  destruct (_ && _); [apply IH; exact Ha|]. destruct (_ && _); [apply RX_refl|].
  pose proof (send_data_RX s h f Ha) as Hd. destruct (send_data s h f) as [s1 r|s1 e|]; cbn [stR] in *; auto.
  destruct r; cbn [stR]; auto.
  eapply stRX_weaken; [exact Hd|apply IH]. rewrite (RX_lc _ _ Hd). exact Ha.
Qed.

Lemma new_data_loop_RX : forall items s h rem,
  ch_ack h = v_last_consumed s -> stRX s (new_data_loop items s h rem).
Proof.
  induction items as [|f rest IH]; intros s h rem Ha; cbn [new_data_loop]; [apply RX_refl|].
  destruct (_ <? _); [apply RX_refl|].
  pose proof (send_data_RX s h f Ha) as Hd. destruct (send_data s h f) as [s1 r|s1 e|]; cbn [stR] in *; auto.
  destruct r; cbn [stR]; auto.
  eapply stRX_weaken; [exact Hd|apply IH]. rewrite (RX_lc _ _ Hd). exact Ha.
Qed.

Lemma set_recovering_RX (s : vsock) rc : RX s (set_recovering s rc).
Proof. unfold set_recovering. rx_same. Qed.

Lemma stRX_bind' {A B} s (m : step A) (f : vsock -> A -> step B) :
  stRX s m -> (forall s1 a, RX s s1 -> stRX s1 (f s1 a)) -> stRX s (sbind m f).
Proof.
  intros Hm Hf. destruct m as [s1 a|s1 e|]; cbn [sbind stR] in *; auto.
  specialize (Hf s1 a Hm). destruct (f s1 a); cbn [stR] in *; auto; eapply RX_trans; eauto.
Qed.

Lemma send_tx_queue_RX (s : vsock) : stRX s (send_tx_queue cci s).
Proof.
  unfold send_tx_queue. destruct (v_transport_pending s); [apply RX_refl|].
  assert (Hh : ch_ack (outgoing_header s) = v_last_consumed s) by reflexivity.
  revert Hh. generalize (outgoing_header s). intros h Hh.
  apply stRX_bind'.
  { destruct (timer_expired _ _); [|apply RX_refl].
    destruct (iter_for_sending _ _) as [|f l].
    - destruct (our_fin_if_unacked _); [|cbn [stR]; rx_same].
      destruct (_ =? _); [|cbn [stR]; rx_same].
      apply stRX_weaken with (s := set_last_sent_seq_nr s (wsub16 (v_last_sent_seq_nr s) 1)); [rx_same|].
      apply stRX_bind; [apply maybe_send_fin_RX|].
      intros s1 a. destruct a; [|apply RX_refl].
      destruct (on_rto_reactions cci s1) eqn:E; [|exact I]. apply on_rto_reactions_RX in E.
      cbn [stR]. eapply RX_trans; [exact E|]. rx_same.
    - pose proof (send_data_RX s h f Hh) as Hd.
      destruct (send_data _ _ f) as [s1 r|s1 e|]; cbn [stR] in *; auto.
      destruct r; cbn [stR]; auto.
      cbv zeta.
      match goal with |- stR _ _ (match ?o with _ => _ end) => destruct o as [s2|] eqn:E end; [|exact I].
      assert (F2 : RX s1 s2).
      { destruct (negb _); [apply on_rto_reactions_RX; exact E|injection E as <-; apply RX_refl]. }
      cbn [stR]. eapply RX_trans; [exact Hd|]. eapply RX_trans; [exact F2|]. rx_same. }
  intros s1 ret F1. destruct ret; [apply RX_refl|].
  destruct (0 <? _); [apply RX_refl|]. destruct (ss_segs _); [apply RX_refl|].
  assert (Hh1 : ch_ack h = v_last_consumed s1) by (rewrite (RX_lc _ _ F1); exact Hh).
  apply stRX_bind'.
  { destruct (rv_phase _); try apply RX_refl.
    apply stRX_bind; [apply recovery_loop_RX; exact Hh1|].
    intros s2 [st early]. cbv beta iota zeta.
    destruct early; [apply set_recovering_RX|].
    match goal with |- stR _ _ (match our_fin_if_unacked (v_state ?y) with _ => _ end) =>
      assert (F3 : RX s2 y); [|abs_as y F3 sy] end.
    { eapply RX_trans; [apply set_recovering_RX|].
      destruct (_ <? _); [|apply RX_refl]. destruct (rc_recalc _); [rx_same|].
      destruct (0 <? _); [rx_same|apply RX_refl]. }
    destruct (our_fin_if_unacked _); [destruct (_ =? _)|]; cbn [stR]; auto.
    all: try (eapply RX_trans; [exact F3|]; unfold set_recovering; rx_same). }
  intros s2 ret F2. destruct ret; [apply RX_refl|].
  assert (Hh2 : ch_ack h = v_last_consumed s2) by (rewrite (RX_lc _ _ F2); exact Hh1).
  apply stRX_bind; [apply new_data_loop_RX; exact Hh2|].
  intros s3 tl. destruct tl as [[sq sz]|]; [|apply RX_refl].
  destruct (pop_mtu_probe _ _) as [segs' popped]. destruct popped; cbn [stR]; [rx_same|apply RX_refl].
Qed.

Lemma maybe_send_ack_RX (s : vsock) : stRX s (maybe_send_ack s).
Proof.
  unfold maybe_send_ack. destruct (immediate_ack_to_transmit s); [apply send_ack_RX|].
  destruct (should_send_window_update s); [apply send_ack_RX|].
  destruct (timer_expired _ _).
  - destruct (ack_to_transmit s); [apply send_ack_RX|cbn [stR]; rx_same].
  - destruct (0 <? _); cbn [stR]; [rx_same|apply RX_refl].
Qed.

Lemma add_wakes_RX (s : vsock) w : RX s (add_wakes s w).
Proof. unfold add_wakes. rx_same. Qed.

Lemma split_cont_RX (s0 s2 : vsock) tl :
  RX s0 s2 ->
  stRX s0 (if tl <? ss_len_bytes (v_segs s2) then SErr s2 (ErrBug BugInBufferComputations)
       else match segment_loop (ring (v_tx s2)) (o_nagle (v_opts s2)) (v_ss s2) (v_segs s2)
                    (tl - ss_len_bytes (v_segs s2)) (v_last_remote_window s2) with
            | Some (ss', segs', remaining) =>
                SOk (set_unsegmented (set_segs (set_ss s2 ss') segs') remaining) tt
            | None => SPanic
            end).
Proof.
  intros F2. destruct (_ <? _); [exact F2|].
  destruct (segment_loop _ _ _ _ _ _) as [[[ss' segs'] rem]|]; [|exact I].
  cbn [stR]. eapply RX_trans; [exact F2|rx_same].
Qed.

Lemma split_RX (s : vsock) : stRX s (split_tx_queue_into_segments cci s).
Proof.
  unfold split_tx_queue_into_segments. cbv zeta. destruct (_ =? 0); [cbn [stR]; rx_same|].
  match goal with |- stR _ _ (if is_remote_fin_or_later (v_state ?x) then _ else _) =>
    assert (F : RX s x); [|abs_as x F sx] end.
  { destruct (_ && _); [|apply RX_refl]. destruct (grow _ _) as [tx1 g]. destruct g.
    - destruct (wake_writer tx1) as [tx2 w]. eapply RX_trans; [|apply add_wakes_RX]. rx_same.
    - rx_same. }
  destruct (is_remote_fin_or_later _); [exact F|].
  destruct (pop_expired_mtu_probe _ _ _) as [segs1 pe].
  destruct pe.
  - apply split_cont_RX. eapply RX_trans; [exact F|].
    destruct (seq_gt _ _); rx_same.
  - cbn [stR]. eapply RX_trans; [exact F|rx_same].
  - apply split_cont_RX. exact F.
Qed.

(* ------------------------------------------------------------------ death, closing, handshake *)
Lemma rx_mark_closed_rxrel r r1 w : rx_mark_vsock_closed r = (r1, w) -> rxrel r r1.
Proof.
  unfold rx_mark_vsock_closed. destruct (vsock_closed r); intro H; injection H as <- _; [apply rxrel_refl|].
  apply rxrel_flags; reflexivity.
Qed.

Lemma rx_enqueue_error_rxrel r r1 w : rx_enqueue_error r = (r1, w) -> rxrel r r1.
Proof.
  unfold rx_enqueue_error. intro H; injection H as <- _.
  apply rxrel_flags; try reflexivity. cbn [set_flags q]. rewrite sum_q_bytes_app. cbn. lia.
Qed.

Lemma RX_rx (s s' : vsock) :
  v_last_consumed s' = v_last_consumed s -> v_inbox s' = v_inbox s -> v_inbox_closed s' = v_inbox_closed s ->
  v_state s' = v_state s -> rxrel (v_rx s) (v_rx s') -> v_out s' = v_out s -> v_cbu s' = v_cbu s -> RX s s'.
Proof.
  intros E1 E2 E3 E4 E5 E6 E7. split; [exact E1|]. split; [exact E2|]. split; [exact E3|].
  split; [left; exact E4|]. split; [exact E5|]. exists []. auto.
Qed.

Lemma mark_both_closed_RX (s : vsock) : RX s (mark_both_closed s).
Proof.
  unfold mark_both_closed. destruct (rx_mark_vsock_closed _) as [rx1 w1] eqn:E.
  destruct (mark_vsock_closed _) as [tx1 w2].
  eapply RX_trans; [|apply add_wakes_RX].
  apply RX_rx; vsimpl; try reflexivity. eapply rx_mark_closed_rxrel; exact E.
Qed.

Lemma just_before_death_RX (s : vsock) e : RX s (just_before_death s e).
Proof.
  unfold just_before_death. cbv zeta.
  match goal with |- context [mark_both_closed ?x] => assert (F1 : RX s x); [|abs_as x F1 s1] end.
  { destruct e; [|apply RX_refl]. destruct (rx_enqueue_error _) as [rx1 w] eqn:E.
    eapply RX_trans; [|apply add_wakes_RX]. apply RX_rx; vsimpl; try reflexivity.
    eapply rx_enqueue_error_rxrel; exact E. }
  assert (F2 : RX s (mark_both_closed s1)) by (eapply RX_trans; [exact F1|apply mark_both_closed_RX]).
  abs_as (mark_both_closed s1) F2 s2.
  destruct e; [|exact F2]. destruct (negb _); [|exact F2].
  match goal with |- context [send_control_packet ?x ?h] =>
    pose proof (send_control_packet_RX x h eq_refl ltac:(discriminate)) as Hc;
    assert (F3 : RX s x) by (eapply RX_trans; [exact F2|rx_same]) end.
  destruct (send_control_packet _ _) as [s4 b|s4 e4|]; cbn [stR] in Hc.
  - eapply RX_trans; eauto.
  - eapply RX_trans; eauto.
  - exact F3.
Qed.

Lemma RX_state (s s' : vsock) :
  v_last_consumed s' = v_last_consumed s -> v_inbox s' = v_inbox s -> v_inbox_closed s' = v_inbox_closed s ->
  strel (v_state s) (v_state s') -> v_rx s' = v_rx s -> v_out s' = v_out s -> v_cbu s' = v_cbu s -> RX s s'.
Proof.
  intros E1 E2 E3 E4 E5 E6 E7. split; [exact E1|]. split; [exact E2|]. split; [exact E3|].
  split; [exact E4|]. split; [apply rxrel_eq; exact E5|]. exists []. auto.
Qed.

Lemma transition_RX (s : vsock) : RX s (transition_to_fin_wait_1 s).
Proof.
  unfold transition_to_fin_wait_1.
  destruct (v_state s) eqn:Es; try apply RX_refl;
    (apply RX_state; vsimpl; try reflexivity; rewrite Es; right; split; [reflexivity|right; eauto]).
Qed.

Lemma maybe_send_syn_ack_RX (s : vsock) : stRX s (maybe_send_syn_ack s).
Proof.
  unfold maybe_send_syn_ack.
  assert (Gg : forall c, is_hs (v_state s) = true ->
    stRX s (if c =? o_max_retx (v_opts s) then SErr s ErrMaxSynAckRetransmissionsReached
     else sbind (send_ack s) (fun s1 sent => if sent then
        SOk (set_t_syn_ack_resend (set_state s1 (SynAckSent (c + 1)))
              (timer_arm (v_t_syn_ack_resend s1) (v_now s1) SYNACK_RESEND_INTERNAL true)) tt
        else SOk s1 tt))).
  { intros c Hl. destruct (_ =? _); [apply RX_refl|].
    pose proof (send_ack_RX s) as H. unfold send_ack in H |- *.
    match goal with |- context [send_control_packet s ?h] =>
      pose proof (send_control_packet_fields s h) as Hf end.
    destruct (send_control_packet s _) as [s1 a|s1 e|]; cbn [sbind stR] in *; auto.
    destruct a; cbn [stR]; [|exact H]. eapply RX_trans; [exact H|].
    destruct Hf as (_ & _ & Hst & _).
    apply RX_state; vsimpl; try reflexivity. rewrite Hst. right.
    split; [destruct (v_state s); try discriminate; reflexivity|left; split; [exact Hl|reflexivity]]. }
  destruct (v_state s) eqn:Es; try (cbn [stR]; rx_same).
  - apply Gg. reflexivity.
  - destruct (timer_expired _ _); [apply Gg; reflexivity|apply RX_refl].
Qed.

Lemma rx_flush_RX (s : vsock) rx1 fb w :
  rx_flush (v_rx s) = (rx1, FlOk fb, w) -> RX s (add_wakes (set_rx s rx1) (rx_wakes w)).
Proof.
  intro E. eapply RX_trans; [|apply add_wakes_RX]. apply RX_rx; vsimpl; try reflexivity.
  eapply rx_flush_rxrel; exact E.
Qed.

Lemma poll_start_RX (s : vsock) : RX s (poll_start s).
Proof. unfold poll_start. rx_same. Qed.

Lemma poll_tail_RX (s : vsock) : RX s (poll_tail s).
Proof.
  unfold poll_tail.
  match goal with |- context [next_timer_to_poll ?x] => assert (F : RX s x); [|abs_as x F sx] end.
  { destruct (is_local_fin_or_later _); [rx_same|apply RX_refl]. }
  unfold next_timer_to_poll, arm_in, add_wakes. destruct (v_transport_pending sx).
  - destruct (v_t_inactivity sx); [|exact F]. destruct (_ <=? _); (eapply RX_trans; [exact F|rx_same]).
  - match goal with |- RX _ (match ?t with _ => _ end) => destruct t end;
      [destruct (_ <=? _)|]; (eapply RX_trans; [exact F|rx_same]).
Qed.

Lemma acked_counts_as_sent_RX (s : vsock) : RX s (acked_counts_as_sent s).
Proof. unfold acked_counts_as_sent. destruct (seq_gt _ _ && seq_lt _ _); [rx_same|apply RX_refl]. Qed.

Lemma pa_tail_RX (s1 : vsock) res : stRX s1 (pa_tail s1 res).
Proof.
  destruct res as [r early]. unfold pa_tail. cbv beta iota zeta.
  match goal with |- context [acked_counts_as_sent ?x] =>
    assert (F2 : RX s1 x); [|abs_as x F2 s2] end.
  { destruct (_ || _); [|apply RX_refl].
    destruct (ss_segs _); [destruct (our_fin_if_unacked _)|];
      unfold restart_remote_inactivity_timer; rx_same. }
  eapply stRX_weaken; [exact F2|].
  apply stRX_bind.
  { destruct (0 <? _); [|apply RX_refl].
    eapply stRX_weaken; [apply acked_counts_as_sent_RX|].
    generalize (acked_counts_as_sent s2). intro s2'.
    destruct (truncate_front _ _) as [tx1 tr]. destruct tr; cbn [stR]; [|rx_same].
    destruct (wake_writer tx1) as [tx2 w]. eapply RX_trans; [|apply add_wakes_RX]. rx_same. }
  intros s3 _. destruct (rv_phase _); try apply RX_refl.
  destruct (calc_pipe _ _ _ _ _) as [[[segs' pipe] recalc]|]; [|exact I].
  cbn [stR]. eapply RX_trans; [|apply set_recovering_RX]. rx_same.
Qed.

(* ------------------------------------------------------------------ a whole poll: an invariant kept by
   every RX step, by the processing of one message and by the channel-closed arm of the receive loop is kept
   by poll, whatever the result *)
Section InvPoll.
Variable Inv : vsock -> Prop.
Hypothesis Inv_RX : forall s s', RX s s' -> Inv s -> Inv s'.
Hypothesis Inv_msg : forall s m rest, Inv s -> v_inbox s = m :: rest ->
  match process_incoming_message cci (set_inbox s rest) m with
  | SOk s' _ | SErr s' _ => Inv s'
  | SPanic => True
  end.
Hypothesis Inv_closed : forall s, Inv s -> v_inbox_closed s = true -> Inv (set_state s Closed).

Definition stI {A} (m : step A) : Prop :=
  match m with SOk s' _ | SErr s' _ => Inv s' | SPanic => True end.

Lemma stRX_stI {A} s (m : step A) : Inv s -> stRX s m -> stI m.
Proof. intros Hi H. destruct m; cbn [stR stI] in *; eauto. Qed.

Lemma stI_bind {A B} (m : step A) (f : vsock -> A -> step B) :
  stI m -> (forall s1 a, Inv s1 -> stI (f s1 a)) -> stI (sbind m f).
Proof. intros Hm Hf. destruct m as [s1 a|s1 e|]; cbn [sbind stI] in *; auto. Qed.

Lemma recv_loop_Inv : forall fuel s acc, Inv s -> stI (recv_loop cci fuel s acc).
Proof.
  assert (Hbase : forall (s : vsock) (acc : on_ack_result), Inv s ->
    stI (if v_inbox_closed s
         then sbind (maybe_send_fin (transition_to_fin_wait_1 s))
                    (fun s2 _ => SOk (set_state s2 Closed) (acc, true))
         else SOk (set_inbox_waker s true) (acc, false))).
  { intros s acc Hi. destruct (v_inbox_closed s) eqn:Hc.
    - assert (H1 : Inv (transition_to_fin_wait_1 s)) by (eapply Inv_RX; [apply transition_RX|exact Hi]).
      assert (C1 : v_inbox_closed (transition_to_fin_wait_1 s) = true).
      { destruct (transition_RX s) as (_ & _ & X & _). congruence. }
      pose proof (maybe_send_fin_RX (transition_to_fin_wait_1 s)) as Hf.
      destruct (maybe_send_fin _) as [s2 b|s2 e|]; cbn [sbind stI stR] in *; auto.
      + apply Inv_closed; [eapply Inv_RX; eauto|]. destruct Hf as (_ & _ & X & _). congruence.
      + eapply Inv_RX; eauto.
    - cbn [stI]. eapply Inv_RX; [|exact Hi]. rx_same. }
  induction fuel as [|m0 fuel IH]; intros s acc Hi; cbn [recv_loop];
    destruct (v_inbox s) as [|m rest] eqn:Ei; try (apply Hbase; exact Hi); try exact I.
  apply stI_bind; [apply (Inv_msg s m rest Hi Ei)|].
  intros s1 r H1. destruct (_ || _); [exact H1|apply IH; exact H1].
Qed.

Lemma process_all_Inv (s : vsock) : Inv s -> stI (process_all_incoming_messages cci s).
Proof.
  intro Hi. rewrite process_all_eq. apply stI_bind; [apply recv_loop_Inv; exact Hi|].
  intros s1 res H1. eapply stRX_stI; [exact H1|apply pa_tail_RX].
Qed.

Definition IR (s s' : vsock) : Prop := Inv s -> Inv s'.

Lemma stRX_IR {A} s (m : step A) : stRX s m -> stR IR s m.
Proof. destruct m; cbn [stR]; unfold IR; eauto. Qed.

Lemma poll_loop_Inv : forall fuel (s : vsock), Inv s -> Inv (fst (poll_loop cci fuel s)).
Proof.
  intros fuel s Hi. destruct (poll_loop cci fuel s) as [s' r] eqn:H. revert Hi. change (IR s s').
  apply (poll_loop_R cci IR ltac:(unfold IR; auto) ltac:(unfold IR; auto)) with (fuel := fuel) (r := r);
    try exact H.
  - intros s0. unfold IR. apply Inv_RX, poll_start_RX.
  - intros s0. apply stRX_IR, maybe_send_syn_ack_RX.
  - intros s0. apply stRX_IR, send_ack_RX.
  - intros s0. pose proof (process_all_Inv s0) as P.
    destruct (process_all_incoming_messages cci s0); cbn [stR stI] in *; unfold IR; auto.
  - intros s0 rx1 fb w E. unfold IR. apply Inv_RX. eapply rx_flush_RX; exact E.
  - intros s0. apply stRX_IR, split_RX.
  - intros s0. apply stRX_IR, send_tx_queue_RX.
  - intros s0. unfold IR. apply Inv_RX, transition_RX.
  - intros s0. apply stRX_IR, maybe_send_fin_RX.
  - intros s0. apply stRX_IR, maybe_send_ack_RX.
  - intros s0 e. unfold IR. apply Inv_RX, just_before_death_RX.
  - intros s0. unfold IR. apply Inv_RX, poll_tail_RX.
Qed.

Theorem poll_Inv (s s' : vsock) r : poll cci s = (s', r) -> Inv (poll_init s) -> Inv s'.
Proof.
  intros H Hi. rewrite poll_unfold in H. pose proof (poll_loop_Inv 64 _ Hi) as P. rewrite H in P. exact P.
Qed.

(* the same by parts: the body of one iteration from its later cut points *)
Definition brI (r : body_res) : Prop :=
  match r with BrReturn s' _ | BrRestart s' => Inv s' | BrPanic => True end.

Lemma die_I (s : vsock) e : Inv s -> brI (die s e).
Proof. intro Hi. unfold die. cbn [brI]. eapply Inv_RX; [apply just_before_death_RX|exact Hi]. Qed.

Lemma bail_I {A} (m : step A) k :
  stI m -> (forall s1 a, Inv s1 -> brI (k s1 a)) -> brI (bail m k).
Proof.
  intros Hm Hk. unfold bail. destruct m as [s1 a|s1 e|]; cbn [stI] in Hm; [| |exact I].
  - destruct (v_restart s1); [exact Hm|apply Hk; exact Hm].
  - apply die_I; exact Hm.
Qed.

Lemma pend_I {A} (m : step A) k :
  stI m -> (forall s1 a, Inv s1 -> brI (k s1 a)) -> brI (pend m k).
Proof.
  intros Hm Hk. unfold pend. apply bail_I; [exact Hm|].
  intros s1 a H1. destruct (v_transport_pending s1); [exact H1|].
  destruct (v_restart s1); [exact H1|apply Hk; exact H1].
Qed.

Lemma body_finish_Inv (s : vsock) : Inv s -> brI (body_finish s).
Proof.
  intro Hi. unfold body_finish. destruct (state_is_closed _ _).
  { cbn [brI]. eapply Inv_RX; [apply just_before_death_RX|exact Hi]. }
  pose proof (poll_tail_RX s) as F. unfold poll_tail in F.
  destruct (next_timer_to_poll _) as [sx t]. destruct t; cbn [brI]; eapply Inv_RX; eauto.
Qed.

Lemma body_back_Inv (s6 : vsock) : Inv s6 -> brI (body_back s6).
Proof.
  intro H6. unfold body_back.
  assert (H7 : Inv (if should_close_on_own_initiative s6 then transition_to_fin_wait_1 s6 else s6)).
  { destruct (should_close_on_own_initiative s6); [eapply Inv_RX; [apply transition_RX|exact H6]|exact H6]. }
  revert H7. generalize (if should_close_on_own_initiative s6 then transition_to_fin_wait_1 s6 else s6).
  intros s7 H7.
  apply pend_I; [eapply stRX_stI; [exact H7|apply maybe_send_fin_RX]|]. intros s8 _ H8.
  apply pend_I; [eapply stRX_stI; [exact H8|apply maybe_send_ack_RX]|]. intros s9 _ H9.
  apply body_finish_Inv; exact H9.
Qed.

Lemma body_mid_back_Inv (s3 : vsock) : Inv s3 -> brI (body_mid cci body_back s3).
Proof.
  intro H3. unfold body_mid. destruct (rx_flush (v_rx s3)) as [[rx1 fr] w] eqn:Efl.
  destruct fr as [fb|]; [|exact I]. cbv beta iota zeta.
  assert (H4 : Inv (add_wakes (set_rx s3 rx1) (rx_wakes w))).
  { eapply Inv_RX; [eapply rx_flush_RX; exact Efl|exact H3]. }
  revert H4. generalize (add_wakes (set_rx s3 rx1) (rx_wakes w)). intros s4 H4.
  destruct (timer_expired _ _); [apply die_I; exact H4|].
  apply bail_I; [eapply stRX_stI; [exact H4|apply split_RX]|]. intros s5 _ H5.
  apply pend_I; [eapply stRX_stI; [exact H5|apply send_tx_queue_RX]|]. intros s6 _ H6.
  apply body_back_Inv; exact H6.
Qed.

End InvPoll.

End WithCC.
