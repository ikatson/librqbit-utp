(* C18 at the level of a whole poll — the segmentation loop and split_tx_queue_into_segments:
   what they do to the table invariants (TIt, Tab), the Nagle walk of the appended segments,
   exhaustion with Nagle off, the first segment on an empty table. *)
From Utp Require Import Base.Prelude Wire.SeqNr Wire.Header Rtt.Rtte Mtu.SegSizes
  Rx.Rx Tx.Ring Tx.Segments Tx.Segments_Proofs Conn.Recovery Conn.Msg Conn.VSockRec Conn.VSock
  Conn.VSockRun Conn.VObs Conn.VSock_Lemmas Conn.VSock_LemmasStep Conn.VSock_LemmasReach
  Conn.C18_Pred Conn.C18_Proofs Conn.C18_StepLemmas Conn.C18_StepRel.

(* ================================================================== the loop *)
(* the payload of every iteration is positive *)
Lemma payload_pos : forall ss ss1 sz rem rwr,
  next_segment_size ss = Some (ss1, sz) -> 1 <= mss ss -> 0 < rem -> 0 < rwr ->
  0 < Z.min (Z.min sz rwr) rem.
Proof. intros ss ss1 sz rem rwr N M R W. pose proof (next_segment_size_ge_mss _ _ _ N). lia. Qed.

(* any predicate of the table kept by enqueue (positive size) is kept by the loop *)
Lemma segment_loop_keeps (P : segments -> Prop) :
  (forall t p b, 0 < p -> P t -> P (enqueue t p b)) ->
  forall fuel nagle ss t rem rwr ss' t' rem',
  segment_loop fuel nagle ss t rem rwr = Some (ss', t', rem') -> 1 <= mss ss -> P t -> P t'.
Proof.
  intros HP. induction fuel as [|x fuel IH]; intros nagle ss t rem rwr ss' t' rem' H M Pt;
    cbn [segment_loop] in H.
  - inversion H; subst. exact Pt.
  - destruct (0 <? rem) eqn:R; [|inversion H; subst; exact Pt].
    destruct (0 <? rwr) eqn:W; [|inversion H; subst; exact Pt]. cbn [andb] in H.
    destruct (next_segment_size ss) as [[ss1 sz]|] eqn:N; [|discriminate].
    pose proof (payload_pos _ _ _ rem rwr N M ltac:(lia) ltac:(lia)) as Pp.
    pose proof (mss_next_segment_size _ _ _ N) as M1.
    destruct (_ && _ && _); [inversion H; subst; exact Pt|].
    destruct (mss ss1 <? _).
    + inversion H; subst. apply HP; assumption.
    + eapply IH; [exact H | lia | apply HP; assumption].
Qed.

Lemma segment_loop_TIt : forall fuel nagle ss t rem rwr ss' t' rem',
  segment_loop fuel nagle ss t rem rwr = Some (ss', t', rem') -> 1 <= mss ss -> TIt t -> TIt t'.
Proof. apply (segment_loop_keeps TIt). intros. apply TIt_enqueue; assumption. Qed.

Lemma segment_loop_Tab off0 : forall fuel nagle ss t rem rwr ss' t' rem',
  segment_loop fuel nagle ss t rem rwr = Some (ss', t', rem') -> 1 <= mss ss -> Tab off0 t -> Tab off0 t'.
Proof. apply (segment_loop_keeps (Tab off0)). intros. apply Tab_enqueue; assumption. Qed.

(* ---- the Nagle walk of what the loop appends ---- *)
Lemma c18_walk_app off m w : forall l1 l2 prev,
  c18_walk off m w prev (l1 ++ l2) = c18_walk off m w prev l1 && c18_walk off m w (prev || nonempty l1) l2.
Proof.
  induction l1 as [|g l1 IH]; intros l2 prev; cbn [app c18_walk nonempty].
  - rewrite orb_false_r. reflexivity.
  - rewrite IH. cbn [orb]. rewrite orb_true_r.
    destruct l1; cbn [nonempty c18_walk]; rewrite ?andb_true_r, <- ?andb_assoc; reflexivity.
Qed.

Lemma walk_app_mono m : forall log w w' acc prev,
  w <= w' -> walk_app m w' acc prev log = true -> walk_app m w acc prev log = true.
Proof.
  induction log as [|e rest IH]; intros w w' acc prev L H; [reflexivity|].
  cbn [walk_app] in *. apply andb_prop in H. destruct H as [H1 H2]. apply andb_true_intro. split.
  - destruct prev; [|reflexivity]. lia.
  - eapply IH; eauto.
Qed.

Lemma nonempty_map {A B} (f : A -> B) l : nonempty (map f l) = nonempty l.
Proof. destruct l; reflexivity. Qed.

Lemma segment_loop_walk off0 m0 w : forall fuel ss t rem ss' t' rem',
  segment_loop fuel true ss t rem w = Some (ss', t', rem') ->
  m0 <= mss ss -> off0 <= ss_offset t ->
  c18_walk off0 m0 w false (map fseg_of (ss_segs t)) = true ->
  c18_walk off0 m0 w false (map fseg_of (ss_segs t')) = true.
Proof.
  intros fuel ss t rem ss' t' rem' H M O Wk.
  destruct (segment_loop_log _ _ _ _ _ _ _ _ _ H) as (L1 & _).
  rewrite L1, map_app, c18_walk_app, Wk. cbn [andb orb]. rewrite nonempty_map.
  replace (ss_offset t) with (off0 + (ss_offset t - off0)) by lia.
  apply walk_app_segs.
  apply (walk_app_mono m0 _ w (w + (ss_offset t - off0))); [lia|].
  apply seg_log_walk; lia.
Qed.

(* ---- Nagle off: the loop stops only when nothing is left, the window is used up, or it has
   just cut an MTU probe ---- *)
Lemma lastok_enqueue_probe t p : ~ lastok (ss_segs (enqueue t p true)).
Proof.
  unfold enqueue, Segments.set_segs; cbn [ss_segs]. intro L. apply lastok_app_last in L.
  unfold upr in L. cbn [sg_probe sg_delivered] in L. discriminate.
Qed.

Lemma segment_loop_off : forall fuel ss t rem rwr ss' t' rem',
  segment_loop fuel false ss t rem rwr = Some (ss', t', rem') ->
  1 <= mss ss -> 0 <= rem <= Z.of_nat (length fuel) ->
  0 <= rem' /\ ss_offset t' - ss_offset t = rem - rem' /\
  (rem' = 0 \/ rwr <= ss_offset t' - ss_offset t \/ ~ lastok (ss_segs t')).
Proof.
  induction fuel as [|x fuel IH]; intros ss t rem rwr ss' t' rem' H M R; cbn [segment_loop] in H.
  - inversion H; subst. cbn [length] in R. split; [lia|]. split; [lia|]. left. lia.
  - destruct (0 <? rem) eqn:Rp.
    2:{ inversion H; subst. split; [lia|]. split; [lia|]. left. lia. }
    destruct (0 <? rwr) eqn:W.
    2:{ inversion H; subst. split; [lia|]. split; [lia|]. right; left. lia. }
    cbn [andb] in H.
    destruct (next_segment_size ss) as [[ss1 sz]|] eqn:N; [|discriminate].
    pose proof (payload_pos _ _ _ rem rwr N M ltac:(lia) ltac:(lia)) as Pp.
    pose proof (mss_next_segment_size _ _ _ N) as M1.
    cbn [andb] in H.
    destruct (mss ss1 <? _).
    + inversion H; subst. rewrite enqueue_offset. split; [lia|]. split; [lia|].
      right; right. apply lastok_enqueue_probe.
    + apply IH in H; [|lia|cbn [length] in R; lia].
      rewrite enqueue_offset in H. destruct H as (H1 & H2 & H3).
      split; [exact H1|]. split; [lia|].
      destruct H3 as [H3|[H3|H3]]; [left; exact H3 | right; left; lia | right; right; exact H3].
Qed.

(* ---- on an empty table the first segment is always cut ---- *)
Lemma segment_loop_first : forall fuel nagle ss t rem rwr ss' t' rem',
  segment_loop fuel nagle ss t rem rwr = Some (ss', t', rem') ->
  fuel <> [] -> ss_segs t' = [] -> (rem <= 0 \/ rwr <= 0) /\ t' = t.
Proof.
  intros fuel nagle ss t rem rwr ss' t' rem' H F E.
  destruct fuel as [|x fuel]; [congruence|].
  pose proof (segment_loop_log _ _ _ _ _ _ _ _ _ H) as (L1 & _).
  rewrite E in L1. symmetry in L1. apply app_eq_nil in L1. destruct L1 as [E0 L1].
  cbn [segment_loop seg_log] in *.
  destruct (0 <? rem) eqn:R; [|inversion H; subst; split; [lia|reflexivity]].
  destruct (0 <? rwr) eqn:W; [|inversion H; subst; split; [lia|reflexivity]].
  exfalso. cbn [andb] in *.
  destruct (next_segment_size ss) as [[ss1 sz]|]; [|discriminate].
  rewrite E0 in L1. rewrite !andb_false_r in L1.
  destruct (mss ss1 <? _); cbn [segs_of_log] in L1; discriminate.
Qed.

(* ================================================================== split_tx_queue_into_segments *)
Section WithCC.
Context {CC : Type} (cci : cc_iface CC).
Notation vsock := (vsock CC).

(* what the segmentation never touches (it may grow the ring's capacity and wake the writer) *)
Definition sr (s s' : vsock) : Prop :=
  v_last_remote_window s' = v_last_remote_window s /\ v_inbox s' = v_inbox s /\ v_opts s' = v_opts s /\
  v_restart s' = v_restart s /\ ring (v_tx s') = ring (v_tx s) /\ v_state s' = v_state s /\
  v_out s' = v_out s.

Lemma sr_refl s : sr s s.
Proof. repeat split. Qed.
Lemma sr_trans a b c : sr a b -> sr b c -> sr a c.
Proof. intros (A1 & A2 & A3 & A4 & A5 & A6 & A7) (B1 & B2 & B3 & B4 & B5 & B6 & B7). repeat split; congruence. Qed.

(* the table and the segment sizes the loop starts from: those of the state, no undelivered probe
   being outstanding, or the table without the probe that was given up *)
Definition pre2 (t : segments) (ss : segsizes) (t2 : segments) (ss2 : segsizes) : Prop :=
  mss ss2 = mss ss /\
  ((t2 = t /\ ss2 = ss /\ lastok (ss_segs t)) \/ (tpop t t2 /\ exists n, ss2 = on_probe_failed ss n)).

Ltac sr_leaf := unfold sr; repeat split; exact eq_refl.

(* what the segmentation leaves, by its result *)
Definition split_res (s : vsock) (m : step unit) : Prop :=
  match m with
  | SPanic => True
  | SErr s' _ => sr s s' /\ v_unsegmented s' = v_unsegmented s /\
                 pre2 (v_segs s) (v_ss s) (v_segs s') (v_ss s') /\
                 is_remote_fin_or_later (v_state s) = false
  | SOk s' _ =>
      sr s s' /\
      ((v_segs s' = v_segs s /\ v_ss s' = v_ss s /\ v_unsegmented s' = v_unsegmented s /\
        (ring (v_tx s) = [] \/ is_remote_fin_or_later (v_state s) = true))
       \/ (v_segs s' = v_segs s /\ v_ss s' = v_ss s /\ ~ lastok (ss_segs (v_segs s)))
       \/ (exists t2 ss2, pre2 (v_segs s) (v_ss s) t2 ss2 /\ ring (v_tx s) <> [] /\
             is_remote_fin_or_later (v_state s) = false /\
             ss_len_bytes t2 <= Z.of_nat (length (ring (v_tx s))) /\
             segment_loop (ring (v_tx s)) (o_nagle (v_opts s)) ss2 t2
               (Z.of_nat (length (ring (v_tx s))) - ss_len_bytes t2) (v_last_remote_window s)
             = Some (v_ss s', v_segs s', v_unsegmented s')))
  end.

Lemma split_spec : forall s : vsock, split_res s (split_tx_queue_into_segments cci s).
Proof.
  intros s. unfold split_tx_queue_into_segments.
  destruct (_ =? 0) eqn:Z0.
  { assert (Er : ring (v_tx s) = []).
    { destruct (ring (v_tx s)) as [|z l]; [reflexivity|exfalso; cbn [length] in Z0; lia]. }
    split.
    - unfold sr, register_dispatcher_if_empty. cbn [v_tx set_tx v_last_remote_window v_inbox v_opts v_restart v_state v_out].
      repeat split. rewrite Er. reflexivity.
    - left. repeat split; try exact eq_refl. left. exact Er. }
  assert (Rne : ring (v_tx s) <> []) by (intro E; rewrite E in Z0; cbn [length] in Z0; lia).
  match goal with |- context [is_remote_fin_or_later (v_state ?x)] =>
    assert (F1 : sr s x /\ v_segs x = v_segs s /\ v_ss x = v_ss s /\ v_unsegmented x = v_unsegmented s /\
                 v_t_retransmit x = v_t_retransmit s /\ v_now x = v_now s /\ v_rtte x = v_rtte s /\
                 v_last_sent_seq_nr x = v_last_sent_seq_nr s);
    [|revert F1; generalize x; intros s1 F1] end.
  { destruct (_ && _); [|split; [apply sr_refl|repeat split]].
    unfold grow. destruct (_ <=? cap _); [split; [sr_leaf|repeat split; exact eq_refl]|].
    cbn [wake_writer]. unfold add_wakes. split; [sr_leaf|repeat split; exact eq_refl]. }
  destruct F1 as (F1 & G1 & G2 & G3 & G4 & G5 & G6 & G7).
  pose proof F1 as (K1 & K2 & K3 & K4 & K5 & K6 & _).
  destruct (is_remote_fin_or_later (v_state s1)) eqn:Fin.
  { split; [exact F1|]. left. repeat split; auto. right. rewrite <- K6. exact Fin. }
  destruct (pop_expired_mtu_probe _ _ _) as [segs1 pe] eqn:Ep. apply pop_expired_spec in Ep.
  rewrite K6 in Fin.
  assert (Hcont : forall s2 : vsock, sr s s2 -> v_unsegmented s2 = v_unsegmented s ->
    pre2 (v_segs s) (v_ss s) (v_segs s2) (v_ss s2) ->
    split_res s
      (if Z.of_nat (length (ring (v_tx s))) <? ss_len_bytes (v_segs s2)
       then SErr s2 (ErrBug BugInBufferComputations)
       else match segment_loop (ring (v_tx s2)) (o_nagle (v_opts s2)) (v_ss s2) (v_segs s2)
                    (Z.of_nat (length (ring (v_tx s))) - ss_len_bytes (v_segs s2))
                    (v_last_remote_window s2) with
            | Some (ss', segs', remaining) =>
                SOk (set_unsegmented (VSockRec.set_segs (set_ss s2 ss') segs') remaining) tt
            | None => SPanic
            end)).
  { intros s2 F2 U2 P2. pose proof F2 as (J1 & J2 & J3 & J4 & J5 & J6).
    destruct (_ <? ss_len_bytes _) eqn:Lb; [cbn [split_res]; auto|].
    rewrite J5, J3, J1.
    destruct (segment_loop _ _ _ _ _ _) as [[[ss' segs'] rem']|] eqn:E; [|exact I].
    split; [eapply sr_trans; [exact F2|]; sr_leaf|].
    right; right. exists (v_segs s2), (v_ss s2). split; [exact P2|]. split; [exact Rne|]. split; [exact Fin|].
    split; [lia|]. exact E. }
  destruct pe.
  - apply Hcont.
    + eapply sr_trans; [exact F1|]. destruct (seq_gt _ _); sr_leaf.
    + destruct (seq_gt _ _); exact G3.
    + split.
      * destruct (seq_gt _ _); cbn [v_ss set_ss]; rewrite mss_on_probe_failed;
          cbn [v_ss set_last_sent_seq_nr set_rto_retransmissions set_t_retransmit VSockRec.set_segs]; rewrite G2; reflexivity.
      * right. rewrite <- G1, <- G2. split; [|eexists];
          destruct (seq_gt _ _); [exact Ep | exact Ep | exact eq_refl | exact eq_refl].
  - destruct Ep as [-> Ep]. split; [eapply sr_trans; [exact F1|]; sr_leaf|].
    right; left. cbn [v_segs v_ss set_unsegmented]. rewrite <- G1. auto.
  - destruct Ep as [-> Ep]. apply Hcont; [exact F1 | exact G3 |].
    split; [rewrite G2; reflexivity|]. left. rewrite <- G1. auto.
Qed.

End WithCC.
