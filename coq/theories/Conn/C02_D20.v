(* Regression example for the repaired defect D20 (C02 / C17): after an RTO had rewound
   last_sent_seq_nr and one cumulative ACK then covered every outstanding segment, the connection
   was idle with last_sent_seq_nr still rewound; a shutdown then numbered its FIN seq_nr while
   maybe_send_fin waits for our_fin - last_sent_seq_nr = 1: the FIN was never sent and the
   connection died of inactivity one second later.  Since the repair an acknowledged sequence
   number counts as sent (acked_counts_as_sent in process_all_incoming_messages). *)
From Utp Require Import Base.Prelude Wire.SeqNr Wire.Header Rtt.Rtte Mtu.SegSizes Rx.Rx Tx.Ring
  Tx.Segments Conn.Recovery Conn.Msg Conn.VSockRec Conn.VSock Conn.VSockRun Conn.VObs
  Conn.C10_Pred Conn.C02_Pred Conn.VSock_Inv Conn.C10_Proofs Conn.C02_Proofs.

(* case: vsock out 1 1500 1048576 32768 1048576 0 5 10000000000 1 1 100 1 7 1048576 5 1000000
         W1056,0 P T3000000000 P M2,1,102,1048576,10,0,0,- P H P *)
Definition d20_ops : list vop :=
  [VoWrite (repeat 0 (Z.to_nat 1056)); VoPoll []; VoSetNow 3000000000; VoPoll [];
   VoDeliver (wmsg ST_STATE 1 102 0); VoPoll []; VoShutdown; VoPoll []].

(* the situation of D20: an RTO retransmission rewound last_sent_seq_nr below seq_nr - 1 ... *)
Definition rto_rewound (st : fstep) : bool :=
  match fs_event st, fs_result st with
  | FePoll _, FrPoll PollPending _ _ _ =>
      (0 <? f_rto_retx (fs_post st)) &&
      negb (f_last_sent_seq_nr (fs_post st) =? wsub16 (f_seq_nr (fs_post st)) 1)
  | _, _ => false
  end.

Definition emits_fin (st : fstep) : bool :=
  match fs_result st with
  | FrPoll _ pk _ _ => existsb (fun p => match ch_type (fq_hdr p) with ST_FIN => true | _ => false end) pk
  | _ => false
  end.

Lemma fin_after_rto_rewind_regression :
  exists w cfg ops,
    vconfig_ok cfg = true /\ Forall op_msg_ok ops /\
    (* ... the rewind happened, everything was then acknowledged ... *)
    existsb rto_rewound (wtrace w cfg ops) = true /\
    (* ... and the poll right after the shutdown, at the same clock, emits the FIN *)
    c02_prompt cfg (wtrace w cfg ops) = true /\
    match rev (wtrace w cfg ops) with
    | st :: _ => emits_fin st = true /\
                 f_last_sent_seq_nr (fs_post st) = wsub16 (f_seq_nr (fs_post st)) 1
    | [] => False
    end.
Proof.
  exists 2000, timer_cfg, d20_ops.
  split; [vm_compute; reflexivity|]. split; [repeat constructor|].
  set (tr := wtrace _ _ _). pattern tr. subst tr. vm_compute. repeat split.
Qed.
