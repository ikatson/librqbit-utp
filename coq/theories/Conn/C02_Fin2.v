(* The FIN half of c02_rto_armed: our FIN outstanding (last_sent_seq_nr = our_fin, our_fin not
   acknowledged) => the retransmission timer is armed.
     FO s := our_fin_if_unacked (state) = Some fin -> last_sent_seq_nr = fin -> t_retransmit <> None
   is kept by every Pending poll that starts in a state where the FIN number is already allocated
   (is_local_fin_or_later): [poll_fin_armed_gen].  K0, the hypothesis of [poll_fin_armed], also asks
   that - in FinWait1 - the FIN is numbered right after the last segment of the table ([FNE]);
   the proof does not use it: the one place that turns the timer off while segments may be
   outstanding, the expired-probe arm of split_tx_queue_into_segments, is not taken in a local-FIN
   state. *)
From Utp Require Import Base.Prelude Wire.SeqNr Wire.SeqNr_Proofs Wire.Header Rtt.Rtte Rtt.Rtte_Proofs Mtu.SegSizes
  Rx.Rx Tx.Ring Tx.Segments Tx.Segments_Proofs Tx.Segments_ProofsOut
  Conn.Recovery Conn.Msg Conn.VSockRec Conn.VSock Conn.VSockRun Conn.VObs Conn.C10_Pred Conn.C02_Pred
  Conn.C02_Pred2 Conn.VSock_LemmasTx Conn.VSock_LemmasIn Conn.VSock_Lemmas Conn.VSock_LemmasStep
  Conn.VSock_LemmasReach Conn.VSock_LemmasTimers Conn.VSock_LemmasPipe Conn.C02_SegLemmas2 Conn.C02_Lemmas2
  Conn.C02_Stall2.

(* ------------------------------------------------------------------ the frontier of the table *)
Definition cutf (t : segments) : Z := wadd16 (ss_snd_una t) (len_z (ss_segs t) mod M16).

Lemma dlv_length : forall l l', dlv l' = dlv l -> length l' = length l.
Proof. intros l l' H. apply (f_equal (@length _)) in H. unfold dlv in H. rewrite !map_length in H. exact H. Qed.

Lemma on_sent_cutf : forall t i now, cutf (on_sent t i now) = cutf t.
Proof.
  intros. unfold cutf, len_z. rewrite (dlv_length _ _ (on_sent_dlv t i now)). reflexivity.
Qed.

(* sequence arithmetic of the expired-probe arm: fin = una + (n+1), the probe is the last segment *)
Lemma wsub16_ne : forall x k, 0 < k < M16 -> wsub16 x k <> x.
Proof.
  intros x k Hk E. unfold wsub16, M16 in *.
  assert (0 <= x < 65536) by (rewrite <- E; lia). lia.
Qed.

Lemma seq_gt_back2 : forall x, 0 <= x < M16 -> seq_gt x (wsub16 x 2) = true.
Proof.
  intros x Hx. unfold seq_gt.
  assert (E : seq_sub x (wsub16 x 2) = 2).
  { unfold seq_sub. apply offset_true_distance_pair; unfold WRAP_TOLERANCE, wsub16, M16 in *; try lia. }
  rewrite E. reflexivity.
Qed.

Section WithCC.
Context {CC : Type} (cci : cc_iface CC).
Notation vsock := (vsock CC).

Definition LF (s : vsock) : Prop := is_local_fin_or_later (v_state s) = true.
Definition fin_of (s : vsock) : option Z := our_fin_if_unacked (v_state s).

Definition FO (s : vsock) : Prop :=
  forall fin, fin_of s = Some fin -> v_last_sent_seq_nr s = fin -> v_t_retransmit s <> None.

(* the state is kept; last_sent_seq_nr and the timer are kept, or the timer is armed *)
Definition fok (s s' : vsock) : Prop :=
  v_state s' = v_state s /\
  ((v_last_sent_seq_nr s' = v_last_sent_seq_nr s /\ v_t_retransmit s' = v_t_retransmit s) \/
   v_t_retransmit s' <> None).

Lemma fok_refl : forall s, fok s s.
Proof. intros s. split; [reflexivity|left; auto]. Qed.

Lemma fok_trans : forall a b c, fok a b -> fok b c -> fok a c.
Proof.
  intros a b c [A1 A2] [B1 B2]. split; [congruence|].
  destruct B2 as [[B2 B3]|B2]; [|right; exact B2].
  destruct A2 as [[A2 A3]|A2]; [left; split; congruence|right; congruence].
Qed.

Lemma fok_FO : forall s s', fok s s' -> FO s -> FO s'.
Proof.
  intros s s' [E [[E1 E2]|E1]] H fin Hf Hl; [|exact E1].
  unfold fin_of in *. rewrite E in Hf. rewrite E1 in Hl. rewrite E2. exact (H fin Hf Hl).
Qed.

Lemma fok_same : forall s s' : vsock,
  v_state s' = v_state s -> v_last_sent_seq_nr s' = v_last_sent_seq_nr s ->
  v_t_retransmit s' = v_t_retransmit s -> fok s s'.
Proof. intros s s' E1 E2 E3. split; [exact E1|left; auto]. Qed.

Lemma fok_armed : forall s s' : vsock, v_state s' = v_state s -> v_t_retransmit s' <> None -> fok s s'.
Proof. intros s s' E1 E2. split; [exact E1|right; exact E2]. Qed.

Ltac fok_same_tac := apply fok_same; exact eq_refl.
Ltac fok_via H := eapply fok_trans; [exact H | fok_same_tac].

Lemma sameT_fok : forall s s' : vsock, sameT s s' -> fok s s'.
Proof. intros s s' (_ & E2 & _ & E4 & E5). apply fok_same; assumption. Qed.

Notation stk := (stR fok).

Lemma send_ack_fok : forall (s : vsock), stk s (send_ack s).
Proof. intros s. eapply stR_mono; [apply sameT_fok | apply send_control_packet_sameT]. Qed.

Lemma fok_fin_sent : forall (s : vsock) seq,
  fok s (set_last_sent_seq_nr
           (set_t_retransmit s (timer_arm (v_t_retransmit s) (v_now s)
                                  (retransmission_timeout (v_rtte s)) false)) seq).
Proof. intros. apply fok_armed; [exact eq_refl|]. vsimpl_goal. apply timer_arm_some. Qed.

Lemma fok_data_sent : forall (s : vsock) p f, fok s (sent_state s p f).
Proof.
  intros. unfold sent_state, on_packet_sent, emit.
  destruct (seq_gt _ _); try destruct (seq_gt _ _);
    (apply fok_armed; [exact eq_refl | vsimpl_goal; apply timer_arm_some]).
Qed.

Ltac fok_leaf := first [apply fok_data_sent | apply fok_fin_sent | fok_same_tac].

Lemma maybe_send_fin_fok : forall (s : vsock), stk s (maybe_send_fin s).
Proof.
  apply (maybe_send_fin_by fok fok_refl fok_trans); [|apply fok_fin_sent].
  intros s h. eapply stR_mono; [apply sameT_fok | apply send_control_packet_sameT].
Qed.

Lemma send_data_fok : forall (s : vsock) h f, stk s (send_data s h f).
Proof. apply (send_data_R fok fok_refl fok_trans); intros; fok_leaf. Qed.

Lemma recovery_loop_fok : forall items (s : vsock) h mss0 st, stk s (recovery_loop items s h mss0 st).
Proof. exact (recovery_loop_by fok fok_refl fok_trans send_data_fok). Qed.

Lemma new_data_loop_fok : forall items (s : vsock) h remaining, stk s (new_data_loop items s h remaining).
Proof. exact (new_data_loop_by fok fok_refl fok_trans send_data_fok). Qed.

Lemma maybe_send_ack_fok : forall (s : vsock), stk s (maybe_send_ack s).
Proof. intros s. eapply stR_mono; [apply sameT_fok | apply maybe_send_ack_sameT]. Qed.

(* ---- send_tx_queue: the state is kept and FO is kept ---- *)
Definition flr (s s' : vsock) : Prop := v_state s' = v_state s /\ (FO s -> FO s').

Lemma flr_refl : forall s, flr s s.
Proof. intros s. split; auto. Qed.

Lemma flr_trans : forall a b c, flr a b -> flr b c -> flr a c.
Proof. intros a b c [A1 A2] [B1 B2]. split; [congruence|auto]. Qed.

Lemma fok_flr : forall s s', fok s s' -> flr s s'.
Proof. intros s s' H. split; [apply H|apply fok_FO; exact H]. Qed.

Lemma stk_stl : forall A (s : vsock) (m : step A), stk s m -> stR flr s m.
Proof. intros A s m. apply stR_mono. apply fok_flr. Qed.

(* last_sent_seq_nr set to something that is not the FIN number *)
Lemma flr_not_fin : forall (s s' : vsock),
  v_state s' = v_state s -> (forall fin, fin_of s = Some fin -> v_last_sent_seq_nr s' <> fin) -> flr s s'.
Proof.
  intros s s' E H. split; [exact E|]. intros _ fin Hf Hl. exfalso.
  unfold fin_of in Hf. rewrite E in Hf. exact (H fin Hf Hl).
Qed.

Lemma send_tx_queue_flr : forall (s : vsock), stR flr s (send_tx_queue cci s).
Proof.
  intros s. unfold send_tx_queue.
  destruct (v_transport_pending s); [apply flr_refl|].
  apply (stR_sbind flr flr_trans).
  - destruct (timer_expired _ _); [|apply flr_refl].
    destruct (iter_for_sending _ _) as [|f l] eqn:Eit.
    + destruct (our_fin_if_unacked (v_state s)) as [fin|] eqn:Ef.
      2:{ cbn [stR]. apply flr_not_fin; [exact eq_refl|]. intros fin K. unfold fin_of in K. congruence. }
      destruct (Z.eqb_spec (v_last_sent_seq_nr s) fin) as [El|El].
      2:{ cbn [stR]. apply flr_not_fin; [exact eq_refl|]. intros fin' K. unfold fin_of in K.
          rewrite Ef in K. injection K as <-. exact El. }
      set (s1 := set_last_sent_seq_nr s (wsub16 (v_last_sent_seq_nr s) 1)).
      assert (F1 : flr s s1).
      { apply flr_not_fin; [exact eq_refl|]. intros fin' K. unfold fin_of in K. rewrite Ef in K.
        injection K as <-. subst s1. vsimpl_goal. rewrite El. apply wsub16_ne. unfold M16. lia. }
      clearbody s1.
      apply (stR_weaken flr flr_trans) with (s := s1); [exact F1|].
      apply (stR_sbind flr flr_trans); [apply stk_stl, maybe_send_fin_fok|].
      intros s2 sent. destruct sent; [|apply flr_refl].
      destruct (on_rto_reactions cci s2) as [s3|] eqn:Er; [|exact I].
      apply on_rto_reactions_sameT, sameT_fok in Er. cbn [stR]. apply fok_flr. eapply fok_trans; [exact Er|].
      apply fok_armed; [exact eq_refl|vsimpl_goal; apply timer_arm_some].
    + pose proof (send_data_fok s (outgoing_header s) f) as Hd.
      destruct (send_data _ _ f) as [s1 r|s1 e|]; cbn [stR] in *; auto using fok_flr.
      destruct r; cbn [stR]; auto using fok_flr.
      cbv zeta.
      match goal with |- stR _ _ (match ?o with _ => _ end) => destruct o as [s2|] eqn:E end; [|exact I].
      assert (F2 : fok s1 s2).
      { destruct (negb _); [apply sameT_fok, (on_rto_reactions_sameT cci); exact E|injection E as <-; apply fok_refl]. }
      cbn [stR]. apply fok_flr. eapply fok_trans; [exact Hd|]. eapply fok_trans; [exact F2|].
      apply fok_armed; [exact eq_refl|vsimpl_goal; apply timer_arm_some].
  - intros s1 ret. destruct ret; [apply flr_refl|].
    destruct (0 <? v_rto_retransmissions s1); [apply flr_refl|].
    destruct (ss_segs _); [apply flr_refl|].
    apply (stR_sbind flr flr_trans).
    + destruct (rv_phase _); try apply flr_refl.
      apply (stR_sbind flr flr_trans); [apply stk_stl, recovery_loop_fok|].
      intros s2 [st early]. cbv beta iota zeta.
      destruct early; [apply fok_flr; unfold set_recovering; fok_same_tac|].
      match goal with |- stR _ _ (match our_fin_if_unacked (v_state ?y) with _ => _ end) =>
        assert (F3 : fok s2 y); [|revert F3; generalize y; intros sy F3] end.
      { unfold set_recovering. destruct (rl_cwnd st <? _); [|fok_same_tac]. destruct (rc_recalc _); [fok_same_tac|].
        destruct (0 <? rl_sent st); fok_same_tac. }
      destruct (our_fin_if_unacked (v_state sy)) as [fin|] eqn:Ef; [|cbn [stR]; apply fok_flr; exact F3].
      destruct (_ =? _); cbn [stR]; [|apply fok_flr; exact F3].
      eapply flr_trans; [apply fok_flr; exact F3|].
      apply flr_not_fin; [exact eq_refl|]. intros fin' K. unfold fin_of in K. rewrite Ef in K. injection K as <-.
      unfold set_recovering. vsimpl_goal. apply wsub16_ne. unfold M16. lia.
    + intros s2 ret. destruct ret; [apply flr_refl|].
      apply (stR_sbind flr flr_trans); [apply stk_stl, new_data_loop_fok|].
      intros s3 tl. destruct tl as [[sq sz]|]; [|apply flr_refl].
      destruct (pop_mtu_probe _ _) as [segs' popped]. destruct popped; cbn [stR]; [|apply flr_refl].
      apply fok_flr. fok_same_tac.
Qed.

(* in FinWait1 the FIN is numbered right after the last segment, or no retransmission timeout is due *)
Definition FNE (s : vsock) : Prop :=
  forall fin, v_state s = FinWait1 fin -> fin = cutf (v_segs s) \/ (NE s /\ NW s).

Definition K0 (s : vsock) : Prop := ti s /\ LF s /\ FO s /\ FNE s.

(* what a poll keeps: K0 without FNE *)
Definition J (s : vsock) : Prop := ti s /\ LF s /\ FO s.
Definition JR (s s' : vsock) : Prop := J s -> J s'.

Lemma JR_refl : forall s, JR s s.
Proof. intros s H; exact H. Qed.

Lemma JR_trans : forall a b c, JR a b -> JR b c -> JR a c.
Proof. intros a b c H1 H2 H. auto. Qed.

Lemma flr_JR : forall s s' : vsock, tiR s s' -> flr s s' -> JR s s'.
Proof.
  intros s s' Ht [E Hf] (T & L & F).
  split; [exact (Ht T)|]. split; [unfold LF in *; rewrite E; exact L | exact (Hf F)].
Qed.

Lemma stage_J : forall X (s : vsock) (m : step X), stR tiR s m -> stR flr s m -> stRk JR s m.
Proof. intros X s m T F. destruct m; cbn [stR stRk] in *; auto using flr_JR. Qed.

Lemma LF_syn_ack : forall s : vsock, LF s ->
  maybe_send_syn_ack s = SOk (set_t_syn_ack_resend s None) tt.
Proof.
  intros s H. unfold maybe_send_syn_ack, LF in *. destruct (v_state s); try discriminate; reflexivity.
Qed.

Lemma LF_transition : forall s : vsock, LF s -> transition_to_fin_wait_1 s = s.
Proof.
  intros s H. unfold transition_to_fin_wait_1, LF in *. destruct (v_state s); try discriminate; reflexivity.
Qed.

Lemma maybe_send_fin_segs_st : forall s : vsock,
  stR (fun a b : vsock => v_segs b = v_segs a) s (maybe_send_fin s).
Proof.
  intros s. unfold maybe_send_fin.
  destruct (v_transport_pending s); [reflexivity|].
  destruct (our_fin_if_unacked _); [|reflexivity].
  destruct (negb _); [reflexivity|].
  pose proof (send_control_packet_segs s (hdr_with (outgoing_header s) ST_FIN z None)) as G.
  destruct (send_control_packet s _) as [s2 sent| |]; cbn [sbind stR] in *; auto.
  destruct sent; cbn [stR]; exact G.
Qed.

(* ------------------------------------------------------------------ incoming messages *)
Definition st_later (x y : vstate) : Prop :=
  (is_local_fin_or_later x = true -> is_local_fin_or_later y = true) /\
  (forall fin, our_fin_if_unacked y = Some fin -> is_local_fin_or_later x = true ->
               our_fin_if_unacked x = Some fin) /\
  (forall fin, y = FinWait1 fin -> is_local_fin_or_later x = true -> x = FinWait1 fin).

Lemma st_later_refl : forall x, st_later x x.
Proof. intros x. unfold st_later. auto. Qed.

Lemma st_later_trans : forall x y z, st_later x y -> st_later y z -> st_later x z.
Proof.
  intros x y z (A1 & A2 & A3) (B1 & B2 & B3). unfold st_later. split; [auto|]. split.
  - intros fin H L. apply A2; auto.
  - intros fin H L. apply A3; auto.
Qed.

(* state later; last_sent, timer, clocks kept; frontier of the table kept *)
Definition pmr (s s' : vsock) : Prop :=
  st_later (v_state s) (v_state s') /\ v_last_sent_seq_nr s' = v_last_sent_seq_nr s /\
  v_t_retransmit s' = v_t_retransmit s /\ v_now s' = v_now s /\ v_env_now s' = v_env_now s /\
  cutf (v_segs s') = cutf (v_segs s).

Lemma pmr_refl : forall s, pmr s s.
Proof. intros s. unfold pmr. split; [apply st_later_refl|]. auto. Qed.

(* the part of pmr that FO reads: what the receive loop does to one state *)
Definition pml (s s' : vsock) : Prop :=
  st_later (v_state s) (v_state s') /\ v_last_sent_seq_nr s' = v_last_sent_seq_nr s /\
  v_t_retransmit s' = v_t_retransmit s.

Lemma pml_trans : forall a b c, pml a b -> pml b c -> pml a c.
Proof.
  unfold pml. intros a b c (A1 & A2 & A3) (B1 & B2 & B3).
  split; [eapply st_later_trans; eauto|]. split; congruence.
Qed.

Lemma sameT_pml : forall s s' : vsock, sameT s s' -> pml s s'.
Proof.
  intros s s' (_ & A2 & _ & A4 & A5). unfold pml. rewrite A4. split; [apply st_later_refl|]. auto.
Qed.

Lemma state_table_pml : forall (s : vsock) h,
  match state_table s h with TblDrop s1 | TblErr s1 _ | TblContinue s1 => pml s s1 end.
Proof.
  intros s h. unfold state_table, restart_remote_inactivity_timer, pml.
  destruct (v_state s) eqn:Est; repeat break_match; vsimpl_goal; rewrite ?Est;
    (split; [unfold st_later; cbn [is_local_fin_or_later our_fin_if_unacked];
             repeat split; try discriminate; try (intros; congruence); auto|repeat split]).
Qed.

Lemma pim_ack_pml : forall (s1 s2 : vsock) h res, pim_ack cci s1 h = Some (s2, res) -> pml s1 s2.
Proof.
  intros s1 s2 h res. unfold pim_ack.
  destruct (remove_up_to_ack _ _ _ _) as [segs1 res0].
  destruct (match is_recovering (v_recovery s1) with true => _ | false => _ end) as [rtte1|]; [|discriminate].
  destruct (cc_on_ack cci _ _ _ _) as [cc3|]; [|discriminate].
  destruct (recovery_on_ack cci _ _ _ _ _ _ _) as [[[rec1 segs2] cc4]|]; [|discriminate].
  intro H; injection H as <- _. split; [apply st_later_refl|]. split; reflexivity.
Qed.

Lemma process_incoming_message_pml : forall (s : vsock) m,
  match process_incoming_message cci s m with SOk s' r => pml s s' | _ => True end.
Proof.
  intros s m. rewrite process_incoming_message_eq.
  pose proof (state_table_pml s (m_hdr m)) as T.
  destruct (state_table s (m_hdr m)) as [s1|s1 e|s1]; auto.
  unfold pim_cont.
  destruct (pim_ack cci s1 (m_hdr m)) as [[s2 res]|] eqn:Ea; [|exact I].
  pose proof (pml_trans _ _ _ T (pim_ack_pml _ _ _ _ Ea)) as F2.
  cbv zeta.
  destruct (ch_type (m_hdr m)); try exact F2.
  - pose proof (pim_data_sameT cci s2 m res (seq_sub (ch_seq (m_hdr m)) (wadd16 (v_last_consumed s2) 1))) as D.
    destruct (pim_data cci s2 m res _) as [s' r| |]; auto.
    eapply pml_trans; [exact F2|apply sameT_pml, D].
  - pose proof (pim_fin_sameT s2 m res (seq_sub (ch_seq (m_hdr m)) (wadd16 (v_last_consumed s2) 1))
                              (is_remote_fin_or_later (v_state s))) as D.
    destruct (pim_fin s2 m res _ _) as [s' r| |]; auto.
    eapply pml_trans; [exact F2|apply sameT_pml, D].
Qed.

Lemma recv_loop_pml : forall fuel (s : vsock) acc,
  match recv_loop cci fuel s acc with
  | SOk s' _ => v_state s' = Closed \/ pml s s'
  | _ => True
  end.
Proof.
  assert (Hclosed : forall (s : vsock) (acc : on_ack_result),
    match sbind (maybe_send_fin (transition_to_fin_wait_1 s))
                (fun s2 _ => SOk (set_state s2 Closed) (acc, true)) with
    | SOk s' _ => v_state s' = Closed \/ pml s s'
    | _ => True end).
  { intros s acc. destruct (maybe_send_fin _) as [s2 b| |]; cbn [sbind]; auto. }
  assert (Hopen : forall (s : vsock), pml s (set_inbox_waker s true)).
  { intros s. split; [apply st_later_refl|]. split; reflexivity. }
  induction fuel as [|x fuel IH]; intros s acc.
  - cbn [recv_loop]. destruct (v_inbox s).
    + destruct (v_inbox_closed s); [apply Hclosed|right; apply Hopen].
    + exact I.
  - cbn [recv_loop]. destruct (v_inbox s) as [|m rest].
    + destruct (v_inbox_closed s); [apply Hclosed|right; apply Hopen].
    + pose proof (process_incoming_message_pml (set_inbox s rest) m) as P.
      destruct (process_incoming_message cci (set_inbox s rest) m) as [s1 r| |]; cbn [sbind]; auto.
      change (pml s s1) in P.
      destruct (_ || _); [right; exact P|].
      specialize (IH s1 (result_update acc r)).
      destruct (recv_loop cci fuel s1 _) as [s2 res2| |]; auto.
      destruct IH as [IH|IH]; [left; exact IH|right; eapply pml_trans; eauto].
Qed.

Lemma pml_K : forall s s1 : vsock, pml s s1 -> LF s -> FO s -> LF s1 /\ FO s1.
Proof.
  intros s s1 ((S1 & S2 & _) & P2 & P3) L F. unfold LF in *. split; [auto|].
  intros fin Hf Hl. rewrite P3. apply (F fin); [apply S2; assumption|congruence].
Qed.

Lemma closed_K : forall s1 : vsock, v_state s1 = Closed -> LF s1 /\ FO s1.
Proof.
  intros s1 E. unfold LF, FO, fin_of. rewrite E. split; [reflexivity|]. intros; discriminate.
Qed.

(* the bookkeeping after the receive loop: when something was acknowledged the timer is re-armed,
   unless our FIN is acknowledged and the table empty; acked_counts_as_sent moves last_sent_seq_nr
   only then *)
Lemma paim_rest_FO : forall (s1 s' : vsock) r u,
  paim_rest s1 r = SOk s' u -> FO s1 -> v_state s' = v_state s1 /\ FO s'.
Proof.
  intros s1 s' r u H F. unfold paim_rest in H.
  match type of H with sbind _ ?k = _ =>
    assert (Htail : forall (s3 : vsock) x, k s3 x = SOk s' u -> fok s3 s') end.
  { intros s3 x K. cbv beta in K. destruct (rv_phase _); try (injection K as <-; apply fok_refl).
    destruct (calc_pipe _ _ _ _ _) as [[[segs' pipe] recalc]|]; [|discriminate].
    injection K as <-. unfold set_recovering. fok_same_tac. }
  destruct ((0 <? ar_acked_segments r) || (0 <? ar_newly_sacked_segments r)) eqn:Eb.
  - match type of H with sbind ?m _ = _ =>
      match m with context [acked_counts_as_sent ?x] => set (s2 := x) in * end end.
    assert (Z2 : v_state s2 = v_state s1 /\ (fin_of s1 = None \/ v_t_retransmit s2 <> None)).
    { clear H Htail. subst s2. unfold restart_remote_inactivity_timer, fin_of.
      destruct (ss_segs _); [destruct (our_fin_if_unacked _)|]; vsimpl_goal;
        (split; [reflexivity|]); first [left; reflexivity | right; apply timer_arm_some]. }
    clearbody s2. destruct Z2 as [Z1 Z2].
    assert (K : v_state s' = v_state s2 /\ (v_t_retransmit s2 <> None -> v_t_retransmit s' <> None)).
    { destruct (0 <? ar_acked_segments r).
      - set (s2' := acked_counts_as_sent s2) in *.
        assert (Q : v_state s2' = v_state s2 /\ v_t_retransmit s2' = v_t_retransmit s2).
        { subst s2'. unfold acked_counts_as_sent. destruct (_ && _); split; reflexivity. }
        clearbody s2'. destruct Q as [Q1 Q2].
        destruct (truncate_front _ _) as [tx1 tr]. destruct tr; [|discriminate].
        destruct (wake_writer tx1) as [tx2 w]. cbn [sbind] in H. apply (Htail _ tt) in H.
        destruct H as [H1 H2]. change (v_state s' = v_state s2') in H1.
        change (v_t_retransmit (add_wakes (set_tx s2' tx2) (tx_wakes w))) with (v_t_retransmit s2') in H2.
        split; [congruence|]. destruct H2 as [[_ H2]|H2]; [rewrite H2, Q2; auto | intros _; exact H2].
      - cbn [sbind] in H. apply (Htail _ tt) in H. destruct H as [H1 H2]. split; [exact H1|].
        destruct H2 as [[_ H2]|H2]; [rewrite H2; auto | intros _; exact H2]. }
    destruct K as [K1 K2]. split; [congruence|].
    intros fin Hf _. unfold fin_of in *. rewrite K1, Z1 in Hf.
    destruct Z2 as [Z2|Z2]; [congruence | exact (K2 Z2)].
  - apply orb_false_iff in Eb. destruct Eb as [Eb1 _]. rewrite Eb1 in H. cbn [sbind] in H.
    apply (Htail _ tt) in H. split; [apply H | exact (fok_FO _ _ H F)].
Qed.

Lemma process_all_incoming_messages_JR : forall s : vsock,
  stRk JR s (process_all_incoming_messages cci s).
Proof.
  intros s.
  pose proof (process_all_incoming_messages_ti cci s) as T'.
  rewrite paim_eq in *.
  pose proof (recv_loop_pml (v_inbox s ++ [ {| m_hdr := outgoing_header s; m_payload := [] |} ]) s
                            on_ack_result_default) as Lp.
  destruct (recv_loop _ _ _ _) as [s1 res| |]; cbn [sbind stRk stR] in *; auto.
  destruct (paim_rest s1 (fst res)) as [s' u| |] eqn:E; cbn [stRk stR] in *; auto.
  intros (T & L & F).
  assert (K : LF s1 /\ FO s1) by (destruct Lp as [Lp|Lp]; [apply closed_K | eapply pml_K]; eassumption).
  destruct (paim_rest_FO _ _ _ _ E (proj2 K)) as [E' F'].
  split; [exact (T' T)|]. split; [unfold LF in *; rewrite E'; apply K | exact F'].
Qed.

(* ------------------------------------------------------------------ segmentation *)
Lemma pop_expired_shape : forall t mr t' rw ps,
  pop_expired_mtu_probe t true mr = (t', PeExpired rw ps) ->
  exists init x, ss_segs t = init ++ [x] /\
    rw = wsub16 (wadd16 (ss_snd_una t) (len_z init mod M16)) 1.
Proof.
  intros t mr t' rw ps H. unfold pop_expired_mtu_probe in H.
  destruct (last_and_init (ss_segs t)) as [[init x]|] eqn:E; [|inversion H].
  destruct (sg_delivered x); [inversion H|].
  destruct (_ && _ && _); [|destruct (sg_probe x); inversion H].
  injection H as _ <- _. exists init, x. split; [apply last_and_init_app; exact E|reflexivity].
Qed.

(* the expired-probe arm, which turns the timer off when the popped probe was the only segment, is
   not taken in a local-FIN state (repair of D6: the flag handed to pop_expired_mtu_probe is false),
   and outside those states no FIN number is allocated *)
Lemma not_LF_no_fin : forall s : vsock, is_local_fin_or_later (v_state s) = false -> fin_of s = None.
Proof. intros s H. unfold fin_of. destruct (v_state s); try discriminate; reflexivity. Qed.

Lemma split_flr : forall s : vsock, stR flr s (split_tx_queue_into_segments cci s).
Proof.
  apply (split_tx_queue_into_segments_R cci flr flr_refl flr_trans); intros;
    try (apply fok_flr; unfold add_wakes; fok_same_tac).
  destruct (is_local_fin_or_later (v_state s)) eqn:L.
  - exfalso. rewrite ?L in H. cbn [negb] in H. rewrite andb_false_r in H. exact (pop_expired_not_timed_out _ _ _ _ H _ _ eq_refl).
  - apply flr_not_fin; [unfold probe_given_up; destruct (seq_gt _ _); exact eq_refl|].
    intros fin K. rewrite (not_LF_no_fin s L) in K. discriminate.
Qed.

(* ------------------------------------------------------------------ a Pending poll with a writable
   transport, from a state with the FIN number allocated *)
Theorem poll_fin_armed_gen : forall (s s' : vsock),
  J s -> poll cci s = (s', PollPending) -> v_transport_pending s' = false -> ti s' /\ FO s'.
Proof.
  intros s s' HJ H Hnp.
  assert (P : pend_shape JR (poll_init s) s').
  { apply (poll_Rp cci JR JR_refl JR_trans); try exact H.
    - intro a. apply flr_JR; [apply poll_start_ti | apply fok_flr; unfold poll_start; fok_same_tac].
    - intros a. pose proof (maybe_send_syn_ack_ti a) as T. pose proof (LF_syn_ack a) as E.
      destruct (maybe_send_syn_ack a) as [b x| |]; cbn [stRk stR] in *; auto.
      intros (Ta & L & F). injection (E L) as Eb _. subst b.
      split; [exact (T Ta)|]. split; [exact L | revert F; apply fok_FO; fok_same_tac].
    - intro a. apply stage_J; [apply send_ack_ti | apply stk_stl, send_ack_fok].
    - apply process_all_incoming_messages_JR.
    - intros a rx1 fb w _. apply flr_JR; [apply rx_flush_ti | apply fok_flr; unfold add_wakes; fok_same_tac].
    - intro a. apply stage_J; [apply split_tx_queue_into_segments_ti | apply split_flr].
    - intro a. apply stage_J; [apply send_tx_queue_ti | apply send_tx_queue_flr].
    - intros a Ha. rewrite (LF_transition a (proj1 (proj2 Ha))). exact Ha.
    - intro a. apply stage_J; [apply maybe_send_fin_ti | apply stk_stl, maybe_send_fin_fok].
    - intro a. apply stage_J; [apply maybe_send_ack_ti | apply stk_stl, maybe_send_ack_fok]. }
  destruct P as [[P _]|(sa & sb & b & P1 & _ & P2 & _ & _ & _ & ->)]; [congruence|].
  destruct (flr_JR sb _ (poll_tail_ti sb) (fok_flr _ _ (sameT_fok _ _ (poll_tail_sameT sb))) (P2 (P1 HJ))) as (T & _ & F).
  split; assumption.
Qed.

Theorem poll_fin_armed : forall (s s' : vsock),
  K0 s -> poll cci s = (s', PollPending) -> v_transport_pending s' = false -> ti s' /\ FO s'.
Proof. intros s s' (T & L & F & _). apply poll_fin_armed_gen. exact (conj T (conj L F)). Qed.

End WithCC.
