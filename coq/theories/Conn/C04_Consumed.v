(* C04: c04_consumed_honest_ok (Conn/C04_Pred2.v: after EVERY event the number the endpoint would acknowledge is
   honest and has not moved back) under the same guard as c04_vsock_ack_ok (Conn/C04_Guard.v c04_peer_ok), for
   every trace of the model.  Uses the trace invariant TI of Conn/C04_Step.v. *)
From Utp Require Import Base.Prelude Wire.SeqNr Wire.SeqNr_Proofs Wire.Header Rtt.Rtte Mtu.SegSizes
  Rx.Rx Rx.Rx_Proofs Tx.Ring Tx.Segments Conn.Recovery Conn.Msg Conn.VSockRec Conn.VSock Conn.VSockRun Conn.VObs
  Conn.VSock_Lemmas Conn.VSock_LemmasStep Conn.C04_Pred Conn.C04_Pred2 Conn.C04_Guard Conn.C17_TraceLemmas Conn.C04_Step.

Section WithCC.
Context {CC : Type} (cci : cc_iface CC).
Notation vsock := (vsock CC).

(* what the invariant says about the number that would be acknowledged now *)
Lemma TI_check b recv Rd Rf last (s : vsock) :
  TI b recv Rd Rf last s ->
  ack_honest recv b (v_last_consumed s) = true /\ 0 <= seq_sub (v_last_consumed s) last /\
  TI b recv Rd Rf (v_last_consumed s) s.
Proof.
  intros (Hb & G3 & Htol & Hrecv & K & Kl & P & -> & HKl).
  pose proof (PI_K_tol b Rd Rf G3 Htol _ _ P) as HK.
  assert (Hlc : v_last_consumed s = wadd16 b K) by (apply (pi_lc _ _ _ _ _ P)).
  rewrite Hlc. split; [|split].
  - unfold ack_honest. rewrite (seq_sub_base b K Hb) by lia.
    destruct (Z.ltb_spec K 0); [lia|]. destruct (K <=? 1000); [|reflexivity].
    apply contiguous_ok. intros i Hi. apply Hrecv. apply (pi_contig _ _ _ _ _ P). lia.
  - rewrite seq_sub_small by lia. lia.
  - split; [exact Hb|]. split; [exact G3|]. split; [exact Htol|]. split; [exact Hrecv|].
    exists K, K. split; [exact P|]. split; [reflexivity|lia].
Qed.

(* one step of c04_consumed_trace: the check passes and the walk goes on from the number just checked *)
Lemma TI_check_if b recv Rd Rf last (s : vsock) (X : bool) :
  TI b recv Rd Rf last s -> (TI b recv Rd Rf (v_last_consumed s) s -> X = true) ->
  (if ack_honest recv b (v_last_consumed s) && (0 <=? seq_sub (v_last_consumed s) last) then X else false) = true.
Proof.
  intros Hi HX. destruct (TI_check _ _ _ _ _ _ Hi) as (C1 & C2 & Hi').
  rewrite C1. destruct (Z.leb_spec 0 (seq_sub (v_last_consumed s) last)); [|lia]. apply HX, Hi'.
Qed.

(* a whole poll keeps the invariant with the same `last` *)
Lemma c04_poll_TI b recv Rd Rf last (s : vsock) sc s' r :
  TI b recv Rd Rf last s -> poll cci (VSockRec.set_sends s sc) = (s', r) -> TI b recv Rd Rf last s'.
Proof.
  intros (Hb & G3 & Htol & Hrecv & K & Kl & P & -> & HKl) E.
  assert (H0 : PO b Rd Rf Kl (poll_init (VSockRec.set_sends s sc))).
  { exists K. split; [|unfold poll_init; vsimpl; cbn [AckL]; lia].
    eapply PI_fields; [exact P|reflexivity..]. }
  pose proof (poll_Inv cci (PO b Rd Rf Kl) (PO_RX b Rd Rf G3 Htol Kl) (PO_msg cci b Rd Rf Hb G3 Htol Kl)
                (PO_closed b Rd Rf Kl) _ _ _ E H0) as (K' & P' & A').
  assert (Hle : Kl <= K') by (eapply AckL_lo_hi; eauto).
  split; [exact Hb|]. split; [exact G3|]. split; [exact Htol|]. split; [exact Hrecv|].
  exists K', Kl. split; [exact P'|]. split; [reflexivity|lia].
Qed.

Lemma consumed_trace_cons st r recv b last :
  c04_consumed_trace (st :: r) recv b last =
  let recv' := match fs_event st with
               | FeDeliver h plen => if carries_seq h plen then ch_seq h :: recv else recv
               | _ => recv
               end in
  let c := f_last_consumed (fs_post st) in
  if ack_honest recv' b c && (0 <=? seq_sub c last) then c04_consumed_trace r recv' b c else false.
Proof. reflexivity. Qed.

Theorem c04_consumed_walk : forall ops (s : vsock) b recv Rd Rf last,
  TI b recv Rd Rf last s ->
  c04_guard_scan (ftrace cci s ops) b Rd Rf = true ->
  c04_consumed_trace (ftrace cci s ops) recv b last = true.
Proof.
  induction ops as [|o ops IH]; intros s b recv Rd Rf last Hi Hg; [reflexivity|].
  rewrite ftrace_cons in Hg |- *. rewrite consumed_trace_cons. cbv zeta.
  rewrite fstep_of_post. cbn [fp_of_vsock f_last_consumed].
  assert (Hcase : (exists sc, o = VoPoll sc) \/ (exists m, o = VoDeliver m) \/
                  match o with VoPoll _ | VoDeliver _ => False | _ => True end)
    by (destruct o; eauto).
  destruct Hcase as [[sc ->]|[[m ->]|Ho]].
  - (* poll *)
    destruct (poll cci (VSockRec.set_sends s sc)) as [s' r] eqn:E.
    pose proof (c04_poll_TI b recv Rd Rf last s sc s' r Hi E) as Hi'.
    assert (Hf : snd (fst (fst (vstep cci s (VoPoll sc)))) = VrPoll r (rev (v_out s')) (rev (v_wakes s')) (v_arm_in s')).
    { cbn [vstep]. rewrite E. reflexivity. }
    assert (Hs : vstep_state cci s (VoPoll sc) = s').
    { unfold vstep_state. cbn [vstep]. rewrite E. reflexivity. }
    rewrite Hf, Hs in Hg |- *.
    rewrite guard_scan_other in Hg by (rewrite (fstep_of_poll cci s sc s' r E); discriminate).
    rewrite fstep_of_event. cbn [fevent_of].
    apply (TI_check_if _ _ _ _ _ _ _ Hi'). intro Hi''.
    unfold poll_finished in Hg |- *. destruct r; try reflexivity. eapply IH; eauto.
  - (* deliver *)
    assert (Hf : poll_finished (snd (fst (fst (vstep cci s (VoDeliver m))))) = false).
    { cbn [vstep]. destruct (v_inbox_closed s); reflexivity. }
    rewrite Hf in Hg |- *.
    assert (Ev : fs_event (fstep_of cci s (VoDeliver m)) = FeDeliver (m_hdr m) (Z.of_nat (length (m_payload m))))
      by (rewrite fstep_of_event; reflexivity).
    rewrite (guard_scan_deliver _ _ _ _ _ _ _ Ev) in Hg. rewrite Ev.
    pose proof (TI_deliver cci b recv Rd Rf last s m Hi) as Hd. cbv zeta in Hd.
    destruct (carries_seq (m_hdr m) (Z.of_nat (length (m_payload m)))) eqn:Ec.
    + apply andb_true_iff in Hg. destruct Hg as [Hg1 Hg2].
      destruct (ptype_eqb (ch_type (m_hdr m)) ST_FIN) eqn:Ef;
        apply andb_true_iff in Hg2; destruct Hg2 as [Hg2 Hg3];
        (assert (Hi' := Hd ltac:(rewrite Hg1, Hg2; reflexivity));
         apply (TI_check_if _ _ _ _ _ _ _ Hi'); intro Hi''; eapply IH; [exact Hi''|exact Hg3]).
    + apply (TI_check_if _ _ _ _ _ _ _ (Hd eq_refl)). intro Hi''. eapply IH; [exact Hi''|exact Hg].
  - (* the application, the clock, the path limit, the channel *)
    destruct (vstep_event_other cci s o Ho) as (N1 & N2 & N3).
    rewrite N3 in Hg |- *. rewrite (guard_scan_other _ _ _ _ _ N1) in Hg.
    assert (Hi' : TI b recv Rd Rf last (vstep_state cci s o)) by (apply TI_other; assumption).
    assert (Er : match fs_event (fstep_of cci s o) with
                 | FeDeliver h plen => if carries_seq h plen then ch_seq h :: recv else recv
                 | _ => recv end = recv).
    { destruct (fs_event (fstep_of cci s o)) eqn:Ev; try reflexivity. exfalso. eapply N1; reflexivity. }
    rewrite Er. apply (TI_check_if _ _ _ _ _ _ _ Hi'). intro Hi''. eapply IH; [exact Hi''|exact Hg].
Qed.

Definition c04_consumed_honest_guarded (cfg : vconfig) (tr : list fstep) : bool :=
  if c04_peer_ok cfg tr then c04_consumed_honest_ok cfg tr else true.

Theorem c04_consumed_honest_guarded_trace : forall mk c cfg (s0 : vsock) ops,
  C10_Pred.vconfig_ok c = true -> vsock_new cci mk c = Some s0 ->
  c04_consumed_honest_guarded cfg (ftrace cci s0 ops) = true.
Proof.
  intros mk c cfg s0 ops Hc Hn. unfold c04_consumed_honest_guarded.
  destruct (c04_peer_ok cfg (ftrace cci s0 ops)) eqn:Hg; [|reflexivity].
  unfold c04_peer_ok, c04_consumed_honest_ok in *.
  destruct ops as [|o ops]; [reflexivity|].
  rewrite ftrace_cons in Hg |- *. rewrite fstep_of_pre in Hg |- *.
  cbn [fp_of_vsock f_last_consumed] in Hg |- *.
  rewrite <- ftrace_cons in Hg |- *.
  apply (c04_consumed_walk (o :: ops) s0 (v_last_consumed s0) [] [] [] (v_last_consumed s0)); [|exact Hg].
  eapply vsock_new_TI; eauto.
Qed.

End WithCC.
