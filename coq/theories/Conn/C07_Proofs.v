(* C07 — acknowledgement timeliness: proofs about the connection model. *)
From Utp Require Import Base.Prelude Wire.SeqNr Wire.SeqNr_Proofs Wire.Header Rtt.Rtte Mtu.SegSizes
  Rx.Rx Tx.Ring Tx.Segments Conn.Recovery Conn.Msg Conn.VSockRec Conn.VSock Conn.VSockRun Conn.VObs
  Conn.VSock_Lemmas Conn.C07_Pred.


Section WithCC.
Context {CC : Type} (cci : cc_iface CC).
Notation vsock := (vsock CC).

(* ------------------------------------------------------------------ sending one ACK *)
Lemma next_send_fields : forall (s : vsock) n s0 o,
  next_send s n = (s0, o) ->
  v_cbu s0 = v_cbu s /\ v_ss s0 = v_ss s /\ v_rx s0 = v_rx s /\ v_state s0 = v_state s /\
  v_last_consumed s0 = v_last_consumed s /\ v_out s0 = v_out s /\
  v_last_sent_window s0 = v_last_sent_window s /\ v_last_sent_ack_nr s0 = v_last_sent_ack_nr s /\
  v_t_ack_delay s0 = v_t_ack_delay s /\ v_transport_pending s0 = v_transport_pending s /\
  v_now s0 = v_now s.
Proof.
  intros s n s0 o H. unfold next_send in H.
  repeat break_match_hyp H; inversion H; subst; try inversion Heqp; subst;
    repeat split; exact eq_refl.
Qed.

(* an ACK that went out: what it carries and what it resets *)
Lemma send_ack_sent : forall (s s1 : vsock) b,
  send_ack s = SOk s1 b -> v_transport_pending s1 = false ->
  v_cbu s1 = 0 /\ v_t_ack_delay s1 = None /\ v_last_sent_window s1 = rx_window s /\
  v_last_sent_ack_nr s1 = v_last_consumed s /\
  v_ss s1 = v_ss s /\ v_rx s1 = v_rx s /\ v_state s1 = v_state s /\
  v_last_consumed s1 = v_last_consumed s /\
  exists p, v_out s1 = p :: v_out s /\ ch_type (p_hdr p) = ST_STATE /\
            ch_ack (p_hdr p) = v_last_consumed s /\ p_payload p = [].
Proof.
  intros s s1 b H T. unfold send_ack, send_control_packet in H.
  destruct (v_transport_pending s) eqn:P; [inversion H; subst; congruence|].
  destruct (next_send s _) as [s0 o] eqn:E.
  apply next_send_fields in E.
  destruct E as (E1 & E2 & E3 & E4 & E5 & E6 & E7 & E8 & E9 & E10 & E11).
  destruct o; try discriminate.
  - inversion H; subst. unfold on_packet_sent, emit. vsimpl_goal.
    cbn [hdr_with outgoing_header ch_ack ch_wnd ch_type p_hdr p_payload].
    repeat split; auto.
    eexists. split; [rewrite E6; reflexivity|]. repeat split; reflexivity.
  - inversion H; subst. vsimpl. discriminate.
Qed.

(* ------------------------------------------------------------------ (a) no immediate-ACK
   obligation survives a completed poll *)
Lemma rx_window_eq : forall (a b : vsock),
  v_rx a = v_rx b -> v_ss a = v_ss b -> rx_window a = rx_window b.
Proof. intros a b R S. unfold rx_window. rewrite R, S. reflexivity. Qed.

Lemma maybe_send_ack_no_immediate : forall (s s1 : vsock) b,
  1 <= mss (v_ss s) ->
  maybe_send_ack s = SOk s1 b -> v_transport_pending s1 = false ->
  immediate_ack_to_transmit s1 = false /\ should_send_window_update s1 = false.
Proof.
  intros s s1 b M H T. unfold maybe_send_ack in H.
  assert (Sent : send_ack s = SOk s1 b ->
                 immediate_ack_to_transmit s1 = false /\ should_send_window_update s1 = false).
  { intros E. apply send_ack_sent in E; [|exact T].
    destruct E as (C & _ & W & _ & Ss & Rx & St & _).
    unfold immediate_ack_to_transmit, should_send_window_update, IMMEDIATE_ACK_EVERY_RMSS.
    rewrite C, Ss, St, W. rewrite (rx_window_eq s1 s Rx Ss).
    split; [lia|]. destruct (is_remote_fin_or_later _); [reflexivity|]. apply xorb_nilpotent. }
  destruct (immediate_ack_to_transmit s) eqn:I; [auto|].
  destruct (should_send_window_update s) eqn:W; [auto|].
  destruct (timer_expired _ _).
  - destruct (ack_to_transmit s); [auto|]. inversion H; subst. split; assumption.
  - destruct (0 <? v_cbu s); inversion H; subst; split; assumption.
Qed.

Theorem c07_no_pending_immediate_ack_lemma : forall (s s' : vsock),
  1 <= mss (v_ss s) ->
  poll cci s = (s', PollPending) -> v_transport_pending s' = false ->
  immediate_ack_to_transmit s' = false /\ should_send_window_update s' = false /\
  v_cbu s' < 2 * mss (v_ss s').
Proof.
  intros s s' M H T.
  cut (immediate_ack_to_transmit s' = false /\ should_send_window_update s' = false).
  { intros (I & W). repeat split; auto.
    unfold immediate_ack_to_transmit, IMMEDIATE_ACK_EVERY_RMSS in I. lia. }
  apply poll_pending_inv in H; [|exact T].
  destruct H as (sa & sb & b & _ & _ & _ & Ms & _ & E & Tb & S).
  apply maybe_send_ack_no_immediate in E; [|lia|exact Tb].
  destruct (poll_tail_fields sb) as (C & Ss & Rx & St & W & _).
  subst s'. unfold immediate_ack_to_transmit, should_send_window_update in *.
  rewrite C, Ss, St, W. rewrite (rx_window_eq (poll_tail sb) sb Rx Ss). exact E.
Qed.


(* ------------------------------------------------------------------ mss >= 1 is an invariant *)
Definition mss_pos (s : vsock) : Prop := 1 <= mss (v_ss s).

Lemma mss_pos_vsock_new : forall mk c s, vsock_new cci mk c = Some s -> mss_pos s.
Proof.
  intros mk c s H. unfold vsock_new in H.
  destruct (match (if vc_incoming c then None else _) with Some r => _ | None => _ end); [|discriminate].
  inversion H; subst. unfold mss_pos. cbn [v_ss]. apply mss_ss_new_pos.
Qed.

Lemma mss_pos_vstep : forall s o, mss_pos s -> mss_pos (vstep_state cci s o).
Proof. intros s o M. unfold mss_pos in *. destruct (vstep_keeps cci s o) as (_ & _ & K). lia. Qed.

(* ------------------------------------------------------------------ (b) delayed ACK *)
Lemma maybe_send_ack_out_nil : forall (s s1 : vsock) b,
  maybe_send_ack s = SOk s1 b -> v_out s1 = [] -> v_out s = [].
Proof.
  intros s s1 b H O. pose proof (maybe_send_ack_frame0 s) as F. rewrite H in F.
  destruct F as (_ & _ & _ & _ & _ & l & F). rewrite O in F. symmetry in F.
  apply app_eq_nil in F. apply F.
Qed.

(* after maybe_send_ack with a writable transport: unacknowledged consumed bytes (that the
   sequence comparison recognises as such) leave the timer armed, within ACK_DELAY of now and
   never later than before when no packet went out *)
Lemma maybe_send_ack_delayed : forall (s s1 : vsock) b,
  maybe_send_ack s = SOk s1 b -> v_transport_pending s1 = false ->
  (0 < v_cbu s1 -> ack_to_transmit s1 = true) -> 0 < v_cbu s1 ->
  exists e, v_t_ack_delay s1 = Some e /\ e <= v_now s + ACK_DELAY /\
            (v_out s1 = v_out s -> forall e0, v_t_ack_delay s = Some e0 -> e <= e0).
Proof.
  intros s s1 b H T Pre C. unfold maybe_send_ack in H.
  assert (Sent : send_ack s = SOk s1 b -> False).
  { intros E. apply send_ack_sent in E; [|exact T]. destruct E as (C0 & _). lia. }
  destruct (immediate_ack_to_transmit s); [exfalso; auto|].
  destruct (should_send_window_update s); [exfalso; auto|].
  destruct (timer_expired _ _) eqn:X.
  - destruct (ack_to_transmit s) eqn:A; [exfalso; auto|].
    inversion H; subst. exfalso. specialize (Pre C). unfold ack_to_transmit in *.
    cbn [v_last_consumed v_last_sent_ack_nr set_t_ack_delay] in Pre. congruence.
  - destruct (0 <? v_cbu s) eqn:Z; inversion H; subst.
    + cbn [v_t_ack_delay set_t_ack_delay]. unfold timer_arm.
      destruct (v_t_ack_delay s) as [e0|].
      * exists (Z.min e0 (v_now s + ACK_DELAY)). split; [reflexivity|]. split; [lia|].
        intros _ e1 E1. inversion E1; subst. lia.
      * exists (v_now s + ACK_DELAY). split; [reflexivity|]. split; [lia|]. intros _ e1 E1. discriminate.
    + lia.
Qed.

Theorem c07_delayed_ack_armed_lemma : forall (s s' : vsock),
  poll cci s = (s', PollPending) -> v_transport_pending s' = false ->
  (0 < v_cbu s' -> ack_to_transmit s' = true) -> 0 < v_cbu s' ->
  exists e, v_t_ack_delay s' = Some e /\ e <= v_env_now s + 40000000 /\
            (v_out s' = [] -> forall e0, v_t_ack_delay s = Some e0 -> e <= e0).
Proof.
  intros s s' H T Pre C. apply poll_pending_inv in H; [|exact T].
  destruct H as (sa & sb & b & _ & _ & Now & _ & Ack & E & Tb & S).
  destruct (poll_tail_fields sb) as (F1 & _ & _ & _ & _ & F6 & _ & F8 & F9 & F10 & _).
  subst s'. unfold ack_to_transmit in Pre. rewrite F1, F8, F9 in Pre. rewrite F1 in C.
  destruct (maybe_send_ack_delayed sa sb b E Tb Pre C) as (e & E1 & E2 & E3).
  exists e. rewrite F6. split; [exact E1|]. split; [unfold ACK_DELAY in E2; lia|].
  rewrite F10. intros O e0 E0.
  pose proof (maybe_send_ack_out_nil sa sb b E O) as L.
  apply (E3 (eq_trans O (eq_sym L))). rewrite (Ack L). exact E0.
Qed.

(* at/after the expiry: an ACK goes out, or the transport blocks, or nothing was owed *)
Lemma maybe_send_ack_fires : forall (s : vsock),
  timer_expired (v_t_ack_delay s) (v_now s) = true -> v_transport_pending s = false ->
  match maybe_send_ack s with
  | SOk s1 sent =>
      (sent = true /\ exists p, v_out s1 = p :: v_out s /\ ch_type (p_hdr p) = ST_STATE /\
                               ch_ack (p_hdr p) = v_last_consumed s) \/
      (sent = false /\ v_transport_pending s1 = true) \/
      (sent = false /\ ack_to_transmit s = false /\ v_t_ack_delay s1 = None /\ v_out s1 = v_out s)
  | SErr _ e => e = ErrSend
  | SPanic => False
  end.
Proof.
  intros s X T. unfold maybe_send_ack. rewrite X.
  assert (G : match send_ack s with
              | SOk s1 sent =>
                  (sent = true /\ exists p, v_out s1 = p :: v_out s /\ ch_type (p_hdr p) = ST_STATE /\
                                           ch_ack (p_hdr p) = v_last_consumed s) \/
                  (sent = false /\ v_transport_pending s1 = true) \/
                  (sent = false /\ ack_to_transmit s = false /\ v_t_ack_delay s1 = None /\ v_out s1 = v_out s)
              | SErr _ e => e = ErrSend
              | SPanic => False
              end).
  { unfold send_ack, send_control_packet. rewrite T.
    destruct (next_send s _) as [s0 o] eqn:N.
    pose proof (next_send_fields _ _ _ _ N) as (_ & _ & _ & _ & _ & O & _ & _ & _ & P & _).
    destruct o; try reflexivity.
    - left. split; [reflexivity|]. eexists. unfold on_packet_sent, emit. vsimpl_goal.
      split; [rewrite O; reflexivity|]. split; reflexivity.
    - right; left. split; reflexivity. }
  destruct (immediate_ack_to_transmit s); [exact G|].
  destruct (should_send_window_update s); [exact G|].
  destruct (ack_to_transmit s); [exact G|].
  right; right. repeat split; reflexivity.
Qed.


Lemma cons_neq_self : forall A (x : A) l, x :: l <> l.
Proof. intros A x l H. apply (f_equal (@length A)) in H. cbn [length] in H. lia. Qed.

Lemma maybe_send_ack_fires_quiet : forall (s s1 : vsock) b,
  maybe_send_ack s = SOk s1 b -> v_transport_pending s1 = false -> v_out s1 = v_out s ->
  timer_expired (v_t_ack_delay s) (v_now s) = true ->
  ack_to_transmit s1 = false /\ v_t_ack_delay s1 = None.
Proof.
  intros s s1 b H T O X. unfold maybe_send_ack in H. rewrite X in H.
  assert (Sent : send_ack s = SOk s1 b -> False).
  { intros E. apply send_ack_sent in E; [|exact T].
    destruct E as (_ & _ & _ & _ & _ & _ & _ & _ & p & P & _). rewrite O in P.
    symmetry in P. exact (cons_neq_self _ _ _ P). }
  destruct (immediate_ack_to_transmit s); [exfalso; auto|].
  destruct (should_send_window_update s); [exfalso; auto|].
  destruct (ack_to_transmit s) eqn:A; [exfalso; auto|].
  inversion H; subst. split; [exact A | reflexivity].
Qed.

Theorem c07_delayed_ack_fires_lemma : forall (s s' : vsock) e0,
  poll cci s = (s', PollPending) -> v_transport_pending s' = false ->
  v_t_ack_delay s = Some e0 -> e0 <= v_env_now s ->
  v_out s' <> [] \/ (ack_to_transmit s' = false /\ v_t_ack_delay s' = None).
Proof.
  intros s s' e0 H T E0 X. apply poll_pending_inv in H; [|exact T].
  destruct H as (sa & sb & b & _ & _ & Now & _ & Ack & E & Tb & S).
  destruct (poll_tail_fields sb) as (_ & _ & _ & _ & _ & F6 & _ & F8 & F9 & F10 & _).
  subst s'. rewrite F10, F6. unfold ack_to_transmit. rewrite F8, F9.
  destruct (v_out sb) as [|p l] eqn:O; [right | left; discriminate].
  pose proof (maybe_send_ack_out_nil sa sb b E O) as L.
  apply (maybe_send_ack_fires_quiet sa sb b E Tb); [congruence|].
  rewrite (Ack L), E0, Now. unfold timer_expired. lia.
Qed.

(* ------------------------------------------------------------------ the predicates hold of every
   step of the model *)
(* a step that c07_poll_done accepts is a poll that returned Pending with the transport writable *)
Lemma poll_done_step : forall (s : vsock) o,
  c07_poll_done (fstep_of cci s o) = true ->
  exists sc s', o = VoPoll sc /\ poll cci (VSockRec.set_sends s sc) = (s', PollPending) /\
                v_transport_pending s' = false /\ v_env_now s' = v_env_now s.
Proof.
  intros s o D.
  destruct o as [| |sc| | | | | | | |];
    try (unfold c07_poll_done in D; rewrite fstep_of_event in D; discriminate D).
  destruct (poll cci (VSockRec.set_sends s sc)) as [s' r] eqn:E.
  rewrite (fstep_of_poll cci s sc s' r E) in D. unfold c07_poll_done in D.
  cbn [fs_event fs_result fs_post fp_of_vsock f_transport_pending] in D.
  exists sc, s'. destruct r; try discriminate.
  destruct (v_transport_pending s'); [discriminate|].
  destruct (poll_pframe0 cci _ _ _ E) as (_ & N & _). auto.
Qed.

Lemma pkts_nil (l : list packet) : map fpacket_of (rev l) = [] -> l = [].
Proof.
  intros E. apply map_eq_nil in E. destruct l as [|p l]; [reflexivity|].
  cbn [rev] in E. apply app_eq_nil in E. destruct E; discriminate.
Qed.

Theorem c07_immediate_ok_step : forall cfg (s : vsock) o,
  mss_pos s -> c07_immediate_ok cfg (fstep_of cci s o) = true.
Proof.
  intros cfg s o M. unfold c07_immediate_ok.
  destruct (c07_poll_done (fstep_of cci s o)) eqn:D; [|reflexivity].
  destruct (poll_done_step s o D) as (sc & s' & -> & E & T & _).
  rewrite (fstep_of_poll cci s sc s' _ E). cbn [fs_post fp_of_vsock f_cbu f_mss].
  destruct (c07_no_pending_immediate_ack_lemma (VSockRec.set_sends s sc) s' M E T) as (_ & _ & I). lia.
Qed.

Theorem c07_delayed_ok_step : forall cfg (s : vsock) o,
  c07_delayed_ok cfg (fstep_of cci s o) = true.
Proof.
  intros cfg s o. unfold c07_delayed_ok.
  destruct (c07_poll_done (fstep_of cci s o)) eqn:D; [|reflexivity].
  destruct (poll_done_step s o D) as (sc & s' & -> & E & T & N).
  rewrite (fstep_of_poll cci s sc s' _ E). unfold c07_pre, c07_pkts.
  cbn [fs_post fs_pre fs_now fs_result fp_of_vsock f_cbu f_last_consumed f_last_sent_ack_nr f_t_ack_delay].
  destruct (0 <? v_cbu s') eqn:C; [|rewrite andb_false_r; reflexivity].
  destruct (seq_gt (v_last_consumed s') (v_last_sent_ack_nr s')) eqn:A; [|reflexivity].
  cbn [andb]. apply Z.ltb_lt in C.
  destruct (c07_delayed_ack_armed_lemma _ s' E T (fun _ => A) C) as (e & E1 & E2 & E3).
  rewrite E1, N. change (v_env_now (VSockRec.set_sends s sc)) with (v_env_now s) in E2.
  apply andb_true_intro. split; [lia|].
  destruct (map fpacket_of (rev (v_out s'))) eqn:O; [|reflexivity].
  destruct (v_t_ack_delay s) as [e0|] eqn:E0; [|reflexivity].
  specialize (E3 (pkts_nil _ O) e0 E0). lia.
Qed.

Theorem c07_fires_ok_step : forall cfg (s : vsock) o,
  c07_fires_ok cfg (fstep_of cci s o) = true.
Proof.
  intros cfg s o. unfold c07_fires_ok.
  destruct (c07_poll_done (fstep_of cci s o)) eqn:D; [|reflexivity].
  destruct (poll_done_step s o D) as (sc & s' & -> & E & T & N).
  rewrite (fstep_of_poll cci s sc s' _ E). unfold c07_pkts.
  cbn [fs_post fs_pre fs_now fs_result fp_of_vsock f_last_consumed f_last_sent_ack_nr f_t_ack_delay].
  destruct (v_t_ack_delay s) as [e0|] eqn:E0; [|reflexivity].
  rewrite N. destruct (Z.leb_spec e0 (v_env_now s)) as [X|X]; [|reflexivity].
  destruct (map fpacket_of (rev (v_out s'))) eqn:O; [|reflexivity].
  destruct (c07_delayed_ack_fires_lemma _ s' e0 E T E0 X) as [F|(F1 & F2)];
    [elim F; exact (pkts_nil _ O)|].
  unfold ack_to_transmit in F1. rewrite F1, F2. reflexivity.
Qed.

(* the fingerprint's window is the one rx_window computes *)
Lemma fp_rx_window_spec (s : vsock) : fp_rx_window (fp_of_vsock cci s) = rx_window s.
Proof.
  unfold fp_rx_window, rx_window, remaining_rx_window.
  cbn [fp_of_vsock f_rx_reader_dropped f_rx_last_remaining f_rx_len_bytes f_mss]. reflexivity.
Qed.

Theorem c07_window_update_ok_step : forall cfg (s : vsock) o,
  mss_pos s -> c07_window_update_ok cfg (fstep_of cci s o) = true.
Proof.
  intros cfg s o M. unfold c07_window_update_ok.
  destruct (c07_poll_done (fstep_of cci s o)) eqn:D; [|reflexivity].
  destruct (poll_done_step s o D) as (sc & s' & -> & E & T & _).
  rewrite (fstep_of_poll cci s sc s' _ E).
  cbn [fs_post andb]. rewrite fp_rx_window_spec.
  cbn [fp_of_vsock f_state f_last_sent_window].
  destruct (c07_no_pending_immediate_ack_lemma (VSockRec.set_sends s sc) s' M E T) as (_ & W & _).
  unfold should_send_window_update in W.
  destruct (is_remote_fin_or_later (v_state s')); [reflexivity|]. cbn [negb].
  destruct (rx_window s' =? 0), (v_last_sent_window s' =? 0); cbn in W |- *; congruence.
Qed.

Theorem c07_window_update_ok_trace : forall cfg ops (s : vsock),
  mss_pos s -> forallb (c07_window_update_ok cfg) (ftrace cci s ops) = true.
Proof.
  intros cfg. apply (ftrace_forallb cci mss_pos).
  - intros s o M. apply c07_window_update_ok_step; exact M.
  - apply mss_pos_vstep.
Qed.

(* along every trace from a state with mss >= 1 (every state built by vsock_new) *)
Theorem c07_immediate_ok_trace : forall cfg ops (s : vsock),
  mss_pos s -> forallb (c07_immediate_ok cfg) (ftrace cci s ops) = true.
Proof.
  intros cfg. apply (ftrace_forallb cci mss_pos).
  - intros s o M. apply c07_immediate_ok_step; exact M.
  - apply mss_pos_vstep.
Qed.

Theorem c07_delayed_ok_trace : forall cfg ops (s : vsock),
  forallb (c07_delayed_ok cfg) (ftrace cci s ops) = true.
Proof.
  intros cfg ops s. apply (ftrace_forallb cci (fun _ => True)); auto.
  intros s0 o _. apply c07_delayed_ok_step.
Qed.

Theorem c07_fires_ok_trace : forall cfg ops (s : vsock),
  forallb (c07_fires_ok cfg) (ftrace cci s ops) = true.
Proof.
  intros cfg ops s. apply (ftrace_forallb cci (fun _ => True)); auto.
  intros s0 o _. apply c07_fires_ok_step.
Qed.

End WithCC.
