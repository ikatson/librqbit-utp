(* C05: every segment of the table holds at least one byte - an invariant of every state reached through
   Pending polls ([sp_vstep_live]); with it the zero-window clause: a zero budget sends nothing. *)
From Utp Require Import Base.Prelude Wire.SeqNr Wire.Header Rtt.Rtte Mtu.SegSizes Rx.Rx Tx.Ring
  Tx.Segments Tx.Segments_Proofs Conn.Recovery Conn.Msg Conn.VSockRec Conn.VSock Conn.VSockRun Conn.VObs
  Conn.VSock_Lemmas Conn.VSock_LemmasTx Conn.VSock_LemmasIn Conn.VSock_LemmasStep Conn.VSock_PollAux
  Conn.C17_StepLemmas Conn.C07_Proofs Conn.C05_Pred Conn.C05_Proofs Conn.C05_StepLemmas.

Definition lpos (l : list seg) : Prop := Forall (fun g => 1 <= sg_size g) l.

Lemma ev_lpos l l' : Forall2 seg_ev l l' -> lpos l -> lpos l'.
Proof.
  unfold lpos. induction 1 as [|x y xs ys (_ & Hs & _) _ IH]; intro H; [constructor|].
  inversion H; subst. constructor; [lia|auto].
Qed.

Lemma lpos_app a b : lpos (a ++ b) <-> lpos a /\ lpos b.
Proof. unfold lpos. apply Forall_app. Qed.

Lemma remove_up_to_ack_pos t now ack sk t' r :
  remove_up_to_ack t now ack sk = (t', r) -> segs_pos t -> segs_pos t'.
Proof.
  intros H Hp. destruct (remove_up_to_ack_struct _ _ _ _ _ _ H) as (a & b & d & E & Hev & _).
  unfold segs_pos in *. fold (lpos (ss_segs t)) in Hp. fold (lpos (ss_segs t')).
  rewrite E in Hp. apply lpos_app in Hp. destruct Hp as [_ Hb].
  apply (ev_lpos _ _ Hev) in Hb. apply lpos_app in Hb. apply Hb.
Qed.

Lemma calc_pipe_pos t hr hd rtt now t' p rc :
  calc_pipe t hr hd rtt now = Some (t', p, rc) -> segs_pos t -> segs_pos t'.
Proof. intros H Hp. destruct (calc_pipe_ev _ _ _ _ _ _ _ _ H) as (Hev & _). exact (ev_lpos _ _ Hev Hp). Qed.

Lemma on_sent_pos t i now : segs_pos t -> segs_pos (on_sent t i now).
Proof.
  unfold segs_pos, on_sent, Segments.set_segs; cbn [ss_segs]. intro H.
  assert (E : map sg_size (update_nth (ss_segs t) i (fun s => seg_on_sent s now)) = map sg_size (ss_segs t))
    by (apply map_update_nth; intro x; reflexivity).
  revert E H. generalize (update_nth (ss_segs t) i (fun s => seg_on_sent s now)) as l'.
  generalize (ss_segs t) as l. induction l as [|x xs IH]; intros [|y ys] E H; cbn [map] in E; try discriminate.
  - constructor.
  - injection E as E1 E2. inversion H; subst. constructor; [lia|eapply IH; eauto].
Qed.

Lemma last_and_init_pos (l init : list seg) g : last_and_init l = Some (init, g) -> lpos l -> lpos init.
Proof.
  intros H Hp. apply Segments_ProofsOut.last_and_init_app in H. rewrite H in Hp. apply lpos_app in Hp. apply Hp.
Qed.

Lemma pop_mtu_probe_pos t q t' b : pop_mtu_probe t q = (t', b) -> segs_pos t -> segs_pos t'.
Proof.
  unfold pop_mtu_probe. destruct (last_and_init (ss_segs t)) as [[init g]|] eqn:E.
  - destruct (_ && _); intro H; injection H as <- _; [|auto].
    intro Hp. unfold segs_pos, Segments.set_segs; cbn [ss_segs]. eapply last_and_init_pos; eauto.
  - intro H; injection H as <- _. auto.
Qed.

Lemma pop_expired_pos t to mr t' pe : pop_expired_mtu_probe t to mr = (t', pe) -> segs_pos t -> segs_pos t'.
Proof.
  unfold pop_expired_mtu_probe. destruct (last_and_init (ss_segs t)) as [[init g]|] eqn:E.
  - destruct (sg_delivered g); [intro H; injection H as <- _; auto|].
    destruct (to && sg_probe g && (mr <=? seg_retransmit_count g));
      [|destruct (sg_probe g); intro H; injection H as <- _; auto].
    intro H; injection H as <- _. intro Hp. unfold segs_pos, Segments.set_segs; cbn [ss_segs].
    eapply last_and_init_pos; eauto.
  - intro H; injection H as <- _. auto.
Qed.

(* sizes and the range of snd_una together *)
Definition tpos (t : segments) : Prop := segs_pos t /\ 0 <= ss_snd_una t < M16.

Lemma remove_up_to_ack_tpos t now ack sk t' r :
  remove_up_to_ack t now ack sk = (t', r) -> tpos t -> tpos t'.
Proof.
  intros H [Hp _]. split; [eapply remove_up_to_ack_pos; eauto|].
  destruct (remove_up_to_ack_struct _ _ _ _ _ _ H) as (a & b & d & _ & _ & _ & E).
  rewrite E. unfold wadd16, M16. lia.
Qed.

Lemma calc_pipe_tpos t hr hd rtt now t' p rc :
  calc_pipe t hr hd rtt now = Some (t', p, rc) -> tpos t -> tpos t'.
Proof.
  intros H [Hp Hu]. split; [eapply calc_pipe_pos; eauto|].
  destruct (calc_pipe_ev _ _ _ _ _ _ _ _ H) as (_ & E & _). rewrite E. exact Hu.
Qed.

Lemma on_sent_tpos t i now : tpos t -> tpos (on_sent t i now).
Proof. intros [Hp Hu]. split; [apply on_sent_pos; exact Hp|exact Hu]. Qed.

Lemma pop_mtu_probe_tpos t q t' b : pop_mtu_probe t q = (t', b) -> tpos t -> tpos t'.
Proof.
  intros H [Hp Hu]. split; [eapply pop_mtu_probe_pos; eauto|].
  unfold pop_mtu_probe in H. destruct (last_and_init (ss_segs t)) as [[init g]|].
  - destruct (_ && _); injection H as <- _; exact Hu.
  - injection H as <- _; exact Hu.
Qed.

Lemma pop_expired_tpos t to mr t' pe : pop_expired_mtu_probe t to mr = (t', pe) -> tpos t -> tpos t'.
Proof.
  intros H [Hp Hu]. split; [eapply pop_expired_pos; eauto|].
  unfold pop_expired_mtu_probe in H. destruct (last_and_init (ss_segs t)) as [[init g]|].
  - destruct (sg_delivered g); [injection H as <- _; exact Hu|].
    destruct (to && sg_probe g && (mr <=? seg_retransmit_count g));
      [|destruct (sg_probe g)]; injection H as <- _; exact Hu.
  - injection H as <- _; exact Hu.
Qed.

Lemma segment_loop_una : forall fuel nagle ss segs rm rwr ss' segs' rm',
  segment_loop fuel nagle ss segs rm rwr = Some (ss', segs', rm') -> ss_snd_una segs' = ss_snd_una segs.
Proof.
  induction fuel as [|b fuel IH]; intros nagle ss segs rm rwr ss' segs' rm'; cbn [segment_loop].
  - intro H; injection H as _ <- _. reflexivity.
  - destruct (_ && _); [|intro H; injection H as _ <- _; reflexivity].
    destruct (next_segment_size ss) as [[ss1 sz]|]; [|discriminate].
    destruct (nagle && _ && _); [intro H; injection H as _ <- _; reflexivity|].
    destruct (mss ss1 <? _).
    + intro H; injection H as _ <- _. reflexivity.
    + intro H. apply IH in H. rewrite H. reflexivity.
Qed.

Section WithCC.
Context {CC : Type} (cci : cc_iface CC).
Notation vsock := (vsock CC).

Definition sp (s : vsock) : Prop := 1 <= mss (v_ss s) /\ tpos (v_segs s).
Definition spR (s s' : vsock) : Prop := sp s -> sp s'.

Lemma spR_refl s : spR s s.
Proof. intro H; exact H. Qed.
Lemma spR_trans a b c : spR a b -> spR b c -> spR a c.
Proof. intros F G H. auto. Qed.

Lemma spR_same (s s' : vsock) : v_ss s' = v_ss s -> v_segs s' = v_segs s -> spR s s'.
Proof. intros E1 E2 H. unfold sp. rewrite E1, E2. exact H. Qed.

Lemma SQ_spR (s s' : vsock) : SQ s s' -> spR s s'.
Proof. intros (_&_&_&_&_&A6&_&_&_&A10&_). apply spR_same; assumption. Qed.

Lemma stk_SQ_spR {A} (s : vsock) (m : step A) : stk SQ s m -> stRk spR s m.
Proof. destruct m; cbn [stk stRk]; auto using SQ_spR. Qed.

Ltac sp_same := apply spR_same; exact eq_refl.

Lemma recovery_on_ack_pos r h segs ls cc now rtt r' segs' cc' :
  recovery_on_ack cci r h segs ls cc now rtt = Some (r', segs', cc') -> tpos segs -> tpos segs'.
Proof.
  intros H Hp. unfold recovery_on_ack in H. cbn [rv_phase] in H. destruct (rv_phase r).
  - destruct (seq_ge _ _); inversion H; subst; exact Hp.
  - destruct (ss_segs segs) eqn:Es; [inversion H; subst; exact Hp|].
    match type of H with match ?c with _ => _ end = _ => destruct c as [[dup' la']|] end; [|discriminate].
    destruct (_ <? _); [inversion H; subst; exact Hp|].
    destruct (calc_pipe _ _ _ _ _) as [[[sg pipe] recalc]|] eqn:Ec; [|discriminate].
    inversion H; subst. eapply calc_pipe_tpos; eauto.
  - destruct (seq_ge _ _); inversion H; subst; exact Hp.
Qed.

Lemma pim_ack_spR s1 h s2 res : pim_ack cci s1 h = Some (s2, res) -> spR s1 s2.
Proof.
  unfold pim_ack. destruct (remove_up_to_ack _ _ _ _) as [segs1 res0] eqn:Er.
  destruct (match is_recovering (v_recovery s1) with true => _ | false => _ end) as [rtte1|]; [|discriminate].
  destruct (cc_on_ack cci _ _ _ _) as [cc3|]; [|discriminate].
  destruct (recovery_on_ack cci _ _ _ _ _ _ _) as [[[rec1 segs2] cc4]|] eqn:Eo; [|discriminate].
  intro H; injection H as <- _. intros [H1 H2]. unfold sp. vsimpl_goal. split.
  - pose proof (mss_on_payload_delivered (v_ss s1) (ar_max_acked_payload res0)). lia.
  - eapply recovery_on_ack_pos; [exact Eo|]. eapply remove_up_to_ack_tpos; eauto.
Qed.

Lemma pim_data_spR s2 m res offset : stRk spR s2 (pim_data cci s2 m res offset).
Proof.
  unfold pim_data. destruct (offset <? 0).
  { cbn [stRk]. unfold force_immediate_ack. sp_same. }
  cbv zeta.
  destruct (rx_add_remove _ KData (m_payload m) offset) as [[rx1 ar] w].
  set (s4 := add_wakes _ _).
  assert (H4 : spR s2 s4).
  { unfold s4, add_wakes. intros [H1 H2]. unfold sp. vsimpl_goal. split; [|exact H2].
    pose proof (mss_on_payload_delivered (v_ss s2) (Z.of_nat (length (m_payload m)))). lia. }
  clearbody s4.
  destruct ar as [r|]; [|exact I].
  destruct (add_err r); [exact I|].
  set (s5 := match r with ArConsumed _ _ => _ | _ => s4 end).
  assert (H5 : spR s2 s5).
  { eapply spR_trans; [exact H4|]. unfold s5, restart_remote_inactivity_timer. destruct r; sp_same. }
  clearbody s5.
  destruct (_ || _); [|exact H5].
  pose proof (send_ack_SQ (force_immediate_ack s5)) as Ha.
  destruct (send_ack (force_immediate_ack s5)) as [s6 b|s6 e|]; cbn [sbind stk stRk] in *; auto.
  eapply spR_trans; [exact H5|]. eapply spR_trans; [|apply SQ_spR; exact Ha].
  unfold force_immediate_ack. sp_same.
Qed.

Lemma pim_fin_spR s2 m res offset seen : stRk spR s2 (pim_fin s2 m res offset seen).
Proof.
  unfold pim_fin. cbv zeta. destruct (_ && _).
  - destruct (rx_add_remove _ KFin _ _) as [[rx1 ar] w].
    destruct ar as [r|]; [|exact I].
    destruct (add_err r); [exact I|].
    destruct (mark_vsock_closed _) as [tx1 w2]. cbn [stRk].
    unfold add_wakes, force_immediate_ack. sp_same.
  - cbn [stRk]. unfold force_immediate_ack. sp_same.
Qed.

Lemma stRk_weaken (R : vsock -> vsock -> Prop) (Rt : forall a b c, R a b -> R b c -> R a c)
  {A} (m : step A) s0 s : R s0 s -> stRk R s m -> stRk R s0 m.
Proof. intros H Hm. destruct m; cbn [stRk] in *; auto. eapply Rt; eauto. Qed.

Lemma stRk_bind (R : vsock -> vsock -> Prop) (Rt : forall a b c, R a b -> R b c -> R a c)
  {A X} (m : step A) (f : vsock -> A -> step X) s :
  stRk R s m -> (forall s1 a, stRk R s1 (f s1 a)) -> stRk R s (sbind m f).
Proof.
  intros Hm Hf. destruct m as [s1 a|s1 e|]; cbn [sbind stRk] in *; auto.
  specialize (Hf s1 a). destruct (f s1 a); cbn [stRk] in *; auto. eapply Rt; eauto.
Qed.

Lemma state_table_spR (s : vsock) h : spR s (tbl_state (state_table s h)).
Proof.
  unfold state_table, restart_remote_inactivity_timer.
  destruct (ch_type h); destruct (v_state s); cbn [tbl_state negb];
    repeat (match goal with |- context [if ?c then _ else _] => destruct c end);
    cbn [tbl_state]; sp_same.
Qed.

Lemma process_incoming_message_spR s m : stRk spR s (process_incoming_message cci s m).
Proof.
  rewrite process_incoming_message_eq.
  pose proof (state_table_spR s (m_hdr m)) as Ht.
  destruct (state_table s (m_hdr m)) as [s1|s1 e|s1]; cbn [tbl_state] in Ht; [exact Ht|exact I|].
  eapply (stRk_weaken spR spR_trans); [exact Ht|].
  unfold pim_cont. destruct (pim_ack cci s1 (m_hdr m)) as [[s2 res]|] eqn:Ea; [|exact I].
  pose proof (pim_ack_spR _ _ _ _ Ea) as H2. cbv zeta.
  destruct (ch_type (m_hdr m)); try exact H2.
  - eapply (stRk_weaken spR spR_trans); [exact H2|apply pim_data_spR].
  - eapply (stRk_weaken spR spR_trans); [exact H2|apply pim_fin_spR].
Qed.

Lemma maybe_send_fin_spR (s : vsock) : stRk spR s (maybe_send_fin s).
Proof.
  pose proof (maybe_send_fin_spec s) as H.
  destruct (maybe_send_fin s) as [s' [|]|s' e|]; cbn [stRk]; auto.
  - destruct H as (seq & _ & _ & Hf & _ & Hsg & _).
    unfold sd_frame in Hf. destruct Hf as (F1 & F2 & F3 & F4 & F5 & F6 & F7 & F8 & F9 & _).
    apply spR_same; assumption.
  - apply SQ_spR, sd_unchanged_SQ. exact H.
Qed.

Lemma recv_loop_spR : forall fuel (s : vsock) acc, stRk spR s (recv_loop cci fuel s acc).
Proof.
  assert (Hbase : forall (s : vsock) (acc : on_ack_result),
    stRk spR s
      (if v_inbox_closed s
       then sbind (maybe_send_fin (transition_to_fin_wait_1 s))
                  (fun s2 _ => SOk (set_state s2 Closed) (acc, true))
       else SOk (set_inbox_waker s true) (acc, false))).
  { intros s acc. destruct (v_inbox_closed s); [|cbn [stRk]; sp_same].
    eapply (stRk_weaken spR spR_trans); [apply SQ_spR, transition_to_fin_wait_1_SQ|].
    apply (stRk_bind spR spR_trans); [apply maybe_send_fin_spR|]. intros s2 _. cbn [stRk]. sp_same. }
  induction fuel as [|m0 fuel IH]; intros s acc; cbn [recv_loop];
    destruct (v_inbox s) as [|m rest] eqn:Ei; try apply Hbase; try exact I.
  eapply (stRk_weaken spR spR_trans) with (s := set_inbox s rest); [sp_same|].
  apply (stRk_bind spR spR_trans); [apply process_incoming_message_spR|].
  intros s1 r. destruct (_ || _); [apply spR_refl|apply IH].
Qed.

Lemma process_all_spR (s : vsock) : stRk spR s (process_all_incoming_messages cci s).
Proof.
  rewrite process_all_eq. apply (stRk_bind spR spR_trans); [apply recv_loop_spR|].
  intros s1 [r early]. rewrite pa_tail_eq.
  apply (stRk_bind spR spR_trans).
  - unfold pa_trunc.
    assert (F2 : spR s1 (pa_reset r s1)).
    { unfold pa_reset. destruct (_ || _); [|apply spR_refl].
      destruct (ss_segs _); [destruct (our_fin_if_unacked _)|]; unfold restart_remote_inactivity_timer; sp_same. }
    eapply (stRk_weaken spR spR_trans); [exact F2|].
    destruct (0 <? _); [|apply spR_refl]. cbv zeta.
    assert (Ha : spR (pa_reset r s1) (acked_counts_as_sent (pa_reset r s1))).
    { unfold acked_counts_as_sent. destruct (seq_gt _ _ && seq_lt _ _); [sp_same|apply spR_refl]. }
    revert Ha. generalize (acked_counts_as_sent (pa_reset r s1)). intros s2' Ha.
    destruct (truncate_front _ _) as [tx1 tr]. destruct tr; [|exact I].
    destruct (wake_writer tx1) as [tx2 w]. cbn [stRk]. eapply spR_trans; [exact Ha|]. unfold add_wakes. sp_same.
  - intros s3 _. unfold pa_pipe. destruct (rv_phase _); try apply spR_refl.
    destruct (calc_pipe _ _ _ _ _) as [[[segs' pipe] recalc]|] eqn:Ec; [|exact I].
    cbn [stRk]. intros [H1 H2]. unfold sp, set_recovering. vsimpl_goal. split; [exact H1|].
    eapply calc_pipe_tpos; eauto.
Qed.

Lemma split_spR (s : vsock) : stRk spR s (split_tx_queue_into_segments cci s).
Proof.
  pose proof (split_tx_spec cci s) as Sp.
  destruct (split_tx_queue_into_segments cci s) as [s' u|s' e|]; cbn [stRk split_post] in *; auto.
  intros [H1 H2]. destruct Sp as (_ & t2 & ss2 & P & L).
  assert (P2 : 1 <= mss ss2 /\ tpos t2).
  { destruct P as [(-> & -> & _)|(rw & ps & Ep & -> & _)]; [auto|].
    split; [rewrite mss_on_probe_failed; exact H1|eapply pop_expired_tpos; eauto]. }
  destruct L as [[Et Es]|(fuel & nagle & rm & rwr & El)]; [unfold sp; rewrite Et, Es; exact P2|].
  destruct P2 as [M [Q1 Q2]]. destruct (segment_loop_pos _ _ _ _ _ _ _ _ _ M Q1 El) as [P1 P3].
  unfold sp. split; [unfold mss in *; lia|]. split; [exact P1|].
  rewrite (segment_loop_una _ _ _ _ _ _ _ _ _ El). exact Q2.
Qed.

Lemma send_data_spR (s : vsock) h f : stRk spR s (send_data s h f).
Proof.
  pose proof (send_data_spec s h f) as H.
  destruct (send_data s h f) as [s' [| |]|s' e|]; cbn [stRk]; auto.
  - destruct H as (Hf & _ & Hs & _). unfold sd_frame in Hf.
    destruct Hf as (F1 & F2 & F3 & F4 & F5 & F6 & F7 & F8 & F9 & _).
    intros [H1 H2]. unfold sp. rewrite F9, Hs. split; [exact H1|apply on_sent_tpos; exact H2].
  - apply SQ_spR, sd_unchanged_SQ. apply H.
  - apply SQ_spR, sd_unchanged_SQ. apply H.
Qed.

Lemma send_tx_queue_spR (s : vsock) : stRk spR s (send_tx_queue cci s).
Proof.
  rewrite send_tx_queue_eq. destruct (v_transport_pending s); [apply spR_refl|].
  apply (stRk_bind spR spR_trans).
  - unfold rto_branch. destruct (timer_expired _ _); [|apply spR_refl].
    destruct (iter_for_sending _ _) as [|f l].
    + destruct (our_fin_if_unacked _); [|cbn [stRk]; sp_same].
      destruct (_ =? _); [|cbn [stRk]; sp_same].
      eapply (stRk_weaken spR spR_trans) with (s := set_last_sent_seq_nr s (wsub16 (v_last_sent_seq_nr s) 1));
        [sp_same|].
      apply (stRk_bind spR spR_trans); [apply maybe_send_fin_spR|].
      intros s1 a. destruct a; [|apply spR_refl].
      destruct (on_rto_reactions cci s1) as [s3|] eqn:E; [|exact I].
      destruct (on_rto_reactions_spec _ _ _ E) as (R1 & R2 & R3 & R4 & R5 & R6 & R7 & R8 & R9 & R10 & R11 & R12 & R13 & R14 & _).
      cbn [stRk]. eapply spR_trans; [apply spR_same; [exact R14|exact R5]|]. sp_same.
    + pose proof (send_data_spR s (outgoing_header s) f) as Hd.
      destruct (send_data _ _ f) as [s1 r|s1 e|]; cbn [stRk] in *; auto.
      destruct r; cbn [stRk]; auto.
      cbv zeta.
      match goal with |- stRk _ _ (match ?o with _ => _ end) => destruct o as [s2|] eqn:E end; [|exact I].
      assert (F2 : spR s1 s2).
      { destruct (negb _); [|injection E as <-; apply spR_refl].
        destruct (on_rto_reactions_spec _ _ _ E) as (R1 & R2 & R3 & R4 & R5 & R6 & R7 & R8 & R9 & R10 & R11 & R12 & R13 & R14 & _).
        apply spR_same; assumption. }
      cbn [stRk]. eapply spR_trans; [exact Hd|]. eapply spR_trans; [exact F2|]. sp_same.
  - intros s1 ret. unfold after_rto_k. destruct ret; [apply spR_refl|].
    destruct (0 <? _); [apply spR_refl|]. destruct (ss_segs _); [apply spR_refl|].
    apply (stRk_bind spR spR_trans).
    + unfold rec_branch. destruct (rv_phase _) as [rp|d|rc]; try apply spR_refl.
      apply (stRk_bind spR spR_trans); [apply (recovery_loop_stk spR spR_refl spR_trans send_data_spR)|].
      intros s2 res.
      destruct (rec_after rc (outgoing_header s) (mss (v_ss s1)) s2 res) as [s' b|s' e|] eqn:E; cbn [stRk]; auto.
      assert (Hs : step_st (rec_after rc (outgoing_header s) (mss (v_ss s1)) s2 res) = Some s') by (rewrite E; reflexivity).
      destruct (rec_after_spec _ _ _ _ _ _ Hs) as (P & A1 & A2 & A3 & A4 & A5 & _).
      apply spR_same; assumption.
    + intros s2 ret. destruct ret; [apply spR_refl|].
      unfold new_branch. apply (stRk_bind spR spR_trans); [apply (new_data_loop_stk spR spR_refl spR_trans send_data_spR)|].
      intros s3 tl. unfold new_after. destruct tl as [[sq sz]|]; [|apply spR_refl].
      destruct (pop_mtu_probe _ _) as [segs' popped] eqn:Ep. destruct popped; cbn [stRk]; [|exact I].
      intros [H1 H2]. unfold sp. vsimpl_goal. split; [exact H1|]. eapply pop_mtu_probe_tpos; eauto.
Qed.

(* ------------------------------------------------------------------ a whole Pending poll, every live event *)
Theorem poll_pending_sp (s s' : vsock) : poll cci s = (s', PollPending) -> sp s -> sp s'.
Proof.
  intros H Hs.
  assert (Hi : sp (poll_init s)) by exact Hs.
  revert Hi. change (spR (poll_init s) s').
  apply (poll_Rp cci spR spR_refl spR_trans) in H.
  - destruct H as [[_ H]|(sa & sb & b & G1 & G2 & G3 & _ & _ & _ & ->)]; [exact H|].
    eapply spR_trans; [exact G1|]. eapply spR_trans; [exact G3|]. apply SQ_spR, poll_tail_SQ.
  - intro s0. apply SQ_spR, poll_start_SQ.
  - intro s0. apply stk_SQ_spR, maybe_send_syn_ack_SQ.
  - intro s0. apply stk_SQ_spR, send_ack_SQ.
  - apply process_all_spR.
  - intros s0 rx1 fb w _. apply SQ_spR, add_wakes_rx_SQ.
  - apply split_spR.
  - apply send_tx_queue_spR.
  - intro s0. apply SQ_spR, transition_to_fin_wait_1_SQ.
  - apply maybe_send_fin_spR.
  - intro s0. apply stk_SQ_spR, maybe_send_ack_SQ.
Qed.

Lemma sp_vstep_live (s : vsock) o :
  sp s -> poll_finished (vstep_out cci s o) = false -> sp (vstep_state cci s o).
Proof.
  intros Hp Hl. destruct o; try exact Hp.
  - destruct (poll cci (VSockRec.set_sends s script)) as [s' r] eqn:E.
    destruct (vstep_poll cci s script s' r E) as [V1 V2]. rewrite V1. rewrite V2 in Hl.
    destruct r; try discriminate. eapply poll_pending_sp; [exact E|exact Hp].
  - unfold vstep_state. cbn [vstep]. destruct (v_inbox_closed s); exact Hp.
  - unfold vstep_state. cbn [vstep]. destruct (writer_dropped (v_tx s)); [exact Hp|].
    destruct (poll_write (v_tx s) buf) as [[tx1 r] w]. exact Hp.
  - unfold vstep_state. cbn [vstep]. destruct (writer_dropped (v_tx s)); [exact Hp|].
    destruct (poll_flush (v_tx s)) as [[tx1 r] w]. exact Hp.
  - unfold vstep_state. cbn [vstep]. destruct (writer_dropped (v_tx s)); [exact Hp|].
    destruct (poll_shutdown (v_tx s)) as [[tx1 r] w]. exact Hp.
  - unfold vstep_state. cbn [vstep]. destruct (reader_dropped (v_rx s)); [exact Hp|].
    destruct (rx_read (v_rx s) n) as [[rx1 r] w]. exact Hp.
  - unfold vstep_state. cbn [vstep]. destruct (reader_dropped (v_rx s)); [exact Hp|].
    destruct (rx_drop_reader (v_rx s)) as [rx1 w]. exact Hp.
  - unfold vstep_state. cbn [vstep]. destruct (drop_writer (v_tx s)) as [tx1 w]. exact Hp.
Qed.

Lemma sp_vsock_new mk c s : 0 <= vc_isn c < M16 -> vsock_new cci mk c = Some s -> sp s.
Proof.
  intros Hi H. split; [eapply mss_pos_vsock_new; exact H|].
  unfold vsock_new in H.
  destruct (match (if vc_incoming c then None else _) with Some r => _ | None => _ end); [|discriminate].
  inversion H; subst. unfold tpos, segs_pos, segments_new. cbn [v_segs ss_segs ss_snd_una].
  split; [constructor|]. destruct (vc_incoming c); [exact Hi|unfold wadd16, M16; lia].
Qed.

End WithCC.
