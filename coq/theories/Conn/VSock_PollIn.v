(* The incoming path of one poll and the joint invariant: process_incoming_message, recv_loop,
   process_all_incoming_messages never panic, report only allowed errors, and keep the extended
   invariant vs_x (VSock_PollAux.v); the state of every error exit is described too.
   (calc_pipe, the one panic site the invariant could not exclude, is total since the repair of
   D21: its witness was found here.) *)
From Utp Require Import Base.Prelude Wire.SeqNr Wire.SeqNr_Proofs Wire.Header Rtt.Rtte Rtt.Rtte_Proofs
  Mtu.SegSizes Rx.Rx Rx.Rx_Proofs Tx.Ring Tx.Ring_Proofs Tx.Segments Tx.Segments_Proofs
  Conn.Recovery Conn.Msg Conn.VSockRec Conn.VSock Conn.VSockRun Conn.VObs Conn.C10_Pred
  Conn.VSock_LemmasTx Conn.VSock_LemmasIn Conn.C06_RecProofs Conn.VSock_Inv Conn.VSock_PollAux.

(* ------------------------------------------------------------------ Recovery::on_ack *)
Lemma count_non_sack_nonneg h d la c la' :
  0 <= d -> count_non_sack_duplicates h d la = (c, la') -> 0 <= c.
Proof.
  intro Hd. unfold count_non_sack_duplicates. destruct la as [[w a]|].
  - destruct (_ && _ && _); intro H; injection H as <- _; lia.
  - intro H; injection H as <- _; lia.
Qed.

Lemma count_sack_some h d : 0 <= d < SACK_DUP_THRESH -> exists c, count_sack_duplicates h d = Some c /\ 0 <= c.
Proof.
  unfold count_sack_duplicates, SACK_DUP_THRESH. intro Hd. destruct (ch_sack h) as [k|].
  - destruct (3 <=? count_ones (sk_bits k)); [exists 3; split; [reflexivity|lia]|].
    destruct (Z.leb_spec (d + 1) 255); [|lia]. exists (d + 1). split; [reflexivity|lia].
  - exists 0. split; [reflexivity|lia].
Qed.

Section PollIn.
Context {CC : Type} (cci : cc_iface CC).
Notation vsock := (vsock CC).
Notation step := (@step CC).
Variable strict : bool.
Hypothesis Hcc : cc_total cci.

Definition rv_with (r : recovery) (sup : bool) (la : option (Z * Z)) (ph : rphase) : recovery :=
  {| rv_supports_sack := sup; rv_last_ack := la; rv_phase := ph |}.

(* what recovery_on_ack guarantees about the table it returns *)
Definition roa_post (segs segs' : segments) (r' : recovery) : Prop :=
  dup_ok r' /\ seg_inv segs' /\ ss_removed segs' = ss_removed segs /\ ss_offset segs' = ss_offset segs /\
  Forall2 seg_ev (ss_segs segs) (ss_segs segs') /\ ss_snd_una segs' = ss_snd_una segs.

Lemma roa_post_same segs r' : seg_inv segs -> dup_ok r' -> roa_post segs segs r'.
Proof.
  intros H1 H2. unfold roa_post. split; [exact H2|]. split; [exact H1|]. split; [reflexivity|].
  split; [reflexivity|]. split; [apply ev_refl|reflexivity].
Qed.

Lemma recovery_on_ack_x r h segs ls cc now rtt :
  seg_inv segs -> dup_ok r ->
  exists r' segs' cc',
    recovery_on_ack cci r h segs ls cc now rtt = Some (r', segs', cc') /\ roa_post segs segs' r'.
Proof.
  intros Hinv Hdup. unfold recovery_on_ack. cbn [rv_phase rv_supports_sack rv_last_ack].
  unfold dup_ok in Hdup.
  destruct (rv_phase r) as [rp|d|rc] eqn:Eph.
  1, 3: destruct (seq_ge _ _); eexists _, _, _; (split; [reflexivity|]); apply roa_post_same; auto;
    unfold dup_ok; cbn [rv_phase]; rewrite ?Eph; unfold SACK_DUP_THRESH; auto; lia.
  destruct (ss_segs segs) as [|g0 gs] eqn:Es.
  { eexists _, _, _; (split; [reflexivity|]); apply roa_post_same; auto.
    unfold dup_ok; cbn [rv_phase]. unfold SACK_DUP_THRESH. lia. }
  (* the tail shared by the two ways of counting *)
  assert (Htail : forall sup c la', 0 <= c ->
    exists r' segs' cc',
      (if c <? SACK_DUP_THRESH then
         Some ({| rv_supports_sack := sup; rv_last_ack := la'; rv_phase := CountingDuplicates c |}, segs, cc)
       else
         match calc_pipe segs (wsub16 (ss_snd_una segs) 1) ls rtt now with
         | None => None
         | Some (segs', pipe, recalc) =>
             Some ({| rv_supports_sack := sup; rv_last_ack := la';
                      rv_phase := Recovering {| rc_recovery_point := ls; rc_high_rxt := wsub16 (ss_snd_una segs) 1;
                                                rc_total_retx := 0; rc_pipe := pipe; rc_recalc := recalc;
                                                rc_cwnd := cc_sshthresh cci (cc_on_enter_recovery cci cc now) |} |},
                   segs', cc_on_enter_recovery cci cc now)
         end) = Some (r', segs', cc') /\ roa_post segs segs' r').
  { intros sup c la' Hc. destruct (Z.ltb_spec c SACK_DUP_THRESH) as [Hlt|Hge].
    - eexists _, _, _; (split; [reflexivity|]); apply roa_post_same; auto.
      unfold dup_ok; cbn [rv_phase]. lia.
    - destruct (calc_pipe_some segs (wsub16 (ss_snd_una segs) 1) ls rtt now) as (t' & pp & rc & E).
      rewrite E. eexists _, _, _; (split; [reflexivity|]).
      destruct (calc_pipe_ev _ _ _ _ _ _ _ _ E) as (V1 & V2 & V3 & V4).
      unfold roa_post. split; [unfold dup_ok; cbn [rv_phase]; exact I|].
      split; [eapply calc_pipe_inv; eauto|]. auto. }
  destruct (rv_supports_sack r || _).
  - destruct (count_sack_some h d Hdup) as (c & -> & Hc). apply Htail. exact Hc.
  - destruct (count_non_sack_duplicates h d (rv_last_ack r)) as [c la'] eqn:Ec.
    apply Htail. eapply count_non_sack_nonneg; [|exact Ec]. lia.
Qed.

(* ------------------------------------------------------------------ frames of the incoming path *)
Definition msg_rel (s s' : vsock) : Prop :=
  v_opts s' = v_opts s /\ v_inbox s' = v_inbox s /\ v_inbox_closed s' = v_inbox_closed s /\
  v_emsg_limit s' = v_emsg_limit s /\ v_now s' = v_now s /\ v_restart s' = v_restart s /\
  v_last_sent_seq_nr s' = v_last_sent_seq_nr s /\ v_env_now s' = v_env_now s /\
  ss_mono (v_ss s) (v_ss s') /\ (emsg_free s -> emsg_free s').

Lemma msg_rel_refl s : msg_rel s s.
Proof. unfold msg_rel, ss_mono. repeat (split; [first [reflexivity|lia]|]). auto. Qed.

Lemma msg_rel_trans a b c : msg_rel a b -> msg_rel b c -> msg_rel a c.
Proof.
  unfold msg_rel. intros (A1&A2&A3&A4&A5&A6&A7&A8&A9&A10) (B1&B2&B3&B4&B5&B6&B7&B8&B9&B10).
  repeat (split; [congruence|]). split; [eapply ss_mono_trans; eauto|auto].
Qed.

(* the parts behind the state table keep the state and our sequence number as well *)
Definition in_rel (s s' : vsock) : Prop :=
  msg_rel s s' /\ v_state s' = v_state s /\ v_seq_nr s' = v_seq_nr s.

Lemma in_rel_refl s : in_rel s s.
Proof. split; [apply msg_rel_refl|split; reflexivity]. Qed.

Lemma in_rel_trans a b c : in_rel a b -> in_rel b c -> in_rel a c.
Proof.
  intros (A1 & A2 & A3) (B1 & B2 & B3). split; [eapply msg_rel_trans; eauto|split; congruence].
Qed.

Lemma ctl_in_rel s s' : ctl_rel s s' -> v_last_sent_seq_nr s' = v_last_sent_seq_nr s -> in_rel s s'.
Proof.
  intros (((C1&C2&C3&C4&C5&C6&C7&C8&C9&C10&C11&C12&C13&C14) & Hf & Hr) & Hq & He) Hl.
  unfold in_rel, msg_rel, ss_mono. rewrite C4. split; [|split; assumption].
  repeat (split; [first [assumption|lia]|]). exact Hf.
Qed.

(* a state that differs in fields the invariant does not read, or reads through rx / ss / tx flags *)
Lemma x_update ti tm p q (s s' : vsock) :
  vs_x ti tm p q s ->
  rx_inv (v_rx s') ->
  tx_inv ti tm (v_tx s') -> ring (v_tx s') = ring (v_tx s) -> g_removed (v_tx s') = g_removed (v_tx s) ->
  v_opts s' = v_opts s -> v_state s' = v_state s -> v_segs s' = v_segs s -> ss_ok (v_ss s') ->
  min_ss (v_ss s) <= min_ss (v_ss s') ->
  v_rtte s' = v_rtte s -> v_recovery s' = v_recovery s -> v_now s' = v_now s ->
  vs_x ti tm p q s'.
Proof.
  unfold vs_x, vs_inv_p, ring_rel, sx.
  intros ((I1 & I2 & I3 & I4 & (R0 & R1 & R2 & R3) & I6 & I7 & I8) & A1 & A2) Hrx Htx Hring Hgr Ho Hst Hsg Hss Hmin Hrt Hrc Hnow.
  rewrite Hring, Hgr, Ho, Hst, Hsg, Hrt, Hrc, Hnow.
  pose proof (aux_mono _ _ _ _ Hmin A1). tauto.
Qed.

(* one step of the incoming path behind the ACK part: invariant, frame, and the table stays *)
Definition x_step ti tm p q (s s' : vsock) : Prop :=
  vs_x ti tm p q s' /\ in_rel s s' /\ v_segs s' = v_segs s.

Lemma x_step_refl ti tm p q s : vs_x ti tm p q s -> x_step ti tm p q s s.
Proof. intro H. split; [exact H|]. split; [apply in_rel_refl|reflexivity]. Qed.

Lemma x_step_trans ti tm p q a b c : x_step ti tm p q a b -> x_step ti tm p q b c -> x_step ti tm p q a c.
Proof.
  intros (_ & A2 & A3) (B1 & B2 & B3). split; [exact B1|]. split; [eapply in_rel_trans; eauto|congruence].
Qed.

(* s with new sizes, congestion state, receiver, transmit buffer and wake list: all an ordinary step of
   the incoming path may touch of what the invariant and in_rel read (every other update is invisible
   to them, and x_step_refl applies as it stands) *)
Lemma x_step_set ti tm p q (s : vsock) ss' cc' rx' tx' wk :
  vs_x ti tm p q s -> rx_inv rx' ->
  tx_inv ti tm tx' -> ring tx' = ring (v_tx s) -> g_removed tx' = g_removed (v_tx s) ->
  ss_ok ss' -> ss_mono (v_ss s) ss' ->
  x_step ti tm p q s (set_wakes (set_tx (set_rx (set_cc (set_ss s ss') cc') rx') tx') wk).
Proof.
  intros Hx Hrx Htx Hring Hgr Hss Hm.
  split; [eapply x_update; [exact Hx|..]; try reflexivity; try assumption; exact (proj2 Hm)|].
  split; [|reflexivity]. split; [|split; reflexivity].
  unfold msg_rel. repeat (split; [reflexivity|]). split; [exact Hm|exact (fun H => H)].
Qed.

Lemma x_step_ctl ti tm p q (s s' : vsock) :
  vs_x ti tm p q s -> ctl_rel s s' -> v_last_sent_seq_nr s' = v_last_sent_seq_nr s -> x_step ti tm p q s s'.
Proof.
  intros Hx Hc Hl. pose proof Hc as [[Hcore _] _].
  split; [eapply x_same_core; eauto|]. split; [apply ctl_in_rel; assumption|apply Hcore].
Qed.

(* ------------------------------------------------------------------ the ACK part *)
Lemma pim_ack_x ti tm p q (s1 : vsock) h :
  vs_x ti tm p q s1 ->
  exists s2 res, pim_ack cci s1 h = Some (s2, res) /\
    vs_x ti tm (p + ar_acked_bytes res) q s2 /\ acc_ok res /\ in_rel s1 s2.
Proof.
  intros [Hinv [Haux Hnow]].
  destruct (inv_parts _ _ _ _ Hinv) as (I1 & I2 & I3 & I4 & (R0 & R1 & R2 & R3) & I6 & I7 & I8).
  unfold pim_ack.
  destruct (remove_up_to_ack (v_segs s1) (v_now s1) (ch_ack h) (ch_sack h)) as [segs1 res] eqn:Er.
  destruct (remove_up_to_ack_inv _ _ _ _ _ _ I2 Er) as (J1 & B1 & B2 & O1 & L1 & C1).
  pose proof (remove_up_to_ack_zero _ _ _ _ _ _ Er) as Hz.
  pose proof (remove_up_to_ack_aux q _ _ _ _ _ _ _ Er Haux) as Haux1.
  (* the RTT sample *)
  assert (Hrt : exists rtte1,
            match is_recovering (v_recovery s1), ar_new_rtt res with
            | false, Some rtt => sample (v_rtte s1) rtt
            | _, _ => Some (v_rtte s1)
            end = Some rtte1 /\ no_ovf_inv rtte1).
  { destruct (is_recovering (v_recovery s1)); [eauto|].
    destruct (ar_new_rtt res) as [x|] eqn:Ex; [|eauto].
    destruct (karn_sample_source _ _ _ _ _ _ _ Er Ex) as (g & ts & Hin & Hs & ->).
    apply sample_no_overflow; [exact I7|].
    destruct Haux as (Ht & _). rewrite Forall_forall in Ht. specialize (Ht _ Hin).
    unfold seg_time_ok, seg_last_sent in Ht. rewrite Hs in Ht. unfold sat_sub. lia. }
  destruct Hrt as (rtte1 & -> & Hrt1).
  destruct (cc_on_ack cci _ (v_now s1) (ar_acked_bytes res) (roundtrip_time rtte1)) as [cc3|] eqn:Ecc;
    [|exfalso; eapply Hcc; exact Ecc].
  destruct (recovery_on_ack_x (v_recovery s1) h segs1 (v_last_sent_seq_nr s1) cc3 (v_now s1)
              (roundtrip_time rtte1) J1 I8) as (rec1 & segs2 & cc4 & -> & (D1 & J2 & Rm & Of & Ev & Un)).
  eexists _, _. split; [reflexivity|].
  destruct (delivered_ss_ok (v_ss s1) (ar_max_acked_payload res) I6) as (S1 & S2 & S3).
  pose proof (ev_length _ _ Ev) as Hlen.
  split.
  { split.
    - unfold vs_inv_p, ring_rel. vsimpl. rewrite Rm.
      assert (0 <= p + ar_acked_bytes res) by lia.
      assert (g_removed (v_tx s1) + (p + ar_acked_bytes res) <= ss_removed segs1) by lia.
      assert (v_state s1 <> Closed -> g_removed (v_tx s1) + (p + ar_acked_bytes res) = ss_removed segs1)
        by (intro Hc; specialize (R2 Hc); lia).
      assert (ss_offset segs2 <= g_removed (v_tx s1) + Z.of_nat (length (ring (v_tx s1)))) by lia.
      tauto.
    - unfold sx. vsimpl. split; [eapply aux_mono; [exact S3|]; eapply aux_ev; eauto|exact Hnow]. }
  split; [unfold acc_ok; auto|].
  unfold in_rel, msg_rel, emsg_free, ss_mono. vsimpl. repeat split; auto; try lia; try tauto.
Qed.

(* ------------------------------------------------------------------ ST_DATA *)
Lemma add_err_cases a :
  a <> ArErrBugInvalidMessage -> a <> ArErrBugMissingSlot ->
  add_err a = None \/ add_err a = Some ErrZeroPayloadStData.
Proof. destruct a; cbn [add_err]; auto; congruence. Qed.

Definition data_post ti tm p q (s2 : vsock) (res : on_ack_result) (s' : vsock) (r : on_ack_result) : Prop :=
  r = res /\ x_step ti tm p q s2 s'.

Lemma force_ack_x ti tm p q (s : vsock) : vs_x ti tm p q s -> x_step ti tm p q s (force_immediate_ack s).
Proof.
  exact (x_step_refl ti tm p q s).
Qed.

Lemma data_consumed_x ti tm p q (s : vsock) r : vs_x ti tm p q s -> x_step ti tm p q s (data_consumed s r).
Proof.
  destruct r; exact (x_step_refl ti tm p q s).
Qed.

Lemma data_in_x ti tm p q (s : vsock) n rx1 wk :
  vs_x ti tm p q s -> rx_inv rx1 -> x_step ti tm p q s (data_in cci s n rx1 wk).
Proof.
  intros Hx Hrx. destruct (inv_parts _ _ _ _ (proj1 Hx)) as (_ & _ & I3 & _ & _ & I6 & _).
  destruct (delivered_ss_ok (v_ss s) n I6) as (S1 & S2 & S3).
  refine (x_step_set _ _ _ _ s _ _ rx1 (v_tx s) _ Hx Hrx I3 eq_refl eq_refl S1 _).
  split; [rewrite <- S2; reflexivity|exact S3].
Qed.

Lemma data_tail_x ti tm p q (s4 : vsock) we a res :
  vs_x ti tm p q s4 -> a <> ArErrBugInvalidMessage -> a <> ArErrBugMissingSlot ->
  spx strict (data_tail s4 we (UarOk a) res) (data_post ti tm p q s4 res) (vs_xe ti tm q).
Proof.
  intros Hx Na1 Na2. unfold data_tail.
  destruct (add_err_cases a Na1 Na2) as [-> | ->]; [|cbn [spx allowed]; split; [exact I|eapply x_xe; exact Hx]].
  cbv zeta. pose proof (data_consumed_x _ _ _ _ s4 a Hx) as H5.
  generalize dependent (data_consumed s4 a). intros s5 H5.
  destruct (_ || _); [|cbn [spx]; split; [reflexivity|exact H5]].
  pose proof (x_step_trans _ _ _ _ _ _ _ H5 (force_ack_x _ _ _ _ _ (proj1 H5))) as Hf.
  assert (H6 : forall s6, ctl_rel (force_immediate_ack s5) s6 /\
                 v_last_sent_seq_nr s6 = v_last_sent_seq_nr (force_immediate_ack s5) -> x_step ti tm p q s4 s6).
  { intros s6 [Hc Hl]. exact (x_step_trans _ _ _ _ _ _ _ Hf (x_step_ctl _ _ _ _ _ _ (proj1 Hf) Hc Hl)). }
  eapply spx_bind; [eapply spx_weaken; [apply (send_ack_x strict)|intros s6 b H; exact (H6 s6 H)|]|].
  - intros s6 H. eapply x_xe. exact (proj1 (H6 s6 H)).
  - intros s6 b H. cbn [spx]. split; [reflexivity|exact H].
Qed.

Lemma pim_data_x ti tm p q (s2 : vsock) m res offset :
  vs_x ti tm p q s2 ->
  spx strict (pim_data cci s2 m res offset) (data_post ti tm p q s2 res) (vs_xe ti tm q).
Proof.
  intros Hx. rewrite pim_data_eq. destruct (Z.ltb_spec offset 0) as [Hneg|Hoff].
  { cbn [spx]. split; [reflexivity|apply force_ack_x; exact Hx]. }
  destruct (rx_add_remove _ KData (m_payload m) offset) as [[rx1 ar] w] eqn:Erx.
  assert (Hk : KData <> KOther) by discriminate.
  destruct (inv_parts _ _ _ _ (proj1 Hx)) as (I1 & _).
  destruct (rx_add_remove_no_bug _ _ _ _ _ _ _ I1 Hoff Hk Erx) as (Hrx1 & a & -> & Na1 & Na2).
  pose proof (data_in_x _ _ _ _ s2 (Z.of_nat (length (m_payload m))) rx1 (rx_wakes w) Hx Hrx1) as H4.
  eapply spx_weaken; [apply data_tail_x; [exact (proj1 H4)|exact Na1|exact Na2]| |].
  - intros s' r [-> H]. split; [reflexivity|exact (x_step_trans _ _ _ _ _ _ _ H4 H)].
  - auto.
Qed.

(* ------------------------------------------------------------------ ST_FIN *)
Lemma fin_in_x ti tm p q (s : vsock) seq rx1 wk :
  vs_x ti tm p q s -> rx_inv rx1 ->
  x_step ti tm p q s (add_wakes (set_rx (set_last_consumed (force_immediate_ack s) seq) rx1) wk).
Proof.
  intros Hx Hrx. destruct (inv_parts _ _ _ _ (proj1 Hx)) as (_ & _ & I3 & _ & _ & I6 & _).
  exact (x_step_set _ _ _ _ s (v_ss s) (v_cc s) rx1 (v_tx s) (rev wk ++ v_wakes s) Hx Hrx I3 eq_refl eq_refl I6 (ss_mono_refl _)).
Qed.

Lemma fin_tail_x ti tm p q (s5 : vsock) a res :
  vs_x ti tm p q s5 -> a <> ArErrBugInvalidMessage -> a <> ArErrBugMissingSlot ->
  spx strict
    (match add_err a with
     | Some e => SErr s5 e
     | None => let '(tx1, w2) := mark_vsock_closed (v_tx s5) in SOk (add_wakes (set_tx s5 tx1) (tx_wakes w2)) res
     end) (data_post ti tm p q s5 res) (vs_xe ti tm q).
Proof.
  intros Hx Na1 Na2.
  destruct (add_err_cases a Na1 Na2) as [-> | ->]; [|cbn [spx allowed]; split; [exact I|eapply x_xe; exact Hx]].
  destruct (mark_vsock_closed (v_tx s5)) as [tx1 w2] eqn:Em.
  destruct (mark_closed_fields _ _ _ Em) as (M1 & M2 & M3).
  destruct (inv_parts _ _ _ _ (proj1 Hx)) as (I1 & _ & I3 & _ & _ & I6 & _).
  cbn [spx]. split; [reflexivity|].
  exact (x_step_set _ _ _ _ s5 (v_ss s5) (v_cc s5) (v_rx s5) tx1 (rev (tx_wakes w2) ++ v_wakes s5) Hx I1 (M3 _ _ I3) M1 M2 I6 (ss_mono_refl _)).
Qed.

Lemma pim_fin_x ti tm p q (s2 : vsock) m res offset seen :
  vs_x ti tm p q s2 ->
  spx strict (pim_fin s2 m res offset seen) (data_post ti tm p q s2 res) (vs_xe ti tm q).
Proof.
  intros Hx. unfold pim_fin. cbv zeta.
  destruct (negb seen && (0 <=? offset)) eqn:Ec;
    [|cbn [spx]; split; [reflexivity|apply force_ack_x; exact Hx]].
  apply andb_true_iff in Ec. destruct Ec as [_ Hoff]. apply Z.leb_le in Hoff.
  destruct (rx_add_remove _ KFin (m_payload m) offset) as [[rx1 ar] w] eqn:Erx.
  assert (Hk : KFin <> KOther) by discriminate.
  destruct (inv_parts _ _ _ _ (proj1 Hx)) as (I1 & _).
  destruct (rx_add_remove_no_bug _ _ _ _ _ _ _ I1 Hoff Hk Erx) as (Hrx1 & a & -> & Na1 & Na2).
  pose proof (fin_in_x _ _ _ _ s2 (ch_seq (m_hdr m)) rx1 (rx_wakes w) Hx Hrx1) as H5.
  eapply spx_weaken; [apply fin_tail_x; [exact (proj1 H5)|exact Na1|exact Na2]| |auto].
  intros s' r [-> H]. split; [reflexivity|exact (x_step_trans _ _ _ _ _ _ _ H5 H)].
Qed.

(* ------------------------------------------------------------------ one message *)
Lemma tbl_msg_rel s s1 : tbl_rel s s1 -> msg_rel s s1.
Proof.
  intros (E1&E2&E3&E4&E5&E6&E7&E8&E9&E10&E11&E12&E13&E14&E15&Hst).
  unfold msg_rel, ss_mono, emsg_free. rewrite E4, E12, E10. repeat (split; [first [assumption|reflexivity|lia]|]).
  auto.
Qed.

Definition pim_post ti tm p q (s s' : vsock) (r : on_ack_result) : Prop :=
  vs_x ti tm (p + ar_acked_bytes r) q s' /\ acc_ok r /\ msg_rel s s' /\
  v_state s' <> SynReceived.

Lemma process_incoming_message_x ti tm p q (s : vsock) m :
  vs_x ti tm p q s -> v_state s <> SynReceived ->
  spx strict (process_incoming_message cci s m) (pim_post ti tm p q s) (vs_xe ti tm q).
Proof.
  intros Hx Hst. rewrite process_incoming_message_eq.
  pose proof (state_table_rel s (m_hdr m)) as Ht.
  pose proof (state_table_no_bug s (m_hdr m) Hst) as Hnb.
  pose proof (state_table_err s (m_hdr m)) as Herr.
  destruct (state_table s (m_hdr m)) as [s1|s1 e|s1]; cbn [tbl_state] in Ht.
  - (* dropped *)
    cbn [spx]. unfold pim_post. cbn [on_ack_result_default ar_acked_bytes].
    replace (p + 0) with p by lia. split; [eapply x_tbl; eauto|].
    split; [apply acc_ok_default|]. split; [apply tbl_msg_rel; exact Ht|exact Hnb].
  - (* ST_RESET *)
    destruct (Herr s1 e Hst eq_refl) as [-> _]. cbn [spx allowed]. split; [exact I|].
    eapply x_xe, x_tbl; eauto.
  - (* the common part *)
    pose proof (x_tbl _ _ _ _ _ _ Hx Ht) as Hx1.
    unfold pim_cont.
    destruct (pim_ack_x ti tm p q s1 (m_hdr m) Hx1) as (s2 & res & -> & Hx2 & Hok & Hr2).
    assert (Hfin : forall s' r, data_post ti tm (p + ar_acked_bytes res) q s2 res s' r -> pim_post ti tm p q s s' r).
    { intros s' r (-> & A1 & A2 & A3). unfold pim_post. split; [exact A1|]. split; [exact Hok|].
      split; [eapply msg_rel_trans; [apply tbl_msg_rel; exact Ht|exact (msg_rel_trans _ _ _ (proj1 Hr2) (proj1 A2))]|].
      destruct A2 as (_ & B2 & _). destruct Hr2 as (_ & C2 & _). rewrite B2, C2. exact Hnb. }
    assert (Hother : spx strict (SOk s2 res) (pim_post ti tm p q s) (vs_xe ti tm q))
      by (apply Hfin; split; [reflexivity|apply x_step_refl; exact Hx2]).
    cbv zeta. destruct (ch_type (m_hdr m)); try exact Hother.
    + eapply spx_weaken; [apply pim_data_x; exact Hx2|exact Hfin|auto].
    + eapply spx_weaken; [apply pim_fin_x; exact Hx2|exact Hfin|auto].
Qed.

(* ------------------------------------------------------------------ the receive loop *)
Lemma x_update_segs ti tm p q (s s' : vsock) :
  vs_x ti tm p q s -> v_rx s' = v_rx s -> v_tx s' = v_tx s -> v_opts s' = v_opts s -> v_state s' = v_state s ->
  seg_inv (v_segs s') -> ss_removed (v_segs s') = ss_removed (v_segs s) ->
  ss_offset (v_segs s') = ss_offset (v_segs s) ->
  Forall2 seg_ev (ss_segs (v_segs s)) (ss_segs (v_segs s')) ->
  v_ss s' = v_ss s -> v_rtte s' = v_rtte s -> dup_ok (v_recovery s') -> v_now s' = v_now s ->
  vs_x ti tm p q s'.
Proof.
  intros [H1 [H2 H3]] E1 E2 E3 E4 Hsi Hrm Hof Hev E5 E6 Hd E7. split.
  - eapply inv_update; [exact H1|..]; rewrite ?E4, ?E5, ?E6; try assumption; try reflexivity; try lia; auto;
      apply (inv_parts _ _ _ _ H1).
  - unfold sx. rewrite E5, E7. split; [eapply aux_ev; eauto|exact H3].
Qed.

Definition rl_inv ti tm q p (s : vsock) : Prop :=
  vs_x ti tm p q s /\ ef strict s /\ v_state s <> SynReceived.

Definition loop_rel (s s' : vsock) : Prop :=
  v_opts s' = v_opts s /\ v_inbox_closed s' = v_inbox_closed s /\ v_emsg_limit s' = v_emsg_limit s /\
  v_now s' = v_now s /\ v_restart s' = v_restart s /\ v_env_now s' = v_env_now s /\
  ss_mono (v_ss s) (v_ss s').

Lemma loop_rel_refl s : loop_rel s s.
Proof. unfold loop_rel, ss_mono. repeat (split; [reflexivity|]). lia. Qed.

Lemma loop_rel_trans a b c : loop_rel a b -> loop_rel b c -> loop_rel a c.
Proof.
  unfold loop_rel. intros (A1&A2&A3&A4&A5&A6&A7) (B1&B2&B3&B4&B5&B6&B7).
  repeat (split; [congruence|]). eapply ss_mono_trans; eauto.
Qed.

Lemma msg_loop_rel s s' : msg_rel s s' -> loop_rel s s'.
Proof. unfold msg_rel, loop_rel. tauto. Qed.

Lemma ctl_loop_rel s s' : ctl_rel s s' -> loop_rel s s'.
Proof.
  intros (((C1&C2&C3&C4&C5&C6&C7&C8&C9&C10&C11&C12&C13&C14) & Hf & Hr) & Hq & He).
  unfold loop_rel, ss_mono. rewrite C4. repeat (split; [assumption|]). lia.
Qed.

Definition rl_post ti tm q (s s' : vsock) (res : on_ack_result * bool) : Prop :=
  vs_x ti tm (ar_acked_bytes (fst res)) q s' /\ acc_ok (fst res) /\ ef strict s' /\ loop_rel s s'.

Lemma transition_x ti tm p q (s : vsock) :
  vs_x ti tm p q s ->
  vs_x ti tm p q (transition_to_fin_wait_1 s) /\
  v_segs (transition_to_fin_wait_1 s) = v_segs s /\
  v_last_sent_seq_nr (transition_to_fin_wait_1 s) = v_last_sent_seq_nr s /\
  v_sends (transition_to_fin_wait_1 s) = v_sends s /\
  loop_rel s (transition_to_fin_wait_1 s).
Proof.
  intro Hx. unfold transition_to_fin_wait_1.
  destruct (v_state s) eqn:Est;
    (split; [first [exact Hx|eapply x_state; [exact Hx|..]; vsimpl; try reflexivity; rewrite Est; intros _; discriminate]|]);
    vsimpl; (split; [reflexivity|]); (split; [reflexivity|]); (split; [reflexivity|]);
    exact (loop_rel_refl s).
Qed.

Lemma ef_rel (s s' : vsock) : (emsg_free s -> emsg_free s') -> ef strict s -> ef strict s'.
Proof. unfold ef. auto. Qed.

Lemma recv_loop_x ti tm q : forall fuel (s : vsock) acc,
  (length (v_inbox s) < length fuel)%nat -> acc_ok acc -> rl_inv ti tm q (ar_acked_bytes acc) s ->
  spx strict (recv_loop cci fuel s acc) (rl_post ti tm q s) (vs_xe ti tm q).
Proof.
  induction fuel as [|m0 fuel IH]; intros s acc Hlen Hacc (Hx & Hef & Hst);
    [cbn [length] in Hlen; lia|].
  cbn [recv_loop]. destruct (v_inbox s) as [|m rest] eqn:Ei.
  - (* the inbox is drained *)
    destruct (v_inbox_closed s) eqn:Eic.
    + destruct (transition_x _ _ _ _ _ Hx) as (Hx1 & Hs1 & Hl1 & Hsd1 & Hr1).
      set (s1 := transition_to_fin_wait_1 s) in *.
      eapply spx_bind with (Q1 := fun s2 (_ : bool) => ctl_rel s1 s2).
      * eapply spx_weaken; [apply (maybe_send_fin_x strict)|intros s2 b [Hc _]; exact Hc|].
        intros s2 [[[Hcore _] _] _]. eapply x_xe, x_same_core; eauto.
      * intros s2 b Hc. cbn [spx]. unfold rl_post. cbn [fst].
        pose proof Hc as [[Hcore [Hfr _]] _].
        pose proof (x_same_core _ _ _ _ _ _ Hx1 Hcore) as Hx2.
        split; [eapply x_state; [exact Hx2|..]; vsimpl; try reflexivity; congruence|].
        split; [exact Hacc|].
        split.
        { unfold ef, emsg_free in *. vsimpl. intro Hs. apply Hfr. unfold emsg_free.
          rewrite Hsd1. unfold s1, transition_to_fin_wait_1. destruct (v_state s); vsimpl; apply Hef; exact Hs. }
        exact (loop_rel_trans _ _ _ Hr1 (ctl_loop_rel _ _ Hc)).
    + cbn [spx]. unfold rl_post. cbn [fst]. split; [exact Hx|]. split; [exact Hacc|]. split; [exact Hef|].
      exact (loop_rel_refl s).
  - (* one more message *)
    assert (Hx0 : vs_x ti tm (ar_acked_bytes acc) q (set_inbox s rest)) by exact Hx.
    eapply spx_bind; [apply process_incoming_message_x; [exact Hx0|exact Hst]|].
    intros s1 r (Hx1 & Hok1 & Hm1 & Hst1).
    assert (Hacc1 : acc_ok (result_update acc r)) by (apply acc_ok_update; assumption).
    assert (Hx1' : vs_x ti tm (ar_acked_bytes (result_update acc r)) q s1) by exact Hx1.
    pose proof Hm1 as (M1&M2&M3&M4&M5&M6&M7&M8&M9&M10). vsimpl.
    assert (Hef1 : ef strict s1) by (eapply ef_rel; [exact M10|exact Hef]).
    assert (Hrel : loop_rel s s1) by (apply (msg_loop_rel (set_inbox s rest)); exact Hm1).
    destruct (_ || _).
    + cbn [spx]. unfold rl_post. cbn [fst]. auto.
    + eapply spx_weaken; [apply IH| |auto].
      * rewrite M2. cbn [length] in Hlen. lia.
      * exact Hacc1.
      * split; [exact Hx1'|]. split; [exact Hef1|exact Hst1].
      * intros s' res (A1 & A2 & A3 & A5). unfold rl_post. repeat (split; [assumption|]).
        eapply loop_rel_trans; eauto.
Qed.

(* ------------------------------------------------------------------ process_all_incoming_messages *)
Lemma acked_counts_x ti tm p q (s : vsock) :
  vs_x ti tm p q s -> ef strict s ->
  vs_x ti tm p q (acked_counts_as_sent s) /\ ef strict (acked_counts_as_sent s) /\
  loop_rel s (acked_counts_as_sent s).
Proof.
  intros Hx Hef. unfold acked_counts_as_sent. destruct (seq_gt _ _ && seq_lt _ _).
  all: split; [exact Hx|]; split; [exact Hef|exact (loop_rel_refl s)].
Qed.

Lemma pa_tail_x ti tm q (s3 : vsock) :
  vs_x ti tm 0 q s3 -> ef strict s3 ->
  spx strict
    (match rv_phase (v_recovery s3) with
     | Recovering rc =>
         match calc_pipe (v_segs s3) (rc_high_rxt rc) (v_last_sent_seq_nr s3)
                         (roundtrip_time (v_rtte s3)) (v_now s3) with
         | None => SPanic
         | Some (segs', pipe, recalc) =>
             SOk (set_recovering (VSockRec.set_segs s3 segs')
                    {| rc_recovery_point := rc_recovery_point rc; rc_high_rxt := rc_high_rxt rc;
                       rc_total_retx := rc_total_retx rc; rc_pipe := pipe; rc_recalc := recalc;
                       rc_cwnd := rc_cwnd rc |}) tt
         end
     | _ => SOk s3 tt
     end)
    (fun s4 _ => vs_x ti tm 0 q s4 /\ ef strict s4 /\ loop_rel s3 s4) (vs_xe ti tm q).
Proof.
  intros Hx Hef.
  destruct (rv_phase (v_recovery s3)) as [rp|d|rc]; try (cbn [spx]; split; [exact Hx|split; [exact Hef|apply loop_rel_refl]]).
  destruct (calc_pipe_some (v_segs s3) (rc_high_rxt rc) (v_last_sent_seq_nr s3)
              (roundtrip_time (v_rtte s3)) (v_now s3)) as (t' & pp & rcl & E).
  rewrite E. cbn [spx].
  destruct (calc_pipe_ev _ _ _ _ _ _ _ _ E) as (V1 & V2 & V3 & V4).
  pose proof Hx as [Hinv _]. destruct (inv_parts _ _ _ _ Hinv) as (I1 & I2 & I3 & I4 & I5 & I6 & I7 & I8).
  unfold set_recovering. split.
  - eapply x_update_segs; [exact Hx|..]; vsimpl; try reflexivity; try assumption.
    eapply calc_pipe_inv; eauto.
  - split; [exact Hef|exact (loop_rel_refl s3)].
Qed.

Lemma process_all_x ti tm q (s : vsock) :
  vs_x ti tm 0 q s -> ef strict s -> v_state s <> SynReceived ->
  spx strict (process_all_incoming_messages cci s)
      (fun s' _ => vs_x ti tm 0 q s' /\ ef strict s' /\ loop_rel s s') (vs_xe ti tm q).
Proof.
  intros Hx Hef Hst. unfold process_all_incoming_messages.
  eapply spx_bind.
  { apply (recv_loop_x ti tm q).
    - rewrite app_length. cbn [length]. lia.
    - apply acc_ok_default.
    - split; [exact Hx|]. split; [exact Hef|exact Hst]. }
  intros s1 [r early] (Hx1 & (Hs0 & Hb0 & Hz) & Hef1 & Hrel1). cbn [fst] in *.
  set (s2 := if (0 <? ar_acked_segments r) || (0 <? ar_newly_sacked_segments r) then _ else s1).
  assert (H2 : vs_x ti tm (ar_acked_bytes r) q s2 /\ ef strict s2 /\ loop_rel s s2).
  { unfold s2, restart_remote_inactivity_timer. destruct (_ || _); [|auto].
    destruct (ss_segs (v_segs (set_rto_retransmissions s1 0))); [destruct (our_fin_if_unacked _)|];
      (split; [exact Hx1|split; [exact Hef1|exact Hrel1]]). }
  clearbody s2. destruct H2 as (Hx2 & Hef2 & Hrel2).
  eapply spx_bind with (Q1 := fun s3 (_ : unit) => vs_x ti tm 0 q s3 /\ ef strict s3 /\ loop_rel s s3).
  - destruct (Z.ltb_spec 0 (ar_acked_segments r)) as [Hpos|Hneg].
    + destruct (acked_counts_x _ _ _ _ _ Hx2 Hef2) as (Hx2b & Hef2b & Hrel2b).
      generalize dependent (acked_counts_as_sent s2). intros s2b Hx2b Hef2b Hrel2b.
      destruct (truncate_ok ti tm (ar_acked_bytes r) s2b (proj1 Hx2b)) as (tx1 & -> & Hinv3).
      destruct (wake_writer tx1) as [tx2 w] eqn:Ew.
      destruct (wake_writer_fields _ _ _ Ew) as (W1 & W2 & W3 & W4).
      cbn [spx].
      assert (Hx3 : vs_x ti tm 0 q (set_tx s2b tx1)) by (split; [exact Hinv3|exact (proj2 Hx2b)]).
      destruct (inv_parts _ _ _ _ Hinv3) as (K1 & K2 & K3 & K4 & K5 & K6 & K7 & K8). vsimpl.
      split; [unfold add_wakes; eapply x_update; [exact Hx3|..]; vsimpl; auto; try lia|].
      split; [exact Hef2b|exact (loop_rel_trans _ _ _ Hrel2 Hrel2b)].
    + cbn [spx]. assert (Hz0 : ar_acked_bytes r = 0) by (apply Hz; lia). rewrite Hz0 in Hx2. auto.
  - intros s3 _ (Hx3 & Hef3 & Hrel3).
    eapply spx_weaken; [exact (pa_tail_x ti tm q s3 Hx3 Hef3)| |auto].
    intros s4 _ (A1 & A2 & A3). split; [exact A1|]. split; [exact A2|eapply loop_rel_trans; eauto].
Qed.

End PollIn.
