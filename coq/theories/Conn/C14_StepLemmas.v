(* C14, connection level — list-level facts about the segment table (Tx/Segments.v) and the size
   state (Mtu/SegSizes.v) used by Conn/C14_Step.v:
   - [seg_le] / [sle] / [subseg]: what acknowledgement processing, the pipe computation and on_sent
     may do to the table (drop a prefix, mark delivered, rewrite the loss flags);
   - the table properties of C14 ([szC], [tok], [til], [NP], [PP], [nonew]) and their closure under
     these operations, under popping the last segment and under enqueue;
   - [segment_loop_c14]: what one run of the segmentation loop establishes. *)
From Utp Require Import Base.Prelude Wire.SeqNr Mtu.SegSizes Tx.Segments Tx.Segments_Proofs
  Tx.Segments_ProofsOut Conn.Recovery Conn.Msg Conn.VSockRec Conn.VSock Conn.C18_StepLemmas.

(* ------------------------------------------------------------------ the relation *)
Definition seg_le (g' g : seg) : Prop :=
  sg_size g' = sg_size g /\ sg_abs g' = sg_abs g /\ sg_probe g' = sg_probe g /\
  (sg_delivered g = true -> sg_delivered g' = true).

Lemma seg_le_refl g : seg_le g g.
Proof. unfold seg_le. auto. Qed.

Lemma seg_le_trans a b c : seg_le a b -> seg_le b c -> seg_le a c.
Proof. unfold seg_le. intros (A1 & A2 & A3 & A4) (B1 & B2 & B3 & B4). repeat split; try congruence. auto. Qed.

Definition sle (l' l : list seg) : Prop := Forall2 seg_le l' l.

Lemma sle_refl l : sle l l.
Proof. induction l; constructor; auto using seg_le_refl. Qed.

Lemma sle_trans : forall a b c, sle a b -> sle b c -> sle a c.
Proof.
  intros a b c H. revert c. induction H as [|x y xs ys Hxy _ IH]; intros c Hc.
  - inversion Hc; subst. constructor.
  - inversion Hc as [|y' z ys' zs Hyz Hr]; subst. constructor; [eapply seg_le_trans; eauto|apply IH; exact Hr].
Qed.

Lemma sle_skipn : forall k l' l, sle l' l -> sle (skipn k l') (skipn k l).
Proof.
  induction k as [|k IH]; intros l' l H; [exact H|].
  destruct H; cbn [skipn]; [constructor|apply IH; assumption].
Qed.

Lemma sle_length l' l : sle l' l -> length l' = length l.
Proof. intro H. induction H; cbn [length]; congruence. Qed.

Lemma sle_sum l' l : sle l' l -> sum_sizes l' = sum_sizes l.
Proof. intro H. induction H as [|x y xs ys (E & _) _ IH]; cbn [sum_sizes]; congruence. Qed.

Definition subseg (l' l : list seg) : Prop := exists k, sle l' (skipn k l).

Lemma subseg_refl l : subseg l l.
Proof. exists 0%nat. apply sle_refl. Qed.

Lemma sle_subseg l' l : sle l' l -> subseg l' l.
Proof. intro H. exists 0%nat. exact H. Qed.

Lemma subseg_trans a b c : subseg a b -> subseg b c -> subseg a c.
Proof.
  intros [k1 H1] [k2 H2]. exists (k2 + k1)%nat. rewrite <- skipn_skipn.
  eapply sle_trans; [exact H1|]. apply sle_skipn. exact H2.
Qed.

(* ------------------------------------------------------------------ pointwise properties *)
Lemma Forall_sle (Q : seg -> Prop) :
  (forall g' g, seg_le g' g -> Q g -> Q g') -> forall l' l, sle l' l -> Forall Q l -> Forall Q l'.
Proof.
  intros HQ l' l H. induction H as [|x y xs ys Hxy _ IH]; intro F; [constructor|].
  inversion F; subst. constructor; [eapply HQ; eauto|apply IH; assumption].
Qed.

Lemma Forall_subseg (Q : seg -> Prop) :
  (forall g' g, seg_le g' g -> Q g -> Q g') -> forall l' l, subseg l' l -> Forall Q l -> Forall Q l'.
Proof.
  intros HQ l' l [k H] F. eapply Forall_sle; [exact HQ|exact H|]. apply Forall_skipn. exact F.
Qed.

Definition szC (C : Z) (l : list seg) : Prop := Forall (fun g => sg_size g <= C) l.
Definition noup (l : list seg) : Prop := Forall (fun g => sg_probe g = true -> sg_delivered g = true) l.
Definition NP (e m : Z) (l : list seg) : Prop :=
  Forall (fun g => e <= sg_abs g -> sg_probe g = false -> sg_size g <= m) l.
Definition PP (e m : Z) (l : list seg) : Prop :=
  Forall (fun g => e <= sg_abs g -> sg_probe g = true -> m < sg_size g) l.
Definition nonew (e : Z) (l : list seg) : Prop := Forall (fun g => sg_abs g < e) l.

Lemma szC_subseg C l' l : subseg l' l -> szC C l -> szC C l'.
Proof. apply Forall_subseg. intros g' g (E1 & _) H. lia. Qed.

Lemma noup_subseg l' l : subseg l' l -> noup l -> noup l'.
Proof. apply Forall_subseg. intros g' g (_ & _ & E3 & E4) H P. apply E4, H. congruence. Qed.

Lemma NP_subseg e m l' l : subseg l' l -> NP e m l -> NP e m l'.
Proof. apply Forall_subseg. intros g' g (E1 & E2 & E3 & _) H A B. rewrite E1. apply H; congruence. Qed.

Lemma PP_subseg e m l' l : subseg l' l -> PP e m l -> PP e m l'.
Proof. apply Forall_subseg. intros g' g (E1 & E2 & E3 & _) H A B. rewrite E1. apply H; congruence. Qed.

Lemma nonew_subseg e l' l : subseg l' l -> nonew e l -> nonew e l'.
Proof. apply Forall_subseg. intros g' g (_ & E2 & _) H. lia. Qed.

Lemma NP_mono e m m' l : m <= m' -> NP e m l -> NP e m' l.
Proof. intros Hm. apply Forall_impl. intros g H A B. specialize (H A B). lia. Qed.

Lemma nonew_NP e m l : nonew e l -> NP e m l.
Proof. apply Forall_impl. intros g H A. lia. Qed.

Lemma nonew_PP e m l : nonew e l -> PP e m l.
Proof. apply Forall_impl. intros g H A. lia. Qed.

(* ------------------------------------------------------------------ the probe is the newest segment *)
Fixpoint tok (l : list seg) : Prop :=
  match l with
  | [] => True
  | g :: r => (sg_probe g = true -> sg_delivered g = false -> r = []) /\ tok r
  end.

Lemma tok_sle l' l : sle l' l -> tok l -> tok l'.
Proof.
  intro H. induction H as [|x y xs ys (E1 & E2 & E3 & E4) Hr IH]; cbn [tok]; [auto|].
  intros [H1 H2]. split; [|apply IH; exact H2].
  intros P D. assert (ys = []) as ->.
  { apply H1; [congruence|]. destruct (sg_delivered y); [|reflexivity]. rewrite E4 in D by reflexivity. discriminate. }
  inversion Hr. reflexivity.
Qed.

Lemma tok_skipn : forall k l, tok l -> tok (skipn k l).
Proof.
  induction k as [|k IH]; intros l H; [exact H|]. destruct l; cbn [skipn]; [exact I|].
  apply IH. exact (proj2 H).
Qed.

Lemma tok_subseg l' l : subseg l' l -> tok l -> tok l'.
Proof. intros [k H] T. eapply tok_sle; [exact H|]. apply tok_skipn. exact T. Qed.

Lemma noup_tok l : noup l -> tok l.
Proof.
  induction l as [|g r IH]; intro H; cbn [tok]; [exact I|]. inversion H; subst.
  split; [|apply IH; assumption]. intros P D. rewrite H2 in D by exact P. discriminate.
Qed.

Lemma noup_tok_snoc l x : noup l -> tok (l ++ [x]).
Proof.
  induction l as [|g r IH]; intro H; cbn [app tok].
  - split; [auto|exact I].
  - inversion H; subst. split; [|apply IH; assumption].
    intros P D. rewrite H2 in D by exact P. discriminate.
Qed.

Lemma tok_snoc_noup l x : tok (l ++ [x]) -> noup l.
Proof.
  induction l as [|g r IH]; cbn [app tok]; intro H; [constructor|].
  destruct H as [H1 H2]. constructor; [|apply IH; exact H2].
  intro P. destruct (sg_delivered g) eqn:D; [reflexivity|].
  specialize (H1 P eq_refl). destruct r; discriminate.
Qed.

Lemma noup_snoc l x : noup l -> (sg_probe x = true -> sg_delivered x = true) -> noup (l ++ [x]).
Proof. intros H Hx. apply Forall_app. split; [exact H|]. constructor; [exact Hx|constructor]. Qed.

Lemma tok_last_noup l x :
  tok (l ++ [x]) -> (sg_delivered x = true \/ sg_probe x = false) -> noup (l ++ [x]).
Proof.
  intros H Hx. apply noup_snoc; [eapply tok_snoc_noup; exact H|].
  intro P. destruct Hx as [Hx|Hx]; congruence.
Qed.

Lemma tok_noup_if l :
  tok l -> (forall init x, l = init ++ [x] -> sg_delivered x = true \/ sg_probe x = false) -> noup l.
Proof.
  intros Ht Hl. destruct l as [|g r]; [constructor|].
  destruct (@exists_last _ (g :: r)) as (init & x & E); [discriminate|].
  rewrite E in *. apply tok_last_noup; [exact Ht|]. eapply Hl. reflexivity.
Qed.

Lemma tok_lastok_noup l : tok l -> lastok l -> noup l.
Proof.
  intros T L. apply tok_noup_if; [exact T|]. intros init x ->. apply lastok_app_last in L.
  unfold upr in L. destruct (sg_probe x); [|right; reflexivity].
  destruct (sg_delivered x); [left; reflexivity|discriminate].
Qed.

(* ------------------------------------------------------------------ the table ends at the offset *)
Fixpoint til (l : list seg) (off : Z) : Prop :=
  match l with
  | [] => True
  | g :: r => 1 <= sg_size g /\ sg_abs g + sum_sizes (g :: r) = off /\ til r off
  end.

Lemma til_sle l' l off : sle l' l -> til l off -> til l' off.
Proof.
  intro H. induction H as [|x y xs ys Hxy Hr IH]; cbn [til]; [auto|].
  intros (H1 & H2 & H3). pose proof (sle_sum _ _ Hr) as Es. destruct Hxy as (E1 & E2 & _).
  cbn [sum_sizes] in *. repeat split; [lia|lia|apply IH; exact H3].
Qed.

Lemma til_skipn : forall k l off, til l off -> til (skipn k l) off.
Proof.
  induction k as [|k IH]; intros l off H; [exact H|]. destruct l; cbn [skipn]; [exact I|].
  apply IH. exact (proj2 (proj2 H)).
Qed.

Lemma til_subseg l' l off : subseg l' l -> til l off -> til l' off.
Proof. intros [k H] T. eapply til_sle; [exact H|]. apply til_skipn. exact T. Qed.

Lemma til_sizes_nonneg l off : til l off -> 0 <= sum_sizes l.
Proof.
  induction l as [|g r IH]; cbn [til sum_sizes]; [lia|]. intros (H1 & _ & H3). specialize (IH H3). lia.
Qed.

Lemma til_nonew l off : til l off -> nonew off l.
Proof.
  induction l as [|g r IH]; intro H; [constructor|]. destruct H as (H1 & H2 & H3).
  constructor; [|apply IH; exact H3]. pose proof (til_sizes_nonneg _ _ H3). cbn [sum_sizes] in H2. lia.
Qed.

Lemma til_pop l x off : til (l ++ [x]) off -> til l (off - sg_size x).
Proof.
  induction l as [|g r IH]; cbn [app til]; [auto|].
  intros (H1 & H2 & H3). repeat split; [exact H1| |apply IH; exact H3].
  cbn [sum_sizes] in *. rewrite sum_sizes_app in H2. cbn [sum_sizes] in H2. lia.
Qed.

Lemma til_snoc l x off : til l off -> sg_abs x = off -> 1 <= sg_size x -> til (l ++ [x]) (off + sg_size x).
Proof.
  intros H Ha Hs. induction l as [|g r IH]; cbn [app til sum_sizes].
  - repeat split; lia.
  - destruct H as (H1 & H2 & H3). repeat split; [exact H1| |apply IH; exact H3].
    cbn [sum_sizes] in H2. rewrite sum_sizes_app. cbn [sum_sizes]. lia.
Qed.

(* ------------------------------------------------------------------ the operations *)
(* the re-flagging and removal relations of Conn/C18_StepLemmas.v, read as [sle] / [subseg] *)
Lemma sle_F2 l l' : Forall2 C18_StepLemmas.seg_le l l' -> sle l' l.
Proof.
  intro H. induction H as [|g g' l l' ((A & S & P) & D) _ IH]; constructor; [|exact IH].
  unfold seg_le. auto.
Qed.

Lemma tfl_sle t t' : tfl seg_eq t t' -> sle (ss_segs t') (ss_segs t) /\ ss_offset t' = ss_offset t.
Proof. intro H. destruct (tfl_eq_le _ _ H) as (F & O & _). split; [apply sle_F2; exact F|exact O]. Qed.

Lemma trm_subseg t t' : trm t t' -> subseg (ss_segs t') (ss_segs t) /\ ss_offset t' = ss_offset t.
Proof. intros (n & F & O & _). split; [exists n; apply sle_F2; exact F|exact O]. Qed.

(* popping the last segment *)
Definition popped (t t' : segments) (x : seg) : Prop :=
  ss_segs t = ss_segs t' ++ [x] /\ ss_offset t' = ss_offset t - sg_size x /\
  sg_probe x = true /\ sg_delivered x = false.

Lemma tpop_popped t t' : tpop t t' -> exists x, popped t t' x.
Proof.
  intros (g & S & U & O & _). exists g. apply andb_prop in U. destruct U as [P D].
  apply negb_true_iff in D. unfold popped. auto.
Qed.

Lemma pop_mtu_probe_cases t q t' b :
  pop_mtu_probe t q = (t', b) ->
  (b = false /\ t' = t) \/ (b = true /\ exists x, popped t t' x).
Proof.
  intro H. destruct (pop_mtu_probe_spec _ _ _ _ H) as [[-> P]|[-> ->]]; [right|left]; auto using tpop_popped.
Qed.

(* what a pop does to the table properties *)
Lemma popped_props t t' x C e m :
  popped t t' x ->
  (szC C (ss_segs t) -> szC C (ss_segs t')) /\
  (tok (ss_segs t) -> noup (ss_segs t')) /\
  (til (ss_segs t) (ss_offset t) -> til (ss_segs t') (ss_offset t')) /\
  (NP e m (ss_segs t) -> NP e m (ss_segs t')) /\
  (PP e m (ss_segs t) -> PP e m (ss_segs t')) /\
  (nonew e (ss_segs t) -> nonew e (ss_segs t')).
Proof.
  intros (E & Ho & _ & _). rewrite E, Ho. unfold szC, NP, PP, nonew.
  repeat split; try (intro H; apply Forall_app in H; exact (proj1 H)).
  - apply tok_snoc_noup.
  - apply til_pop.
Qed.

(* ------------------------------------------------------------------ the size state *)
Lemma next_size_bounds s s' r :
  min_ss s <= max_ss s -> next_segment_size s = Some (s', r) ->
  min_ss s' = min_ss s /\ max_ss s' = max_ss s /\ min_ss s <= r <= max_ss s.
Proof.
  intros Hle. unfold next_segment_size. destruct (cd_rem s =? 0).
  - unfold next_probe, np_sum2, np_sum1, np_half, np_diff. cbn [min_ss max_ss].
    destruct (_ && _ && _); cbn [bind]; [|discriminate].
    intro H; injection H as <- <-. cbn [min_ss max_ss]. repeat split; lia.
  - intro H; injection H as <- <-. cbn [min_ss max_ss]. repeat split; lia.
Qed.

(* one run of the segmentation loop, from a table without an undelivered probe *)
Lemma segment_loop_c14 C e : forall fuel nagle ss segs remaining rwr ss' segs' rem',
  1 <= min_ss ss <= max_ss ss -> max_ss ss <= C ->
  noup (ss_segs segs) -> til (ss_segs segs) (ss_offset segs) -> szC C (ss_segs segs) ->
  NP e (min_ss ss) (ss_segs segs) -> PP e (min_ss ss) (ss_segs segs) ->
  segment_loop fuel nagle ss segs remaining rwr = Some (ss', segs', rem') ->
  min_ss ss' = min_ss ss /\ max_ss ss' = max_ss ss /\
  tok (ss_segs segs') /\ til (ss_segs segs') (ss_offset segs') /\ szC C (ss_segs segs') /\
  NP e (min_ss ss) (ss_segs segs') /\ PP e (min_ss ss) (ss_segs segs').
Proof.
  induction fuel as [|x fuel IH]; intros nagle ss segs remaining rwr ss' segs' rem' Hss HC Hn Ht Hz Hnp Hpp;
    cbn [segment_loop].
  { intro H; injection H as <- <- <-. repeat split; auto using noup_tok. }
  destruct (Z.ltb_spec 0 remaining) as [Hr0|Hr0]; cbn [andb];
    [|intro H; injection H as <- <- <-; repeat split; auto using noup_tok].
  destruct (Z.ltb_spec 0 rwr) as [Hw0|Hw0];
    [|intro H; injection H as <- <- <-; repeat split; auto using noup_tok].
  destruct (next_segment_size ss) as [[ss1 sz]|] eqn:En; [|discriminate].
  destruct (next_size_bounds ss ss1 sz ltac:(lia) En) as (Hm & Hx & Hsz).
  set (payload := Z.min (Z.min sz rwr) remaining).
  assert (Hp : 1 <= payload <= sz) by (unfold payload; lia).
  destruct (nagle && _ && _).
  { intro H; injection H as <- <- <-. repeat split; auto using noup_tok. }
  unfold mss. rewrite Hm.
  assert (Hnew : forall b, b = (min_ss ss <? payload) ->
    ss_segs (enqueue segs payload b) = ss_segs segs ++
      [{| sg_size := payload; sg_abs := ss_offset segs; sg_delivered := false; sg_sent := NotSent;
          sg_probe := b; sg_lost := false; sg_expired := false; sg_sacks_after := false |}] /\
    ss_offset (enqueue segs payload b) = ss_offset segs + payload /\
    til (ss_segs (enqueue segs payload b)) (ss_offset (enqueue segs payload b)) /\
    szC C (ss_segs (enqueue segs payload b)) /\
    NP e (min_ss ss) (ss_segs (enqueue segs payload b)) /\
    PP e (min_ss ss) (ss_segs (enqueue segs payload b))).
  { intros b Hb. unfold enqueue, set_segs. cbn [ss_segs ss_offset].
    split; [reflexivity|]. split; [reflexivity|].
    split; [apply (til_snoc _ {| sg_size := payload; sg_abs := ss_offset segs; sg_delivered := false;
                                 sg_sent := NotSent; sg_probe := b; sg_lost := false; sg_expired := false;
                                 sg_sacks_after := false |}); cbn [sg_abs sg_size]; auto; lia|].
    split; [apply Forall_app; split; [exact Hz|constructor; [cbn [sg_size]; lia|constructor]]|].
    split; apply Forall_app; (split; [assumption|]); constructor; try constructor;
      cbn [sg_size sg_abs sg_probe]; intros _ Hb'; rewrite Hb in Hb'; lia. }
  destruct (Z.ltb_spec (min_ss ss) payload) as [Hpr|Hnp'].
  - (* the probe: the loop stops *)
    destruct (Hnew true) as (E1 & E2 & A1 & A2 & A3 & A4); [reflexivity|].
    intro H; injection H as <- <- <-. repeat split; auto.
    rewrite E1. apply noup_tok_snoc. exact Hn.
  - destruct (Hnew false) as (E1 & E2 & A1 & A2 & A3 & A4); [reflexivity|].
    intro H.
    destruct (IH nagle ss1 (enqueue segs payload false) (remaining - payload) (rwr - payload) ss' segs' rem')
      as (B1 & B2 & B3 & B4 & B5 & B6 & B7); try (rewrite ?Hm, ?Hx; assumption); try lia.
    + rewrite E1. apply noup_snoc; [exact Hn|]. cbn [sg_probe]. discriminate.
    + rewrite Hm in *. repeat split; auto; congruence.
Qed.

(* the items of the sending iterator are segments of the table *)
Lemma iter_seg_in t st f : In f (iter_for_sending t st) -> In (fs_seg f) (ss_segs t).
Proof.
  unfold iter_for_sending. intro H. apply filter_In in H. destruct H as [Hin _].
  apply in_map_iff in Hin. destruct Hin as ([i g] & <- & Hin). cbn [fs_seg].
  apply enum_from_In in Hin. revert Hin. generalize (match st with Some s => Z.to_nat (Z.max (seq_sub s (ss_snd_una t)) 0) | None => 0%nat end). intros n. revert n. generalize (ss_segs t). induction l as [|y ys IHl]; intros [|n] Hn; cbn [skipn] in Hn; auto; try contradiction. right. eapply IHl. exact Hn.
Qed.
