(* C04 at connection level: c04_vsock_ack_ok (Conn/C04_Pred.v) against EVERY trace of the model.
   FALSE as written, in two ways (witnesses at the end of the file); under the guard c04_peer_ok of
   Conn/C04_Guard.v (at most WRAP_TOLERANCE sequence-carrying packets, 16-bit sequence numbers, no ST_DATA
   numbered at or above an ST_FIN) it is a theorem of every trace from vsock_new on a valid configuration:
   c04_vsock_ack_guarded_trace.
   The invariant: last_consumed = base + K where K = the number of slots the reassembly queue has consumed so far
   (Rx_Proofs.consumed), every number base+1 .. base+K was delivered, every slot held out of order stands for a
   delivered ST_DATA number, and every datagram of a poll acknowledges last_consumed as it was when the
   datagram was built (the receive-side relation RX of Conn/C17_TraceLemmas.v). *)
From Utp Require Rx.Rx_Slots.
From Utp Require Import Base.Prelude Wire.SeqNr Wire.SeqNr_Proofs Wire.Header Wire.Header_Proofs Rtt.Rtte Mtu.SegSizes
  Rx.Rx Rx.Rx_Proofs Tx.Ring Tx.Segments Tx.Segments_Proofs Conn.Recovery Conn.Msg Conn.VSockRec Conn.VSock Conn.VSockRun Conn.VObs
  Conn.VSock_Lemmas Conn.VSock_LemmasStep Conn.VSock_LemmasTx Conn.VSock_LemmasFin Conn.C17_Pred Conn.C17_Proofs
  Conn.VSock_LemmasIn Conn.C17_StepLemmas Conn.C17_Step Conn.C04_Pred Conn.C04_Guard Conn.C17_TraceLemmas.

(* ------------------------------------------------------------------ 16-bit arithmetic *)
Lemma wadd16_wadd16 b x y : wadd16 (wadd16 b x) y = wadd16 b (x + y).
Proof. unfold wadd16, M16. lia. Qed.

Lemma wadd16_mod b x : wadd16 b (x mod M16) = wadd16 b x.
Proof. unfold wadd16, M16. lia. Qed.

Lemma wadd16_0 b : 0 <= b < M16 -> wadd16 b 0 = b.
Proof. unfold wadd16, M16. lia. Qed.

Lemma wsub16_wadd16 b k : 0 <= k < M16 -> wsub16 (wadd16 b k) b = k.
Proof. unfold wsub16, wadd16, M16. lia. Qed.

(* the sequence number is the reference plus the offset the code computes, whatever the tolerance says *)
Lemma seq_sub_wadd a c : 0 <= a < M16 -> 0 <= c < M16 -> wadd16 c (seq_sub a c) = a.
Proof.
  intros Ha Hc. unfold seq_sub, seq_nr_offset, wadd16, wsub16, WRAP_TOLERANCE, M16 in *.
  destruct (Z.ltb_spec a c); [destruct (Z.leb_spec ((a - c) mod 65536) 1024)|
    destruct (Z.eqb_spec a c); [|destruct (Z.leb_spec ((c - a) mod 65536) 1024)]]; lia.
Qed.

Lemma seq_sub_small b k1 k2 :
  0 <= k1 <= WRAP_TOLERANCE -> 0 <= k2 <= WRAP_TOLERANCE ->
  seq_sub (wadd16 b k2) (wadd16 b k1) = k2 - k1.
Proof.
  intros H1 H2. unfold seq_sub. apply offset_true_distance_pair.
  - apply wadd16_range.
  - apply wadd16_range.
  - unfold WRAP_TOLERANCE. lia.
  - unfold WRAP_TOLERANCE in *. lia.
  - unfold wadd16, M16. lia.
Qed.

Lemma seq_sub_base b k : 0 <= b < M16 -> 0 <= k <= WRAP_TOLERANCE -> seq_sub (wadd16 b k) b = k.
Proof.
  intros Hb Hk. rewrite <- (wadd16_0 b Hb) at 2. rewrite seq_sub_small; unfold WRAP_TOLERANCE in *; lia.
Qed.

(* ------------------------------------------------------------------ the reassembly queue *)
(* the slots from the consumed position on stand for delivered ST_DATA numbers; g = slots ever popped,
   c = slots ever consumed, base + (absolute index + 1) = the sequence number of a slot *)
Definition slots_rcv (Rd : list Z) (b g c : Z) (data : list slot) : Prop :=
  forall (i : nat) sl, nth_error data i = Some sl -> slot_is_default sl = false ->
    c <= g + Z.of_nat i -> In (wadd16 b (g + Z.of_nat i + 1)) Rd.

Lemma slots_rcv_mono Rd Rd' b g c c' data :
  slots_rcv Rd b g c data -> incl Rd Rd' -> c <= c' -> slots_rcv Rd' b g c' data.
Proof. intros H Hi Hc i sl Hn Hd Hge. apply Hi. eapply H; eauto. lia. Qed.

Lemma slots_rcv_dshift Rd b c (r r' : rx) :
  dshift r r' -> slots_rcv Rd b (g_base r) c (ooq_data r) -> slots_rcv Rd b (g_base r') c (ooq_data r').
Proof.
  intros [Hg Hs] H i sl Hn Hd Hge. specialize (Hs i sl Hn Hd).
  specialize (H _ sl Hs Hd).
  replace (g_base r + Z.of_nat (i + Z.to_nat (g_base r' - g_base r))) with (g_base r' + Z.of_nat i) in H by lia.
  apply H. exact Hge.
Qed.

Lemma slots_rcv_set_nth Rd b g c data e m :
  slots_rcv Rd b g c data ->
  (c <= g + Z.of_nat e -> In (wadd16 b (g + Z.of_nat e + 1)) Rd) ->
  slots_rcv Rd b g c (set_nth data e m).
Proof.
  intros H He i sl Hn Hd Hge. rewrite Rx_Slots.nth_error_set_nth in Hn.
  destruct (Nat.eqb_spec i e) as [->|Hne]; [apply He; exact Hge|]. eapply H; eauto.
Qed.

(* one accepted packet: what ooq_add_remove does to the positions *)
Lemma ooq_consumed_shape (s : rx) k p off s1 n bb :
  rx_inv s -> 0 <= off -> ooq_add_remove s k p off = (s1, ArConsumed n bb) ->
  exists m,
    let e := Z.to_nat (off + filled_front s) in
    ooq_data s1 = set_nth (ooq_data s) e m /\ slot_is_default m = false /\
    (e < length (ooq_data s))%nat /\
    g_base s1 = g_base s /\ filled_front s1 = filled_front s + n /\ ooq_len s1 = ooq_len s + 1 /\
    0 <= n /\ (off = 0 -> 1 <= n) /\ (0 < off -> n = 0) /\
    (forall j : nat, Z.of_nat j < n ->
       exists sl, nth_error (ooq_data s1) (Z.to_nat (filled_front s) + j) = Some sl /\ slot_is_default sl = false).
Proof.
  intros Hinv Hoff H. pose proof (inv_ff_bounds s Hinv) as Hb.
  destruct (ooq_add_remove_cases _ _ _ _ _ _ H) as [[_ F]|(m & old & Hn & Hod & Hmd & Hfull & _ & Hs)]; [contradiction|].
  cbv zeta in Hs. destruct Hs as [-> Hr]. injection Hr as -> _.
  set (e := Z.to_nat (off + filled_front s)) in *. set (ffn := Z.to_nat (filled_front s)) in *.
  set (data' := set_nth (ooq_data s) e m) in *.
  assert (He : (e < length (ooq_data s))%nat) by (apply nth_error_Some; rewrite Hn; discriminate).
  pose proof (twf_n_nonneg (skipn ffn data')) as Hnn.
  exists m. cbn [set_ooq ooq_data g_base filled_front ooq_len].
  split; [reflexivity|]. split; [exact Hmd|]. split; [exact He|]. split; [reflexivity|].
  split; [reflexivity|]. split; [reflexivity|]. split; [lia|].
  assert (Hlen' : length data' = length (ooq_data s)) by apply set_nth_length.
  split; [|split].
  - intro H0. assert (Ee : e = ffn) by (unfold e, ffn; rewrite H0; reflexivity).
    (* the new slot is the first of the run *)
    destruct (skipn ffn data') as [|x xs] eqn:Esk.
    { exfalso. assert (length (skipn ffn data') = 0%nat) by (rewrite Esk; reflexivity).
      rewrite skipn_length in H1. lia. }
    assert (Hx : nth_error data' ffn = Some x).
    { rewrite <- (Nat.add_0_r ffn). rewrite <- Rx_Slots.nth_error_skipn. rewrite Esk. reflexivity. }
    unfold data' in Hx. rewrite Rx_Slots.nth_error_set_nth in Hx. rewrite <- Ee, Nat.eqb_refl, Hn in Hx.
    injection Hx as <-. unfold twf_n. rewrite twf_cons. rewrite Hmd. cbn [fst].
    pose proof (twf_n_nonneg xs). unfold twf_n in *. lia.
  - intro Hpos. assert (Hlt : (ffn < e)%nat) by (unfold e, ffn; lia).
    (* the hole at filled_front is still there *)
    assert (Hfc : filled_front s < ooq_capacity s).
    { unfold ooq_is_full in Hfull. apply Z.eqb_neq in Hfull. lia. }
    pose proof (hole_at_filled_front s Hinv Hfc) as Hh. fold ffn in Hh.
    destruct (skipn ffn data') as [|x xs] eqn:Esk; [reflexivity|].
    assert (Hx : nth_error data' ffn = Some x).
    { rewrite <- (Nat.add_0_r ffn). rewrite <- Rx_Slots.nth_error_skipn. rewrite Esk. reflexivity. }
    unfold data' in Hx. rewrite Rx_Slots.nth_error_set_nth in Hx.
    destruct (Nat.eqb_spec ffn e); [lia|].
    rewrite (nth_error_nth _ _ slot_default Hx) in Hh.
    unfold twf_n. rewrite twf_cons. rewrite Hh. reflexivity.
  - intros j Hj.
    assert (Hlt : (j < length (skipn ffn data'))%nat).
    { pose proof (twf_n_nonneg (skipn ffn data')). lia. }
    destruct (nth_error (skipn ffn data') j) as [sl|] eqn:Ej; [|apply nth_error_None in Ej; lia].
    exists sl. split; [rewrite <- Rx_Slots.nth_error_skipn; exact Ej|].
    rewrite <- (nth_error_nth _ _ slot_default Ej). apply front_filled. exact Hj.
Qed.

(* everything but ArConsumed leaves the queue alone *)
Lemma ooq_not_consumed (s : rx) k p off s1 r :
  ooq_add_remove s k p off = (s1, r) -> (forall n b, r <> ArConsumed n b) -> s1 = s.
Proof.
  intros H Hn. destruct (ooq_add_remove_cases _ _ _ _ _ _ H) as [[E _]|(m & old & _ & _ & _ & _ & _ & Hs)]; [exact E|].
  cbv zeta in Hs. destruct Hs as [_ Hr]. exfalso. eapply Hn; exact Hr.
Qed.

(* UserRx::add_remove = the queue's add_remove, then possibly a flush *)
Lemma rx_add_remove_shape (s : rx) k p off s2 ar w :
  rx_add_remove s k p off = (s2, ar, w) ->
  exists s1 r, ooq_add_remove s k p off = (s1, r) /\ (ar = UarPanic \/ (ar = UarOk r /\ rxrel s1 s2)).
Proof.
  unfold rx_add_remove. destruct (ooq_add_remove s k p off) as [s1 r] eqn:E.
  intro H. exists s1, r. split; [reflexivity|].
  assert (Hplain : (s1, UarOk r, @nil wake) = (s2, ar, w) -> ar = UarPanic \/ (ar = UarOk r /\ rxrel s1 s2)).
  { intro X; injection X as <- <- _. right. split; [reflexivity|apply rxrel_refl]. }
  destruct r as [n b| | | | |]; try (apply Hplain; exact H).
  destruct ((0 <? n) && ooq_is_full s1); [|apply Hplain; exact H].
  destruct (rx_flush s1) as [[s2' fr] w2] eqn:Ef. destruct fr as [fb|].
  - injection H as <- <- _. right. split; [reflexivity|]. eapply rx_flush_rxrel; exact Ef.
  - injection H as _ <- _. left. reflexivity.
Qed.

Lemma rx_read_ooq (s : rx) n s' r w :
  rx_inv s -> rx_read s n = (s', r, w) ->
  rx_inv s' /\ ooq_data s' = ooq_data s /\ filled_front s' = filled_front s /\ ooq_len s' = ooq_len s /\
  g_base s' = g_base s.
Proof.
  intros Hinv H. destruct (rx_read_spec _ _ _ _ _ Hinv H) as (Hinv' & _).
  split; [exact Hinv'|]. revert H. unfold rx_read.
  destruct (read_loop _ s n []) as [[[s1 out] dead] err] eqn:E.
  assert (Hq : q_inv s) by (destruct Hinv as (_ & _ & _ & _ & _ & Hq & _); exact Hq).
  destruct (read_loop_spec _ _ _ _ _ _ _ _ Hq E) as (_ & _ & Hso & _).
  destruct Hso as (S1 & S2 & S3 & _ & _ & S6 & _).
  destruct err; [intro H; injection H as <- _ _; auto|].
  destruct out; [destruct (is_eof s1); [|destruct dead]|]; intro H; injection H as <- _ _; cbn; auto.
Qed.

Section WithCC.
Context {CC : Type} (cci : cc_iface CC).
Notation vsock := (vsock CC).

(* ------------------------------------------------------------------ the state table, what this proof needs *)
Definition tbl_st (r : table_res (CC:=CC)) : vsock :=
  match r with TblDrop s | TblErr s _ | TblContinue s => s end.

Lemma state_table_keep (s : vsock) h :
  let s1 := tbl_st (state_table s h) in
  v_last_consumed s1 = v_last_consumed s /\ v_rx s1 = v_rx s /\ v_out s1 = v_out s /\ v_inbox s1 = v_inbox s.
Proof.
  unfold state_table, restart_remote_inactivity_timer.
  destruct (ch_type h); destruct (v_state s);
    repeat match goal with |- context [if ?c then _ else _] => destruct c end;
    cbn [tbl_st]; vsimpl; auto.
Qed.

(* an ST_DATA never moves the state past the peer's FIN; a continued message is not processed in Closed *)
Lemma state_table_data_rf (s s1 : vsock) h :
  ch_type h = ST_DATA -> state_table s h = TblContinue s1 ->
  is_remote_fin_or_later (v_state s) = false -> is_remote_fin_or_later (v_state s1) = false.
Proof.
  intros Ht. unfold state_table, restart_remote_inactivity_timer. rewrite Ht.
  destruct (v_state s) eqn:Es; cbn [is_remote_fin_or_later]; try discriminate;
    repeat match goal with |- context [if ?c then _ else _] => destruct c end;
    intro H; try discriminate; injection H as <-; vsimpl; rewrite ?Es; auto.
Qed.

Lemma state_table_continue_not_closed (s s1 : vsock) h :
  state_table s h = TblContinue s1 -> v_state s <> Closed.
Proof.
  unfold state_table. intros H E. rewrite E in H.
  destruct (ch_type h); try discriminate.
Qed.

(* a continued ST_FIN before the peer's FIN was seen is in sequence, and the state after it is past the FIN *)
Lemma state_table_fin (s s1 : vsock) h :
  ch_type h = ST_FIN -> state_table s h = TblContinue s1 ->
  is_remote_fin_or_later (v_state s) = false ->
  ch_seq h = wadd16 (v_last_consumed s) 1 /\ is_remote_fin_or_later (v_state s1) = true.
Proof.
  intros Ht. unfold state_table, restart_remote_inactivity_timer. rewrite Ht.
  destruct (v_state s) eqn:Es; cbn [is_remote_fin_or_later]; try discriminate;
    repeat match goal with
    | |- context [if negb (?a =? ?b) then _ else _] => destruct (Z.eqb_spec a b); cbn [negb]
    | |- context [if ?c then _ else _] => destruct c
    end;
    intro H; try discriminate; injection H as <-; vsimpl; rewrite ?Es; auto.
Qed.

(* LastAck after the table: it was LastAck before, or this is the peer's FIN, continued *)
Lemma state_table_last_ack (s : vsock) h f r :
  v_state (tbl_st (state_table s h)) = LastAck f r ->
  v_state s = LastAck f r \/
  (ch_type h = ST_FIN /\ is_remote_fin_or_later (v_state s) = false /\
   exists s1, state_table s h = TblContinue s1).
Proof.
  unfold state_table, restart_remote_inactivity_timer.
  destruct (ch_type h) eqn:Et; destruct (v_state s) eqn:Es;
    repeat match goal with |- context [if ?c then _ else _] => destruct c end;
    cbn [tbl_st]; vsimpl; rewrite ?Es; intro H; try discriminate; auto;
    right; (split; [reflexivity|]; split; [reflexivity|]; eexists; reflexivity).
Qed.

Lemma state_table_rf_mono (s : vsock) h :
  is_remote_fin_or_later (v_state s) = true ->
  is_remote_fin_or_later (v_state (tbl_st (state_table s h))) = true.
Proof.
  unfold state_table, restart_remote_inactivity_timer.
  destruct (ch_type h) eqn:Et; destruct (v_state s) eqn:Es; cbn [is_remote_fin_or_later]; try discriminate;
    repeat match goal with |- context [if ?c then _ else _] => destruct c end;
    cbn [tbl_st]; vsimpl; rewrite ?Es; auto.
Qed.

(* ------------------------------------------------------------------ the invariant of one poll *)
Definition msg_carries (m : msg) : bool := carries_seq (m_hdr m) (Z.of_nat (length (m_payload m))).
Definition msg_is_fin (m : msg) : bool := ptype_eqb (ch_type (m_hdr m)) ST_FIN.

Fixpoint cntc (l : list msg) : Z :=
  match l with [] => 0 | m :: r => (if msg_carries m then 1 else 0) + cntc r end.

Lemma cntc_nonneg l : 0 <= cntc l.
Proof. induction l as [|m r IH]; cbn [cntc]; [lia|]. destruct (msg_carries m); lia. Qed.

Lemma cntc_app a b : cntc (a ++ b) = cntc a + cntc b.
Proof. induction a as [|m r IH]; cbn [app cntc]; lia. Qed.

Section Poll.
Variable b : Z.
Variables Rd Rf : list Z.
Hypothesis Hb : 0 <= b < M16.
Hypothesis G3 : forall d f, In d Rd -> In f Rf -> c04_pos b d < c04_pos b f.
Hypothesis Htol : Z.of_nat (length Rd + length Rf) <= WRAP_TOLERANCE.

Record PI (s : vsock) (K : Z) : Prop := {
  pi_K : 0 <= K;
  pi_lc : v_last_consumed s = wadd16 b K;
  pi_contig : forall i, 1 <= i <= K -> In (wadd16 b i) Rd \/ In (wadd16 b i) Rf;
  pi_rx : rx_inv (v_rx s);
  pi_slots : is_remote_fin_or_later (v_state s) = false ->
             K = consumed (v_rx s) /\ slots_rcv Rd b (g_base (v_rx s)) K (ooq_data (v_rx s));
  pi_la : forall f r, v_state s = LastAck f r -> In (v_last_consumed s) Rf;
  pi_inbox : forall m, In m (v_inbox s) -> msg_carries m = true ->
             0 <= ch_seq (m_hdr m) < M16 /\
             (if msg_is_fin m then In (ch_seq (m_hdr m)) Rf else In (ch_seq (m_hdr m)) Rd);
  pi_count : K + (ooq_len (v_rx s) - filled_front (v_rx s)) + cntc (v_inbox s)
             <= Z.of_nat (length Rd + length Rf)
}.

Lemma PI_K_tol s K : PI s K -> 0 <= K <= WRAP_TOLERANCE.
Proof.
  intro P. destruct P. pose proof (inv_ff_bounds _ pi_rx0). pose proof (cntc_nonneg (v_inbox s)). lia.
Qed.

(* the acknowledgement numbers of the datagrams of this poll, newest first: base + K_i, K_i non-decreasing in
   time, between lo and hi *)
Fixpoint AckL (lo hi : Z) (out : list packet) : Prop :=
  match out with
  | [] => lo <= hi
  | p :: older => exists Kp, ch_ack (p_hdr p) = wadd16 b Kp /\ ch_type (p_hdr p) <> ST_SYN /\ Kp <= hi /\
                             AckL lo Kp older
  end.

Lemma AckL_mono lo hi hi' out : AckL lo hi out -> hi <= hi' -> AckL lo hi' out.
Proof.
  destruct out as [|p older]; cbn [AckL]; [lia|].
  intros (Kp & A1 & A2 & A3 & A4) H. exists Kp. repeat split; auto. lia.
Qed.

Lemma AckL_lo_hi lo hi out : AckL lo hi out -> lo <= hi.
Proof.
  revert hi. induction out as [|p older IH]; intros hi; cbn [AckL]; [auto|].
  intros (Kp & _ & _ & A3 & A4). specialize (IH _ A4). lia.
Qed.

Lemma AckL_app lo K l out :
  AckL lo K out -> Forall (ackp (wadd16 b K)) l -> AckL lo K (l ++ out).
Proof.
  intros H. induction l as [|p l IH]; intro F; [exact H|].
  inversion F as [|? ? (Ha & Ht) F']; subst. cbn [app AckL]. exists K.
  split; [exact Ha|]. split; [exact Ht|]. split; [lia|apply IH; exact F'].
Qed.

Definition PO (lo : Z) (s : vsock) : Prop := exists K, PI s K /\ AckL lo K (v_out s).

(* ---- rebuilding the invariant ---- *)
Lemma PI_fin (s0 s' : vsock) K :
  PI s0 K -> v_last_consumed s' = v_last_consumed s0 -> rxrel (v_rx s0) (v_rx s') ->
  v_inbox s' = v_inbox s0 ->
  (is_remote_fin_or_later (v_state s') = false -> is_remote_fin_or_later (v_state s0) = false) ->
  (forall f r, v_state s' = LastAck f r -> In (v_last_consumed s0) Rf) -> PI s' K.
Proof.
  intros P E1 (R1 & R2 & R3 & R4 & R5 & R6) E3 Hrf Hla. destruct P.
  constructor; try assumption.
  - congruence.
  - auto.
  - intro Hn. destruct (pi_slots0 (Hrf Hn)) as [C S]. split; [congruence|].
    eapply slots_rcv_dshift; eauto.
  - intros f r Hs. rewrite E1. eapply Hla; eauto.
  - rewrite E3. exact pi_inbox0.
  - rewrite E3. lia.
Qed.

Lemma PI_RX (s s' : vsock) K : RX s s' -> PI s K -> PI s' K.
Proof.
  intros (A1 & A2 & A3 & A4 & A5 & _) P. apply (PI_fin s s' K P A1 A5 A2).
  - rewrite (strel_remote_fin _ _ A4). auto.
  - intros f r Hs. rewrite Hs in A4. exact (pi_la _ _ P _ _ (strel_last_ack _ _ _ A4)).
Qed.

Lemma PO_RX lo (s s' : vsock) : RX s s' -> PO lo s -> PO lo s'.
Proof.
  intros Hr (K & P & A). exists K. split; [eapply PI_RX; eauto|].
  destruct Hr as (A1 & _ & _ & _ & _ & l & A6 & A7 & _). rewrite A6. apply AckL_app; [exact A|].
  destruct P. rewrite <- pi_lc0. exact A7.
Qed.

Lemma PO_closed lo (s : vsock) : PO lo s -> v_inbox_closed s = true -> PO lo (set_state s Closed).
Proof.
  intros (K & P & A) _. exists K. split; [|exact A]. destruct P.
  constructor; vsimpl; try assumption; [discriminate|discriminate].
Qed.

Lemma pos_wadd16 k : 0 <= k < M16 -> c04_pos b (wadd16 b k) = k.
Proof. intro H. unfold c04_pos. apply wsub16_wadd16. exact H. Qed.

(* ---- an ST_DATA handed to the reassembly queue ---- *)
Lemma PI_data (s2 s5 : vsock) (m : msg) K rx1 r w :
  PI s2 K ->
  (m_payload m <> [] ->
   K + (ooq_len (v_rx s2) - filled_front (v_rx s2)) + 1 + cntc (v_inbox s2) <= Z.of_nat (length Rd + length Rf)) ->
  ch_type (m_hdr m) = ST_DATA ->
  (m_payload m <> [] -> 0 <= ch_seq (m_hdr m) < M16 /\ In (ch_seq (m_hdr m)) Rd) ->
  (is_remote_fin_or_later (v_state s2) = true -> In (v_last_consumed s2) Rf) ->
  let off := seq_sub (ch_seq (m_hdr m)) (wadd16 (v_last_consumed s2) 1) in
  0 <= off ->
  rx_add_remove (v_rx s2) KData (m_payload m) off = (rx1, UarOk r, w) ->
  v_rx s5 = rx1 -> v_inbox s5 = v_inbox s2 -> v_state s5 = v_state s2 ->
  v_last_consumed s5 = match r with
                       | ArConsumed n _ => wadd16 (v_last_consumed s2) (n mod M16)
                       | _ => v_last_consumed s2
                       end ->
  exists K', K <= K' /\ PI s5 K'.
Proof.
  intros P Hcnt Ht Hm Hrfin off Hoff Hra E1 E2 E3 E4.
  pose proof (PI_K_tol _ _ P) as HK. destruct P.
  destruct (rx_add_remove_shape _ _ _ _ _ _ _ Hra) as (r1 & r0 & Hooq & [Hp|[Hr Hrel]]); [discriminate|].
  injection Hr as <-.
  assert (Hinv1 : rx_inv r1) by (eapply ooq_add_remove_inv; eauto).
  destruct r as [n bb| | | | |].
  2-6: (assert (Er : r1 = v_rx s2) by (eapply ooq_not_consumed; [exact Hooq|intros; discriminate]);
        exists K; split; [lia|];
        apply (PI_fin s2 s5 K); [constructor; assumption|exact E4|rewrite E1, <- Er; exact Hrel|exact E2|
                                 rewrite E3; auto|rewrite E3; exact pi_la0]).
  (* ArConsumed n bb *)
  destruct (ooq_consumed_shape _ _ _ _ _ _ _ pi_rx0 Hoff Hooq)
    as (sl0 & Hd & Hsl0 & He & Hg & Hff & Hlen & Hn0 & Hn1 & Hnz & Hrun).
  cbv zeta in Hd, He.
  pose proof (inv_ff_bounds _ pi_rx0) as Hb0.
  (* the payload is not empty: the packet carries its number *)
  assert (Hpl : m_payload m <> []).
  { destruct (ooq_add_remove_cases _ _ _ _ _ _ Hooq) as [[_ F]|(mm & old & _ & _ & _ & _ & Hsh & _)]; [contradiction|].
    intro E. rewrite E in Hooq. unfold ooq_add_remove in Hooq.
    destruct (ooq_is_full (v_rx s2)); [discriminate|]. destruct (_ <=? _); discriminate. }
  destruct (Hm Hpl) as [Hrange HinRd]. specialize (Hcnt Hpl).
  assert (Hlc : 0 <= v_last_consumed s2 < M16) by (rewrite pi_lc0; apply wadd16_range).
  assert (Hseq : ch_seq (m_hdr m) = wadd16 b (K + 1 + off)).
  { pose proof (seq_sub_wadd (ch_seq (m_hdr m)) (wadd16 (v_last_consumed s2) 1) Hrange (wadd16_range _ _)) as X.
    fold off in X. rewrite <- X, pi_lc0, !wadd16_wadd16. f_equal. lia. }
  destruct (is_remote_fin_or_later (v_state s2)) eqn:Erf.
  - (* past the peer's FIN: nothing is consumed (a run would start at a number above the FIN) *)
    assert (Hnz0 : n = 0).
    { destruct (Z.eq_dec off 0) as [E0|N0]; [|apply Hnz; lia]. exfalso.
      assert (Hla : In (v_last_consumed s2) Rf) by (apply Hrfin; reflexivity).
      rewrite E0, Z.add_0_r in Hseq.
      pose proof (G3 _ _ HinRd Hla) as Hg3. rewrite Hseq, pi_lc0 in Hg3.
      rewrite !pos_wadd16 in Hg3 by (unfold WRAP_TOLERANCE, M16 in *; lia). lia. }
    subst n. exists K. split; [lia|].
    constructor; try assumption.
    + rewrite E4, pi_lc0. rewrite wadd16_wadd16. f_equal. unfold M16. lia.
    + rewrite E1. destruct Hrel as (X & _). auto.
    + rewrite E3, Erf. discriminate.
    + intros f r Hs. rewrite E4. replace (wadd16 (v_last_consumed s2) (0 mod M16)) with (v_last_consumed s2)
        by (unfold wadd16, M16 in *; lia). rewrite E3 in Hs. eapply pi_la0; eauto.
    + rewrite E2. exact pi_inbox0.
    + rewrite E1, E2. destruct Hrel as (_ & _ & X & _). lia.
  - (* before the peer's FIN *)
    destruct (pi_slots0 eq_refl) as [Hc Hs].
    exists (K + n). split; [lia|].
    assert (Hs0 : slots_rcv Rd b (g_base r1) K (ooq_data r1)).
    { rewrite Hg, Hd.
      apply slots_rcv_set_nth; [exact Hs|]. intros _.
      replace (g_base (v_rx s2) + Z.of_nat (Z.to_nat (off + filled_front (v_rx s2))) + 1) with (K + 1 + off)
        by (unfold consumed in Hc; lia).
      rewrite <- Hseq. exact HinRd. }
    assert (Hs1 : slots_rcv Rd b (g_base r1) (K + n) (ooq_data r1))
      by (apply (slots_rcv_mono Rd Rd b _ K (K + n)); [exact Hs0|apply incl_refl|lia]).
    constructor.
    + lia.
    + rewrite E4, pi_lc0. rewrite wadd16_mod, wadd16_wadd16. reflexivity.
    + intros i Hi. destruct (Z_le_gt_dec i K) as [Hle|Hgt]; [apply pi_contig0; lia|]. left.
      destruct (Hrun (Z.to_nat (i - K - 1)) ltac:(lia)) as (sl & Hnth & Hsl).
      specialize (Hs0 _ sl Hnth Hsl).
      replace (g_base r1 + Z.of_nat (Z.to_nat (filled_front (v_rx s2)) + Z.to_nat (i - K - 1)) + 1) with i in Hs0
        by (unfold consumed in Hc; lia).
      apply Hs0. unfold consumed in Hc. lia.
    + rewrite E1. destruct Hrel as (X & _). auto.
    + intros _. rewrite E1. destruct Hrel as (_ & X2 & _ & _ & _ & X6). split.
      * rewrite X2. unfold consumed in *. lia.
      * eapply slots_rcv_dshift; eauto.
    + intros f r Hst. rewrite E3 in Hst. rewrite Hst in Erf. discriminate.
    + rewrite E2. exact pi_inbox0.
    + rewrite E1, E2. destruct Hrel as (_ & _ & X & _). lia.
Qed.

(* ---- the peer's FIN, in sequence, handed to the reassembly queue ---- *)
Lemma PI_finacc (s2 s5 : vsock) (m : msg) K rx1 r w :
  PI s2 K ->
  K + (ooq_len (v_rx s2) - filled_front (v_rx s2)) + 1 + cntc (v_inbox s2) <= Z.of_nat (length Rd + length Rf) ->
  In (ch_seq (m_hdr m)) Rf -> ch_seq (m_hdr m) = wadd16 (v_last_consumed s2) 1 ->
  rx_add_remove (v_rx s2) KFin (m_payload m) 0 = (rx1, UarOk r, w) ->
  v_rx s5 = rx1 -> v_inbox s5 = v_inbox s2 -> is_remote_fin_or_later (v_state s5) = true ->
  v_last_consumed s5 = ch_seq (m_hdr m) ->
  PI s5 (K + 1).
Proof.
  intros P Hcnt HinRf Hseq Hra E1 E2 E3 E4. destruct P.
  destruct (rx_add_remove_spec _ _ _ _ _ _ _ pi_rx0 (Z.le_refl 0) Hra) as (Hinv' & _).
  destruct (rx_add_remove_shape _ _ _ _ _ _ _ Hra) as (r1 & r0 & Hooq & [Hp|[Hr Hrel]]); [discriminate|].
  injection Hr as <-.
  assert (Hx : ooq_len r1 - filled_front r1 <= ooq_len (v_rx s2) - filled_front (v_rx s2)).
  { destruct r as [n bb| | | | |].
    2-6: (assert (Er : r1 = v_rx s2) by (eapply ooq_not_consumed; [exact Hooq|intros; discriminate]);
          rewrite Er; lia).
    destruct (ooq_consumed_shape _ _ _ _ _ _ _ pi_rx0 (Z.le_refl 0) Hooq)
      as (sl0 & _ & _ & _ & _ & Hff & Hlen & _ & Hn1 & _). specialize (Hn1 eq_refl). lia. }
  assert (Hlc5 : v_last_consumed s5 = wadd16 b (K + 1)).
  { rewrite E4, Hseq, pi_lc0, wadd16_wadd16. reflexivity. }
  constructor.
  - lia.
  - exact Hlc5.
  - intros i Hi. destruct (Z_le_gt_dec i K) as [Hle|Hgt]; [apply pi_contig0; lia|].
    right. replace i with (K + 1) by lia. rewrite <- Hlc5, E4. exact HinRf.
  - rewrite E1. exact Hinv'.
  - rewrite E3. discriminate.
  - intros f r' _. rewrite E4. exact HinRf.
  - rewrite E2. exact pi_inbox0.
  - rewrite E1, E2. destruct Hrel as (_ & _ & X & _). lia.
Qed.

(* ---- one incoming message, by the parts of Conn/VSock_LemmasIn.v ---- *)
Lemma pim_ack_keep (s1 s2 : vsock) h res :
  pim_ack cci s1 h = Some (s2, res) ->
  v_last_consumed s2 = v_last_consumed s1 /\ v_rx s2 = v_rx s1 /\ v_inbox s2 = v_inbox s1 /\
  v_out s2 = v_out s1 /\ v_state s2 = v_state s1.
Proof.
  unfold pim_ack. destruct (remove_up_to_ack _ _ _ _) as [segs1 res0].
  destruct (match is_recovering _, _ with | false, Some rtt => _ | _, _ => _ end) as [rtte1|]; [|discriminate].
  destruct (cc_on_ack _ _ _ _ _) as [cc3|]; [|discriminate].
  destruct (recovery_on_ack _ _ _ _ _ _ _ _) as [[[rec1 segs2] cc4]|]; [|discriminate].
  intro H; injection H as <- _. vsimpl. auto.
Qed.

Definition stPO (lo : Z) {A} (r : step A) : Prop :=
  match r with SOk s' _ | SErr s' _ => PO lo s' | SPanic => True end.

Lemma PO_pim_data lo (s2 : vsock) m res K :
  PI s2 K -> AckL lo K (v_out s2) ->
  ch_type (m_hdr m) = ST_DATA ->
  (m_payload m <> [] ->
   0 <= ch_seq (m_hdr m) < M16 /\ In (ch_seq (m_hdr m)) Rd /\
   K + (ooq_len (v_rx s2) - filled_front (v_rx s2)) + 1 + cntc (v_inbox s2) <= Z.of_nat (length Rd + length Rf)) ->
  (is_remote_fin_or_later (v_state s2) = true -> In (v_last_consumed s2) Rf) ->
  stPO lo (pim_data cci s2 m res (seq_sub (ch_seq (m_hdr m)) (wadd16 (v_last_consumed s2) 1))).
Proof.
  intros P2 A2 Ety Hpl Hrfin. unfold pim_data.
  destruct (Z.ltb_spec (seq_sub (ch_seq (m_hdr m)) (wadd16 (v_last_consumed s2) 1)) 0) as [Hneg|Hoff].
  { cbn [stPO]. exists K. unfold force_immediate_ack. split; [|vsimpl; exact A2].
    destruct P2. constructor; vsimpl; assumption. }
  cbv zeta.
  match goal with |- context [rx_add_remove (v_rx ?x)] => set (s3 := x) end.
  assert (F3 : v_last_consumed s3 = v_last_consumed s2 /\ v_rx s3 = v_rx s2 /\ v_inbox s3 = v_inbox s2 /\
               v_out s3 = v_out s2 /\ v_state s3 = v_state s2) by (subst s3; vsimpl; auto).
  assert (P3 : PI s3 K) by (destruct P2; subst s3; constructor; vsimpl; assumption).
  clearbody s3. destruct F3 as (F31 & F32 & F33 & F34 & F35).
  destruct (rx_add_remove _ _ _ _) as [[rx1 ar] w] eqn:Era.
  destruct ar as [r|]; [|exact I].
  rewrite <- F31 in Era, Hoff.
  assert (Hpl3 : m_payload m <> [] -> 0 <= ch_seq (m_hdr m) < M16 /\ In (ch_seq (m_hdr m)) Rd).
  { intro Hne. destruct (Hpl Hne) as (X1 & X2 & _). auto. }
  assert (Hcnt3 : m_payload m <> [] ->
                  K + (ooq_len (v_rx s3) - filled_front (v_rx s3)) + 1 + cntc (v_inbox s3)
                  <= Z.of_nat (length Rd + length Rf)).
  { intro Hne. rewrite F32, F33. destruct (Hpl Hne) as (_ & _ & X). exact X. }
  assert (Hrfin3 : is_remote_fin_or_later (v_state s3) = true -> In (v_last_consumed s3) Rf)
    by (rewrite F35, F31; exact Hrfin).
  destruct (add_err r) eqn:Eerr.
  { pose proof (PI_data s3 (add_wakes (set_rx s3 rx1) (rx_wakes w)) m K rx1 r w P3 Hcnt3 Ety Hpl3 Hrfin3 Hoff Era) as X.
    destruct X as (K' & HK' & P'); try (unfold add_wakes; vsimpl; reflexivity).
    { unfold add_wakes; vsimpl. destruct r; try reflexivity. discriminate. }
    cbn [stPO]. exists K'. split; [exact P'|]. unfold add_wakes; vsimpl. rewrite F34. eapply AckL_mono; eauto. }
  match goal with |- context [ooq_is_empty (v_rx ?x)] => set (s5 := x) end.
  assert (P5 : exists K', K <= K' /\ PI s5 K').
  { apply (PI_data s3 s5 m K rx1 r w P3 Hcnt3 Ety Hpl3 Hrfin3 Hoff Era);
      subst s5; destruct r; unfold add_wakes, restart_remote_inactivity_timer; vsimpl; try reflexivity. }
  assert (O5 : v_out s5 = v_out s2).
  { subst s5; destruct r; unfold add_wakes, restart_remote_inactivity_timer; vsimpl; exact F34. }
  clearbody s5. destruct P5 as (K' & HK' & P5).
  assert (PO5 : PO lo s5) by (exists K'; split; [exact P5|rewrite O5; eapply AckL_mono; eauto]).
  destruct (negb _ || negb _); [|exact PO5].
  assert (PO6 : PO lo (force_immediate_ack s5)).
  { destruct PO5 as (K5 & Q5 & A5). exists K5. unfold force_immediate_ack. split; [|vsimpl; exact A5].
    destruct Q5. constructor; vsimpl; assumption. }
  pose proof (send_ack_RX (force_immediate_ack s5)) as Hsa.
  destruct (send_ack _) as [s6 b6|s6 e6|]; cbn [sbind stR stPO] in *; [| |exact I]; eapply PO_RX; eauto.
Qed.

Lemma PO_pim_fin lo (s0 s2 : vsock) m res K :
  PI s0 K -> AckL lo K (v_out s0) ->
  v_last_consumed s2 = v_last_consumed s0 -> v_rx s2 = v_rx s0 -> v_inbox s2 = v_inbox s0 ->
  v_out s2 = v_out s0 ->
  is_remote_fin_or_later (v_state s2) = true ->
  In (ch_seq (m_hdr m)) Rf -> ch_seq (m_hdr m) = wadd16 (v_last_consumed s0) 1 ->
  K + (ooq_len (v_rx s0) - filled_front (v_rx s0)) + 1 + cntc (v_inbox s0) <= Z.of_nat (length Rd + length Rf) ->
  stPO lo (pim_fin s2 m res (seq_sub (ch_seq (m_hdr m)) (wadd16 (v_last_consumed s2) 1)) false).
Proof.
  intros P0 A0 F21 F22 F23 F24 Hrf HinRf Hseq Hcnt1. unfold pim_fin. cbv zeta.
  rewrite F21, <- Hseq, seq_sub_refl. cbn [negb andb Z.leb Z.compare].
  destruct (rx_add_remove _ _ _ _) as [[rx1 ar] w] eqn:Era.
  destruct ar as [r|]; [|exact I].
  assert (Era0 : rx_add_remove (v_rx s0) KFin (m_payload m) 0 = (rx1, UarOk r, w)).
  { rewrite <- Era. unfold force_immediate_ack. vsimpl. rewrite F22. reflexivity. }
  assert (Hfin : forall s5 : vsock, v_rx s5 = rx1 -> v_inbox s5 = v_inbox s0 -> v_state s5 = v_state s2 ->
                   v_last_consumed s5 = ch_seq (m_hdr m) -> v_out s5 = v_out s0 -> PO lo s5).
  { intros s5 E1 E2 E3 E4 E5. exists (K + 1). split.
    - apply (PI_finacc s0 s5 m K rx1 r w P0 Hcnt1 HinRf Hseq Era0 E1 E2); [rewrite E3; exact Hrf|exact E4].
    - rewrite E5. eapply AckL_mono; [exact A0|lia]. }
  destruct (add_err r).
  - cbn [stPO]. apply Hfin; unfold add_wakes, force_immediate_ack; vsimpl; auto.
  - destruct (mark_vsock_closed _) as [tx1 w2].
    cbn [stPO]. apply Hfin; unfold add_wakes, force_immediate_ack; vsimpl; auto.
Qed.

Lemma PO_msg lo (s : vsock) m rest : PO lo s -> v_inbox s = m :: rest ->
  match process_incoming_message cci (set_inbox s rest) m with
  | SOk s' _ | SErr s' _ => PO lo s'
  | SPanic => True
  end.
Proof.
  intros (K & P & A) Hin.
  assert (Hm : msg_carries m = true ->
               0 <= ch_seq (m_hdr m) < M16 /\
               (if msg_is_fin m then In (ch_seq (m_hdr m)) Rf else In (ch_seq (m_hdr m)) Rd)).
  { destruct P. apply pi_inbox0. rewrite Hin. left. reflexivity. }
  assert (Hcnt : K + (ooq_len (v_rx s) - filled_front (v_rx s)) + (if msg_carries m then 1 else 0) + cntc rest
                 <= Z.of_nat (length Rd + length Rf)).
  { destruct P. rewrite Hin in pi_count0. cbn [cntc] in pi_count0. lia. }
  assert (P0 : PI (set_inbox s rest) K).
  { destruct P. constructor; vsimpl; try assumption.
    - intros m' Hm'. apply pi_inbox0. rewrite Hin. right. exact Hm'.
    - destruct (msg_carries m); lia. }
  clear P. set (s0 := set_inbox s rest) in *.
  assert (A0 : AckL lo K (v_out s0)) by exact A.
  assert (Hcnt0 : K + (ooq_len (v_rx s0) - filled_front (v_rx s0)) + (if msg_carries m then 1 else 0) +
                  cntc (v_inbox s0) <= Z.of_nat (length Rd + length Rf)) by exact Hcnt.
  clearbody s0. clear A Hcnt Hin. pose proof (pi_la _ _ P0) as Hla0.
  change (stPO lo (process_incoming_message cci s0 m)).
  rewrite process_incoming_message_eq.
  pose proof (state_table_keep s0 (m_hdr m)) as Tk. cbv zeta in Tk. destruct Tk as (T1 & T2 & T3 & T4).
  pose proof (state_table_last_ack s0 (m_hdr m)) as Tl.
  (* a state reached without consuming anything *)
  assert (Hsame : forall s' : vsock, v_last_consumed s' = v_last_consumed s0 -> v_rx s' = v_rx s0 ->
            v_inbox s' = v_inbox s0 -> v_out s' = v_out s0 ->
            (is_remote_fin_or_later (v_state s') = false -> is_remote_fin_or_later (v_state s0) = false) ->
            (forall f r, v_state s' = LastAck f r -> In (v_last_consumed s0) Rf) -> PO lo s').
  { intros s' E1 E2 E3 E4 Hrf Hla. exists K. split; [|rewrite E4; exact A0].
    apply (PI_fin s0 s' K P0 E1); [rewrite E2; apply rxrel_refl|exact E3|exact Hrf|exact Hla]. }
  assert (Hrfm : forall s1, tbl_st (state_table s0 (m_hdr m)) = s1 ->
                 is_remote_fin_or_later (v_state s1) = false -> is_remote_fin_or_later (v_state s0) = false).
  { intros s1 E1 H1. destruct (is_remote_fin_or_later (v_state s0)) eqn:E0; [|reflexivity].
    pose proof (state_table_rf_mono s0 (m_hdr m) E0) as G. rewrite E1 in G. congruence. }
  destruct (state_table s0 (m_hdr m)) as [s1|s1 e|s1] eqn:Et; cbn [tbl_st] in *.
  (* dropped, or an error *)
  1-2: (cbn [stPO]; apply Hsame; auto; [apply Hrfm; reflexivity|intros f r Hs];
        destruct (Tl f r Hs) as [H0|(_ & _ & s1' & Hc)]; [exact (Hla0 _ _ H0)|discriminate]).
  - (* continued *)
    unfold pim_cont. destruct (pim_ack cci s1 (m_hdr m)) as [[s2 res]|] eqn:Eack; [|exact I].
    destruct (pim_ack_keep _ _ _ _ Eack) as (G1 & G2 & Gi3 & G4 & G5).
    assert (F21 : v_last_consumed s2 = v_last_consumed s0) by congruence.
    assert (F22 : v_rx s2 = v_rx s0) by congruence.
    assert (F23 : v_inbox s2 = v_inbox s0) by congruence.
    assert (F24 : v_out s2 = v_out s0) by congruence.
    assert (Hla1 : ch_type (m_hdr m) <> ST_FIN -> forall f r, v_state s2 = LastAck f r -> In (v_last_consumed s0) Rf).
    { intros Hnf f r Hs. rewrite G5 in Hs.
      destruct (Tl f r Hs) as [H0|(Hf & _)]; [exact (Hla0 _ _ H0)|contradiction]. }
    assert (Hrf2 : is_remote_fin_or_later (v_state s2) = false -> is_remote_fin_or_later (v_state s0) = false).
    { rewrite G5. apply Hrfm. reflexivity. }
    cbv zeta.
    destruct (ch_type (m_hdr m)) eqn:Ety.
    3-5: (cbn [stPO]; apply Hsame; auto; apply Hla1; discriminate).
    + (* ST_DATA *)
      assert (P2 : PI s2 K).
      { apply (PI_fin s0 s2 K P0 F21); [rewrite F22; apply rxrel_refl|exact F23|exact Hrf2|apply Hla1; discriminate]. }
      apply (PO_pim_data lo s2 m res K P2); [rewrite F24; exact A0|exact Ety| |].
      * intro Hne.
        assert (Hc : msg_carries m = true).
        { unfold msg_carries, carries_seq. rewrite Ety. destruct (m_payload m); [contradiction|reflexivity]. }
        specialize (Hm Hc). unfold msg_is_fin in Hm. rewrite Ety in Hm. cbn [ptype_eqb] in Hm.
        destruct Hm as [X1 X2]. split; [exact X1|]. split; [exact X2|].
        rewrite F22, F23. rewrite Hc in Hcnt0. lia.
      * rewrite F21, G5. intro H1.
        assert (H0 : is_remote_fin_or_later (v_state s0) = true).
        { destruct (is_remote_fin_or_later (v_state s0)) eqn:E0; [reflexivity|].
          rewrite (state_table_data_rf s0 s1 (m_hdr m) Ety Et E0) in H1. discriminate. }
        pose proof (state_table_continue_not_closed _ _ _ Et) as Hnc.
        destruct (v_state s0) eqn:Es0; try discriminate; [exact (Hla0 _ _ eq_refl)|contradiction].
    + (* ST_FIN *)
      destruct (is_remote_fin_or_later (v_state s0)) eqn:Erf0.
      { (* the peer's FIN again: only an ACK is forced *)
        unfold pim_fin. cbn [negb andb stPO]. unfold force_immediate_ack. apply Hsame; vsimpl; auto.
        intros f r Hs. rewrite G5 in Hs.
        destruct (Tl f r Hs) as [H0|(_ & Hn & _)]; [exact (Hla0 _ _ H0)|congruence]. }
      destruct (state_table_fin s0 s1 (m_hdr m) Ety Et Erf0) as [Hseq Hrf1'].
      assert (Hc1 : msg_carries m = true) by (unfold msg_carries, carries_seq; rewrite Ety; reflexivity).
      specialize (Hm Hc1). unfold msg_is_fin in Hm. rewrite Ety in Hm. cbn [ptype_eqb] in Hm.
      rewrite Hc1 in Hcnt0.
      apply (PO_pim_fin lo s0 s2 m res K P0 A0 F21 F22 F23 F24); [rewrite G5; exact Hrf1'|apply Hm|exact Hseq|lia].
Qed.

End Poll.
(* ------------------------------------------------------------------ the datagrams of one poll *)
Lemma contiguous_ok recv b n :
  (forall i, 1 <= i <= Z.of_nat n -> In (wadd16 b i) recv) -> contiguous recv b n = true.
Proof.
  induction n as [|n IH]; intro H; [reflexivity|]. cbn [contiguous]. apply andb_true_iff. split.
  - apply existsb_exists. exists (wadd16 b (Z.of_nat (S n))). split; [apply H; lia|apply Z.eqb_refl].
  - apply IH. intros i Hi. apply H. lia.
Qed.

Lemma ack_scan_app l1 l2 recv b last :
  ack_scan (l1 ++ l2) recv b last =
  match ack_scan l1 recv b last with Some l' => ack_scan l2 recv b l' | None => None end.
Proof.
  revert last. induction l1 as [|p r IH]; intro last; [reflexivity|]. cbn [app ack_scan].
  destruct (pkt_acks p); [|apply IH].
  destruct (ack_honest recv b (ch_ack (fq_hdr p)) && (0 <=? seq_sub (ch_ack (fq_hdr p)) last)); [apply IH|reflexivity].
Qed.

Lemma ack_scan_AckL b recv : 0 <= b < M16 ->
  forall out lo hi, AckL b lo hi out -> 0 <= lo -> hi <= WRAP_TOLERANCE ->
  (forall i, 1 <= i <= hi -> In (wadd16 b i) recv) ->
  exists Kn, ack_scan (map fpacket_of (rev out)) recv b (wadd16 b lo) = Some (wadd16 b Kn) /\ lo <= Kn <= hi.
Proof.
  intros Hb. induction out as [|p older IH]; intros lo hi A Hlo Hhi Hc; cbn [AckL] in A.
  - exists lo. split; [reflexivity|lia].
  - destruct A as (Kp & Ha & Ht & Hle & A').
    destruct (IH lo Kp A' Hlo ltac:(lia) ltac:(intros i Hi; apply Hc; lia)) as (K1 & E1 & HK1).
    cbn [rev]. rewrite map_app, ack_scan_app, E1. cbn [map ack_scan].
    assert (Hpa : pkt_acks (fpacket_of p) = true).
    { unfold pkt_acks. cbn [fpacket_of fq_hdr]. destruct (ch_type (p_hdr p)); try reflexivity. contradiction. }
    rewrite Hpa. cbn [fpacket_of fq_hdr]. rewrite Ha.
    assert (Hh : ack_honest recv b (wadd16 b Kp) = true).
    { unfold ack_honest. rewrite (seq_sub_base b Kp Hb) by lia.
      destruct (Z.ltb_spec Kp 0); [lia|]. destruct (Kp <=? 1000); [|reflexivity].
      apply contiguous_ok. intros i Hi. apply Hc. lia. }
    rewrite Hh. rewrite seq_sub_small by lia.
    destruct (Z.leb_spec 0 (Kp - K1)); [|lia]. cbn [andb]. exists Kp. split; [reflexivity|lia].
Qed.

(* ------------------------------------------------------------------ the trace invariant *)
Definition TI (b : Z) (recv Rd Rf : list Z) (last : Z) (s : vsock) : Prop :=
  0 <= b < M16 /\
  (forall d f, In d Rd -> In f Rf -> c04_pos b d < c04_pos b f) /\
  Z.of_nat (length Rd + length Rf) <= WRAP_TOLERANCE /\
  (forall x, In x Rd \/ In x Rf -> In x recv) /\
  exists K Kl, PI b Rd Rf s K /\ last = wadd16 b Kl /\ 0 <= Kl <= K.

(* fields the invariant reads *)
Lemma PI_fields b Rd Rf (s s' : vsock) K :
  PI b Rd Rf s K -> v_last_consumed s' = v_last_consumed s -> v_rx s' = v_rx s -> v_inbox s' = v_inbox s ->
  v_state s' = v_state s -> PI b Rd Rf s' K.
Proof.
  intros P E1 E2 E3 E4. destruct P. constructor; rewrite ?E1, ?E2, ?E3, ?E4; assumption.
Qed.

Lemma PI_rx_ooq b Rd Rf (s s' : vsock) K :
  PI b Rd Rf s K -> v_last_consumed s' = v_last_consumed s -> v_inbox s' = v_inbox s -> v_state s' = v_state s ->
  rx_inv (v_rx s') -> ooq_data (v_rx s') = ooq_data (v_rx s) -> filled_front (v_rx s') = filled_front (v_rx s) ->
  ooq_len (v_rx s') = ooq_len (v_rx s) -> g_base (v_rx s') = g_base (v_rx s) -> PI b Rd Rf s' K.
Proof.
  intros P E1 E3 E4 Hinv D1 D2 D3 D4. destruct P. constructor; rewrite ?E1, ?E3, ?E4; try assumption.
  - intro Hn. destruct (pi_slots0 Hn) as [C S]. unfold consumed in *. rewrite D1, D2, D4. auto.
  - rewrite D2, D3. assumption.
Qed.

Lemma c04_poll_step b recv Rd Rf last (s : vsock) sc s' r :
  TI b recv Rd Rf last s -> poll cci (VSockRec.set_sends s sc) = (s', r) ->
  exists last', ack_scan (map fpacket_of (rev (v_out s'))) recv b last = Some last' /\
                TI b recv Rd Rf last' s'.
Proof.
  intros (Hb & G3 & Htol & Hrecv & K & Kl & P & -> & HKl) E.
  assert (H0 : PO b Rd Rf Kl (poll_init (VSockRec.set_sends s sc))).
  { exists K. split; [|cbn [AckL v_out poll_init]; unfold poll_init; vsimpl; cbn [AckL]; lia].
    eapply PI_fields; [exact P|reflexivity..]. }
  pose proof (poll_Inv cci (PO b Rd Rf Kl) (PO_RX b Rd Rf G3 Htol Kl) (PO_msg b Rd Rf Hb G3 Htol Kl) (PO_closed b Rd Rf Kl)
                _ _ _ E H0) as (K' & P' & A').
  pose proof (PI_K_tol b Rd Rf G3 Htol _ _ P') as HK'.
  destruct (ack_scan_AckL b recv Hb (v_out s') Kl K' A' ltac:(lia) ltac:(lia)) as (Kn & En & HKn).
  { intros i Hi. apply Hrecv. destruct P'. apply pi_contig0. exact Hi. }
  exists (wadd16 b Kn). split; [exact En|].
  split; [exact Hb|]. split; [exact G3|]. split; [exact Htol|]. split; [exact Hrecv|].
  exists K', Kn. split; [exact P'|]. split; [reflexivity|lia].
Qed.

(* a delivery: the lists grow as the guard reads them *)
Lemma TI_deliver b recv Rd Rf last (s : vsock) m :
  TI b recv Rd Rf last s ->
  let h := m_hdr m in
  let plen := Z.of_nat (length (m_payload m)) in
  (if carries_seq h plen then
     u16_ok (ch_seq h) && (Z.of_nat (length Rd + length Rf) <? WRAP_TOLERANCE) &&
     (if ptype_eqb (ch_type h) ST_FIN
      then forallb (fun d => c04_pos b d <? c04_pos b (ch_seq h)) Rd
      else forallb (fun f => c04_pos b (ch_seq h) <? c04_pos b f) Rf)
   else true) = true ->
  TI b (if carries_seq h plen then ch_seq h :: recv else recv)
       (if carries_seq h plen then (if ptype_eqb (ch_type h) ST_FIN then Rd else ch_seq h :: Rd) else Rd)
       (if carries_seq h plen then (if ptype_eqb (ch_type h) ST_FIN then ch_seq h :: Rf else Rf) else Rf)
       last (vstep_state cci s (VoDeliver m)).
Proof.
  intros (Hb & G3 & Htol & Hrecv & K & Kl & P & Hl & HKl) h plen Hg.
  set (s' := vstep_state cci s (VoDeliver m)).
  assert (Hs' : v_last_consumed s' = v_last_consumed s /\ v_rx s' = v_rx s /\ v_state s' = v_state s /\
                (v_inbox s' = v_inbox s \/ v_inbox s' = v_inbox s ++ [m])).
  { unfold s', vstep_state. cbn [vstep]. destruct (v_inbox_closed s); cbn [fst]; vsimpl; auto. }
  destruct Hs' as (S1 & S2 & S3 & S4).
  assert (Hcm : msg_carries m = carries_seq h plen) by reflexivity.
  destruct (carries_seq h plen) eqn:Ec.
  - apply andb_true_iff in Hg. destruct Hg as [Hg Hg3]. apply andb_true_iff in Hg. destruct Hg as [Hu Hlen].
    unfold u16_ok in Hu. apply andb_true_iff in Hu. destruct Hu as [Hu1 Hu2].
    apply Z.leb_le in Hu1. apply Z.ltb_lt in Hu2, Hlen.
    set (Rd' := if ptype_eqb (ch_type h) ST_FIN then Rd else ch_seq h :: Rd).
    set (Rf' := if ptype_eqb (ch_type h) ST_FIN then ch_seq h :: Rf else Rf).
    assert (Hid : incl Rd Rd') by (unfold Rd'; destruct (ptype_eqb _ _); [apply incl_refl|apply incl_tl, incl_refl]).
    assert (Hif : incl Rf Rf') by (unfold Rf'; destruct (ptype_eqb _ _); [apply incl_tl, incl_refl|apply incl_refl]).
    assert (Hlen' : Z.of_nat (length Rd' + length Rf') = Z.of_nat (length Rd + length Rf) + 1).
    { unfold Rd', Rf'. destruct (ptype_eqb _ _); cbn [length]; lia. }
    assert (Hnew : if msg_is_fin m then In (ch_seq h) Rf' else In (ch_seq h) Rd').
    { unfold msg_is_fin, Rd', Rf'. fold h. destruct (ptype_eqb _ _); left; reflexivity. }
    split; [exact Hb|]. split.
    { intros d f Hd Hf. unfold Rd', Rf' in Hd, Hf. destruct (ptype_eqb (ch_type h) ST_FIN).
      - destruct Hf as [<-|Hf]; [|apply G3; assumption].
        rewrite forallb_forall in Hg3. specialize (Hg3 d Hd). apply Z.ltb_lt in Hg3. exact Hg3.
      - destruct Hd as [<-|Hd]; [|apply G3; assumption].
        rewrite forallb_forall in Hg3. specialize (Hg3 f Hf). apply Z.ltb_lt in Hg3. exact Hg3. }
    split; [unfold WRAP_TOLERANCE in *; lia|]. split.
    { intros x [Hx|Hx]; unfold Rd', Rf' in Hx; destruct (ptype_eqb (ch_type h) ST_FIN);
        try (destruct Hx as [<-|Hx]; [left; reflexivity|]); right; apply Hrecv; auto. }
    exists K, Kl. split; [|split; assumption]. destruct P. constructor; rewrite ?S1, ?S2, ?S3; try assumption.
    + intros i Hi. destruct (pi_contig0 i Hi); [left; apply Hid|right; apply Hif]; assumption.
    + intro Hn. destruct (pi_slots0 Hn) as [C S]. split; [exact C|]. eapply slots_rcv_mono; [exact S|exact Hid|lia].
    + intros f r Hs. apply Hif. eapply pi_la0; eauto.
    + intros m' Hm' Hc'.
      assert (Hold : In m' (v_inbox s) -> 0 <= ch_seq (m_hdr m') < M16 /\
                     (if msg_is_fin m' then In (ch_seq (m_hdr m')) Rf' else In (ch_seq (m_hdr m')) Rd')).
      { intro Hi. destruct (pi_inbox0 m' Hi Hc') as [X1 X2]. split; [exact X1|].
        destruct (msg_is_fin m'); [apply Hif|apply Hid]; exact X2. }
      destruct S4 as [S4|S4]; rewrite S4 in Hm'; [apply Hold; exact Hm'|].
      apply in_app_or in Hm'. destruct Hm' as [Hm'|[<-|[]]]; [apply Hold; exact Hm'|].
      split; [fold h; lia|exact Hnew].
    + rewrite Hlen'. destruct S4 as [S4|S4]; rewrite S4; [lia|]. rewrite cntc_app. cbn [cntc]. rewrite Hcm. lia.
  - split; [exact Hb|]. split; [exact G3|]. split; [exact Htol|]. split; [exact Hrecv|].
    exists K, Kl. split; [|split; assumption]. destruct P. constructor; rewrite ?S1, ?S2, ?S3; try assumption.
    + intros m' Hm' Hc'. destruct S4 as [S4|S4]; rewrite S4 in Hm'; [apply pi_inbox0; assumption|].
      apply in_app_or in Hm'. destruct Hm' as [Hm'|[<-|[]]]; [apply pi_inbox0; assumption|].
      rewrite Hcm in Hc'. discriminate.
    + destruct S4 as [S4|S4]; rewrite S4; [lia|]. rewrite cntc_app. cbn [cntc]. rewrite Hcm. lia.
Qed.

(* the events of the application, the clock and the path limit *)
Lemma TI_other b recv Rd Rf last (s : vsock) o :
  match o with VoPoll _ | VoDeliver _ => False | _ => True end ->
  TI b recv Rd Rf last s -> TI b recv Rd Rf last (vstep_state cci s o).
Proof.
  intros Ho (Hb & G3 & Htol & Hrecv & K & Kl & P & Hl & HKl).
  split; [exact Hb|]. split; [exact G3|]. split; [exact Htol|]. split; [exact Hrecv|].
  exists K, Kl. split; [|split; assumption].
  (* the events that touch neither the receive half, the inbox nor the state *)
  unfold vstep_state. destruct o; try contradiction; cbn [vstep]; try (eapply PI_fields; [exact P|reflexivity..]).
  - destruct (writer_dropped _); [exact P|]. destruct (poll_write _ _) as [[tx1 r] w].
    eapply PI_fields; [exact P|reflexivity..].
  - destruct (writer_dropped _); [exact P|]. destruct (poll_flush _) as [[tx1 r] w].
    eapply PI_fields; [exact P|reflexivity..].
  - destruct (writer_dropped _); [exact P|]. destruct (poll_shutdown _) as [[tx1 r] w].
    eapply PI_fields; [exact P|reflexivity..].
  - destruct (reader_dropped _); [exact P|]. destruct (rx_read _ _) as [[rx1 r] w] eqn:Er.
    cbn [fst]. assert (Hinv : rx_inv (v_rx s)) by (destruct P; assumption).
    destruct (rx_read_ooq _ _ _ _ _ Hinv Er) as (I1 & D1 & D2 & D3 & D4).
    eapply PI_rx_ooq; [exact P|reflexivity..|exact I1|exact D1|exact D2|exact D3|exact D4].
  - destruct (reader_dropped _); [exact P|]. destruct (rx_drop_reader _) as [rx1 w] eqn:Er.
    cbn [fst]. unfold rx_drop_reader in Er. injection Er as <- _.
    assert (Hinv : rx_inv (v_rx s)) by (destruct P; assumption).
    eapply PI_rx_ooq; [exact P|reflexivity..| |reflexivity|reflexivity|reflexivity|reflexivity].
    vsimpl. unfold rx_inv in *. cbn [set_flags ooq_data ooq_capacity filled_front ooq_len ooq_len_bytes q q_len_bytes
      q_capacity last_remaining_rx_window g_base]. exact Hinv.
  - destruct (drop_writer _) as [tx1 w]. eapply PI_fields; [exact P|reflexivity..].
Qed.

(* ------------------------------------------------------------------ the walk *)
Lemma ack_trace_other st r recv b last :
  (forall h n, fs_event st <> FeDeliver h n) -> (forall sc, fs_event st <> FePoll sc) ->
  c04_ack_trace (st :: r) recv b last = c04_ack_trace r recv b last.
Proof.
  intros N1 N2. cbn [c04_ack_trace]. destruct (fs_event st); try reflexivity;
    [exfalso; eapply N2; reflexivity|exfalso; eapply N1; reflexivity].
Qed.

Lemma guard_scan_other st r b rd rf :
  (forall h n, fs_event st <> FeDeliver h n) ->
  c04_guard_scan (st :: r) b rd rf = c04_guard_scan r b rd rf.
Proof.
  intros N1. cbn [c04_guard_scan]. destruct (fs_event st); try reflexivity. exfalso; eapply N1; reflexivity.
Qed.

Lemma ack_trace_poll st r recv b last sc res pk w a :
  fs_event st = FePoll sc -> fs_result st = FrPoll res pk w a ->
  c04_ack_trace (st :: r) recv b last =
  match ack_scan pk recv b last with Some last' => c04_ack_trace r recv b last' | None => false end.
Proof. intros E1 E2. cbn [c04_ack_trace]. rewrite E1, E2. reflexivity. Qed.

Lemma ack_trace_deliver st r recv b last h n :
  fs_event st = FeDeliver h n ->
  c04_ack_trace (st :: r) recv b last =
  c04_ack_trace r (if carries_seq h n then ch_seq h :: recv else recv) b last.
Proof. intros E1. cbn [c04_ack_trace]. rewrite E1. reflexivity. Qed.

Lemma guard_scan_deliver st r b rd rf h n :
  fs_event st = FeDeliver h n ->
  c04_guard_scan (st :: r) b rd rf =
  if carries_seq h n then
    u16_ok (ch_seq h) && (Z.of_nat (length rd + length rf) <? WRAP_TOLERANCE) &&
    (if ptype_eqb (ch_type h) ST_FIN
     then forallb (fun d => c04_pos b d <? c04_pos b (ch_seq h)) rd && c04_guard_scan r b rd (ch_seq h :: rf)
     else forallb (fun f => c04_pos b (ch_seq h) <? c04_pos b f) rf && c04_guard_scan r b (ch_seq h :: rd) rf)
  else c04_guard_scan r b rd rf.
Proof. intros E1. cbn [c04_guard_scan]. rewrite E1. reflexivity. Qed.

Lemma vstep_event_other (s : vsock) o :
  match o with VoPoll _ | VoDeliver _ => False | _ => True end ->
  (forall h n, fs_event (fstep_of cci s o) <> FeDeliver h n) /\
  (forall sc, fs_event (fstep_of cci s o) <> FePoll sc) /\
  poll_finished (snd (fst (fst (vstep cci s o)))) = false.
Proof.
  intro Ho. rewrite fstep_of_event. pose proof (vstep_other cci s o) as V.
  destruct o; try contradiction; cbn [fevent_of];
    (split; [discriminate|split; [discriminate|]]); try (apply V); reflexivity.
Qed.

Theorem c04_walk : forall ops (s : vsock) b recv Rd Rf last,
  TI b recv Rd Rf last s ->
  c04_guard_scan (ftrace cci s ops) b Rd Rf = true ->
  c04_ack_trace (ftrace cci s ops) recv b last = true.
Proof.
  induction ops as [|o ops IH]; intros s b recv Rd Rf last Hi Hg; [reflexivity|].
  rewrite ftrace_cons in Hg |- *.
  assert (Hcase : (exists sc, o = VoPoll sc) \/ (exists m, o = VoDeliver m) \/
                  match o with VoPoll _ | VoDeliver _ => False | _ => True end)
    by (destruct o; eauto).
  destruct Hcase as [[sc ->]|[[m ->]|Ho]].
  - (* poll *)
    destruct (poll cci (VSockRec.set_sends s sc)) as [s' r] eqn:E.
    destruct (c04_poll_step b recv Rd Rf last s sc s' r Hi E) as (last' & Es & Hi').
    assert (Hf : snd (fst (fst (vstep cci s (VoPoll sc)))) = VrPoll r (rev (v_out s')) (rev (v_wakes s')) (v_arm_in s')).
    { cbn [vstep]. rewrite E. reflexivity. }
    assert (Hs : vstep_state cci s (VoPoll sc) = s').
    { unfold vstep_state. cbn [vstep]. rewrite E. reflexivity. }
    rewrite Hf, Hs in Hg |- *.
    rewrite (ack_trace_poll _ _ recv b last sc r (map fpacket_of (rev (v_out s'))) (rev (v_wakes s')) (v_arm_in s'));
      [|rewrite (fstep_of_poll cci s sc s' r E); reflexivity..].
    rewrite guard_scan_other in Hg by (rewrite (fstep_of_poll cci s sc s' r E); discriminate).
    rewrite Es. unfold poll_finished in Hg |- *. destruct r; try reflexivity.
    eapply IH; eauto.
  - (* deliver *)
    assert (Hf : poll_finished (snd (fst (fst (vstep cci s (VoDeliver m))))) = false).
    { cbn [vstep]. destruct (v_inbox_closed s); reflexivity. }
    rewrite Hf in Hg |- *.
    assert (Ev : fs_event (fstep_of cci s (VoDeliver m)) = FeDeliver (m_hdr m) (Z.of_nat (length (m_payload m))))
      by (rewrite fstep_of_event; reflexivity).
    rewrite (ack_trace_deliver _ _ _ _ _ _ _ Ev). rewrite (guard_scan_deliver _ _ _ _ _ _ _ Ev) in Hg.
    pose proof (TI_deliver b recv Rd Rf last s m Hi) as Hd. cbv zeta in Hd.
    destruct (carries_seq (m_hdr m) (Z.of_nat (length (m_payload m)))) eqn:Ec.
    + apply andb_true_iff in Hg. destruct Hg as [Hg1 Hg2].
      destruct (ptype_eqb (ch_type (m_hdr m)) ST_FIN); apply andb_true_iff in Hg2; destruct Hg2 as [Hg2 Hg3];
        (eapply IH; [apply Hd; rewrite Hg1, Hg2; reflexivity|exact Hg3]).
    + eapply IH; [apply Hd; reflexivity|exact Hg].
  - (* the application, the clock, the path limit, the channel *)
    destruct (vstep_event_other s o Ho) as (N1 & N2 & N3).
    rewrite N3 in Hg |- *. rewrite (ack_trace_other _ _ _ _ _ N1 N2). rewrite (guard_scan_other _ _ _ _ _ N1) in Hg.
    eapply IH; [apply TI_other; eassumption|exact Hg].
Qed.

(* ------------------------------------------------------------------ from vsock_new *)
Lemma vsock_new_TI mk c (s0 : vsock) :
  C10_Pred.vconfig_ok c = true -> vsock_new cci mk c = Some s0 ->
  TI (v_last_consumed s0) [] [] [] (v_last_consumed s0) s0.
Proof.
  intros Hc Hn.
  assert (Hcfg : 0 <= vc_remote_seq c < M16 /\ 1 <= vc_rx_buf c).
  { unfold C10_Pred.vconfig_ok in Hc. repeat (apply andb_true_iff in Hc; destruct Hc as [Hc ?]).
    repeat match goal with H : (_ <=? _) = true |- _ => apply Z.leb_le in H
                         | H : (_ <? _) = true |- _ => apply Z.ltb_lt in H end. lia. }
  destruct Hcfg as [Hrs Hrb].
  revert Hn. unfold vsock_new.
  destruct (match (if vc_incoming c then None else _) with Some r => _ | None => _ end); [|discriminate].
  intro H; injection H as <-. cbn [v_last_consumed].
  set (b := if vc_incoming c then vc_remote_seq c else wsub16 (vc_remote_seq c) 1).
  assert (Hb : 0 <= b < M16) by (unfold b; destruct (vc_incoming c); [exact Hrs|unfold wsub16, M16; lia]).
  split; [exact Hb|]. split; [intros d f []|]. split; [cbn; unfold WRAP_TOLERANCE; lia|].
  split; [intros x [[]|[]]|].
  exists 0, 0. split; [|split; [rewrite wadd16_0; [reflexivity|exact Hb]|lia]].
  constructor; cbn [v_last_consumed v_rx v_state v_inbox].
  - lia.
  - fold b. rewrite wadd16_0; [reflexivity|exact Hb].
  - intros i Hi. lia.
  - apply build_inv; [|lia].
    change (0 < mss (ss_new {| cfg_ipv4 := vc_ipv4 c; cfg_link_mtu := vc_link_mtu c; cfg_cooldown := 3 |})).
    apply Z.lt_le_trans with 1; [lia|apply mss_ss_new_pos].
  - intros _. split; [reflexivity|]. intros i sl Hnth Hd _. exfalso.
    unfold rx_build in Hnth. cbn [ooq_data] in Hnth. apply Rx_Slots.nth_error_repeat in Hnth. subst sl. discriminate.
  - intros f r0 Hs. destruct (vc_incoming c); discriminate.
  - intros m [].
  - unfold rx_build. cbn [ooq_len filled_front cntc length]. lia.
Qed.

Theorem c04_vsock_ack_guarded_trace : forall mk c cfg (s0 : vsock) ops,
  C10_Pred.vconfig_ok c = true -> vsock_new cci mk c = Some s0 ->
  c04_vsock_ack_guarded cfg (ftrace cci s0 ops) = true.
Proof.
  intros mk c cfg s0 ops Hc Hn. unfold c04_vsock_ack_guarded.
  destruct (c04_peer_ok cfg (ftrace cci s0 ops)) eqn:Hg; [|reflexivity].
  unfold c04_peer_ok, c04_vsock_ack_ok in *.
  destruct ops as [|o ops]; [reflexivity|].
  rewrite ftrace_cons in Hg |- *. rewrite fstep_of_pre in Hg |- *.
  cbn [fp_of_vsock f_last_consumed] in Hg |- *.
  rewrite <- ftrace_cons in Hg |- *.
  apply (c04_walk (o :: ops) s0 (v_last_consumed s0) [] [] [] (v_last_consumed s0)); [|exact Hg].
  eapply vsock_new_TI; eauto.
Qed.

End WithCC.

(* ------------------------------------------------------------------ the guard, in its two parts *)
Lemma guard_split : forall tr b rd rf,
  c04_guard_scan tr b rd rf =
  c04_tol_scan tr (Z.of_nat (length rd + length rf)) && c04_order_scan tr b rd rf.
Proof.
  induction tr as [|st r IH]; intros b rd rf; [reflexivity|].
  cbn [c04_guard_scan c04_tol_scan c04_order_scan].
  destruct (fs_event st); try apply IH.
  destruct (carries_seq h plen); [|apply IH].
  rewrite !IH. cbn [length].
  replace (Z.of_nat (length rd + S (length rf))) with (Z.of_nat (length rd + length rf) + 1) by lia.
  replace (Z.of_nat (S (length rd) + length rf)) with (Z.of_nat (length rd + length rf) + 1) by lia.
  generalize (forallb (fun d => c04_pos b d <? c04_pos b (ch_seq h)) rd).
  generalize (forallb (fun f => c04_pos b (ch_seq h) <? c04_pos b f) rf).
  generalize (c04_order_scan r b rd (ch_seq h :: rf)). generalize (c04_order_scan r b (ch_seq h :: rd) rf).
  generalize (c04_tol_scan r (Z.of_nat (length rd + length rf) + 1)).
  generalize (u16_ok (ch_seq h)). generalize (Z.of_nat (length rd + length rf) <? WRAP_TOLERANCE).
  generalize (ptype_eqb (ch_type h) ST_FIN).
  intros [] [] [] [] [] [] [] []; reflexivity.
Qed.

Lemma peer_ok_split cfg tr : c04_peer_ok cfg tr = c04_tol_ok cfg tr && negb (c04_d22_class cfg tr).
Proof.
  unfold c04_peer_ok, c04_tol_ok, c04_d22_class. destruct tr as [|st r]; [reflexivity|].
  rewrite guard_split. cbn [length Nat.add Z.of_nat]. rewrite negb_involutive. reflexivity.
Qed.

Section Or22.
Context {CC : Type} (cci : cc_iface CC).

Theorem c04_vsock_ack_or_d22_trace : forall mk c cfg (s0 : vsock CC) ops,
  C10_Pred.vconfig_ok c = true -> vsock_new cci mk c = Some s0 ->
  c04_vsock_ack_or_d22 cfg (ftrace cci s0 ops) = true.
Proof.
  intros mk c cfg s0 ops Hc Hn. unfold c04_vsock_ack_or_d22.
  destruct (c04_tol_ok cfg (ftrace cci s0 ops)) eqn:Ht; [|reflexivity].
  destruct (c04_d22_class cfg (ftrace cci s0 ops)) eqn:Hd; [apply orb_true_r|].
  rewrite orb_false_r.
  pose proof (c04_vsock_ack_guarded_trace cci mk c cfg s0 ops Hc Hn) as G. unfold c04_vsock_ack_guarded in G.
  rewrite peer_ok_split, Ht, Hd in G. exact G.
Qed.
End Or22.

(* ================================================================== witnesses *)
Definition c04_cfg (rseq : Z) : vconfig :=
  {| vc_incoming := false; vc_ipv4 := true; vc_link_mtu := 1500; vc_rx_buf := 1048576;
     vc_tx_init := 32768; vc_tx_max := 1048576; vc_nagle := true; vc_max_retx := 5;
     vc_inactivity := 10000000000; vc_wait_last_ack := true; vc_mtu_probe_max_retx := 1;
     vc_isn := 100; vc_remote_seq := rseq; vc_remote_conn_id := 7; vc_remote_wnd := 1048576;
     vc_remote_ts := 0; vc_syn_sent := 1000000000; vc_now0 := 1000000000 |}.

Definition c04_msg (t : ptype) (seq ack : Z) (pl : list Z) : msg :=
  {| m_hdr := {| ch_type := t; ch_conn_id := 0; ch_ts := 6; ch_ts_diff := 0; ch_wnd := 1048576;
                 ch_seq := seq; ch_ack := ack; ch_sack := None; ch_close_reason := None |};
     m_payload := pl |}.

Definition c04_run (cfg : vconfig) (ops : list vop) : list fstep :=
  match vsock_new (fixed_cc 4096) (fun _ _ => tt) cfg with
  | Some s0 => ftrace (fixed_cc 4096) s0 ops
  | None => []
  end.

(* (2) a peer that sends ST_DATA above its own FIN: 2 and 4 arrive out of order, then the FIN numbered 1 (it
   consumes slot 0 and the slot of 2 behind it, last_consumed = 1); an ST_DATA numbered 2 again, acknowledging our
   FIN, is accepted on the LastAck -> Closed transition, lands in the empty slot where 3 would be and is counted
   together with the slot of 4: the endpoint acknowledges 3, which never arrived.  The real code does the same. *)
Definition c04_after_fin_ops : list vop :=
  [VoDeliver (c04_msg ST_DATA 2 100 [5; 5]); VoDeliver (c04_msg ST_DATA 4 100 [6; 6]);
   VoDeliver (c04_msg ST_FIN 1 100 []); VoPoll [];
   VoDeliver (c04_msg ST_DATA 2 101 [7; 7]); VoPoll []].

Definition c04_after_fin_b : bool :=
  let cfg := c04_cfg 1 in
  let tr := c04_run cfg c04_after_fin_ops in
  negb (c04_vsock_ack_ok cfg tr) && C10_Pred.vconfig_ok cfg &&
  negb (c04_peer_ok cfg tr) && c04_vsock_ack_guarded cfg tr &&
  c04_tol_ok cfg tr && c04_d22_class cfg tr &&
  match rev tr with
  | st :: _ => match fs_result st with
               | FrPoll PollReadyOk [p] _ _ => (ch_ack (fq_hdr p) =? 3) && (f_last_consumed (fs_post st) =? 3)
               | _ => false
               end
  | [] => false
  end.

Theorem c04_after_fin_shape : c04_after_fin_b = true.
Proof. vm_compute. reflexivity. Qed.

Lemma andb_fst : forall a b, a && b = true -> a = true.
Proof. intros a b H. apply andb_true_iff in H. apply H. Qed.

(* A witness is evaluated once, in its [_shape] theorem, over [c04_run]; the existential form is read off
   the first two conjuncts.  About variables, so that the kernel never compares two closed runs. *)
Lemma c04_run_refutes : forall cfg ops,
  negb (c04_vsock_ack_ok cfg (c04_run cfg ops)) && C10_Pred.vconfig_ok cfg = true ->
  exists cfg ops s0,
    C10_Pred.vconfig_ok cfg = true /\
    vsock_new (fixed_cc 4096) (fun _ _ => tt) cfg = Some s0 /\
    c04_vsock_ack_ok cfg (ftrace (fixed_cc 4096) s0 ops) = false.
Proof.
  intros cfg ops H. apply andb_true_iff in H. destruct H as [H Hc]. apply negb_true_iff in H.
  unfold c04_run in H.
  destruct (vsock_new (fixed_cc 4096) (fun _ _ => tt) cfg) as [s0|] eqn:E; [|discriminate H].
  exists cfg, ops, s0. auto.
Qed.

Theorem c04_vsock_ack_ok_refuted_after_fin :
  exists cfg ops s0,
    C10_Pred.vconfig_ok cfg = true /\
    vsock_new (fixed_cc 4096) (fun _ _ => tt) cfg = Some s0 /\
    c04_vsock_ack_ok cfg (ftrace (fixed_cc 4096) s0 ops) = false.
Proof.
  (* the conjunction is taken apart in the goal: doing it in a hypothesis makes Qed re-evaluate the run *)
  eapply c04_run_refutes. generalize c04_after_fin_shape. unfold c04_after_fin_b. cbv zeta.
  intros H. do 5 apply andb_fst in H. exact H.
Qed.

(* (1) beyond the tolerance: the connection starts at 65534; 1025 two-byte ST_DATA numbered 65535, 0, 1, ... are
   delivered and one poll consumes them all: the acknowledgement 1023 lies 1025 above the base across the wrap,
   seq_sub reads the distance as negative and the predicate fails although every number was delivered *)
Fixpoint c04_delivs (n : nat) (seq : Z) : list vop :=
  match n with O => [] | S n' => VoDeliver (c04_msg ST_DATA seq 100 [7; 7]) :: c04_delivs n' (wadd16 seq 1) end.

Definition c04_wrap_b : bool :=
  let cfg := c04_cfg 65535 in
  let tr := c04_run cfg (c04_delivs 1025 65535 ++ [VoPoll []]) in
  negb (c04_vsock_ack_ok cfg tr) && C10_Pred.vconfig_ok cfg &&
  negb (c04_peer_ok cfg tr) &&
  match rev tr with
  | st :: _ => match fs_result st with
               | FrPoll PollPending [p] _ _ => ch_ack (fq_hdr p) =? 1023
               | _ => false
               end
  | [] => false
  end &&
  (* one delivery less: inside the tolerance, the guard holds and so does the predicate *)
  (let tr' := c04_run cfg (c04_delivs 1024 65535 ++ [VoPoll []]) in
   c04_peer_ok cfg tr' && c04_vsock_ack_ok cfg tr').

Theorem c04_wrap_shape : c04_wrap_b = true.
Proof. vm_compute. reflexivity. Qed.

Theorem c04_vsock_ack_ok_refuted_wrap :
  exists cfg ops s0,
    C10_Pred.vconfig_ok cfg = true /\
    vsock_new (fixed_cc 4096) (fun _ _ => tt) cfg = Some s0 /\
    c04_vsock_ack_ok cfg (ftrace (fixed_cc 4096) s0 ops) = false.
Proof.
  eapply c04_run_refutes. generalize c04_wrap_shape. unfold c04_wrap_b. cbv zeta.
  intros H. do 3 apply andb_fst in H. exact H.
Qed.
