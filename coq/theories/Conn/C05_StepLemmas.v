(* C05, step level: relational lemmas about every function a poll calls, for the sender-side clauses
   (single-segment mode after an RTO, exit from it, zero window, window budget).
   - [dout]: the ST_DATA datagrams among v_out;
   - [SQ]:  what the functions that do not touch the sender do (control datagrams only, RTO counter,
            retransmission timer, last_sent_seq_nr, table, congestion state kept);
   - [QREL now]: what the functions that do not send data do to (counter, timer expiry at `now`,
            last_sent_seq_nr): either all kept (the FIN may move last_sent_seq_nr by one), or the counter
            is reset to 0 and the timer is not expired at `now`;
   - [J r0 e0 now]: the ghost invariant of one poll for c05_rto_single_ok. *)
From Utp Require Import Base.Prelude Wire.SeqNr Wire.Header Rtt.Rtte Rtt.Rtte_Proofs Mtu.SegSizes Rx.Rx Tx.Ring
  Tx.Segments Tx.Segments_Proofs Tx.Segments_ProofsOut Conn.Recovery Conn.Msg Conn.VSockRec Conn.VSock
  Conn.VSockRun Conn.VObs Conn.VSock_Lemmas Conn.VSock_LemmasTx Conn.VSock_LemmasIn Conn.VSock_LemmasStep
  Conn.VSock_LemmasTimers Conn.C17_StepLemmas Conn.C05_Pred Conn.C05_Proofs.

(* ------------------------------------------------------------------ arithmetic *)
Lemma seq_sub_refl a : seq_sub a a = 0.
Proof. unfold seq_sub, seq_nr_offset. rewrite Z.ltb_irrefl, Z.eqb_refl. reflexivity. Qed.

Lemma seq_sub_one a b : seq_sub a b = 1 -> 0 <= b < M16 -> wsub16 a 1 = b.
Proof.
  unfold seq_sub, seq_nr_offset, wsub16, WRAP_TOLERANCE, M16. intros H Hb.
  destruct (Z.ltb_spec a b).
  - destruct (Z.leb_spec ((a - b) mod 65536) 1024); lia.
  - destruct (Z.eqb_spec a b); [lia|].
    destruct (Z.leb_spec ((b - a) mod 65536) 1024); lia.
Qed.

Lemma timer_arm_expired t now d r :
  0 < d -> timer_expired (timer_arm t now d r) now = true -> r = false /\ timer_expired t now = true.
Proof.
  unfold timer_arm, timer_expired. intros Hd H.
  destruct t as [e|]; [destruct r|]; apply Z.leb_le in H; try (exfalso; lia).
  split; [reflexivity|]. apply Z.leb_le. lia.
Qed.

Lemma timer_arm_restart_fresh t now d : 0 < d -> timer_expired (timer_arm t now d true) now = false.
Proof.
  intro Hd. destruct (timer_expired (timer_arm t now d true) now) eqn:E; [|reflexivity].
  apply timer_arm_expired in E; [destruct E; discriminate|exact Hd].
Qed.

Lemma rto_pos r : rto_in_bounds r -> 0 < retransmission_timeout r.
Proof. unfold rto_in_bounds, RTTE_MIN_RTO, MS. lia. Qed.

Section WithCC.
Context {CC : Type} (cci : cc_iface CC).
Notation vsock := (vsock CC).

(* ------------------------------------------------------------------ data datagrams *)
Definition is_data (p : packet) : bool :=
  match ch_type (p_hdr p) with ST_DATA => true | _ => false end.

Definition dout (s : vsock) : list packet := filter is_data (v_out s).

Definition texp (s : vsock) (now : Z) : bool := timer_expired (v_t_retransmit s) now.

Lemma is_data_ctrl (s : vsock) h : ch_type h <> ST_DATA -> is_data (ctrl_pkt s h) = false.
Proof. unfold is_data, ctrl_pkt, hdr_with; cbn [p_hdr ch_type]. destruct (ch_type h); congruence. Qed.

Lemma is_data_data_pkt (s : vsock) h f : is_data (data_pkt s h f) = true.
Proof. reflexivity. Qed.

Lemma dout_cons_ctrl (s s' : vsock) p :
  v_out s' = p :: v_out s -> is_data p = false -> dout s' = dout s.
Proof. unfold dout. intros -> H. cbn [filter]. rewrite H. reflexivity. Qed.

Lemma dout_eq (s s' : vsock) : v_out s' = v_out s -> dout s' = dout s.
Proof. unfold dout. intros ->. reflexivity. Qed.

(* ------------------------------------------------------------------ the bundle every lemma carries *)
Definition B (now : Z) (s : vsock) : Prop := ti s /\ v_now s = now /\ v_env_now s = now.

Lemma B_keep now (s s' : vsock) :
  tiR s s' -> v_now s' = v_now s -> v_env_now s' = v_env_now s -> B now s -> B now s'.
Proof. intros T N E (H1 & H2 & H3). split; [auto|]. split; congruence. Qed.

Lemma B_frame now (s s' : vsock) : tiR s s' -> frame s s' -> B now s -> B now s'.
Proof. intros T (_ & E & N & _). apply B_keep; assumption. Qed.

Lemma B_frame0 now (s s' : vsock) : tiR s s' -> frame0 s s' -> B now s -> B now s'.
Proof. intros T (_ & E & N & _). apply B_keep; assumption. Qed.

Lemma B_rto_pos now (s : vsock) : B now s -> 0 < retransmission_timeout (v_rtte s).
Proof. intros ((H & _) & _). apply rto_pos. exact H. Qed.

(* ------------------------------------------------------------------ SQ: the sender is left alone *)
Definition SQ (s s' : vsock) : Prop :=
  dout s' = dout s /\ st_rel (v_state s) (v_state s') /\
  v_rto_retransmissions s' = v_rto_retransmissions s /\ v_t_retransmit s' = v_t_retransmit s /\
  v_last_sent_seq_nr s' = v_last_sent_seq_nr s /\ v_segs s' = v_segs s /\ v_cc s' = v_cc s /\
  v_last_remote_window s' = v_last_remote_window s /\ v_recovery s' = v_recovery s /\
  v_ss s' = v_ss s /\ v_rtte s' = v_rtte s.

Lemma SQ_refl s : SQ s s.
Proof. unfold SQ. repeat split; try reflexivity. apply st_rel_refl. Qed.

Lemma SQ_trans a b c : SQ a b -> SQ b c -> SQ a c.
Proof.
  unfold SQ. intros (A1&A2&A3&A4&A5&A6&A7&A8&A9&A10&A11) (B1&B2&B3&B4&B5&B6&B7&B8&B9&B10&B11).
  repeat split; try congruence. eapply st_rel_trans; eauto.
Qed.

(* b = a with only fields outside SQ changed, the datagram list kept *)
Lemma SQ_same (s s' : vsock) :
  v_out s' = v_out s -> v_state s' = v_state s ->
  v_rto_retransmissions s' = v_rto_retransmissions s -> v_t_retransmit s' = v_t_retransmit s ->
  v_last_sent_seq_nr s' = v_last_sent_seq_nr s -> v_segs s' = v_segs s -> v_cc s' = v_cc s ->
  v_last_remote_window s' = v_last_remote_window s -> v_recovery s' = v_recovery s ->
  v_ss s' = v_ss s -> v_rtte s' = v_rtte s -> SQ s s'.
Proof.
  intros E1 E2 E3 E4 E5 E6 E7 E8 E9 E10 E11. unfold SQ. repeat split; try assumption.
  - apply dout_eq; exact E1.
  - rewrite E2. apply st_rel_refl.
Qed.

Ltac sq_same := apply SQ_same; exact eq_refl.

Lemma sd_unchanged_SQ (s s' : vsock) : sd_unchanged s s' -> SQ s s'.
Proof.
  intros (Hf & Ho & Hs & Hl & Ht & _). unfold sd_frame in Hf.
  destruct Hf as (F1 & F2 & F3 & F4 & F5 & F6 & F7 & F8 & F9 & F10 & _).
  apply SQ_same; assumption.
Qed.

Definition stk (R : vsock -> vsock -> Prop) {A} (s : vsock) (m : step A) : Prop :=
  match m with SOk s' _ => R s s' | _ => True end.

Lemma stk_bind (R : vsock -> vsock -> Prop) (Rt : forall a b c, R a b -> R b c -> R a c)
  {A X} (m : step A) (f : vsock -> A -> step X) s :
  stk R s m -> (forall s1 a, stk R s1 (f s1 a)) -> stk R s (sbind m f).
Proof.
  intros Hm Hf. destruct m as [s1 a|s1 e|]; cbn [sbind stk] in *; auto.
  specialize (Hf s1 a). destruct (f s1 a); cbn [stk] in *; auto. eapply Rt; eauto.
Qed.

Lemma stk_weaken (R : vsock -> vsock -> Prop) (Rt : forall a b c, R a b -> R b c -> R a c)
  {A} (m : step A) s0 s : R s0 s -> stk R s m -> stk R s0 m.
Proof. intros H Hm. destruct m; cbn [stk] in *; auto. eapply Rt; eauto. Qed.

Lemma send_control_packet_SQ (s : vsock) h :
  ch_type h <> ST_DATA -> stk SQ s (send_control_packet s h).
Proof.
  intro Ht. pose proof (send_control_packet_spec s h) as H.
  destruct (send_control_packet s h) as [s' [|]|s' e|]; cbn [stk]; auto.
  - destruct H as (Hf & Ho & Hs & Hl & Htr & _). unfold sd_frame in Hf.
    destruct Hf as (F1 & F2 & F3 & F4 & F5 & F6 & F7 & F8 & F9 & F10 & _).
    unfold SQ. repeat split; try assumption.
    + eapply dout_cons_ctrl; [exact Ho|]. apply is_data_ctrl. exact Ht.
    + rewrite F10. apply st_rel_refl.
  - apply sd_unchanged_SQ. exact H.
Qed.

Lemma send_ack_SQ (s : vsock) : stk SQ s (send_ack s).
Proof. unfold send_ack. apply send_control_packet_SQ. cbn [hdr_with ch_type]. discriminate. Qed.

Lemma maybe_send_ack_SQ (s : vsock) : stk SQ s (maybe_send_ack s).
Proof.
  unfold maybe_send_ack. pose proof (send_ack_SQ s) as G.
  destruct (immediate_ack_to_transmit s); [exact G|].
  destruct (should_send_window_update s); [exact G|].
  destruct (timer_expired _ _).
  - destruct (ack_to_transmit s); [exact G|]. cbn [stk]. sq_same.
  - destruct (0 <? v_cbu s); cbn [stk]; sq_same.
Qed.

Lemma maybe_send_syn_ack_SQ (s : vsock) : stk SQ s (maybe_send_syn_ack s).
Proof.
  unfold maybe_send_syn_ack.
  assert (G : forall c, is_local_fin_or_later (v_state s) = false -> stk SQ s
     (if c =? o_max_retx (v_opts s) then SErr s ErrMaxSynAckRetransmissionsReached
      else sbind (send_ack s) (fun s1 sent =>
        if sent then SOk (set_t_syn_ack_resend (set_state s1 (SynAckSent (c + 1)))
               (timer_arm (v_t_syn_ack_resend s1) (v_now s1) SYNACK_RESEND_INTERNAL true)) tt
        else SOk s1 tt))).
  { intros c Hl. destruct (_ =? _); [exact I|].
    pose proof (send_ack_SQ s) as Ha.
    destruct (send_ack s) as [s1 [|]|s1 e|]; cbn [sbind stk] in *; auto.
    destruct Ha as (A1&A2&A3&A4&A5&A6&A7&A8&A9&A10&A11).
    unfold SQ. vsimpl_goal. repeat split; try assumption.
    destruct (v_state s); cbn [st_rel]; try exact I; discriminate. }
  destruct (v_state s) eqn:Es; try (cbn [stk]; sq_same).
  - apply G. reflexivity.
  - destruct (timer_expired _ _); [apply G; reflexivity|apply SQ_refl].
Qed.

Lemma poll_start_SQ (s : vsock) : SQ s (poll_start s).
Proof. unfold poll_start. sq_same. Qed.

Lemma add_wakes_rx_SQ (s : vsock) rx1 w : SQ s (add_wakes (set_rx s rx1) w).
Proof. unfold add_wakes. sq_same. Qed.

Lemma transition_to_fin_wait_1_SQ (s : vsock) : SQ s (transition_to_fin_wait_1 s).
Proof.
  unfold transition_to_fin_wait_1.
  destruct (v_state s) eqn:Es; try apply SQ_refl;
    (unfold SQ; vsimpl_goal; rewrite Es; cbn [st_rel]; repeat split).
Qed.

Lemma poll_tail_SQ (s : vsock) : SQ s (poll_tail s).
Proof.
  unfold poll_tail, next_timer_to_poll, arm_in, add_wakes.
  repeat break_match; try (inversion Heqp; subst); sq_same.
Qed.

(* ------------------------------------------------------------------ QREL *)
Definition FINREL (s s' : vsock) : Prop :=
  v_last_sent_seq_nr s' = v_last_sent_seq_nr s \/
  exists stm, st_rel (v_state s) stm /\ st_rel stm (v_state s') /\
     our_fin_if_unacked stm = Some (v_last_sent_seq_nr s') /\
     seq_sub (v_last_sent_seq_nr s') (v_last_sent_seq_nr s) = 1.

Definition QREL (now : Z) (s s' : vsock) : Prop :=
  dout s' = dout s /\ st_rel (v_state s) (v_state s') /\
  ((v_rto_retransmissions s' = v_rto_retransmissions s /\ (texp s' now = true -> texp s now = true) /\
    FINREL s s')
   \/ (v_rto_retransmissions s' = 0 /\ texp s' now = false)).

Lemma FINREL_trans a b c :
  st_rel (v_state a) (v_state b) -> st_rel (v_state b) (v_state c) ->
  FINREL a b -> FINREL b c -> FINREL a c.
Proof.
  intros Sab Sbc [H1|(m1 & A1 & A2 & A3 & A4)] [H2|(m2 & B1 & B2 & B3 & B4)].
  - left. congruence.
  - right. exists m2. rewrite <- H1. repeat split; auto. eapply st_rel_trans; eauto.
  - right. exists m1. rewrite H2. repeat split; auto. eapply st_rel_trans; eauto.
  - exfalso. assert (S12 : st_rel m1 m2) by (eapply st_rel_trans; eauto).
    pose proof (st_rel_fin _ _ _ _ S12 A3 B3) as E. rewrite E, seq_sub_refl in B4. discriminate.
Qed.

Lemma QREL_refl now s : QREL now s s.
Proof. unfold QREL. split; [reflexivity|]. split; [apply st_rel_refl|]. left. split; [reflexivity|]. split; [auto|left; reflexivity]. Qed.

Lemma QREL_trans now a b c : QREL now a b -> QREL now b c -> QREL now a c.
Proof.
  intros (A1 & A2 & A3) (B1 & B2 & B3). split; [congruence|]. split; [eapply st_rel_trans; eauto|].
  destruct B3 as [(B3 & B4 & B5)|(B3 & B4)]; [|right; auto].
  destruct A3 as [(A3 & A4 & A5)|(A3 & A4)].
  - left. split; [congruence|]. split; [auto|]. eapply FINREL_trans; eauto.
  - right. split; [congruence|]. destruct (texp c now) eqn:E; [|reflexivity]. rewrite (B4 eq_refl) in A4. discriminate.
Qed.

Lemma SQ_QREL now (s s' : vsock) : SQ s s' -> QREL now s s'.
Proof.
  intros (A1&A2&A3&A4&A5&_). split; [exact A1|]. split; [exact A2|]. left.
  split; [exact A3|]. split; [unfold texp; rewrite A4; auto|left; exact A5].
Qed.

(* dout, the state relation, counter, timer and last_sent_seq_nr kept *)
Definition MQ (s s' : vsock) : Prop :=
  dout s' = dout s /\ st_rel (v_state s) (v_state s') /\
  v_rto_retransmissions s' = v_rto_retransmissions s /\ v_t_retransmit s' = v_t_retransmit s /\
  v_last_sent_seq_nr s' = v_last_sent_seq_nr s.

Lemma MQ_QREL now (s s' : vsock) : MQ s s' -> QREL now s s'.
Proof.
  intros (A1&A2&A3&A4&A5). split; [exact A1|]. split; [exact A2|]. left.
  split; [exact A3|]. split; [unfold texp; rewrite A4; auto|left; exact A5].
Qed.

Lemma SQ_MQ (s s' : vsock) : SQ s s' -> MQ s s'.
Proof. intros (A1&A2&A3&A4&A5&_). repeat split; assumption. Qed.

Lemma MQ_refl s : MQ s s.
Proof. apply SQ_MQ, SQ_refl. Qed.

Lemma MQ_trans a b c : MQ a b -> MQ b c -> MQ a c.
Proof.
  intros (A1&A2&A3&A4&A5) (B1&B2&B3&B4&B5). repeat split; try congruence. eapply st_rel_trans; eauto.
Qed.

(* ------------------------------------------------------------------ the ghost invariant of a poll
   r0 = RTO counter at the start of the poll, e0 = the retransmission timer had expired at the start,
   now = the clock of the poll *)
Definition FSt (st : vstate) (ls : Z) : Prop :=
  is_local_fin_or_later st = true /\ forall f, our_fin_if_unacked st = Some f -> f = ls.

Lemma FSt_mono a b ls : st_rel a b -> FSt a ls -> FSt b ls.
Proof.
  intros R (L & F). split; [eapply st_rel_local; eauto|].
  intros f Hf. destruct a, b; cbn [st_rel our_fin_if_unacked is_local_fin_or_later] in *;
    try discriminate; try tauto; injection Hf as <-; subst; apply F; reflexivity.
Qed.

Inductive J (r0 : Z) (e0 : bool) (now : Z) (s : vsock) : Prop :=
| JA : dout s = [] -> v_rto_retransmissions s = r0 -> (texp s now = true -> e0 = true) -> J r0 e0 now s
| JC : v_rto_retransmissions s = 0 -> texp s now = false -> J r0 e0 now s
| JD (p : packet) :
    dout s = [p] -> v_rto_retransmissions s = r0 + 1 -> e0 = true -> texp s now = false ->
    0 <= ch_seq (p_hdr p) < M16 ->
    (ch_seq (p_hdr p) = v_last_sent_seq_nr s \/
     (ch_seq (p_hdr p) = wsub16 (v_last_sent_seq_nr s) 1 /\ FSt (v_state s) (v_last_sent_seq_nr s))) ->
    J r0 e0 now s.

Lemma J_QREL r0 e0 now (s s' : vsock) : J r0 e0 now s -> QREL now s s' -> J r0 e0 now s'.
Proof.
  intros HJ (Q1 & Q2 & Q3).
  destruct Q3 as [(Q3 & Q4 & Q5)|(Q3 & Q4)]; [|apply JC; assumption].
  destruct HJ as [A1 A2 A3|A1 A2|p A1 A2 A3 A4 A5 A6].
  - apply JA; [congruence|congruence|auto].
  - apply JC; [congruence|]. destruct (texp s' now) eqn:E; [|reflexivity]. rewrite (Q4 eq_refl) in A2. discriminate.
  - apply (JD _ _ _ _ p); try congruence.
    + destruct (texp s' now) eqn:E; [|reflexivity]. rewrite (Q4 eq_refl) in A4. discriminate.
    + destruct Q5 as [Q5|(stm & M1 & M2 & M3 & M4)].
      * rewrite Q5. destruct A6 as [A6|(A6 & A7)]; [left; exact A6|right]. split; [exact A6|].
        eapply FSt_mono; eauto.
      * destruct A6 as [A6|(A6 & A7)].
        -- right. split.
           ++ symmetry. rewrite A6. apply seq_sub_one; [exact M4|]. rewrite <- A6. exact A5.
           ++ split; [eapply st_rel_local; [exact M2|]; destruct stm; try discriminate; reflexivity|].
              intros f Hf. symmetry. eapply st_rel_fin; eauto.
        -- exfalso. pose proof (FSt_mono _ _ _ M1 A7) as (_ & F). specialize (F _ M3).
           rewrite F, seq_sub_refl in M4. discriminate.
Qed.

(* ------------------------------------------------------------------ the incoming path *)
(* MQ without the state clause *)
Definition MQ0 (s s' : vsock) : Prop :=
  dout s' = dout s /\ v_rto_retransmissions s' = v_rto_retransmissions s /\
  v_t_retransmit s' = v_t_retransmit s /\ v_last_sent_seq_nr s' = v_last_sent_seq_nr s.

Lemma MQ0_refl s : MQ0 s s.
Proof. unfold MQ0. repeat split. Qed.

Lemma MQ0_trans a b c : MQ0 a b -> MQ0 b c -> MQ0 a c.
Proof. unfold MQ0. intros (A1&A2&A3&A4) (B1&B2&B3&B4). repeat split; congruence. Qed.

Lemma MQ0_same (s s' : vsock) :
  v_out s' = v_out s -> v_rto_retransmissions s' = v_rto_retransmissions s ->
  v_t_retransmit s' = v_t_retransmit s -> v_last_sent_seq_nr s' = v_last_sent_seq_nr s -> MQ0 s s'.
Proof. intros E1 E2 E3 E4. unfold MQ0. repeat split; try assumption. apply dout_eq; exact E1. Qed.

Ltac mq0_same := apply MQ0_same; exact eq_refl.

Lemma SQ_MQ0 (s s' : vsock) : SQ s s' -> MQ0 s s'.
Proof. intros (A1&A2&A3&A4&A5&_). repeat split; assumption. Qed.

Lemma state_table_MQ0 (s : vsock) h : MQ0 s (tbl_state (state_table s h)).
Proof.
  unfold state_table, restart_remote_inactivity_timer.
  destruct (ch_type h); destruct (v_state s); cbn [tbl_state negb];
    repeat (match goal with |- context [if ?c then _ else _] => destruct c end);
    cbn [tbl_state]; mq0_same.
Qed.

Lemma pim_data_MQ0 s2 m res offset : stk MQ0 s2 (pim_data cci s2 m res offset).
Proof.
  unfold pim_data. destruct (offset <? 0).
  { cbn [stk]. unfold force_immediate_ack. mq0_same. }
  cbv zeta.
  destruct (rx_add_remove _ KData (m_payload m) offset) as [[rx1 ar] w].
  set (s4 := add_wakes _ _).
  assert (H4 : MQ0 s2 s4) by (unfold s4, add_wakes; mq0_same).
  clearbody s4.
  destruct ar as [r|]; [|exact I].
  destruct (add_err r); [exact I|].
  set (s5 := match r with ArConsumed _ _ => _ | _ => s4 end).
  assert (H5 : MQ0 s2 s5).
  { eapply MQ0_trans; [exact H4|]. unfold s5, restart_remote_inactivity_timer. destruct r; mq0_same. }
  clearbody s5.
  destruct (_ || _); [|exact H5].
  pose proof (send_ack_SQ (force_immediate_ack s5)) as Ha.
  destruct (send_ack (force_immediate_ack s5)) as [s6 b|s6 e|]; cbn [sbind stk] in *; auto.
  eapply MQ0_trans; [exact H5|]. eapply MQ0_trans; [|apply SQ_MQ0; exact Ha].
  unfold force_immediate_ack. mq0_same.
Qed.

Lemma pim_fin_MQ0 s2 m res offset seen : stk MQ0 s2 (pim_fin s2 m res offset seen).
Proof.
  unfold pim_fin. cbv zeta. destruct (_ && _).
  - destruct (rx_add_remove _ KFin _ _) as [[rx1 ar] w].
    destruct ar as [r|]; [|exact I].
    destruct (add_err r); [exact I|].
    destruct (mark_vsock_closed _) as [tx1 w2]. cbn [stk].
    unfold add_wakes, force_immediate_ack. mq0_same.
  - cbn [stk]. unfold force_immediate_ack. mq0_same.
Qed.

Lemma pim_ack_MQ0 s1 h s2 res : pim_ack cci s1 h = Some (s2, res) -> MQ0 s1 s2.
Proof.
  unfold pim_ack. destruct (remove_up_to_ack _ _ _ _) as [segs1 res0].
  destruct (match is_recovering (v_recovery s1) with true => _ | false => _ end) as [rtte1|]; [|discriminate].
  destruct (cc_on_ack cci _ _ _ _) as [cc3|]; [|discriminate].
  destruct (recovery_on_ack cci _ _ _ _ _ _ _) as [[[rec1 segs2] cc4]|]; [|discriminate].
  intro H; injection H as <- _. mq0_same.
Qed.

Lemma pim_cont_MQ0 s1 m seen : stk MQ0 s1 (pim_cont cci s1 m seen).
Proof.
  unfold pim_cont. destruct (pim_ack cci s1 (m_hdr m)) as [[s2 res]|] eqn:Ea; [|exact I].
  pose proof (pim_ack_MQ0 _ _ _ _ Ea) as H2. cbv zeta.
  destruct (ch_type (m_hdr m)); try exact H2.
  - eapply (stk_weaken MQ0 MQ0_trans); [exact H2|apply pim_data_MQ0].
  - eapply (stk_weaken MQ0 MQ0_trans); [exact H2|apply pim_fin_MQ0].
Qed.

Lemma process_incoming_message_MQ0 s m : stk MQ0 s (process_incoming_message cci s m).
Proof.
  rewrite process_incoming_message_eq.
  pose proof (state_table_MQ0 s (m_hdr m)) as Ht.
  destruct (state_table s (m_hdr m)) as [s1|s1 e|s1]; cbn [tbl_state] in Ht; [exact Ht|exact I|].
  eapply (stk_weaken MQ0 MQ0_trans); [exact Ht|apply pim_cont_MQ0].
Qed.

Lemma process_incoming_message_MQ s m : stk MQ s (process_incoming_message cci s m).
Proof.
  pose proof (process_incoming_message_MQ0 s m) as H0.
  pose proof (process_incoming_message_G cci s m) as HG.
  destruct (process_incoming_message cci s m) as [s' r|s' e|]; cbn [stk sGr] in *; auto.
  destruct H0 as (A1&A2&A3&A4). destruct HG as ((G1 & _) & _). repeat split; assumption.
Qed.

(* ---- maybe_send_fin ---- *)
Lemma maybe_send_fin_QREL now (s : vsock) : B now s -> stk (QREL now) s (maybe_send_fin s).
Proof.
  intros HB. pose proof (maybe_send_fin_spec s) as H.
  destruct (maybe_send_fin s) as [s' [|]|s' e|]; cbn [stk]; auto.
  - destruct H as (seq & Hfin & Hsub & Hf & Ho & Hsg & Hls & Htr & _).
    unfold sd_frame in Hf. destruct Hf as (F1 & F2 & F3 & F4 & F5 & F6 & F7 & F8 & F9 & F10 & _).
    split; [eapply dout_cons_ctrl; [exact Ho|]; apply is_data_ctrl; cbn [hdr_with ch_type]; discriminate|].
    split; [rewrite F10; apply st_rel_refl|]. left.
    split; [exact F5|]. split.
    + unfold texp. rewrite Htr. destruct HB as (Hti & Hn & _). rewrite Hn. intro E.
      apply timer_arm_expired in E; [tauto|]. apply rto_pos. apply Hti.
    + right. exists (v_state s). rewrite Hls. repeat split; auto; [apply st_rel_refl|rewrite F10; apply st_rel_refl].
  - apply SQ_QREL, sd_unchanged_SQ. exact H.
Qed.

Lemma set_state_closed_MQ (s : vsock) : MQ s (set_state s Closed).
Proof.
  unfold MQ. vsimpl_goal. repeat split; try reflexivity. destruct (v_state s); cbn [st_rel]; auto.
Qed.

(* ---- the receive loop ---- *)
Lemma recv_empty_QREL now (s : vsock) (acc : on_ack_result) : B now s ->
  stk (QREL now) s
    (if v_inbox_closed s
     then sbind (maybe_send_fin (transition_to_fin_wait_1 s))
                (fun s2 _ => SOk (set_state s2 Closed) (acc, true))
     else SOk (set_inbox_waker s true) (acc, false)).
Proof.
  intro HB. destruct (v_inbox_closed s).
  - assert (HB1 : B now (transition_to_fin_wait_1 s)).
    { eapply B_frame; [apply transition_to_fin_wait_1_ti|apply transition_to_fin_wait_1_frame|exact HB]. }
    pose proof (maybe_send_fin_QREL now _ HB1) as Hm.
    destruct (maybe_send_fin (transition_to_fin_wait_1 s)) as [s2 b|s2 e|]; cbn [sbind stk] in *; auto.
    eapply QREL_trans; [apply SQ_QREL, transition_to_fin_wait_1_SQ|].
    eapply QREL_trans; [exact Hm|]. apply MQ_QREL, set_state_closed_MQ.
  - cbn [stk]. apply SQ_QREL. sq_same.
Qed.

Definition KQ (now : Z) (s s' : vsock) : Prop := B now s -> B now s' /\ QREL now s s'.

Lemma KQ_refl now s : KQ now s s.
Proof. intro H. split; [exact H|apply QREL_refl]. Qed.

Lemma KQ_trans now a b c : KQ now a b -> KQ now b c -> KQ now a c.
Proof.
  intros H1 H2 HB. destruct (H1 HB) as [HB1 Q1]. destruct (H2 HB1) as [HB2 Q2].
  split; [exact HB2|eapply QREL_trans; eauto].
Qed.

(* KQ from the three ingredients *)
Lemma stk_KQ now {A} (s : vsock) (m : step A) :
  stR tiR s m -> step_frame s m -> (B now s -> stk (QREL now) s m) -> stk (KQ now) s m.
Proof.
  intros Ht Hf Hq. destruct m as [s' a|s' e|]; cbn [stk stR step_frame] in *; auto.
  intro HB. split; [eapply B_frame; eauto|auto].
Qed.

Lemma recv_loop_KQ now : forall fuel (s : vsock) acc, stk (KQ now) s (recv_loop cci fuel s acc).
Proof.
  assert (Hbase : forall (s : vsock) (acc : on_ack_result),
    stk (KQ now) s
      (if v_inbox_closed s
       then sbind (maybe_send_fin (transition_to_fin_wait_1 s))
                  (fun s2 _ => SOk (set_state s2 Closed) (acc, true))
       else SOk (set_inbox_waker s true) (acc, false))).
  { intros s acc. pose proof (recv_empty_QREL now s acc) as Hq.
    destruct (v_inbox_closed s).
    - pose proof (maybe_send_fin_ti (transition_to_fin_wait_1 s)) as Ht.
      pose proof (maybe_send_fin_frame (transition_to_fin_wait_1 s)) as Hf.
      destruct (maybe_send_fin (transition_to_fin_wait_1 s)) as [s2 b|s2 e|]; cbn [sbind stk stR step_frame] in *; auto.
      intro HB. split; [|apply Hq; exact HB].
      assert (HB1 : B now (transition_to_fin_wait_1 s)).
      { eapply B_frame; [apply transition_to_fin_wait_1_ti|apply transition_to_fin_wait_1_frame|exact HB]. }
      assert (HB2 : B now s2) by (eapply B_frame; eauto).
      eapply B_keep; [|reflexivity|reflexivity|exact HB2]. apply ti_same; exact eq_refl.
    - cbn [stk] in *. intro HB. split; [|apply Hq; exact HB].
      eapply B_keep; [|reflexivity|reflexivity|exact HB]. apply ti_same; exact eq_refl. }
  induction fuel as [|m0 fuel IH]; intros s acc; cbn [recv_loop];
    destruct (v_inbox s) as [|m rest] eqn:Ei; try apply Hbase; try exact I.
  apply (stk_weaken (KQ now) (KQ_trans now)) with (s := set_inbox s rest).
  { intro HB. split; [|apply SQ_QREL; sq_same]. eapply B_keep; [|reflexivity|reflexivity|exact HB]. apply ti_same; exact eq_refl. }
  apply (stk_bind (KQ now) (KQ_trans now)).
  - apply stk_KQ; [apply process_incoming_message_ti|apply process_incoming_message_frame|].
    intros _. pose proof (process_incoming_message_MQ (set_inbox s rest) m) as H.
    destruct (process_incoming_message cci (set_inbox s rest) m); cbn [stk] in *; auto. apply MQ_QREL; exact H.
  - intros s1 r. destruct (_ || _); [apply KQ_refl|apply IH].
Qed.

(* ---- the bookkeeping after the receive loop ---- *)
Definition LQL (keepls : bool) (s s' : vsock) : Prop :=
  v_out s' = v_out s /\ v_state s' = v_state s /\ v_rto_retransmissions s' = v_rto_retransmissions s /\
  v_t_retransmit s' = v_t_retransmit s /\ (keepls = true -> v_last_sent_seq_nr s' = v_last_sent_seq_nr s).

Lemma LQL_refl k s : LQL k s s.
Proof. unfold LQL. repeat split. Qed.

Lemma LQL_trans k a b c : LQL k a b -> LQL k b c -> LQL k a c.
Proof.
  unfold LQL. intros (A1&A2&A3&A4&A5) (B1&B2&B3&B4&B5). repeat split; try congruence.
  intro K. rewrite (B5 K), (A5 K). reflexivity.
Qed.

Ltac lql_same := unfold LQL; vsimpl_goal; repeat split; intros; reflexivity.

Definition pa_reset (r : on_ack_result) (s1 : vsock) : vsock :=
  if (0 <? ar_acked_segments r) || (0 <? ar_newly_sacked_segments r) then
    let s' := set_rto_retransmissions s1 0 in
    match ss_segs (v_segs s'), our_fin_if_unacked (v_state s') with
    | [], None => set_t_inactivity (set_t_retransmit s' None) None
    | _, _ =>
        restart_remote_inactivity_timer
          (set_t_retransmit s' (timer_arm (v_t_retransmit s') (v_now s')
                                  (retransmission_timeout (v_rtte s')) true))
    end
  else s1.

Definition pa_pipe (s3 : vsock) : step unit :=
  match rv_phase (v_recovery s3) with
  | Recovering rc =>
      match calc_pipe (v_segs s3) (rc_high_rxt rc) (v_last_sent_seq_nr s3)
                      (roundtrip_time (v_rtte s3)) (v_now s3) with
      | None => SPanic
      | Some (segs', pipe, recalc) =>
          SOk (set_recovering (VSockRec.set_segs s3 segs')
                 {| rc_recovery_point := rc_recovery_point rc; rc_high_rxt := rc_high_rxt rc;
                    rc_total_retx := rc_total_retx rc; rc_pipe := pipe; rc_recalc := recalc;
                    rc_cwnd := rc_cwnd rc |}) tt
      end
  | _ => SOk s3 tt
  end.

Definition pa_trunc (r : on_ack_result) (s2 : vsock) : step unit :=
  if 0 <? ar_acked_segments r then
    let s2 := acked_counts_as_sent s2 in
    let '(tx1, tr) := truncate_front (v_tx s2) (ar_acked_bytes r) in
    match tr with
    | TrBug _ _ => SErr (set_tx s2 tx1) (ErrBug BugTruncateFront)
    | TrOk => let '(tx2, w) := wake_writer tx1 in
              SOk (add_wakes (set_tx s2 tx2) (tx_wakes w)) tt
    end
  else SOk s2 tt.

Lemma pa_tail_eq (s1 : vsock) r early :
  pa_tail s1 (r, early) = sbind (pa_trunc r (pa_reset r s1)) (fun s3 _ => pa_pipe s3).
Proof. reflexivity. Qed.

Lemma pa_pipe_LQL k (s3 : vsock) : stk (LQL k) s3 (pa_pipe s3).
Proof.
  unfold pa_pipe. destruct (rv_phase _); try apply LQL_refl.
  destruct (calc_pipe _ _ _ _ _) as [[[segs' pipe] recalc]|]; [|exact I].
  cbn [stk]. unfold set_recovering. lql_same.
Qed.

Lemma pa_trunc_LQL (r : on_ack_result) (s2 : vsock) :
  stk (LQL (negb (0 <? ar_acked_segments r))) s2 (pa_trunc r s2).
Proof.
  unfold pa_trunc. destruct (0 <? ar_acked_segments r); cbn [negb]; [|apply LQL_refl].
  cbv zeta.
  assert (Ha : LQL false s2 (acked_counts_as_sent s2)).
  { unfold acked_counts_as_sent. destruct (seq_gt _ _ && seq_lt _ _); [|apply LQL_refl].
    unfold LQL; vsimpl_goal; repeat split; intros; discriminate. }
  revert Ha. generalize (acked_counts_as_sent s2). intros s2' Ha.
  destruct (truncate_front _ _) as [tx1 tr]. destruct tr; [|exact I].
  destruct (wake_writer tx1) as [tx2 w]. cbn [stk]. eapply LQL_trans; [exact Ha|].
  unfold add_wakes. unfold LQL; vsimpl_goal; repeat split; intros; discriminate.
Qed.

Lemma LQL_weaken k (s s' : vsock) : LQL k s s' -> LQL false s s'.
Proof. unfold LQL. intros (A1&A2&A3&A4&A5). repeat split; auto. intro; discriminate. Qed.

Lemma pa_tail_QREL now (s1 : vsock) res : B now s1 -> stk (QREL now) s1 (pa_tail s1 res).
Proof.
  intro HB. destruct res as [r early]. rewrite pa_tail_eq.
  pose proof (pa_trunc_LQL r (pa_reset r s1)) as Ht.
  destruct (pa_trunc r (pa_reset r s1)) as [s3 u|s3 e|]; cbn [sbind stk] in *; auto.
  pose proof (pa_pipe_LQL (negb (0 <? ar_acked_segments r)) s3) as Hp.
  destruct (pa_pipe s3) as [s4 u4|s4 e4|]; cbn [stk] in *; auto.
  pose proof (LQL_trans _ _ _ _ Ht Hp) as H. clear Ht Hp.
  destruct H as (A1&A2&A3&A4&A5).
  unfold pa_reset in *.
  destruct ((0 <? ar_acked_segments r) || (0 <? ar_newly_sacked_segments r)) eqn:Eprog.
  - (* reset *)
    assert (Hd : 0 < retransmission_timeout (v_rtte s1)) by (eapply B_rto_pos; eauto).
    assert (Hn : v_now s1 = now) by apply HB.
    split; [apply dout_eq; rewrite A1|split; [rewrite A2|right; rewrite A3; unfold texp; rewrite A4]].
    + destruct (ss_segs _); [destruct (our_fin_if_unacked _)|]; reflexivity.
    + assert (E : forall x y : vsock, v_state x = v_state y -> st_rel (v_state y) (v_state x))
        by (intros x y ->; apply st_rel_refl).
      apply E. destruct (ss_segs _); [destruct (our_fin_if_unacked _)|]; reflexivity.
    + destruct (ss_segs _); [destruct (our_fin_if_unacked _)|];
        unfold restart_remote_inactivity_timer; vsimpl_goal;
        (split; [reflexivity|]); try reflexivity; rewrite Hn; apply timer_arm_restart_fresh; exact Hd.
  - apply orb_false_iff in Eprog. destruct Eprog as [Ea _]. rewrite Ea in A5. cbn [negb] in A5.
    apply MQ_QREL. unfold MQ. repeat split; auto.
    + apply dout_eq; exact A1.
    + rewrite A2. apply st_rel_refl.
Qed.

Lemma process_all_KQ now (s : vsock) : stk (KQ now) s (process_all_incoming_messages cci s).
Proof.
  apply stk_KQ; [apply process_all_incoming_messages_ti|apply process_all_incoming_messages_frame|].
  intro HB. rewrite process_all_eq.
  pose proof (recv_loop_KQ now (v_inbox s ++ [ {| m_hdr := outgoing_header s; m_payload := [] |} ]) s
                on_ack_result_default) as Hl.
  destruct (recv_loop cci _ s on_ack_result_default) as [s1 res|s1 e|]; cbn [sbind stk] in *; auto.
  destruct (Hl HB) as [HB1 Q1].
  pose proof (pa_tail_QREL now s1 res HB1) as Hp.
  destruct (pa_tail s1 res); cbn [stk] in *; auto. eapply QREL_trans; eauto.
Qed.

(* ---- segmentation ---- *)
Lemma split_QREL now (s : vsock) : B now s -> stk (QREL now) s (split_tx_queue_into_segments cci s).
Proof.
  intro HB. pose proof (split_tx_spec cci s) as Sp.
  destruct (split_tx_queue_into_segments cci s) as [s' u|s' e|]; cbn [stk split_post] in *; auto.
  destruct Sp as ((F1&F2&_) & t2 & ss2 & [(_ & _ & K1 & K2 & K3)|(rw & ps & _ & _ & C & T)] & _).
  - apply MQ_QREL. unfold MQ. rewrite F2. auto using dout_eq, st_rel_refl.
  - (* the probe was given up: counter reset, timer off or armed afresh *)
    split; [apply dout_eq; exact F1|]. split; [rewrite F2; apply st_rel_refl|right]. split; [exact C|].
    unfold texp. rewrite T. destruct (ss_segs t2); [reflexivity|].
    destruct HB as (Hti & Hn & _). rewrite Hn. apply timer_arm_restart_fresh, rto_pos, Hti.
Qed.

Lemma split_KQ now (s : vsock) : stk (KQ now) s (split_tx_queue_into_segments cci s).
Proof.
  apply stk_KQ; [apply split_tx_queue_into_segments_ti|apply split_tx_queue_into_segments_frame|].
  apply split_QREL.
Qed.

(* ------------------------------------------------------------------ send_tx_queue *)
(* the sending loops: with the timer not expired at `now` (= the clock of the poll), it stays so, and
   the RTO counter is not touched *)
Definition CR (now : Z) (s s' : vsock) : Prop :=
  v_now s = now -> rto_in_bounds (v_rtte s) -> texp s now = false ->
  v_now s' = now /\ rto_in_bounds (v_rtte s') /\ texp s' now = false /\
  v_rto_retransmissions s' = v_rto_retransmissions s.

Lemma CR_refl now s : CR now s s.
Proof. intros H1 H2 H3. split; [exact H1|]. split; [exact H2|]. split; [exact H3|reflexivity]. Qed.

Lemma CR_trans now a b c : CR now a b -> CR now b c -> CR now a c.
Proof.
  intros F G H1 H2 H3. destruct (F H1 H2 H3) as (A1 & A2 & A3 & A4).
  destruct (G A1 A2 A3) as (B1 & B2 & B3 & B4).
  split; [exact B1|]. split; [exact B2|]. split; [exact B3|congruence].
Qed.

Lemma CR_same now (s s' : vsock) :
  v_now s' = v_now s -> v_rtte s' = v_rtte s -> v_t_retransmit s' = v_t_retransmit s ->
  v_rto_retransmissions s' = v_rto_retransmissions s -> CR now s s'.
Proof.
  intros E1 E2 E3 E4 H1 H2 H3. unfold texp in *. rewrite E1, E2, E3, E4.
  split; [exact H1|]. split; [exact H2|]. split; [exact H3|reflexivity].
Qed.

Lemma sd_unchanged_CR now (s s' : vsock) : sd_unchanged s s' -> CR now s s'.
Proof.
  intros (Hf & _ & _ & _ & Ht & _). unfold sd_frame in Hf.
  destruct Hf as (F1 & F2 & F3 & F4 & F5 & F6 & F7 & F8 & _). apply CR_same; assumption.
Qed.

Lemma send_data_CR now (s : vsock) h f : stk (CR now) s (send_data s h f).
Proof.
  pose proof (send_data_spec s h f) as H.
  destruct (send_data s h f) as [s' [| |]|s' e|]; cbn [stk]; auto.
  - destruct H as (Hf & _ & _ & _ & Htr & _). unfold sd_frame in Hf.
    destruct Hf as (F1 & F2 & F3 & F4 & F5 & F6 & F7 & F8 & _).
    intros H1 H2 H3. rewrite F7, F8. split; [exact H1|]. split; [exact H2|]. split; [|exact F5].
    unfold texp. rewrite Htr, H1.
    destruct (timer_expired (timer_arm _ _ _ _) now) eqn:E; [|reflexivity].
    apply timer_arm_expired in E; [|apply rto_pos; exact H2]. destruct E as [_ E].
    unfold texp in H3. congruence.
  - apply sd_unchanged_CR. apply H.
  - apply sd_unchanged_CR. apply H.
Qed.

(* a reflexive, transitive relation kept by send_data is kept by the two sending loops *)
Lemma recovery_loop_stk (R : vsock -> vsock -> Prop) (Rr : forall s, R s s)
    (Rt : forall a b c, R a b -> R b c -> R a c) :
  (forall (s : vsock) h f, stk R s (send_data s h f)) ->
  forall items (s : vsock) h mss0 st, stk R s (recovery_loop items s h mss0 st).
Proof.
  intro Hsd. induction items as [|f rest IH]; intros s h mss0 st; cbn [recovery_loop].
  - exact (Rr s).
  - destruct (negb _); [exact (Rr s)|].
    destruct (_ && negb (sg_lost _)); [apply IH|].
    destruct (_ && negb (sg_sacks_after _)); [exact (Rr s)|].
    pose proof (Hsd s h f) as F.
    destruct (send_data s h f) as [s1 r|s1 e|]; cbn [stk] in *; auto.
    destruct r; cbn [stk]; auto.
    eapply (stk_weaken R Rt); [exact F|apply IH].
Qed.

Lemma new_data_loop_stk (R : vsock -> vsock -> Prop) (Rr : forall s, R s s)
    (Rt : forall a b c, R a b -> R b c -> R a c) :
  (forall (s : vsock) h f, stk R s (send_data s h f)) ->
  forall items (s : vsock) h rem, stk R s (new_data_loop items s h rem).
Proof.
  intro Hsd. induction items as [|f rest IH]; intros s h rem; cbn [new_data_loop].
  - exact (Rr s).
  - destruct (_ <? _); [exact (Rr s)|].
    pose proof (Hsd s h f) as F.
    destruct (send_data s h f) as [s1 r|s1 e|]; cbn [stk] in *; auto.
    destruct r; cbn [stk]; auto.
    eapply (stk_weaken R Rt); [exact F|apply IH].
Qed.

Lemma rec_branch_CR now (s : vsock) h : stk (CR now) s (rec_branch s h).
Proof.
  unfold rec_branch. destruct (rv_phase (v_recovery s)) as [rp|d|rc]; try apply CR_refl.
  apply (stk_bind (CR now) (CR_trans now));
    [apply (recovery_loop_stk (CR now) (CR_refl now) (CR_trans now) (send_data_CR now))|].
  intros s1 res.
  destruct (rec_after rc h (mss (v_ss s)) s1 res) as [s' b|s' e|] eqn:E; cbn [stk]; auto.
  assert (Hs : step_st (rec_after rc h (mss (v_ss s)) s1 res) = Some s') by (rewrite E; reflexivity).
  destruct (rec_after_spec _ _ _ _ _ _ Hs) as (P & A1 & A2 & A3 & A4 & A5 & A6 & A7 & A8 & _).
  destruct P as (_ & P2 & _). apply CR_same; assumption.
Qed.

Lemma new_branch_CR now (s : vsock) h : stk (CR now) s (new_branch cci s h).
Proof.
  unfold new_branch.
  apply (stk_bind (CR now) (CR_trans now));
    [apply (new_data_loop_stk (CR now) (CR_refl now) (CR_trans now) (send_data_CR now))|].
  intros s1 tl.
  destruct (new_after s1 tl) as [s' b|s' e|] eqn:E; cbn [stk]; auto.
  assert (Hs : step_st (new_after s1 tl) = Some s') by (rewrite E; reflexivity).
  destruct (new_after_spec _ _ _ Hs) as (P & A1 & A2 & A3 & A4 & A5 & A6 & A7 & _).
  destruct P as (_ & P2 & _). apply CR_same; assumption.
Qed.

Lemma rec_new_CR now (s : vsock) h : stk (CR now) s (rec_new cci s h).
Proof.
  unfold rec_new. apply (stk_bind (CR now) (CR_trans now)); [apply rec_branch_CR|].
  intros s1 ret. destruct ret; [apply CR_refl|apply new_branch_CR].
Qed.

(* with nothing undelivered in the table the two loops are silent *)
Lemma rec_new_silent (s : vsock) h :
  iter_for_sending (v_segs s) None = [] ->
  stk (fun s s' => v_out s' = v_out s /\ v_rto_retransmissions s' = v_rto_retransmissions s /\
                   v_t_retransmit s' = v_t_retransmit s) s (rec_new cci s h).
Proof.
  intro Hnil. unfold rec_new.
  assert (Hrec : stk (fun s s' => v_out s' = v_out s /\ v_rto_retransmissions s' = v_rto_retransmissions s /\
                   v_t_retransmit s' = v_t_retransmit s /\ v_segs s' = v_segs s) s (rec_branch s h)).
  { unfold rec_branch. destruct (rv_phase (v_recovery s)) as [rp|d|rc]; cbn [stk]; auto.
    rewrite (rec_items_empty s rc Hnil). cbn [recovery_loop sbind].
    destruct (rec_after rc h (mss (v_ss s)) s (rec_st0 rc, false)) as [s' b|s' e|] eqn:E; cbn [stk]; auto.
    assert (Hs : step_st (rec_after rc h (mss (v_ss s)) s (rec_st0 rc, false)) = Some s') by (rewrite E; reflexivity).
    destruct (rec_after_spec _ _ _ _ _ _ Hs) as (P & A1 & A2 & A3 & A4 & A5 & A6 & A7 & A8 & _). auto. }
  destruct (rec_branch s h) as [s1 ret|s1 e|]; cbn [sbind stk] in *; auto.
  destruct Hrec as (R1 & R2 & R3 & R4).
  destruct ret; [cbn [stk]; auto|].
  unfold new_branch, new_items. rewrite R4, (iter_none_nil _ _ Hnil). cbn [new_data_loop sbind new_after stk].
  auto.
Qed.

Lemma fs_seq_range t st f : In f (iter_for_sending t st) -> 0 <= fs_seq f < M16.
Proof.
  intro H. apply iter_item_ok in H. destruct H as (_ & _ & H & _). rewrite H. unfold wadd16, M16. lia.
Qed.

Lemma J_A_of_expired r0 e0 now (s : vsock) :
  J r0 e0 now s -> texp s now = true -> dout s = [] /\ v_rto_retransmissions s = r0 /\ e0 = true.
Proof. intros [A1 A2 A3|A1 A2|p A1 A2 A3 A4 A5 A6] E; [auto|congruence|congruence]. Qed.

Lemma J_not_expired now r0 (s : vsock) :
  B now s -> J r0 false now s -> timer_expired (v_t_retransmit s) (v_now s) = false.
Proof.
  intros (_ & Hn & _) HJ. rewrite Hn. destruct (timer_expired (v_t_retransmit s) now) eqn:E; [|reflexivity].
  destruct (J_A_of_expired _ _ _ _ HJ E) as (_ & _ & X). discriminate.
Qed.

Lemma rto_branch_J now r0 e0 (s : vsock) h :
  B now s -> J r0 e0 now s ->
  match rto_branch cci s h with
  | SOk s1 ret =>
      J r0 e0 now s1 /\ v_now s1 = now /\ rto_in_bounds (v_rtte s1) /\
      (ret = false -> texp s1 now = true -> iter_for_sending (v_segs s1) None = [])
  | _ => True
  end.
Proof.
  intros HB HJ. destruct HB as ((Hrb & _ & _) & Hn & _).
  unfold rto_branch.
  destruct (timer_expired (v_t_retransmit s) (v_now s)) eqn:Eexp.
  2:{ split; [exact HJ|]. split; [exact Hn|]. split; [exact Hrb|].
      intros _ E. unfold texp in E. rewrite Hn in Eexp. congruence. }
  assert (Ee : texp s now = true) by (unfold texp; rewrite <- Hn; exact Eexp).
  destruct (J_A_of_expired _ _ _ _ HJ Ee) as (A1 & A2 & A3).
  destruct (iter_for_sending (v_segs s) None) as [|f rest] eqn:Eit.
  - (* nothing to retransmit *)
    assert (Hoff : J r0 e0 now (set_t_retransmit s None) /\ v_now (set_t_retransmit s None) = now /\
                   rto_in_bounds (v_rtte (set_t_retransmit s None)) /\
                   (false = false -> texp (set_t_retransmit s None) now = true ->
                    iter_for_sending (v_segs (set_t_retransmit s None)) None = [])).
    { split; [apply JA; [exact A1|exact A2|auto]|]. split; [exact Hn|]. split; [exact Hrb|].
      intros _ E. discriminate E. }
    destruct (our_fin_if_unacked (v_state s)) as [fin|]; [|exact Hoff].
    destruct (v_last_sent_seq_nr s =? fin); [|exact Hoff].
    set (s1 := set_last_sent_seq_nr s (wsub16 (v_last_sent_seq_nr s) 1)).
    pose proof (maybe_send_fin_spec s1) as Hm.
    destruct (maybe_send_fin s1) as [s2 [|]|s2 e|]; cbn [sbind]; auto.
    + destruct Hm as (seq & _ & _ & Hf & Ho & Hsg & _).
      unfold sd_frame in Hf. destruct Hf as (F1 & F2 & F3 & F4 & F5 & F6 & F7 & F8 & _).
      destruct (on_rto_reactions cci s2) as [s3|] eqn:Er; [|exact I].
      destruct (on_rto_reactions_spec _ _ _ Er) as (R1 & R2 & R3 & R4 & R5 & R6 & R7 & R8 & R9 & R10 & _).
      assert (Hb3 : rto_in_bounds (v_rtte s3)) by (eapply timeout_in_bounds; exact R1).
      assert (Hn3 : v_now s3 = now) by (rewrite R10, F7; exact Hn).
      assert (Hx : texp (set_t_retransmit s3 (timer_arm (v_t_retransmit s3) (v_now s3)
                            (retransmission_timeout (v_rtte s3)) true)) now = false).
      { unfold texp. vsimpl_goal. rewrite Hn3. apply timer_arm_restart_fresh. apply rto_pos; exact Hb3. }
      split; [|split; [exact Hn3|split; [exact Hb3|intros _ E; congruence]]].
      apply JA; [|vsimpl_goal; rewrite R8, F5; exact A2|auto].
      unfold dout. vsimpl_goal. rewrite R4, Ho. cbn [filter].
      unfold fin_pkt. rewrite is_data_ctrl by (cbn [hdr_with ch_type]; discriminate). exact A1.
    + destruct Hm as (Hf & Ho & Hsg & _ & Htr & _).
      unfold sd_frame in Hf. destruct Hf as (F1 & F2 & F3 & F4 & F5 & F6 & F7 & F8 & _).
      split; [apply JA; [unfold dout; rewrite Ho; exact A1|rewrite F5; exact A2|auto]|].
      split; [rewrite F7; exact Hn|]. split; [rewrite F8; exact Hrb|].
      intros _ _. rewrite Hsg. exact Eit.
  - pose proof (send_data_spec s h f) as Hsd.
    destruct (send_data s h f) as [s1 [| |]|s1 e|]; auto.
    + destruct Hsd as (Hf & Ho & Hs & Hl & Htr & _).
      unfold sd_frame in Hf. destruct Hf as (F1 & F2 & F3 & F4 & F5 & F6 & F7 & F8 & _).
      assert (Hsq : 0 <= fs_seq f < M16) by (apply (fs_seq_range (v_segs s) None); rewrite Eit; left; reflexivity).
      assert (Hfin : forall s2 : vsock, v_out s2 = v_out s1 -> v_rto_retransmissions s2 = v_rto_retransmissions s1 ->
                v_now s2 = v_now s1 -> rto_in_bounds (v_rtte s2) ->
                let s3 := set_t_retransmit s2 (timer_arm (v_t_retransmit s2) (v_now s2)
                                                 (retransmission_timeout (v_rtte s2)) true) in
                let s4 := set_rto_retransmissions (set_last_sent_seq_nr s3 (fs_seq f))
                                                  (v_rto_retransmissions s3 + 1) in
                J r0 e0 now s4 /\ v_now s4 = now /\ rto_in_bounds (v_rtte s4) /\
                (false = false -> texp s4 now = true -> iter_for_sending (v_segs s4) None = [])).
      { intros s2 E1 E2 E3 E4 s3 s4.
        assert (Hn2 : v_now s2 = now) by (rewrite E3, F7; exact Hn).
        assert (Hx : texp s4 now = false).
        { unfold texp, s4, s3. vsimpl_goal. rewrite Hn2. apply timer_arm_restart_fresh. apply rto_pos; exact E4. }
        split; [|split; [exact Hn2|split; [exact E4|intros _ E; congruence]]].
        apply (JD _ _ _ _ (data_pkt s h f)); auto.
        - unfold dout, s4, s3. vsimpl_goal. rewrite E1, Ho. cbn [filter]. rewrite is_data_data_pkt.
          fold (dout s). rewrite A1. reflexivity.
        - unfold s4, s3. vsimpl_goal. rewrite E2, F5, A2. reflexivity. }
      destruct (sg_probe (fs_seg f)); cbn [negb].
      * apply Hfin; auto. rewrite F8. exact Hrb.
      * destruct (on_rto_reactions cci s1) as [s2|] eqn:Er; [|exact I].
        destruct (on_rto_reactions_spec _ _ _ Er) as (R1 & R2 & R3 & R4 & R5 & R6 & R7 & R8 & R9 & R10 & _).
        apply Hfin; auto. eapply timeout_in_bounds; exact R1.
    + destruct Hsd as ((Hf & Ho & Hsg & _ & Htr & _) & _).
      unfold sd_frame in Hf. destruct Hf as (F1 & F2 & F3 & F4 & F5 & F6 & F7 & F8 & _).
      split; [apply JA; [unfold dout; rewrite Ho; exact A1|rewrite F5; exact A2|auto]|].
      split; [rewrite F7; exact Hn|]. split; [rewrite F8; exact Hrb|]. intros E; discriminate E.
Qed.

Lemma send_tx_queue_J now r0 e0 (s : vsock) :
  B now s -> 0 <= r0 -> J r0 e0 now s -> stk (fun _ s' => J r0 e0 now s') s (send_tx_queue cci s).
Proof.
  intros HB Hr0 HJ. rewrite send_tx_queue_eq.
  destruct (v_transport_pending s); [exact HJ|].
  pose proof (rto_branch_J now r0 e0 s (outgoing_header s) HB HJ) as Hr.
  destruct (rto_branch cci s (outgoing_header s)) as [s1 ret|s1 e|]; cbn [sbind]; [|exact I|exact I].
  destruct Hr as (J1 & Hn1 & Hb1 & Hit).
  destruct (after_rto_k_cases cci (outgoing_header s) s1 ret) as [->|(-> & Hz & _ & ->)]; [exact J1|].
  destruct (texp s1 now) eqn:Ex.
  - pose proof (rec_new_silent s1 (outgoing_header s) (Hit eq_refl eq_refl)) as Hs.
    destruct (rec_new cci s1 (outgoing_header s)) as [s' u|s' e|]; cbn [stk] in *; auto.
    destruct Hs as (S1 & S2 & S3).
    destruct (J_A_of_expired _ _ _ _ J1 Ex) as (A1 & A2 & A3).
    apply JA; [unfold dout; rewrite S1; exact A1|congruence|auto].
  - pose proof (rec_new_CR now s1 (outgoing_header s)) as Hc.
    destruct (rec_new cci s1 (outgoing_header s)) as [s' u|s' e|]; cbn [stk] in *; auto.
    destruct (Hc Hn1 Hb1 Ex) as (C1 & C2 & C3 & C4).
    apply JC; [|exact C3]. rewrite C4.
    destruct J1 as [A1 A2 A3|A1 A2|p A1 A2 A3 A4 A5 A6]; lia.
Qed.

(* ------------------------------------------------------------------ the relation of a whole poll *)
Definition KJ (s s' : vsock) : Prop :=
  forall now r0 e0, 0 <= r0 -> B now s -> J r0 e0 now s -> B now s' /\ J r0 e0 now s'.

Lemma KJ_refl s : KJ s s.
Proof. intros now r0 e0 H0 HB HJ. auto. Qed.

Lemma KJ_trans a b c : KJ a b -> KJ b c -> KJ a c.
Proof.
  intros F G now r0 e0 H0 HB HJ. destruct (F now r0 e0 H0 HB HJ) as [HB1 HJ1]. apply G; assumption.
Qed.

Lemma KQ_KJ (s s' : vsock) : (forall now, KQ now s s') -> KJ s s'.
Proof.
  intros H now r0 e0 H0 HB HJ. destruct (H now HB) as [HB1 Q]. split; [exact HB1|].
  eapply J_QREL; eauto.
Qed.

Lemma stk_KQ_KJ {A} (s : vsock) (m : step A) : (forall now, stk (KQ now) s m) -> stRk KJ s m.
Proof.
  intro H. destruct m as [s' a|s' e|]; cbn [stRk]; auto. apply KQ_KJ. intro now. exact (H now).
Qed.

Lemma SQ_KJ (s s' : vsock) : SQ s s' -> tiR s s' -> v_now s' = v_now s -> v_env_now s' = v_env_now s -> KJ s s'.
Proof.
  intros HS Ht Hn He. apply KQ_KJ. intros now HB. split; [eapply B_keep; eauto|apply SQ_QREL; exact HS].
Qed.

Lemma stk_SQ_KJ {A} (s : vsock) (m : step A) :
  stR tiR s m -> step_frame0 s m -> stk SQ s m -> stRk KJ s m.
Proof.
  intros Ht Hf Hq. destruct m as [s' a|s' e|]; cbn [stk stR step_frame0 stRk] in *; auto.
  destruct Hf as (_ & E & N & _). apply SQ_KJ; assumption.
Qed.

End WithCC.
