(* Generic machinery for step-level theorems about the connection model:
   - [PollRel]: a reflexive-transitive relation R that every function called by poll_body respects
     is respected by poll_body / poll_loop / poll, WHATEVER the result (Pending, Ready, restart, panic);
     an invariant P is the special case R s s' := P s -> P s';
   - [PollRelPending]: the same for the polls that return Pending; [PollStaged]: one predicate per stage;
     all three instantiate VSock_Lemmas.poll_body_walk;
   - [ftrace_forallb_live]: lifting a step predicate to every trace when the invariant is only
     needed (and only kept) across steps after which the trace goes on. *)
From Utp Require Import Base.Prelude Wire.SeqNr Wire.Header Rtt.Rtte Mtu.SegSizes Rx.Rx Tx.Ring
  Tx.Segments Conn.Recovery Conn.Msg Conn.VSockRec Conn.VSock Conn.VSockRun Conn.VObs
  Conn.VSock_Lemmas.

Section WithCC.
Context {CC : Type} (cci : cc_iface CC).
Notation vsock := (vsock CC).

(* ------------------------------------------------------------------ relations through a poll *)
Section PollRel.
Variable R : vsock -> vsock -> Prop.
Hypothesis R_refl : forall s, R s s.
Hypothesis R_trans : forall a b c, R a b -> R b c -> R a c.

Definition stR {A} (s : vsock) (m : step A) : Prop :=
  match m with SOk s' _ | SErr s' _ => R s s' | SPanic => True end.

Definition brR (s : vsock) (r : body_res) : Prop :=
  match r with BrReturn s' _ | BrRestart s' => R s s' | BrPanic => True end.

Lemma stR_sbind : forall A B (m : step A) (f : vsock -> A -> step B) s,
  stR s m -> (forall s1 a, stR s1 (f s1 a)) -> stR s (sbind m f).
Proof.
  intros A B m f s Hm Hf. destruct m as [s1 a|s1 e|]; cbn [sbind stR] in *; auto.
  specialize (Hf s1 a). destruct (f s1 a); cbn [stR] in *; auto; eapply R_trans; eauto.
Qed.

Lemma stR_weaken : forall A (m : step A) s0 s, R s0 s -> stR s m -> stR s0 m.
Proof. intros A m s0 s H Hm. destruct m; cbn [stR] in *; auto; eapply R_trans; eauto. Qed.

Lemma brR_trans : forall a b r, R a b -> brR b r -> brR a r.
Proof. intros a b r F G. destruct r; cbn [brR] in *; auto; eapply R_trans; eauto. Qed.

Hypothesis H_start : forall s, R s (poll_start s).
Hypothesis H_syn_ack : forall s, stR s (maybe_send_syn_ack s).
Hypothesis H_send_ack : forall s, stR s (send_ack s).
Hypothesis H_pim : forall s, stR s (process_all_incoming_messages cci s).
Hypothesis H_flush : forall s rx1 fb w,
  rx_flush (v_rx s) = (rx1, FlOk fb, w) -> R s (add_wakes (set_rx s rx1) (rx_wakes w)).
Hypothesis H_split : forall s, stR s (split_tx_queue_into_segments cci s).
Hypothesis H_stq : forall s, stR s (send_tx_queue cci s).
Hypothesis H_fw1 : forall s, R s (transition_to_fin_wait_1 s).
Hypothesis H_fin : forall s, stR s (maybe_send_fin s).
Hypothesis H_msa : forall s, stR s (maybe_send_ack s).
Hypothesis H_jbd : forall s e, R s (just_before_death s e).
Hypothesis H_tail : forall s, R s (poll_tail s).

Lemma die_R : forall s e, brR s (die s e).
Proof. intros s e. unfold die. cbn [brR]. apply H_jbd. Qed.

Lemma stR_stage : forall X s0 s chk (m : step X),
  R s0 s -> stR s m -> stage (brR s0) chk (R s0) m.
Proof.
  intros X s0 s chk m H Hm. destruct m as [s1 a|s1 e|]; cbn [stage stR] in *.
  - assert (H1 : R s0 s1) by (eapply R_trans; eauto).
    destruct (v_restart s1); [exact H1|]. destruct (chk && _); exact H1.
  - eapply brR_trans; [eapply R_trans; eauto | apply die_R].
  - exact I.
Qed.

Theorem poll_body_R : forall s0, brR s0 (poll_body cci s0).
Proof.
  intros s0.
  apply (poll_body_walk cci (brR s0) (R s0) (R s0) (R s0) (R s0) (R s0) (R s0)).
  - exact I.
  - intros s H _. eapply stR_stage; [exact H | apply H_syn_ack].
  - intros s H _ _. eapply stR_stage; [exact H | apply H_send_ack].
  - intros s H _. eapply stR_stage; [exact H | apply H_pim].
  - intros s rx1 fb w H _ E. eapply R_trans; [exact H | exact (H_flush _ _ _ _ E)].
  - intros s H _ _. eapply brR_trans; [exact H | apply die_R].
  - intros s H _ _. eapply stR_stage; [exact H | apply H_split].
  - intros s H _. eapply stR_stage; [exact H | apply H_stq].
  - intros s H _ _. eapply R_trans; [exact H | apply H_fw1].
  - intros s H _. eapply stR_stage; [exact H | apply H_fin].
  - intros s H _. eapply stR_stage; [exact H | apply H_msa].
  - intros s H _ _. eapply R_trans; [exact H | apply H_jbd].
  - intros s H _ _. eapply R_trans; [exact H | apply H_tail].
  - apply H_start.
Qed.

Theorem poll_loop_R : forall fuel s s' r, poll_loop cci fuel s = (s', r) -> R s s'.
Proof.
  induction fuel as [|fuel IH]; intros s s' r H; cbn [poll_loop] in H.
  - inversion H; subst. apply R_refl.
  - pose proof (poll_body_R s) as F.
    destruct (poll_body cci s) as [s1 r1|s1|]; cbn [brR] in *.
    + inversion H; subst. exact F.
    + eapply R_trans; [exact F | eapply IH; exact H].
    + inversion H; subst. apply R_refl.
Qed.

Theorem poll_R : forall s s' r, poll cci s = (s', r) -> R (poll_init s) s'.
Proof. intros s s' r H. rewrite poll_unfold in H. eapply poll_loop_R; exact H. Qed.

End PollRel.

(* ------------------------------------------------------------------ the same for the polls that
   return Pending (or restart): no hypothesis about just_before_death / the timer tail, and the
   shape of the last iteration is exposed *)
Section PollRelPending.
Variable R : vsock -> vsock -> Prop.
Hypothesis R_refl : forall s, R s s.
Hypothesis R_trans : forall a b c, R a b -> R b c -> R a c.

(* only the SOk results matter: an error ends the poll with Ready *)
Definition stRk {A} (s : vsock) (m : step A) : Prop :=
  match m with SOk s' _ => R s s' | _ => True end.

Hypothesis H_start : forall s, R s (poll_start s).
Hypothesis H_syn_ack : forall s, stRk s (maybe_send_syn_ack s).
Hypothesis H_send_ack : forall s, stRk s (send_ack s).
Hypothesis H_pim : forall s, stRk s (process_all_incoming_messages cci s).
Hypothesis H_flush : forall s rx1 fb w,
  rx_flush (v_rx s) = (rx1, FlOk fb, w) -> R s (add_wakes (set_rx s rx1) (rx_wakes w)).
Hypothesis H_split : forall s, stRk s (split_tx_queue_into_segments cci s).
Hypothesis H_stq : forall s, stRk s (send_tx_queue cci s).
Hypothesis H_fw1 : forall s, R s (transition_to_fin_wait_1 s).
Hypothesis H_fin : forall s, stRk s (maybe_send_fin s).
Hypothesis H_msa : forall s, stRk s (maybe_send_ack s).

(* what a Pending result / a restart of one iteration tells *)
Definition pend_shape (s0 s' : vsock) : Prop :=
  (v_transport_pending s' = true /\ R s0 s') \/
  (exists sa sb b, R s0 sa /\ maybe_send_ack sa = SOk sb b /\ R sa sb /\
     v_transport_pending sb = false /\ v_restart sb = false /\
     state_is_closed (v_state sb) (o_wait_for_last_ack (v_opts sb)) = false /\
     s' = poll_tail sb).

Definition brRp (s : vsock) (r : body_res) : Prop :=
  match r with
  | BrReturn s' PollPending => pend_shape s s'
  | BrRestart s' => R s s'
  | _ => True
  end.

Lemma pend_shape_trans : forall a b c, R a b -> pend_shape b c -> pend_shape a c.
Proof.
  intros a b c F [[T G]|(sa & sb & bb & G1 & G2)].
  - left. split; [exact T | eapply R_trans; eauto].
  - right. exists sa, sb, bb. split; [eapply R_trans; eauto | exact G2].
Qed.

Lemma stRk_stage : forall X s0 s chk (m : step X),
  R s0 s -> stRk s m -> stage (brRp s0) chk (R s0) m.
Proof.
  intros X s0 s chk m H Hm. destruct m as [s1 a|s1 e|]; cbn [stage stRk] in *; try exact I.
  assert (H1 : R s0 s1) by (eapply R_trans; eauto).
  destruct (v_restart s1); [exact H1|].
  destruct chk; [|exact H1]. destruct (v_transport_pending s1) eqn:T; [|exact H1].
  left. split; assumption.
Qed.

Theorem poll_body_Rp : forall s0, brRp (poll_start s0) (poll_body cci s0).
Proof.
  intros s0. set (s := poll_start s0).
  (* last stage: the state after maybe_send_ack, with the state before it *)
  apply (poll_body_walk cci (brRp s) (R s) (R s) (R s) (R s) (R s)
           (fun sb => exists sa b, R s sa /\ maybe_send_ack sa = SOk sb b /\ R sa sb)).
  - exact I.
  - intros s1 H _. eapply stRk_stage; [exact H | apply H_syn_ack].
  - intros s1 H _ _. eapply stRk_stage; [exact H | apply H_send_ack].
  - intros s1 H _. eapply stRk_stage; [exact H | apply H_pim].
  - intros s1 rx1 fb w H _ E. eapply R_trans; [exact H | exact (H_flush _ _ _ _ E)].
  - intros s1 _ _ _. exact I.
  - intros s1 H _ _. eapply stRk_stage; [exact H | apply H_split].
  - intros s1 H _. eapply stRk_stage; [exact H | apply H_stq].
  - intros s1 H _ _. eapply R_trans; [exact H | apply H_fw1].
  - intros s1 H _. eapply stRk_stage; [exact H | apply H_fin].
  - intros sa H _. pose proof (H_msa sa) as F.
    destruct (maybe_send_ack sa) as [sb b|sb e|] eqn:E; cbn [stage stRk] in *; try exact I.
    destruct (v_restart sb); [eapply R_trans; eauto|].
    destruct (v_transport_pending sb) eqn:T; cbn [andb].
    + left. split; [exact T | eapply R_trans; eauto].
    + exists sa, b. auto.
  - intros sb _ _ _. exact I.
  - intros sb (sa & b & H1 & H2 & H3) [Rb Tb] Cb. right. exists sa, sb, b. auto 10.
  - apply R_refl.
Qed.

(* the two-part form: R up to the start s1 of the last iteration, the shape from poll_start s1 *)
Theorem poll_loop_Rp2 : forall fuel s s',
  poll_loop cci fuel s = (s', PollPending) -> exists s1, R s s1 /\ pend_shape (poll_start s1) s'.
Proof.
  induction fuel as [|fuel IH]; intros s s' H; cbn [poll_loop] in H; [discriminate|].
  pose proof (poll_body_Rp s) as F.
  destruct (poll_body cci s) as [s1 r1|s1|]; cbn [brRp] in *.
  - inversion H; subst. exists s. split; [apply R_refl | exact F].
  - apply IH in H. destruct H as (s2 & H1 & H2). exists s2. split; [|exact H2].
    eapply R_trans; [apply H_start|]. eapply R_trans; [exact F | exact H1].
  - discriminate.
Qed.

Theorem poll_Rp : forall s s',
  poll cci s = (s', PollPending) -> pend_shape (poll_init s) s'.
Proof.
  intros s s' H. rewrite poll_unfold in H. apply poll_loop_Rp2 in H. destruct H as (s1 & H1 & H2).
  eapply pend_shape_trans; [|exact H2]. eapply R_trans; [exact H1 | apply H_start].
Qed.

End PollRelPending.

Lemma stR_stRk : forall (R : vsock -> vsock -> Prop) A (s : vsock) (m : step A), stR R s m -> stRk R s m.
Proof. intros R A s m H. destruct m; cbn [stR stRk] in *; auto. Qed.

(* ------------------------------------------------------------------ staged Hoare reasoning for
   the polls that return Pending.  A restart is requested by send_tx_queue only (every other
   function keeps v_restart = false), so the stages are
     A0 : at the start of an iteration (the initial state of the poll, or a restart)
     A  : from poll_start up to process_all_incoming_messages
     B1 : after it, B2 : after the flush, up to send_tx_queue
     C  : from there to maybe_send_ack, D : after it, at the timer tail. *)
Section PollStaged.
Variables A0 A B1 B2 C D : vsock -> Prop.

Definition stU (P : vsock -> Prop) {X} (m : step X) : Prop :=
  match m with SOk s' _ => P s' | _ => True end.
(* unless the transport blocked *)
Definition stC (P : vsock -> Prop) {X} (m : step X) : Prop :=
  match m with SOk s' _ => v_transport_pending s' = false -> P s' | _ => True end.
Definition no_restart {X} (s : vsock) (m : step X) : Prop :=
  v_restart s = false -> stU (fun s' => v_restart s' = false) m.

Lemma stU_stC : forall (P : vsock -> Prop) X (m : step X), stU P m -> stC P m.
Proof. intros P X m H. destruct m; cbn [stU stC] in *; auto. Qed.

Hypothesis H_start : forall s, A0 s -> A (poll_start s).
Hypothesis H_syn_ack : forall s, A s -> stC A (maybe_send_syn_ack s).
Hypothesis H_send_ack : forall s, A s -> stC A (send_ack s).
Hypothesis H_pim : forall s, A s -> stC B1 (process_all_incoming_messages cci s).
Hypothesis H_flush : forall s rx1 fb w, B1 s ->
  rx_flush (v_rx s) = (rx1, FlOk fb, w) -> B2 (add_wakes (set_rx s rx1) (rx_wakes w)).
Hypothesis H_split : forall s, B2 s -> stU B2 (split_tx_queue_into_segments cci s).
Hypothesis H_stq : forall s, B2 s -> v_restart s = false ->
  stU (fun s' => (v_restart s' = true -> A0 s') /\
                 (v_restart s' = false -> v_transport_pending s' = false -> C s'))
      (send_tx_queue cci s).
Hypothesis H_fw1 : forall s, C s -> C (transition_to_fin_wait_1 s).
Hypothesis H_fin : forall s, C s -> stC C (maybe_send_fin s).
Hypothesis H_msa : forall s, C s -> stC D (maybe_send_ack s).

Hypothesis N_syn_ack : forall s, no_restart s (maybe_send_syn_ack s).
Hypothesis N_send_ack : forall s, no_restart s (send_ack s).
Hypothesis N_pim : forall s, no_restart s (process_all_incoming_messages cci s).
Hypothesis N_split : forall s, no_restart s (split_tx_queue_into_segments cci s).
Hypothesis N_fw1 : forall s : vsock, v_restart (transition_to_fin_wait_1 s) = v_restart s.
Hypothesis N_fin : forall s, no_restart s (maybe_send_fin s).
Hypothesis N_msa : forall s, no_restart s (maybe_send_ack s).

Definition tail_shape (s' : vsock) : Prop :=
  v_transport_pending s' = true \/
  exists sb, D sb /\ v_transport_pending sb = false /\ v_restart sb = false /\
    state_is_closed (v_state sb) (o_wait_for_last_ack (v_opts sb)) = false /\ s' = poll_tail sb.

Definition brS (r : body_res) : Prop :=
  match r with
  | BrReturn s' PollPending => tail_shape s'
  | BrRestart s' => A0 s'
  | _ => True
  end.

Lemma stC_stage : forall X (P : vsock -> Prop) s (m : step X),
  v_restart s = false -> no_restart s m -> stC P m -> stage brS true P m.
Proof.
  intros X P s m R0 Hn Hm. specialize (Hn R0). destruct m as [s1 a|s1 e|]; try exact I.
  cbn [stage stC stU] in *. rewrite Hn.
  destruct (v_transport_pending s1) eqn:T; [left; exact T | apply Hm; reflexivity].
Qed.

Theorem poll_body_S : forall s0, A0 s0 -> brS (poll_body cci s0).
Proof using All.
  intros s0 HA. apply (poll_body_walk cci brS A B1 B2 B2 C D).
  - exact I.
  - intros s H [R _]. apply (stC_stage _ _ s _ R); [apply N_syn_ack | apply H_syn_ack; exact H].
  - intros s H [R _] _. apply (stC_stage _ _ s _ R); [apply N_send_ack | apply H_send_ack; exact H].
  - intros s H [R _]. apply (stC_stage _ _ s _ R); [apply N_pim | apply H_pim; exact H].
  - intros s rx1 fb w H _ E. exact (H_flush s rx1 fb w H E).
  - intros s _ _ _. exact I.
  - intros s H [R _] _. pose proof (H_split s H) as F. pose proof (N_split s R) as N.
    destruct (split_tx_queue_into_segments cci s) as [s1 a|s1 e|]; try exact I.
    cbn [stage stU andb] in *. rewrite N. exact F.
  - (* send_tx_queue: the only stage that may restart *)
    intros s H R. pose proof (H_stq s H R) as F.
    destruct (send_tx_queue cci s) as [s1 a|s1 e|]; try exact I.
    cbn [stage stU] in *. destruct F as [Fr Fc].
    destruct (v_restart s1); [apply Fr; reflexivity|].
    destruct (v_transport_pending s1) eqn:T; [left; exact T | apply Fc; reflexivity].
  - intros s H _ _. apply H_fw1; exact H.
  - intros s H [R _]. apply (stC_stage _ _ s _ R); [apply N_fin | apply H_fin; exact H].
  - intros s H [R _]. apply (stC_stage _ _ s _ R); [apply N_msa | apply H_msa; exact H].
  - intros s _ _ _. exact I.
  - intros s H [R T] Cl. right. exists s. auto.
  - apply H_start; exact HA.
Qed.

Theorem poll_loop_S : forall fuel s s',
  A0 s -> poll_loop cci fuel s = (s', PollPending) -> tail_shape s'.
Proof.
  induction fuel as [|fuel IH]; intros s s' HA H; cbn [poll_loop] in H; [discriminate|].
  pose proof (poll_body_S s HA) as F.
  destruct (poll_body cci s) as [s1 r1|s1|]; cbn [brS] in *.
  - inversion H; subst. exact F.
  - eapply IH; [exact F | exact H].
  - discriminate.
Qed.

Theorem poll_S : forall s s',
  A0 (poll_init s) -> poll cci s = (s', PollPending) -> tail_shape s'.
Proof. intros s s' HA H. rewrite poll_unfold in H. eapply poll_loop_S; [exact HA | exact H]. Qed.

End PollStaged.

(* ------------------------------------------------------------------ traces *)
Definition vstep_out (s : vsock) (o : vop) : vout := snd (fst (fst (vstep cci s o))).

Lemma ftrace_cons' : forall s o rest,
  ftrace cci s (o :: rest) =
  fstep_of cci s o :: (if poll_finished (vstep_out s o) then []
                       else ftrace cci (vstep_state cci s o) rest).
Proof. intros. apply ftrace_cons. Qed.

(* the invariant needs to be kept only by the steps after which the trace continues *)
Lemma ftrace_forallb_live : forall (Inv : vsock -> Prop) (P : fstep -> bool),
  (forall s o, Inv s -> P (fstep_of cci s o) = true) ->
  (forall s o, Inv s -> poll_finished (vstep_out s o) = false -> Inv (vstep_state cci s o)) ->
  forall ops s, Inv s -> forallb P (ftrace cci s ops) = true.
Proof. exact (ftrace_forallb_unfinished cci). Qed.

Lemma fstep_of_post : forall (s : vsock) o,
  fs_post (fstep_of cci s o) = fp_of_vsock cci (vstep_state cci s o).
Proof. intros s o. unfold fstep_of, vstep_state. destruct (vstep cci s o) as [[[s' out] dw] sw]. reflexivity. Qed.

Lemma fstep_of_pre : forall (s : vsock) o, fs_pre (fstep_of cci s o) = fp_of_vsock cci s.
Proof. intros s o. unfold fstep_of. destruct (vstep cci s o) as [[[s' out] dw] sw]. reflexivity. Qed.

Lemma fstep_of_result : forall (s : vsock) o, fs_result (fstep_of cci s o) = fresult_of (vstep_out s o).
Proof. intros s o. unfold fstep_of, vstep_out. destruct (vstep cci s o) as [[[s' out] dw] sw]. reflexivity. Qed.

(* unfolding one poll step *)
Lemma vstep_poll : forall (s : vsock) sc s' r,
  poll cci (VSockRec.set_sends s sc) = (s', r) ->
  vstep_state cci s (VoPoll sc) = s' /\
  vstep_out s (VoPoll sc) = VrPoll r (rev (v_out s')) (rev (v_wakes s')) (v_arm_in s').
Proof.
  intros s sc s' r E. unfold vstep_state, vstep_out. cbn [vstep]. rewrite E. split; reflexivity.
Qed.

End WithCC.
