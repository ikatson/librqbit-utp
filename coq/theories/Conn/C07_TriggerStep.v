(* C07 — the trigger side of the immediate ACK, for a whole poll and for every trace of the model.
   [poll_trigger]: the first message of the inbox is a trigger (duplicate ST_DATA, FIN, ST_DATA while the
      reassembly queue holds data) => a poll that ran to its end emitted a packet.
   [poll_status]: a poll that ran to its end and changed the empty/non-empty status of the reassembly
      queue emitted a packet.
   Then the predicates of Conn/C07_Pred2.v on every step / every trace. *)
From Utp Require Import Base.Prelude Wire.SeqNr Wire.SeqNr_Proofs Wire.Header Rtt.Rtte Mtu.SegSizes
  Rx.Rx Rx.Rx_Proofs Tx.Ring Tx.Segments Conn.Recovery Conn.Msg Conn.VSockRec Conn.VSock Conn.VSockRun
  Conn.VObs Conn.VSock_LemmasTx Conn.VSock_LemmasIn Conn.VSock_Lemmas Conn.VSock_LemmasStep
  Conn.VSock_LemmasReach Conn.VSock_LemmasTimers Conn.VSock_LemmasPipe Conn.VSock_LemmasEof
  Conn.C07_Pred Conn.C07_Proofs Conn.C07_Pred2 Conn.C07_Trigger Conn.C07_Step.

Section WithCC.
Context {CC : Type} (cci : cc_iface CC).
Notation vsock := (vsock CC).

Ltac kf_leaf := match goal with |- kf ?a _ => apply (kf_same a a); [apply kf_refl | exact eq_refl ..] end.

(* mss fits 16 bits: an invariant of every reachable state *)
Definition Hhi (s : vsock) : Prop := mss (v_ss s) <= U16_MAX.
(* the ACK is forced, or a packet went out in this poll *)
Definition Fd (s : vsock) : Prop := Hhi s /\ (v_cbu s = USIZE_MAX \/ v_out s <> []).

Lemma kf_hhi (a b : vsock) : kf a b -> Hhi a -> Hhi b.
Proof. intros (A1 & _) H. unfold Hhi in *. lia. Qed.

Lemma kf_out (a b : vsock) : kf a b -> v_out a <> [] -> v_out b <> [].
Proof. intros (_ & l & A2 & _) H E. rewrite A2 in E. apply app_eq_nil in E. tauto. Qed.

Lemma kf_Fd (a b : vsock) : kf a b -> Fd a -> Fd b.
Proof.
  intros K (H & F). split; [eapply kf_hhi; eassumption|].
  destruct F as [F|F]; [|right; eapply kf_out; eassumption].
  destruct K as (_ & l & A2 & A3). destruct l as [|p l]; [left; auto|right]. rewrite A2. discriminate.
Qed.

Lemma stk_Fd X (s : vsock) (m : step X) : stR kf s m -> Fd s -> stU Fd m.
Proof. intros K H. destruct m; cbn [stR stU] in *; auto. eapply kf_Fd; eassumption. Qed.

Lemma kf_start (s : vsock) : kf s (poll_start s).
Proof. unfold poll_start. kf_leaf. Qed.

(* a forced ACK at maybe_send_ack goes out (or the transport blocks) *)
Lemma msa_forced (s s' : vsock) b :
  Hhi s -> v_cbu s = USIZE_MAX -> maybe_send_ack s = SOk s' b -> v_transport_pending s' = false ->
  v_out s' <> [].
Proof.
  intros Hh C E Tp. unfold maybe_send_ack in E.
  assert (Im : immediate_ack_to_transmit s = true).
  { unfold immediate_ack_to_transmit, IMMEDIATE_ACK_EVERY_RMSS. rewrite C. apply Z.leb_le.
    unfold Hhi, U16_MAX in Hh. unfold USIZE_MAX, M64. lia. }
  rewrite Im in E. apply send_ack_sent in E; [|exact Tp].
  destruct E as (_ & _ & _ & _ & _ & _ & _ & _ & p & P & _). rewrite P. discriminate.
Qed.

Lemma msa_Fd (s : vsock) : Fd s -> stC (fun s' => v_out s' <> []) (maybe_send_ack s).
Proof.
  intros (Hh & [C|O]).
  - destruct (maybe_send_ack s) as [s' b| |] eqn:E; cbn [stC]; auto. intro Tp. eapply msa_forced; eassumption.
  - pose proof (maybe_send_ack_kf s) as K.
    destruct (maybe_send_ack s) as [s' b| |]; cbn [stC stR] in *; auto. intros _. eapply kf_out; eassumption.
Qed.

Lemma syn_ack_done (s : vsock) :
  c07_hs_done (v_state s) = true -> maybe_send_syn_ack s = SOk (set_t_syn_ack_resend s None) tt.
Proof. intro H. unfold maybe_send_syn_ack. destruct (v_state s); try discriminate; reflexivity. Qed.

(* send_ack: a packet goes out, or nothing the triggers look at changes *)
Lemma send_ack_keeps (s : vsock) :
  match send_ack s with
  | SOk s' _ => (exists p, v_out s' = p :: v_out s) \/
                (v_inbox s' = v_inbox s /\ v_state s' = v_state s /\
                 v_last_consumed s' = v_last_consumed s /\ v_rx s' = v_rx s)
  | _ => True
  end.
Proof.
  unfold send_ack, send_control_packet.
  destruct (v_transport_pending s); [right; repeat split; reflexivity|].
  destruct (next_send s _) as [s0 o] eqn:E. pose proof (next_send_txf _ _ _ _ E) as X.
  apply next_send_fields in E. destruct E as (E1 & E2 & E3 & E4 & E5 & E6 & _).
  destruct X as (_ & _ & _ & _ & X5 & _).
  destruct o; try exact I.
  - left. unfold on_packet_sent, emit. vsimpl_goal. rewrite E6. eexists; reflexivity.
  - right. vsimpl_goal. repeat split; assumption.
Qed.

(* ------------------------------------------------------------------ the first message is a trigger *)
Definition Tg (m : msg) (rest : list msg) (s : vsock) : Prop :=
  Hhi s /\ v_inbox s = m :: rest /\ trig s m = true.
Definition Gd (m : msg) (rest : list msg) (s : vsock) : Prop := Fd s \/ Tg m rest s.

Lemma trig_hs_done (s : vsock) m : trig s m = true -> c07_hs_done (v_state s) = true.
Proof.
  unfold trig, c07_is_trigger. intro H. rewrite !andb_true_iff in H. tauto.
Qed.

Lemma pim_Tg (m : msg) rest (a : vsock) :
  Tg m rest a -> stU Fd (process_all_incoming_messages cci a).
Proof.
  intros (Hh & Hi & Ht). rewrite paim_eq. rewrite Hi. cbn [app recv_loop]. rewrite Hi.
  pose proof (pim_trigger cci (set_inbox a rest) m) as PT.
  pose proof (process_incoming_message_kf cci (set_inbox a rest) m) as PK.
  destruct (process_incoming_message cci (set_inbox a rest) m) as [s1 r| |]; cbn [sbind stU stR] in *; auto.
  assert (F1 : Fd s1).
  { split; [eapply kf_hhi; [exact PK | exact Hh]|].
    destruct (PT s1 r eq_refl Ht) as [K|[p K]]; [left; exact K | right; rewrite K; discriminate]. }
  match goal with |- stU Fd (sbind ?tail ?k) => assert (KT : stR kf s1 (sbind tail k)) end.
  { apply (stR_sbind kf kf_trans).
    - destruct (_ || _); [apply kf_refl | apply recv_loop_kf].
    - intros s2 res. apply paim_rest_kf. }
  eapply stk_Fd; eassumption.
Qed.

Theorem poll_trigger (s s' : vsock) m rest :
  Hhi s -> v_inbox s = m :: rest -> trig s m = true ->
  poll cci s = (s', PollPending) -> v_transport_pending s' = false -> v_out s' <> [].
Proof.
  intros Hh Hi Ht H Tp.
  assert (HS : tail_shape (fun x : vsock => v_out x <> []) s').
  { apply (poll_S_nr cci (Gd m rest) (Gd m rest) Fd Fd Fd (fun x : vsock => v_out x <> [])) with (s := s);
      try exact H.
    - intros a [K|K]; [left; eapply kf_Fd; [apply kf_start | exact K] | right; exact K].
    - intros a [K|K]; apply stU_stC.
      + eapply stU_mono; [|apply (stk_Fd _ a); [apply maybe_send_syn_ack_kf | exact K]].
        intros x Fx; left; exact Fx.
      + destruct K as (K1 & K2 & K3). rewrite (syn_ack_done a (trig_hs_done a m K3)). cbn [stU].
        right. split; [exact K1|]. split; [exact K2 | exact K3].
    - intros a [K|K]; apply stU_stC.
      + eapply stU_mono; [|apply (stk_Fd _ a); [apply send_ack_kf | exact K]].
        intros x Fx; left; exact Fx.
      + destruct K as (K1 & K2 & K3).
        pose proof (send_ack_keeps a) as SK. pose proof (send_ack_kf a) as KK.
        destruct (send_ack a) as [a' b| |]; cbn [stU stR] in *; auto.
        destruct SK as [[p P]|(S1 & S2 & S3 & S4)].
        * left. split; [eapply kf_hhi; eassumption|]. right. rewrite P. discriminate.
        * right. split; [eapply kf_hhi; eassumption|]. split; [congruence|].
          unfold trig in *. rewrite S2, S3, S4. exact K3.
    - intros a [K|K]; apply stU_stC.
      + apply (stk_Fd _ a); [apply process_all_incoming_messages_kf | exact K].
      + eapply pim_Tg; exact K.
    - intros a rx1 fb w K _. eapply kf_Fd; [apply rx_flush_kf | exact K].
    - intros a K. apply (stk_Fd _ a); [apply split_tx_queue_into_segments_kf | exact K].
    - intros a K Ra. pose proof (stk_Fd _ a _ (send_tx_queue_kf cci a) K) as P.
      destruct (send_tx_queue cci a); cbn [stU] in *; auto. split; intros; [left|]; exact P.
    - intros a K. eapply kf_Fd; [apply transition_to_fin_wait_1_kf | exact K].
    - intros a K. apply stU_stC. apply (stk_Fd _ a); [apply maybe_send_fin_kf | exact K].
    - intros a K. apply msa_Fd. exact K.
    - right. split; [exact Hh|]. split; [exact Hi | exact Ht]. }
  destruct HS as [HS|(sb & K & _ & _ & _ & ->)]; [congruence|].
  destruct (poll_tail_fields sb) as (_ & _ & _ & _ & _ & _ & _ & _ & _ & F10 & _). rewrite F10. exact K.
Qed.

(* ------------------------------------------------------------------ the status of the reassembly queue *)
Definition St (b : bool) (s : vsock) : Prop :=
  (Hhi s /\ ooq_is_empty (v_rx s) = b) \/ Fd s.

(* kf, and the receive half untouched *)
Definition krx (a b : vsock) : Prop := kf a b /\ v_rx b = v_rx a.

Lemma krx_refl : forall a, krx a a.
Proof. intro a. split; [apply kf_refl | reflexivity]. Qed.

Lemma krx_trans : forall a b c, krx a b -> krx b c -> krx a c.
Proof. intros a b c [A1 A2] [B1 B2]. split; [eapply kf_trans; eassumption | congruence]. Qed.

Lemma krx_St b (a a' : vsock) : krx a a' -> St b a -> St b a'.
Proof.
  intros [K R] [[H E]|F]; [left | right; eapply kf_Fd; eassumption].
  split; [eapply kf_hhi; eassumption | rewrite R; exact E].
Qed.

Lemma stk_txf_krx X (s : vsock) (m : step X) : stR kf s m -> stR txf s m -> stR krx s m.
Proof. intros K T. destruct m; cbn [stR] in *; auto; split; auto; apply T. Qed.

Lemma stkrx_St b X (s : vsock) (m : step X) : stR krx s m -> St b s -> stU (St b) m.
Proof. intros K H. destruct m; cbn [stR stU] in *; auto. eapply krx_St; eassumption. Qed.

Lemma maybe_send_syn_ack_krx (s : vsock) : stR krx s (maybe_send_syn_ack s).
Proof.
  revert s. apply (maybe_send_syn_ack_by krx krx_refl krx_trans).
  - intro s. apply stk_txf_krx; [apply send_ack_kf | apply send_ack_txf].
  - intros s c. split; [kf_leaf | reflexivity].
  - intro s. split; [kf_leaf | reflexivity].
Qed.

Lemma fw1_krx (s : vsock) : krx s (transition_to_fin_wait_1 s).
Proof.
  split; [apply transition_to_fin_wait_1_kf|]. unfold transition_to_fin_wait_1.
  destruct (v_state s); reflexivity.
Qed.

Lemma pim_St b (s : vsock) m : St b s -> stU (St b) (process_incoming_message cci s m).
Proof.
  intros H. pose proof (pim_status cci s m) as PS. pose proof (process_incoming_message_kf cci s m) as PK.
  destruct (process_incoming_message cci s m) as [s' r| |]; cbn [stU stR] in *; auto.
  destruct H as [[Hh E]|F]; [|right; eapply kf_Fd; eassumption].
  pose proof (kf_hhi _ _ PK Hh) as Hh'.
  destruct (PS s' r eq_refl) as [K|[K|[p K]]].
  - left. split; [exact Hh' | congruence].
  - right. split; [exact Hh' | left; exact K].
  - right. split; [exact Hh' | right; rewrite K; discriminate].
Qed.

Lemma recv_loop_St b : forall fuel (s : vsock) acc, St b s -> stU (St b) (recv_loop cci fuel s acc).
Proof.
  apply recv_loop_stU.
  1-3: intros s x H; eapply krx_St; [|exact H]; split; [kf_leaf | reflexivity].
  - intros s H. eapply krx_St; [apply fw1_krx | exact H].
  - intros s H. apply (stkrx_St b _ s); [|exact H].
    apply stk_txf_krx; [apply maybe_send_fin_kf | apply maybe_send_fin_txf].
  - intros s m. apply pim_St.
Qed.

Lemma paim_rest_krx (s1 : vsock) r : stR krx s1 (paim_rest s1 r).
Proof.
  pose proof (paim_rest_kf s1 r) as K. pose proof (paim_rest_pst s1 r) as P.
  destruct (paim_rest s1 r); cbn [stR] in *; auto; split; auto; apply P.
Qed.

Lemma paim_St b (s : vsock) : St b s -> stU (St b) (process_all_incoming_messages cci s).
Proof.
  intro H. rewrite paim_eq. apply stU_sbind; [apply recv_loop_St; exact H|].
  intros s1 res H1. apply (stkrx_St b _ s1); [apply paim_rest_krx | exact H1].
Qed.

Lemma split_krx (s : vsock) : stR krx s (split_tx_queue_into_segments cci s).
Proof.
  pose proof (split_tx_queue_into_segments_kf cci s) as K. pose proof (split_srx cci s) as P.
  destruct (split_tx_queue_into_segments cci s); cbn [stR] in *; auto; split; auto; apply P.
Qed.

(* a poll that ran to its end: the status of the reassembly queue is as before, or a packet went out *)
Theorem poll_status (s s' : vsock) :
  Hhi s -> poll cci s = (s', PollPending) -> v_transport_pending s' = false ->
  ooq_is_empty (v_rx s') = ooq_is_empty (v_rx s) \/ v_out s' <> [].
Proof.
  intros Hh H Tp. set (b := ooq_is_empty (v_rx s)).
  set (D := fun x : vsock => ooq_is_empty (v_rx x) = b \/ v_out x <> []).
  assert (HS : tail_shape D s').
  { apply (poll_S_nr cci (St b) (St b) (St b) (St b) (St b) D) with (s := s); try exact H.
    - intros a K. eapply krx_St; [|exact K]. split; [apply kf_start | reflexivity].
    - intros a K. apply stU_stC. apply (stkrx_St b _ a); [apply maybe_send_syn_ack_krx | exact K].
    - intros a K. apply stU_stC.
      apply (stkrx_St b _ a); [apply stk_txf_krx; [apply send_ack_kf | apply send_ack_txf] | exact K].
    - intros a K. apply stU_stC. apply paim_St. exact K.
    - intros a rx1 fb w K E. apply rx_flush_status in E.
      destruct K as [[K1 K2]|K]; [left | right; eapply kf_Fd; [apply rx_flush_kf | exact K]].
      split; [exact K1|]. unfold add_wakes. vsimpl_goal. congruence.
    - intros a K. apply (stkrx_St b _ a); [apply split_krx | exact K].
    - intros a K Ra.
      pose proof (stkrx_St b _ a _ (stk_txf_krx _ a _ (send_tx_queue_kf cci a) (send_tx_queue_txf cci a)) K) as P.
      destruct (send_tx_queue cci a); cbn [stU] in *; auto.
    - intros a K. eapply krx_St; [apply fw1_krx | exact K].
    - intros a K. apply stU_stC.
      apply (stkrx_St b _ a); [apply stk_txf_krx; [apply maybe_send_fin_kf | apply maybe_send_fin_txf] | exact K].
    - intros a K. destruct K as [[K1 K2]|K].
      + pose proof (maybe_send_ack_txf a) as X.
        destruct (maybe_send_ack a) as [a' bb| |]; cbn [stC stR] in *; auto. intros _. left.
        destruct X as (X1 & _). rewrite X1. exact K2.
      + pose proof (msa_Fd a K) as P. destruct (maybe_send_ack a); cbn [stC] in *; auto.
        intro T. right. apply P. exact T.
    - left. split; [exact Hh | reflexivity]. }
  destruct HS as [HS|(sb & K & _ & _ & _ & ->)]; [congruence|].
  destruct (poll_tail_fields sb) as (_ & _ & F3 & _ & _ & _ & _ & _ & _ & F10 & _).
  rewrite F3, F10. exact K.
Qed.


(* ------------------------------------------------------------------ mss <= 65535 in every reachable state *)
Lemma hhi_vsock_new : forall mk c (s : vsock), vsock_new cci mk c = Some s -> Hhi s.
Proof.
  intros mk c s H. unfold vsock_new in H.
  destruct (match (if vc_incoming c then None else _) with Some r => _ | None => _ end); [|discriminate].
  inversion H; subst. unfold Hhi. cbn [v_ss]. apply mss_ss_new_hi.
Qed.

Theorem hhi_poll_pending (s s' : vsock) : Hhi s -> poll cci s = (s', PollPending) -> Hhi s'.
Proof.
  intros Hh H.
  assert (P : pend_shape kf (poll_init s) s').
  { apply (poll_Rp cci kf); try exact H.
    - apply kf_refl.
    - apply kf_trans.
    - apply kf_start.
    - intro a. apply stR_stRk, maybe_send_syn_ack_kf.
    - intro a. apply stR_stRk, send_ack_kf.
    - intro a. apply stR_stRk, process_all_incoming_messages_kf.
    - intros a rx1 fb w _. apply rx_flush_kf.
    - intro a. apply stR_stRk, split_tx_queue_into_segments_kf.
    - intro a. apply stR_stRk, send_tx_queue_kf.
    - intro a. apply transition_to_fin_wait_1_kf.
    - intro a. apply stR_stRk, maybe_send_fin_kf.
    - intro a. apply stR_stRk, maybe_send_ack_kf. }
  assert (H0 : Hhi (poll_init s)) by exact Hh.
  destruct P as [[_ P]|(sa & sb & b & P1 & _ & P2 & _ & _ & _ & ->)].
  - eapply kf_hhi; eassumption.
  - destruct (poll_tail_fields sb) as (_ & F2 & _). unfold Hhi. rewrite F2.
    eapply kf_hhi; [exact P2|]. eapply kf_hhi; eassumption.
Qed.

Lemma hhi_vstep_live (s : vsock) o :
  Hhi s -> poll_finished (vstep_out cci s o) = false -> Hhi (vstep_state cci s o).
Proof.
  intros Hh F. pose proof (vstep_nonpoll_keeps cci s o) as K.
  destruct o; try (destruct K as (_ & _ & K3); unfold Hhi; rewrite K3; exact Hh).
  destruct (poll cci (VSockRec.set_sends s script)) as [s' r] eqn:E.
  destruct (vstep_poll cci s script s' _ E) as [Es Eo]. rewrite Es. rewrite Eo in F.
  destruct r; try discriminate. eapply hhi_poll_pending; [|exact E]. exact Hh.
Qed.

(* ------------------------------------------------------------------ c07_reasm_change_ok *)
Theorem c07_reasm_change_ok_step : forall cfg (s : vsock) o,
  Hhi s -> c07_reasm_change_ok cfg (fstep_of cci s o) = true.
Proof.
  intros cfg s o Hh. unfold c07_reasm_change_ok.
  destruct (c07_poll_done (fstep_of cci s o)) eqn:D; [|reflexivity].
  destruct (poll_done_step cci s o D) as (sc & s' & -> & E & T & _).
  rewrite (fstep_of_poll cci s sc s' _ E). cbn [andb].
  unfold fp_ooq_empty, c07_pkts. cbn [fs_pre fs_post fs_result fp_of_vsock f_rx_ff f_rx_len].
  destruct (poll_status (VSockRec.set_sends s sc) s' Hh E T) as [K|K].
  - unfold ooq_is_empty in K. cbn [v_rx VSockRec.set_sends] in K. rewrite K. rewrite eqb_reflx. reflexivity.
  - destruct (negb _); [|reflexivity].
    destruct (map fpacket_of (rev (v_out s'))) eqn:O; [elim K; exact (pkts_nil _ O) | reflexivity].
Qed.

Theorem c07_reasm_change_ok_trace : forall cfg ops (s : vsock),
  Hhi s -> forallb (c07_reasm_change_ok cfg) (ftrace cci s ops) = true.
Proof.
  intros cfg. apply (ftrace_forallb_live cci Hhi).
  - intros s o H. apply c07_reasm_change_ok_step; exact H.
  - apply hhi_vstep_live.
Qed.

Theorem c07_reasm_change_ok_every_trace : forall (cfg : vconfig) mk c (s0 : vsock) ops,
  vsock_new cci mk c = Some s0 -> forallb (c07_reasm_change_ok cfg) (ftrace cci s0 ops) = true.
Proof. intros cfg mk c s0 ops H. apply c07_reasm_change_ok_trace. eapply hhi_vsock_new; exact H. Qed.

(* ------------------------------------------------------------------ c07_trigger_ok *)
(* what the walk knows about the inbox *)
Definition ib_inv (ib : c07_inbox) (s : vsock) : Prop :=
  match ib with
  | CiEmpty => v_inbox s = [] /\ v_inbox_closed s = false
  | CiHead h => v_inbox_closed s = false /\ exists m rest, v_inbox s = m :: rest /\ m_hdr m = h
  | CiUnknown => True
  end.

Lemma ib_inv_same ib (s s' : vsock) :
  v_inbox s' = v_inbox s -> v_inbox_closed s' = v_inbox_closed s -> ib_inv ib s -> ib_inv ib s'.
Proof. intros E1 E2. destruct ib; cbn [ib_inv]; rewrite ?E1, ?E2; auto. Qed.

Lemma c07_trigger_claim_ok ib (s : vsock) sc :
  Hhi s -> ib_inv ib s -> c07_trigger_claim ib (fstep_of cci s (VoPoll sc)) = true.
Proof.
  intros Hh Hi. destruct ib as [|h|]; try reflexivity. cbn [c07_trigger_claim].
  destruct (c07_poll_done (fstep_of cci s (VoPoll sc))) eqn:D; [|reflexivity].
  destruct (poll_done_step cci s _ D) as (sc' & s' & Eo & E & T & _). injection Eo as <-.
  rewrite (fstep_of_poll cci s sc s' _ E). cbn [andb].
  unfold fp_ooq_empty, c07_pkts.
  cbn [fs_pre fs_post fs_result fp_of_vsock f_rx_ff f_rx_len f_state f_last_consumed].
  match goal with |- (if ?g then _ else _) = true => destruct g eqn:G end; [|reflexivity].
  destruct Hi as (Hc & m & rest & Hm & Hh0). subst h.
  pose proof (poll_trigger (VSockRec.set_sends s sc) s' m rest Hh Hm G E T) as K.
  destruct (map fpacket_of (rev (v_out s'))) eqn:O; [elim K; exact (pkts_nil _ O) | reflexivity].
Qed.

Theorem c07_trigger_walk_trace : forall ops ib (s : vsock),
  Hhi s -> ib_inv ib s -> c07_trigger_walk ib (ftrace cci s ops) = true.
Proof.
  induction ops as [|o rest IH]; intros ib s Hh Hi; [reflexivity|].
  rewrite ftrace_cons'. cbn [c07_trigger_walk]. rewrite fstep_of_event.
  destruct o; cbn [fevent_of];
    try (rewrite nonpoll_not_finished by (intros sc0; discriminate);
         apply IH; [apply hhi_vstep_live; [exact Hh | apply nonpoll_not_finished; intros sc0; discriminate]|];
         match goal with |- ib_inv _ (vstep_state cci s ?o) =>
           destruct (nonpoll_inbox cci s o I) as [E1 E2] end; eapply ib_inv_same; eassumption).
  - (* poll *)
    apply andb_true_intro. split; [apply c07_trigger_claim_ok; assumption|].
    destruct (poll_finished (vstep_out cci s (VoPoll script))) eqn:F; [reflexivity|].
    apply IH; [apply hhi_vstep_live; assumption|].
    destruct (c07_poll_done (fstep_of cci s (VoPoll script))) eqn:D.
    + apply c07_poll_done_ibe. exact D.
    + destruct ib; cbn [ib_inv]; auto. apply c07_poll_live_ibe; [exact F | exact Hi].
  - (* deliver *)
    rewrite nonpoll_not_finished by (intros sc0; discriminate).
    apply IH; [apply hhi_vstep_live; [exact Hh | apply nonpoll_not_finished; intros sc0; discriminate]|].
    unfold vstep_state. cbn [vstep].
    destruct ib as [|h|]; cbn [ib_inv] in *; auto.
    + destruct Hi as [H1 H2]. rewrite H2. cbn [fst]. vsimpl_goal. rewrite H1. cbn [app].
      split; [exact H2|]. exists m, []. split; reflexivity.
    + destruct Hi as (H2 & m0 & rest0 & H1 & H3). rewrite H2. cbn [fst]. vsimpl_goal. rewrite H1.
      cbn [app]. split; [exact H2|]. exists m0, (rest0 ++ [m]). split; [reflexivity | exact H3].
  - (* close *)
    rewrite nonpoll_not_finished by (intros sc0; discriminate).
    apply IH; [apply hhi_vstep_live; [exact Hh | apply nonpoll_not_finished; intros sc0; discriminate]|].
    exact I.
Qed.

Theorem c07_trigger_ok_from : forall cfg ops (s : vsock),
  Hhi s -> v_inbox s = [] -> v_inbox_closed s = false ->
  c07_trigger_ok cfg (ftrace cci s ops) = true.
Proof.
  intros cfg ops s Hh H1 H2. unfold c07_trigger_ok. apply c07_trigger_walk_trace; [exact Hh|].
  split; assumption.
Qed.

Theorem c07_trigger_ok_every_trace : forall (cfg : vconfig) mk c (s0 : vsock) ops,
  vsock_new cci mk c = Some s0 -> c07_trigger_ok cfg (ftrace cci s0 ops) = true.
Proof.
  intros cfg mk c s0 ops H. destruct (ibe_vsock_new cci mk c s0 H) as [H1 H2].
  apply c07_trigger_ok_from; [eapply hhi_vsock_new; exact H | exact H1 | exact H2].
Qed.

End WithCC.
