(* The RTO-mode invariant of a connection, kept by every function of a poll and by every event:
     rm s := 0 < rto_retransmissions -> the retransmission timer is armed /\ an undelivered segment exists.
   (single-segment "RTO mode" - send_tx_queue returns right after the RTO part while the counter is
   positive - is always left again: the counter is reset by the ACK / SACK bookkeeping of
   process_all_incoming_messages and by the expired-probe arm of split_tx_queue_into_segments, and
   nothing else delivers or removes a segment while it is positive.)
   Conn/C02_Step2.v uses it for c02_no_silent_stall. *)
From Utp Require Import Base.Prelude Wire.SeqNr Wire.Header Rtt.Rtte Rtt.Rtte_Proofs Mtu.SegSizes
  Rx.Rx Tx.Ring Tx.Segments Tx.Segments_Proofs Tx.Segments_ProofsOut
  Conn.Recovery Conn.Msg Conn.VSockRec Conn.VSock Conn.VSockRun Conn.VObs
  Conn.VSock_LemmasTx Conn.VSock_LemmasIn
  Conn.VSock_Lemmas Conn.VSock_LemmasStep Conn.VSock_LemmasReach Conn.VSock_LemmasTimers Conn.C02_Step
  Conn.C02_SegLemmas2.

Section WithCC.
Context {CC : Type} (cci : cc_iface CC).
Notation vsock := (vsock CC).

Definition rm (s : vsock) : Prop :=
  0 < v_rto_retransmissions s -> v_t_retransmit s <> None /\ und (ss_segs (v_segs s)) = true.

Definition rmR (s s' : vsock) : Prop := rm s -> rm s'.

Lemma rmR_refl : forall s, rmR s s.
Proof. intros s H; exact H. Qed.

Lemma rmR_trans : forall a b c, rmR a b -> rmR b c -> rmR a c.
Proof. intros a b c H1 H2 H. auto. Qed.

(* the counter is kept, an armed timer stays armed, the delivered flags are kept *)
Definition sdr (s s' : vsock) : Prop :=
  v_rto_retransmissions s' = v_rto_retransmissions s /\
  (v_t_retransmit s <> None -> v_t_retransmit s' <> None) /\
  dlv (ss_segs (v_segs s')) = dlv (ss_segs (v_segs s)).

Lemma sdr_refl : forall s, sdr s s.
Proof. intros s. unfold sdr. auto. Qed.

Lemma sdr_trans : forall a b c, sdr a b -> sdr b c -> sdr a c.
Proof. unfold sdr. intros a b c (A1 & A2 & A3) (B1 & B2 & B3). repeat split; try congruence; auto. Qed.

Lemma sdr_rm : forall s s', sdr s s' -> rmR s s'.
Proof.
  intros s s' (A1 & A2 & A3) H K. rewrite A1 in K. destruct (H K) as [H1 H2].
  split; [auto|]. rewrite (und_dlv _ _ A3). exact H2.
Qed.

Lemma sdr_same : forall (s s' : vsock),
  v_rto_retransmissions s' = v_rto_retransmissions s -> v_t_retransmit s' = v_t_retransmit s ->
  v_segs s' = v_segs s -> sdr s s'.
Proof. intros s s' E1 E2 E3. unfold sdr. rewrite E1, E2, E3. auto. Qed.

Lemma sdr_armed : forall (s s' : vsock),
  v_rto_retransmissions s' = v_rto_retransmissions s -> v_t_retransmit s' <> None ->
  dlv (ss_segs (v_segs s')) = dlv (ss_segs (v_segs s)) -> sdr s s'.
Proof. intros s s' E1 E2 E3. unfold sdr. auto. Qed.

Ltac sdr_same_tac := apply sdr_same; exact eq_refl.
Ltac sdr_via H := eapply sdr_trans; [exact H | sdr_same_tac].

Definition sameT (s s' : vsock) : Prop :=
  v_rto_retransmissions s' = v_rto_retransmissions s /\ v_t_retransmit s' = v_t_retransmit s /\
  v_segs s' = v_segs s /\ v_state s' = v_state s /\ v_last_sent_seq_nr s' = v_last_sent_seq_nr s.

Lemma sameT_refl : forall s, sameT s s.
Proof. intros s. unfold sameT. repeat split. Qed.

Lemma sameT_trans : forall a b c, sameT a b -> sameT b c -> sameT a c.
Proof. unfold sameT. intros a b c (A1 & A2 & A3 & A4 & A5) (B1 & B2 & B3 & B4 & B5). repeat split; congruence. Qed.

Ltac sameT_tac := unfold sameT; repeat split; exact eq_refl.
Ltac sameT_via H := eapply sameT_trans; [exact H | sameT_tac].

Lemma sameT_sdr : forall s s', sameT s s' -> sdr s s'.
Proof. intros s s' (E1 & E2 & E3 & _). apply sdr_same; assumption. Qed.

Notation sts := (stR sdr).
Notation stm := (stR rmR).

Lemma stR_mono : forall (R R' : vsock -> vsock -> Prop) A (s : vsock) (m : step A),
  (forall a b, R a b -> R' a b) -> stR R s m -> stR R' s m.
Proof. intros R R' A s m H K. destruct m; cbn [stR] in *; auto. Qed.

Lemma sts_stm : forall A (s : vsock) (m : step A), sts s m -> stm s m.
Proof. intros A s m. apply stR_mono. apply sdr_rm. Qed.

(* ---- the sending helpers: instances of VSock_LemmasReach.StepRel ---- *)
Lemma send_control_packet_sameT : forall (s : vsock) h, stR sameT s (send_control_packet s h).
Proof. apply (send_control_packet_R sameT sameT_refl sameT_trans); intros; sameT_tac. Qed.

Lemma maybe_send_ack_sameT : forall (s : vsock), stR sameT s (maybe_send_ack s).
Proof. apply (maybe_send_ack_R sameT sameT_refl sameT_trans); intros; sameT_tac. Qed.

(* the state table moves the state only *)
Lemma state_table_same : forall (s : vsock) h,
  match state_table s h with TblDrop s1 | TblErr s1 _ | TblContinue s1 =>
    v_rto_retransmissions s1 = v_rto_retransmissions s /\ v_t_retransmit s1 = v_t_retransmit s /\
    v_segs s1 = v_segs s end.
Proof.
  intros s h. unfold state_table, restart_remote_inactivity_timer.
  repeat break_match; repeat split.
Qed.

(* sending a segment or the FIN arms the timer; sending a segment flags it *)
Lemma sdr_fin_sent : forall (s : vsock) seq,
  sdr s (set_last_sent_seq_nr
           (set_t_retransmit s (timer_arm (v_t_retransmit s) (v_now s)
                                  (retransmission_timeout (v_rtte s)) false)) seq).
Proof. intros. apply sdr_armed; try exact eq_refl. vsimpl_goal. apply timer_arm_some. Qed.

Lemma sdr_data_sent : forall (s : vsock) p f, sdr s (sent_state s p f).
Proof.
  intros. unfold sent_state, on_packet_sent, emit.
  destruct (seq_gt _ _); try destruct (seq_gt _ _);
    (apply sdr_armed; [exact eq_refl | vsimpl_goal; apply timer_arm_some | vsimpl_goal; apply on_sent_dlv]).
Qed.

Ltac sdr_leaf := first [apply sdr_data_sent | apply sdr_fin_sent | sdr_same_tac].

Lemma send_control_packet_sdr : forall (s : vsock) h, sts s (send_control_packet s h).
Proof. intros s h. eapply stR_mono; [apply sameT_sdr | apply send_control_packet_sameT]. Qed.

Lemma send_ack_sdr : forall (s : vsock), sts s (send_ack s).
Proof. intros s. unfold send_ack. apply send_control_packet_sdr. Qed.

Lemma maybe_send_fin_sdr : forall (s : vsock), sts s (maybe_send_fin s).
Proof. apply (maybe_send_fin_R sdr sdr_refl sdr_trans); intros; sdr_leaf. Qed.

Lemma send_data_sdr : forall (s : vsock) h f, sts s (send_data s h f).
Proof. apply (send_data_R sdr sdr_refl sdr_trans); intros; sdr_leaf. Qed.

Lemma recovery_loop_sdr : forall items (s : vsock) h mss0 st, sts s (recovery_loop items s h mss0 st).
Proof. exact (recovery_loop_by sdr sdr_refl sdr_trans send_data_sdr). Qed.

Lemma new_data_loop_sdr : forall items (s : vsock) h remaining, sts s (new_data_loop items s h remaining).
Proof. exact (new_data_loop_by sdr sdr_refl sdr_trans send_data_sdr). Qed.

Lemma on_rto_reactions_sameT : forall (s s1 : vsock), on_rto_reactions cci s = Some s1 -> sameT s s1.
Proof.
  intros s s1 H. unfold on_rto_reactions in H.
  destruct (Rtte.on_rto_timeout (v_rtte s)) as [rt|]; inversion H; subst. sameT_tac.
Qed.

Lemma set_recovering_sdr : forall (s : vsock) rc, sdr s (set_recovering s rc).
Proof. intros. unfold set_recovering. sdr_same_tac. Qed.

(* the counter alone *)
Definition rtoeq (s s' : vsock) : Prop := v_rto_retransmissions s' = v_rto_retransmissions s.

Lemma rtoeq_refl : forall s, rtoeq s s.
Proof. intros s. reflexivity. Qed.

Lemma rtoeq_trans : forall a b c, rtoeq a b -> rtoeq b c -> rtoeq a c.
Proof. unfold rtoeq. intros. congruence. Qed.

Lemma sdr_rtoeq : forall s s', sdr s s' -> rtoeq s s'.
Proof. intros s s' (A & _). exact A. Qed.

Lemma sts_ste : forall A (s : vsock) (m : step A), sts s m -> stR rtoeq s m.
Proof. intros A s m. apply stR_mono. apply sdr_rtoeq. Qed.

(* outside RTO mode the invariant is trivial as long as the counter is not touched *)
Lemma rtoeq_rm0 : forall s s', v_rto_retransmissions s <= 0 -> rtoeq s s' -> rmR s s'.
Proof. intros s s' H E _ K. unfold rtoeq in E. lia. Qed.

Lemma ste_stm0 : forall A (s : vsock) (m : step A),
  v_rto_retransmissions s <= 0 -> stR rtoeq s m -> stm s m.
Proof. intros A s m H K. destruct m; cbn [stR] in *; auto using rtoeq_rm0. Qed.

Lemma send_tx_queue_rm : forall (s : vsock), stm s (send_tx_queue cci s).
Proof.
  intros s. unfold send_tx_queue.
  destruct (v_transport_pending s); [apply rmR_refl|].
  apply (stR_sbind rmR rmR_trans).
  - destruct (timer_expired _ _); [|apply rmR_refl].
    destruct (iter_for_sending _ _) as [|f l] eqn:Eit.
    + (* nothing undelivered: the counter is not positive *)
      assert (Hz : forall s' : vsock, rtoeq s s' -> rmR s s').
      { intros s' E Hrm K. exfalso. unfold rtoeq in E. rewrite E in K. destruct (Hrm K) as [_ U].
        rewrite (iter_nil_und _ Eit) in U. discriminate. }
      destruct (our_fin_if_unacked _); [|apply Hz; reflexivity].
      destruct (_ =? _); [|apply Hz; reflexivity].
      set (s1 := set_last_sent_seq_nr s (wsub16 (v_last_sent_seq_nr s) 1)).
      pose proof (sts_ste _ _ _ (maybe_send_fin_sdr s1)) as F.
      assert (E1 : v_rto_retransmissions s1 = v_rto_retransmissions s) by reflexivity.
      clearbody s1.
      destruct (maybe_send_fin s1) as [s2 sent| |]; cbn [sbind stR] in *; auto.
      * destruct sent; [|apply Hz; unfold rtoeq in *; congruence].
        destruct (on_rto_reactions cci s2) as [s3|] eqn:Er; [|exact I].
        apply on_rto_reactions_sameT, sameT_sdr, sdr_rtoeq in Er. cbn [stR]. apply Hz.
        unfold rtoeq in *. vsimpl_goal. congruence.
      * apply Hz; unfold rtoeq in *; congruence.
    + pose proof (send_data_sdr s (outgoing_header s) f) as Hd.
      destruct (send_data _ _ f) as [s1 r|s1 e|]; cbn [stR] in *; auto using sdr_rm.
      destruct r; cbn [stR]; auto using sdr_rm.
      cbv zeta.
      match goal with |- stR _ _ (match ?o with _ => _ end) => destruct o as [s2|] eqn:E end; [|exact I].
      assert (F2 : sdr s1 s2).
      { destruct (negb _); [apply sameT_sdr, on_rto_reactions_sameT; exact E|injection E as <-; apply sdr_refl]. }
      cbn [stR]. intros _ _. vsimpl_goal. split; [apply timer_arm_some|].
      pose proof (sdr_trans _ _ _ Hd F2) as (_ & _ & D). rewrite (und_dlv _ _ D).
      eapply iter_cons_und; exact Eit.
  - intros s1 ret. destruct ret; [apply rmR_refl|].
    destruct (0 <? v_rto_retransmissions s1) eqn:Ez; [apply rmR_refl|].
    destruct (ss_segs _); [apply rmR_refl|].
    apply ste_stm0; [lia|].
    apply (stR_sbind rtoeq rtoeq_trans).
    + destruct (rv_phase _); try apply rtoeq_refl.
      apply (stR_sbind rtoeq rtoeq_trans); [apply sts_ste, recovery_loop_sdr|].
      intros s2 [st early]. cbv beta iota zeta.
      destruct early; [exact eq_refl|].
      match goal with |- stR _ _ (match our_fin_if_unacked (v_state ?y) with _ => _ end) =>
        assert (F3 : rtoeq s2 y); [|revert F3; generalize y; intros sy F3] end.
      { destruct (rl_cwnd st <? _); [|exact eq_refl]. destruct (rc_recalc _); [exact eq_refl|].
        destruct (0 <? rl_sent st); exact eq_refl. }
      destruct (our_fin_if_unacked _); [destruct (_ =? _)|]; cbn [stR]; auto.
    + intros s2 ret. destruct ret; [apply rtoeq_refl|].
      apply (stR_sbind rtoeq rtoeq_trans); [apply sts_ste, new_data_loop_sdr|].
      intros s3 tl. destruct tl as [[sq sz]|]; [|apply rtoeq_refl].
      destruct (pop_mtu_probe _ _) as [segs' popped]. destruct popped; cbn [stR]; exact eq_refl.
Qed.

Lemma maybe_send_ack_sdr : forall (s : vsock), sts s (maybe_send_ack s).
Proof. intros s. eapply stR_mono; [apply sameT_sdr | apply maybe_send_ack_sameT]. Qed.

(* ---- segmentation ---- *)
Lemma segment_loop_app : forall fuel nagle ss segs rem rwr ss' segs' rem',
  segment_loop fuel nagle ss segs rem rwr = Some (ss', segs', rem') ->
  exists l, ss_segs segs' = ss_segs segs ++ l /\
            Forall (fun g => sg_delivered g = false /\ sg_sent g = NotSent) l /\
            ss_snd_una segs' = ss_snd_una segs /\ ss_removed segs' = ss_removed segs.
Proof.
  induction fuel as [|x fuel IH]; intros nagle ss segs rem rwr ss' segs' rem' H; cbn [segment_loop] in H.
  - inversion H; subst. exists []. rewrite app_nil_r. auto.
  - destruct (_ && _); [|inversion H; subst; exists []; rewrite app_nil_r; auto].
    destruct (next_segment_size ss) as [[ss1 sz]|]; [|discriminate].
    destruct (_ && _ && _); [inversion H; subst; exists []; rewrite app_nil_r; auto|].
    match type of H with context [enqueue segs ?len ?p] =>
      destruct (enqueue_segs segs len p) as (g & G1 & G2 & G3 & _);
      assert (Gu : ss_snd_una (enqueue segs len p) = ss_snd_una segs /\
                   ss_removed (enqueue segs len p) = ss_removed segs) by (split; reflexivity) end.
    destruct Gu as [Gu Gr].
    destruct (mss ss1 <? _).
    + inversion H; subst. exists [g]. split; [exact G1|]. split; [|split; [exact Gu|exact Gr]]. constructor; auto.
    + apply IH in H. destruct H as (l & L1 & L2 & L3 & L4). exists (g :: l).
      rewrite L1, G1, <- app_assoc. split; [reflexivity|]. split; [|split; congruence]. constructor; auto.
Qed.

(* giving up the expired probe resets the counter; cutting only appends never-sent segments *)
Lemma split_tx_queue_into_segments_rm : forall (s : vsock),
  stm s (split_tx_queue_into_segments cci s).
Proof.
  apply (split_tx_queue_into_segments_R cci rmR rmR_refl rmR_trans); intros;
    try (apply sdr_rm; sdr_same_tac).
  - intros _ K. exfalso. unfold probe_given_up in K.
    destruct (seq_gt _ _); cbn [v_rto_retransmissions set_ss set_last_sent_seq_nr set_rto_retransmissions] in K; lia.
  - match goal with E : segment_loop _ _ _ _ _ _ = _ |- _ => apply segment_loop_app in E; destruct E as (l & L & _) end.
    intros Hm K. destruct (Hm K) as [H1 H2]. split; [exact H1|]. vsimpl_goal. rewrite L, und_app, H2. reflexivity.
Qed.

(* ---- death, transitions ---- *)
Lemma mark_both_closed_sdr : forall (s : vsock), sdr s (mark_both_closed s).
Proof.
  intros s. unfold mark_both_closed.
  destruct (rx_mark_vsock_closed _); destruct (mark_vsock_closed _). sdr_same_tac.
Qed.

Lemma just_before_death_sdr : forall (s : vsock) e, sdr s (just_before_death s e).
Proof.
  intros s e. unfold just_before_death.
  match goal with |- context [mark_both_closed ?x] => set (s1 := x) end.
  assert (F1 : sdr s s1).
  { subst s1. destruct e; [destruct (rx_enqueue_error _)|]; [sdr_same_tac | apply sdr_refl]. }
  clearbody s1.
  pose proof (sdr_trans _ _ _ F1 (mark_both_closed_sdr s1)) as F2.
  set (s2 := mark_both_closed s1) in *. clearbody s2.
  destruct e; [|exact F2].
  destruct (negb _); [|exact F2].
  match goal with |- context [send_control_packet ?x ?h] =>
    pose proof (send_control_packet_sdr x h) as F4; destruct (send_control_packet x h) end;
    cbn [stR] in F4.
  - eapply sdr_trans; [exact F2|]. eapply sdr_trans; [|exact F4]. sdr_same_tac.
  - eapply sdr_trans; [exact F2|]. eapply sdr_trans; [|exact F4]. sdr_same_tac.
  - sdr_via F2.
Qed.

Lemma transition_to_fin_wait_1_sdr : forall (s : vsock), sdr s (transition_to_fin_wait_1 s).
Proof. intros s. unfold transition_to_fin_wait_1. destruct (v_state s); first [apply sdr_refl | sdr_same_tac]. Qed.

Lemma maybe_send_syn_ack_sdr : forall (s : vsock), sts s (maybe_send_syn_ack s).
Proof. apply (maybe_send_syn_ack_R sdr sdr_refl sdr_trans); intros; sdr_same_tac. Qed.

Lemma poll_tail_sameT : forall (s : vsock), sameT s (poll_tail s).
Proof.
  intros s. unfold poll_tail, next_timer_to_poll, arm_in, add_wakes.
  repeat break_match; try (inversion Heqp; subst); sameT_tac.
Qed.

(* ---- incoming messages: the counters of the acknowledgement result ---- *)
Lemma state_table_sdr : forall (s : vsock) h,
  match state_table s h with TblDrop s1 | TblErr s1 _ | TblContinue s1 => sdr s s1 end.
Proof.
  intros s h. pose proof (state_table_same s h) as T.
  destruct (state_table s h); destruct T as (E1 & E2 & E3); apply sdr_same; assumption.
Qed.

Lemma recovery_on_ack_dlv : forall r h segs ls cc now rtt r' segs' cc',
  recovery_on_ack cci r h segs ls cc now rtt = Some (r', segs', cc') ->
  dlv (ss_segs segs') = dlv (ss_segs segs).
Proof.
  intros r h segs ls cc now rtt r' segs' cc' H. unfold recovery_on_ack in H.
  cbn [rv_phase] in H. destruct (rv_phase r).
  - destruct (seq_ge _ _); inversion H; reflexivity.
  - destruct (ss_segs segs) eqn:Es; [inversion H; subst; rewrite Es; reflexivity|].
    rewrite <- Es.
    match type of H with match ?c with _ => _ end = _ => destruct c as [[dup' la']|] end; [|discriminate].
    destruct (_ <? _); [inversion H; reflexivity|].
    destruct (calc_pipe _ _ _ _ _) as [[[sg pipe] recalc]|] eqn:Ec; [|discriminate].
    inversion H; subst. eapply calc_pipe_dlv; exact Ec.
  - destruct (seq_ge _ _); inversion H; reflexivity.
Qed.

(* what one message does, with its acknowledgement result *)
Definition ackr (s s' : vsock) (r : on_ack_result) : Prop :=
  v_rto_retransmissions s' = v_rto_retransmissions s /\
  v_t_retransmit s' = v_t_retransmit s /\
  0 <= ar_acked_segments r /\ 0 <= ar_newly_sacked_segments r /\
  (ar_acked_segments r = 0 -> ar_newly_sacked_segments r = 0 ->
   dlv (ss_segs (v_segs s')) = dlv (ss_segs (v_segs s))).

Lemma ackr_sameT : forall s a b r, ackr s a r -> sameT a b -> ackr s b r.
Proof.
  unfold ackr, sameT. intros s a b r (A1 & A2 & A3 & A4 & A5) (B1 & B2 & B3 & _).
  rewrite B1, B2, B3. auto.
Qed.

Lemma pim_ack_ackr : forall (s1 s2 : vsock) h res,
  pim_ack cci s1 h = Some (s2, res) -> ackr s1 s2 res.
Proof.
  intros s1 s2 h res. unfold pim_ack.
  destruct (remove_up_to_ack _ _ _ _) as [segs1 res0] eqn:Er.
  destruct (match is_recovering (v_recovery s1) with true => _ | false => _ end) as [rtte1|]; [|discriminate].
  destruct (cc_on_ack cci _ _ _ _) as [cc3|]; [|discriminate].
  destruct (recovery_on_ack cci _ _ _ _ _ _ _) as [[[rec1 segs2] cc4]|] eqn:Ero; [|discriminate].
  intro H; injection H as <- <-.
  destruct (remove_up_to_ack_cnt _ _ _ _ _ _ Er) as (C1 & C2 & C3).
  unfold ackr. vsimpl_goal. split; [reflexivity|]. split; [reflexivity|].
  split; [exact C1|]. split; [exact C2|]. intros K1 K2.
  rewrite (recovery_on_ack_dlv _ _ _ _ _ _ _ _ _ _ Ero), (C3 K1 K2). reflexivity.
Qed.

Lemma pim_data_sameT : forall (s2 : vsock) m res offset,
  match pim_data cci s2 m res offset with
  | SOk s' r => sameT s2 s' /\ r = res
  | _ => True
  end.
Proof.
  intros s2 m res offset. unfold pim_data. destruct (offset <? 0).
  { split; [unfold force_immediate_ack; sameT_tac|reflexivity]. }
  cbv zeta.
  destruct (rx_add_remove _ KData (m_payload m) offset) as [[rx1 ar] w].
  destruct ar as [r|]; [|exact I].
  destruct (add_err r); [exact I|].
  match goal with |- context [send_ack (force_immediate_ack ?x)] => set (s5 := x) end.
  assert (F5 : sameT s2 s5).
  { subst s5. unfold restart_remote_inactivity_timer, add_wakes. destruct r; sameT_tac. }
  clearbody s5.
  destruct (_ || _); [|split; [exact F5|reflexivity]].
  unfold send_ack.
  match goal with |- context [send_control_packet ?x ?h] =>
    pose proof (send_control_packet_sameT x h) as F7; destruct (send_control_packet x h) end;
    cbn [sbind stR] in *; auto.
  split; [|reflexivity]. eapply sameT_trans; [exact F5|]. eapply sameT_trans; [|exact F7].
  unfold force_immediate_ack. sameT_tac.
Qed.

Lemma pim_fin_sameT : forall (s2 : vsock) m res offset seen,
  match pim_fin s2 m res offset seen with
  | SOk s' r => sameT s2 s' /\ r = res
  | _ => True
  end.
Proof.
  intros s2 m res offset seen. unfold pim_fin. cbv zeta. destruct (_ && _).
  - destruct (rx_add_remove _ KFin _ _) as [[rx1 ar] w].
    destruct ar as [r|]; [|exact I].
    destruct (add_err r); [exact I|].
    destruct (mark_vsock_closed _) as [tx1 w2]. split; [|reflexivity].
    unfold add_wakes, force_immediate_ack. sameT_tac.
  - split; [unfold force_immediate_ack; sameT_tac|reflexivity].
Qed.

Lemma process_incoming_message_ackr : forall (s : vsock) m,
  match process_incoming_message cci s m with
  | SOk s' r => ackr s s' r
  | _ => True
  end.
Proof.
  intros s m. rewrite process_incoming_message_eq.
  pose proof (state_table_same s (m_hdr m)) as T.
  destruct (state_table s (m_hdr m)) as [s1|s1 e|s1]; auto.
  { destruct T as (T1 & T2 & T3). unfold ackr. cbn [on_ack_result_default ar_acked_segments ar_newly_sacked_segments].
    rewrite T3. repeat split; auto; lia. }
  unfold pim_cont.
  destruct (pim_ack cci s1 (m_hdr m)) as [[s2 res]|] eqn:Ea; [|exact I].
  apply pim_ack_ackr in Ea.
  assert (F2 : ackr s s2 res).
  { destruct T as (T1 & T2 & T3). destruct Ea as (A1 & A2 & A3 & A4 & A5).
    unfold ackr. rewrite A1, A2, T1, T2. repeat split; auto. intros K1 K2. rewrite (A5 K1 K2), T3. reflexivity. }
  cbv zeta.
  destruct (ch_type (m_hdr m)); try exact F2.
  - pose proof (pim_data_sameT s2 m res (seq_sub (ch_seq (m_hdr m)) (wadd16 (v_last_consumed s2) 1))) as D.
    destruct (pim_data cci s2 m res _) as [s' r| |]; auto. destruct D as [D ->].
    eapply ackr_sameT; [exact F2|exact D].
  - pose proof (pim_fin_sameT s2 m res (seq_sub (ch_seq (m_hdr m)) (wadd16 (v_last_consumed s2) 1))
                              (is_remote_fin_or_later (v_state s))) as D.
    destruct (pim_fin s2 m res _ _) as [s' r| |]; auto. destruct D as [D ->].
    eapply ackr_sameT; [exact F2|exact D].
Qed.

(* the receive loop: the counters only grow; while they stay the delivered flags stay *)
Definition accr (s s' : vsock) (acc acc' : on_ack_result) : Prop :=
  v_rto_retransmissions s' = v_rto_retransmissions s /\
  (v_t_retransmit s <> None -> v_t_retransmit s' <> None) /\
  ar_acked_segments acc <= ar_acked_segments acc' /\
  ar_newly_sacked_segments acc <= ar_newly_sacked_segments acc' /\
  (ar_acked_segments acc' = ar_acked_segments acc ->
   ar_newly_sacked_segments acc' = ar_newly_sacked_segments acc ->
   dlv (ss_segs (v_segs s')) = dlv (ss_segs (v_segs s))).

Lemma recv_loop_accr : forall fuel (s : vsock) acc,
  match recv_loop cci fuel s acc with
  | SOk s' (acc', _) => accr s s' acc acc'
  | _ => True
  end.
Proof.
  assert (Hclosed : forall (s : vsock) (acc : on_ack_result),
    match sbind (maybe_send_fin (transition_to_fin_wait_1 s))
                (fun s2 _ => SOk (set_state s2 Closed) (acc, true)) with
    | SOk s' (acc', _) => accr s s' acc acc'
    | _ => True end).
  { intros s acc.
    pose proof (maybe_send_fin_sdr (transition_to_fin_wait_1 s)) as F.
    pose proof (transition_to_fin_wait_1_sdr s) as G.
    destruct (maybe_send_fin _) as [s2 b| |]; cbn [sbind stR] in *; auto.
    destruct (sdr_trans _ _ _ G F) as (A1 & A2 & A3).
    unfold accr. vsimpl_goal. repeat split; auto; lia. }
  assert (Hopen : forall (s : vsock) acc, accr s (set_inbox_waker s true) acc acc).
  { intros s acc. unfold accr. vsimpl_goal. repeat split; auto; lia. }
  induction fuel as [|x fuel IH]; intros s acc.
  - cbn [recv_loop]. destruct (v_inbox s).
    + destruct (v_inbox_closed s); [apply Hclosed|apply Hopen].
    + exact I.
  - cbn [recv_loop]. destruct (v_inbox s) as [|m rest].
    + destruct (v_inbox_closed s); [apply Hclosed|apply Hopen].
    + pose proof (process_incoming_message_ackr (set_inbox s rest) m) as P.
      destruct (process_incoming_message cci (set_inbox s rest) m) as [s1 r| |]; cbn [sbind]; auto.
      destruct P as (P1 & P2 & P3 & P4 & P5).
      cbn [v_rto_retransmissions v_t_retransmit v_segs set_inbox] in P1, P2, P5.
      assert (Hone : accr s s1 acc (result_update acc r)).
      { unfold accr, result_update. cbn [ar_acked_segments ar_newly_sacked_segments].
        split; [exact P1|]. split; [rewrite P2; auto|]. split; [lia|]. split; [lia|].
        intros K1 K2. apply P5; lia. }
      destruct (_ || _); [exact Hone|].
      specialize (IH s1 (result_update acc r)).
      destruct (recv_loop cci fuel s1 _) as [s2 [acc2 b2]| |]; auto.
      destruct Hone as (A1 & A2 & A3 & A4 & A5). destruct IH as (B1 & B2 & B3 & B4 & B5).
      unfold accr. split; [congruence|]. split; [auto|]. split; [lia|]. split; [lia|].
      intros K1 K2. rewrite B5 by lia. apply A5; lia.
Qed.

(* an error of the receive loop ends the poll with Ready: only the SOk results matter *)
Lemma process_all_incoming_messages_rm : forall (s : vsock),
  stRk rmR s (process_all_incoming_messages cci s).
Proof.
  intros s. unfold process_all_incoming_messages.
  pose proof (recv_loop_accr (v_inbox s ++ [ {| m_hdr := outgoing_header s; m_payload := [] |} ]) s
                             on_ack_result_default) as L.
  destruct (recv_loop _ _ _ _) as [s1 [r early]| |]; cbn [sbind stRk]; auto.
  apply stR_stRk.
  destruct L as (L1 & L2 & L3 & L4 & L5).
  cbn [on_ack_result_default ar_acked_segments ar_newly_sacked_segments] in L3, L4, L5.
  destruct ((0 <? ar_acked_segments r) || (0 <? ar_newly_sacked_segments r)) eqn:Eb.
  - (* the counter is reset *)
    match goal with |- context [acked_counts_as_sent ?x] => set (s2 := x) end.
    assert (Z2 : v_rto_retransmissions s2 = 0).
    { subst s2. destruct (ss_segs _); [destruct (our_fin_if_unacked _)|]; reflexivity. }
    clearbody s2.
    assert (Hz : forall (X : Type) (m : step X), stR rtoeq s2 m -> stm s m).
    { intros X m K. destruct m as [s' a|s' e|]; cbn [stR] in *; auto;
        intros _ K2; unfold rtoeq in K; lia. }
    apply Hz. apply (stR_sbind rtoeq rtoeq_trans).
    + destruct (0 <? _); [|apply rtoeq_refl].
      assert (F2' : rtoeq s2 (acked_counts_as_sent s2)).
      { unfold acked_counts_as_sent. destruct (seq_gt _ _ && seq_lt _ _); exact eq_refl. }
      apply (stR_weaken rtoeq rtoeq_trans) with (s := acked_counts_as_sent s2); [exact F2'|].
      generalize (acked_counts_as_sent s2). intro s2'.
      destruct (truncate_front _ _) as [tx1 tr].
      destruct tr; [|cbn [stR]; exact eq_refl].
      destruct (wake_writer tx1) as [tx2 w]. cbn [stR]. exact eq_refl.
    + intros s3 _. destruct (rv_phase _); try apply rtoeq_refl.
      destruct (calc_pipe _ _ _ _ _) as [[[segs' pipe] recalc]|]; [|exact I]. cbn [stR]. exact eq_refl.
  - apply orb_false_iff in Eb. destruct Eb as [Eb1 Eb2].
    assert (K1 : ar_acked_segments r = 0) by lia. assert (K2 : ar_newly_sacked_segments r = 0) by lia.
    specialize (L5 K1 K2). rewrite Eb1. cbn [sbind].
    assert (F1 : sdr s s1) by (unfold sdr; auto).
    destruct (rv_phase _); cbn [stR]; try (apply sdr_rm; exact F1).
    destruct (calc_pipe _ _ _ _ _) as [[[segs' pipe] recalc]|] eqn:Ec; [|exact I].
    cbn [stR]. apply sdr_rm. eapply sdr_trans; [exact F1|].
    unfold set_recovering. unfold sdr. vsimpl_goal. split; [reflexivity|]. split; [auto|].
    eapply calc_pipe_dlv; exact Ec.
Qed.

Lemma rx_flush_sdr : forall (s : vsock) rx1 w, sdr s (add_wakes (set_rx s rx1) w).
Proof. intros. unfold add_wakes. sdr_same_tac. Qed.

Lemma poll_start_sdr : forall (s : vsock), sdr s (poll_start s).
Proof. intros s. unfold poll_start. sdr_same_tac. Qed.

(* ------------------------------------------------------------------ a whole poll, every event *)
Theorem poll_rm : forall (s s' : vsock), poll cci s = (s', PollPending) -> rm s -> rm s'.
Proof.
  intros s s' H Hrm.
  assert (Hi : rm (poll_init s)) by exact Hrm.
  revert Hi. change (rmR (poll_init s) s').
  assert (P : pend_shape rmR (poll_init s) s').
  { apply (poll_Rp cci rmR rmR_refl rmR_trans); try exact H.
    - intro a. apply sdr_rm, poll_start_sdr.
    - intro a. apply stR_stRk, sts_stm, maybe_send_syn_ack_sdr.
    - intro a. apply stR_stRk, sts_stm, send_ack_sdr.
    - apply process_all_incoming_messages_rm.
    - intros s0 rx1 fb w _. apply sdr_rm, rx_flush_sdr.
    - intro a. apply stR_stRk, split_tx_queue_into_segments_rm.
    - intro a. apply stR_stRk, send_tx_queue_rm.
    - intro a. apply sdr_rm, transition_to_fin_wait_1_sdr.
    - intro a. apply stR_stRk, sts_stm, maybe_send_fin_sdr.
    - intro a. apply stR_stRk, sts_stm, maybe_send_ack_sdr. }
  destruct P as [[_ P]|(sa & sb & b & P1 & _ & P2 & _ & _ & _ & ->)]; [exact P|].
  eapply rmR_trans; [exact P1|]. eapply rmR_trans; [exact P2|]. apply sdr_rm, sameT_sdr, poll_tail_sameT.
Qed.

Theorem rm_vstep_live : forall (s : vsock) o,
  rm s -> poll_finished (vstep_out cci s o) = false -> rm (vstep_state cci s o).
Proof.
  intros s o Hp Hl. pose proof (vstep_nonpoll_same cci s o) as K.
  destruct o; try (destruct K as (_ & _ & K1 & K2 & K3 & _); apply (sdr_rm _ _ (sdr_same _ _ K1 K2 K3)); exact Hp).
  destruct (poll cci (VSockRec.set_sends s script)) as [s' r] eqn:E.
  destruct (vstep_poll cci s script s' r E) as [V1 V2]. rewrite V1. rewrite V2 in Hl.
  destruct r; try discriminate. eapply poll_rm; [exact E | exact Hp].
Qed.

Lemma rm_vsock_new : forall mk c s, vsock_new cci mk c = Some s -> rm s.
Proof.
  intros mk c s H. unfold vsock_new in H.
  destruct (match (if vc_incoming c then None else _) with Some r => _ | None => _ end); [|discriminate].
  inversion H; subst. unfold rm. cbn [v_rto_retransmissions]. lia.
Qed.

End WithCC.
