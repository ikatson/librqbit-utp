(* What a poll does to the application halves (UserRx / UserTx), to the wake-up list and to the
   sleep it arms:
   - [txf]: the sending functions (send_control_packet ... send_tx_queue, maybe_send_ack) leave
     rx, tx, the wake-ups, arm_in, the inbox and the connection state alone;
   - [reach]: every function of poll_body changes (rx, tx, wakes, arm_in) only through the
     dispatcher-side operations of Rx/Rx.v and Tx/Ring.v, each wake-up they return being appended
     to v_wakes; proved for every result of a poll ([poll_reach]) and, without the death
     operations and the timer tail, for the Pending ones ([poll_reach_pending]). *)
From Utp Require Import Base.Prelude Wire.SeqNr Wire.Header Rtt.Rtte Mtu.SegSizes Rx.Rx Tx.Ring
  Tx.Segments Conn.Recovery Conn.Msg Conn.VSockRec Conn.VSock Conn.VSockRun Conn.VObs
  Tx.Segments_ProofsOut Conn.VSock_LemmasTx Conn.VSock_LemmasIn Conn.VSock_Lemmas Conn.VSock_LemmasStep.

Section WithCC.
Context {CC : Type} (cci : cc_iface CC).
Notation vsock := (vsock CC).

(* ------------------------------------------------------------------ a relation through the
   functions of a poll.  R is reflexive and transitive; every hypothesis says that R contains one
   elementary update of the model, and each function is walked once.  A hypothesis is an argument
   only of the lemmas whose function performs that update.  Prefixes: L_ a setter or an emission of the
   control and send paths, T_ the retransmission timer and the RTO reactions, S_ the segmentation,
   A_ / D_ the acknowledgement and the payload part of an incoming message, P_ the bookkeeping after the
   receive loop, J_ the death path, H_ a whole function (stated where the leaf form would be too coarse:
   H_table and H_fw1 repeat state_table_R and transition_to_fin_wait_1_R for relations that read the state).
   T_arm arms the timer keeping an earlier expiry (last argument false), T_rearm restarts it.
   The leaves are fine-grained: a relation that contains only a combined update (the timer armed AND the
   FIN recorded; consumed_but_unacked_bytes moved only upwards) does not qualify for the leaf form and uses
   the function-level forms [maybe_send_fin_by], [recovery_loop_by], [new_data_loop_by], [recv_loop_by],
   [maybe_send_syn_ack_by], which take what the called functions keep. *)

(* split_tx_queue_into_segments: the state after an expired MTU probe was given up, and the
   segmentation of the bytes not yet cut (tx_len = bytes in the ring) *)
Definition probe_given_up (s1 : vsock) (segs1 : segments) (rewind_to payload_size : Z) : vsock :=
  let s1' := VSockRec.set_segs s1 segs1 in
  let s2 := set_rto_retransmissions
              (set_t_retransmit s1'
                 (match ss_segs segs1 with
                  | [] => None
                  | _ => timer_arm (v_t_retransmit s1') (v_now s1')
                                   (retransmission_timeout (v_rtte s1')) true
                  end)) 0 in
  let s3 := if seq_gt (v_last_sent_seq_nr s2) rewind_to
            then set_last_sent_seq_nr s2 rewind_to else s2 in
  set_ss s3 (on_probe_failed (v_ss s3) payload_size).

Definition seg_cont (tx_len : Z) (s2 : vsock) : step unit :=
  if tx_len <? ss_len_bytes (v_segs s2) then SErr s2 (ErrBug BugInBufferComputations)
  else match segment_loop (ring (v_tx s2)) (o_nagle (v_opts s2)) (v_ss s2) (v_segs s2)
                          (tx_len - ss_len_bytes (v_segs s2)) (v_last_remote_window s2) with
       | None => SPanic
       | Some (ss', segs', remaining) =>
           SOk (set_unsegmented (VSockRec.set_segs (set_ss s2 ss') segs') remaining) tt
       end.

(* the acknowledgement part of a message rewrites these seven fields and nothing else *)
Lemma pim_ack_shape : forall (s1 : vsock) h s2 res, pim_ack cci s1 h = Some (s2, res) ->
  exists segs2 ss1 rtte1 cc4 rec1,
    s2 = set_recovery
           (set_last_remote_window
              (set_last_remote_timestamp
                 (set_cc (set_rtte (set_ss (VSockRec.set_segs s1 segs2) ss1) rtte1) cc4) (ch_ts h))
              (ch_wnd h)) rec1.
Proof.
  intros s1 h s2 res. unfold pim_ack.
  destruct (remove_up_to_ack _ _ _ _) as [segs1 res0].
  destruct (match is_recovering (v_recovery s1) with true => _ | false => _ end) as [rtte1|]; [|discriminate].
  destruct (cc_on_ack _ _ _ _ _) as [cc3|]; [|discriminate].
  destruct (recovery_on_ack _ _ _ _ _ _ _ _) as [[[rec1 segs2] cc4]|]; [|discriminate].
  intro E. injection E as <- _. eauto 6.
Qed.

Section StepRel.
Variable R : vsock -> vsock -> Prop.
Hypothesis R_refl : forall s, R s s.
Hypothesis R_trans : forall a b c, R a b -> R b c -> R a c.
Notation str := (stR R).

(* R contains the outermost setter of the target by H: go on with the state below it *)
Ltac peel H := eapply R_trans; [|apply H].

(* maybe_send_fin from what its two steps keep.  Arming the timer and recording the FIN as sent is ONE
   update here: relations such as "the timer is armed or nothing moved" contain it but not its second half. *)
Lemma maybe_send_fin_by :
  (forall (s : vsock) h, str s (send_control_packet s h)) ->
  (forall (s : vsock) seq,
     R s (set_last_sent_seq_nr
            (set_t_retransmit s (timer_arm (v_t_retransmit s) (v_now s)
                                   (retransmission_timeout (v_rtte s)) false)) seq)) ->
  forall s : vsock, str s (maybe_send_fin s).
Proof.
  intros Hctl Hfin s. unfold maybe_send_fin.
  destruct (v_transport_pending s); [apply R_refl|].
  destruct (our_fin_if_unacked (v_state s)); [|apply R_refl].
  destruct (negb _); [apply R_refl|].
  apply (stR_sbind R R_trans); [apply Hctl|].
  intros s1 [|]; cbn [stR]; [apply Hfin | apply R_refl].
Qed.

(* both loops stop at the first send_data that is not SdSent *)
Lemma recovery_loop_by :
  (forall (s : vsock) h f, str s (send_data s h f)) ->
  forall items (s : vsock) h mss0 st, str s (recovery_loop items s h mss0 st).
Proof.
  intro Hsd. induction items as [|f rest IH]; intros s h mss0 st; cbn [recovery_loop].
  - apply R_refl.
  - destruct (negb _); [apply R_refl|].
    destruct (_ && negb (sg_lost _)); [apply IH|].
    destruct (_ && negb (sg_sacks_after _)); [apply R_refl|].
    pose proof (Hsd s h f) as F.
    destruct (send_data s h f) as [s1 r|s1 e|]; cbn [stR] in F |- *; auto.
    destruct r; cbn [stR]; auto.
    eapply (stR_weaken R R_trans); [exact F | apply IH].
Qed.

Lemma new_data_loop_by :
  (forall (s : vsock) h f, str s (send_data s h f)) ->
  forall items (s : vsock) h remaining, str s (new_data_loop items s h remaining).
Proof.
  intro Hsd. induction items as [|f rest IH]; intros s h remaining; cbn [new_data_loop].
  - apply R_refl.
  - destruct (_ <? _); [apply R_refl|].
    pose proof (Hsd s h f) as F.
    destruct (send_data s h f) as [s1 r|s1 e|]; cbn [stR] in F |- *; auto.
    destruct r; cbn [stR]; auto.
    eapply (stR_weaken R R_trans); [exact F | apply IH].
Qed.

Lemma maybe_send_syn_ack_by :
  (forall s : vsock, str s (send_ack s)) ->
  (forall (s : vsock) c,
     R s (set_t_syn_ack_resend (set_state s (SynAckSent c))
            (timer_arm (v_t_syn_ack_resend s) (v_now s) SYNACK_RESEND_INTERNAL true))) ->
  (forall s : vsock, R s (set_t_syn_ack_resend s None)) ->
  forall s : vsock, str s (maybe_send_syn_ack s).
Proof.
  intros Hack Hsent Hoff s. unfold maybe_send_syn_ack.
  assert (G : forall c, str s
     (if c =? o_max_retx (v_opts s) then SErr s ErrMaxSynAckRetransmissionsReached
      else sbind (send_ack s) (fun s1 sent =>
        if sent then SOk (set_t_syn_ack_resend (set_state s1 (SynAckSent (c + 1)))
               (timer_arm (v_t_syn_ack_resend s1) (v_now s1) SYNACK_RESEND_INTERNAL true)) tt
        else SOk s1 tt))).
  { intros c. destruct (_ =? _); [apply R_refl|].
    apply (stR_sbind R R_trans); [apply Hack|].
    intros s1 [|]; cbn [stR]; [apply Hsent | apply R_refl]. }
  destruct (v_state s); try apply Hoff.
  - apply G.
  - destruct (timer_expired _ _); [apply G | apply R_refl].
Qed.

Lemma recv_loop_by :
  (forall (s : vsock) m, str s (process_incoming_message cci s m)) ->
  (forall s : vsock, R s (transition_to_fin_wait_1 s)) ->
  (forall s : vsock, str s (maybe_send_fin s)) ->
  (forall s : vsock, R s (set_state s Closed)) ->
  (forall (s : vsock) l, R s (set_inbox s l)) ->
  (forall (s : vsock) b, R s (set_inbox_waker s b)) ->
  forall fuel (s : vsock) acc, str s (recv_loop cci fuel s acc).
Proof.
  intros Hpim Hfw1 Hfin Hclosed Hinbox Hwaker.
  assert (Hc : forall (s : vsock) (acc : on_ack_result),
    str s (sbind (maybe_send_fin (transition_to_fin_wait_1 s))
                 (fun s2 _ => SOk (set_state s2 Closed) (acc, true)))).
  { intros s acc.
    apply (stR_weaken R R_trans) with (s := transition_to_fin_wait_1 s); [apply Hfw1|].
    apply (stR_sbind R R_trans); [apply Hfin|].
    intros s2 _. apply Hclosed. }
  induction fuel as [|x fuel IH]; intros s acc.
  - cbn [recv_loop]. destruct (v_inbox s).
    + destruct (v_inbox_closed s); [apply Hc | apply Hwaker].
    + exact I.
  - cbn [recv_loop]. destruct (v_inbox s) as [|m rest].
    + destruct (v_inbox_closed s); [apply Hc | apply Hwaker].
    + apply (stR_weaken R R_trans) with (s := set_inbox s rest); [apply Hinbox|].
      apply (stR_sbind R R_trans); [apply Hpim|].
      intros s1 r. destruct (_ || _); [apply R_refl|]. apply IH.
Qed.

Hypothesis L_sends : forall (s : vsock) l, R s (set_sends s l).
(* a control packet: its SACK option was fitted with the options of a state s0 *)
Hypothesis L_sent : forall (s s0 : vsock) h0 t q sk h, v_opts s0 = v_opts s ->
  R s (on_packet_sent (emit s {| p_hdr := hdr_with h0 t q (fit_sack s0 sk); p_payload := [] |}) h).
Hypothesis L_blocked : forall s : vsock, R s (set_transport_pending s true).
Hypothesis L_last_sent : forall (s : vsock) q, R s (set_last_sent_seq_nr s q).
Hypothesis T_arm : forall s : vsock,
  R s (set_t_retransmit s (timer_arm (v_t_retransmit s) (v_now s)
                             (retransmission_timeout (v_rtte s)) false)).
Hypothesis L_ack_delay : forall (s : vsock) t, R s (set_t_ack_delay s t).
Hypothesis L_data_sent : forall (s : vsock) p f, R s (sent_state s p f).

Lemma next_send_R : forall (s : vsock) n s1 o, next_send s n = (s1, o) -> R s s1.
Proof.
  intros s n s1 o H. unfold next_send in H.
  repeat break_match_hyp H; inversion H; subst; try inversion Heqp; subst;
    first [apply R_refl | apply L_sends].
Qed.

Lemma send_control_packet_R : forall (s : vsock) h, str s (send_control_packet s h).
Proof.
  intros s h. unfold send_control_packet.
  destruct (v_transport_pending s); [apply R_refl|].
  destruct (next_send s _) as [s1 o] eqn:E.
  pose proof (proj1 (next_send_frame _ _ _ _ E)) as Eo. apply next_send_R in E.
  destruct o; cbn [stR]; try exact E; (eapply R_trans; [exact E|]);
    [apply L_sent; symmetry; exact Eo | apply L_blocked].
Qed.

Lemma send_ack_R : forall (s : vsock), str s (send_ack s).
Proof. intros s. unfold send_ack. apply send_control_packet_R. Qed.

Lemma maybe_send_fin_R : forall (s : vsock), str s (maybe_send_fin s).
Proof.
  apply maybe_send_fin_by; [apply send_control_packet_R|].
  intros s seq. peel L_last_sent. apply T_arm.
Qed.

Lemma maybe_send_ack_R : forall (s : vsock), str s (maybe_send_ack s).
Proof.
  intros s. unfold maybe_send_ack.
  pose proof (send_ack_R s) as G.
  destruct (immediate_ack_to_transmit s); [exact G|].
  destruct (should_send_window_update s); [exact G|].
  destruct (timer_expired _ _).
  - destruct (ack_to_transmit s); [exact G | apply L_ack_delay].
  - destruct (0 <? v_cbu s); [apply L_ack_delay | apply R_refl].
Qed.

Lemma send_data_R : forall (s : vsock) h f, str s (send_data s h f).
Proof.
  intros s h f. unfold send_data.
  destruct (_ =? o_max_retx _); [apply R_refl|].
  destruct (_ <? 0); [exact I|].
  destruct (_ <? fs_payload_offset f); [apply R_refl|].
  destruct (_ <? _ + _); [apply R_refl|].
  destruct (next_send s _) as [s1 o] eqn:E. apply next_send_R in E.
  destruct o; cbn [stR]; try exact E; (eapply R_trans; [exact E|]); [|apply L_blocked].
  match goal with |- context [emit s1 ?p] => exact (L_data_sent s1 p f) end.
Qed.

Lemma recovery_loop_R : forall items (s : vsock) h mss0 st, str s (recovery_loop items s h mss0 st).
Proof. exact (recovery_loop_by send_data_R). Qed.

Lemma new_data_loop_R : forall items (s : vsock) h remaining, str s (new_data_loop items s h remaining).
Proof. exact (new_data_loop_by send_data_R). Qed.

(* ---- the handshake ---- *)
Hypothesis L_syn_ack_sent : forall (s : vsock) c,
  R s (set_t_syn_ack_resend (set_state s (SynAckSent c))
         (timer_arm (v_t_syn_ack_resend s) (v_now s) SYNACK_RESEND_INTERNAL true)).
Hypothesis L_syn_ack_off : forall s : vsock, R s (set_t_syn_ack_resend s None).

Lemma maybe_send_syn_ack_R : forall (s : vsock), str s (maybe_send_syn_ack s).
Proof. exact (maybe_send_syn_ack_by send_ack_R L_syn_ack_sent L_syn_ack_off). Qed.

(* ---- segmentation ---- *)
Hypothesis S_register : forall s : vsock, R s (set_tx s (register_dispatcher_if_empty (v_tx s))).
Hypothesis S_grow : forall (s : vsock) tx1 g,
  grow (v_tx s) (o_tx_max (v_opts s)) = (tx1, g) -> R s (set_tx s tx1).
Hypothesis S_wake : forall (s : vsock) tx1 tx2 w,
  wake_writer tx1 = (tx2, w) -> R (set_tx s tx1) (add_wakes (set_tx s tx2) (tx_wakes w)).
Hypothesis S_expired : forall (s : vsock) segs1 rw ps,
  pop_expired_mtu_probe (v_segs s)
    (timer_expired (v_t_retransmit s) (v_now s) && negb (is_local_fin_or_later (v_state s)))
    (o_mtu_probe_max_retx (v_opts s)) = (segs1, PeExpired rw ps) ->
  R s (probe_given_up s segs1 rw ps).
Hypothesis S_unsegmented : forall (s : vsock) n, R s (set_unsegmented s n).
Hypothesis S_cut : forall (s : vsock) tl ss' segs' rem',
  segment_loop (ring (v_tx s)) (o_nagle (v_opts s)) (v_ss s) (v_segs s) tl (v_last_remote_window s)
    = Some (ss', segs', rem') ->
  R s (set_unsegmented (VSockRec.set_segs (set_ss s ss') segs') rem').

Lemma split_tx_queue_into_segments_R : forall (s : vsock), str s (split_tx_queue_into_segments cci s).
Proof.
  intros s. unfold split_tx_queue_into_segments.
  destruct (_ =? 0); [apply S_register|].
  match goal with |- context [is_remote_fin_or_later (v_state ?x)] => set (s1 := x) end.
  assert (F1 : R s s1).
  { subst s1. destruct (_ && _); [|apply R_refl].
    destruct (grow _ _) as [tx1 g] eqn:Eg. pose proof (S_grow s tx1 g Eg) as F.
    destruct g; [|exact F].
    destruct (wake_writer tx1) as [tx2 w] eqn:Ew.
    eapply R_trans; [exact F | exact (S_wake s tx1 tx2 w Ew)]. }
  clearbody s1.
  destruct (is_remote_fin_or_later _); [exact F1|].
  destruct (pop_expired_mtu_probe _ _ _) as [segs1 pe] eqn:Ep.
  assert (Hcont : forall s2, R s s2 -> str s (seg_cont (Z.of_nat (length (ring (v_tx s)))) s2)).
  { intros s2 F2. unfold seg_cont. destruct (_ <? _); [exact F2|].
    destruct (segment_loop _ _ _ _ _ _) as [[[ss' segs'] rem']|] eqn:E; [|exact I].
    cbn [stR]. eapply R_trans; [exact F2 | exact (S_cut s2 _ _ _ _ E)]. }
  destruct pe as [rw ps| |].
  - apply (Hcont (probe_given_up s1 segs1 rw ps)).
    eapply R_trans; [exact F1 | exact (S_expired s1 segs1 rw ps Ep)].
  - cbn [stR]. eapply R_trans; [exact F1 | apply S_unsegmented].
  - apply (Hcont s1). exact F1.
Qed.

(* ---- incoming messages ---- *)
Hypothesis L_state : forall (s : vsock) st, R s (set_state s st).
Hypothesis L_inactivity : forall (s : vsock) t, R s (set_t_inactivity s t).
Hypothesis L_seq_nr : forall (s : vsock) q, R s (set_seq_nr s q).

Lemma state_table_R : forall (s : vsock) h,
  match state_table s h with TblDrop s1 | TblErr s1 _ | TblContinue s1 => R s s1 end.
Proof.
  intros s h. unfold state_table, restart_remote_inactivity_timer.
  repeat break_match; repeat first [peel L_state | peel L_seq_nr | peel L_inactivity]; apply R_refl.
Qed.

Lemma transition_to_fin_wait_1_R : forall (s : vsock), R s (transition_to_fin_wait_1 s).
Proof.
  intros s. unfold transition_to_fin_wait_1.
  destruct (v_state s); repeat first [peel L_state | peel L_seq_nr]; apply R_refl.
Qed.

(* a relation that reads the connection state brings its own table and transition *)
Hypothesis H_table : forall (s : vsock) h,
  match state_table s h with TblDrop s1 | TblErr s1 _ | TblContinue s1 => R s s1 end.
Hypothesis H_fw1 : forall s : vsock, R s (transition_to_fin_wait_1 s).
Hypothesis A_ack : forall (s1 : vsock) h s2 res, pim_ack cci s1 h = Some (s2, res) -> R s1 s2.
Hypothesis L_cbu : forall (s : vsock) n, R s (set_cbu s n).
Hypothesis L_last_consumed : forall (s : vsock) q, R s (set_last_consumed s q).
Hypothesis D_mss : forall (s : vsock) n,
  R s (set_cc (set_ss s (on_payload_delivered (v_ss s) n))
              (cc_set_mss cci (v_cc s) (mss (on_payload_delivered (v_ss s) n)))).
Hypothesis D_rx : forall (s : vsock) k p off rx1 ar w,
  0 <= off -> rx_add_remove (v_rx s) k p off = (rx1, ar, w) ->
  R s (add_wakes (set_rx s rx1) (rx_wakes w)).
Hypothesis D_tx_closed : forall (s : vsock) tx1 w,
  mark_vsock_closed (v_tx s) = (tx1, w) -> R s (add_wakes (set_tx s tx1) (tx_wakes w)).

Lemma data_tail_R : forall (s4 : vsock) we ar res, str s4 (data_tail s4 we ar res).
Proof.
  intros s4 we ar res. unfold data_tail. destruct ar as [r|]; [|exact I].
  destruct (add_err r); [apply R_refl|]. cbv zeta.
  assert (F5 : R s4 (data_consumed s4 r)).
  { unfold data_consumed, restart_remote_inactivity_timer.
    destruct r; repeat first [peel L_cbu | peel L_last_consumed | peel L_inactivity]; apply R_refl. }
  revert F5. generalize (data_consumed s4 r). intros s5 F5.
  destruct (_ || _); [|exact F5].
  apply (stR_weaken R R_trans) with (s := force_immediate_ack s5);
    [unfold force_immediate_ack; peel L_cbu; exact F5|].
  apply (stR_sbind R R_trans); [apply send_ack_R|]. intros s6 _. apply R_refl.
Qed.

Lemma pim_data_R : forall (s2 : vsock) m res off, str s2 (pim_data cci s2 m res off).
Proof.
  intros s2 m res off. rewrite pim_data_eq.
  destruct (Z.ltb_spec off 0) as [Hlt|Hoff]; [unfold force_immediate_ack; apply L_cbu|].
  destruct (rx_add_remove _ _ _ _) as [[rx1 ar] w] eqn:Ea.
  apply (stR_weaken R R_trans)
    with (s := data_in cci s2 (Z.of_nat (length (m_payload m))) rx1 (rx_wakes w)); [|apply data_tail_R].
  unfold data_in. cbv zeta. eapply R_trans; [|eapply D_rx; [exact Hoff | exact Ea]]. apply D_mss.
Qed.

Lemma pim_fin_R : forall (s2 : vsock) m res off seen, str s2 (pim_fin s2 m res off seen).
Proof.
  intros s2 m res off seen. unfold pim_fin, force_immediate_ack. cbv zeta.
  destruct (negb seen && (0 <=? off)) eqn:Eb; [|apply L_cbu].
  apply andb_true_iff in Eb. destruct Eb as [_ Hoff]. apply Z.leb_le in Hoff.
  destruct (rx_add_remove _ _ _ _) as [[rx1 ar] w] eqn:Ea.
  match goal with |- context [mark_vsock_closed (v_tx ?x)] =>
    assert (F4 : R s2 x); [|revert F4; generalize x; intros s5 F4] end.
  { eapply R_trans; [|eapply D_rx; [exact Hoff | exact Ea]]. peel L_last_consumed. apply L_cbu. }
  destruct ar as [r|]; [|exact I].
  destruct (add_err r); [exact F4|].
  destruct (mark_vsock_closed _) as [tx1 w2] eqn:Em. cbn [stR].
  eapply R_trans; [exact F4 | exact (D_tx_closed _ _ _ Em)].
Qed.

Lemma process_incoming_message_R : forall (s : vsock) m, str s (process_incoming_message cci s m).
Proof.
  intros s m. rewrite process_incoming_message_eq.
  pose proof (H_table s (m_hdr m)) as T.
  destruct (state_table s (m_hdr m)) as [s1|s1 e|s1]; try exact T.
  unfold pim_cont. destruct (pim_ack cci s1 (m_hdr m)) as [[s2 res]|] eqn:Ea; [|exact I].
  apply (stR_weaken R R_trans) with (s := s2); [exact (R_trans _ _ _ T (A_ack _ _ _ _ Ea))|].
  destruct (ch_type (m_hdr m)); first [apply pim_data_R | apply pim_fin_R | apply R_refl].
Qed.

Hypothesis L_closed : forall s : vsock, R s (set_state s Closed).
Hypothesis L_inbox : forall (s : vsock) l, R s (set_inbox s l).
Hypothesis L_inbox_waker : forall (s : vsock) b, R s (set_inbox_waker s b).

Lemma recv_loop_R : forall fuel (s : vsock) acc, str s (recv_loop cci fuel s acc).
Proof.
  exact (recv_loop_by process_incoming_message_R H_fw1 maybe_send_fin_R L_closed L_inbox L_inbox_waker).
Qed.

(* ---- the bookkeeping after the receive loop; the retransmission timer ---- *)
Hypothesis P_retx0 : forall s : vsock, R s (set_rto_retransmissions s 0).
Hypothesis T_off : forall s : vsock,
  segs_out (ss_segs (v_segs s)) = false -> R s (set_t_retransmit s None).
Hypothesis T_rearm : forall s : vsock,
  R s (set_t_retransmit s (timer_arm (v_t_retransmit s) (v_now s)
                             (retransmission_timeout (v_rtte s)) true)).
Hypothesis P_truncated : forall (s : vsock) n tx1 tr,
  truncate_front (v_tx s) n = (tx1, tr) -> R s (set_tx s tx1).
Hypothesis P_pipe : forall (s : vsock) hr ls rtt now segs' pipe recalc rc,
  calc_pipe (v_segs s) hr ls rtt now = Some (segs', pipe, recalc) ->
  R s (set_recovering (VSockRec.set_segs s segs') rc).

Lemma process_all_incoming_messages_R : forall (s : vsock),
  str s (process_all_incoming_messages cci s).
Proof.
  intros s. unfold process_all_incoming_messages.
  apply (stR_sbind R R_trans); [apply recv_loop_R|].
  intros s1 [r early].
  match goal with |- context [acked_counts_as_sent ?x] =>
    assert (F2 : R s1 x); [|revert F2; generalize x; intros s2 F2] end.
  { destruct (_ || _); [|apply R_refl]. cbv zeta. unfold restart_remote_inactivity_timer.
    destruct (ss_segs (v_segs (set_rto_retransmissions s1 0))) eqn:Es;
      [destruct (our_fin_if_unacked _)|]; peel L_inactivity.
    - peel T_rearm. apply P_retx0.
    - eapply R_trans; [apply P_retx0|]. apply T_off. rewrite Es. reflexivity.
    - peel T_rearm. apply P_retx0. }
  apply (stR_weaken R R_trans) with (s := s2); [exact F2|]. clear F2.
  apply (stR_sbind R R_trans).
  - destruct (0 <? _); [|apply R_refl].
    apply (stR_weaken R R_trans) with (s := acked_counts_as_sent s2).
    { unfold acked_counts_as_sent. destruct (_ && _); [apply L_last_sent | apply R_refl]. }
    generalize (acked_counts_as_sent s2). intro s2'.
    destruct (truncate_front _ _) as [tx1 tr] eqn:Et. pose proof (P_truncated _ _ _ _ Et) as F3.
    destruct tr; [|exact F3].
    destruct (wake_writer tx1) as [tx2 w] eqn:Ew. cbn [stR].
    eapply R_trans; [exact F3 | exact (S_wake s2' tx1 tx2 w Ew)].
  - intros s3 _. destruct (rv_phase _); try apply R_refl.
    destruct (calc_pipe _ _ _ _ _) as [[[segs' pipe] recalc]|] eqn:Ec; [|exact I].
    exact (P_pipe _ _ _ _ _ _ _ _ _ Ec).
Qed.

(* ---- send_tx_queue, by its three parts (Conn/VSock_LemmasTx.v) ---- *)
Hypothesis T_react : forall s s1 : vsock, on_rto_reactions cci s = Some s1 -> R s s1.
Hypothesis T_retx : forall (s : vsock) n,
  v_rto_retransmissions s <= n -> R s (set_rto_retransmissions s n).
Hypothesis L_recovering : forall (s : vsock) rc, R s (set_recovering s rc).
Hypothesis L_pipe_timer : forall (s : vsock) t, R s (set_t_recovery_pipe s t).
Hypothesis T_popped : forall (s : vsock) q size segs', pop_mtu_probe (v_segs s) q = (segs', true) ->
  R s (set_restart (set_ss (VSockRec.set_segs s segs')
                           (disarm_cooldown (on_probe_failed (v_ss s) size))) true).

Lemma rto_branch_R : forall (s : vsock) h, str s (rto_branch cci s h).
Proof.
  intros s h. unfold rto_branch. destruct (timer_expired _ _); [|apply R_refl].
  destruct (iter_for_sending _ _) as [|f l] eqn:Eit.
  - assert (Hoff : R s (set_t_retransmit s None)) by (apply T_off, iter_nil_no_out; exact Eit).
    destruct (our_fin_if_unacked _); [|exact Hoff]. destruct (_ =? _); [|exact Hoff].
    eapply (stR_weaken R R_trans); [apply L_last_sent|].
    apply (stR_sbind R R_trans); [apply maybe_send_fin_R|].
    intros s1 a. destruct a; [|apply R_refl].
    destruct (on_rto_reactions cci s1) eqn:E; [|exact I].
    cbn [stR]. eapply R_trans; [exact (T_react _ _ E) | apply T_rearm].
  - pose proof (send_data_R s h f) as Hd.
    destruct (send_data s h f) as [s1 r|s1 e|]; cbn [stR] in Hd |- *; auto.
    destruct r; cbn [stR]; auto. cbv zeta.
    match goal with |- stR _ _ (match ?o with _ => _ end) => destruct o as [s2|] eqn:E end; [|exact I].
    assert (F2 : R s1 s2).
    { destruct (negb _); [exact (T_react _ _ E) | injection E as <-; apply R_refl]. }
    cbn [stR]. eapply R_trans; [exact Hd|]. eapply R_trans; [exact F2|].
    eapply R_trans; [apply T_rearm|]. eapply R_trans; [apply L_last_sent | apply T_retx].
    vsimpl_goal. apply Z.le_succ_diag_r.
Qed.

Lemma rec_branch_R : forall (s : vsock) h, str s (rec_branch s h).
Proof.
  intros s h. unfold rec_branch. destruct (rv_phase _) as [rp|dup|rc]; try apply R_refl.
  apply (stR_sbind R R_trans); [apply recovery_loop_R|].
  intros s1 [st early]. unfold rec_after. cbv beta iota zeta.
  destruct early; [apply L_recovering|].
  match goal with |- stR R s1 (match our_fin_if_unacked (v_state ?y) with _ => _ end) =>
    assert (F3 : R s1 y); [|revert F3; generalize y; intros sy F3] end.
  { destruct (_ <? _); [|apply L_recovering].
    destruct (rc_recalc _); [peel L_pipe_timer; apply L_recovering|].
    destruct (0 <? _); [peel L_pipe_timer|]; apply L_recovering. }
  destruct (our_fin_if_unacked _); [destruct (_ =? _)|]; cbn [stR]; auto.
  peel L_recovering. peel L_last_sent. exact F3.
Qed.

Lemma send_tx_queue_R : forall (s : vsock), str s (send_tx_queue cci s).
Proof.
  intros s. rewrite send_tx_queue_eq. destruct (v_transport_pending s); [apply R_refl|].
  apply (stR_sbind R R_trans); [apply rto_branch_R|].
  intros s1 ret. unfold after_rto_k. destruct ret; [apply R_refl|].
  destruct (0 <? _); [apply R_refl|]. destruct (ss_segs _); [apply R_refl|].
  apply (stR_sbind R R_trans); [apply rec_branch_R|].
  intros s2 ret. destruct ret; [apply R_refl|]. unfold new_branch.
  apply (stR_sbind R R_trans); [apply new_data_loop_R|].
  intros s3 tl. unfold new_after. destruct tl as [[sq sz]|]; [|apply R_refl].
  destruct (pop_mtu_probe _ _) as [segs' popped] eqn:Ep.
  destruct popped; cbn [stR]; [exact (T_popped _ _ sz _ Ep) | apply R_refl].
Qed.

(* ---- death and the timer tail ---- *)
Hypothesis J_error : forall (s : vsock) rx1 w,
  rx_enqueue_error (v_rx s) = (rx1, w) -> R s (add_wakes (set_rx s rx1) (rx_wakes w)).
Hypothesis H_closed : forall s : vsock, R s (mark_both_closed s).

Lemma just_before_death_R : forall (s : vsock) e, R s (just_before_death s e).
Proof.
  intros s e. unfold just_before_death.
  match goal with |- context [mark_both_closed ?x] =>
    assert (F1 : R s x); [|revert F1; generalize x; intros s1 F1] end.
  { destruct e; [|apply R_refl].
    destruct (rx_enqueue_error _) as [rx1 w] eqn:E. exact (J_error _ _ _ E). }
  pose proof (R_trans _ _ _ F1 (H_closed s1)) as F3.
  revert F3. generalize (mark_both_closed s1). intros s2 F3. clear F1.
  destruct e; [|exact F3].
  destruct (negb _); [|exact F3].
  match goal with |- context [send_control_packet ?x ?h] =>
    pose proof (send_control_packet_R x h) as F4; destruct (send_control_packet x h) end;
    cbn [stR] in F4.
  - eapply R_trans; [exact F3|]. eapply R_trans; [|exact F4]. apply L_seq_nr.
  - eapply R_trans; [exact F3|]. eapply R_trans; [|exact F4]. apply L_seq_nr.
  - eapply R_trans; [exact F3|]. apply L_seq_nr.
Qed.

Hypothesis H_arm : forall (s : vsock) d, R s (arm_in s d).

Lemma poll_tail_R : forall (s : vsock), R s (poll_tail s).
Proof.
  intros s. unfold poll_tail.
  match goal with |- context [next_timer_to_poll ?x] =>
    assert (F1 : R s x); [|revert F1; generalize x; intros s1 F1] end.
  { destruct (is_local_fin_or_later _); [apply L_inactivity | apply R_refl]. }
  eapply R_trans; [exact F1|].
  unfold next_timer_to_poll. destruct (v_transport_pending s1).
  - destruct (v_t_inactivity s1) as [i|]; [apply H_arm | apply R_refl].
  - match goal with |- context [match ?o with Some _ => _ | None => _ end] => destruct o as [i|] end;
      [peel H_arm|]; apply L_pipe_timer.
Qed.

End StepRel.

(* ------------------------------------------------------------------ the sending path *)
Definition txf (s s' : vsock) : Prop :=
  v_rx s' = v_rx s /\ v_tx s' = v_tx s /\ v_wakes s' = v_wakes s /\ v_arm_in s' = v_arm_in s /\
  v_inbox s' = v_inbox s /\ v_inbox_closed s' = v_inbox_closed s /\ v_state s' = v_state s /\
  v_inbox_waker s' = v_inbox_waker s.

Lemma txf_refl : forall s, txf s s.
Proof. intros s. unfold txf. repeat split. Qed.

Lemma txf_trans : forall a b c, txf a b -> txf b c -> txf a c.
Proof.
  unfold txf. intros a b c (A1 & A2 & A3 & A4 & A5 & A6 & A7 & A8) (B1 & B2 & B3 & B4 & B5 & B6 & B7 & B8).
  repeat split; congruence.
Qed.

Notation stf := (stR txf).

Ltac txf_leaf := unfold txf; repeat split; exact eq_refl.

(* goal [txf s b] from [H : txf s a] where b = setters applied to a *)
Lemma txf_data_sent : forall (s : vsock) p f, txf s (sent_state s p f).
Proof.
  intros. unfold sent_state, on_packet_sent, emit.
  destruct (seq_gt _ _); try destruct (seq_gt _ _); txf_leaf.
Qed.

Lemma next_send_txf : forall (s : vsock) n s1 o, next_send s n = (s1, o) -> txf s s1.
Proof. apply (next_send_R txf txf_refl); intros; txf_leaf. Qed.

Lemma send_control_packet_txf : forall (s : vsock) h, stf s (send_control_packet s h).
Proof. apply (send_control_packet_R txf txf_refl txf_trans); intros; txf_leaf. Qed.

Lemma send_ack_txf : forall (s : vsock), stf s (send_ack s).
Proof. intros s. apply send_control_packet_txf. Qed.

Lemma maybe_send_fin_txf : forall (s : vsock), stf s (maybe_send_fin s).
Proof. apply (maybe_send_fin_R txf txf_refl txf_trans); intros; txf_leaf. Qed.

Lemma on_rto_reactions_txf : forall (s s1 : vsock), on_rto_reactions cci s = Some s1 -> txf s s1.
Proof.
  intros s s1 H. unfold on_rto_reactions in H.
  destruct (Rtte.on_rto_timeout _); inversion H; subst. txf_leaf.
Qed.

Lemma send_tx_queue_txf : forall (s : vsock), stf s (send_tx_queue cci s).
Proof.
  apply (send_tx_queue_R txf txf_refl txf_trans); intros;
    first [apply txf_data_sent | eapply on_rto_reactions_txf; eassumption | txf_leaf].
Qed.

Lemma maybe_send_ack_txf : forall (s : vsock), stf s (maybe_send_ack s).
Proof. apply (maybe_send_ack_R txf txf_refl txf_trans); intros; txf_leaf. Qed.

(* ------------------------------------------------------------------ dispatcher-side operations *)
Inductive rx_dop (death : bool) : rx -> rx -> list Rx.wake -> Prop :=
| RxFlush : forall r r' fr w, rx_flush r = (r', fr, w) -> rx_dop death r r' w
| RxAdd : forall r k p off r' ar w, 0 <= off -> rx_add_remove r k p off = (r', ar, w) -> rx_dop death r r' w
| RxClose : forall r r' w, death = true -> rx_mark_vsock_closed r = (r', w) -> rx_dop death r r' w
| RxErr : forall r r' w, death = true -> rx_enqueue_error r = (r', w) -> rx_dop death r r' w.

Inductive tx_dop : tx -> tx -> list twake -> Prop :=
| TxClose : forall t t' w, mark_vsock_closed t = (t', w) -> tx_dop t t' w
| TxWake : forall t t' w, wake_writer t = (t', w) -> tx_dop t t' w
| TxTrunc : forall t n t' r, truncate_front t n = (t', r) -> tx_dop t t' []
| TxGrow : forall t m t' g, grow t m = (t', g) -> tx_dop t t' []
| TxReg : forall t, tx_dop t (register_dispatcher_if_empty t) [].

(* death: the operations of just_before_death are allowed; tl: the timer tail (arm_in) is *)
Inductive reach (death tl : bool) : vsock -> vsock -> Prop :=
| ReRefl : forall s, reach death tl s s
| ReTrans : forall a b c, reach death tl a b -> reach death tl b c -> reach death tl a c
| ReSame : forall s s',
    v_rx s' = v_rx s -> v_tx s' = v_tx s -> v_wakes s' = v_wakes s -> v_arm_in s' = v_arm_in s ->
    reach death tl s s'
| ReRx : forall s s' w,
    rx_dop death (v_rx s) (v_rx s') w -> v_tx s' = v_tx s ->
    v_wakes s' = rev (rx_wakes w) ++ v_wakes s -> v_arm_in s' = v_arm_in s -> reach death tl s s'
| ReTx : forall s s' w,
    tx_dop (v_tx s) (v_tx s') w -> v_rx s' = v_rx s ->
    v_wakes s' = rev (tx_wakes w) ++ v_wakes s -> v_arm_in s' = v_arm_in s -> reach death tl s s'
| ReArm : forall s s' d,
    tl = true -> v_rx s' = v_rx s -> v_tx s' = v_tx s -> v_arm_in s' = Some d ->
    (v_wakes s' = v_wakes s \/ (d = 0 /\ v_wakes s' = VwSelf :: v_wakes s)) ->
    reach death tl s s'.

Lemma rx_dop_mono : forall d r r' w, rx_dop d r r' w -> rx_dop true r r' w.
Proof.
  intros d r r' w H. destruct H.
  - eapply RxFlush; eauto.
  - eapply RxAdd; eauto.
  - eapply RxClose; eauto.
  - eapply RxErr; eauto.
Qed.

Lemma reach_mono : forall d t s s', reach d t s s' -> reach true true s s'.
Proof.
  intros d t s s' H. induction H.
  - apply ReRefl.
  - eapply ReTrans; eauto.
  - apply ReSame; auto.
  - eapply ReRx; eauto using rx_dop_mono.
  - eapply ReTx; eauto.
  - eapply ReArm; eauto.
Qed.

Lemma reach_mono_d : forall d t s s', reach false t s s' -> reach d t s s'.
Proof.
  intros d t s s' H. induction H.
  - apply ReRefl.
  - eapply ReTrans; eauto.
  - apply ReSame; auto.
  - eapply ReRx; eauto. destruct H; [eapply RxFlush|eapply RxAdd|discriminate|discriminate]; eauto.
  - eapply ReTx; eauto.
  - eapply ReArm; eauto.
Qed.

Lemma reach_mono_t : forall d t s s', reach d false s s' -> reach d t s s'.
Proof.
  intros d t s s' H. induction H.
  - apply ReRefl.
  - eapply ReTrans; eauto.
  - apply ReSame; auto.
  - eapply ReRx; eauto.
  - eapply ReTx; eauto.
  - discriminate.
Qed.

Lemma reach_arm_in : forall d s s', reach d false s s' -> v_arm_in s' = v_arm_in s.
Proof. intros d s s' H. induction H; try congruence. Qed.

Lemma txf_reach : forall d t s s', txf s s' -> reach d t s s'.
Proof. intros d t s s' (A1 & A2 & A3 & A4 & _). apply ReSame; assumption. Qed.

Section Live.
Variables (d t : bool).
Notation rch := (reach d t).
Notation strch := (stR rch).

Lemma rch_trans : forall a b c, rch a b -> rch b c -> rch a c.
Proof. intros a b c. apply ReTrans. Qed.

Lemma stf_strch : forall A (s : vsock) (m : step A), stf s m -> strch s m.
Proof. intros A s m H. destruct m; cbn [stR] in *; auto using txf_reach. Qed.

(* goal [rch s b] where b = setters (other than rx/tx/wakes/arm_in) applied to s *)
Ltac same_leaf := apply ReSame; exact eq_refl.

Lemma add_wakes_rx_reach : forall (s : vsock) rx1 w,
  rx_dop d (v_rx s) rx1 w -> rch s (add_wakes (set_rx s rx1) (rx_wakes w)).
Proof. intros s rx1 w H. unfold add_wakes. eapply ReRx; [exact H|exact eq_refl..]. Qed.

Lemma add_wakes_tx_reach : forall (s : vsock) tx1 w,
  tx_dop (v_tx s) tx1 w -> rch s (add_wakes (set_tx s tx1) (tx_wakes w)).
Proof. intros s tx1 w H. unfold add_wakes. eapply ReTx; [exact H|exact eq_refl..]. Qed.

Lemma set_tx_reach : forall (s : vsock) tx1,
  tx_dop (v_tx s) tx1 [] -> rch s (set_tx s tx1).
Proof. intros s tx1 H. eapply ReTx; [exact H|exact eq_refl..]. Qed.

Lemma transition_to_fin_wait_1_reach : forall (s : vsock), rch s (transition_to_fin_wait_1 s).
Proof. apply (transition_to_fin_wait_1_R rch (ReRefl d t) rch_trans); intros; same_leaf. Qed.

Lemma process_all_incoming_messages_reach : forall (s : vsock),
  strch s (process_all_incoming_messages cci s).
Proof.
  apply (process_all_incoming_messages_R rch (ReRefl d t) rch_trans); try (intros; same_leaf).
  - intros s tx1 tx2 w E. exact (add_wakes_tx_reach (set_tx s tx1) tx2 w (TxWake _ _ _ E)).
  - apply (state_table_R rch (ReRefl d t) rch_trans); intros; same_leaf.
  - apply transition_to_fin_wait_1_reach.
  - intros s1 h s2 res E. destruct (pim_ack_shape _ _ _ _ E) as (? & ? & ? & ? & ? & ->). same_leaf.
  - intros s k p off rx1 ar w Hoff E. apply add_wakes_rx_reach. eapply RxAdd; eassumption.
  - intros s tx1 w E. apply add_wakes_tx_reach, TxClose. exact E.
  - intros s n tx1 tr E. apply set_tx_reach. eapply TxTrunc; exact E.
Qed.

Lemma maybe_send_syn_ack_reach : forall (s : vsock), strch s (maybe_send_syn_ack s).
Proof. apply (maybe_send_syn_ack_R rch (ReRefl d t) rch_trans); intros; same_leaf. Qed.

Lemma split_tx_queue_into_segments_reach : forall (s : vsock),
  strch s (split_tx_queue_into_segments cci s).
Proof.
  apply (split_tx_queue_into_segments_R rch (ReRefl d t) rch_trans).
  - intros s. apply set_tx_reach, TxReg.
  - intros s tx1 g E. apply set_tx_reach. eapply TxGrow; exact E.
  - intros s tx1 tx2 w E. exact (add_wakes_tx_reach (set_tx s tx1) tx2 w (TxWake _ _ _ E)).
  - intros. unfold probe_given_up. destruct (seq_gt _ _); same_leaf.
  - intros. same_leaf.
  - intros. same_leaf.
Qed.

Lemma rx_flush_reach : forall (s : vsock) rx1 fb w,
  rx_flush (v_rx s) = (rx1, FlOk fb, w) -> rch s (add_wakes (set_rx s rx1) (rx_wakes w)).
Proof. intros s rx1 fb w H. apply add_wakes_rx_reach. eapply RxFlush; exact H. Qed.

Lemma poll_start_reach : forall (s : vsock), rch s (poll_start s).
Proof. intros s. unfold poll_start. same_leaf. Qed.

End Live.

(* ---- death and the timer tail ---- *)
Lemma mark_both_closed_reach : forall t (s : vsock), reach true t s (mark_both_closed s).
Proof.
  intros t s. unfold mark_both_closed.
  destruct (rx_mark_vsock_closed (v_rx s)) as [rx1 w1] eqn:E1.
  destruct (mark_vsock_closed (v_tx s)) as [tx1 w2] eqn:E2.
  eapply ReTrans; [apply (add_wakes_rx_reach true t s rx1 w1); apply RxClose; [reflexivity|exact E1]|].
  eapply ReTx with (w := w2); unfold add_wakes; vsimpl_goal.
  - apply TxClose. exact E2.
  - reflexivity.
  - rewrite rev_app_distr, app_assoc. reflexivity.
  - reflexivity.
Qed.

Lemma just_before_death_reach : forall t (s : vsock) e, reach true t s (just_before_death s e).
Proof.
  intros t. apply (just_before_death_R (reach true t) (ReRefl true t) (ReTrans true t));
    try (intros; apply ReSame; exact eq_refl).
  - intros s rx1 w E. apply add_wakes_rx_reach. apply RxErr; [reflexivity|exact E].
  - apply mark_both_closed_reach.
Qed.

Lemma poll_tail_reach : forall d (s : vsock), reach d true s (poll_tail s).
Proof.
  intros d. apply (poll_tail_R (reach d true) (ReRefl d true) (ReTrans d true));
    try (intros; apply ReSame; exact eq_refl).
  intros s dd. unfold arm_in, add_wakes. destruct (_ <=? 0).
  - eapply ReArm with (d := 0); vsimpl_goal; try reflexivity. right. split; reflexivity.
  - eapply ReArm; vsimpl_goal; try reflexivity. left; reflexivity.
Qed.

(* ------------------------------------------------------------------ a whole poll *)
Theorem poll_reach : forall (s s' : vsock) r,
  poll cci s = (s', r) -> reach true true (poll_init s) s'.
Proof.
  intros s s' r H.
  apply (poll_R cci (reach true true) (ReRefl true true) (ReTrans true true)) with (r := r); try exact H.
  - apply poll_start_reach.
  - apply maybe_send_syn_ack_reach.
  - intros s0. apply stf_strch, send_ack_txf.
  - apply process_all_incoming_messages_reach.
  - apply rx_flush_reach.
  - apply split_tx_queue_into_segments_reach.
  - intros s0. apply stf_strch, send_tx_queue_txf.
  - apply transition_to_fin_wait_1_reach.
  - intros s0. apply stf_strch, maybe_send_fin_txf.
  - intros s0. apply stf_strch, maybe_send_ack_txf.
  - apply just_before_death_reach.
  - apply poll_tail_reach.
Qed.

Theorem poll_reach_pending : forall (s s' : vsock),
  poll cci s = (s', PollPending) -> pend_shape (reach false false) (poll_init s) s'.
Proof.
  intros s s' H.
  apply (poll_Rp cci (reach false false) (ReRefl false false) (ReTrans false false)); try exact H.
  - apply poll_start_reach.
  - intros s0. apply stR_stRk, maybe_send_syn_ack_reach.
  - intros s0. apply stR_stRk, stf_strch, send_ack_txf.
  - intros s0. apply stR_stRk, process_all_incoming_messages_reach.
  - apply rx_flush_reach.
  - intros s0. apply stR_stRk, split_tx_queue_into_segments_reach.
  - intros s0. apply stR_stRk, stf_strch, send_tx_queue_txf.
  - apply transition_to_fin_wait_1_reach.
  - intros s0. apply stR_stRk, stf_strch, maybe_send_fin_txf.
  - intros s0. apply stR_stRk, stf_strch, maybe_send_ack_txf.
Qed.

End WithCC.
