(* C17, trace level: c17_peer_fin_ok and c17_fin_seq_ok (Conn/C17_Pred.v) against EVERY trace of the model.
     c17_peer_fin_ok   FALSE as written (c17_peer_fin_ok_refuted: a poll flushes what an earlier poll consumed);
                       the corrected form c17_peer_fin_ok2 (Conn/C17_Pred2.v) is a theorem of every trace from
                       vsock_new on a valid configuration (c17_peer_fin_ok2_trace), and so is the predicate as
                       written under the monitored guard "no poll panics, no poll starts with consumed slots
                       waiting in the reassembly queue" (c17_peer_fin_guarded_trace).
     c17_fin_seq_ok    was FALSE of the model: defect D6, confirmed on the real code and repaired (see the end of
                       the file: the former witnesses are regression theorems).  A proof for every trace is open. *)
From Utp Require Import Base.Prelude Wire.SeqNr Wire.Header Wire.Header_Proofs Rtt.Rtte Mtu.SegSizes
  Rx.Rx Rx.Rx_Proofs Tx.Ring Tx.Segments Conn.Recovery Conn.Msg Conn.VSockRec Conn.VSock Conn.VSockRun Conn.VObs
  Conn.VSock_Lemmas Conn.VSock_LemmasStep Conn.VSock_LemmasTx Conn.VSock_LemmasFin Conn.C17_Pred Conn.C17_Proofs
  Conn.C17_StepLemmas Conn.C17_Step Conn.C07_Proofs Conn.C17_Pred2 Conn.C17_TraceLemmas.

Section WithCC.
Context {CC : Type} (cci : cc_iface CC).
Notation vsock := (vsock CC).

(* ================================================================== (d) out-of-sequence FINs only *)
Definition IA (s0 s : vsock) : Prop :=
  is_data_state (v_state s) = true /\ v_inbox_closed s = false /\
  v_last_consumed s = v_last_consumed s0 /\
  forallb (oos_fin (v_last_consumed s0)) (map m_hdr (v_inbox s)) = true /\
  rxrel (v_rx s0) (v_rx s).

Lemma IA_RX s0 (s s' : vsock) : RX s s' -> IA s0 s -> IA s0 s'.
Proof.
  intros (A1 & A2 & A3 & A4 & A5 & _) (B1 & B2 & B3 & B4 & B5).
  split; [eapply strel_data_state; eauto|]. split; [congruence|]. split; [congruence|].
  split; [rewrite A2; exact B4|eapply rxrel_trans; eauto].
Qed.

Lemma IA_msg s0 (s : vsock) m rest : IA s0 s -> v_inbox s = m :: rest ->
  match process_incoming_message cci (set_inbox s rest) m with
  | SOk s' _ | SErr s' _ => IA s0 s'
  | SPanic => True
  end.
Proof.
  intros (B1 & B2 & B3 & B4 & B5) Hin. rewrite Hin in B4. cbn [map forallb] in B4.
  apply andb_true_iff in B4. destruct B4 as [Bm Brest].
  unfold oos_fin in Bm. apply andb_true_iff in Bm. destruct Bm as [Bt Bs].
  apply ptype_eqb_iff in Bt. apply negb_true_iff, Z.eqb_neq in Bs.
  rewrite (peer_fin_out_of_sequence cci (set_inbox s rest) m Bt).
  - split; [exact B1|]. split; [exact B2|]. split; [exact B3|]. split; [exact Brest|exact B5].
  - change (v_state (set_inbox s rest)) with (v_state s).
    destruct (v_state s); try discriminate; eauto.
  - unfold in_seq. change (v_last_consumed (set_inbox s rest)) with (v_last_consumed s). rewrite B3. exact Bs.
Qed.

Lemma IA_closed s0 (s : vsock) : IA s0 s -> v_inbox_closed s = true -> IA s0 (set_state s Closed).
Proof. intros (_ & B2 & _) H. congruence. Qed.

Theorem peer_fin_oos_poll (s : vsock) sc s' r :
  is_data_state (v_state s) = true -> v_inbox_closed s = false ->
  forallb (oos_fin (v_last_consumed s)) (map m_hdr (v_inbox s)) = true ->
  poll cci (VSockRec.set_sends s sc) = (s', r) -> IA s s'.
Proof.
  intros H1 H2 H3 E.
  apply (poll_Inv cci (IA s) (IA_RX s) (IA_msg s) (IA_closed s) _ _ _ E).
  split; [exact H1|]. split; [exact H2|]. split; [reflexivity|]. split; [exact H3|apply rxrel_refl].
Qed.

(* ================================================================== (d) one FIN, in sequence, in Established *)
Definition IB (X F : Z) (s : vsock) : Prop :=
  v_last_consumed s = X /\ (v_state s = LastAck F X \/ v_state s = Closed) /\
  v_inbox s = [] /\ v_inbox_closed s = false /\
  (v_cbu s = USIZE_MAX \/ exists p, In p (v_out s) /\ ch_ack (p_hdr p) = X).

Lemma IB_RX X F (s s' : vsock) : RX s s' -> IB X F s -> IB X F s'.
Proof.
  intros (A1 & A2 & A3 & A4 & A5 & l & A6 & A7 & A8) (B1 & B2 & B3 & B4 & B5).
  split; [congruence|]. split.
  { destruct B2 as [B2|B2]; rewrite B2 in A4; rewrite (strel_local_fin _ _ A4 eq_refl); auto. }
  split; [congruence|]. split; [congruence|].
  destruct l as [|p l'].
  - rewrite A8 by reflexivity. cbn [app] in A6. rewrite A6. exact B5.
  - right. exists p. split; [rewrite A6; left; reflexivity|].
    inversion A7 as [|? ? (Hp & _) _]; subst. congruence.
Qed.

Lemma IB_msg X F (s : vsock) m rest : IB X F s -> v_inbox s = m :: rest ->
  match process_incoming_message cci (set_inbox s rest) m with
  | SOk s' _ | SErr s' _ => IB X F s'
  | SPanic => True
  end.
Proof. intros (_ & _ & B3 & _) H. congruence. Qed.

Lemma IB_closed X F (s : vsock) : IB X F s -> v_inbox_closed s = true -> IB X F (set_state s Closed).
Proof. intros (_ & _ & _ & B4 & _) H. congruence. Qed.

(* the in-sequence FIN in Established, whatever process_incoming_message returns *)
Lemma pim_fin_inseq (s : vsock) m :
  v_state s = Established -> ch_type (m_hdr m) = ST_FIN -> in_seq s (m_hdr m) ->
  match process_incoming_message cci s m with
  | SOk s' _ | SErr s' _ =>
      v_state s' = LastAck (v_seq_nr s) (ch_seq (m_hdr m)) /\ v_last_consumed s' = ch_seq (m_hdr m) /\
      v_cbu s' = USIZE_MAX /\ v_out s' = v_out s /\ v_inbox s' = v_inbox s /\
      v_inbox_closed s' = v_inbox_closed s
  | SPanic => True
  end.
Proof.
  intros Hs Ht Hi. unfold process_incoming_message. cbv zeta.
  destruct (transition_table s (m_hdr m)) as (_&_&_&_&_&_&_&_&_&_&_&R11&_).
  rewrite (R11 Ht Hs Hi). rewrite Hs. cbn [is_remote_fin_or_later negb].
  destruct (remove_up_to_ack _ _ _ _) as [segs1 res].
  match goal with |- context [match ?o with Some rtte1 => _ | None => SPanic end] => destruct o as [rtte1|] end;
    [|exact I].
  destruct (cc_on_ack _ _ _ _ _) as [cc3|]; [|exact I].
  destruct (recovery_on_ack _ _ _ _ _ _ _ _) as [[[rec1 segs2] cc4]|]; [|exact I].
  rewrite Ht.
  match goal with |- context [set_last_consumed (force_immediate_ack ?x) _] =>
    assert (F : v_state x = LastAck (v_seq_nr s) (ch_seq (m_hdr m)) /\
                v_last_consumed x = v_last_consumed s /\ v_out x = v_out s /\
                v_inbox x = v_inbox s /\ v_inbox_closed x = v_inbox_closed s) by (vsimpl; repeat split);
    revert F; generalize x; intros s2 (F1 & F3 & F4 & F5 & F6) end.
  unfold in_seq in Hi. rewrite F3, <- Hi, seq_sub_refl. cbn [Z.leb Z.compare andb].
  destruct (rx_add_remove _ _ _ _) as [[rx1 ar] w]. destruct ar as [ra|]; [|exact I].
  destruct (add_err ra).
  - unfold add_wakes, force_immediate_ack. vsimpl. repeat split; assumption.
  - unfold mark_vsock_closed, add_wakes, force_immediate_ack. vsimpl. repeat split; assumption.
Qed.

Lemma recv_loop_cons x fuel (s : vsock) acc m rest :
  v_inbox s = m :: rest ->
  recv_loop cci (x :: fuel) s acc =
  sbind (process_incoming_message cci (set_inbox s rest) m) (fun s1 r =>
    let acc1 := result_update acc r in
    if state_is_closed (v_state s1) (o_wait_for_last_ack (v_opts s1)) || v_transport_pending s1
    then SOk s1 (acc1, false)
    else recv_loop cci fuel s1 acc1).
Proof. intro H. cbn [recv_loop]. rewrite H. reflexivity. Qed.

Lemma process_all_fin (s1 : vsock) m :
  v_state s1 = Established -> v_inbox s1 = [m] -> v_inbox_closed s1 = false ->
  ch_type (m_hdr m) = ST_FIN -> in_seq s1 (m_hdr m) ->
  stI (IB (ch_seq (m_hdr m)) (v_seq_nr s1)) (process_all_incoming_messages cci s1).
Proof.
  intros Hs Hin Hc Ht Hi. set (X := ch_seq (m_hdr m)). set (F := v_seq_nr s1).
  rewrite process_all_eq. rewrite Hin. cbn [app]. rewrite (recv_loop_cons _ _ _ _ m [] Hin).
  apply (stI_bind (IB X F)).
  - apply (stI_bind (IB X F)).
    + pose proof (pim_fin_inseq (set_inbox s1 []) m Hs Ht Hi) as P.
      destruct (process_incoming_message cci (set_inbox s1 []) m) as [s' r|s' e|]; cbn [stI]; [| |exact I];
        destruct P as (P1 & P2 & P3 & P4 & P5 & P6);
        (split; [exact P2|]; split; [left; exact P1|]; split; [exact P5|]; split; [rewrite P6; exact Hc|];
         left; exact P3).
    + intros s' r H'. cbv zeta. destruct (_ || _); [exact H'|].
      apply (recv_loop_Inv cci (IB X F) (IB_RX X F) (IB_msg X F) (IB_closed X F)). exact H'.
  - intros s' res H'. eapply (stRX_stI (IB X F) (IB_RX X F)); [exact H'|apply pa_tail_RX].
Qed.

Theorem peer_fin_inseq_poll (s : vsock) sc m s' r :
  v_state s = Established -> v_inbox s = [m] -> v_inbox_closed s = false ->
  immediate_ack_to_transmit s = false ->
  ch_type (m_hdr m) = ST_FIN -> in_seq s (m_hdr m) ->
  poll cci (VSockRec.set_sends s sc) = (s', r) -> r <> PollPanic ->
  IB (ch_seq (m_hdr m)) (v_seq_nr s) s'.
Proof.
  intros Hs Hin Hc Himm Ht Hi. set (X := ch_seq (m_hdr m)). set (F := v_seq_nr s).
  rewrite (poll_past_handshake cci s sc) by (try rewrite Hs; auto). cbv zeta.
  set (s1 := set_t_syn_ack_resend (body_start (poll_init (VSockRec.set_sends s sc))) None).
  assert (HB : brI (IB X F) (pend (process_all_incoming_messages cci s1)
                                      (fun (s : vsock) (_ : unit) => body_mid cci body_back s))).
  { apply (pend_I (IB X F) (IB_RX X F)).
    - apply (process_all_fin s1 m); assumption.
    - intros s3 _ H3. apply (body_mid_back_Inv cci (IB X F) (IB_RX X F)). exact H3. }
  destruct (pend (process_all_incoming_messages cci s1) _) as [s'' r''|s''|]; cbn [brI] in HB.
  - intro H; injection H as <- <-. intros _. exact HB.
  - intros H _.
    pose proof (poll_loop_Inv cci (IB X F) (IB_RX X F) (IB_msg X F) (IB_closed X F) 63 s'' HB) as P.
    rewrite H in P. exact P.
  - intro H; injection H as _ <-. intro N. contradiction.
Qed.

(* ================================================================== the judgement of one poll *)
Lemma existsb_pkts (P : fpacket -> bool) (l : list packet) p :
  In p l -> P (fpacket_of p) = true -> existsb P (map fpacket_of (rev l)) = true.
Proof.
  intros Hin Hp. apply existsb_exists. exists (fpacket_of p). split; [|exact Hp].
  apply in_map. apply in_rev. rewrite rev_involutive. exact Hin.
Qed.

Lemma ss_ok_mss (s : vsock) : LB 0 s -> 1 <= mss (v_ss s) /\ mss (v_ss s) < U16_MAX.
Proof. intros (_ & (H1 & H2) & _). unfold mss. lia. Qed.

Lemma peer_fin_poll_check_ok (s : vsock) sc s' r l :
  LB 0 s -> v_inbox_closed s = false -> map m_hdr (v_inbox s) = l ->
  immediate_ack_to_transmit s = false ->
  poll cci (VSockRec.set_sends s sc) = (s', r) ->
  peer_fin_poll_ok2 l (fstep_of cci s (VoPoll sc)) = true.
Proof.
  intros Hlb Hc Hm Himm E. rewrite (fstep_of_poll cci s sc s' r E). unfold peer_fin_poll_ok2.
  cbn [fs_result].
  cbn [fresult_of is_panic_result].
  assert (HB : r <> PollPanic ->
    peer_fin_poll_body l
      {| fs_now := v_env_now s'; fs_pre := fp_of_vsock cci s; fs_event := FePoll sc;
         fs_result := FrPoll r (map fpacket_of (rev (v_out s'))) (rev (v_wakes s')) (v_arm_in s');
         fs_disp_woken := false; fs_self_woken := false; fs_post := fp_of_vsock cci s' |} = true);
    [|destruct r; try reflexivity; apply HB; discriminate].
  intro Hnp. unfold peer_fin_poll_body. cbn [fs_pre fs_post fs_result].
  destruct l as [|h l']; [reflexivity|].
  cbn [fp_of_vsock f_state f_last_consumed f_rx_len f_rx_ff f_rx_qbytes f_rx_len_bytes f_seq_nr
       f_transport_pending].
  destruct (is_data_state (v_state s) && forallb (oos_fin (v_last_consumed s)) (h :: l')) eqn:Eg.
  - (* out-of-sequence FINs only *)
    apply andb_true_iff in Eg. destruct Eg as [Ed Ef]. rewrite <- Hm in Ef.
    destruct (peer_fin_oos_poll s sc s' r Ed Hc Ef E) as (A1 & A2 & A3 & A4 & A5).
    destruct A5 as (_ & _ & R3 & R4 & R5 & _).
    rewrite A3, Z.eqb_refl. cbn [andb].
    assert (Hnr : is_remote_fin_or_later (v_state s') = false)
      by (destruct (v_state s'); try discriminate; reflexivity).
    rewrite Hnr. cbn [negb andb].
    replace (ooq_len (v_rx s') - filled_front (v_rx s') =? ooq_len (v_rx s) - filled_front (v_rx s)) with true
      by (symmetry; apply Z.eqb_eq; exact R3).
    replace (q_len_bytes (v_rx s') + ooq_len_bytes (v_rx s') =? q_len_bytes (v_rx s) + ooq_len_bytes (v_rx s))
      with true by (symmetry; apply Z.eqb_eq; exact R4).
    cbn [andb]. destruct (Z.eqb_spec (filled_front (v_rx s)) 0) as [E0|N0]; [|reflexivity].
    destruct (R5 E0) as (_ & X2 & X3). rewrite X2, X3, !Z.eqb_refl. reflexivity.
  - destruct l' as [|h2 l'']; [|reflexivity].
    destruct (v_state s) eqn:Es; try reflexivity.
    destruct (ptype_eqb (ch_type h) ST_FIN && (ch_seq h =? wadd16 (v_last_consumed s) 1)) eqn:Ei; [|reflexivity].
    apply andb_true_iff in Ei. destruct Ei as [Et Eq]. apply ptype_eqb_iff in Et. apply Z.eqb_eq in Eq.
    destruct (v_inbox s) as [|m rest] eqn:Hin; [discriminate|].
    destruct rest as [|m2 rest]; [|discriminate]. cbn [map] in Hm. injection Hm as Hh.
    rewrite <- Hh in Et, Eq.
    pose proof (peer_fin_inseq_poll s sc m s' r Es Hin Hc Himm Et Eq E Hnp) as (B1 & B2 & B3 & B4 & B5).
    rewrite <- Hh. rewrite B1, Z.eqb_refl. cbn [andb].
    assert (Hst : match v_state s' with
                  | LastAck f r0 => (f =? v_seq_nr s) && (r0 =? ch_seq (m_hdr m))
                  | Closed => true | _ => false end = true).
    { destruct B2 as [-> | ->]; [rewrite !Z.eqb_refl|]; reflexivity. }
    rewrite Hst. cbn [andb].
    destruct (v_transport_pending s') eqn:T; [reflexivity|].
    destruct r; try reflexivity.
    destruct B5 as [B5|(p & Hp & Ha)].
    + exfalso. destruct (ss_ok_mss s Hlb) as [M1 _].
      destruct (c07_no_pending_immediate_ack_lemma cci (VSockRec.set_sends s sc) s' M1 E T) as (_ & _ & C).
      assert (Hlb' : LB 0 s').
      { pose proof (poll_LB cci (VSockRec.set_sends s sc)) as P. rewrite E in P. apply P. exact Hlb. }
      destruct (ss_ok_mss s' Hlb') as [_ M2]. unfold USIZE_MAX, M64, U16_MAX, M16 in *. lia.
    + eapply existsb_pkts; [exact Hp|]. unfold pkt_ack. cbn [fpacket_of fq_hdr]. apply Z.eqb_eq. exact Ha.
Qed.

(* ================================================================== the trace walk *)
(* what the walk's `pending` knows about the model's inbox; no immediate ACK is owed when a poll starts *)
Definition PInv (s : vsock) (pending : option (list chdr)) : Prop :=
  LB 0 s /\
  match pending with
  | Some l => v_inbox_closed s = false /\ map m_hdr (v_inbox s) = l /\ immediate_ack_to_transmit s = false
  | None => True
  end.

Lemma vstep_nonpoll_imm (s : vsock) o :
  match o with
  | VoPoll _ => True
  | _ => immediate_ack_to_transmit (vstep_state cci s o) = immediate_ack_to_transmit s
  end.
Proof.
  unfold immediate_ack_to_transmit. pose proof (vstep_nonpoll_fields cci s o) as K.
  destruct o; try exact I; destruct K as (_ & K2 & K3 & _); rewrite K2, K3; reflexivity.
Qed.

Lemma PInv_other (s : vsock) o pending :
  match o with VoPoll _ | VoDeliver _ | VoCloseInbox => False | _ => True end ->
  PInv s pending -> PInv (vstep_state cci s o) pending.
Proof.
  intros Ho [Hlb Hp]. split; [apply vstep_LB; exact Hlb|].
  destruct pending as [l|]; [|exact I]. destruct Hp as (P1 & P2 & P3).
  pose proof (vstep_other cci s o) as V. pose proof (vstep_nonpoll_imm s o) as Vi.
  destruct o; try contradiction; destruct V as (V1 & V2 & _); rewrite V1, V2, Vi; auto.
Qed.

Lemma peer_fin_scan_gen_poll J pending st rest :
  (exists sc, fs_event st = FePoll sc) ->
  peer_fin_scan_gen J (st :: rest) pending =
  (match pending with Some l => J l st | None => true end) &&
  peer_fin_scan_gen J rest (if f_transport_pending (fs_post st) then None
                            else match pending with Some _ => Some [] | None => None end).
Proof. intros [sc H]. cbn [peer_fin_scan_gen]. rewrite H. reflexivity. Qed.

Theorem peer_fin_scan2_model : forall ops (s : vsock) pending,
  PInv s pending -> peer_fin_scan_gen peer_fin_poll_ok2 (ftrace cci s ops) pending = true.
Proof.
  induction ops as [|o ops IH]; intros s pending Hi; [reflexivity|].
  rewrite ftrace_cons.
  pose proof (vstep_other cci s o) as Ho.
  assert (Hoth : match o with VoPoll _ | VoDeliver _ | VoCloseInbox => False | _ => True end ->
                 poll_finished (snd (fst (fst (vstep cci s o)))) = false ->
                 (forall sc, fevent_of o <> FePoll sc) -> (forall h n, fevent_of o <> FeDeliver h n) ->
                 fevent_of o <> FeCloseInbox ->
                 peer_fin_scan_gen peer_fin_poll_ok2
                   (fstep_of cci s o :: (if poll_finished (snd (fst (fst (vstep cci s o)))) then []
                                         else ftrace cci (vstep_state cci s o) ops)) pending = true).
  { intros H1 H2 N1 N2 N3. rewrite H2. cbn [peer_fin_scan_gen]. rewrite fstep_of_event.
    destruct (fevent_of o) eqn:Ev; try (exfalso; eapply N1; reflexivity); try (exfalso; eapply N2; reflexivity);
      try (exfalso; apply N3; reflexivity); apply IH; apply PInv_other; assumption. }
  destruct o; try (destruct Ho as (_ & _ & O3); apply Hoth; [exact I|exact O3|discriminate|discriminate|discriminate]).
  - (* poll *)
    destruct (poll cci (VSockRec.set_sends s script)) as [s' r] eqn:E.
    rewrite peer_fin_scan_gen_poll by (exists script; apply fstep_of_event).
    destruct Hi as [Hlb Hp].
    assert (Hj : match pending with Some l => peer_fin_poll_ok2 l (fstep_of cci s (VoPoll script)) | None => true end
                 = true).
    { destruct pending as [l|]; [|reflexivity]. destruct Hp as (P1 & P2 & P3).
      eapply peer_fin_poll_check_ok; eauto. }
    rewrite Hj. cbn [andb].
    assert (Hf : snd (fst (fst (vstep cci s (VoPoll script)))) = VrPoll r (rev (v_out s')) (rev (v_wakes s')) (v_arm_in s')).
    { cbn [vstep]. rewrite E. reflexivity. }
    rewrite Hf. unfold poll_finished. destruct r; try reflexivity.
    assert (Hs : vstep_state cci s (VoPoll script) = s').
    { unfold vstep_state. cbn [vstep]. rewrite E. reflexivity. }
    rewrite Hs. apply IH.
    rewrite (fstep_of_poll cci s script s' _ E). cbn [fs_post fp_of_vsock f_transport_pending].
    assert (Hlb' : LB 0 s').
    { pose proof (poll_LB cci (VSockRec.set_sends s script)) as P. rewrite E in P. apply P. exact Hlb. }
    split; [exact Hlb'|].
    destruct (v_transport_pending s') eqn:T; [exact I|].
    destruct pending as [l|]; [|exact I]. destruct Hp as (P1 & _ & _).
    split; [|split].
    + pose proof (poll_G0 cci _ _ _ E) as P. cbn [pG0] in P. destruct P as ((_ & _ & _ & P4 & _) & _).
      rewrite P4. exact P1.
    + rewrite (poll_pending_drained cci _ _ E T). reflexivity.
    + destruct (ss_ok_mss s Hlb) as [M1 _].
      destruct (c07_no_pending_immediate_ack_lemma cci (VSockRec.set_sends s script) s' M1 E T) as (C & _).
      exact C.
  - (* deliver *)
    cbn [peer_fin_scan_gen]. rewrite fstep_of_event. cbn [fevent_of].
    assert (Hf : poll_finished (snd (fst (fst (vstep cci s (VoDeliver m))))) = false).
    { cbn [vstep]. destruct (v_inbox_closed s); reflexivity. }
    rewrite Hf. apply IH. destruct Hi as [Hlb Hp]. split; [apply vstep_LB; exact Hlb|].
    destruct pending as [l|]; [|exact I]. destruct Hp as (P1 & P2 & P3).
    pose proof (vstep_nonpoll_imm s (VoDeliver m)) as Vi. cbv beta iota in Vi. rewrite Vi.
    unfold vstep_state. cbn [vstep]. rewrite P1. cbn [fst]. vsimpl. split; [exact P1|]. split; [|exact P3].
    rewrite map_app, P2. reflexivity.
  - (* close *)
    cbn [peer_fin_scan_gen]. rewrite fstep_of_event. cbn [fevent_of].
    assert (Hf : poll_finished (snd (fst (fst (vstep cci s VoCloseInbox)))) = false) by reflexivity.
    rewrite Hf. apply IH. destruct Hi as [Hlb _]. split; [apply vstep_LB; exact Hlb|exact I].
Qed.

Lemma vsock_new_fields mk c (s0 : vsock) :
  vsock_new cci mk c = Some s0 -> v_inbox s0 = [] /\ v_inbox_closed s0 = false /\ v_cbu s0 = 0.
Proof.
  unfold vsock_new.
  destruct (match (if vc_incoming c then None else _) with Some r => _ | None => _ end); [|discriminate].
  intro H; injection H as <-. repeat split.
Qed.

Theorem c17_peer_fin_ok2_trace : forall mk c cfg (s0 : vsock) ops,
  C10_Pred.vconfig_ok c = true -> vsock_new cci mk c = Some s0 ->
  c17_peer_fin_ok2 cfg (ftrace cci s0 ops) = true.
Proof.
  intros mk c cfg s0 ops Hc Hn. unfold c17_peer_fin_ok2. apply peer_fin_scan2_model.
  pose proof (vsock_new_LB cci mk c s0 Hc Hn) as Hlb.
  destruct (vsock_new_fields mk c s0 Hn) as (F1 & F2 & F3).
  split; [exact Hlb|]. split; [exact F2|]. split; [rewrite F1; reflexivity|].
  unfold immediate_ack_to_transmit. rewrite F3. destruct (ss_ok_mss s0 Hlb) as [M _].
  unfold IMMEDIATE_ACK_EVERY_RMSS. lia.
Qed.

(* ---- the predicate as written, under the monitored guard ---- *)
Lemma peer_fin_scan_is_gen : forall tr pending,
  peer_fin_scan tr pending = peer_fin_scan_gen peer_fin_poll_ok tr pending.
Proof.
  induction tr as [|st r IH]; intro pending; [reflexivity|].
  cbn [peer_fin_scan peer_fin_scan_gen]. destruct (fs_event st); rewrite ?IH; reflexivity.
Qed.

Lemma peer_fin_poll_ok_of2 l st :
  c17_peer_fin_guard_step st = true -> (exists sc, fs_event st = FePoll sc) ->
  peer_fin_poll_ok2 l st = true -> peer_fin_poll_ok l st = true.
Proof.
  intros Hg [sc Hev]. unfold c17_peer_fin_guard_step in Hg. rewrite Hev in Hg.
  apply andb_true_iff in Hg. destruct Hg as [Hnp Hff]. apply negb_true_iff in Hnp.
  unfold peer_fin_poll_ok2. rewrite Hnp. unfold peer_fin_poll_body, peer_fin_poll_ok, oos_fin.
  cbv zeta. rewrite Hff.
  destruct l as [|h l']; [auto|].
  destruct (is_data_state _ && forallb _ (h :: l')); [|auto].
  intro H. repeat (apply andb_true_iff in H; destruct H as [H ?]).
  apply andb_true_iff in H0. destruct H0 as [Ha Hb].
  rewrite H, H3, Ha, Hb. reflexivity.
Qed.

Lemma peer_fin_scan_guarded : forall tr pending,
  forallb c17_peer_fin_guard_step tr = true ->
  peer_fin_scan_gen peer_fin_poll_ok2 tr pending = true ->
  peer_fin_scan_gen peer_fin_poll_ok tr pending = true.
Proof.
  induction tr as [|st r IH]; intros pending Hg H; [reflexivity|].
  cbn [forallb] in Hg. apply andb_true_iff in Hg. destruct Hg as [Hg1 Hg2].
  cbn [peer_fin_scan_gen] in *. destruct (fs_event st) eqn:Ev; try (apply IH; assumption).
  apply andb_true_iff in H. destruct H as [H1 H2]. apply andb_true_iff. split; [|apply IH; assumption].
  destruct pending as [l|]; [|reflexivity]. apply peer_fin_poll_ok_of2; eauto.
Qed.

Theorem c17_peer_fin_guarded_trace : forall mk c cfg (s0 : vsock) ops,
  C10_Pred.vconfig_ok c = true -> vsock_new cci mk c = Some s0 ->
  c17_peer_fin_guarded cfg (ftrace cci s0 ops) = true.
Proof.
  intros mk c cfg s0 ops Hc Hn. unfold c17_peer_fin_guarded.
  destruct (forallb c17_peer_fin_guard_step (ftrace cci s0 ops)) eqn:Hg; [|reflexivity].
  unfold c17_peer_fin_ok. rewrite peer_fin_scan_is_gen. apply peer_fin_scan_guarded; [exact Hg|].
  exact (c17_peer_fin_ok2_trace mk c cfg s0 ops Hc Hn).
Qed.

End WithCC.

(* ================================================================== witnesses *)
Definition tr_cfg (nagle : bool) (pmr rxb : Z) : vconfig :=
  {| vc_incoming := false; vc_ipv4 := true; vc_link_mtu := 1500; vc_rx_buf := rxb;
     vc_tx_init := 32768; vc_tx_max := 1048576; vc_nagle := nagle; vc_max_retx := 5;
     vc_inactivity := 10000000000; vc_wait_last_ack := true; vc_mtu_probe_max_retx := pmr;
     vc_isn := 100; vc_remote_seq := 1; vc_remote_conn_id := 7; vc_remote_wnd := 1048576;
     vc_remote_ts := 0; vc_syn_sent := 1000000000; vc_now0 := 1000000000 |}.

Definition tr_msg (t : ptype) (seq ack : Z) (pl : list Z) : msg :=
  {| m_hdr := {| ch_type := t; ch_conn_id := 0; ch_ts := 6; ch_ts_diff := 0; ch_wnd := 1048576;
                 ch_seq := seq; ch_ack := ack; ch_sack := None; ch_close_reason := None |};
     m_payload := pl |}.

Definition tr_run (cfg : vconfig) (ops : list vop) : list fstep :=
  match vsock_new (fixed_cc 4096) (fun _ _ => tt) cfg with
  | Some s0 => ftrace (fixed_cc 4096) s0 ops
  | None => []
  end.

(* ---- D6 (found by this proof effort, confirmed on the real code, repaired in /repo 4d912d4 + f62adfc).  An MTU
   probe given up AFTER our FIN was numbered - popped because it expired (first form) or because the path
   answered EMSGSIZE to its retransmission by the new-data loop (second form) - was cut again and its second
   part took the FIN's sequence number: an ST_DATA with the FIN's number on the wire (Nagle off), or, with
   the default options, the last bytes never sent and Ready(Ok) after the peer acknowledged the FIN.
   Repairs: the expiry flag handed to pop_expired_mtu_probe is off once our FIN is numbered, and
   unsent_data_exists counts an undelivered MTU probe, so the FIN is not numbered behind a probe that may
   still be given up.  The four former witnesses are regressions: every predicate of C17 holds on them. *)
Definition d6_ops : list vop :=
  [VoWrite (repeat 7 1519); VoPoll []; VoDropReader; VoDropWriter; VoPoll []; VoSetNow 1400000000; VoPoll []].

Definition d6_loss_ops : list vop :=
  [VoWrite (repeat 7 1519); VoPoll []; VoDeliver (tr_msg ST_STATE 1 101 []); VoPoll [];
   VoDropReader; VoDropWriter; VoPoll [];
   VoSetNow 1200000000; VoPoll []; VoSetNow 1600000000; VoPoll [];
   VoDeliver (tr_msg ST_STATE 1 102 []); VoPoll [];
   VoDeliver (tr_msg ST_STATE 1 103 []); VoPoll []].

Definition d6e_ops (lim : Z) : list vop :=
  [VoWrite (repeat 7 1519); VoPoll []; VoDropReader; VoDropWriter; VoPoll []; VoSetLimit (Some lim);
   VoSetNow 1400000000; VoPoll []; VoDeliver (tr_msg ST_STATE 1 101 []); VoPoll []].

Definition d6e_loss_ops : list vop :=
  d6e_ops 1000 ++ [VoDeliver (tr_msg ST_STATE 1 102 []); VoPoll []; VoDeliver (tr_msg ST_STATE 1 103 []); VoPoll []].

Definition d6_reg (cfg : vconfig) (ops : list vop) : bool :=
  let tr := tr_run cfg ops in
  C10_Pred.vconfig_ok cfg && negb (match tr with [] => true | _ => false end) &&
  c17_fin_seq_ok cfg tr && forallb (c17_fin_covers_data_ok cfg) tr &&
  forallb (c17_fin_number_step_ok cfg) tr && forallb (c17_fin_after_data_noerr cfg) tr &&
  c17_fin_same_ok cfg tr &&
  (* no ST_DATA of the trace carries the number of an ST_FIN of the trace *)
  forallb (fun p => negb (pkt_is ST_DATA p) ||
                    negb (existsb (fun q => pkt_is ST_FIN q && (pkt_seq q =? pkt_seq p)) (all_pkts tr)))
          (all_pkts tr).

Definition d6_regression_b : bool :=
  d6_reg (tr_cfg false 0 1048576) d6_ops && d6_reg (tr_cfg false 1 1048576) (d6e_ops 548).

Theorem c17_fin_seq_regression : d6_regression_b = true.
Proof. vm_compute. reflexivity. Qed.

Definition d6_loss_regression_b : bool :=
  d6_reg (tr_cfg true 1 1048576) d6_loss_ops && d6_reg (tr_cfg true 1 1048576) d6e_loss_ops.

Theorem c17_fin_covers_data_regression : d6_loss_regression_b = true.
Proof. vm_compute. reflexivity. Qed.

(* ---- c17_peer_fin_ok as written is FALSE of the model: a receive buffer of 2000 bytes; two ST_DATA of 1500
   bytes: the first is handed to the reader's queue, the second is consumed but cannot be (500 bytes free);
   the reader reads 1500 bytes; an out-of-sequence FIN arrives; the next poll drops it AND flushes the
   waiting 1500 bytes: f_rx_qbytes goes 0 -> 1500, f_rx_len 1 -> 0.  The corrected form holds. *)
Definition pf_ops : list vop :=
  [VoDeliver (tr_msg ST_DATA 1 100 (repeat 5 1500)); VoPoll [];
   VoDeliver (tr_msg ST_DATA 2 100 (repeat 5 1500)); VoPoll [];
   VoRead 1500; VoDeliver (tr_msg ST_FIN 10 100 []); VoPoll []].

Definition pf_refuted_b : bool :=
  let cfg := tr_cfg true 1 2000 in
  let tr := tr_run cfg pf_ops in
  negb (c17_peer_fin_ok cfg tr) && C10_Pred.vconfig_ok cfg && c17_peer_fin_ok2 cfg tr &&
  negb (forallb c17_peer_fin_guard_step tr) &&
  match rev tr with
  | st :: _ => (f_rx_qbytes (fs_pre st) =? 0) && (f_rx_qbytes (fs_post st) =? 1500) &&
               (f_rx_ff (fs_pre st) =? 1) && (f_rx_len (fs_pre st) =? 1) && (f_rx_len (fs_post st) =? 0) &&
               (f_last_consumed (fs_post st) =? 2)
  | [] => false
  end.

Theorem c17_peer_fin_refuted_shape : pf_refuted_b = true.
Proof. vm_compute. reflexivity. Qed.

Theorem c17_peer_fin_ok_refuted :
  exists cfg ops s0,
    C10_Pred.vconfig_ok cfg = true /\
    vsock_new (fixed_cc 4096) (fun _ _ => tt) cfg = Some s0 /\
    c17_peer_fin_ok cfg (ftrace (fixed_cc 4096) s0 ops) = false.
Proof.
  exists (tr_cfg true 1 2000), pf_ops.
  destruct (vsock_new (fixed_cc 4096) (fun _ _ => tt) (tr_cfg true 1 2000)) as [s0|] eqn:E;
    [|vm_compute in E; discriminate].
  exists s0. split; [reflexivity|]. split; [reflexivity|].
  pose proof c17_peer_fin_refuted_shape as H. unfold pf_refuted_b, tr_run in H. cbv zeta in H. rewrite E in H.
  repeat (apply andb_true_iff in H; destruct H as [H _]).
  apply negb_true_iff in H. exact H.
Qed.

(* the guard of c17_peer_fin_guarded is met by a reachable trace on which both clauses are engaged: an
   out-of-sequence FIN, then the FIN in sequence (LastAck 101 1, acknowledged at once) *)
Definition pf_guard_b : bool :=
  let cfg := tr_cfg true 1 1048576 in
  let tr := tr_run cfg [VoDeliver (tr_msg ST_FIN 10 100 []); VoPoll [];
                        VoDeliver (tr_msg ST_FIN 1 100 []); VoPoll []] in
  forallb c17_peer_fin_guard_step tr && c17_peer_fin_ok cfg tr && c17_peer_fin_ok2 cfg tr &&
  match rev tr with
  | st :: _ => match f_state (fs_post st), fs_result st with
               | LastAck 101 1, FrPoll PollPending (p :: _) _ _ => pkt_ack p =? 1
               | _, _ => false
               end
  | [] => false
  end.

Example c17_peer_fin_guard_satisfiable : pf_guard_b = true.
Proof. vm_compute. reflexivity. Qed.
