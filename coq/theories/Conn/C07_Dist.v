(* C07 — the exact form of the monitored precondition c07_pre: in every reachable state the modular
   distance of last_consumed_remote_seq_nr from last_sent_ack_nr is some k with k <= consumed_but_unacked_bytes
   and k >= 1 when that counter is positive (unless the counter is usize::MAX: ACK forced).
   [sa]: the sending path leaves last_consumed and the receive half alone and either leaves
   (last_sent_ack_nr, consumed_but_unacked_bytes) alone or sets them to (last_consumed, 0): every packet
   carries the current ack number.
   [DI]: the invariant (with Rx/Rx_NoEof.ne), through every function of poll_body and every event. *)
From Utp Require Import Base.Prelude Wire.SeqNr Wire.SeqNr_Proofs Wire.Header Rtt.Rtte Mtu.SegSizes
  Rx.Rx Rx.Rx_Proofs Rx.Rx_NoEof Tx.Ring Tx.Segments Conn.Recovery Conn.Msg Conn.VSockRec Conn.VSock
  Conn.VSockRun Conn.VObs Conn.VSock_LemmasTx Conn.VSock_LemmasIn Conn.VSock_Lemmas Conn.VSock_LemmasStep
  Conn.VSock_LemmasReach Conn.VSock_LemmasTimers Conn.VSock_LemmasPipe
  Conn.C07_Pred Conn.C07_Proofs Conn.C07_Pred2 Conn.C07_Step.

Section WithCC.
Context {CC : Type} (cci : cc_iface CC).
Notation vsock := (vsock CC).

(* ------------------------------------------------------------------ sa: the sending path *)
Definition sa (s s' : vsock) : Prop :=
  v_last_consumed s' = v_last_consumed s /\ v_rx s' = v_rx s /\
  ((v_last_sent_ack_nr s' = v_last_sent_ack_nr s /\ v_cbu s' = v_cbu s) \/
   (v_last_sent_ack_nr s' = v_last_consumed s /\ v_cbu s' = 0)).

Lemma sa_refl : forall s, sa s s.
Proof. intros s. unfold sa. repeat split. left. split; reflexivity. Qed.

Lemma sa_trans : forall a b c, sa a b -> sa b c -> sa a c.
Proof.
  intros a b c (A1 & A2 & A3) (B1 & B2 & B3). unfold sa.
  split; [congruence|]. split; [congruence|].
  destruct B3 as [[B3 B4]|[B3 B4]].
  - destruct A3 as [[A3 A4]|[A3 A4]]; [left | right]; split; congruence.
  - right. split; congruence.
Qed.

Lemma sa_same : forall s a b : vsock, sa s a ->
  v_last_consumed b = v_last_consumed a -> v_rx b = v_rx a ->
  v_last_sent_ack_nr b = v_last_sent_ack_nr a -> v_cbu b = v_cbu a -> sa s b.
Proof.
  intros s a b (A1 & A2 & A3) B1 B2 B3 B4. unfold sa.
  split; [congruence|]. split; [congruence|].
  destruct A3 as [[A3 A4]|[A3 A4]]; [left | right]; split; congruence.
Qed.

Notation sts := (stR sa).

Ltac sa_leaf := match goal with |- sa ?a _ => apply (sa_same a a); [apply sa_refl | exact eq_refl ..] end.
Ltac sa_via H := eapply sa_same; [exact H | exact eq_refl ..].

(* sbind where the continuation may use what the first part kept *)
Lemma sa_sbind : forall A B (m : step A) (f : vsock -> A -> step B) s,
  sts s m -> (forall s1 a, sa s s1 -> sts s1 (f s1 a)) -> sts s (sbind m f).
Proof.
  intros A B m f s Hm Hf. destruct m as [s1 a|s1 e|]; cbn [sbind stR] in *; auto.
  specialize (Hf s1 a Hm). destruct (f s1 a); cbn [stR] in *; auto; eapply sa_trans; eauto.
Qed.

Lemma next_send_sa : forall (s : vsock) n s1 o, next_send s n = (s1, o) -> sa s s1.
Proof.
  intros s n s1 o H. unfold next_send in H.
  repeat break_match_hyp H; inversion H; subst; try inversion Heqp; subst; sa_leaf.
Qed.

Lemma sa_emit_sent : forall (s s1 : vsock) p h,
  sa s s1 -> ch_ack h = v_last_consumed s -> sa s (on_packet_sent (emit s1 p) h).
Proof.
  intros s s1 p h (A1 & A2 & _) Hh. unfold sa, on_packet_sent, emit. vsimpl_goal.
  split; [exact A1|]. split; [exact A2|]. right. split; [exact Hh | reflexivity].
Qed.

Lemma send_control_packet_sa : forall (s : vsock) h,
  ch_ack h = v_last_consumed s -> sts s (send_control_packet s h).
Proof.
  intros s h Hh. unfold send_control_packet.
  destruct (v_transport_pending s); [apply sa_refl|].
  destruct (next_send s _) as [s1 o] eqn:E. apply next_send_sa in E.
  destruct o; cbn [stR]; auto. apply sa_emit_sent; assumption.
Qed.

Lemma send_ack_sa : forall (s : vsock), sts s (send_ack s).
Proof. intros s. unfold send_ack. apply send_control_packet_sa. reflexivity. Qed.

Lemma maybe_send_fin_sa : forall (s : vsock), sts s (maybe_send_fin s).
Proof.
  intros s. unfold maybe_send_fin.
  destruct (v_transport_pending s); [apply sa_refl|].
  destruct (our_fin_if_unacked (v_state s)); [|apply sa_refl].
  destruct (negb _); [apply sa_refl|].
  apply (stR_sbind sa sa_trans); [apply send_control_packet_sa; reflexivity|].
  intros s1 [|]; cbn [stR]; [sa_leaf | apply sa_refl].
Qed.

Lemma send_data_sa : forall (s : vsock) h f,
  ch_ack h = v_last_consumed s -> sts s (send_data s h f).
Proof.
  intros s h f Hh. unfold send_data.
  destruct (_ =? o_max_retx _); [apply sa_refl|].
  destruct (_ <? 0); [exact I|].
  destruct (_ <? fs_payload_offset f); [apply sa_refl|].
  destruct (_ <? _ + _); [apply sa_refl|].
  destruct (next_send s _) as [s1 o] eqn:E. apply next_send_sa in E.
  destruct o; cbn [stR]; auto; try (sa_via E).
  match goal with |- context [emit s1 ?p] =>
    match goal with |- context [on_packet_sent _ ?hd] =>
      pose proof (sa_emit_sent s s1 p hd E Hh) as F end end.
  destruct (seq_gt _ _); try destruct (seq_gt _ _); exact F.
Qed.

Lemma on_rto_reactions_sa : forall (s s1 : vsock), on_rto_reactions cci s = Some s1 -> sa s s1.
Proof.
  intros s s1 H. unfold on_rto_reactions in H.
  destruct (Rtte.on_rto_timeout _); inversion H; subst. sa_leaf.
Qed.

Lemma sa_lc : forall (s s1 : vsock) h, sa s s1 -> ch_ack h = v_last_consumed s -> ch_ack h = v_last_consumed s1.
Proof. intros s s1 h (A1 & _) H. congruence. Qed.

Lemma recovery_loop_sa : forall items (s : vsock) h mss0 st,
  ch_ack h = v_last_consumed s -> sts s (recovery_loop items s h mss0 st).
Proof.
  induction items as [|f rest IH]; intros s h mss0 st Hh; cbn [recovery_loop].
  - apply sa_refl.
  - destruct (negb _); [apply sa_refl|].
    destruct (_ && negb (sg_lost _)); [apply IH; exact Hh|].
    destruct (_ && negb (sg_sacks_after _)); [apply sa_refl|].
    pose proof (send_data_sa s h f Hh) as F.
    destruct (send_data s h f) as [s1 r|s1 e|]; cbn [stR] in *; auto.
    destruct r; cbn [stR]; auto.
    eapply (stR_weaken sa sa_trans); [exact F | apply IH; eapply sa_lc; eassumption].
Qed.

Lemma new_data_loop_sa : forall items (s : vsock) h remaining,
  ch_ack h = v_last_consumed s -> sts s (new_data_loop items s h remaining).
Proof.
  induction items as [|f rest IH]; intros s h remaining Hh; cbn [new_data_loop].
  - apply sa_refl.
  - destruct (_ <? _); [apply sa_refl|].
    pose proof (send_data_sa s h f Hh) as F.
    destruct (send_data s h f) as [s1 r|s1 e|]; cbn [stR] in *; auto.
    destruct r; cbn [stR]; auto.
    eapply (stR_weaken sa sa_trans); [exact F | apply IH; eapply sa_lc; eassumption].
Qed.

Lemma set_recovering_sa : forall (s : vsock) rc, sa s (set_recovering s rc).
Proof. intros. unfold set_recovering. sa_leaf. Qed.

Lemma send_tx_queue_sa : forall (s : vsock), sts s (send_tx_queue cci s).
Proof.
  intros s. unfold send_tx_queue.
  destruct (v_transport_pending s); [apply sa_refl|].
  assert (Hh : ch_ack (outgoing_header s) = v_last_consumed s) by reflexivity.
  apply sa_sbind.
  - destruct (timer_expired _ _); [|apply sa_refl].
    destruct (iter_for_sending _ _) as [|f l].
    + destruct (our_fin_if_unacked _); [|cbn [stR]; sa_leaf].
      destruct (_ =? _); [|cbn [stR]; sa_leaf].
      apply (stR_weaken sa sa_trans) with (s := set_last_sent_seq_nr s (wsub16 (v_last_sent_seq_nr s) 1));
        [sa_leaf|].
      apply (stR_sbind sa sa_trans); [apply maybe_send_fin_sa|].
      intros s1 a. destruct a; [|apply sa_refl].
      destruct (on_rto_reactions cci s1) eqn:E; [|exact I]. apply on_rto_reactions_sa in E.
      cbn [stR]. sa_via E.
    + pose proof (send_data_sa s (outgoing_header s) f Hh) as Hd.
      destruct (send_data _ _ f) as [s1 r|s1 e|]; cbn [stR] in *; auto.
      destruct r; cbn [stR]; auto.
      cbv zeta.
      match goal with |- stR _ _ (match ?o with _ => _ end) => destruct o as [s2|] eqn:E end; [|exact I].
      assert (F2 : sa s1 s2).
      { destruct (negb _); [apply on_rto_reactions_sa; exact E|injection E as <-; apply sa_refl]. }
      cbn [stR]. pose proof (sa_trans _ _ _ Hd F2) as F3. sa_via F3.
  - intros s1 ret S1. destruct ret; [apply sa_refl|].
    destruct (0 <? _); [apply sa_refl|]. destruct (ss_segs _); [apply sa_refl|].
    pose proof (sa_lc _ _ _ S1 Hh) as Hh1.
    apply sa_sbind.
    + destruct (rv_phase _); try apply sa_refl.
      apply (stR_sbind sa sa_trans); [apply recovery_loop_sa; exact Hh1|].
      intros s2 [st early]. cbv beta iota zeta.
      destruct early; [apply set_recovering_sa|].
      match goal with |- stR _ _ (match our_fin_if_unacked (v_state ?y) with _ => _ end) =>
        assert (F3 : sa s2 y); [|revert F3; generalize y; intros sy F3] end.
      { eapply sa_trans; [apply set_recovering_sa|].
        destruct (_ <? _); [|apply sa_refl]. destruct (rc_recalc _); [sa_leaf|].
        destruct (0 <? _); [sa_leaf|apply sa_refl]. }
      destruct (our_fin_if_unacked _); [destruct (_ =? _)|]; cbn [stR]; auto.
    + intros s2 ret S2. destruct ret; [apply sa_refl|].
      apply (stR_sbind sa sa_trans); [apply new_data_loop_sa; eapply sa_lc; eassumption|].
      intros s3 tl. destruct tl as [[sq sz]|]; [|apply sa_refl].
      destruct (pop_mtu_probe _ _) as [segs' popped]. destruct popped; cbn [stR]; [sa_leaf|apply sa_refl].
Qed.

Lemma maybe_send_ack_sa : forall (s : vsock), sts s (maybe_send_ack s).
Proof.
  intros s. unfold maybe_send_ack.
  pose proof (send_ack_sa s) as G.
  destruct (immediate_ack_to_transmit s); [exact G|].
  destruct (should_send_window_update s); [exact G|].
  destruct (timer_expired _ _).
  - destruct (ack_to_transmit s); [exact G|]. cbn [stR]. sa_leaf.
  - destruct (0 <? v_cbu s); cbn [stR]; sa_leaf.
Qed.

Lemma maybe_send_syn_ack_sa : forall (s : vsock), sts s (maybe_send_syn_ack s).
Proof. apply (maybe_send_syn_ack_by sa sa_refl sa_trans send_ack_sa); intros; sa_leaf. Qed.

Lemma transition_to_fin_wait_1_sa : forall (s : vsock), sa s (transition_to_fin_wait_1 s).
Proof. intros s. unfold transition_to_fin_wait_1. destruct (v_state s); first [apply sa_refl | sa_leaf]. Qed.

Lemma split_tx_queue_into_segments_sa : forall (s : vsock), sts s (split_tx_queue_into_segments cci s).
Proof.
  apply (split_tx_queue_into_segments_R cci sa sa_refl sa_trans); intros;
    unfold probe_given_up, add_wakes; try destruct (seq_gt _ _); sa_leaf.
Qed.

Lemma paim_rest_sa : forall (s1 : vsock) r, sts s1 (paim_rest s1 r).
Proof.
  intros s1 r. unfold paim_rest.
  match goal with |- stR sa s1 (sbind ?m _) =>
    match m with context [acked_counts_as_sent ?x] => set (s2 := x) end end.
  assert (F2 : sa s1 s2).
  { subst s2. unfold restart_remote_inactivity_timer. repeat break_match; first [apply sa_refl | sa_leaf]. }
  clearbody s2.
  apply (stR_weaken sa sa_trans) with (s := s2); [exact F2|].
  apply (stR_sbind sa sa_trans).
  - destruct (0 <? _); [|apply sa_refl].
    assert (F2' : sa s2 (acked_counts_as_sent s2)).
    { unfold acked_counts_as_sent. destruct (seq_gt _ _ && seq_lt _ _); [sa_leaf | apply sa_refl]. }
    apply (stR_weaken sa sa_trans) with (s := acked_counts_as_sent s2); [exact F2'|].
    generalize (acked_counts_as_sent s2). intro s2'.
    destruct (truncate_front _ _) as [tx1 tr].
    destruct tr; [|cbn [stR]; sa_leaf].
    destruct (wake_writer tx1) as [tx2 w]. cbn [stR]. unfold add_wakes. sa_leaf.
  - intros s3 _. unfold set_recovering. repeat break_match; cbn [stR]; first [exact I | apply sa_refl | sa_leaf].
Qed.

(* ------------------------------------------------------------------ the invariant *)
Definition rng (x : Z) : Prop := 0 <= x < M16.

Definition dist (s : vsock) : Prop :=
  rng (v_last_consumed s) /\ rng (v_last_sent_ack_nr s) /\
  (v_cbu s < USIZE_MAX ->
   exists k, 0 <= k <= v_cbu s /\ (0 < v_cbu s -> 1 <= k) /\
             (v_last_consumed s - v_last_sent_ack_nr s - k) mod M16 = 0).

Definition DI (s : vsock) : Prop := ne (v_rx s) /\ dist s.

Lemma sa_DI (s s' : vsock) : sa s s' -> DI s -> DI s'.
Proof.
  intros (A1 & A2 & A3) (Hn & R1 & R2 & K). unfold DI, dist. rewrite A1, A2.
  split; [exact Hn|]. split; [exact R1|].
  destruct A3 as [[A3 A4]|[A3 A4]]; rewrite A3, A4.
  - split; [exact R2 | exact K].
  - split; [exact R1|]. intros _. exists 0. split; [lia|]. split; [lia|].
    replace (v_last_consumed s - v_last_consumed s - 0) with 0 by lia. reflexivity.
Qed.

Lemma sts_DI X (s : vsock) (m : step X) : sts s m -> DI s -> stU DI m.
Proof. intros K H. destruct m; cbn [stR stU] in *; auto. eapply sa_DI; eassumption. Qed.

(* a forced ACK: only the ranges matter *)
Lemma DI_forced (s : vsock) : ne (v_rx s) -> rng (v_last_consumed s) -> rng (v_last_sent_ack_nr s) ->
  v_cbu s = USIZE_MAX -> DI s.
Proof. intros Hn R1 R2 C. split; [exact Hn|]. split; [exact R1|]. split; [exact R2|]. lia. Qed.

(* ---- incoming messages ---- *)
Lemma state_table_sa : forall (s : vsock) h,
  match state_table s h with TblDrop s1 | TblErr s1 _ | TblContinue s1 => sa s s1 end.
Proof. apply (state_table_R sa sa_refl sa_trans); intros; sa_leaf. Qed.

(* a FIN that gets through while the peer's FIN has not been seen is in sequence *)
Lemma state_table_fin_in_seq : forall (s s1 : vsock) h,
  state_table s h = TblContinue s1 -> ch_type h = ST_FIN -> is_remote_fin_or_later (v_state s) = false ->
  ch_seq h = wadd16 (v_last_consumed s) 1.
Proof.
  intros s s1 h H Ht Hs. unfold state_table in H. rewrite Ht in H.
  destruct (v_state s); try discriminate; cbn [negb] in H;
    repeat match type of H with context [if ?c then _ else _] => destruct c eqn:? end;
    try discriminate;
    match goal with E : negb (ch_seq h =? _) = false |- _ =>
      rewrite negb_false_iff in E; apply Z.eqb_eq in E; exact E end.
Qed.

Lemma pim_ack_sa (s1 : vsock) h s2 res : pim_ack cci s1 h = Some (s2, res) -> sa s1 s2.
Proof.
  unfold pim_ack. destruct (remove_up_to_ack _ _ _ _) as [segs1 res0].
  destruct (match is_recovering (v_recovery s1) with true => _ | false => _ end) as [rtte1|]; [|discriminate].
  destruct (cc_on_ack cci _ _ _ _) as [cc3|]; [|discriminate].
  destruct (recovery_on_ack cci _ _ _ _ _ _ _) as [[[rec1 segs2] cc4]|]; [|discriminate].
  intro H; injection H as <- _. sa_leaf.
Qed.

Lemma seq_sub_self x : seq_sub x x = 0.
Proof. unfold seq_sub, seq_nr_offset. rewrite Z.ltb_irrefl, Z.eqb_refl. reflexivity. Qed.

Lemma wadd16_rng a b : rng (wadd16 a b).
Proof. unfold rng, wadd16, M16. lia. Qed.

Lemma pim_data_DI (s2 : vsock) m res offset : DI s2 -> stU DI (pim_data cci s2 m res offset).
Proof.
  intros (Hn & R1 & R2 & K). unfold pim_data. destruct (offset <? 0) eqn:Eo.
  { cbn [stU]. apply DI_forced; try assumption. reflexivity. }
  cbv zeta.
  destruct (rx_add_remove _ KData (m_payload m) offset) as [[rx1 ar] w] eqn:Ea.
  cbn [v_rx set_cc set_ss] in Ea.
  assert (Ho : 0 <= offset) by lia.
  destruct (rx_add_data_ne _ _ _ _ _ _ Hn Ho Ea) as [Hn1 Hc].
  destruct ar as [a|]; [|exact I]. destruct (add_err a); [exact I|].
  match goal with |- context [send_ack (force_immediate_ack ?x)] => set (s5 := x) end.
  assert (D5 : DI s5).
  { subst s5. destruct a; try (split; [exact Hn1 | split; [exact R1 | split; [exact R2 | exact K]]]).
    destruct (Hc _ _ eq_refl) as [Hnb Hz]. unfold restart_remote_inactivity_timer, add_wakes.
    split; [exact Hn1|]. unfold dist. vsimpl_goal.
    split; [apply wadd16_rng|]. split; [exact R2|].
    unfold sat_add_usize. intro Hlt.
    destruct K as (k & K1 & K2 & K3); [lia|].
    exists (k + sequence_numbers). split; [lia|]. split; [lia|].
    unfold wadd16, M16 in *. lia. }
  clearbody s5.
  destruct (_ || _); [|exact D5].
  apply stU_sbind.
  - apply (sts_DI _ (force_immediate_ack s5)); [apply send_ack_sa|].
    destruct D5 as (Hn5 & R15 & R25 & _). apply DI_forced; try assumption. reflexivity.
  - intros s6 _ D6. exact D6.
Qed.

Lemma pim_fin_DI (s2 : vsock) m res offset seen :
  DI s2 ->
  (seen = false -> ch_seq (m_hdr m) = wadd16 (v_last_consumed s2) 1) ->
  offset = seq_sub (ch_seq (m_hdr m)) (wadd16 (v_last_consumed s2) 1) ->
  stU DI (pim_fin s2 m res offset seen).
Proof.
  intros (Hn & R1 & R2 & K) Hs Ho. unfold pim_fin. cbv zeta.
  destruct seen; cbn [negb andb].
  { cbn [stU]. apply DI_forced; try assumption. reflexivity. }
  specialize (Hs eq_refl). rewrite Hs in Ho. rewrite seq_sub_self in Ho. subst offset. cbn [Z.leb Z.compare].
  destruct (rx_add_remove _ KFin (m_payload m) 0) as [[rx1 ar] w] eqn:Ea.
  cbn [v_rx set_last_consumed force_immediate_ack set_cbu] in Ea.
  pose proof (rx_add_fin_ne _ _ _ _ _ Hn Ea) as Hn1.
  destruct ar as [a|]; [|exact I]. destruct (add_err a); [exact I|].
  destruct (mark_vsock_closed _) as [tx1 w2]. cbn [stU]. unfold add_wakes, force_immediate_ack.
  apply DI_forced; vsimpl_goal; try assumption; try reflexivity. rewrite Hs. apply wadd16_rng.
Qed.

Lemma process_incoming_message_DI (s : vsock) m : DI s -> stU DI (process_incoming_message cci s m).
Proof.
  intros H. rewrite process_incoming_message_eq.
  pose proof (state_table_sa s (m_hdr m)) as T.
  destruct (state_table s (m_hdr m)) as [s1|s1 e|s1] eqn:Es; cbn [stU]; auto.
  - eapply sa_DI; eassumption.
  - pose proof (sa_DI _ _ T H) as D1. unfold pim_cont.
    destruct (pim_ack cci s1 (m_hdr m)) as [[s2 res]|] eqn:Ea; [|exact I].
    pose proof (pim_ack_sa _ _ _ _ Ea) as S2. pose proof (sa_DI _ _ S2 D1) as D2.
    cbv zeta. destruct (ch_type (m_hdr m)) eqn:Et.
    + apply pim_data_DI. exact D2.
    + apply pim_fin_DI; [exact D2 | | reflexivity].
      intro Hseen. destruct S2 as (L2 & _). destruct T as (L1 & _). rewrite L2, L1.
      eapply state_table_fin_in_seq; eassumption.
    + exact D2.
    + exact D2.
    + exact D2.
Qed.

Lemma recv_loop_DI : forall fuel (s : vsock) acc, DI s -> stU DI (recv_loop cci fuel s acc).
Proof.
  apply recv_loop_stU.
  1-3: intros s x H; eapply sa_DI; [|exact H]; sa_leaf.
  - intros s H. eapply sa_DI; [apply transition_to_fin_wait_1_sa | exact H].
  - intros s H. apply (sts_DI _ s); [apply maybe_send_fin_sa | exact H].
  - intros s m. apply process_incoming_message_DI.
Qed.

Lemma paim_DI (s : vsock) : DI s -> stU DI (process_all_incoming_messages cci s).
Proof.
  intro H. rewrite paim_eq. apply stU_sbind; [apply recv_loop_DI; exact H|].
  intros s1 res H1. apply (sts_DI _ s1); [apply paim_rest_sa | exact H1].
Qed.

(* ------------------------------------------------------------------ polls and events *)
Definition RD (a b : vsock) : Prop := DI a -> DI b.

Lemma sts_RDk X (s : vsock) (m : step X) : sts s m -> stRk RD s m.
Proof. intros K. destruct m; cbn [stR stRk] in *; auto. intro H. eapply sa_DI; eassumption. Qed.

Lemma poll_tail_sa (s : vsock) : sa s (poll_tail s).
Proof.
  destruct (poll_tail_fields s) as (F1 & _ & F3 & _ & _ & _ & _ & F8 & F9 & _).
  unfold sa. split; [exact F8|]. split; [exact F3|]. left. split; [exact F9 | exact F1].
Qed.

Theorem DI_poll_pending (s s' : vsock) : DI s -> poll cci s = (s', PollPending) -> DI s'.
Proof.
  intros Hs H.
  assert (P : pend_shape RD (poll_init s) s').
  { apply (poll_Rp cci RD); try exact H.
    - intros a K. exact K.
    - intros a b c F G K. auto.
    - intros a K. eapply sa_DI; [|exact K]. unfold poll_start. sa_leaf.
    - intro a. apply sts_RDk, maybe_send_syn_ack_sa.
    - intro a. apply sts_RDk, send_ack_sa.
    - intro a. pose proof (paim_DI a) as P.
      destruct (process_all_incoming_messages cci a) as [b u| |]; cbn [stRk stU] in *; auto.
    - intros a rx1 fb w E (Hn & Hd). split; [|exact Hd].
      unfold add_wakes. vsimpl_goal. eapply rx_flush_ne; eassumption.
    - intro a. apply sts_RDk, split_tx_queue_into_segments_sa.
    - intro a. apply sts_RDk, send_tx_queue_sa.
    - intros a K. eapply sa_DI; [apply transition_to_fin_wait_1_sa | exact K].
    - intro a. apply sts_RDk, maybe_send_fin_sa.
    - intro a. apply sts_RDk, maybe_send_ack_sa. }
  assert (H0 : DI (poll_init s)) by exact Hs.
  destruct P as [[_ P]|(sa0 & sb & b & P1 & _ & P2 & _ & _ & _ & ->)].
  - exact (P H0).
  - eapply sa_DI; [apply poll_tail_sa | exact (P2 (P1 H0))].
Qed.

Lemma DI_vstep_live (s : vsock) o :
  DI s -> poll_finished (vstep_out cci s o) = false -> DI (vstep_state cci s o).
Proof.
  intros Hs F. unfold vstep_state. destruct o; cbn [vstep].
  - exact Hs.
  - exact Hs.
  - destruct (poll cci (VSockRec.set_sends s script)) as [s' r] eqn:E. cbn [fst].
    destruct (vstep_poll cci s script s' _ E) as [_ Eo]. rewrite Eo in F.
    destruct r; try discriminate. eapply DI_poll_pending; [|exact E]. exact Hs.
  - destruct (v_inbox_closed s); exact Hs.
  - exact Hs.
  - destruct (writer_dropped _); [exact Hs|]. destruct (poll_write _ _) as [[tx1 r] w]. exact Hs.
  - destruct (writer_dropped _); [exact Hs|]. destruct (poll_flush _) as [[tx1 r] w]. exact Hs.
  - destruct (writer_dropped _); [exact Hs|]. destruct (poll_shutdown _) as [[tx1 r] w]. exact Hs.
  - destruct (reader_dropped _); [exact Hs|]. destruct (rx_read _ _) as [[rx1 r] w] eqn:E. cbn [fst].
    destruct Hs as [Hn Hd]. split; [|exact Hd]. cbn [v_rx set_rx]. eapply rx_read_ne; eassumption.
  - destruct (reader_dropped _); [exact Hs|]. destruct (rx_drop_reader _) as [rx1 w] eqn:E. cbn [fst].
    destruct Hs as [Hn Hd]. split; [|exact Hd]. cbn [v_rx set_rx]. eapply rx_drop_reader_ne; eassumption.
  - destruct (drop_writer _) as [tx1 w]. exact Hs.
Qed.

Lemma DI_vsock_new : forall mk c (s : vsock),
  0 <= vc_remote_seq c < M16 -> vsock_new cci mk c = Some s -> DI s.
Proof.
  intros mk c s Hr H. unfold vsock_new in H.
  destruct (match (if vc_incoming c then None else _) with Some r => _ | None => _ end); [|discriminate].
  inversion H; subst. unfold DI, dist. cbn [v_rx v_last_consumed v_last_sent_ack_nr v_cbu].
  split; [apply ne_build|].
  assert (R : rng (if vc_incoming c then vc_remote_seq c else wsub16 (vc_remote_seq c) 1)).
  { destruct (vc_incoming c); [exact Hr | unfold rng, wsub16, M16; lia]. }
  split; [exact R|]. split; [exact R|]. intros _. exists 0. split; [lia|]. split; [lia|].
  match goal with |- (?a - ?a - 0) mod _ = 0 => replace (a - a - 0) with 0 by lia end. reflexivity.
Qed.

(* ------------------------------------------------------------------ the predicates *)
Lemma c07_live_spec (s : vsock) o : c07_live (fstep_of cci s o) = negb (poll_finished (vstep_out cci s o)).
Proof.
  unfold c07_live. rewrite fstep_of_result. destruct (vstep_out cci s o) as [|r pk w a| | |rr]; try reflexivity.
  - destruct r; reflexivity.
  - destruct rr; reflexivity.
Qed.

Theorem c07_dist_ok_step : forall cfg (s : vsock) o, DI s -> c07_dist_ok cfg (fstep_of cci s o) = true.
Proof.
  intros cfg s o Hs. unfold c07_dist_ok. cbv zeta. rewrite c07_live_spec.
  destruct (poll_finished (vstep_out cci s o)) eqn:F; [reflexivity|]. cbn [negb andb].
  pose proof (DI_vstep_live s o Hs F) as (_ & R1 & R2 & K).
  rewrite fstep_of_post. cbn [fp_of_vsock f_cbu f_last_consumed f_last_sent_ack_nr].
  set (s' := vstep_state cci s o) in *. clearbody s'.
  destruct (Z.ltb_spec 0 (v_cbu s')) as [H0|H0]; [|reflexivity].
  destruct (Z.ltb_spec (v_cbu s') M16) as [H1|H1]; [|reflexivity]. cbn [andb].
  destruct K as (k & K1 & K2 & K3); [unfold USIZE_MAX, M64, M16 in *; lia|].
  specialize (K2 H0). unfold rng, wsub16, M16 in *. apply andb_true_intro. split; lia.
Qed.

Theorem c07_pre_monitor_g_step : forall cfg (s : vsock) o,
  DI s -> c07_pre_monitor_g cfg (fstep_of cci s o) = true.
Proof.
  intros cfg s o Hs. unfold c07_pre_monitor_g.
  destruct (c07_poll_done (fstep_of cci s o)) eqn:D; [|reflexivity]. cbn [andb].
  destruct (poll_done_step cci s o D) as (sc & s' & -> & E & T & _).
  rewrite (fstep_of_poll cci s sc s' _ E). unfold c07_pre.
  cbn [fs_post fp_of_vsock f_cbu f_last_consumed f_last_sent_ack_nr].
  pose proof (DI_poll_pending (VSockRec.set_sends s sc) s' Hs E) as (_ & R1 & R2 & K).
  destruct (Z.leb_spec (v_cbu s') WRAP_TOLERANCE) as [H1|H1]; [|reflexivity].
  destruct (Z.ltb_spec 0 (v_cbu s')) as [H0|H0]; [|reflexivity].
  destruct K as (k & K1 & K2 & K3); [unfold USIZE_MAX, M64, WRAP_TOLERANCE in *; lia|].
  specialize (K2 H0). unfold seq_gt, seq_sub.
  rewrite (offset_true_distance_pair _ _ WRAP_TOLERANCE k R1 R2); [lia | unfold WRAP_TOLERANCE; lia | lia | exact K3].
Qed.

Theorem c07_dist_ok_every_trace : forall (cfg : vconfig) mk c (s0 : vsock) ops,
  0 <= vc_remote_seq c < M16 -> vsock_new cci mk c = Some s0 ->
  forallb (c07_dist_ok cfg) (ftrace cci s0 ops) = true.
Proof.
  intros cfg mk c s0 ops Hr H. apply (ftrace_forallb_live cci DI).
  - intros s o K. apply c07_dist_ok_step; exact K.
  - apply DI_vstep_live.
  - eapply DI_vsock_new; eassumption.
Qed.

Theorem c07_pre_monitor_g_every_trace : forall (cfg : vconfig) mk c (s0 : vsock) ops,
  0 <= vc_remote_seq c < M16 -> vsock_new cci mk c = Some s0 ->
  forallb (c07_pre_monitor_g cfg) (ftrace cci s0 ops) = true.
Proof.
  intros cfg mk c s0 ops Hr H. apply (ftrace_forallb_live cci DI).
  - intros s o K. apply c07_pre_monitor_g_step; exact K.
  - apply DI_vstep_live.
  - eapply DI_vsock_new; eassumption.
Qed.

End WithCC.
