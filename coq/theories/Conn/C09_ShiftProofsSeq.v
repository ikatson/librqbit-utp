(* C09 trace shift, layer 0: sequence-number arithmetic under the relabelling sh16 d. *)
From Utp Require Import Base.Prelude Wire.SeqNr Wire.SeqNr_Proofs Wire.Header Tx.Segments
  Conn.Recovery Conn.Msg Conn.C09_Pred Conn.C09_Shift.

Lemma sh16_range d x : 0 <= sh16 d x < M16.
Proof. unfold sh16, M16. lia. Qed.

Lemma u16_ok_iff x : u16_ok x = true <-> 0 <= x < M16.
Proof. unfold u16_ok. lia. Qed.

Lemma u16_ok_sh16 d x : u16_ok (sh16 d x) = true.
Proof. apply u16_ok_iff, sh16_range. Qed.

Lemma u16_ok_wadd16 a b : u16_ok (wadd16 a b) = true.
Proof. apply u16_ok_iff. unfold wadd16, M16. lia. Qed.

Lemma u16_ok_wsub16 a b : u16_ok (wsub16 a b) = true.
Proof. apply u16_ok_iff. unfold wsub16, M16. lia. Qed.

Lemma sh16_wadd16 d x k : wadd16 (sh16 d x) k = sh16 d (wadd16 x k).
Proof. unfold wadd16, sh16, M16. lia. Qed.

Lemma sh16_wsub16 d x k : wsub16 (sh16 d x) k = sh16 d (wsub16 x k).
Proof. unfold wsub16, sh16, M16. lia. Qed.

Lemma sh16_eqb d a b : u16_ok a = true -> u16_ok b = true -> (sh16 d a =? sh16 d b) = (a =? b).
Proof.
  intros Ha%u16_ok_iff Hb%u16_ok_iff. unfold sh16, M16 in *.
  destruct (Z.eqb_spec a b) as [->|N]; [apply Z.eqb_refl|].
  apply Z.eqb_neq. lia.
Qed.

(* the tolerance test looks at the difference only, so it does not depend on the labelling *)
Lemma near_shift tol d x r : near tol (sh16 d x) (sh16 d r) = near tol x r.
Proof.
  unfold near, sh16. replace (((x + d) mod M16 - (r + d) mod M16) mod M16) with ((x - r) mod M16); [reflexivity|].
  unfold M16. lia.
Qed.

(* the guards themselves survive the relabelling *)
Lemma cmp_ok_shift d a b : cmp_ok a b = true -> cmp_ok (sh16 d a) (sh16 d b) = true.
Proof.
  unfold cmp_ok. intros H. apply andb_true_iff in H as [_ H].
  now rewrite !u16_ok_sh16, near_shift, H.
Qed.

Lemma eq_ok_shift d a b : eq_ok (sh16 d a) (sh16 d b) = true.
Proof. unfold eq_ok. now rewrite !u16_ok_sh16. Qed.

Lemma cmp_ok_parts a b : cmp_ok a b = true ->
  0 <= a < M16 /\ 0 <= b < M16 /\
  exists k, - WRAP_TOLERANCE <= k <= WRAP_TOLERANCE /\ (a - b - k) mod M16 = 0.
Proof.
  unfold cmp_ok, near. intros H.
  apply andb_true_iff in H as [H Hn]. apply andb_true_iff in H as [Ha%u16_ok_iff Hb%u16_ok_iff].
  split; [assumption|]. split; [assumption|].
  unfold WRAP_TOLERANCE, M16 in *.
  apply orb_true_iff in Hn as [Hn|Hn].
  - exists ((a - b) mod 65536). lia.
  - exists ((a - b) mod 65536 - 65536). lia.
Qed.

Lemma cmp_ok_seq_sub d a b : cmp_ok a b = true ->
  seq_sub (sh16 d a) (sh16 d b) = seq_sub a b.
Proof.
  intros H. destruct (cmp_ok_parts _ _ H) as (Ha & Hb & k & Hk & Hm).
  unfold seq_sub, sh16. apply (offset_shift a b d WRAP_TOLERANCE k); try assumption.
  unfold WRAP_TOLERANCE; lia.
Qed.

Lemma cmp_ok_seq_gt d a b : cmp_ok a b = true -> seq_gt (sh16 d a) (sh16 d b) = seq_gt a b.
Proof. intros H. unfold seq_gt. now rewrite cmp_ok_seq_sub. Qed.
Lemma cmp_ok_seq_ge d a b : cmp_ok a b = true -> seq_ge (sh16 d a) (sh16 d b) = seq_ge a b.
Proof. intros H. unfold seq_ge. now rewrite cmp_ok_seq_sub. Qed.
Lemma cmp_ok_seq_lt d a b : cmp_ok a b = true -> seq_lt (sh16 d a) (sh16 d b) = seq_lt a b.
Proof. intros H. unfold seq_lt. now rewrite cmp_ok_seq_sub. Qed.
Lemma cmp_ok_seq_le d a b : cmp_ok a b = true -> seq_le (sh16 d a) (sh16 d b) = seq_le a b.
Proof. intros H. unfold seq_le. now rewrite cmp_ok_seq_sub. Qed.

(* `seq_sub a b = 1` needs no tolerance: outside the tolerance the result is the plain integer
   difference, whose absolute value exceeds the tolerance *)
Lemma seq_sub_is1 a b : 0 <= a < M16 -> 0 <= b < M16 ->
  (seq_sub a b =? 1) = ((a - b - 1) mod M16 =? 0).
Proof.
  intros Ha Hb. unfold seq_sub, seq_nr_offset, wsub16, WRAP_TOLERANCE, M16 in *.
  destruct (Z.ltb_spec a b);
  [ destruct (Z.leb_spec ((a - b) mod 65536) 1024)
  | destruct (Z.eqb_spec a b);
    [ | destruct (Z.leb_spec ((b - a) mod 65536) 1024) ] ];
  match goal with |- (?x =? 1) = (?y =? 0) =>
    destruct (Z.eqb_spec x 1); destruct (Z.eqb_spec y 0); try reflexivity; exfalso; lia end.
Qed.

Lemma seq_sub_eq1_shift d a b : u16_ok a = true -> u16_ok b = true ->
  (seq_sub (sh16 d a) (sh16 d b) =? 1) = (seq_sub a b =? 1).
Proof.
  intros Ha%u16_ok_iff Hb%u16_ok_iff.
  rewrite !seq_sub_is1 by (try apply sh16_range; assumption).
  unfold sh16, M16 in *.
  destruct (Z.eqb_spec ((a - b - 1) mod 65536) 0); destruct (Z.eqb_spec (((a + d) mod 65536 - (b + d) mod 65536 - 1) mod 65536) 0);
    try reflexivity; exfalso; lia.
Qed.

Lemma cmp_ok_u16_l a b : cmp_ok a b = true -> u16_ok a = true.
Proof. unfold cmp_ok. intros H. apply andb_true_iff in H as [H _]. now apply andb_true_iff in H as [H _]. Qed.
Lemma cmp_ok_u16_r a b : cmp_ok a b = true -> u16_ok b = true.
Proof. unfold cmp_ok. intros H. apply andb_true_iff in H as [H _]. now apply andb_true_iff in H as [_ H]. Qed.

(* farther apart than the tolerance, with a below b: relabelling b to 0 gives the offset the other sign *)
Lemma seq_sub_shift_tight_lt a b : 0 <= a < b -> b < M16 ->
  WRAP_TOLERANCE < b - a < M16 - WRAP_TOLERANCE ->
  seq_sub (sh16 (M16 - b) a) (sh16 (M16 - b) b) <> seq_sub a b.
Proof.
  intros L Hb Hd.
  unfold seq_sub, seq_nr_offset, sh16, wsub16, WRAP_TOLERANCE, M16 in *.
  replace ((b + (65536 - b)) mod 65536) with 0 by lia.
  replace ((a + (65536 - b)) mod 65536) with (a - b + 65536) by lia.
  destruct (Z.ltb_spec (a - b + 65536) 0); [lia|].
  destruct (Z.eqb_spec (a - b + 65536) 0); [lia|].
  destruct (Z.ltb_spec a b); [|lia].
  destruct (Z.leb_spec ((0 - (a - b + 65536)) mod 65536) 1024); [lia|].
  destruct (Z.leb_spec ((a - b) mod 65536) 1024); lia.
Qed.

(* the atomic condition of the guard is tight: two u16 values farther apart than the tolerance are
   compared differently after a suitable relabelling *)
Lemma seq_sub_shift_tight a b : u16_ok a = true -> u16_ok b = true -> near WRAP_TOLERANCE a b = false ->
  exists d, seq_sub (sh16 d a) (sh16 d b) <> seq_sub a b.
Proof.
  intros Ha%u16_ok_iff Hb%u16_ok_iff Hn. unfold near in Hn. apply orb_false_iff in Hn as [H1 H2].
  apply Z.leb_gt in H1. apply Z.leb_gt in H2.
  destruct (Z.ltb_spec a b) as [L|L].
  - exists (M16 - b). apply seq_sub_shift_tight_lt; unfold WRAP_TOLERANCE, M16 in *; lia.
  - (* a above b: exchange the two, the offset being antisymmetric *)
    exists (M16 - a). intros E. apply (seq_sub_shift_tight_lt b a).
    1-3: unfold WRAP_TOLERANCE, M16 in *; lia.
    unfold seq_sub in *.
    rewrite (offset_antisym (sh16 (M16 - a) b)), (offset_antisym b), E
      by (try apply sh16_range; unfold WRAP_TOLERANCE; lia).
    reflexivity.
Qed.
