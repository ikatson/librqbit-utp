(* C14 at connection level — the step predicates c14_datagram_ok and c14_segments_ok of
   Conn/C14C08_Pred.v as THEOREMS about every step of the model and every trace from vsock_new.

   Plan.  Everything the predicates read is a function of [core s] = (size state, segment table,
   inbox, datagrams emitted).  Each function called by poll_body is summarised by a relation on
   the core:
     [sr]  the sending path: the table keeps its shape (on_sent), the size state and the inbox are
           untouched, the datagrams added carry at most C payload bytes;
     [gr]  send_tx_queue: [sr], then possibly the pop of the failed probe;
     [ir0]/[ir] incoming messages: a prefix of the table goes, segments get marked delivered,
           mss only grows and stays below max_ss, max_ss is fixed;
     split_tx_queue_into_segments is treated directly ([split_c14]).
   The invariant of every reachable state is [J0] (bounds of the size state, every segment at most
   C bytes, the only undelivered probe is the newest segment, the table ends at the offset); the
   per-poll part [St e] (e = the table's end before the poll) adds: segments cut at or beyond e are
   probes exactly when they exceed the proven size. *)
From Utp Require Import Base.Prelude Wire.SeqNr Wire.Header Rtt.Rtte Mtu.SegSizes Mtu.SegSizes_Proofs
  Rx.Rx Tx.Ring Tx.Segments Tx.Segments_Proofs Conn.Recovery Conn.Msg Conn.VSockRec Conn.VSock
  Conn.VSockRun Conn.VObs Conn.C10_Pred Conn.C05_Pred Conn.C14C08_Pred Conn.C14_Pred2 Conn.VSock_Lemmas Conn.VSock_LemmasStep
  Conn.VSock_LemmasTx Conn.C17_StepLemmas Conn.C17_Step Conn.VSock_Inv Conn.C10_Proofs Conn.C18_StepLemmas Conn.C18_StepRel Conn.C18_StepSplit Conn.C18_Step Conn.C14_StepLemmas.

Section WithCC.
Context {CC : Type} (cci : cc_iface CC).
Notation vsock := (vsock CC).

Section Bounds.
(* C = the payload ceiling, F = the protocol floor *)
Variables C F TB : Z.
Hypothesis HF : 1 <= F.

Definition core (s : vsock) : segsizes * segments * list msg * list packet * vopts :=
  (v_ss s, v_segs s, v_inbox s, v_out s, v_opts s).

(* TB = the length of the scratch buffer the header is serialised into (fixed at creation): a SACK
   extension is written only if it fits (fit_sack), and only control packets carry one *)
Definition tb (s : vsock) : Prop := o_tmp_buf_len (v_opts s) = TB.

Definition pktC (p : packet) : Prop :=
  Z.of_nat (length (p_payload p)) <= C /\
  (ch_sack (p_hdr p) = None \/ (p_payload p = [] /\ 30 <= TB)).
Definition outC (s : vsock) : Prop := tb s -> Forall pktC (v_out s).

(* ------------------------------------------------------------------ the sending path *)
Definition sr (s s' : vsock) : Prop :=
  v_ss s' = v_ss s /\ v_inbox s' = v_inbox s /\
  ss_offset (v_segs s') = ss_offset (v_segs s) /\
  sle (ss_segs (v_segs s')) (ss_segs (v_segs s)) /\
  (outC s -> outC s').

Lemma sr_refl : forall s, sr s s.
Proof. intro s. unfold sr. repeat split; auto using sle_refl. Qed.

Lemma sr_trans : forall a b c, sr a b -> sr b c -> sr a c.
Proof.
  unfold sr. intros a b c (A1 & A2 & A3 & A4 & A5) (B1 & B2 & B3 & B4 & B5).
  repeat split; try congruence; [eapply sle_trans; eauto|auto].
Qed.

Lemma sr_core : forall s a b, sr s a -> core b = core a -> sr s b.
Proof.
  unfold sr, core, outC, tb. intros s a b (A1 & A2 & A3 & A4 & A5) E. injection E as E1 E2 E3 E4 E5.
  rewrite E1, E2, E3, E4, E5. auto.
Qed.

Lemma sr_emit : forall s a b p, sr s a -> (tb a -> pktC p) ->
  v_ss b = v_ss a -> v_inbox b = v_inbox a -> v_segs b = v_segs a -> v_out b = p :: v_out a ->
  v_opts b = v_opts a -> sr s b.
Proof.
  unfold sr, outC, tb. intros s a b p (A1 & A2 & A3 & A4 & A5) Hp E1 E2 E3 E4 E5.
  rewrite E1, E2, E3, E4, E5. split; [exact A1|]. split; [exact A2|]. split; [exact A3|]. split; [exact A4|].
  intros HO T. constructor; [apply Hp; exact T|apply A5; assumption].
Qed.

Lemma sr_sent : forall s a b p i now, sr s a -> (tb a -> pktC p) ->
  v_ss b = v_ss a -> v_inbox b = v_inbox a -> v_segs b = on_sent (v_segs a) i now ->
  v_out b = p :: v_out a -> v_opts b = v_opts a -> sr s b.
Proof.
  unfold sr, outC, tb. intros s a b p i now (A1 & A2 & A3 & A4 & A5) Hp E1 E2 E3 E4 E5.
  destruct (tfl_sle _ _ (on_sent_tfl (v_segs a) i now)) as [S1 S2].
  rewrite E1, E2, E3, E4, E5, S2. split; [exact A1|]. split; [exact A2|]. split; [exact A3|].
  split; [eapply sle_trans; eauto|].
  intros HO T. constructor; [apply Hp; exact T|apply A5; assumption].
Qed.

Lemma sr_same : forall s a b, sr s a -> v_ss b = v_ss a -> v_segs b = v_segs a ->
  v_inbox b = v_inbox a -> v_out b = v_out a -> v_opts b = v_opts a -> sr s b.
Proof. intros s a b H E1 E2 E3 E4 E5. eapply sr_core; [exact H|]. unfold core. congruence. Qed.

(* kernel-friendly: one projection of a stack of setters at a time *)
Ltac sr_leaf := eapply sr_same; [apply sr_refl | exact eq_refl ..].
Ltac sr_via H := eapply sr_same; [exact H | exact eq_refl ..].

Notation sts := (stR sr).

Hypothesis HC : 0 <= C.

Lemma pktC_nil : forall (s : vsock) h t q sk, tb s ->
  pktC {| p_hdr := hdr_with h t q (fit_sack s sk); p_payload := [] |}.
Proof.
  intros s h t q sk Hb. unfold pktC. cbn [p_payload length p_hdr hdr_with ch_sack]. split; [lia|].
  unfold fit_sack. unfold tb in Hb. rewrite Hb.
  destruct (Z.leb_spec 30 TB); [right; split; [reflexivity|assumption]|left; reflexivity].
Qed.

(* [sr] meets the requirements of the walk of the control functions in Conn/C18_StepRel.v *)
Lemma sr_fsame : forall s s', fsame s s' -> v_out s' = v_out s -> sr s s'.
Proof. intros s s' (A1 & A2 & A3 & A4 & _) O. eapply sr_same; [apply sr_refl|assumption ..]. Qed.

Lemma sr_ctl : forall (s s' : vsock) h t q sk, fsame s s' ->
  v_out s' = {| p_hdr := hdr_with h t q (fit_sack s sk); p_payload := [] |} :: v_out s -> sr s s'.
Proof.
  intros s s' h t q sk (A1 & A2 & A3 & A4 & _) O.
  eapply sr_emit; [apply sr_refl|apply pktC_nil|exact A1|exact A3|exact A2|exact O|exact A4].
Qed.

Lemma next_send_sr : forall (s : vsock) n s1 o, next_send s n = (s1, o) -> sr s s1.
Proof. exact (next_send_R sr sr_refl sr_trans sr_fsame sr_ctl). Qed.

Lemma send_ack_sr : forall (s : vsock), sts s (send_ack s).
Proof. exact (send_ack_R sr sr_refl sr_trans sr_fsame sr_ctl). Qed.

Lemma maybe_send_fin_sr : forall (s : vsock), sts s (maybe_send_fin s).
Proof. exact (maybe_send_fin_R sr sr_refl sr_trans sr_fsame sr_ctl). Qed.

Lemma pktC_data : forall h (l : list Z) n off, ch_sack h = None -> n <= C ->
  pktC {| p_hdr := h; p_payload := firstn (Z.to_nat n) (skipn off l) |}.
Proof.
  intros h l n off Hs Hn. unfold pktC. cbn [p_payload p_hdr]. split; [|left; exact Hs].
  pose proof (firstn_le_length (Z.to_nat n) (skipn off l)). lia.
Qed.

Lemma send_data_sr : forall (s : vsock) h f, sg_size (fs_seg f) <= C -> sts s (send_data s h f).
Proof.
  intros s h f Hsz. unfold send_data.
  destruct (_ =? o_max_retx _); [apply sr_refl|].
  destruct (_ <? 0); [exact I|].
  destruct (_ <? fs_payload_offset f); [apply sr_refl|].
  destruct (_ <? _ + _); [apply sr_refl|].
  destruct (next_send s _) as [s1 o] eqn:E. apply next_send_sr in E.
  destruct o; cbn [stR]; [|sr_via E|exact E|exact E].
  unfold on_packet_sent, emit.
  destruct (seq_gt _ _); try destruct (seq_gt _ _);
    (eapply sr_sent; [exact E| |exact eq_refl ..]; intros _; apply pktC_data; [exact eq_refl|exact Hsz]).
Qed.

Lemma on_rto_reactions_sr : forall (s s1 : vsock), on_rto_reactions cci s = Some s1 -> sr s s1.
Proof. exact (on_rto_reactions_R cci sr sr_refl sr_trans sr_fsame sr_ctl). Qed.

Definition itemsC (items : list for_sending) : Prop := Forall (fun f => sg_size (fs_seg f) <= C) items.

Lemma recovery_loop_sr : forall items (s : vsock) h mss0 st,
  itemsC items -> sts s (recovery_loop items s h mss0 st).
Proof.
  induction items as [|f rest IH]; intros s h mss0 st Hi; cbn [recovery_loop].
  - apply sr_refl.
  - inversion Hi; subst.
    destruct (negb _); [apply sr_refl|].
    destruct (_ && negb (sg_lost _)); [apply IH; assumption|].
    destruct (_ && negb (sg_sacks_after _)); [apply sr_refl|].
    pose proof (send_data_sr s h f H1) as Fd.
    destruct (send_data s h f) as [s1 r|s1 e|]; cbn [stR] in *; auto.
    destruct r; cbn [stR]; auto.
    eapply (stR_weaken sr sr_trans); [exact Fd | apply IH; assumption].
Qed.

Lemma new_data_loop_sr : forall items (s : vsock) h remaining,
  itemsC items -> sts s (new_data_loop items s h remaining).
Proof.
  induction items as [|f rest IH]; intros s h remaining Hi; cbn [new_data_loop].
  - apply sr_refl.
  - inversion Hi; subst.
    destruct (_ <? _); [apply sr_refl|].
    pose proof (send_data_sr s h f H1) as Fd.
    destruct (send_data s h f) as [s1 r|s1 e|]; cbn [stR] in *; auto.
    destruct r; cbn [stR]; auto.
    eapply (stR_weaken sr sr_trans); [exact Fd | apply IH; assumption].
Qed.

Lemma set_recovering_sr : forall (s : vsock) rc, sr s (set_recovering s rc).
Proof. exact (set_recovering_R sr sr_refl sr_trans sr_fsame sr_ctl). Qed.

Lemma maybe_send_ack_sr : forall (s : vsock), sts s (maybe_send_ack s).
Proof. exact (maybe_send_ack_R sr sr_refl sr_trans sr_fsame sr_ctl). Qed.

Lemma maybe_send_syn_ack_sr : forall (s : vsock), sts s (maybe_send_syn_ack s).
Proof. exact (maybe_send_syn_ack_R sr sr_refl sr_trans sr_fsame sr_ctl). Qed.

(* items of the iterator: sizes of table segments *)
Lemma iter_itemsC : forall (t : segments) st, szC C (ss_segs t) -> itemsC (iter_for_sending t st).
Proof.
  intros t st Hz. apply Forall_forall. intros f Hf. apply iter_seg_in in Hf.
  unfold szC in Hz. rewrite Forall_forall in Hz. apply Hz. exact Hf.
Qed.

Lemma itemsC_incl : forall a b, incl a b -> itemsC b -> itemsC a.
Proof. intros a b Hi Hb. unfold itemsC in *. rewrite Forall_forall in *. auto. Qed.

Lemma sr_szC : forall s s', sr s s' -> szC C (ss_segs (v_segs s)) -> szC C (ss_segs (v_segs s')).
Proof. intros s s' (_ & _ & _ & H & _). apply szC_subseg. apply sle_subseg. exact H. Qed.

(* ------------------------------------------------------------------ send_tx_queue *)
Definition gr (s s' : vsock) : Prop :=
  v_inbox s' = v_inbox s /\ (outC s -> outC s') /\
  ((v_ss s' = v_ss s /\ ss_offset (v_segs s') = ss_offset (v_segs s) /\
    sle (ss_segs (v_segs s')) (ss_segs (v_segs s)))
   \/ (exists t x n, sle (ss_segs t) (ss_segs (v_segs s)) /\ ss_offset t = ss_offset (v_segs s) /\
         popped t (v_segs s') x /\ v_ss s' = disarm_cooldown (on_probe_failed (v_ss s) n))).

Lemma sr_gr : forall s s', sr s s' -> gr s s'.
Proof. intros s s' (A1 & A2 & A3 & A4 & A5). unfold gr. split; [exact A2|]. split; [exact A5|]. left. auto. Qed.

Lemma sr_gr_trans : forall a b c, sr a b -> gr b c -> gr a c.
Proof.
  intros a b c (A1 & A2 & A3 & A4 & A5) (B1 & B2 & B3). unfold gr.
  split; [congruence|]. split; [auto|].
  destruct B3 as [(B3 & B4 & B5)|(t & x & n & B3 & B4 & B5 & B6)].
  - left. split; [congruence|]. split; [congruence|]. eapply sle_trans; eauto.
  - right. exists t, x, n. split; [eapply sle_trans; eauto|]. split; [congruence|].
    split; [exact B5|congruence].
Qed.

Lemma stR_sr_gr : forall A (m : step A) s0 s, sr s0 s -> stR gr s m -> stR gr s0 m.
Proof. intros A m s0 s H Hm. destruct m; cbn [stR] in *; auto; eapply sr_gr_trans; eauto. Qed.

Lemma sts_gr : forall A (s : vsock) (m : step A), sts s m -> stR gr s m.
Proof. intros A s m H. destruct m; cbn [stR] in *; auto using sr_gr. Qed.

(* sequencing a send-path stage (which must keep the precondition Q) with a gr stage *)
Lemma stR_sbind_gr : forall A B (m : step A) (f : vsock -> A -> step B) s,
  sts s m -> (forall s1 a, sr s s1 -> stR gr s1 (f s1 a)) -> stR gr s (sbind m f).
Proof.
  intros A B m f s Hm Hf. destruct m as [s1 a|s1 e|]; cbn [sbind stR] in *; auto using sr_gr.
  eapply stR_sr_gr; [exact Hm|]. apply Hf. exact Hm.
Qed.

Lemma send_tx_queue_gr : forall (s : vsock),
  szC C (ss_segs (v_segs s)) -> stR gr s (send_tx_queue cci s).
Proof.
  intros s Hz. unfold send_tx_queue.
  destruct (v_transport_pending s); [apply sr_gr, sr_refl|].
  apply stR_sbind_gr.
  - destruct (timer_expired _ _); [|apply sr_refl].
    destruct (iter_for_sending _ _) as [|f l] eqn:Ei.
    + destruct (our_fin_if_unacked _); [|cbn [stR]; sr_leaf].
      destruct (_ =? _); [|cbn [stR]; sr_leaf].
      apply (stR_weaken sr sr_trans) with (s := set_last_sent_seq_nr s (wsub16 (v_last_sent_seq_nr s) 1));
        [sr_leaf|].
      apply (stR_sbind sr sr_trans); [apply maybe_send_fin_sr|].
      intros s1 a. destruct a; [|apply sr_refl].
      destruct (on_rto_reactions cci s1) eqn:E; [|exact I]. apply on_rto_reactions_sr in E.
      cbn [stR]. sr_via E.
    + assert (Hf : sg_size (fs_seg f) <= C).
      { pose proof (iter_itemsC (v_segs s) None Hz) as Hi. rewrite Ei in Hi. inversion Hi; assumption. }
      pose proof (send_data_sr s (outgoing_header s) f Hf) as Hd.
      destruct (send_data _ _ f) as [s1 r|s1 e|]; cbn [stR] in *; auto.
      destruct r; cbn [stR]; auto.
      cbv zeta.
      match goal with |- stR _ _ (match ?o with _ => _ end) => destruct o as [s2|] eqn:E end; [|exact I].
      assert (F2 : sr s1 s2).
      { destruct (negb _); [apply on_rto_reactions_sr; exact E|injection E as <-; apply sr_refl]. }
      cbn [stR]. pose proof (sr_trans _ _ _ Hd F2) as F3. sr_via F3.
  - intros s1 ret F1. pose proof (sr_szC _ _ F1 Hz) as Hz1.
    destruct ret; [apply sr_gr, sr_refl|].
    destruct (0 <? _); [apply sr_gr, sr_refl|]. destruct (ss_segs (v_segs s1)) eqn:Esg; [apply sr_gr, sr_refl|].
    rewrite <- Esg in *. clear Esg.
    apply stR_sbind_gr.
    + destruct (rv_phase _); try apply sr_refl.
      apply (stR_sbind sr sr_trans).
      { apply recovery_loop_sr. eapply itemsC_incl; [|apply (iter_itemsC (v_segs s1) None Hz1)].
        intros x Hx. apply In_take_while in Hx. apply In_skip_while in Hx. apply In_firstn in Hx. exact Hx. }
      intros s2 [st early]. cbv beta iota zeta.
      destruct early; [apply set_recovering_sr|].
      match goal with |- stR _ _ (match our_fin_if_unacked (v_state ?y) with _ => _ end) =>
        assert (F3 : sr s2 y); [|revert F3; generalize y; intros sy F3] end.
      { eapply sr_trans; [apply set_recovering_sr|].
        destruct (_ <? _); [|apply sr_refl]. destruct (rc_recalc _); [sr_leaf|].
        destruct (0 <? _); [sr_leaf|apply sr_refl]. }
      destruct (our_fin_if_unacked _); [destruct (_ =? _)|]; cbn [stR]; exact F3.
    + intros s2 ret F2. pose proof (sr_szC _ _ F2 Hz1) as Hz2.
      destruct ret; [apply sr_gr, sr_refl|].
      apply stR_sbind_gr; [apply new_data_loop_sr; apply iter_itemsC; exact Hz2|].
      intros s3 tl F3. destruct tl as [[sq sz]|]; [|apply sr_gr, sr_refl].
      destruct (pop_mtu_probe _ _) as [segs' popd] eqn:Ep.
      destruct (pop_mtu_probe_cases _ _ _ _ Ep) as [[-> ->]|[-> [x Hx]]]; cbn [stR]; [apply sr_gr, sr_refl|].
      unfold gr. split; [exact eq_refl|]. split; [exact (fun H => H)|].
      right. exists (v_segs s3), x, sz. split; [apply sle_refl|]. split; [reflexivity|].
      split; [exact Hx|exact eq_refl].
Qed.

(* ------------------------------------------------------------------ incoming messages *)
Definition ssr (a b : segsizes) : Prop :=
  max_ss b = max_ss a /\ min_ss a <= min_ss b /\ (min_ss b = min_ss a \/ min_ss b <= max_ss a).

Lemma ssr_refl : forall a, ssr a a.
Proof. intro a. unfold ssr. lia. Qed.

Lemma ssr_trans : forall a b c, ssr a b -> ssr b c -> ssr a c.
Proof. unfold ssr. intros a b c (A1 & A2 & A3) (B1 & B2 & B3). lia. Qed.

Lemma ssr_delivered : forall a n, ssr a (on_payload_delivered a n).
Proof. intros a n. unfold ssr, on_payload_delivered. cbn [min_ss max_ss]. lia. Qed.

Lemma ssr_eq : forall a b, b = a -> ssr a b.
Proof. intros a b ->. apply ssr_refl. Qed.

Definition ir0 (s s' : vsock) : Prop :=
  ssr (v_ss s) (v_ss s') /\ v_inbox s' = v_inbox s /\
  ss_offset (v_segs s') = ss_offset (v_segs s) /\
  subseg (ss_segs (v_segs s')) (ss_segs (v_segs s)) /\ (outC s -> outC s').

Lemma ir0_refl : forall s, ir0 s s.
Proof.
  intro s. unfold ir0. split; [apply ssr_refl|]. split; [reflexivity|]. split; [reflexivity|].
  split; [apply subseg_refl|auto].
Qed.

Lemma ir0_trans : forall a b c, ir0 a b -> ir0 b c -> ir0 a c.
Proof.
  unfold ir0. intros a b c (A1 & A2 & A3 & A4 & A5) (B1 & B2 & B3 & B4 & B5).
  split; [eapply ssr_trans; eauto|]. split; [congruence|]. split; [congruence|].
  split; [eapply subseg_trans; eauto|auto].
Qed.

Lemma sr_ir0 : forall s s', sr s s' -> ir0 s s'.
Proof.
  intros s s' (A1 & A2 & A3 & A4 & A5). unfold ir0.
  split; [apply ssr_eq; exact A1|]. split; [exact A2|]. split; [exact A3|].
  split; [apply sle_subseg; exact A4|exact A5].
Qed.

Lemma ir0_upd : forall s a b, ir0 s a ->
  ssr (v_ss a) (v_ss b) -> v_inbox b = v_inbox a -> ss_offset (v_segs b) = ss_offset (v_segs a) ->
  subseg (ss_segs (v_segs b)) (ss_segs (v_segs a)) -> v_out b = v_out a -> v_opts b = v_opts a -> ir0 s b.
Proof.
  intros s a b H E1 E2 E3 E4 E5 E6. eapply ir0_trans; [exact H|]. unfold ir0, outC, tb.
  rewrite E5, E6. auto.
Qed.

Lemma process_incoming_message_ir0 : forall (s : vsock) m,
  stR ir0 s (process_incoming_message cci s m).
Proof.
  apply (process_incoming_message_R cci ir0 ir0_refl ir0_trans).
  - intros s s' Hf O. apply sr_ir0, sr_fsame; assumption.
  - intros s s' h t q sk Hf O. apply sr_ir0. eapply sr_ctl; eassumption.
  - intros s s' n T E Hi O Op U. destruct (trm_subseg _ _ T) as [Sb Of].
    eapply ir0_upd; [apply ir0_refl|rewrite E; apply ssr_delivered|exact Hi|exact Of|exact Sb|exact O|exact Op].
Qed.

(* the receive loop: once the inbox is empty the size state is not touched any more *)
Definition ir (s s' : vsock) : Prop :=
  ssr (v_ss s) (v_ss s') /\
  ss_offset (v_segs s') = ss_offset (v_segs s) /\
  subseg (ss_segs (v_segs s')) (ss_segs (v_segs s)) /\ (outC s -> outC s') /\
  (v_inbox s = [] -> v_inbox s' = [] /\ v_ss s' = v_ss s).

Lemma ir_refl : forall s, ir s s.
Proof.
  intro s. unfold ir. split; [apply ssr_refl|]. split; [reflexivity|].
  split; [apply subseg_refl|]. split; [auto|]. intro E. split; [exact E|reflexivity].
Qed.

Lemma ir_trans : forall a b c, ir a b -> ir b c -> ir a c.
Proof.
  unfold ir. intros a b c (A1 & A2 & A3 & A4 & A5) (B1 & B2 & B3 & B4 & B5).
  split; [eapply ssr_trans; eauto|]. split; [congruence|].
  split; [eapply subseg_trans; eauto|]. split; [auto|].
  intro E. destruct (A5 E) as [E1 E2]. destruct (B5 E1) as [E3 E4]. split; congruence.
Qed.

Lemma sr_ir : forall s s', sr s s' -> ir s s'.
Proof.
  intros s s' (A1 & A2 & A3 & A4 & A5). unfold ir.
  split; [apply ssr_eq; exact A1|]. split; [exact A3|].
  split; [apply sle_subseg; exact A4|]. split; [exact A5|]. intro E. split; congruence.
Qed.

Lemma ir_upd : forall s a b, ir s a ->
  v_ss b = v_ss a -> v_inbox b = v_inbox a -> ss_offset (v_segs b) = ss_offset (v_segs a) ->
  sle (ss_segs (v_segs b)) (ss_segs (v_segs a)) -> v_out b = v_out a -> v_opts b = v_opts a -> ir s b.
Proof.
  intros s a b H E1 E2 E3 E4 E5 E6. eapply ir_trans; [exact H|]. apply sr_ir. unfold sr, outC, tb.
  rewrite E5, E6. auto.
Qed.

Lemma ir_same : forall s a b, ir s a -> v_ss b = v_ss a -> v_segs b = v_segs a ->
  v_inbox b = v_inbox a -> v_out b = v_out a -> v_opts b = v_opts a -> ir s b.
Proof.
  intros s a b H E1 E2 E3 E4 E5.
  eapply ir_upd; [exact H|exact E1|exact E3|rewrite E2; reflexivity|rewrite E2; apply sle_refl|exact E4|exact E5].
Qed.

Ltac ir_leaf := eapply ir_same; [apply ir_refl | exact eq_refl ..].

(* a message popped from a non-empty inbox *)
Lemma ir0_ir_pop : forall (s a s1 : vsock), v_inbox s <> [] ->
  v_ss a = v_ss s -> v_segs a = v_segs s -> v_out a = v_out s -> v_opts a = v_opts s -> ir0 a s1 -> ir s s1.
Proof.
  unfold ir0, ir, outC, tb. intros s a s1 Hne E1 E2 E3 E4 (A1 & A2 & A3 & A4 & A5).
  rewrite E1, E2, E3, E4 in *. split; [exact A1|]. split; [exact A3|]. split; [exact A4|].
  split; [exact A5|]. intro E. contradiction.
Qed.

Lemma stR_ir0_ir_pop : forall A (m : step A) (s a : vsock), v_inbox s <> [] ->
  v_ss a = v_ss s -> v_segs a = v_segs s -> v_out a = v_out s -> v_opts a = v_opts s ->
  stR ir0 a m -> stR ir s m.
Proof. intros A m s a Hne E1 E2 E3 E4 H. destruct m; cbn [stR] in *; eauto using ir0_ir_pop. Qed.

Lemma recv_loop_ir : forall fuel (s : vsock) acc, stR ir s (recv_loop cci fuel s acc).
Proof.
  pose proof (recv_base_R ir ir_refl ir_trans (fun s s' Hf O => sr_ir _ _ (sr_fsame s s' Hf O))
                (fun s s' h t q sk Hf O => sr_ir _ _ (sr_ctl s s' h t q sk Hf O))) as Hb.
  induction fuel as [|x fuel IH]; intros s acc.
  - cbn [recv_loop]. destruct (v_inbox s); [apply Hb|exact I].
  - cbn [recv_loop]. destruct (v_inbox s) as [|m rest] eqn:Ei; [apply Hb|].
    apply (stR_sbind ir ir_trans).
    + apply (stR_ir0_ir_pop _ _ s (set_inbox s rest)); try reflexivity; [rewrite Ei; discriminate|].
      apply process_incoming_message_ir0.
    + intros s1 r. destruct (_ || _); [apply ir_refl|]. apply IH.
Qed.

Lemma process_all_incoming_messages_ir : forall (s : vsock),
  stR ir s (process_all_incoming_messages cci s).
Proof.
  intros s. unfold process_all_incoming_messages.
  apply (stR_sbind ir ir_trans); [apply recv_loop_ir|].
  intros s1 [r early].
  match goal with |- context [acked_counts_as_sent ?x] => set (s2 := x) end.
  assert (F2 : ir s1 s2).
  { subst s2. unfold restart_remote_inactivity_timer.
    repeat break_match; first [apply ir_refl | ir_leaf]. }
  clearbody s2.
  apply (stR_weaken ir ir_trans) with (s := s2); [exact F2|].
  apply (stR_sbind ir ir_trans).
  - destruct (0 <? _); [|apply ir_refl].
    assert (F2' : ir s2 (acked_counts_as_sent s2)).
    { unfold acked_counts_as_sent. destruct (seq_gt _ _ && seq_lt _ _); [ir_leaf | apply ir_refl]. }
    apply (stR_weaken ir ir_trans) with (s := acked_counts_as_sent s2); [exact F2'|].
    generalize (acked_counts_as_sent s2). intro s2'.
    destruct (truncate_front _ _) as [tx1 tr] eqn:Et.
    destruct tr; [|cbn [stR]; ir_leaf].
    destruct (wake_writer tx1) as [tx2 w] eqn:Ew. cbn [stR]. unfold add_wakes. ir_leaf.
  - intros s3 _. destruct (rv_phase _); try apply ir_refl.
    destruct (calc_pipe _ _ _ _ _) as [[[segs' pipe] recalc]|] eqn:Ec; [|exact I].
    destruct (tfl_sle _ _ (calc_pipe_tfl _ _ _ _ _ _ _ _ Ec)) as [R1 R2].
    cbn [stR]. unfold set_recovering.
    eapply ir_upd; [apply ir_refl|exact eq_refl|exact eq_refl|exact R2|exact R1|exact eq_refl|exact eq_refl].
Qed.

(* ------------------------------------------------------------------ the invariants *)
Definition sb (ss : segsizes) : Prop := F <= min_ss ss <= max_ss ss /\ max_ss ss <= C.

Definition J0 (s : vsock) : Prop :=
  sb (v_ss s) /\ szC C (ss_segs (v_segs s)) /\ tok (ss_segs (v_segs s)) /\
  til (ss_segs (v_segs s)) (ss_offset (v_segs s)).

Definition J (s : vsock) : Prop := J0 s /\ outC s.

(* the per-poll part: e = the end of the table when the poll began *)
Definition X (e : Z) (s : vsock) : Prop :=
  NP e (min_ss (v_ss s)) (ss_segs (v_segs s)) /\ PP e (min_ss (v_ss s)) (ss_segs (v_segs s)) /\
  (v_inbox s = [] \/ nonew e (ss_segs (v_segs s))).

Definition St (e : Z) (s : vsock) : Prop := J0 s /\ X e s.

Lemma sb_ssr : forall a b, ssr a b -> sb a -> sb b.
Proof. unfold ssr, sb. intros a b (A1 & A2 & A3) (B1 & B2). lia. Qed.

Lemma sb_failed : forall a n, sb a -> sb (disarm_cooldown (on_probe_failed a n)).
Proof. unfold sb, disarm_cooldown, on_probe_failed. cbn [min_ss max_ss]. intros a n (B1 & B2). lia. Qed.

Lemma J0_ir : forall s s', ir s s' -> J0 s -> J0 s'.
Proof.
  intros s s' (A1 & A2 & A3 & A4 & A5) (B1 & B2 & B3 & B4). unfold J0. rewrite A2.
  split; [eapply sb_ssr; eauto|]. split; [eapply szC_subseg; eauto|].
  split; [eapply tok_subseg; eauto|eapply til_subseg; eauto].
Qed.

Lemma J0_sr : forall s s', sr s s' -> J0 s -> J0 s'.
Proof. intros s s' H. apply J0_ir, sr_ir, H. Qed.

Lemma J0_gr : forall s s', gr s s' -> J0 s -> J0 s'.
Proof.
  intros s s' (A1 & A2 & [(A3 & A4 & A5)|(t & x & n & A3 & A4 & A5 & A6)]) (B1 & B2 & B3 & B4).
  - unfold J0. rewrite A3, A4. pose proof (sle_subseg _ _ A5) as A5'.
    split; [exact B1|]. split; [eapply szC_subseg; eauto|].
    split; [eapply tok_subseg; eauto|eapply til_subseg; eauto].
  - pose proof (sle_subseg _ _ A3) as A3'.
    destruct (popped_props t (v_segs s') x C 0 0 A5) as (P1 & P2 & P3 & _).
    unfold J0. rewrite A6. split; [apply sb_failed; exact B1|].
    split; [apply P1; eapply szC_subseg; eauto|].
    split; [apply noup_tok, P2; eapply tok_subseg; eauto|].
    apply P3. rewrite A4. eapply til_subseg; eauto.
Qed.

Lemma J_ir : forall s s', ir s s' -> J s -> J s'.
Proof. intros s s' H [H0 H1]. split; [eapply J0_ir; eauto|apply H; exact H1]. Qed.

Lemma J_sr : forall s s', sr s s' -> J s -> J s'.
Proof. intros s s' H. apply J_ir, sr_ir, H. Qed.

Lemma J_gr : forall s s', gr s s' -> J s -> J s'.
Proof. intros s s' H [H0 H1]. split; [eapply J0_gr; eauto|apply H; exact H1]. Qed.

Lemma J_core : forall s s', core s' = core s -> J s -> J s'.
Proof. intros s s' E. apply J_sr. eapply sr_core; [apply sr_refl|exact E]. Qed.

Lemma X_ir : forall e s s', ir s s' -> X e s -> X e s'.
Proof.
  intros e s s' ((A0 & A0' & _) & A2 & A3 & A4 & A5) (B1 & B2 & B3). unfold X.
  split; [eapply NP_mono; [exact A0'|]; eapply NP_subseg; eauto|].
  destruct B3 as [B3|B3].
  - destruct (A5 B3) as [E1 E2]. rewrite E2. split; [eapply PP_subseg; eauto|left; exact E1].
  - pose proof (nonew_subseg _ _ _ A3 B3) as N. split; [apply nonew_PP; exact N|right; exact N].
Qed.

Lemma X_sr : forall e s s', sr s s' -> X e s -> X e s'.
Proof. intros e s s' H. apply X_ir, sr_ir, H. Qed.

Lemma X_gr : forall e s s', gr s s' -> X e s -> X e s'.
Proof.
  intros e s s' (A1 & A2 & [(A3 & A4 & A5)|(t & x & n & A3 & A4 & A5 & A6)]) (B1 & B2 & B3).
  - unfold X. rewrite A1, A3. pose proof (sle_subseg _ _ A5) as A5'.
    split; [eapply NP_subseg; eauto|]. split; [eapply PP_subseg; eauto|].
    destruct B3 as [B3|B3]; [left; exact B3|right; eapply nonew_subseg; eauto].
  - pose proof (sle_subseg _ _ A3) as A3'.
    destruct (popped_props t (v_segs s') x C e (min_ss (v_ss s)) A5) as (_ & _ & _ & P4 & P5 & P6).
    unfold X. rewrite A1, A6.
    change (min_ss (disarm_cooldown (on_probe_failed (v_ss s) n))) with (min_ss (v_ss s)).
    split; [apply P4; eapply NP_subseg; eauto|]. split; [apply P5; eapply PP_subseg; eauto|].
    destruct B3 as [B3|B3]; [left; exact B3|right; apply P6; eapply nonew_subseg; eauto].
Qed.

Lemma St_ir : forall e s s', ir s s' -> St e s -> St e s'.
Proof. intros e s s' H [H0 H1]. split; [eapply J0_ir; eauto|eapply X_ir; eauto]. Qed.

Lemma St_sr : forall e s s', sr s s' -> St e s -> St e s'.
Proof. intros e s s' H. apply St_ir, sr_ir, H. Qed.

Lemma St_gr : forall e s s', gr s s' -> St e s -> St e s'.
Proof. intros e s s' H [H0 H1]. split; [eapply J0_gr; eauto|eapply X_gr; eauto]. Qed.

Lemma St_core : forall e s s', core s' = core s -> St e s -> St e s'.
Proof. intros e s s' E. apply St_sr. eapply sr_core; [apply sr_refl|exact E]. Qed.

(* at the start of a poll nothing is new *)
Lemma J0_X_start : forall s, J0 s -> X (ss_offset (v_segs s)) s.
Proof.
  intros s (_ & _ & _ & B4). pose proof (til_nonew _ _ B4) as N. unfold X.
  split; [apply nonew_NP; exact N|]. split; [apply nonew_PP; exact N|right; exact N].
Qed.

(* ------------------------------------------------------------------ segmentation *)
Definition splitQ (e : Z) (s s' : vsock) : Prop :=
  J0 s' /\ NP e (min_ss (v_ss s')) (ss_segs (v_segs s')) /\ PP e (min_ss (v_ss s')) (ss_segs (v_segs s')) /\
  v_out s' = v_out s /\ v_inbox s' = v_inbox s /\
  (is_remote_fin_or_later (v_state s) = true -> v_segs s' = v_segs s) /\
  v_opts s' = v_opts s.

Lemma splitQ_mk : forall e (s b : vsock) ss' segs',
  v_ss b = ss' -> v_segs b = segs' -> sb ss' -> szC C (ss_segs segs') -> tok (ss_segs segs') ->
  til (ss_segs segs') (ss_offset segs') -> NP e (min_ss ss') (ss_segs segs') -> PP e (min_ss ss') (ss_segs segs') ->
  v_out b = v_out s -> v_inbox b = v_inbox s ->
  (is_remote_fin_or_later (v_state s) = true -> segs' = v_segs s) -> v_opts b = v_opts s -> splitQ e s b.
Proof.
  intros e s b ss' segs' E1 E2 H1 H2 H3 H4 H5 H6 H7 H8 H9 H10. unfold splitQ, J0. rewrite E1, E2. tauto.
Qed.

Lemma splitQ_same : forall e (s b : vsock),
  J0 s -> NP e (min_ss (v_ss s)) (ss_segs (v_segs s)) -> PP e (min_ss (v_ss s)) (ss_segs (v_segs s)) ->
  v_ss b = v_ss s -> v_segs b = v_segs s -> v_inbox b = v_inbox s -> v_out b = v_out s ->
  v_opts b = v_opts s -> splitQ e s b.
Proof.
  intros e s b (H1 & H2 & H3 & H4) H5 H6 E1 E2 E3 E4 E5.
  apply (splitQ_mk e s b (v_ss s) (v_segs s)); auto.
Qed.

Lemma sb_probe_failed : forall a n, sb a -> sb (on_probe_failed a n).
Proof. unfold sb, on_probe_failed. cbn [min_ss max_ss]. intros a n (B1 & B2). lia. Qed.

Lemma split_c14 : forall e (s : vsock),
  J0 s -> NP e (min_ss (v_ss s)) (ss_segs (v_segs s)) -> PP e (min_ss (v_ss s)) (ss_segs (v_segs s)) ->
  stR (splitQ e) s (split_tx_queue_into_segments cci s).
Proof.
  intros e s HJ Hnp Hpp. pose proof HJ as (HJ1 & HJ2 & HJ3 & HJ4).
  (* the table and the sizes the loop starts from (Conn/C18_StepSplit.v) keep the invariant, and
     no undelivered probe is left in that table *)
  assert (Hpre : forall t2 ss2, pre2 (v_segs s) (v_ss s) t2 ss2 ->
     sb ss2 /\ szC C (ss_segs t2) /\ noup (ss_segs t2) /\ til (ss_segs t2) (ss_offset t2) /\
     NP e (min_ss ss2) (ss_segs t2) /\ PP e (min_ss ss2) (ss_segs t2)).
  { intros t2 ss2 (_ & [(-> & -> & L)|[Pp (n & ->)]]).
    - split; [exact HJ1|]. split; [exact HJ2|]. split; [apply tok_lastok_noup; assumption|].
      split; [exact HJ4|]. split; assumption.
    - destruct (tpop_popped _ _ Pp) as [x Hx].
      destruct (popped_props _ _ x C e (min_ss (v_ss s)) Hx) as (P1 & P2 & P3 & P4 & P5 & _).
      split; [apply sb_probe_failed; exact HJ1|]. split; [exact (P1 HJ2)|]. split; [exact (P2 HJ3)|].
      split; [exact (P3 HJ4)|]. split; [exact (P4 Hnp)|exact (P5 Hpp)]. }
  pose proof (split_spec cci s) as Sp.
  destruct (split_tx_queue_into_segments cci s) as [s' u|s' er|]; cbn [stR]; [| |exact I].
  - destruct Sp as ((_ & I2 & O2 & _ & _ & _ & Out2) &
                    [(E1 & E2 & _)|[(E1 & E2 & _)|(t2 & ss2 & P & _ & Fin & _ & L)]]).
    + apply splitQ_same; auto.
    + apply splitQ_same; auto.
    + destruct (Hpre _ _ P) as (A1 & A2 & A3 & A4 & A5 & A6).
      assert (A1' : 1 <= min_ss ss2 <= max_ss ss2) by (unfold sb in A1; lia).
      destruct (segment_loop_c14 C e _ _ ss2 t2 _ _ _ _ _ A1' (proj2 A1) A3 A4 A2 A5 A6 L)
        as (B1 & B2 & B3 & B4 & B5 & B6 & B7).
      apply (splitQ_mk e s s' (v_ss s') (v_segs s')); auto.
      * unfold sb in *. rewrite B1, B2. exact A1.
      * rewrite B1. exact B6.
      * rewrite B1. exact B7.
      * intro Hc. congruence.
  - destruct Sp as ((_ & I2 & O2 & _ & _ & _ & Out2) & _ & P & Fin).
    destruct (Hpre _ _ P) as (A1 & A2 & A3 & A4 & A5 & A6).
    apply (splitQ_mk e s s' (v_ss s') (v_segs s')); auto using noup_tok. intro Hc. congruence.
Qed.

(* ------------------------------------------------------------------ the rest of poll_body *)
Lemma poll_start_sr : forall (s : vsock), sr s (poll_start s).
Proof. intros s. unfold poll_start. sr_leaf. Qed.

Lemma rx_flush_sr : forall (s : vsock) rx1 w, sr s (add_wakes (set_rx s rx1) w).
Proof. exact (rx_flush_R sr sr_refl sr_trans sr_fsame sr_ctl). Qed.

Lemma transition_to_fin_wait_1_sr : forall (s : vsock), sr s (transition_to_fin_wait_1 s).
Proof. exact (transition_to_fin_wait_1_R sr sr_refl sr_trans sr_fsame sr_ctl). Qed.

Lemma just_before_death_sr : forall (s : vsock) e, sr s (just_before_death s e).
Proof. exact (just_before_death_R sr sr_refl sr_trans sr_fsame sr_ctl). Qed.

Lemma poll_tail_sr : forall (s : vsock), sr s (poll_tail s).
Proof. exact (poll_tail_R sr sr_refl sr_trans sr_fsame sr_ctl). Qed.

(* ------------------------------------------------------------------ every poll keeps J and St e *)
Lemma J_splitQ : forall e s s', splitQ e s s' -> J s -> J s'.
Proof.
  intros e s s' (A1 & _ & _ & A4 & _ & _ & A7) (_ & B2). split; [exact A1|]. unfold outC, tb in *.
  rewrite A4, A7. exact B2.
Qed.

Lemma St_splitQ : forall e s s', splitQ e s s' -> Bx s -> St e s -> St e s'.
Proof.
  intros e s s' (A1 & A2 & A3 & _ & A5 & A6 & _) HB (_ & _ & _ & X3). split; [exact A1|]. unfold X. rewrite A5.
  split; [exact A2|]. split; [exact A3|].
  destruct HB as [HB|HB]; [left; exact HB|]. rewrite (A6 HB). exact X3.
Qed.

(* a predicate closed under [ir] (hence [sr]) and [gr] that bounds the segments' sizes and is kept by
   the segmentation is an invariant of a poll: an instance of the walk of Conn/C18_Step.v *)
Lemma poll_inv_c14 : forall P : vsock -> Prop,
  (forall a b, ir a b -> P a -> P b) -> (forall a b, gr a b -> P a -> P b) ->
  (forall s, P s -> szC C (ss_segs (v_segs s))) ->
  (forall s, P s -> Bx s -> stA P (split_tx_queue_into_segments cci s)) ->
  forall s s' r, P (poll_init s) -> poll cci s = (s', r) -> P s'.
Proof.
  intros P Hi Hg Hz Hsp.
  assert (Hs : forall a b, sr a b -> P a -> P b) by (intros a b K; apply Hi, sr_ir, K).
  apply (poll_A cci P Bx).
  - intros s0. apply Hs, poll_start_sr.
  - intros s0 H0. eapply (stR_inv sr); [exact Hs | apply maybe_send_syn_ack_sr | exact H0].
  - intros s0 H0. eapply (stR_inv sr); [exact Hs | apply send_ack_sr | exact H0].
  - intros s0 H0. eapply (stR_inv ir); [exact Hi | apply process_all_incoming_messages_ir | exact H0].
  - intros s0 s1 u _. apply pim_Bx.
  - intros s0 rx1 w. apply Hs, rx_flush_sr.
  - intros s0 rx1 w H0. exact H0.
  - exact Hsp.
  - intros s0 H0. eapply (stR_inv gr); [exact Hg | apply send_tx_queue_gr, Hz, H0 | exact H0].
  - intros s0. apply Hs, transition_to_fin_wait_1_sr.
  - intros s0 H0. eapply (stR_inv sr); [exact Hs | apply maybe_send_fin_sr | exact H0].
  - intros s0 H0. eapply (stR_inv sr); [exact Hs | apply maybe_send_ack_sr | exact H0].
  - intros s0 e. apply Hs, just_before_death_sr.
  - intros s0. apply Hs, poll_tail_sr.
Qed.

Theorem poll_J : forall (s s' : vsock) r, poll cci s = (s', r) -> J (poll_init s) -> J s'.
Proof.
  intros s s' r H H0. apply (poll_inv_c14 J J_ir J_gr) with (s := s) (r := r); [| |exact H0|exact H].
  - intros s0 [(_ & Hz & _) _]. exact Hz.
  - intros s0 H1 _. pose proof H1 as [HJ _]. destruct (J0_X_start s0 HJ) as (X1 & X2 & _).
    eapply (stR_inv (splitQ (ss_offset (v_segs s0)))); [exact (J_splitQ _) | apply split_c14; assumption | exact H1].
Qed.

Theorem poll_St : forall e (s s' : vsock) r, St e (poll_init s) -> poll cci s = (s', r) -> St e s'.
Proof.
  intros e. apply (poll_inv_c14 (St e) (St_ir e) (St_gr e)).
  - intros s0 [(_ & Hz & _) _]. exact Hz.
  - intros s0 H0 HB. pose proof H0 as [HJ (X1 & X2 & _)]. pose proof (split_c14 e s0 HJ X1 X2) as Hs.
    destruct (split_tx_queue_into_segments cci s0); cbn [stR stA] in *; [| |exact I]; eapply St_splitQ; eauto.
Qed.

End Bounds.

(* ================================================================== the configuration's bounds *)
Definition cC (c : vconfig) : Z := ceiling_of (ss_config_of c).
Definition cF (c : vconfig) : Z := floor_of (ss_config_of c).

Lemma cF_pos : forall c, 1 <= cF c.
Proof. intro c. unfold cF, floor_of, ceiling_of, default_min_mtu, ip_header, IPV4_HEADER, IPV6_HEADER, UDP_HEADER, UTP_HEADER.
  destruct (cfg_ipv4 (ss_config_of c)); lia. Qed.

Lemma cC_nonneg : forall c, 0 <= cC c.
Proof. intro c. unfold cC, ceiling_of. lia. Qed.

Lemma cF_le_cC : forall c, cF c <= cC c.
Proof. intro c. unfold cF, cC, floor_of. lia. Qed.

Definition cT (c : vconfig) : Z := cC c + UTP_HEADER.

(* the invariant of every reachable state *)
Definition c14_inv (c : vconfig) (s : vsock) : Prop :=
  J0 (cC c) (cF c) s /\ o_tmp_buf_len (v_opts s) = cT c.

Lemma c14_inv_vsock_new : forall mk c s, vsock_new cci mk c = Some s -> c14_inv c s.
Proof.
  intros mk c s H. unfold vsock_new in H.
  destruct (match (if vc_incoming c then None else _) with Some r => _ | None => _ end); [|discriminate].
  inversion H; subst. unfold c14_inv, J0, sb, cT.
  cbn [v_ss v_segs segments_new ss_segs ss_offset v_opts o_tmp_buf_len].
  destruct (new_shape (ss_config_of c)) as (E1 & E2 & _).
  change (ss_new _) with (ss_new (ss_config_of c)).
  (* the buffer length has been evaluated: read it as max_ss again before comparing *)
  change (ss_calc _ _ + 20) with (max_ss (ss_new (ss_config_of c)) + UTP_HEADER).
  rewrite E1, E2. fold (cF c) (cC c). pose proof (cF_le_cC c).
  split; [|reflexivity].
  split; [lia|]. split; [constructor|]. split; exact I.
Qed.

Lemma J_poll_init : forall c (s : vsock) sc,
  c14_inv c s -> J (cC c) (cF c) (cT c) (poll_init (VSockRec.set_sends s sc)).
Proof. intros c s sc [H _]. split; [exact H|]. intros _. constructor. Qed.

(* what a poll leaves: the invariant, and the datagrams it emitted are bounded *)
Lemma poll_c14 : forall c (s : vsock) sc s' r,
  c14_inv c s -> poll cci (VSockRec.set_sends s sc) = (s', r) ->
  c14_inv c s' /\ Forall (pktC (cC c) (cT c)) (v_out s').
Proof.
  intros c s sc s' r H E.
  pose proof (poll_J (cC c) (cF c) (cT c) (cF_pos c) (cC_nonneg c) _ _ _ E (J_poll_init c s sc H)) as [HJ HO].
  destruct (poll_pframe0 cci _ _ _ E) as (P1 & _).
  assert (Hb : o_tmp_buf_len (v_opts s') = cT c) by (rewrite P1; exact (proj2 H)).
  split; [split; assumption|]. apply HO. exact Hb.
Qed.

Theorem c14_inv_vstep : forall c (s : vsock) o, c14_inv c s -> c14_inv c (vstep_state cci s o).
Proof.
  intros c s o H. pose proof (vstep_nonpoll_segs cci s o) as K. pose proof (vstep_nonpoll_keeps cci s o) as K'.
  destruct o; try (destruct K' as (K3 & _ & K1); unfold c14_inv, J0 in *; rewrite K1, K, K3; exact H).
  destruct (poll cci (VSockRec.set_sends s script)) as [s' r] eqn:E.
  destruct (vstep_poll cci s script s' r E) as [V1 _]. rewrite V1.
  exact (proj1 (poll_c14 c s script s' r H E)).
Qed.

Lemma c14_trace : forall (P : fstep -> bool) c,
  (forall (s : vsock) o, c14_inv c s -> P (fstep_of cci s o) = true) ->
  forall mk (s0 : vsock) ops, vsock_new cci mk c = Some s0 -> forallb P (ftrace cci s0 ops) = true.
Proof.
  intros P c HP mk s0 ops H0.
  apply (ftrace_forallb cci (c14_inv c)); [exact HP | apply c14_inv_vstep | eapply c14_inv_vsock_new; exact H0].
Qed.

(* only a poll has a poll result *)
Lemma nonpoll_result : forall (s : vsock) o,
  match o with VoPoll _ => True | _ =>
    forall r p w a, fs_result (fstep_of cci s o) <> FrPoll r p w a end.
Proof.
  intros s o. destruct o; try exact I; intros r0 p0 w0 a0; unfold fstep_of; cbn [vstep];
    repeat break_match; cbn [fs_result fresult_of]; try discriminate.
  destruct r1; discriminate.
Qed.

(* ================================================================== c14_datagram_ok *)
Theorem c14_datagram_ok_step : forall c (s : vsock) o,
  c14_inv c s -> c14_datagram_ok c (fstep_of cci s o) = true.
Proof.
  intros c s o H. pose proof (nonpoll_result s o) as N.
  destruct o; try (unfold c14_datagram_ok;
                   match goal with |- match ?x with _ => _ end = true => destruct x eqn:E end;
                   try reflexivity; exfalso; first [exact (N _ _ _ _ E) | exact (N _ _ _ _ eq_refl)]).
  destruct (poll cci (VSockRec.set_sends s script)) as [s' r] eqn:E.
  rewrite (fstep_of_poll cci s script s' r E). unfold c14_datagram_ok. cbn [fs_result].
  destruct (poll_c14 c s script s' r H E) as [_ HO].
  apply forallb_forall. intros p Hp. apply in_map_iff in Hp. destruct Hp as (q & <- & Hq).
  apply in_rev in Hq. rewrite Forall_forall in HO. destruct (HO q Hq) as [HO1 _].
  apply Z.leb_le. exact HO1.
Qed.

(* ================================================================== c14_wire_ok: the extension counted *)
Theorem c14_wire_ok_step : forall c (s : vsock) o,
  c14_inv c s -> c14_wire_ok c (fstep_of cci s o) = true.
Proof.
  intros c s o H. pose proof (nonpoll_result s o) as N.
  destruct o; try (unfold c14_wire_ok;
                   match goal with |- match ?x with _ => _ end = true => destruct x eqn:E end;
                   try reflexivity; exfalso; first [exact (N _ _ _ _ E) | exact (N _ _ _ _ eq_refl)]).
  destruct (poll cci (VSockRec.set_sends s script)) as [s' r] eqn:E.
  rewrite (fstep_of_poll cci s script s' r E). unfold c14_wire_ok. cbn [fs_result].
  destruct (poll_c14 c s script s' r H E) as [_ HO].
  apply forallb_forall. intros p Hp. apply in_map_iff in Hp. destruct Hp as (q & <- & Hq).
  apply in_rev in Hq. rewrite Forall_forall in HO. destruct (HO q Hq) as [HO1 HO2].
  unfold fq_wire_len, fpacket_of. cbn [fq_hdr fq_plen]. fold (cC c).
  unfold cT, UTP_HEADER, SACK_EXT_LEN in *.
  destruct (ch_sack (p_hdr q)) as [k|].
  - destruct HO2 as [HO2|[HO2 HO3]]; [discriminate|]. rewrite HO2. cbn [length Z.of_nat].
    apply andb_true_intro. split; [apply Z.leb_le; lia|reflexivity].
  - rewrite andb_true_r. apply Z.leb_le. lia.
Qed.

Theorem c14_wire_ok_trace : forall mk c (s0 : vsock) ops,
  vsock_new cci mk c = Some s0 -> forallb (c14_wire_ok c) (ftrace cci s0 ops) = true.
Proof. intros mk c. apply c14_trace, c14_wire_ok_step. Qed.

Theorem c14_datagram_ok_trace : forall mk c (s0 : vsock) ops,
  vsock_new cci mk c = Some s0 -> forallb (c14_datagram_ok c) (ftrace cci s0 ops) = true.
Proof. intros mk c. apply c14_trace, c14_datagram_ok_step. Qed.

(* ================================================================== c14_segments_ok *)
Lemma tok_table_ok : forall l, tok l -> c14_table_ok (map fseg_of l) = true.
Proof.
  induction l as [|g r IH]; intro H; [reflexivity|]. destruct H as [H1 H2].
  cbn [map c14_table_ok]. rewrite (IH H2), andb_true_r.
  unfold fseg_of at 1 2. cbn [fg_delivered fg_probe].
  destruct (sg_delivered g); [reflexivity|]. destruct (sg_probe g); [|reflexivity].
  cbn [negb andb]. rewrite (H1 eq_refl eq_refl). reflexivity.
Qed.

Lemma new_segments_ok : forall e m l, NP e m l -> PP e m l ->
  forallb (c14_new_segment_ok e m) (map fseg_of l) = true.
Proof.
  intros e m. induction l as [|g r IH]; intros Hn Hp; [reflexivity|].
  inversion Hn as [|? ? Hn1 Hn2]; inversion Hp as [|? ? Hp1 Hp2]; subst.
  cbn [map forallb]. rewrite (IH Hn2 Hp2), andb_true_r.
  unfold c14_new_segment_ok, fseg_of. cbn [fg_abs fg_probe fg_size].
  destruct (Z.leb_spec e (sg_abs g)) as [Hle|Hgt]; [|reflexivity].
  destruct (sg_probe g) eqn:Pb.
  - specialize (Hp1 Hle eq_refl). destruct (Z.ltb_spec m (sg_size g)); [reflexivity|lia].
  - specialize (Hn1 Hle eq_refl). destruct (Z.ltb_spec m (sg_size g)); [lia|reflexivity].
Qed.

Theorem c14_segments_ok_step : forall c (s : vsock) o,
  c14_inv c s -> c14_segments_ok c (fstep_of cci s o) = true.
Proof.
  intros c s o H. pose proof (nonpoll_result s o) as N.
  destruct o; try (unfold c14_segments_ok;
                   match goal with |- match ?x with _ => _ end = true => destruct x eqn:E end;
                   try reflexivity; exfalso; first [exact (N _ _ _ _ E) | exact (N _ _ _ _ eq_refl)]).
  destruct (poll cci (VSockRec.set_sends s script)) as [s' r] eqn:E.
  rewrite (fstep_of_poll cci s script s' r E). unfold c14_segments_ok. cbn [fs_result fs_post fs_pre].
  destruct r; try reflexivity.
  destruct H as [H Hb].
  assert (HS : St (cC c) (cF c) (ss_offset (v_segs s)) (poll_init (VSockRec.set_sends s script))).
  { split; [exact H|]. exact (J0_X_start (cC c) (cF c) s H). }
  pose proof (poll_St (cC c) (cF c) (cT c) (cF_pos c) (cC_nonneg c) _ _ _ _ HS E) as ((S1 & S2 & S3 & S4) & S5 & S6 & _).
  cbn [fp_of_vsock f_segs f_seg_offset f_mss f_max_ss]. unfold mss.
  destruct S1 as [[B1 B2] B3]. fold (cC c) (cF c).
  repeat (apply andb_true_intro; split).
  - apply tok_table_ok; exact S3.
  - apply new_segments_ok; assumption.
  - apply Z.leb_le; exact B1.
  - apply Z.leb_le; exact B2.
  - apply Z.leb_le; exact B3.
Qed.

Theorem c14_segments_ok_trace : forall mk c (s0 : vsock) ops,
  vsock_new cci mk c = Some s0 -> forallb (c14_segments_ok c) (ftrace cci s0 ops) = true.
Proof. intros mk c. apply c14_trace, c14_segments_ok_step. Qed.

(* the invariant is kept by every event and makes both predicates true *)
Theorem c14_step : forall c (s : vsock) o,
  c14_inv c s ->
  c14_inv c (vstep_state cci s o) /\
  c14_datagram_ok c (fstep_of cci s o) = true /\ c14_segments_ok c (fstep_of cci s o) = true /\
  c14_wire_ok c (fstep_of cci s o) = true.
Proof.
  intros c s o H. split; [apply c14_inv_vstep; exact H|].
  split; [apply c14_datagram_ok_step|split; [apply c14_segments_ok_step|apply c14_wire_ok_step]]; exact H.
Qed.

End WithCC.

(* ------------------------------------------------------------------ the clauses are exercised by
   reachable steps (link MTU 1500, path limit 1000): the first poll cuts a 991-byte probe, the
   transport answers EMSGSIZE, the probe is popped (max_ss 1452 -> 990), the poll restarts and cuts
   and sends a 760-byte probe; after the acknowledgements the proven size is 760 and ordinary
   segments of 760 bytes are cut, followed by the next probe *)
Definition c14_ops : list vop :=
  [VoSetLimit (Some 1000); VoWrite (repeat 0 (Z.to_nat 5000)); VoPoll [];
   VoDeliver (wmsg ST_STATE 1 101 0); VoPoll []; VoDeliver (wmsg ST_STATE 1 104 0); VoPoll []].

Definition new_probe_cut (st : fstep) : bool :=
  match fs_result st with
  | FrPoll PollPending _ _ _ =>
      existsb (fun g => fg_probe g && (f_seg_offset (fs_pre st) <=? fg_abs g) && (f_mss (fs_post st) <? fg_size g))
              (f_segs (fs_post st))
  | _ => false
  end.

Definition new_ordinary_cut (st : fstep) : bool :=
  match fs_result st with
  | FrPoll PollPending _ _ _ =>
      existsb (fun g => negb (fg_probe g) && (f_seg_offset (fs_pre st) <=? fg_abs g)) (f_segs (fs_post st))
  | _ => false
  end.

Definition probe_failed_step (c : vconfig) (st : fstep) : bool :=
  (f_max_ss (fs_pre st) =? ceiling_of (ss_config_of c)) && (f_max_ss (fs_post st) <? ceiling_of (ss_config_of c)).

Definition big_datagram (c : vconfig) (st : fstep) : bool :=
  match fs_result st with
  | FrPoll _ pkts _ _ => existsb (fun p => floor_of (ss_config_of c) <? fq_plen p) pkts
  | _ => false
  end.

Lemma c14_nonvacuous :
  exists w cfg ops,
    vconfig_ok cfg = true /\ Forall op_msg_ok ops /\
    existsb new_probe_cut (wtrace w cfg ops) = true /\
    existsb new_ordinary_cut (wtrace w cfg ops) = true /\
    existsb (probe_failed_step cfg) (wtrace w cfg ops) = true /\
    existsb (big_datagram cfg) (wtrace w cfg ops) = true /\
    forallb (c14_datagram_ok cfg) (wtrace w cfg ops) = true /\
    forallb (c14_segments_ok cfg) (wtrace w cfg ops) = true /\
    forallb (c14_wire_ok cfg) (wtrace w cfg ops) = true.
Proof.
  exists 1048576, (wcfg 1048576), c14_ops.
  split; [vm_compute; reflexivity|].
  split; [repeat constructor|].
  repeat split; vm_compute; reflexivity.
Qed.

(* a datagram with the selective-ACK extension is emitted (out-of-order data from the peer) *)
Definition c14_sack_ops : list vop := [VoPoll []; VoDeliver (wmsg ST_DATA 3 100 100); VoPoll []].

Definition sack_datagram (st : fstep) : bool :=
  match fs_result st with
  | FrPoll _ pkts _ _ => existsb (fun p => match ch_sack (fq_hdr p) with Some _ => true | None => false end) pkts
  | _ => false
  end.

Lemma c14_wire_nonvacuous :
  exists w cfg ops,
    vconfig_ok cfg = true /\ Forall op_msg_ok ops /\
    existsb sack_datagram (wtrace w cfg ops) = true /\
    forallb (c14_wire_ok cfg) (wtrace w cfg ops) = true.
Proof.
  exists 1048576, (wcfg 1048576), c14_sack_ops.
  split; [vm_compute; reflexivity|].
  split; [repeat constructor; cbv [op_msg_ok msg_ok wmsg m_hdr ch_type m_payload]; vm_compute; discriminate|].
  split; vm_compute; reflexivity.
Qed.
