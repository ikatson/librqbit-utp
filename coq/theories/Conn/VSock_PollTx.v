(* The sending half of one poll with the extended invariant (VSock_PollAux.vs_x) and with the
   state of every error exit described: send_data, the recovery / new-data loops, send_tx_queue
   (including exactly what a restart after a popped MTU probe leaves behind) and
   split_tx_queue_into_segments.  The byte-accounting part is taken from VSock_Inv.v. *)
From Utp Require Import Base.Prelude Wire.SeqNr Wire.SeqNr_Proofs Wire.Header Rtt.Rtte Rtt.Rtte_Proofs
  Mtu.SegSizes Rx.Rx Rx.Rx_Proofs Tx.Ring Tx.Ring_Proofs Tx.Segments Tx.Segments_Proofs
  Conn.Recovery Conn.Msg Conn.VSockRec Conn.VSock Conn.VSockRun Conn.VObs Conn.C10_Pred
  Conn.VSock_LemmasTx Conn.VSock_Inv Conn.VSock_PollAux.

Section PollTx.
Context {CC : Type} (cci : cc_iface CC).
Notation vsock := (vsock CC).
Notation step := (@step CC).
Variable strict : bool.

(* what the sending half leaves alone *)
Definition tx_rel (s s' : vsock) : Prop :=
  txq_rel s s' /\ v_restart s' = v_restart s /\ v_ss s' = v_ss s /\ v_now s' = v_now s /\
  v_env_now s' = v_env_now s.

Lemma tx_rel_refl s : tx_rel s s.
Proof. split; [apply txq_rel_refl|]. repeat split. Qed.

Lemma tx_rel_trans a b c : tx_rel a b -> tx_rel b c -> tx_rel a c.
Proof.
  intros (A1&A2&A3&A4&A5) (B1&B2&B3&B4&B5). split; [eapply txq_rel_trans; eauto|].
  repeat split; congruence.
Qed.

Lemma ctl_tx_rel s s' : ctl_rel s s' -> tx_rel s s'.
Proof.
  intros ((Hc & Hf & Hr) & Hq & He). split; [apply same_core_txq; exact Hc|].
  destruct Hc as (C1&C2&C3&C4&C5&C6&C7&C8&C9&C10&C11&C12&C13&C14). auto.
Qed.

Definition TQX ti tm p q (s s' : vsock) : Prop := vs_x ti tm p q s' /\ ef strict s' /\ tx_rel s s'.

Lemma TQX_refl ti tm p q s : vs_x ti tm p q s -> ef strict s -> TQX ti tm p q s s.
Proof. intros. split; [assumption|]. split; [assumption|apply tx_rel_refl]. Qed.

Lemma TQX_trans ti tm p q a b c : TQX ti tm p q a b -> TQX ti tm p q b c -> TQX ti tm p q a c.
Proof. intros (_ & _ & H1) (K1 & K2 & K3). split; [exact K1|]. split; [exact K2|eapply tx_rel_trans; eauto]. Qed.

(* a state that differs only in fields neither the invariant nor tx_rel reads *)
Lemma TQX_ctl ti tm p q s s1 s2 : TQX ti tm p q s s1 -> ctl_rel s1 s2 -> TQX ti tm p q s s2.
Proof.
  intros (H1 & H2 & H3) Hc. pose proof Hc as ((Hcore & Hf & _) & _).
  split; [eapply x_same_core; eauto|]. split; [unfold ef in *; auto|].
  eapply tx_rel_trans; [exact H3|apply ctl_tx_rel; exact Hc].
Qed.

(* ------------------------------------------------------------------ send_data *)
Lemma send_data_shape (s : vsock) h f :
  match send_data s h f with
  | SOk s' r =>
      v_now s' = v_now s /\ v_env_now s' = v_env_now s /\
      (v_segs s' = v_segs s \/ v_segs s' = on_sent (v_segs s) (fs_idx f) (v_now s))
  | SErr s' e =>
      e = ErrBug BugOffsetBeyondBufferBounds \/ e = ErrBug BugRequestedLengthExceedsBufferBounds \/
      ctl_rel s s'
  | SPanic => True
  end.
Proof.
  rewrite send_data_eq.
  destruct (_ =? o_max_retx _); [right; right; apply ctl_refl|].
  destruct (fs_payload_offset f <? 0); [exact I|].
  destruct (_ <? fs_payload_offset f); [left; reflexivity|].
  destruct (_ <? fs_payload_offset f + _); [right; left; reflexivity|].
  destruct (next_send s _) as [s1 o] eqn:E.
  destruct (next_send_ctl _ _ _ _ E) as (Hc & _ & _).
  pose proof Hc as (((_&_&C3&_&_&_&_&_&_&_&_&C12&_) & _ & _) & _ & Cenv).
  destruct o; [| |auto|right; right; exact Hc].
  - generalize (data_pkt s h f). intro pk.
    destruct (sent_state_fields s1 pk f) as ((_&_&_&_&_&_&Hn&_) & _ & Hsg & _).
    assert (He : v_env_now (sent_state s1 pk f) = v_env_now s1).
    { unfold sent_state, on_packet_sent, emit. destruct (seq_gt _ _); [destruct (seq_gt _ _)|]; reflexivity. }
    rewrite Hn, He, Hsg, C3, C12. auto.
  - vsimpl. auto.
Qed.

Lemma send_data_x ti tm p q (s : vsock) h f :
  vs_x ti tm p q s -> ef strict s -> fs_ok s f ->
  spx strict (send_data s h f)
      (fun s' r => TQX ti tm p q s s' /\ (strict = true -> r <> SdEmsgsize))
      (vs_xe ti tm q).
Proof.
  intros Hx Hef Hok. pose proof Hx as [Hinv [Haux Hnow]].
  pose proof (VSock_Inv.send_data_spec strict ti tm p s h f Hinv Hef Hok) as Hsd.
  pose proof (send_data_shape s h f) as Hsh.
  destruct (send_data s h f) as [s' r|s' e|]; cbn [sp spx] in *; [| |exact Hsd].
  - destruct Hsd as (A1 & A2 & A3 & A4 & A5 & A6 & A7 & A8). destruct Hsh as (B1 & B2 & B3).
    split; [|exact A8]. split; [|split; [exact A2|split; [exact A3|auto]]].
    split; [exact A1|]. unfold sx. rewrite A5, B1. split; [|exact Hnow].
    destruct B3 as [-> | ->]; [exact Haux|]. eapply aux_ev; [apply on_sent_ev; lia|exact Haux].
  - split; [exact Hsd|]. destruct Hsh as [-> | [-> | Hc]]; [destruct Hsd|destruct Hsd|].
    eapply x_xe, x_same_core; [exact Hx|apply Hc].
Qed.

Lemma Forall_fs_ok_tx_rel (s s' : vsock) l : tx_rel s s' -> Forall (fs_ok s) l -> Forall (fs_ok s') l.
Proof. intros (H & _). apply Forall_fs_ok_tx. exact H. Qed.

(* ------------------------------------------------------------------ the two loops *)
Lemma recovery_loop_x ti tm p q h mss0 : forall items (s : vsock) st,
  vs_x ti tm p q s -> ef strict s -> Forall (fs_ok s) items ->
  spx strict (recovery_loop items s h mss0 st) (fun s' _ => TQX ti tm p q s s') (vs_xe ti tm q).
Proof.
  induction items as [|f rest IH]; intros s st Hx Hef Hok; cbn [recovery_loop].
  { cbn [spx]. apply TQX_refl; assumption. }
  inversion Hok as [|? ? Hf Hrest]; subst.
  destruct (negb _); [cbn [spx]; apply TQX_refl; assumption|].
  destruct (_ && negb (sg_lost _)); [apply IH; assumption|].
  destruct (_ && negb (sg_sacks_after _)); [cbn [spx]; apply TQX_refl; assumption|].
  eapply spx_bind; [apply (send_data_x ti tm p q); assumption|].
  intros s1 r (HT & _). pose proof HT as (Hx1 & Hef1 & Hr1).
  destruct r; cbn [spx allowed]; [|exact HT|split; [exact I|eapply x_xe; exact Hx1]].
  eapply spx_weaken; [apply IH; [assumption|assumption|eapply Forall_fs_ok_tx_rel; eauto]| |auto].
  intros s2 a H2. eapply TQX_trans; eauto.
Qed.

Lemma new_data_loop_x ti tm p q h : forall items (s : vsock) remaining,
  vs_x ti tm p q s -> ef strict s -> Forall (fs_ok s) items ->
  spx strict (new_data_loop items s h remaining)
      (fun s' tl => TQX ti tm p q s s' /\ (strict = true -> tl = None) /\
         (forall seq sz, tl = Some (seq, sz) -> exists f, In f items /\ sz = sg_size (fs_seg f)))
      (vs_xe ti tm q).
Proof.
  induction items as [|f rest IH]; intros s remaining Hx Hef Hok; cbn [new_data_loop].
  { cbn [spx]. split; [apply TQX_refl; assumption|]. split; [reflexivity|discriminate]. }
  inversion Hok as [|? ? Hf Hrest]; subst.
  destruct (_ <? _); [cbn [spx]; split; [apply TQX_refl; assumption|split; [reflexivity|discriminate]]|].
  eapply spx_bind; [apply (send_data_x ti tm p q); assumption|].
  intros s1 r (HT & Hne). pose proof HT as (Hx1 & Hef1 & Hr1).
  destruct r; cbn [spx].
  - eapply spx_weaken; [apply IH; [assumption|assumption|eapply Forall_fs_ok_tx_rel; eauto]| |auto].
    intros s2 a (H2 & H3 & H4). split; [eapply TQX_trans; eauto|]. split; [exact H3|].
    intros seq sz E. destruct (H4 _ _ E) as (f0 & Hin & Hsz). exists f0. split; [right; exact Hin|exact Hsz].
  - split; [exact HT|]. split; [reflexivity|discriminate].
  - split; [exact HT|]. split; [intro Hs; exfalso; apply (Hne Hs); reflexivity|].
    intros seq sz E. injection E as <- <-. exists f. split; [left; reflexivity|reflexivity].
Qed.

(* ------------------------------------------------------------------ the RTO reaction *)
Lemma x_set_recovery ti tm p q (s : vsock) r : vs_x ti tm p q s -> dup_ok r -> vs_x ti tm p q (set_recovery s r).
Proof. unfold vs_x, vs_inv_p, ring_rel, sx. vsimpl. tauto. Qed.

Lemma on_rto_reactions_x ti tm p q (s : vsock) :
  vs_x ti tm p q s -> ef strict s -> exists s2, on_rto_reactions cci s = Some s2 /\ TQX ti tm p q s s2.
Proof.
  intros Hx Hef. pose proof Hx as [Hinv Hsx].
  destruct (VSock_Inv.on_rto_reactions_spec cci strict ti tm p s Hinv Hef) as (s2 & E & (A1 & A2 & A3)).
  exists s2. split; [exact E|]. revert E. unfold on_rto_reactions.
  destruct (Rtte.on_rto_timeout (v_rtte s)) as [rt|]; [|discriminate].
  intro E; injection E as <-.
  split; [split; [exact A1|exact Hsx]|]. split; [exact A2|]. split; [exact A3|]. vsimpl. auto.
Qed.

Lemma Forall_take_skip_firstn {A} (P : A -> Prop) l (q1 q2 : A -> bool) n :
  Forall P l -> Forall P (take_while q1 (skip_while q2 (firstn n l))).
Proof.
  intros Hl. apply Forall_forall. intros x Hx. rewrite Forall_forall in Hl. apply Hl.
  apply In_take_while, In_skip_while in Hx.
  rewrite <- (firstn_skipn n l). apply in_or_app. left. exact Hx.
Qed.

(* ------------------------------------------------------------------ send_tx_queue, part 1: RTO *)
Lemma rto_branch_x ti tm p q (s : vsock) h :
  vs_x ti tm p q s -> ef strict s ->
  spx strict (rto_branch cci s h) (fun s' _ => TQX ti tm p q s s') (vs_xe ti tm q).
Proof.
  intros Hx Hef. pose proof (TQX_refl ti tm p q s Hx Hef) as H0. unfold rto_branch.
  destruct (timer_expired _ _); [|exact H0].
  pose proof (iter_fs_ok ti tm p s None (proj1 Hx)) as Hit.
  destruct (iter_for_sending (v_segs s) None) as [|f rest].
  - destruct (our_fin_if_unacked (v_state s)) as [fin|]; [|exact H0].
    destruct (_ =? fin); [|exact H0].
    set (s1 := set_last_sent_seq_nr s _).
    assert (H1 : TQX ti tm p q s s1) by exact H0.
    eapply spx_bind with (Q1 := fun s2 (_ : bool) => ctl_rel s1 s2).
    + eapply spx_weaken; [apply (maybe_send_fin_x strict)|intros s2 b [Hc _]; exact Hc|].
      intros s2 [[[Hcore _] _] _]. eapply x_xe, x_same_core; [exact (proj1 H1)|exact Hcore].
    + intros s2 sent Hc. pose proof (TQX_ctl _ _ _ _ _ _ _ H1 Hc) as H2.
      destruct sent; cbn [spx]; [|exact H2].
      destruct (on_rto_reactions_x ti tm p q s2 (proj1 H2) (proj1 (proj2 H2))) as (s3 & -> & H3). cbn [spx].
      exact (TQX_trans _ _ _ _ _ _ _ H2 H3).
  - inversion Hit as [|? ? Hf _]; subst.
    eapply spx_bind; [apply (send_data_x ti tm p q); assumption|].
    intros s1 r (HT & _). pose proof HT as (Hx1 & Hef1 & Hr1).
    destruct r; cbn [spx allowed]; [|exact HT|split; [exact I|eapply x_xe; exact Hx1]].
    destruct (negb (sg_probe (fs_seg f))); [|exact HT].
    destruct (on_rto_reactions_x ti tm p q s1 Hx1 Hef1) as (s2 & -> & H2). cbn [spx].
    exact (TQX_trans _ _ _ _ _ _ _ HT H2).
Qed.

(* ------------------------------------------------------------------ part 2: recovery *)
Lemma TQX_set_recovering ti tm p q (s s1 : vsock) rc :
  TQX ti tm p q s s1 -> TQX ti tm p q s (set_recovering s1 rc).
Proof.
  intros (H1 & H2 & H3). unfold set_recovering. split.
  - apply x_set_recovery; [exact H1|]. unfold dup_ok; cbn [rv_phase]; exact I.
  - split; [exact H2|exact H3].
Qed.

Lemma rec_branch_x ti tm p q (s : vsock) h :
  vs_x ti tm p q s -> ef strict s ->
  spx strict (rec_branch s h) (fun s' _ => TQX ti tm p q s s') (vs_xe ti tm q).
Proof.
  intros Hx Hef. pose proof (TQX_refl ti tm p q s Hx Hef) as H0. unfold rec_branch.
  destruct (rv_phase (v_recovery s)) as [rp|d|rc]; try (exact H0).
  eapply spx_bind.
  { apply (recovery_loop_x ti tm p q); [exact Hx|exact Hef|].
    unfold rec_items. apply Forall_take_skip_firstn. eapply iter_fs_ok. exact (proj1 Hx). }
  intros s1 [st early] H1. unfold rec_after.
  match goal with |- spx _ (if early then SOk ?S true else _) _ _ => set (s2 := S) end.
  assert (H2 : TQX ti tm p q s s2) by (apply TQX_set_recovering; exact H1).
  destruct early; [exact H2|].
  match goal with |- spx _ (match our_fin_if_unacked (v_state ?S) with _ => _ end) _ _ => set (s3 := S) end.
  assert (H3 : TQX ti tm p q s s3).
  { unfold s3. destruct (rl_cwnd st <? _); [|exact H2]. destruct (rc_recalc rc); [exact H2|].
    destruct (0 <? _); exact H2. }
  destruct (our_fin_if_unacked (v_state s3)) as [our_fin|]; [|exact H3].
  destruct (_ =? wsub16 our_fin 1); [|exact H3].
  cbn [spx]. apply TQX_set_recovering. exact H3.
Qed.

(* ------------------------------------------------------------------ part 3: new data, probe pop *)
Lemma pop_mtu_probe_struct t sq t' :
  pop_mtu_probe t sq = (t', true) ->
  exists g, ss_segs t = ss_segs t' ++ [g] /\ live_probe g = true.
Proof.
  unfold pop_mtu_probe. destruct (last_and_init (ss_segs t)) as [[init g]|] eqn:E; [|discriminate].
  destruct (_ =? sq); cbn [andb]; [|discriminate].
  destruct (sg_probe g && negb (sg_delivered g)) eqn:El; [|discriminate].
  intro H; injection H as <-. exists g. split; [|exact El].
  cbn [Segments.set_segs ss_segs]. apply last_and_init_spec. exact E.
Qed.

Lemma iter_size_ok q m t st f :
  segs_aux q m (ss_segs t) -> In f (iter_for_sending t st) ->
  q (sg_size (fs_seg f)) \/ sg_size (fs_seg f) <= m.
Proof.
  intros (_ & _ & Hlp & Hnp) Hf.
  pose proof (iter_only_undelivered _ _ _ Hf) as Hnd.
  unfold iter_for_sending in Hf. apply filter_In in Hf. destruct Hf as [Hin _].
  apply in_map_iff in Hin. destruct Hin as ([i g] & <- & Hin). cbn [fs_seg] in *.
  apply enum_from_In in Hin. apply in_skipn in Hin.
  unfold lp_all, np_le in *. rewrite Forall_forall in Hlp, Hnp.
  destruct (sg_probe g) eqn:Ep.
  - left. apply Hlp; [exact Hin|]. unfold live_probe. rewrite Ep, Hnd. reflexivity.
  - right. apply Hnp; assumption.
Qed.

(* what a restart leaves behind: the popped probe had a size in q; the size handed to
   on_probe_failed is in q or at most min_ss; no live probe is left *)
Definition restart_post ti tm p (q : Z -> Prop) (s s' : vsock) : Prop :=
  v_restart s' = true /\ strict = false /\
  exists zp z, q zp /\ 0 <= z /\ (q z \/ z <= min_ss (v_ss s)) /\
    v_ss s' = disarm_cooldown (on_probe_failed (v_ss s) z) /\
    vs_x ti tm p (fun _ => False) s'.

Definition stq_post ti tm p q (s s' : vsock) : Prop :=
  TQX ti tm p q s s' \/
  (ef strict s' /\ txq_rel s s' /\ v_now s' = v_now s /\ v_env_now s' = v_env_now s /\
   restart_post ti tm p q s s').

Lemma stq_post_trans ti tm p q a b c :
  TQX ti tm p q a b -> stq_post ti tm p q b c -> stq_post ti tm p q a c.
Proof.
  intros H1 [H2|(A1 & A2 & A3 & A4 & A5)]; [left; eapply TQX_trans; eauto|right].
  destruct H1 as (_ & _ & (B1 & B2 & B3 & B4 & B5)).
  split; [exact A1|]. split; [eapply txq_rel_trans; eauto|]. split; [congruence|]. split; [congruence|].
  unfold restart_post in *. rewrite <- B3. exact A5.
Qed.

Lemma new_branch_x ti tm p q (s : vsock) h :
  vs_x ti tm p q s -> ef strict s ->
  spx strict (new_branch cci s h) (fun s' _ => stq_post ti tm p q s s') (vs_xe ti tm q).
Proof.
  intros Hx Hef. unfold new_branch.
  eapply spx_bind.
  { apply (new_data_loop_x ti tm p q); [exact Hx|exact Hef|]. unfold new_items. eapply iter_fs_ok. exact (proj1 Hx). }
  intros s1 tl (HT & Htl & Hsrc). unfold new_after.
  destruct tl as [[sq size]|]; [|left; exact HT].
  destruct (Hsrc _ _ eq_refl) as (f & Hin & ->). unfold new_items in Hin.
  pose proof (iter_size_ok q _ _ _ _ (proj1 (proj2 Hx)) Hin) as Hz.
  assert (Hz0 : 0 <= sg_size (fs_seg f)).
  { pose proof (iter_fs_ok ti tm p s (Some (wadd16 (v_last_sent_seq_nr s) 1)) (proj1 Hx)) as Hall.
    rewrite Forall_forall in Hall. apply (Hall f Hin). }
  destruct HT as (Hx1 & Hef1 & (Htq & Hr1 & Hss1 & Hnow1 & Henv1)).
  assert (Hns : strict = false) by (destruct strict; [discriminate (Htl eq_refl)|reflexivity]).
  destruct (pop_mtu_probe (v_segs s1) sq) as [segs' popped] eqn:Epop.
  destruct popped; cbn [spx allowed].
  - right.
    pose proof Hx1 as [Hinv1 [Haux1 Hnow]].
    destruct (inv_parts _ _ _ _ Hinv1) as (I1 & I2 & I3 & I4 & I5 & I6 & I7 & I8).
    destruct (pop_mtu_probe_fields _ _ _ _ I2 Epop) as (P1 & P2 & P3).
    destruct (pop_mtu_probe_struct _ _ _ Epop) as (g & Eg & Hlive).
    split; [exact Hef1|]. split; [exact Htq|].
    vsimpl. split; [exact Hnow1|]. split; [exact Henv1|].
    unfold restart_post. vsimpl. split; [reflexivity|].
    split; [exact Hns|].
    exists (sg_size g), (sg_size (fs_seg f)).
    split.
    { destruct Haux1 as (_ & _ & Hlp & _). rewrite Eg in Hlp. apply lp_app in Hlp. destruct Hlp as [_ Hlp].
      inversion Hlp; subst. auto. }
    split; [exact Hz0|]. split; [exact Hz|]. split; [rewrite Hss1; reflexivity|].
    split.
    + eapply inv_update; [exact Hinv1|..]; vsimpl; try reflexivity; try assumption; auto.
      apply disarm_ss_ok. apply failed_ss_ok. exact I6.
    + unfold sx. vsimpl. split; [|exact Hnow].
      rewrite Eg in Haux1. pose proof (aux_pop _ _ _ _ Haux1) as Hnl.
      apply aux_prefix in Haux1. destruct Haux1 as (T1 & _ & _ & T4).
      apply aux_no_live; [exact T1|exact Hnl|].
      unfold on_probe_failed, disarm_cooldown; cbn [min_ss]. exact T4.
  - split; [exact Hns|]. eapply x_xe; exact Hx1.
Qed.

(* ------------------------------------------------------------------ send_tx_queue *)
Lemma send_tx_queue_x ti tm p q (s : vsock) :
  vs_x ti tm p q s -> ef strict s ->
  spx strict (send_tx_queue cci s) (fun s' _ => stq_post ti tm p q s s') (vs_xe ti tm q).
Proof.
  intros Hx Hef. rewrite send_tx_queue_eq.
  destruct (v_transport_pending s); [cbn [spx]; left; apply TQX_refl; assumption|].
  eapply spx_bind; [apply (rto_branch_x ti tm p q); assumption|].
  intros s1 ret H1. unfold after_rto_k.
  destruct ret; [left; exact H1|].
  destruct (0 <? _); [left; exact H1|].
  destruct (ss_segs (v_segs s1)) as [|g0 gs] eqn:Egs; [left; exact H1|].
  pose proof H1 as (Hx1 & Hef1 & Hr1).
  eapply spx_bind; [apply (rec_branch_x ti tm p q); assumption|].
  intros s2 ret H2. pose proof (TQX_trans _ _ _ _ _ _ _ H1 H2) as H2'.
  destruct ret; [left; exact H2'|].
  pose proof H2 as (Hx2 & Hef2 & Hr2).
  eapply spx_weaken; [apply (new_branch_x ti tm p q); assumption| |auto].
  intros s3 u H3. eapply stq_post_trans; eauto.
Qed.

(* ------------------------------------------------------------------ split_tx_queue_into_segments *)
(* the size of a freshly cut MTU probe: above min_ss, at most the midpoint (+1) and max_ss *)
Definition PB (ss : segsizes) (z : Z) : Prop :=
  min_ss ss < z <= Z.min (min_ss ss + (max_ss ss - min_ss ss) / 2 + 1) (max_ss ss).

Lemma PB_ext ss ss' z : min_ss ss' = min_ss ss -> max_ss ss' = max_ss ss -> PB ss z -> PB ss' z.
Proof. unfold PB. intros -> ->. auto. Qed.

Lemma next_size_bound s : ss_ok s ->
  exists s' r, next_segment_size s = Some (s', r) /\ min_ss s' = min_ss s /\ max_ss s' = max_ss s /\
               min_ss s <= r <= Z.min (min_ss s + (max_ss s - min_ss s) / 2 + 1) (max_ss s).
Proof.
  intros [H1 H2]. unfold next_segment_size. destruct (cd_rem s =? 0).
  - unfold next_probe, np_sum2, np_sum1, np_half, np_diff; cbn [min_ss max_ss].
    replace ((0 <=? max_ss s - min_ss s) && (min_ss s + (max_ss s - min_ss s) / 2 <=? U16_MAX) &&
             (min_ss s + (max_ss s - min_ss s) / 2 + 1 <=? U16_MAX)) with true
      by (unfold U16_MAX in *; symmetry; lia).
    cbn [bind]. eexists _, _. split; [reflexivity|]. cbn [min_ss max_ss]. lia.
  - eexists _, _. split; [reflexivity|]. cbn [min_ss max_ss]. lia.
Qed.

Lemma no_live_snoc l g : no_live l -> live_probe g = false -> no_live (l ++ [g]).
Proof.
  intros H Hg. apply lp_app. split; [exact H|]. constructor; [|constructor]. rewrite Hg. discriminate.
Qed.

Lemma segment_loop_aux : forall fuel nagle ss segs remaining rwr ss' segs' rem',
  ss_ok ss -> segment_loop fuel nagle ss segs remaining rwr = Some (ss', segs', rem') ->
  Forall seg_time_ok (ss_segs segs) -> no_live (ss_segs segs) -> np_le (min_ss ss) (ss_segs segs) ->
  min_ss ss' = min_ss ss /\ max_ss ss' = max_ss ss /\
  segs_aux (PB ss) (min_ss ss) (ss_segs segs').
Proof.
  induction fuel as [|x fuel IH]; intros nagle ss segs remaining rwr ss' segs' rem' Hss; cbn [segment_loop].
  { intro H; injection H as <- <- _. intros. split; [reflexivity|]. split; [reflexivity|]. apply aux_no_live; assumption. }
  destruct ((0 <? remaining) && (0 <? rwr));
    [|intro H; injection H as <- <- _; intros; split; [reflexivity|]; split; [reflexivity|]; apply aux_no_live; assumption].
  destruct (next_size_bound ss Hss) as (ss1 & sz & -> & Hm & Hx & Hsz).
  assert (Hss1 : ss_ok ss1) by (unfold ss_ok in *; rewrite Hm, Hx; exact Hss).
  set (payload := Z.min (Z.min sz rwr) remaining).
  destruct (nagle && _ && _).
  { intro H; injection H as <- <- _. intros. split; [exact Hm|]. split; [exact Hx|]. apply aux_no_live; assumption. }
  destruct (Z.ltb_spec (mss ss1) payload) as [Hp|Hp].
  - intro H; injection H as <- <- _. intros Ht Hn Hnp. split; [exact Hm|]. split; [exact Hx|].
    unfold enqueue, Segments.set_segs; cbn [ss_segs].
    apply aux_enqueue; try assumption; cbn [sg_sent sg_size sg_probe]; try reflexivity.
    + intros _. unfold PB. unfold mss in Hp. unfold payload in *. lia.
    + discriminate.
  - intros H Ht Hn Hnp.
    destruct (IH nagle ss1 (enqueue segs payload false) (remaining - payload) (rwr - payload) ss' segs' rem' Hss1 H)
      as (A1 & A2 & A3).
    + unfold enqueue, Segments.set_segs; cbn [ss_segs]. apply Forall_app. split; [exact Ht|].
      constructor; [|constructor]. unfold seg_time_ok, seg_last_sent; cbn. exact I.
    + unfold enqueue, Segments.set_segs; cbn [ss_segs]. apply no_live_snoc; [exact Hn|]. reflexivity.
    + unfold enqueue, Segments.set_segs; cbn [ss_segs]. rewrite Hm. apply Forall_app. split; [exact Hnp|].
      constructor; [|constructor]. cbn [sg_size sg_probe]. intros _. unfold mss in Hp. lia.
    + split; [congruence|]. split; [congruence|]. rewrite Hm in A3.
      destruct A3 as (B1 & B2 & B3 & B4). split; [exact B1|]. split; [exact B2|]. split; [|exact B4].
      eapply lp_weaken; [|exact B3]. intros z. apply PB_ext; congruence.
Qed.

Lemma pop_expired_struct t to mr t' pe :
  pop_expired_mtu_probe t to mr = (t', pe) ->
  match pe with
  | PeExpired _ _ => exists g, ss_segs t = ss_segs t' ++ [g]
  | PeNotExpired => t' = t
  | PeEmpty => t' = t /\ (forall init g, ss_segs t = init ++ [g] -> live_probe g = false)
  end.
Proof.
  unfold pop_expired_mtu_probe. destruct (last_and_init (ss_segs t)) as [[init0 g0]|] eqn:E.
  - apply last_and_init_spec in E.
    assert (Hu : forall init g, ss_segs t = init ++ [g] -> g = g0).
    { intros init g Hg. rewrite E in Hg. apply app_inj_tail in Hg. symmetry. tauto. }
    destruct (sg_delivered g0) eqn:Ed.
    { intro H; injection H as <- <-. split; [reflexivity|]. intros init g Hg. rewrite (Hu _ _ Hg).
      unfold live_probe. rewrite Ed. apply andb_false_r. }
    destruct (to && sg_probe g0 && (mr <=? seg_retransmit_count g0)).
    { intro H; injection H as <- <-. exists g0. cbn [Segments.set_segs ss_segs]. exact E. }
    destruct (sg_probe g0) eqn:Ep; intro H; injection H as <- <-; [reflexivity|].
    split; [reflexivity|]. intros init g Hg. rewrite (Hu _ _ Hg). unfold live_probe. rewrite Ep. reflexivity.
  - intro H; injection H as <- <-. split; [reflexivity|]. intros init g Hg.
    unfold last_and_init in E. rewrite Hg, rev_app_distr in E. cbn in E. discriminate.
Qed.

Lemma aux_last_dead q m l :
  segs_aux q m l -> (forall init g, l = init ++ [g] -> live_probe g = false) -> no_live l.
Proof.
  intros (_ & B & _) Hl. destruct l as [|x xs] using rev_ind; [constructor|].
  rewrite removelast_app in B by discriminate. cbn [removelast] in B. rewrite app_nil_r in B.
  apply no_live_snoc; [exact B|]. eapply Hl. reflexivity.
Qed.

Definition split_post ti tm q (s s' : vsock) : Prop :=
  vs_x ti tm 0 (fun z => q z \/ PB (v_ss s') z) s' /\ ef strict s' /\ split_rel s s' /\
  ss_mono (v_ss s) (v_ss s') /\ v_now s' = v_now s /\ v_env_now s' = v_env_now s.

Lemma split_err (s s' : vsock) e :
  split_tx_queue_into_segments cci s = SErr s' e -> e = ErrBug BugInBufferComputations.
Proof.
  unfold split_tx_queue_into_segments.
  destruct (_ =? 0); [discriminate|].
  match goal with |- context [is_remote_fin_or_later (v_state ?S)] => generalize S end. intro s1.
  destruct (is_remote_fin_or_later (v_state s1)); [discriminate|].
  destruct (pop_expired_mtu_probe _ _ _) as [segs1 pe].
  assert (Hc : forall s2 : vsock,
    (if Z.of_nat (length (ring (v_tx s))) <? ss_len_bytes (v_segs s2)
     then SErr s2 (ErrBug BugInBufferComputations)
     else match segment_loop (ring (v_tx s2)) (o_nagle (v_opts s2)) (v_ss s2) (v_segs s2)
                  (Z.of_nat (length (ring (v_tx s))) - ss_len_bytes (v_segs s2)) (v_last_remote_window s2) with
          | None => SPanic
          | Some (ss', segs', remaining) =>
              SOk (set_unsegmented (VSockRec.set_segs (set_ss s2 ss') segs') remaining) tt
          end) = SErr s' e -> e = ErrBug BugInBufferComputations).
  { intro s2. destruct (_ <? _); [intro H; injection H as _ <-; reflexivity|].
    destruct (segment_loop _ _ _ _ _ _) as [[[a b] c]|]; discriminate. }
  destruct pe; [apply Hc|discriminate|apply Hc].
Qed.

Lemma split_aux ti tm q (s : vsock) :
  vs_x ti tm 0 q s ->
  match split_tx_queue_into_segments cci s with
  | SOk s' _ =>
      sx (fun z => q z \/ PB (v_ss s') z) s' /\ ss_mono (v_ss s) (v_ss s') /\
      v_now s' = v_now s /\ v_env_now s' = v_env_now s
  | SErr _ e => e = ErrBug BugInBufferComputations
  | SPanic => True
  end.
Proof.
  intros [Hinv [Haux Hnow]].
  destruct (inv_parts _ _ _ _ Hinv) as (I1 & I2 & I3 & I4 & I5 & I6 & I7 & I8).
  assert (Hq : forall ss, segs_aux q (min_ss (v_ss s)) (ss_segs (v_segs s)) ->
                 segs_aux (fun z => q z \/ PB ss z) (min_ss (v_ss s)) (ss_segs (v_segs s)))
    by (intros ss; apply aux_weaken; auto).
  (* a result that has the table, the sizes and the clocks of s *)
  assert (Hsame : forall s' : vsock,
            v_segs s' = v_segs s -> v_ss s' = v_ss s -> v_now s' = v_now s -> v_env_now s' = v_env_now s ->
            sx (fun z => q z \/ PB (v_ss s') z) s' /\ ss_mono (v_ss s) (v_ss s') /\
            v_now s' = v_now s /\ v_env_now s' = v_env_now s).
  { intros s' E1 E2 E3 E4. unfold sx, ss_mono. rewrite E1, E2, E3.
    split; [split; [apply Hq; exact Haux|exact Hnow]|]. split; [lia|auto]. }
  unfold split_tx_queue_into_segments.
  destruct (_ =? 0); [apply Hsame; reflexivity|].
  match goal with |- context [is_remote_fin_or_later (v_state ?S)] => set (s1 := S) end.
  assert (H1 : v_segs s1 = v_segs s /\ v_ss s1 = v_ss s /\ v_now s1 = v_now s /\ v_env_now s1 = v_env_now s).
  { unfold s1. destruct (_ && _); [|auto].
    destruct (grow (v_tx s) (o_tx_max (v_opts s))) as [tx1 g]. destruct g.
    - destruct (wake_writer tx1) as [tx2 w]. unfold add_wakes. vsimpl. auto.
    - vsimpl. auto. }
  clearbody s1. destruct H1 as (Hsg1 & Hss1 & Hnow1 & Henv1).
  destruct (is_remote_fin_or_later (v_state s1)).
  { apply Hsame; assumption. }
  destruct (pop_expired_mtu_probe (v_segs s1) _ _) as [segs1 pe] eqn:Epe. rewrite Hsg1 in Epe.
  pose proof (pop_expired_struct _ _ _ _ _ Epe) as Hst.
  (* the common continuation *)
  assert (Hcont : forall s2 : vsock,
     ss_ok (v_ss s2) -> ss_mono (v_ss s) (v_ss s2) -> min_ss (v_ss s2) = min_ss (v_ss s) ->
     v_now s2 = v_now s -> v_env_now s2 = v_env_now s ->
     Forall seg_time_ok (ss_segs (v_segs s2)) -> no_live (ss_segs (v_segs s2)) ->
     np_le (min_ss (v_ss s2)) (ss_segs (v_segs s2)) ->
     match (if Z.of_nat (length (ring (v_tx s))) <? ss_len_bytes (v_segs s2)
            then SErr s2 (ErrBug BugInBufferComputations)
            else match segment_loop (ring (v_tx s2)) (o_nagle (v_opts s2)) (v_ss s2) (v_segs s2)
                         (Z.of_nat (length (ring (v_tx s))) - ss_len_bytes (v_segs s2))
                         (v_last_remote_window s2) with
                 | None => SPanic
                 | Some (ss', segs', remaining) =>
                     SOk (set_unsegmented (VSockRec.set_segs (set_ss s2 ss') segs') remaining) tt
                 end) with
     | SOk s' _ =>
         sx (fun z => q z \/ PB (v_ss s') z) s' /\ ss_mono (v_ss s) (v_ss s') /\
         v_now s' = v_now s /\ v_env_now s' = v_env_now s
     | SErr _ e => e = ErrBug BugInBufferComputations
     | SPanic => True
     end).
  { intros s2 Hok2 Hmono2 Hmin2 Hn2 He2 Ht2 Hnl2 Hnp2.
    destruct (_ <? _); [reflexivity|].
    destruct (segment_loop _ _ _ _ _ _) as [[[ss' segs'] rem']|] eqn:Esl; [|exact I].
    destruct (segment_loop_aux _ _ _ _ _ _ _ _ _ Hok2 Esl Ht2 Hnl2 Hnp2) as (A1 & A2 & A3).
    unfold sx, ss_mono in *. vsimpl. rewrite A1, A2.
    split; [split; [|lia]|split; [lia|auto]].
    eapply aux_weaken; [|exact A3]. intros z Hz. right. eapply PB_ext; [| |exact Hz]; congruence. }
  destruct pe as [rewind_to payload_size| |].
  - destruct Hst as (g & Eg).
    destruct (failed_ss_ok (v_ss s) payload_size I6) as (F1 & F2 & F3).
    rewrite Eg in Haux. pose proof (aux_pop _ _ _ _ Haux) as Hnl. apply aux_prefix in Haux.
    destruct Haux as (T1 & _ & _ & T4).
    apply Hcont; destruct (seq_gt _ _); vsimpl; rewrite ?Hss1, ?Hnow1, ?Henv1; unfold ss_mono; auto; try lia;
      try (rewrite F3; exact T4).
  - subst segs1. apply Hsame; assumption.
  - destruct Hst as (-> & Hdead).
    pose proof (aux_last_dead _ _ _ Haux Hdead) as Hnl. destruct Haux as (T1 & _ & _ & T4).
    apply Hcont; rewrite ?Hsg1, ?Hss1, ?Hnow1, ?Henv1; unfold ss_mono; auto; lia.
Qed.

Lemma split_x ti tm q (s : vsock) :
  vs_x ti tm 0 q s -> ef strict s ->
  spx strict (split_tx_queue_into_segments cci s) (fun s' _ => split_post ti tm q s s') (fun _ => False).
Proof.
  intros Hx Hef. pose proof (split_spec cci strict ti tm s (proj1 Hx) Hef) as Hsp.
  pose proof (split_aux ti tm q s Hx) as Hau.
  destruct (split_tx_queue_into_segments cci s) as [s' u|s' e|]; cbn [sp spx] in *; [| |exact Hsp].
  - destruct Hsp as (A1 & A2 & A3). destruct Hau as (B1 & B2 & B3 & B4).
    unfold split_post. split; [split; [exact A1|exact B1]|]. auto.
  - rewrite Hau in Hsp. destruct Hsp.
Qed.

End PollTx.
