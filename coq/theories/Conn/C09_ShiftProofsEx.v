(* C09 trace shift: the initial state of the relabelled run, non-vacuity of the guard (concrete
   scenarios whose sequence numbers wrap inside the transfer), and a witness that outside the guard
   the relabelling does NOT commute (class D4: distances beyond WRAP_TOLERANCE get the wrong sign). *)
From Utp Require Import Base.Prelude Wire.SeqNr Wire.SeqNr_Proofs Wire.Header Rtt.Rtte Mtu.SegSizes Rx.Rx Tx.Ring
  Tx.Segments Conn.Recovery Conn.Msg Conn.VSockRec Conn.VSock Conn.VSockRun Conn.VObs Conn.C10_Pred
  Conn.VSock_Inv Conn.C09_Pred Conn.C09_Shift Conn.C09_ShiftProofsSeq Conn.C09_ShiftProofsSeg
  Conn.C09_ShiftProofsRec Conn.C09_ShiftProofsTx Conn.C09_ShiftProofsIn Conn.C09_ShiftProofsPoll.

Section New.
Variables da db dc : Z.
Context {CC : Type} (cci : cc_iface CC).

Lemma vsock_new_shift (mk_cc : Z -> Z -> CC) c :
  vsock_new cci mk_cc (shift_config da db dc c) =
  match vsock_new cci mk_cc c with Some s => Some (shift_vsock da db dc s) | None => None end.
Proof.
  unfold vsock_new. cbn [shift_config vc_incoming vc_ipv4 vc_link_mtu vc_rx_buf vc_tx_init vc_tx_max
    vc_nagle vc_max_retx vc_inactivity vc_wait_last_ack vc_mtu_probe_max_retx vc_isn vc_remote_seq
    vc_remote_conn_id vc_remote_wnd vc_remote_ts vc_syn_sent vc_now0].
  destruct (match (if vc_incoming c then None else Some (sat_sub (vc_now0 c) (vc_syn_sent c))) with
            | Some r => sample rtte_default r | None => Some rtte_default end) as [rtte0|]; [|reflexivity].
  destruct (vc_incoming c); rewrite ?sh16_wadd16, ?sh16_wsub16; reflexivity.
Qed.

(* the two runs of the metamorphic check, from their construction parameters: the second run is built
   from the relabelled parameters and fed the relabelled events *)
Theorem model_runs_shift_ok (mk_cc : Z -> Z -> CC) c ops s :
  vsock_new cci mk_cc c = Some s -> c09_guard_trace cci s ops = true ->
  exists s2, vsock_new cci mk_cc (shift_config da db dc c) = Some s2 /\
             c09_shift_ok da db dc (ftrace cci s ops) (ftrace cci s2 (map (shift_op da db) ops)) = true.
Proof.
  intros E G. exists (shift_vsock da db dc s). split.
  - now rewrite vsock_new_shift, E.
  - now apply model_trace_shift_ok.
Qed.
(* the same for a start state that is the result of a construction that may fail *)
Lemma model_trace_shift_ok_opt (o : option (vsock CC)) ops :
  match o with Some s => c09_guard_trace cci s ops | None => false end = true ->
  match o with
  | Some s =>
      c09_shift_ok da db dc (ftrace cci s ops) (ftrace cci (shift_vsock da db dc s) (map (shift_op da db) ops))
  | None => false
  end = true.
Proof. destruct o as [s|]; [apply model_trace_shift_ok|trivial]. Qed.
End New.

(* ------------------------------------------------------------------ non-vacuity *)
Definition ex_cfg (isn rseq : Z) : vconfig :=
  {| vc_incoming := false; vc_ipv4 := true; vc_link_mtu := 1500; vc_rx_buf := 1048576;
     vc_tx_init := 32768; vc_tx_max := 1048576; vc_nagle := false; vc_max_retx := 5;
     vc_inactivity := 10000000000; vc_wait_last_ack := true; vc_mtu_probe_max_retx := 1;
     vc_isn := isn; vc_remote_seq := rseq; vc_remote_conn_id := 7; vc_remote_wnd := 1048576;
     vc_remote_ts := 5; vc_syn_sent := 0; vc_now0 := 1000000 |}.

Definition ex_hdr (t : ptype) (seq ack : Z) (sk : option sackbits) : chdr :=
  {| ch_type := t; ch_conn_id := 0; ch_ts := 10; ch_ts_diff := 0; ch_wnd := 1048576;
     ch_seq := seq; ch_ack := ack; ch_sack := sk; ch_close_reason := None |}.

Definition ex_msg (t : ptype) (seq ack : Z) (len : nat) : msg :=
  {| m_hdr := ex_hdr t seq ack None; m_payload := repeat 7 len |}.

Definition ex_new (isn rseq : Z) : option (vsock unit) :=
  vsock_new (fixed_cc 100000) (fun _ _ => tt) (ex_cfg isn rseq).

Definition ex_sk (bits : list bool) : option sackbits :=
  Some {| sk_bits := bits ++ repeat false (64 - length bits); sk_len := 64 |}.

(* our numbers start at 65533 and the peer's at 65534: both wrap inside the transfer.
   3000 bytes are written and sent; the peer's data arrives in order and out of order and is
   acknowledged; a retransmission timeout; cumulative ACKs; more data, selective ACKs that start a
   fast recovery with one retransmission, the recovery point is reached; we shut down, our FIN is
   acknowledged, the peer's FIN arrives. *)
Definition ex_ops : list vop :=
  [VoWrite (repeat 1 3000); VoPoll [];
   VoDeliver (ex_msg ST_DATA 65534 65533 100); VoPoll [];
   VoDeliver (ex_msg ST_DATA 0 65533 100); VoPoll [];
   VoDeliver (ex_msg ST_DATA 65535 65534 100); VoPoll [];
   VoRead 1000;
   VoSetNow 3000000000; VoPoll [];
   VoDeliver (ex_msg ST_STATE 0 65535 0); VoPoll [];
   VoDeliver (ex_msg ST_STATE 0 0 0); VoPoll [];
   VoWrite (repeat 2 3000); VoPoll [];
   VoDeliver {| m_hdr := ex_hdr ST_STATE 0 0 (ex_sk [true;true]); m_payload := [] |}; VoPoll [];
   VoDeliver {| m_hdr := ex_hdr ST_STATE 0 0 (ex_sk [true;true;true]); m_payload := [] |}; VoPoll [];
   VoDeliver (ex_msg ST_STATE 0 4 0); VoPoll [];
   VoShutdown; VoPoll [];
   VoDeliver (ex_msg ST_STATE 0 5 0); VoPoll [];
   VoDeliver (ex_msg ST_FIN 1 5 0); VoPoll []].

Definition ex_guard (ops : list vop) : bool :=
  match ex_new 65533 65534 with
  | Some s => c09_guard_trace (fixed_cc 100000) s ops
  | None => false
  end.

(* with the scenario a variable: asked to unfold ex_guard between closed terms, the kernel compares
   them by running the whole scenario *)
Lemma ex_guard_unfold ops :
  ex_guard ops = match ex_new 65533 65534 with
                 | Some s => c09_guard_trace (fixed_cc 100000) s ops
                 | None => false
                 end.
Proof. reflexivity. Qed.

(* the guard holds along the whole scenario, and the scenario does reach the wrap, a timeout, a fast
   recovery and both FINs *)
Definition ex_reaches (ops : list vop) : bool :=
  match ex_new 65533 65534 with
  | Some s =>
      let tr := ftrace (fixed_cc 100000) s ops in
      existsb (fun st => f_snd_una (fs_post st) <? f_snd_una (fs_pre st)) tr &&
      existsb (fun st => f_last_consumed (fs_post st) <? f_last_consumed (fs_pre st)) tr &&
      existsb (fun st => 0 <? f_rto_retx (fs_post st)) tr &&
      existsb (fun st => match f_recovery (fs_post st) with Recovering _ => true | _ => false end) tr &&
      existsb (fun st => match f_state (fs_post st) with FinWait1 _ => true | _ => false end) tr &&
      existsb (fun st => match f_state (fs_post st) with Closed => true | _ => false end) tr
  | None => false
  end.

Example guard_satisfiable : ex_guard ex_ops = true /\ ex_reaches ex_ops = true.
Proof. split; vm_compute; reflexivity. Qed.

(* the theorem applied to that scenario, with three unrelated shifts *)
Example c09_shift_ok_instance :
  match ex_new 65533 65534 with
  | Some s =>
      c09_shift_ok 4242 31000 99
        (ftrace (fixed_cc 100000) s ex_ops)
        (ftrace (fixed_cc 100000) (shift_vsock 4242 31000 99 s) (map (shift_op 4242 31000) ex_ops))
  | None => false
  end = true.
Proof.
  apply model_trace_shift_ok_opt. rewrite <- ex_guard_unfold. exact (proj1 guard_satisfiable).
Qed.

(* ------------------------------------------------------------------ outside the guard *)
(* two segments outstanding (snd_una = 65534) and an ACK for a number 30000 far outside the
   tolerance: the unshifted run ignores it (distance read as negative), the run shifted by 10 takes
   it as a cumulative ACK of everything (distance read as positive) and goes on to send new data.
   Class D4. *)
Definition bad_prefix : list vop :=
  [VoWrite (repeat 1 3000); VoPoll []; VoDeliver (ex_msg ST_STATE 65534 30000 0)].

(* number of datagrams the step emitted *)
Definition nsegs (r : vsock unit * vout * bool * bool) : nat :=
  match snd (fst (fst r)) with VrPoll _ pk _ _ => length pk | _ => O end.

Definition bad_s (s0 : vsock unit) : vsock unit :=
  fold_left (fun s o => fst (fst (fst (vstep (fixed_cc 100000) s o)))) bad_prefix s0.

Lemma bad_check_true :
  match ex_new 65533 65534 with
  | Some s0 =>
      negb (c09_guard_vstep (fixed_cc 100000) (bad_s s0) (VoPoll [])) &&
      negb (Nat.eqb (nsegs (vstep (fixed_cc 100000) (shift_vsock 10 0 0 (bad_s s0)) (shift_op 10 0 (VoPoll []))))
                    (nsegs (shift_vres 10 0 0 (vstep (fixed_cc 100000) (bad_s s0) (VoPoll [])))))
  | None => false
  end = true.
Proof. vm_compute. reflexivity. Qed.

Lemma shift_outside_guard_refuted :
  exists (s : vsock unit) (o : vop) (da db dc : Z),
    c09_guard_vstep (fixed_cc 100000) s o = false /\
    vstep (fixed_cc 100000) (shift_vsock da db dc s) (shift_op da db o) <>
    shift_vres da db dc (vstep (fixed_cc 100000) s o).
Proof.
  pose proof bad_check_true as B.
  destruct (ex_new 65533 65534) as [s0|]; [|discriminate B].
  apply andb_true_iff in B as [B1 B2].
  exists (bad_s s0), (VoPoll []), 10, 0, 0. split.
  - apply negb_true_iff in B1. exact B1.
  - intros H. apply negb_true_iff in B2. apply Nat.eqb_neq in B2. apply B2. exact (f_equal nsegs H).
Qed.
