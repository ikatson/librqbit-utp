(* C08 at connection level — the step predicate c08_deadline_ok of Conn/C14C08_Pred.v as a THEOREM
   about every step of the model and every trace, and what the armed deadline is good for: a poll
   that starts at or after the deadline, with nothing from the peer in the inbox and a transport
   that does not block, does not return Pending (the task ends). *)
From Utp Require Import Base.Prelude Wire.SeqNr Wire.Header Rtt.Rtte Mtu.SegSizes Rx.Rx Tx.Ring Tx.Segments
  Conn.Recovery Conn.Msg Conn.VSockRec Conn.VSock Conn.VSockRun Conn.VObs Conn.C10_Pred Conn.C05_Pred
  Conn.C14C08_Pred Conn.C08_Pred2 Conn.VSock_Lemmas Conn.VSock_LemmasStep Conn.VSock_LemmasPipe
  Conn.C17_StepLemmas Conn.C17_Step Conn.VSock_Inv Conn.C10_Proofs.

Lemma opt_min_le_r : forall a b x, b = Some x -> exists y, opt_min a b = Some y /\ y <= x.
Proof. intros a b x ->. destruct a as [z|]; cbn [opt_min]; eexists; split; try reflexivity; lia. Qed.

Lemma opt_min_le_l : forall a b x, a = Some x -> exists y, opt_min a b = Some y /\ y <= x.
Proof. intros a b x ->. destruct b as [z|]; cbn [opt_min]; eexists; split; try reflexivity; lia. Qed.

Lemma timer_arm_keep_le : forall t now d, exists e, timer_arm t now d false = Some e /\ e <= now + d.
Proof. intros t now d. destruct t as [e|]; cbn [timer_arm]; eexists; split; try reflexivity; lia. Qed.

Section WithCC.
Context {CC : Type} (cci : cc_iface CC).
Notation vsock := (vsock CC).

(* ------------------------------------------------------------------ the timer tail of a poll that
   leaves our FIN out: the final-chance / inactivity deadline is armed, at most one second away,
   and the sleep asked for ends no later *)
Lemma tail_deadline : forall (sb : vsock),
  v_transport_pending sb = false -> is_local_fin_or_later (v_state sb) = true ->
  exists t d,
    v_t_inactivity (poll_tail sb) = Some t /\ t <= v_now sb + SHUTDOWN_FINAL_CHANCE_DELAY /\
    v_arm_in (poll_tail sb) = Some d /\ v_now sb + d <= Z.max t (v_now sb) /\ 0 <= d /\
    (forall t0, v_t_inactivity sb = Some t0 -> t <= t0).
Proof.
  intros sb Tp Hf. unfold poll_tail. rewrite Hf.
  destruct (timer_arm_keep_le (v_t_inactivity sb) (v_now sb) SHUTDOWN_FINAL_CHANCE_DELAY) as (t & Et & Ht).
  assert (Hmon : forall t0, v_t_inactivity sb = Some t0 -> t <= t0).
  { intros t0 E0. rewrite E0 in Et. cbn [timer_arm] in Et. injection Et as <-. lia. }
  set (s1 := set_t_inactivity sb (timer_arm (v_t_inactivity sb) (v_now sb) SHUTDOWN_FINAL_CHANCE_DELAY false)).
  assert (K : v_transport_pending s1 = false /\ v_t_inactivity s1 = Some t /\ v_now s1 = v_now sb).
  { subst s1. split; [exact Tp|]. split; [exact Et|exact eq_refl]. }
  clearbody s1. destruct K as (T1 & I1 & N1).
  unfold next_timer_to_poll. rewrite T1.
  destruct (opt_min_le_l (v_t_inactivity s1) (opt_min (v_t_recovery_pipe s1) (v_t_syn_ack_resend s1)) t I1)
    as (y1 & E1 & L1).
  destruct (opt_min_le_r (v_t_retransmit s1) _ y1 E1) as (y2 & E2 & L2).
  destruct (opt_min_le_r (v_t_ack_delay s1) _ y2 E2) as (y3 & E3 & L3).
  rewrite E3. unfold arm_in, add_wakes.
  change (v_now (set_t_recovery_pipe s1 None)) with (v_now s1). rewrite N1.
  destruct (Z.leb_spec (sat_sub y3 (v_now sb)) 0) as [Hz|Hp].
  - exists t, 0. split; [exact I1|]. split; [exact Ht|]. split; [exact eq_refl|].
    split; [lia|]. split; [lia|exact Hmon].
  - exists t, (sat_sub y3 (v_now sb)). split; [exact I1|]. split; [exact Ht|]. split; [exact eq_refl|].
    unfold sat_sub in *. split; [lia|]. split; [lia|exact Hmon].
Qed.

(* ================================================================== c08_deadline_ok *)
Theorem c08_deadline_ok_step : forall cfg (s : vsock) o, c08_deadline_ok cfg (fstep_of cci s o) = true.
Proof.
  intros cfg s o.
  destruct o; try (unfold c08_deadline_ok; rewrite fstep_of_event; reflexivity).
  destruct (poll cci (VSockRec.set_sends s script)) as [s' r] eqn:E.
  rewrite (fstep_of_poll cci s script s' r E). unfold c08_deadline_ok.
  cbn [fs_event fs_result fs_post fs_now]. destruct r; try reflexivity.
  cbn [fp_of_vsock f_state f_transport_pending f_t_inactivity].
  destruct (is_local_fin_or_later (v_state s') && negb (v_transport_pending s')) eqn:G; [|reflexivity].
  apply andb_true_iff in G. destruct G as [G1 G2]. apply negb_true_iff in G2.
  apply poll_pending_inv in E; [|exact G2].
  destruct E as (sa & sb & b & _ & Ea & Na & _ & _ & Em & Tb & ->).
  pose proof (maybe_send_ack_frame0 sa) as F0. rewrite Em in F0. destruct F0 as (_ & F2 & F3 & _).
  destruct (poll_tail_fields sb) as (_ & _ & _ & Hst & _ & _ & _ & _ & _ & _ & _ & Hen & _).
  rewrite Hst in G1. rewrite Hen.
  assert (Hnow : v_now sb = v_env_now sb) by congruence.
  destruct (tail_deadline sb Tb G1) as (t & d & E1 & L1 & E2 & L2 & _).
  rewrite E1, E2. rewrite <- Hnow. unfold SHUTDOWN_FINAL_CHANCE_DELAY in L1.
  apply andb_true_intro. split; apply Z.leb_le; lia.
Qed.

Theorem c08_deadline_ok_trace : forall cfg ops (s : vsock),
  forallb (c08_deadline_ok cfg) (ftrace cci s ops) = true.
Proof.
  intros cfg ops s. apply (ftrace_forallb cci (fun _ => True)); auto.
  intros s0 o _. apply c08_deadline_ok_step.
Qed.

(* ================================================================== the deadline fires
   A poll that starts at or after the inactivity / final-chance deadline, with nothing from the peer
   in the inbox (and the inbox open), handed a transport that never answers Pending in this poll,
   does not return Pending: it ends the task (Ready with RemoteInactiveForTooLong, or with an
   earlier error of the same poll). *)
Definition nopend (o : send_outcome) : Prop := o <> TPending.

Lemma script_nopending_Forall : forall sc, script_nopending sc = true -> Forall nopend sc.
Proof.
  intros sc H. apply Forall_forall. intros o Ho. unfold script_nopending in H.
  rewrite forallb_forall in H. specialize (H o Ho). unfold nopend. intro E. subst o. discriminate.
Qed.

Definition Qd (t : Z) (s : vsock) : Prop :=
  v_t_inactivity s = Some t /\ t <= v_now s /\ v_inbox s = [] /\ v_inbox_closed s = false /\
  v_transport_pending s = false /\ v_restart s = false /\ Forall nopend (v_sends s).

Lemma Qd_same : forall t (a b : vsock), Qd t a ->
  v_t_inactivity b = v_t_inactivity a -> v_now b = v_now a -> v_inbox b = v_inbox a ->
  v_inbox_closed b = v_inbox_closed a -> v_transport_pending b = v_transport_pending a ->
  v_restart b = v_restart a -> v_sends b = v_sends a -> Qd t b.
Proof.
  unfold Qd. intros t a b (A1 & A2 & A3 & A4 & A5 & A6 & A7) E1 E2 E3 E4 E5 E6 E7.
  rewrite E1, E2, E3, E4, E5, E6, E7. tauto.
Qed.

Lemma next_send_Qd : forall (s : vsock) n s1 o,
  Forall nopend (v_sends s) -> next_send s n = (s1, o) ->
  o <> TPending /\ Forall nopend (v_sends s1) /\
  v_t_inactivity s1 = v_t_inactivity s /\ v_now s1 = v_now s /\ v_inbox s1 = v_inbox s /\
  v_inbox_closed s1 = v_inbox_closed s /\ v_transport_pending s1 = v_transport_pending s /\
  v_restart s1 = v_restart s.
Proof.
  intros s n s1 o Hf. unfold next_send. destruct (v_sends s) as [|o0 r] eqn:Es.
  - destruct (v_emsg_limit s) as [m|]; [destruct (m <? n)|]; intro H; injection H as <- <-;
      (split; [discriminate|]); rewrite Es; (split; [constructor|]); repeat split.
  - inversion Hf as [|? ? Ho Hr]; subst. unfold nopend in Ho.
    destruct o0; try contradiction;
      [destruct (v_emsg_limit s) as [m|]; [destruct (m <? n)|]| |];
      intro H; injection H as <- <-; (split; [discriminate|]); (split; [exact Hr|]); repeat split.
Qed.

Definition stQ (t : Z) {A} (m : step A) : Prop := stU (Qd t) m.

Lemma send_control_packet_Qd : forall t (s : vsock) h, Qd t s -> stU (Qd t) (send_control_packet s h).
Proof.
  intros t s h HQ. pose proof HQ as (A1 & A2 & A3 & A4 & A5 & A6 & A7). unfold send_control_packet. rewrite A5.
  destruct (next_send s _) as [s1 o] eqn:E.
  destruct (next_send_Qd _ _ _ _ A7 E) as (N0 & N1 & N2 & N3 & N4 & N5 & N6 & N7).
  assert (HQ1 : Qd t s1) by (unfold Qd; rewrite N2, N3, N4, N5, N6, N7; tauto).
  destruct o; cbn [stU]; try exact I; [|contradiction].
  unfold on_packet_sent, emit. eapply Qd_same; [exact HQ1|exact eq_refl ..].
Qed.

Lemma send_ack_Qd : forall t (s : vsock), Qd t s -> stU (Qd t) (send_ack s).
Proof. intros t s H. unfold send_ack. apply send_control_packet_Qd. exact H. Qed.

Lemma maybe_send_syn_ack_Qd : forall t (s : vsock), Qd t s -> stU (Qd t) (maybe_send_syn_ack s).
Proof.
  intros t s HQ. unfold maybe_send_syn_ack.
  assert (G : forall c, stU (Qd t)
     (if c =? o_max_retx (v_opts s) then SErr s ErrMaxSynAckRetransmissionsReached
      else sbind (send_ack s) (fun s1 sent =>
        if sent then SOk (set_t_syn_ack_resend (set_state s1 (SynAckSent (c + 1)))
               (timer_arm (v_t_syn_ack_resend s1) (v_now s1) SYNACK_RESEND_INTERNAL true)) tt
        else SOk s1 tt))).
  { intros c. destruct (_ =? _); [exact I|].
    pose proof (send_ack_Qd t s HQ) as Hs.
    destruct (send_ack s) as [s1 sent|s1 e|]; cbn [sbind stU] in *; try exact I.
    destruct sent; cbn [stU]; [|exact Hs]. eapply Qd_same; [exact Hs|exact eq_refl ..]. }
  destruct (v_state s); try (cbn [stU]; eapply Qd_same; [exact HQ|exact eq_refl ..]).
  - apply G.
  - destruct (timer_expired _ _); [apply G|exact HQ].
Qed.

Lemma process_all_Qd : forall t (s : vsock), Qd t s -> stU (Qd t) (process_all_incoming_messages cci s).
Proof.
  intros t s HQ. pose proof HQ as (A1 & A2 & A3 & A4 & A5 & A6 & A7).
  rewrite process_all_eq. rewrite A3. cbn [app recv_loop]. rewrite A3, A4. cbn [sbind].
  unfold pa_tail.
  cbn [on_ack_result_default ar_acked_segments ar_newly_sacked_segments Z.ltb Z.compare orb sbind].
  assert (HQ1 : Qd t (set_inbox_waker s true)) by (eapply Qd_same; [exact HQ|exact eq_refl ..]).
  destruct (rv_phase (v_recovery (set_inbox_waker s true))); cbn [stU]; try exact HQ1.
  destruct (calc_pipe _ _ _ _ _) as [[[sg pp] rcl]|]; [|exact I].
  cbn [stU]. unfold set_recovering. eapply Qd_same; [exact HQ1|exact eq_refl ..].
Qed.

(* neither Pending nor a restart *)
Definition ends (r : body_res (CC := CC)) : Prop :=
  match r with BrReturn _ PollPending => False | BrRestart _ => False | _ => True end.

Lemma Qd_stage : forall t chk X (m : step X), stU (Qd t) m -> stage ends chk (Qd t) m.
Proof.
  intros t chk X m Hm. destruct m as [s1 a|s1 e|]; cbn [stage stU] in *; try exact I.
  pose proof Hm as (_ & _ & _ & _ & A5 & A6 & _). rewrite A6, A5, andb_false_r. exact Hm.
Qed.

Theorem poll_body_deadline : forall t (s0 : vsock),
  v_t_inactivity s0 = Some t -> t <= v_env_now s0 -> v_inbox s0 = [] -> v_inbox_closed s0 = false ->
  Forall nopend (v_sends s0) -> ends (poll_body cci s0).
Proof.
  intros t s0 H1 H2 H3 H4 H5.
  apply (poll_body_walk cci ends (Qd t) (Qd t) (Qd t)
           (fun _ => False) (fun _ => False) (fun _ => False)).
  - exact I.
  - intros s H _. apply Qd_stage, maybe_send_syn_ack_Qd, H.
  - intros s H _ _. apply Qd_stage, send_ack_Qd, H.
  - intros s H _. apply Qd_stage, process_all_Qd, H.
  - intros s rx1 fb w H _ _. unfold add_wakes. eapply Qd_same; [exact H|exact eq_refl ..].
  - intros s _ _ _. exact I.
  - (* the deadline has passed: the poll does not get as far as the segmentation *)
    intros s (B1 & B2 & _) _ Ex. unfold timer_expired in Ex. rewrite B1 in Ex.
    apply Z.leb_gt in Ex. lia.
  - intros s [].
  - intros s [].
  - intros s [].
  - intros s [].
  - intros s [].
  - intros s [].
  - unfold Qd. repeat split; try assumption; exact eq_refl.
Qed.

Lemma poll_loop_ends : forall fuel (s s' : vsock) r,
  ends (poll_body cci s) -> poll_loop cci (S fuel) s = (s', r) -> r <> PollPending.
Proof.
  intros fuel s s' r He H. cbn [poll_loop] in H.
  destruct (poll_body cci s) as [s1 r1|s1|]; cbn [ends] in He.
  - injection H as <- <-. destruct r1; try discriminate. contradiction.
  - contradiction.
  - injection H as <- <-. discriminate.
Qed.

Theorem deadline_fires : forall (s : vsock) sc t s' r,
  v_t_inactivity s = Some t -> t <= v_env_now s -> v_inbox s = [] -> v_inbox_closed s = false ->
  script_nopending sc = true ->
  poll cci (VSockRec.set_sends s sc) = (s', r) -> r <> PollPending.
Proof.
  intros s sc t s' r H1 H2 H3 H4 H5 E. rewrite poll_unfold in E.
  change 64%nat with (S 63) in E. eapply poll_loop_ends; [|exact E].
  apply (poll_body_deadline t); try assumption. apply script_nopending_Forall. exact H5.
Qed.

(* ================================================================== between polls *)
(* a poll that returns Pending with a writable transport has drained the inbox, and the
   dispatcher's channel is still open *)
Theorem poll_pending_ibe : forall (s s' : vsock),
  poll cci s = (s', PollPending) -> v_transport_pending s' = false ->
  v_inbox s' = [] /\ v_inbox_closed s' = false.
Proof.
  intros s s' E T. rewrite poll_unfold in E.
  pose proof (poll_loop_ind cci (fun _ => True)
    (fun s' r => r = PollPending -> v_transport_pending s' = false -> IBE s')) as H.
  specialize (H ltac:(intros; discriminate)).
  assert (Hb : forall t : vsock, True -> match poll_body cci t with
     | BrReturn s'0 r => r = PollPending -> v_transport_pending s'0 = false -> IBE s'0
     | BrRestart _ => True | BrPanic => True end).
  { intros t _. rewrite poll_body_parts. unfold body_front.
    apply (body_head_walk cci (fun r => match r with
       | BrReturn s'0 r => r = PollPending -> v_transport_pending s'0 = false -> IBE s'0
       | _ => True end)).
    - intros r He. destruct r as [s1 [| |e|]|s1|]; cbn [early] in He; auto; try contradiction;
        try (intros; discriminate). destruct He as [_ He]. intros _ X. congruence.
    - intros s2 s3 _ _ E3 _ _ T3. pose proof (process_all_incoming_messages_post cci _ _ _ E3) as D.
      pose proof (body_mid_back_G0 cci s3 s3 (G_refl s3)) as B.
      destruct (body_mid cci body_back s3) as [s1 r|s1|]; auto.
      intros -> T1. cbn [bG0] in B. destruct B as [B1 B2]. specialize (B2 T1).
      destruct D as [D|[D|D]]; [|congruence|].
      + pose proof (closed_mono _ _ B1 D) as Cm. unfold not_closed in B2. congruence.
      + destruct D as [D1 D2]. destruct B1 as (_ & _ & G3 & G4 & _).
        split; [apply G3; exact D1|congruence]. }
  specialize (H Hb 64%nat (poll_init s) I). rewrite E in H. apply H; auto.
Qed.

(* our FIN is out, the transport is writable, the poll returned Pending: the deadline is armed at most
   one second ahead, the sleep ends no later, and if the peer stays silent the first poll at or after
   the deadline with a transport that does not block ends the task *)
Theorem silence_ends : forall (s : vsock) sc s1,
  poll cci (VSockRec.set_sends s sc) = (s1, PollPending) ->
  v_transport_pending s1 = false -> is_local_fin_or_later (v_state s1) = true ->
  exists t d,
    v_t_inactivity s1 = Some t /\ t <= v_env_now s1 + SHUTDOWN_FINAL_CHANCE_DELAY /\
    v_arm_in s1 = Some d /\ v_env_now s1 + d <= Z.max t (v_env_now s1) /\
    forall now' sc' s2 r, t <= now' -> script_nopending sc' = true ->
      poll cci (VSockRec.set_sends (set_env_now s1 now') sc') = (s2, r) -> r <> PollPending.
Proof.
  intros s sc s1 E T1 G1.
  destruct (poll_pending_ibe _ _ E T1) as [I1 I2].
  apply poll_pending_inv in E; [|exact T1].
  destruct E as (sa & sb & b & _ & Ea & Na & _ & _ & Em & Tb & ->).
  pose proof (maybe_send_ack_frame0 sa) as F0. rewrite Em in F0. destruct F0 as (_ & F2 & F3 & _).
  destruct (poll_tail_fields sb) as (_ & _ & _ & Hst & _ & _ & _ & _ & _ & _ & _ & Hen & _).
  rewrite Hst in G1. rewrite Hen.
  assert (Hnow : v_now sb = v_env_now sb) by congruence.
  destruct (tail_deadline sb Tb G1) as (t & d & E1 & L1 & E2 & L2 & _).
  exists t, d. rewrite <- Hnow. split; [exact E1|]. split; [exact L1|]. split; [exact E2|]. split; [exact L2|].
  intros now' sc' s2 r Hn Hs E'.
  eapply (deadline_fires (set_env_now (poll_tail sb) now') sc' t); try eassumption.
Qed.

(* ================================================================== the trace predicate *)
Definition fires_inv (dl : option Z) (s : vsock) : Prop :=
  forall t, dl = Some t -> v_inbox s = [] /\ v_inbox_closed s = false /\ v_t_inactivity s = Some t.

Lemma vstep_quiet_keeps : forall (s : vsock) o,
  match o with
  | VoPoll _ | VoDeliver _ | VoCloseInbox => True
  | _ => v_inbox (vstep_state cci s o) = v_inbox s /\
         v_inbox_closed (vstep_state cci s o) = v_inbox_closed s /\
         v_t_inactivity (vstep_state cci s o) = v_t_inactivity s
  end.
Proof.
  intros s o. unfold vstep_state. destruct o; try exact I.
  - cbn [vstep fst]; repeat split; exact eq_refl.
  - cbn [vstep fst]; repeat split; exact eq_refl.
  - cbn [vstep]. destruct (writer_dropped _); [|destruct (poll_write _ _) as [[tx1 r] w]];
      cbn [fst]; (split; [|split]); exact eq_refl.
  - cbn [vstep]. destruct (writer_dropped _); [|destruct (poll_flush _) as [[tx1 r] w]];
      cbn [fst]; (split; [|split]); exact eq_refl.
  - cbn [vstep]. destruct (writer_dropped _); [|destruct (poll_shutdown _) as [[tx1 r] w]];
      cbn [fst]; (split; [|split]); exact eq_refl.
  - cbn [vstep]. destruct (reader_dropped _); [|destruct (rx_read _ _) as [[rx1 r] w]];
      cbn [fst]; (split; [|split]); exact eq_refl.
  - cbn [vstep]. destruct (reader_dropped _); [|destruct (rx_drop_reader _) as [rx1 w]];
      cbn [fst]; (split; [|split]); exact eq_refl.
  - cbn [vstep]. destruct (drop_writer _) as [tx1 w]; cbn [fst]; (split; [|split]); exact eq_refl.
Qed.

Theorem c08_fires_step : forall dl (s : vsock) o,
  fires_inv dl s ->
  c08_fires_at dl (fstep_of cci s o) = true /\
  fires_inv (c08_fires_next dl (fstep_of cci s o)) (vstep_state cci s o).
Proof.
  intros dl s o Hi. pose proof (vstep_quiet_keeps s o) as K.
  destruct o;
    try (unfold c08_fires_at, c08_fires_next; rewrite fstep_of_event; cbn [fevent_of];
         split; [reflexivity|];
         first [ intros t0 Ht0; discriminate
               | destruct K as (K1 & K2 & K3); intros t0 Ht0; rewrite K1, K2, K3; exact (Hi t0 Ht0) ]).
  destruct (poll cci (VSockRec.set_sends s script)) as [s' r] eqn:E.
  destruct (vstep_poll cci s script s' r E) as [V1 _]. rewrite V1.
  rewrite (fstep_of_poll cci s script s' r E). unfold c08_fires_at, c08_fires_next.
  cbn [fs_event fs_result fs_post fs_now fp_of_vsock f_transport_pending f_t_inactivity].
  destruct r; try (split; [reflexivity|intros t Ht; discriminate]).
  split.
  - destruct dl as [t|]; [|reflexivity]. destruct (Hi t eq_refl) as (I1 & I2 & I3).
    destruct (script_nopending script) eqn:Es; [|reflexivity].
    destruct (Z.leb_spec t (v_env_now s')) as [Hle|Hgt]; [exfalso|reflexivity].
    destruct (poll_pframe0 cci _ _ _ E) as (_ & P2 & _). rewrite P2 in Hle.
    exact (deadline_fires s script t s' PollPending I3 Hle I1 I2 Es E eq_refl).
  - destruct (v_transport_pending s') eqn:T; [intros t Ht; discriminate|].
    destruct (poll_pending_ibe _ _ E T) as [I1 I2]. intros t Ht. auto.
Qed.

Theorem c08_fires_from_trace : forall ops dl (s : vsock),
  fires_inv dl s -> c08_fires_from dl (ftrace cci s ops) = true.
Proof.
  induction ops as [|o rest IH]; intros dl s Hi; [reflexivity|].
  rewrite ftrace_cons'. cbn [c08_fires_from].
  destruct (c08_fires_step dl s o Hi) as [H1 H2]. rewrite H1. cbn [andb].
  destruct (poll_finished _); [reflexivity|]. apply IH. exact H2.
Qed.

Theorem c08_fires_ok_trace : forall cfg ops (s : vsock), c08_fires_ok cfg (ftrace cci s ops) = true.
Proof. intros cfg ops s. apply c08_fires_from_trace. intros t Ht. discriminate. Qed.

End WithCC.

(* ------------------------------------------------------------------ the guards are met by reachable
   steps: both halves dropped on an idle connection, the poll sends our FIN (FinWait1) and arms the
   final-chance deadline one second ahead; the peer stays silent; the poll at the deadline ends the
   task with RemoteInactiveForTooLong *)
Definition c08_ops : list vop :=
  [VoPoll []; VoDropReader; VoDropWriter; VoPoll []; VoSetNow 900000000; VoPoll [];
   VoSetNow 1001000000; VoPoll []].

Definition deadline_guard (st : fstep) : bool :=
  match fs_event st, fs_result st with
  | FePoll _, FrPoll PollPending _ _ _ =>
      is_local_fin_or_later (f_state (fs_post st)) && negb (f_transport_pending (fs_post st))
  | _, _ => false
  end.

Lemma c08_nonvacuous :
  exists w cfg ops,
    vconfig_ok cfg = true /\ Forall op_msg_ok ops /\
    existsb deadline_guard (wtrace w cfg ops) = true /\
    forallb (c08_deadline_ok cfg) (wtrace w cfg ops) = true /\
    c08_fires_guard_from None (wtrace w cfg ops) = true /\
    c08_fires_ok cfg (wtrace w cfg ops) = true /\
    match rev (wtrace w cfg ops) with
    | st :: _ => match fs_result st with
                 | FrPoll (PollReadyErr ErrRemoteInactiveForTooLong) _ _ _ => true
                 | _ => false
                 end
    | [] => false
    end = true.
Proof.
  exists 1048576, (wcfg 1048576), c08_ops.
  split; [vm_compute; reflexivity|].
  split; [repeat constructor|].
  repeat split; vm_compute; reflexivity.
Qed.
