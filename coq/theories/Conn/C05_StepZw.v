(* C05, zero-window clause at step level, for the polls that end with the connection still open:
   - [pim_idle]: with the inbox drained and its channel open, process_all_incoming_messages leaves the sender
     alone;
   - [Z]: whatever ST_DATA a poll has emitted so far went out in single-segment mode (counter positive), in
     loss recovery, or into a window that is not zero;
   - the staged walk (Conn/C05_Walk.v) that carries [Z], the ghost invariant [J] of Conn/C05_StepLemmas.v,
     the bundle [B] and the segment-size invariant [sp] through a Pending poll. *)
From Utp Require Import Base.Prelude Wire.SeqNr Wire.Header Rtt.Rtte Rtt.Rtte_Proofs Mtu.SegSizes Rx.Rx Tx.Ring
  Tx.Segments Tx.Segments_Proofs Conn.Recovery Conn.Msg Conn.VSockRec Conn.VSock Conn.VSockRun Conn.VObs
  Conn.VSock_Lemmas Conn.VSock_LemmasTx Conn.VSock_LemmasIn Conn.VSock_LemmasStep Conn.VSock_LemmasReach
  Conn.VSock_LemmasTimers Conn.VSock_LemmasPipe Conn.C17_StepLemmas Conn.C05_Pred Conn.C05_Proofs
  Conn.C05_StepLemmas Conn.C05_Segs Conn.C05_Walk.

Section WithCC.
Context {CC : Type} (cci : cc_iface CC).
Notation vsock := (vsock CC).

(* ------------------------------------------------------------------ closed is absorbing *)
Lemma st_rel_closed_mono a b w : st_rel a b -> state_is_closed a w = true -> state_is_closed b w = true.
Proof. destruct a, b; cbn [st_rel state_is_closed]; intros; try tauto; try discriminate; auto. Qed.

(* ------------------------------------------------------------------ a drained inbox *)
Lemma pim_idle (s s' : vsock) u :
  IBE s -> process_all_incoming_messages cci s = SOk s' u ->
  v_out s' = v_out s /\ v_rto_retransmissions s' = v_rto_retransmissions s /\
  v_last_remote_window s' = v_last_remote_window s /\ v_cc s' = v_cc s /\
  v_t_retransmit s' = v_t_retransmit s /\ v_last_sent_seq_nr s' = v_last_sent_seq_nr s /\
  v_state s' = v_state s /\ v_ss s' = v_ss s /\
  is_recovering (v_recovery s') = is_recovering (v_recovery s) /\
  v_inbox s' = [] /\ v_inbox_closed s' = false /\
  (is_recovering (v_recovery s) = false -> v_segs s' = v_segs s).
Proof.
  intros [Hi Hc] H. rewrite paim_eq in H. rewrite Hi in H. cbn [app recv_loop] in H.
  rewrite Hi, Hc in H. cbn [sbind fst] in H. unfold paim_rest in H.
  cbn [on_ack_result_default ar_acked_segments ar_newly_sacked_segments Z.ltb Z.compare orb sbind] in H.
  destruct (rv_phase (v_recovery (set_inbox_waker s true))) eqn:Ep.
  - inversion H; subst. vsimpl_goal. repeat split; auto.
  - inversion H; subst. vsimpl_goal. repeat split; auto.
  - destruct (calc_pipe _ _ _ _ _) as [[[sg pp] rcl]|]; [|discriminate].
    inversion H; subst. unfold set_recovering. vsimpl_goal. unfold is_recovering. cbn [rv_phase].
    cbn [v_recovery set_inbox_waker] in Ep. rewrite Ep. repeat split; auto; discriminate.
Qed.

(* ---- ZW *)
Definition RECb (s : vsock) : bool := is_recovering (v_recovery s).

Definition ZW (s : vsock) : Prop :=
  dout s = [] \/ 0 < v_rto_retransmissions s \/ RECb s = true \/ v_last_remote_window s <> 0.

(* the fields Z reads, kept *)
Lemma Z_keep (s s' : vsock) :
  dout s' = dout s -> v_rto_retransmissions s' = v_rto_retransmissions s ->
  RECb s' = RECb s -> v_last_remote_window s' = v_last_remote_window s -> ZW s -> ZW s'.
Proof. unfold ZW. intros -> -> -> ->. auto. Qed.

Lemma SQ_Z (s s' : vsock) : SQ s s' -> ZW s -> ZW s'.
Proof.
  intros (A1&A2&A3&A4&A5&A6&A7&A8&A9&A10&A11). apply Z_keep; auto. unfold RECb. rewrite A9. reflexivity.
Qed.

(* ------------------------------------------------------------------ the two loops of send_tx_queue *)
Lemma rec_new_keeps (s : vsock) h :
  stk (fun s s' => v_last_remote_window s' = v_last_remote_window s /\
                   (RECb s = true -> RECb s' = true) /\
                   (RECb s = false -> v_last_remote_window s = 0 -> segs_pos (v_segs s) -> s' = s))
      s (rec_new cci s h).
Proof.
  unfold rec_new.
  destruct (rec_branch s h) as [s1 ret|s1 e|] eqn:Er; cbn [sbind stk]; auto.
  assert (Hs1 : step_st (rec_branch s h) = Some s1) by (rewrite Er; reflexivity).
  assert (H1 : v_last_remote_window s1 = v_last_remote_window s /\
               (RECb s = true -> RECb s1 = true) /\ (RECb s = false -> s1 = s /\ ret = false)).
  { unfold rec_branch, RECb, is_recovering in *. destruct (rv_phase (v_recovery s)) as [rp|d|rc] eqn:Eph.
    - injection Er as <- <-. repeat split; auto; discriminate.
    - injection Er as <- <-. repeat split; auto; discriminate.
    - destruct (recovery_loop (rec_items s rc) s h (mss (v_ss s)) (rec_st0 rc)) as [s0 res|s0 e|] eqn:El;
        cbn [sbind] in Er; try discriminate.
      assert (Hl : step_st (recovery_loop (rec_items s rc) s h (mss (v_ss s)) (rec_st0 rc)) = Some s0)
        by (rewrite El; reflexivity).
      destruct (recovery_loop_spec _ _ _ _ _ _ Hl) as (sent & _ & (Hf & _) & _).
      unfold sd_frame in Hf. destruct Hf as (F1 & F2 & F3 & _).
      assert (Ha : step_st (rec_after rc h (mss (v_ss s)) s0 res) = Some s1) by (rewrite Er; reflexivity).
      destruct (rec_after_spec _ _ _ _ _ _ Ha) as (P & A1 & A2 & A3 & A4 & A5 & A6 & A7 & A8 & A9 & A10).
      split; [congruence|]. split; [intros _; exact A10|discriminate]. }
  destruct H1 as (L1 & R1 & N1).
  destruct ret.
  { cbn [stk]. split; [exact L1|]. split; [exact R1|]. intros Hn. destruct (N1 Hn) as [_ X]. discriminate. }
  destruct (new_branch cci s1 h) as [s2 u|s2 e|] eqn:En; cbn [stk]; auto.
  assert (Hs2 : step_st (new_branch cci s1 h) = Some s2) by (rewrite En; reflexivity).
  destruct (new_branch_spec cci _ _ _ Hs2) as (sent & rest & s1' & E & (Hf & _) & _ & P & A1 & A2 & A3 & A4 & A5 & _).
  unfold sd_frame in Hf. destruct Hf as (F1 & F2 & F3 & F4 & _).
  split; [congruence|]. split.
  - intro Hr. unfold RECb in *. rewrite A5, F4. auto.
  - intros Hn Hz Hp. destruct (N1 Hn) as [-> _].
    unfold new_branch in En. rewrite zero_window_budget in En; auto.
    rewrite zero_window_loop in En by exact Hp. cbn [sbind new_after] in En. congruence.
Qed.

(* ------------------------------------------------------------------ send_tx_queue keeps Z *)
Lemma send_tx_queue_Z now r0 e0 (s : vsock) :
  B now s -> J r0 e0 now s -> sp s -> ZW s -> stk (fun _ s' => ZW s') s (send_tx_queue cci s).
Proof.
  intros HB HJ [_ [Hsp _]] HZ. rewrite send_tx_queue_eq.
  destruct (v_transport_pending s); [exact HZ|].
  set (h := outgoing_header s).
  destruct (rto_branch cci s h) as [s1 ret|s1 e|] eqn:Er; cbn [sbind stk]; auto.
  assert (Hs : step_st (rto_branch cci s h) = Some s1) by (rewrite Er; reflexivity).
  pose proof (rto_branch_spec cci _ _ _ Hs) as Ho. rewrite Er in Ho.
  assert (Hn : v_now s = now) by apply HB.
  assert (Hrto0 : 0 <= v_rto_retransmissions s) by apply HB.
  (* the state after the RTO part: Z holds, and the table keeps its sizes *)
  assert (H1 : ZW s1 /\ (0 < v_rto_retransmissions s1 \/ segs_pos (v_segs s1))).
  { destruct Ho as [Ho Hf Hsg Hls Hne Hnq
                   | f rest Hexp Hit Hr Ho Hok Hsg Hrto Hls Htx Hop Hnow Hrw Hst Hpr Htr P
                   | fin Hexp Hit Hfin Hls Hr Ho Hsg Hrto Hls' Htx Hop Hnow Hrt Htr P].
    - unfold sd_frame in Hf. destruct Hf as (F1 & F2 & F3 & F4 & F5 & _).
      split; [|right; rewrite Hsg; exact Hsp].
      eapply Z_keep; [apply dout_eq; exact Ho|exact F5|unfold RECb; rewrite F4; reflexivity|exact F3|exact HZ].
    - split; [right; left; lia|left; lia].
    - split; [|right; rewrite Hsg; exact Hsp]. left.
      assert (Ee : texp s now = true) by (unfold texp; rewrite <- Hn; exact Hexp).
      destruct (J_A_of_expired _ _ _ _ HJ Ee) as (A1 & _).
      unfold dout. rewrite Ho. cbn [filter]. unfold fin_pkt.
      rewrite is_data_ctrl by (cbn [hdr_with ch_type]; discriminate). exact A1. }
  destruct H1 as (Z1 & P1).
  destruct (after_rto_k_cases cci h s1 ret) as [->|(_ & Hz & _ & ->)]; [exact Z1|].
  destruct P1 as [P1|P1]; [lia|].
  pose proof (rec_new_keeps s1 h) as Hk.
  destruct (rec_new cci s1 h) as [s' u|s' e|]; cbn [stk] in *; auto.
  destruct Hk as (K1 & K2 & K3).
  destruct (RECb s1) eqn:Erec.
  - right; right; left. auto.
  - destruct (Z.eq_dec (v_last_remote_window s1) 0) as [Hw|Hw].
    + rewrite (K3 eq_refl Hw P1). exact Z1.
    + right; right; right. rewrite K1. exact Hw.
Qed.

(* ------------------------------------------------------------------ KJ, function by function *)
Lemma poll_start_KJ (s : vsock) : KJ s (poll_start s).
Proof.
  intros now r0 e0 H0 (Ht & Hn & He) HJ. split.
  - split; [apply (poll_start_ti s); exact Ht|]. split; [exact He|exact He].
  - eapply J_QREL; [exact HJ|]. apply SQ_QREL. apply poll_start_SQ.
Qed.

Lemma maybe_send_syn_ack_KJ (s : vsock) : stRk KJ s (maybe_send_syn_ack s).
Proof.
  apply stk_SQ_KJ; [apply maybe_send_syn_ack_ti|apply step_frame_frame0, maybe_send_syn_ack_frame|
    apply maybe_send_syn_ack_SQ].
Qed.

Lemma send_ack_KJ (s : vsock) : stRk KJ s (send_ack s).
Proof. apply stk_SQ_KJ; [apply send_ack_ti|apply step_frame_frame0, send_ack_frame|apply send_ack_SQ]. Qed.

Lemma process_all_KJ (s : vsock) : stRk KJ s (process_all_incoming_messages cci s).
Proof. apply stk_KQ_KJ. intro now. apply process_all_KQ. Qed.

Lemma rx_flush_KJ (s : vsock) rx1 w : KJ s (add_wakes (set_rx s rx1) (rx_wakes w)).
Proof. apply SQ_KJ; [apply add_wakes_rx_SQ|apply rx_flush_ti|reflexivity|reflexivity]. Qed.

Lemma split_KJ (s : vsock) : stRk KJ s (split_tx_queue_into_segments cci s).
Proof. apply stk_KQ_KJ. intro now. apply split_KQ. Qed.

Lemma send_tx_queue_KJ (s : vsock) : stRk KJ s (send_tx_queue cci s).
Proof.
  pose proof (send_tx_queue_ti cci s) as Ht. pose proof (send_tx_queue_frame cci s) as Hf.
  destruct (send_tx_queue cci s) as [s' u|s' e|] eqn:E; cbn [stRk stR step_frame] in *; auto.
  intros now r0 e0 H0 HB HJ. split; [eapply B_frame; eauto|].
  pose proof (send_tx_queue_J cci now r0 e0 s HB H0 HJ) as H. rewrite E in H. exact H.
Qed.

Lemma transition_to_fin_wait_1_KJ (s : vsock) : KJ s (transition_to_fin_wait_1 s).
Proof.
  pose proof (transition_to_fin_wait_1_frame s) as (_ & E & N & _).
  apply SQ_KJ; [apply transition_to_fin_wait_1_SQ|apply transition_to_fin_wait_1_ti|exact N|exact E].
Qed.

Lemma maybe_send_fin_KJ (s : vsock) : stRk KJ s (maybe_send_fin s).
Proof.
  apply stk_KQ_KJ. intro now. apply stk_KQ; [apply maybe_send_fin_ti|apply maybe_send_fin_frame|].
  apply maybe_send_fin_QREL.
Qed.

Lemma maybe_send_ack_KJ (s : vsock) : stRk KJ s (maybe_send_ack s).
Proof.
  apply stk_SQ_KJ; [apply maybe_send_ack_ti|exact (maybe_send_ack_frame0 s)|apply maybe_send_ack_SQ].
Qed.

Lemma poll_tail_KJ (s : vsock) : KJ s (poll_tail s).
Proof.
  destruct (poll_tail_fields s) as (_ & _ & _ & _ & _ & _ & Hn & _ & _ & _ & _ & He & _).
  apply SQ_KJ; [apply poll_tail_SQ|apply poll_tail_ti|exact Hn|exact He].
Qed.

(* ------------------------------------------------------------------ the stage predicates *)
Definition GG (now r0 : Z) (e0 : bool) (s : vsock) : Prop := B now s /\ J r0 e0 now s /\ sp s.

Definition W0 (s : vsock) : Prop := SC s \/ (ZW s /\ (dout s = [] \/ IBE s)).
Definition W1 (s : vsock) : Prop := SC s \/ (ZW s /\ (v_transport_pending s = true \/ IBE s)).
Definition WQ (s : vsock) : Prop := SC s \/ ZW s.

Lemma W0_WQ s : W0 s -> WQ s.
Proof. unfold W0, WQ. tauto. Qed.
Lemma W1_WQ s : W1 s -> WQ s.
Proof. unfold W1, WQ. tauto. Qed.

Lemma GG_step now r0 e0 (s s' : vsock) :
  0 <= r0 -> KJ s s' -> spR s s' -> GG now r0 e0 s -> GG now r0 e0 s'.
Proof.
  intros H0 HK HS (HB & HJ & HP). destruct (HK now r0 e0 H0 HB HJ) as [HB' HJ'].
  split; [exact HB'|]. split; [exact HJ'|apply HS; exact HP].
Qed.

Lemma qb_IBE (s s' : vsock) : qb s s' -> IBE s -> IBE s'.
Proof. intros (_&_&_&_&_&Q6&Q7&_) [H1 H2]. unfold IBE. rewrite Q6, Q7. auto. Qed.

Lemma qb_SC (s s' : vsock) : qb s s' -> SC s -> SC s'.
Proof. intros (_&_&_&_&_&_&_&_&_&_&Q11&_). exact Q11. Qed.

Lemma qb_tp (s s' : vsock) : qb s s' -> v_transport_pending s = true -> v_transport_pending s' = true.
Proof. intros (_&_&_&_&_&_&_&_&_&Q10&_). exact Q10. Qed.

(* a function that leaves the sender alone keeps W0 and W1 *)
Lemma W0_SQ (s s' : vsock) : SQ s s' -> qb s s' -> W0 s -> W0 s'.
Proof.
  intros HS HQ [H|[HZ H]]; [left; eapply qb_SC; eauto|right].
  split; [eapply SQ_Z; eauto|]. destruct H as [H|H]; [left|right; eapply qb_IBE; eauto].
  destruct HS as (A1 & _). congruence.
Qed.

Lemma W1_SQ (s s' : vsock) : SQ s s' -> qb s s' -> W1 s -> W1 s'.
Proof.
  intros HS HQ [H|[HZ H]]; [left; eapply qb_SC; eauto|right].
  split; [eapply SQ_Z; eauto|]. destruct H as [H|H]; [left; eapply qb_tp; eauto|right; eapply qb_IBE; eauto].
Qed.

Lemma poll_start_qb0 (s : vsock) : SC s -> SC (poll_start s).
Proof. intro H; exact H. Qed.

(* ---- segmentation keeps Z ---- *)
Lemma split_rto (s : vsock) :
  stk (fun s s' => v_last_remote_window s' = v_last_remote_window s /\
                   (v_rto_retransmissions s' = v_rto_retransmissions s \/
                    timer_expired (v_t_retransmit s) (v_now s) = true))
      s (split_tx_queue_into_segments cci s).
Proof.
  pose proof (split_tx_spec cci s) as Sp.
  destruct (split_tx_queue_into_segments cci s) as [s' u|s' e|]; cbn [stk split_post] in *; auto.
  destruct Sp as ((_&_&_&F4&_) & t2 & ss2 & [(_ & _ & K1 & _)|(rw & ps & Ep & _)] & _);
    (split; [exact F4|]); [left; exact K1|right].
  destruct (pop_expired_expired _ _ _ _ _ _ Ep) as [Fl _]. apply andb_prop in Fl. apply Fl.
Qed.

Lemma split_Z now r0 e0 (s : vsock) :
  B now s -> J r0 e0 now s -> ZW s -> stk (fun _ s' => ZW s') s (split_tx_queue_into_segments cci s).
Proof.
  intros HB HJ HZ.
  pose proof (split_rto s) as H1. pose proof (split_QREL cci now s HB) as H2.
  pose proof (split_tx_queue_into_segments_qb cci s) as H3.
  destruct (split_tx_queue_into_segments cci s) as [s' u|s' e|]; cbn [stk stR] in *; auto.
  destruct H1 as (L1 & L2). destruct H2 as (D1 & _). destruct H3 as (_ & _ & Q3 & _).
  destruct L2 as [L2|L2].
  - eapply Z_keep; [exact D1|exact L2|unfold RECb; rewrite Q3; reflexivity|exact L1|exact HZ].
  - left. rewrite D1.
    assert (Ee : texp s now = true) by (unfold texp; destruct HB as (_ & Hn & _); rewrite <- Hn; exact L2).
    apply (J_A_of_expired _ _ _ _ HJ Ee).
Qed.

Lemma maybe_send_fin_Z (s : vsock) : ZW s -> stk (fun _ s' => ZW s') s (maybe_send_fin s).
Proof.
  intro HZ. pose proof (maybe_send_fin_spec s) as H.
  destruct (maybe_send_fin s) as [s' [|]|s' e|]; cbn [stk]; auto.
  - destruct H as (seq & _ & _ & Hf & Ho & _).
    unfold sd_frame in Hf. destruct Hf as (F1 & F2 & F3 & F4 & F5 & _).
    eapply Z_keep; [|exact F5|unfold RECb; rewrite F4; reflexivity|exact F3|exact HZ].
    eapply dout_cons_ctrl; [exact Ho|]. apply is_data_ctrl. cbn [hdr_with ch_type]. discriminate.
  - eapply SQ_Z; [apply sd_unchanged_SQ; exact H|exact HZ].
Qed.

(* ------------------------------------------------------------------ poll_loop from poll_start *)
Lemma poll_body_start (s : vsock) : poll_body cci (poll_start s) = poll_body cci s.
Proof. reflexivity. Qed.

Lemma poll_loop_start : forall fuel (s s' : vsock),
  poll_loop cci fuel s = (s', PollPending) -> poll_loop cci fuel (poll_start s) = (s', PollPending).
Proof.
  intros [|fuel] s s' H; cbn [poll_loop] in *; [discriminate|].
  rewrite poll_body_start. destruct (poll_body cci s); [exact H|exact H|discriminate].
Qed.

(* ------------------------------------------------------------------ the walk, with the ghost state carried
   [GO]: the bundle, the ghost invariant J, the segment-size invariant and the options, which every function of
   a poll keeps; the stage predicates say the rest.  The functions that leave the sender alone (SQ) are dealt
   with here, once. *)
Section WalkG.
Variables (now r0 : Z) (e0 : bool) (o : vopts).
Hypothesis H0 : 0 <= r0.

Definition GO (s : vsock) : Prop := GG now r0 e0 s /\ v_opts s = o.

Lemma GO_step (s s' : vsock) : KJ s s' -> spR s s' -> v_opts s' = v_opts s -> GO s -> GO s'.
Proof. intros HK HS Ho [HG Hm]. split; [eapply GG_step; eauto|congruence]. Qed.

Lemma stW_GO {A} (s : vsock) (m : step A) :
  stRk KJ s m -> stRk spR s m -> step_frame0 s m -> GO s -> stW GO m.
Proof.
  intros HK HS HF HG. destruct m as [s' a|s' e|]; cbn [stRk stW step_frame0] in *; auto.
  eapply GO_step; eauto. apply HF.
Qed.

Lemma stW_and (P Q' : vsock -> Prop) {A} (m : step A) :
  stW P m -> stW Q' m -> stW (fun s => P s /\ Q' s) m.
Proof. destruct m; cbn [stW]; auto. Qed.

Lemma stW_SQ (P : vsock -> Prop) {A} (s : vsock) (m : step A) :
  (forall s', SQ s s' -> qb s s' -> P s') -> stk SQ s m -> stR qb s m -> stW P m.
Proof. intros HP H1 H2. destruct m; cbn [stk stR stW] in *; auto. Qed.

Variables A0 A B1 B2 B3 C D Q : nat -> vsock -> Prop.
Hypothesis X_start : forall k s, A0 k s -> A k (poll_start s).
Hypothesis X_A : forall k s s', SQ s s' -> qb s s' -> A k s -> A k s'.
Hypothesis X_B : forall k s s', SQ s s' -> qb s s' -> B1 k s -> B2 k s'.
Hypothesis X_C : forall k s s', SQ s s' -> qb s s' -> C k s -> C k s'.
Hypothesis X_D : forall k s s', SQ s s' -> qb s s' -> C k s -> D k s'.
Hypothesis X_tail : forall k s, D k s -> Q k (poll_tail s).
Hypothesis H_pim : forall k s, GO s -> A k s -> stW (B1 k) (process_all_incoming_messages cci s).
Hypothesis H_split : forall k s, GO s -> B2 k s -> v_transport_pending s = false ->
  stW (B3 k) (split_tx_queue_into_segments cci s).
Hypothesis H_stq : forall k s, GO s -> B3 k s -> ok0 s ->
  stW (fun s' => (v_restart s' = true -> A0 (S k) s') /\
                 (v_restart s' = false -> v_transport_pending s' = true -> Q k s') /\
                 (ok0 s' -> C k s'))
      (send_tx_queue cci s).
Hypothesis H_fin : forall k s, GO s -> C k s -> stW (C k) (maybe_send_fin s).
Hypothesis E_A : forall k s, A k s -> Q k s.
Hypothesis E_B1 : forall k s, B1 k s -> Q k s.
Hypothesis E_C : forall k s, C k s -> Q k s.
Hypothesis E_D : forall k s, D k s -> Q k s.

Theorem poll_loop_WG : forall fuel k s s',
  GO s -> A0 k s -> poll_loop cci fuel s = (s', PollPending) ->
  exists k', (k' < k + fuel)%nat /\ GO s' /\ Q k' s'.
Proof.
  intros fuel k s s' HG HA.
  apply (poll_loop_W cci (fun k s => GO s /\ A0 k s) (fun k s => GO s /\ A k s) (fun k s => GO s /\ B1 k s)
           (fun k s => GO s /\ B2 k s) (fun k s => GO s /\ B3 k s) (fun k s => GO s /\ C k s)
           (fun k s => GO s /\ D k s) (fun k s => GO s /\ Q k s)); [..|split; assumption].
  - intros j a [G1 X1]. split; [|apply X_start; exact X1].
    eapply GO_step; [apply poll_start_KJ|apply SQ_spR, poll_start_SQ|reflexivity|exact G1].
  - intros j a [G1 X1] _. apply stW_and.
    + apply (stW_GO a); [apply maybe_send_syn_ack_KJ|apply stk_SQ_spR, maybe_send_syn_ack_SQ|
        apply step_frame_frame0, maybe_send_syn_ack_frame|exact G1].
    + apply (stW_SQ _ a); [intros b S1 Q1; exact (X_A j a b S1 Q1 X1)|apply maybe_send_syn_ack_SQ|
        apply maybe_send_syn_ack_qb].
  - intros j a [G1 X1] _. apply stW_and.
    + apply (stW_GO a); [apply send_ack_KJ|apply stk_SQ_spR, send_ack_SQ|apply step_frame_frame0, send_ack_frame|exact G1].
    + apply (stW_SQ _ a); [intros b S1 Q1; exact (X_A j a b S1 Q1 X1)|apply send_ack_SQ|apply send_ack_qb].
  - intros j a [G1 X1] _. apply stW_and; [|apply H_pim; assumption].
    apply (stW_GO a); [apply process_all_KJ|apply process_all_spR|
      apply step_frame_frame0, process_all_incoming_messages_frame|exact G1].
  - intros j a rx1 fb w [G1 X1] _ _. split.
    + eapply GO_step; [apply rx_flush_KJ|apply SQ_spR, add_wakes_rx_SQ|reflexivity|exact G1].
    + eapply X_B; [apply add_wakes_rx_SQ|apply rx_flush_qb|exact X1].
  - intros j a [G1 X1] [T0 _]. apply stW_and; [|apply H_split; assumption].
    apply (stW_GO a); [apply split_KJ|apply split_spR|
      apply step_frame_frame0, split_tx_queue_into_segments_frame|exact G1].
  - intros j a [G1 X1] O1.
    pose proof (stW_GO a _ (send_tx_queue_KJ a) (send_tx_queue_spR cci a)
                  (step_frame_frame0 _ _ _ (send_tx_queue_frame cci a)) G1) as G2.
    pose proof (H_stq j a G1 X1 O1) as X2.
    destruct (send_tx_queue cci a); cbn [stW] in *; auto. destruct X2 as (R1 & R2 & R3).
    split; [intro E; split; [exact G2|exact (R1 E)]|].
    split; [intros E1 E2; split; [exact G2|exact (R2 E1 E2)]|intro E; split; [exact G2|exact (R3 E)]].
  - intros j a [G1 X1] _. split.
    + eapply GO_step; [apply transition_to_fin_wait_1_KJ|apply SQ_spR, transition_to_fin_wait_1_SQ|
        exact (proj1 (transition_to_fin_wait_1_frame a))|exact G1].
    + eapply X_C; [apply transition_to_fin_wait_1_SQ|apply transition_to_fin_wait_1_qb|exact X1].
  - intros j a [G1 X1] _. apply stW_and; [|apply H_fin; assumption].
    apply (stW_GO a); [apply maybe_send_fin_KJ|apply maybe_send_fin_spR|
      apply step_frame_frame0, maybe_send_fin_frame|exact G1].
  - intros j a [G1 X1] _. apply stW_and.
    + apply (stW_GO a); [apply maybe_send_ack_KJ|apply stk_SQ_spR, maybe_send_ack_SQ|
        exact (maybe_send_ack_frame0 a)|exact G1].
    + apply (stW_SQ _ a); [intros b S1 Q1; exact (X_D j a b S1 Q1 X1)|apply maybe_send_ack_SQ|apply maybe_send_ack_qb].
  - intros j a [G1 X1] _. split; [exact G1|apply E_A; exact X1].
  - intros j a [G1 X1] _. split; [exact G1|apply E_B1; exact X1].
  - intros j a [G1 X1] _. split; [exact G1|apply E_C; exact X1].
  - intros j a [G1 X1] _. split; [exact G1|apply E_D; exact X1].
  - intros j a [G1 X1] _ _. split; [|apply X_tail; exact X1].
    pose proof (poll_tail_fields a) as (_ & _ & _ & _ & _ & _ & _ & _ & _ & _ & _ & _ & _ & _ & Op & _).
    eapply GO_step; [apply poll_tail_KJ|apply SQ_spR, poll_tail_SQ|exact Op|exact G1].
Qed.

End WalkG.

(* ------------------------------------------------------------------ the walk for Z *)
Theorem poll_loop_zw now r0 e0 : 0 <= r0 -> forall fuel (s s' : vsock),
  GG now r0 e0 s -> W0 s -> poll_loop cci fuel s = (s', PollPending) -> GG now r0 e0 s' /\ WQ s'.
Proof.
  intros H0 fuel s s' HG HW H.
  cut (exists k' : nat, (k' < 0 + fuel)%nat /\ GO now r0 e0 (v_opts s) s' /\ WQ s');
    [intros (k' & _ & (HG' & _) & HQ); auto|].
  apply (poll_loop_WG now r0 e0 (v_opts s) H0 (fun _ => W0) (fun _ => W0) (fun _ => W1) (fun _ => W1)
           (fun _ => W1) (fun _ => W1) (fun _ => W1) (fun _ => WQ)) with (s := s);
    [..|split; [exact HG|reflexivity]|exact HW|exact H].
  - (* poll_start *)
    intros _ a [HA|[HZ HA]]; [left; exact HA|right]. split; [eapply SQ_Z; [apply poll_start_SQ|exact HZ]|].
    destruct HA as [HA|HA]; [left; exact HA|right; exact HA].
  - intros _ a b. apply W0_SQ.
  - intros _ a b. apply W1_SQ.
  - intros _ a b. apply W1_SQ.
  - intros _ a b. apply W1_SQ.
  - (* the timer tail *)
    intros _ a HA.
    destruct (poll_tail_fields a) as (_ & _ & _ & St & _ & _ & _ & _ & _ & _ & _ & _ & _ & _ & Op & _).
    destruct HA as [HA|[HZ _]]; [left; unfold SC in *; rewrite St, Op; exact HA|right].
    eapply SQ_Z; [apply poll_tail_SQ|exact HZ].
  - (* process_all_incoming_messages *)
    intros _ a ((HB & _) & _) HA.
    pose proof (process_all_incoming_messages_pimr cci a) as P'.
    pose proof (process_all_incoming_messages_post cci a) as Post.
    pose proof (pim_idle a) as Idle.
    pose proof (process_all_KQ cci now a) as KQ'.
    destruct (process_all_incoming_messages cci a) as [b u|b e|]; cbn [stW stR stk] in *; auto.
    specialize (Post b u eq_refl). specialize (Idle b u).
    destruct HA as [HA|[HZ HA]]; [left; apply P'; exact HA|].
    destruct HA as [HA|HA].
    + destruct Post as [Po|Po]; [left; exact Po|right].
      split; [|destruct Po as [Po|Po]; [left; exact Po|right; exact Po]].
      left. destruct (KQ' HB) as [_ (D1 & _)]. congruence.
    + destruct (Idle HA eq_refl) as (I1 & I2 & I3 & I4 & I5 & I6 & I7 & I8 & I9 & I10 & I11 & _).
      right. split; [|right; split; assumption].
      eapply Z_keep; [apply dout_eq; exact I1|exact I2|exact I9|exact I3|exact HZ].
  - (* split *)
    intros _ a ((HB & HJ & _) & _) HA T0.
    pose proof (split_Z now r0 e0 a HB HJ) as HZ'.
    pose proof (split_tx_queue_into_segments_qb cci a) as HQ.
    destruct (split_tx_queue_into_segments cci a) as [b u|b e|]; cbn [stW stR stk] in *; auto.
    destruct HA as [HA|[HZ HA]]; [left; eapply qb_SC; eauto|right].
    split; [apply HZ'; exact HZ|]. destruct HA as [HA|HA]; [congruence|right; eapply qb_IBE; eauto].
  - (* send_tx_queue *)
    intros _ a ((HB & HJ & HP) & _) HA [T0 R0].
    pose proof (send_tx_queue_Z now r0 e0 a HB HJ HP) as HZ'.
    pose proof (send_tx_queue_txf cci a) as X'.
    pose proof (send_tx_queue_frame cci a) as F'.
    destruct (send_tx_queue cci a) as [b u|b e|]; cbn [stW stR stk step_frame] in *; auto.
    destruct X' as (X1 & X2 & X3 & X4 & X5 & X6 & X7 & X8). destruct F' as (F1 & _).
    assert (HW' : SC b \/ (ZW b /\ IBE b)).
    { destruct HA as [HA|[HZ HA]]; [left; unfold SC in *; rewrite X7, F1; exact HA|right].
      split; [apply HZ'; exact HZ|]. destruct HA as [HA|HA]; [congruence|].
      unfold IBE in *. rewrite X5, X6. exact HA. }
    split; [|split]; intros; unfold W0, W1, WQ; tauto.
  - (* maybe_send_fin *)
    intros _ a _ HA.
    pose proof (maybe_send_fin_qb a) as HQ.
    assert (HZ' : ZW a -> stk (fun _ s' => ZW s') a (maybe_send_fin a)) by apply maybe_send_fin_Z.
    destruct (maybe_send_fin a) as [b u|b e|]; cbn [stW stR stk] in *; auto.
    destruct HA as [HA|[HZ HA]]; [left; eapply qb_SC; eauto|right].
    split; [apply HZ'; exact HZ|].
    destruct HA as [HA|HA]; [left; eapply qb_tp; eauto|right; eapply qb_IBE; eauto].
  - intros _ a. apply W0_WQ.
  - intros _ a. apply W1_WQ.
  - intros _ a. apply W1_WQ.
  - intros _ a. apply W1_WQ.
Qed.

(* what a Pending poll leaves behind, from a state that satisfies the invariants ti and sp *)
Theorem poll_pending_zw (s : vsock) sc s' :
  ti s -> sp s -> poll cci (VSockRec.set_sends s sc) = (s', PollPending) ->
  v_env_now s' = v_env_now s /\
  J (v_rto_retransmissions s) (timer_expired (v_t_retransmit s) (v_env_now s)) (v_env_now s) s' /\
  (SC s' \/ ZW s').
Proof.
  intros Hti Hsp H. rewrite poll_unfold in H. apply poll_loop_start in H.
  assert (Hr0 : 0 <= v_rto_retransmissions s) by apply Hti.
  apply (poll_loop_zw (v_env_now s) (v_rto_retransmissions s)
           (timer_expired (v_t_retransmit s) (v_env_now s)) Hr0) in H.
  - destruct H as ((HB & HJ & _) & HW). split; [apply HB|]. split; [exact HJ|exact HW].
  - split; [|split].
    + split; [exact Hti|]. split; reflexivity.
    + apply JA; [reflexivity|reflexivity|]. unfold texp. cbn. auto.
    + exact Hsp.
  - right. split; [left; reflexivity|left; reflexivity].
Qed.

End WithCC.
