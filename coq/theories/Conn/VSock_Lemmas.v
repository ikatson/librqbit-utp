(* Reusable Hoare-style lemmas about the connection model (Conn/VSock.v).
   - tactics: [vsimpl_goal], [break_match]
   - [frame]: what NO function called by poll_body changes / how the monotone parts move
     (options, clocks, mss never decreases, v_out only grows, the delayed-ACK timer is touched
     only together with an emission — except by maybe_send_ack, which is not covered by [frame])
   - [poll_body_walk]: the one walk through poll_body (Section PollWalk); every statement about a whole
     poll in the development instantiates it;
   - [fstep_of] / [ftrace]: the observable step and trace of an event list. *)
From Utp Require Import Base.Prelude Wire.SeqNr Wire.Header Rtt.Rtte Mtu.SegSizes Rx.Rx Tx.Ring
  Tx.Segments Conn.Recovery Conn.Msg Conn.VSockRec Conn.VSock Conn.VSockRun Conn.VObs.
From Utp Require Conn.VSock_LemmasTx.

Arguments SOk {CC A}. Arguments SErr {CC A}. Arguments SPanic {CC A}.

(* [vsimpl] on the goal only (vsimpl rewrites every hypothesis, which makes Qed slow) *)
Ltac vsimpl_goal := cbn [v_state v_t_retransmit v_t_inactivity v_t_ack_delay v_t_recovery_pipe v_t_syn_ack_resend v_last_remote_timestamp v_last_remote_window v_seq_nr v_rto_retransmissions v_last_sent_seq_nr v_last_consumed v_last_sent_ack_nr v_last_sent_window v_cbu v_inbox v_inbox_closed v_inbox_waker v_rx v_tx v_segs v_ss v_rtte v_cc v_recovery v_now v_transport_pending v_restart v_unsegmented v_env_now v_sends v_emsg_limit v_out v_wakes v_arm_in v_opts v_conn_id_send v_socket_created set_state set_t_retransmit set_t_inactivity set_t_ack_delay set_t_recovery_pipe set_t_syn_ack_resend set_last_remote_timestamp set_last_remote_window set_seq_nr set_rto_retransmissions set_last_sent_seq_nr set_last_consumed set_last_sent_ack_nr set_last_sent_window set_cbu set_inbox set_inbox_closed set_inbox_waker set_rx set_tx set_segs set_ss set_rtte set_cc set_recovery set_now set_transport_pending set_restart set_unsegmented set_env_now set_sends set_emsg_limit set_out set_wakes set_arm_in set_opts set_conn_id_send set_socket_created].

Ltac break_match :=
  match goal with
  | |- context [match ?x with _ => _ end] =>
      lazymatch x with
      | context [match _ with _ => _ end] => fail
      | _ => destruct x eqn:?
      end
  end.

Ltac break_match_hyp H :=
  match type of H with
  | context [match ?x with _ => _ end] =>
      lazymatch x with
      | context [match _ with _ => _ end] => fail
      | _ => destruct x eqn:?
      end
  end.

(* ------------------------------------------------------------------ SegSizes: mss is monotone *)
Lemma mss_on_payload_delivered : forall ss n, mss ss <= mss (on_payload_delivered ss n).
Proof. intros. unfold mss, on_payload_delivered; cbn [min_ss]. lia. Qed.

Lemma mss_on_probe_failed : forall ss n, mss (on_probe_failed ss n) = mss ss.
Proof. reflexivity. Qed.

Lemma mss_disarm_cooldown : forall ss, mss (disarm_cooldown ss) = mss ss.
Proof. reflexivity. Qed.

Lemma mss_next_segment_size : forall ss ss1 sz,
  next_segment_size ss = Some (ss1, sz) -> mss ss1 = mss ss.
Proof.
  intros ss ss1 sz H. unfold next_segment_size in H.
  destruct (cd_rem ss =? 0).
  - unfold bind in H. destruct (next_probe _); inversion H; reflexivity.
  - inversion H; reflexivity.
Qed.

Lemma mss_ss_new_pos : forall c, 1 <= mss (ss_new c).
Proof.
  intros c. unfold mss, ss_new, ss_calc, clamped_link_mtu, default_min_mtu, ip_header,
    IPV4_HEADER, IPV6_HEADER, UDP_HEADER, UTP_HEADER; cbn [min_ss].
  destruct (cfg_ipv4 c); lia.
Qed.

Section WithCC.
Context {CC : Type} (cci : cc_iface CC).
Notation vsock := (vsock CC).

(* ------------------------------------------------------------------ frame *)
Definition frame (s s' : vsock) : Prop :=
  v_opts s' = v_opts s /\
  v_env_now s' = v_env_now s /\
  v_now s' = v_now s /\
  v_socket_created s' = v_socket_created s /\
  mss (v_ss s) <= mss (v_ss s') /\
  exists l, v_out s' = l ++ v_out s /\ (l = [] -> v_t_ack_delay s' = v_t_ack_delay s).

Lemma frame_refl : forall s, frame s s.
Proof. intros s. unfold frame. repeat split; try lia. exists []. split; auto. Qed.

Lemma frame_trans : forall a b c, frame a b -> frame b c -> frame a c.
Proof.
  intros a b c (A1 & A2 & A3 & A4 & A5 & l1 & A6 & A7) (B1 & B2 & B3 & B4 & B5 & l2 & B6 & B7).
  unfold frame. repeat split; try congruence; try lia.
  exists (l2 ++ l1). split.
  - rewrite B6, A6. apply app_assoc.
  - intros E. apply app_eq_nil in E. destruct E as [E2 E1]. rewrite B7, A7; auto.
Qed.

Lemma frame_ext : forall s a b : vsock, frame s a ->
  v_opts b = v_opts a -> v_env_now b = v_env_now a -> v_now b = v_now a ->
  v_socket_created b = v_socket_created a -> mss (v_ss a) <= mss (v_ss b) ->
  v_out b = v_out a -> v_t_ack_delay b = v_t_ack_delay a -> frame s b.
Proof.
  intros s a b (A1 & A2 & A3 & A4 & A5 & l & A6 & A7) B1 B2 B3 B4 B5 B6 B7.
  unfold frame. repeat split; try congruence; try lia.
  exists l. split; [congruence|]. intros E. rewrite B7. auto.
Qed.

Lemma frame_ext_eq : forall s a b : vsock, frame s a ->
  v_opts b = v_opts a -> v_env_now b = v_env_now a -> v_now b = v_now a ->
  v_socket_created b = v_socket_created a -> v_ss b = v_ss a ->
  v_out b = v_out a -> v_t_ack_delay b = v_t_ack_delay a -> frame s b.
Proof.
  intros s a b F B1 B2 B3 B4 B5 B6 B7. apply (frame_ext s a b); auto. rewrite B5. apply Z.le_refl.
Qed.

Definition step_frame {A} (s : vsock) (m : step A) : Prop :=
  match m with
  | SOk s' _ => frame s s'
  | SErr s' _ => frame s s'
  | SPanic => True
  end.

Lemma step_frame_sbind : forall A B (m : step A) (f : vsock -> A -> step B) s,
  step_frame s m -> (forall s1 a, step_frame s1 (f s1 a)) -> step_frame s (sbind m f).
Proof.
  intros A B m f s Hm Hf. destruct m as [s1 a| |]; cbn [sbind]; auto.
  specialize (Hf s1 a). cbn [step_frame] in Hm.
  destruct (f s1 a); cbn [step_frame] in *; auto; eapply frame_trans; eauto.
Qed.

(* solve [frame s (setters s)] when v_out / v_t_ack_delay / v_ss / clocks are untouched *)
Ltac frame_same :=
  unfold frame; vsimpl;
  repeat split; try reflexivity; try lia; try (exists []; split; [reflexivity | reflexivity]).


(* ------------------------------------------------------------------ sending *)
Lemma next_send_frame : forall (s : vsock) n s1 o, next_send s n = (s1, o) -> frame s s1.
Proof.
  intros s n s1 o H.
  destruct (VSock_LemmasTx.next_send_cases _ _ _ _ H) as [[[-> _]|(o0 & r & _ & ->)] _];
    [apply frame_refl | frame_same].
Qed.

Lemma frame_emit_sent : forall (s s1 : vsock) p h,
  frame s s1 -> frame s (on_packet_sent (emit s1 p) h).
Proof.
  intros s s1 p h (A1 & A2 & A3 & A4 & A5 & l & A6 & A7).
  unfold frame, on_packet_sent, emit; vsimpl. repeat split; auto.
  exists (p :: l). split.
  - rewrite A6. reflexivity.
  - intros E; discriminate E.
Qed.

Lemma send_control_packet_frame : forall (s : vsock) h, step_frame s (send_control_packet s h).
Proof.
  intros s h. unfold send_control_packet.
  destruct (v_transport_pending s); [apply frame_refl|].
  destruct (next_send s _) as [s1 o] eqn:E. apply next_send_frame in E.
  destruct o; cbn [step_frame]; auto.
  apply frame_emit_sent; auto.
Qed.

Lemma send_ack_frame : forall (s : vsock), step_frame s (send_ack s).
Proof. intros s. unfold send_ack. apply send_control_packet_frame. Qed.

Lemma maybe_send_fin_frame : forall (s : vsock), step_frame s (maybe_send_fin s).
Proof.
  intros s. unfold maybe_send_fin.
  destruct (v_transport_pending s); [apply frame_refl|].
  destruct (our_fin_if_unacked (v_state s)); [|apply frame_refl].
  destruct (negb _); [apply frame_refl|].
  apply step_frame_sbind; [apply send_control_packet_frame|].
  intros s1 [|]; cbn [step_frame]; [frame_same | apply frame_refl].
Qed.

Lemma send_data_frame : forall (s : vsock) h f, step_frame s (send_data s h f).
Proof.
  intros s h f. rewrite VSock_LemmasTx.send_data_eq.
  destruct (_ =? o_max_retx _); [apply frame_refl|].
  destruct (_ <? 0); [exact I|].
  destruct (_ <? fs_payload_offset f); [apply frame_refl|].
  destruct (_ <? _ + _); [apply frame_refl|].
  destruct (next_send s _) as [s1 o] eqn:E. apply next_send_frame in E.
  destruct o; cbn [step_frame]; auto.
  pose proof (frame_emit_sent s s1 (VSock_LemmasTx.data_pkt s h f) (p_hdr (VSock_LemmasTx.data_pkt s h f)) E) as F.
  unfold VSock_LemmasTx.sent_state.
  destruct (seq_gt _ _); try destruct (seq_gt _ _); exact F.
Qed.

Lemma on_rto_reactions_frame : forall (s s1 : vsock), on_rto_reactions cci s = Some s1 -> frame s s1.
Proof.
  intros s s1 H. unfold on_rto_reactions in H.
  destruct (Rtte.on_rto_timeout _); inversion H; subst. exact (frame_refl s).
Qed.

Lemma recovery_loop_frame : forall items (s : vsock) h mss0 st,
  step_frame s (recovery_loop items s h mss0 st).
Proof.
  induction items as [|f rest IH]; intros s h mss0 st; cbn [recovery_loop].
  - apply frame_refl.
  - destruct (negb _); [apply frame_refl|].
    destruct (_ && negb (sg_lost _)); [apply IH|].
    destruct (_ && negb (sg_sacks_after _)); [apply frame_refl|].
    pose proof (send_data_frame s h f) as F.
    destruct (send_data s h f) as [s1 r|s1 e|]; cbn [step_frame] in *; auto.
    destruct r; cbn [step_frame]; auto.
    match goal with |- context [recovery_loop rest s1 h mss0 ?st'] =>
      specialize (IH s1 h mss0 st'); destruct (recovery_loop rest s1 h mss0 st') end;
      cbn [step_frame] in *; auto; eapply frame_trans; eauto.
Qed.

Lemma new_data_loop_frame : forall items (s : vsock) h remaining,
  step_frame s (new_data_loop items s h remaining).
Proof.
  induction items as [|f rest IH]; intros s h remaining; cbn [new_data_loop].
  - apply frame_refl.
  - destruct (_ <? _); [apply frame_refl|].
    pose proof (send_data_frame s h f) as F.
    destruct (send_data s h f) as [s1 r|s1 e|]; cbn [step_frame] in *; auto.
    destruct r; cbn [step_frame]; auto.
    match goal with |- context [new_data_loop rest s1 h ?r'] =>
      specialize (IH s1 h r'); destruct (new_data_loop rest s1 h r') end;
      cbn [step_frame] in *; auto; eapply frame_trans; eauto.
Qed.

(* goal [frame s b] from [H : frame s a] where b differs from a in untouched fields only *)
Ltac fr_via H :=
  first [ eapply frame_ext_eq; [exact H | exact eq_refl ..]
        | eapply frame_ext; [exact H | first [exact eq_refl | vsimpl_goal; first [lia | assumption]] ..] ].

Ltac fr_leaf :=
  cbn [step_frame];
  first [ exact I
        | match goal with |- frame ?a _ => exact (frame_refl a) end
        | assumption
        | match goal with H : frame _ ?b |- frame ?a _ =>
            apply (frame_trans a b); [exact H | fr_leaf] end ].

(* pose the frame fact of a sub-call, then destruct the call *)
Ltac fr_call :=
  match goal with
  | |- context [send_data ?s ?h ?f] =>
      let F := fresh "F" in pose proof (send_data_frame s h f) as F;
      destruct (send_data s h f); cbn [step_frame] in F
  | |- context [maybe_send_fin ?s] =>
      let F := fresh "F" in pose proof (maybe_send_fin_frame s) as F;
      destruct (maybe_send_fin s); cbn [step_frame] in F
  | |- context [send_ack ?s] =>
      let F := fresh "F" in pose proof (send_ack_frame s) as F;
      destruct (send_ack s); cbn [step_frame] in F
  | |- context [send_control_packet ?s ?h] =>
      let F := fresh "F" in pose proof (send_control_packet_frame s h) as F;
      destruct (send_control_packet s h); cbn [step_frame] in F
  | |- context [recovery_loop ?i ?s ?h ?m ?st] =>
      let F := fresh "F" in pose proof (recovery_loop_frame i s h m st) as F;
      destruct (recovery_loop i s h m st); cbn [step_frame] in F
  | |- context [new_data_loop ?i ?s ?h ?r] =>
      let F := fresh "F" in pose proof (new_data_loop_frame i s h r) as F;
      destruct (new_data_loop i s h r); cbn [step_frame] in F
  | |- context [on_rto_reactions cci ?s] =>
      let F := fresh "F" in
      destruct (on_rto_reactions cci s) eqn:F; [apply on_rto_reactions_frame in F|]
  end.

Ltac fr_auto :=
  repeat first [ fr_call | progress cbn [sbind] | break_match ]; fr_leaf.

Lemma send_tx_queue_frame : forall (s : vsock), step_frame s (send_tx_queue cci s).
Proof.
  intros s. unfold send_tx_queue.
  destruct (v_transport_pending s); [exact (frame_refl s)|].
  apply step_frame_sbind.
  - fr_auto.
  - intros t ret.
    destruct ret; [exact (frame_refl t)|].
    destruct (0 <? _); [exact (frame_refl t)|].
    destruct (ss_segs (v_segs t)) eqn:Esegs; [exact (frame_refl t)|].
    apply step_frame_sbind.
    + destruct (rv_phase (v_recovery t)); try exact (frame_refl t).
      apply step_frame_sbind.
      * apply recovery_loop_frame.
      * intros s1 [st early]. unfold set_recovering. fr_auto.
    + intros t2 ret. destruct ret; [exact (frame_refl t2)|].
      apply step_frame_sbind.
      * apply new_data_loop_frame.
      * intros s1 too_long. fr_auto.
Qed.

(* ------------------------------------------------------------------ segmentation *)
Lemma segment_loop_mss : forall fuel nagle ss segs rem rwr ss' segs' rem',
  segment_loop fuel nagle ss segs rem rwr = Some (ss', segs', rem') -> mss ss' = mss ss.
Proof.
  induction fuel as [|x fuel IH]; intros nagle ss segs rem rwr ss' segs' rem' H; cbn [segment_loop] in H.
  - inversion H; reflexivity.
  - destruct (_ && _); [|inversion H; reflexivity].
    destruct (next_segment_size ss) as [[ss1 sz]|] eqn:E; [|discriminate].
    apply mss_next_segment_size in E.
    destruct (_ && _ && _); [inversion H; subst; exact E|].
    destruct (mss ss1 <? _); [inversion H; subst; exact E|].
    apply IH in H. congruence.
Qed.

Lemma frame_set_ss : forall (s : vsock) ss, mss (v_ss s) <= mss ss -> frame s (set_ss s ss).
Proof. intros s ss H. unfold frame; vsimpl. repeat split; auto. exists []; split; auto. Qed.

Lemma split_tx_queue_into_segments_frame : forall (s : vsock),
  step_frame s (split_tx_queue_into_segments cci s).
Proof.
  intros s. unfold split_tx_queue_into_segments.
  destruct (_ =? 0); [exact (frame_refl s)|].
  match goal with |- context [is_remote_fin_or_later (v_state ?x)] => set (s1 := x) end.
  assert (F1 : frame s s1).
  { subst s1. destruct (_ && _); [|exact (frame_refl s)].
    destruct (grow _ _) as [tx1 g]. destruct g; [destruct (wake_writer tx1)|]; exact (frame_refl s). }
  clearbody s1.
  destruct (is_remote_fin_or_later _); [exact F1|].
  destruct (pop_expired_mtu_probe _ _ _) as [segs1 pe].
  assert (Hcont : forall s2 : vsock, frame s s2 ->
    step_frame s
      (if Z.of_nat (length (ring (v_tx s))) <? ss_len_bytes (v_segs s2)
       then SErr s2 (ErrBug BugInBufferComputations)
       else match segment_loop (ring (v_tx s2)) (o_nagle (v_opts s2)) (v_ss s2) (v_segs s2)
                    (Z.of_nat (length (ring (v_tx s))) - ss_len_bytes (v_segs s2))
                    (v_last_remote_window s2) with
            | Some (ss', segs', remaining) =>
                SOk (set_unsegmented (VSockRec.set_segs (set_ss s2 ss') segs') remaining) tt
            | None => SPanic
            end)).
  { intros s2 F2. destruct (_ <? _); [exact F2|].
    destruct (segment_loop _ _ _ _ _ _) as [[[ss' segs'] rem']|] eqn:E; [|exact I].
    apply segment_loop_mss in E. cbn [step_frame].
    apply (frame_trans s s2); [exact F2|].
    apply (frame_set_ss s2 ss'). lia. }
  destruct pe.
  - apply Hcont. destruct (seq_gt _ _); exact F1.
  - exact F1.
  - apply Hcont. exact F1.
Qed.

(* ------------------------------------------------------------------ death, transitions *)
Lemma mark_both_closed_frame : forall (s : vsock), frame s (mark_both_closed s).
Proof.
  intros s. unfold mark_both_closed.
  destruct (rx_mark_vsock_closed _); destruct (mark_vsock_closed _). exact (frame_refl s).
Qed.

Lemma just_before_death_frame : forall (s : vsock) e, frame s (just_before_death s e).
Proof.
  intros s e. unfold just_before_death.
  match goal with |- context [mark_both_closed ?x] => set (s1 := x) end.
  assert (F1 : frame s s1).
  { subst s1. destruct e; [destruct (rx_enqueue_error _)|]; exact (frame_refl s). }
  clearbody s1.
  pose proof (mark_both_closed_frame s1) as F2.
  destruct e; [|fr_leaf].
  destruct (negb _); [|fr_leaf].
  fr_auto.
Qed.

Lemma transition_to_fin_wait_1_frame : forall (s : vsock), frame s (transition_to_fin_wait_1 s).
Proof. intros s. unfold transition_to_fin_wait_1. destruct (v_state s); exact (frame_refl s). Qed.

(* ------------------------------------------------------------------ incoming messages *)
Definition table_frame (s : vsock) (r : table_res) : Prop :=
  match r with TblDrop s1 | TblErr s1 _ | TblContinue s1 => frame s s1 end.

Lemma state_table_frame : forall (s : vsock) h, table_frame s (state_table s h).
Proof.
  intros s h. unfold state_table, restart_remote_inactivity_timer.
  repeat break_match; cbn [table_frame]; exact (frame_refl s).
Qed.

Lemma process_incoming_message_frame : forall (s : vsock) m,
  step_frame s (process_incoming_message cci s m).
Proof.
  intros s m. unfold process_incoming_message.
  pose proof (state_table_frame s (m_hdr m)) as T.
  destruct (state_table s (m_hdr m)) as [s1|s1 e|s1]; cbn [table_frame step_frame] in *; auto.
  destruct (remove_up_to_ack _ _ _ _) as [segs1 res].
  match goal with |- context [on_payload_delivered (v_ss s1) ?n] =>
    pose proof (mss_on_payload_delivered (v_ss s1) n) as M1; set (ss1 := on_payload_delivered (v_ss s1) n) in * end.
  destruct (match is_recovering _, _ with | false, Some rtt => _ | _, _ => _ end) as [rtte1|]; [|exact I].
  destruct (cc_on_ack _ _ _ _ _) as [cc3|]; [|exact I].
  destruct (recovery_on_ack _ _ _ _ _ _ _ _) as [[[rec1 segs2] cc4]|]; [|exact I].
  match goal with |- context [seq_sub _ (wadd16 (v_last_consumed ?x) 1)] => set (s2 := x) end.
  assert (F2 : frame s s2) by (subst s2; fr_via T).
  clearbody s2.
  destruct (ch_type (m_hdr m)); try exact F2.
  - (* ST_DATA *)
    destruct (_ <? 0); [unfold force_immediate_ack; cbn [step_frame]; fr_via F2|].
    match goal with |- context [on_payload_delivered (v_ss s2) ?n] =>
      pose proof (mss_on_payload_delivered (v_ss s2) n) as M2; set (ss2 := on_payload_delivered (v_ss s2) n) in * end.
    match goal with |- context [rx_add_remove (v_rx ?x)] => set (s3 := x) end.
    assert (F3 : frame s s3) by (subst s3; fr_via F2).
    clearbody s3.
    destruct (rx_add_remove _ _ _ _) as [[rx1 ar] w].
    destruct ar as [r|]; [|exact I].
    destruct (add_err r); [cbn [step_frame]; unfold add_wakes; fr_via F3|].
    match goal with |- context [send_ack (force_immediate_ack ?x)] => set (s5 := x) end.
    assert (F5 : frame s s5).
    { subst s5. unfold restart_remote_inactivity_timer, add_wakes. destruct r; fr_via F3. }
    clearbody s5.
    destruct (_ || _); [|exact F5].
    assert (F6 : frame s (force_immediate_ack s5)) by (unfold force_immediate_ack; fr_via F5).
    set (s6 := force_immediate_ack s5) in *. clearbody s6.
    cbn [sbind]. fr_call; cbn [step_frame]; auto; eapply frame_trans; eauto.
  - (* ST_FIN *)
    unfold force_immediate_ack.
    destruct (_ && _); [|cbn [step_frame]; fr_via F2].
    destruct (rx_add_remove _ _ _ _) as [[rx1 ar] w].
    destruct ar as [r|]; [|exact I].
    destruct (add_err r); [cbn [step_frame]; unfold add_wakes; fr_via F2|].
    destruct (mark_vsock_closed _). cbn [step_frame]; unfold add_wakes; fr_via F2.
Qed.

Lemma recv_loop_frame : forall fuel (s : vsock) acc, step_frame s (recv_loop cci fuel s acc).
Proof.
  induction fuel as [|x fuel IH]; intros s acc.
  - cbn [recv_loop]. destruct (v_inbox s).
    + destruct (v_inbox_closed s); [|exact (frame_refl s)].
      pose proof (transition_to_fin_wait_1_frame s) as F. fr_auto.
    + exact I.
  - cbn [recv_loop]. destruct (v_inbox s) as [|m rest].
    + destruct (v_inbox_closed s); [|exact (frame_refl s)].
      pose proof (transition_to_fin_wait_1_frame s) as F. fr_auto.
    + apply step_frame_sbind.
      * exact (process_incoming_message_frame (set_inbox s rest) m).
      * intros s1 r. destruct (_ || _); [exact (frame_refl s1)|]. apply IH.
Qed.

Lemma process_all_incoming_messages_frame : forall (s : vsock),
  step_frame s (process_all_incoming_messages cci s).
Proof.
  intros s. unfold process_all_incoming_messages.
  apply step_frame_sbind; [apply recv_loop_frame|].
  intros s1 [r early].
  apply step_frame_sbind.
  - unfold restart_remote_inactivity_timer, acked_counts_as_sent.
    repeat break_match; cbn [step_frame]; exact (frame_refl s1).
  - intros s3 _. unfold set_recovering. repeat break_match; cbn [step_frame]; first [exact I | exact (frame_refl s3)].
Qed.

Lemma maybe_send_syn_ack_frame : forall (s : vsock), step_frame s (maybe_send_syn_ack s).
Proof.
  intros s. unfold maybe_send_syn_ack.
  assert (G : forall c, step_frame s
     (if c =? o_max_retx (v_opts s) then SErr s ErrMaxSynAckRetransmissionsReached
      else sbind (send_ack s) (fun s1 sent =>
        if sent then SOk (set_t_syn_ack_resend (set_state s1 (SynAckSent (c + 1)))
               (timer_arm (v_t_syn_ack_resend s1) (v_now s1) SYNACK_RESEND_INTERNAL true)) tt
        else SOk s1 tt))).
  { intros c. destruct (_ =? _); [exact (frame_refl s)|]. fr_auto. }
  destruct (v_state s); try exact (frame_refl s).
  - apply G.
  - destruct (timer_expired _ _); [apply G | exact (frame_refl s)].
Qed.

(* ------------------------------------------------------------------ frame0: frame without the
   delayed-ACK clause (what maybe_send_ack and therefore a whole poll_body satisfies) *)
Definition frame0 (s s' : vsock) : Prop :=
  v_opts s' = v_opts s /\
  v_env_now s' = v_env_now s /\
  v_now s' = v_now s /\
  v_socket_created s' = v_socket_created s /\
  mss (v_ss s) <= mss (v_ss s') /\
  exists l, v_out s' = l ++ v_out s.

Lemma frame_frame0 : forall s s', frame s s' -> frame0 s s'.
Proof.
  intros s s' (A1 & A2 & A3 & A4 & A5 & l & A6 & A7). unfold frame0. repeat split; auto. exists l; auto.
Qed.

Lemma frame0_refl : forall s, frame0 s s.
Proof. intros s. apply frame_frame0, frame_refl. Qed.

Lemma frame0_trans : forall a b c, frame0 a b -> frame0 b c -> frame0 a c.
Proof.
  intros a b c (A1 & A2 & A3 & A4 & A5 & l1 & A6) (B1 & B2 & B3 & B4 & B5 & l2 & B6).
  unfold frame0. repeat split; try congruence; try lia.
  exists (l2 ++ l1). rewrite B6, A6. apply app_assoc.
Qed.

Lemma maybe_send_ack_frame0 : forall (s : vsock),
  match maybe_send_ack s with SOk s1 _ | SErr s1 _ => frame0 s s1 | SPanic => True end.
Proof.
  intros s. unfold maybe_send_ack.
  pose proof (send_ack_frame s) as F.
  assert (G : match send_ack s with SOk s1 _ | SErr s1 _ => frame0 s s1 | SPanic => True end).
  { destruct (send_ack s); cbn [step_frame] in F; auto using frame_frame0. }
  destruct (immediate_ack_to_transmit s); [exact G|].
  destruct (should_send_window_update s); [exact G|].
  destruct (timer_expired _ _).
  - destruct (ack_to_transmit s); [exact G|]. exact (frame0_refl s).
  - destruct (0 <? v_cbu s); exact (frame0_refl s).
Qed.

(* ------------------------------------------------------------------ v_restart is set only by
   send_tx_queue *)
Lemma send_control_packet_restart : forall (s : vsock) h s1 b,
  send_control_packet s h = SOk s1 b -> v_restart s1 = v_restart s.
Proof.
  intros s h s1 b H. unfold send_control_packet in H.
  destruct (v_transport_pending s); [inversion H; reflexivity|].
  unfold next_send in H.
  repeat break_match_hyp H; inversion H; subst; try inversion Heqp; subst; reflexivity.
Qed.

Lemma maybe_send_fin_restart : forall (s : vsock) s1 b,
  maybe_send_fin s = SOk s1 b -> v_restart s1 = v_restart s.
Proof.
  intros s s1 b H. unfold maybe_send_fin in H.
  destruct (v_transport_pending s); [inversion H; reflexivity|].
  destruct (our_fin_if_unacked _); [|inversion H; reflexivity].
  destruct (negb _); [inversion H; reflexivity|].
  destruct (send_control_packet s _) as [s2 sent| |] eqn:E; cbn [sbind] in H; try discriminate.
  apply send_control_packet_restart in E.
  destruct sent; inversion H; subst; exact E.
Qed.

Lemma maybe_send_ack_restart : forall (s : vsock) s1 b,
  maybe_send_ack s = SOk s1 b -> v_restart s1 = v_restart s.
Proof.
  intros s s1 b H. unfold maybe_send_ack, send_ack in H.
  repeat break_match_hyp H; try (eapply send_control_packet_restart; eassumption);
    inversion H; reflexivity.
Qed.

(* ------------------------------------------------------------------ pend / bail *)
Lemma die_not_pending : forall (s s' : vsock) e, die s e <> BrReturn s' PollPending.
Proof. intros s s' e H. unfold die in H. inversion H. Qed.

Lemma bail_pending_inv : forall A (m : step A) k (s' : vsock),
  bail m k = BrReturn s' PollPending ->
  exists s1 a, m = SOk s1 a /\ v_restart s1 = false /\ k s1 a = BrReturn s' PollPending.
Proof.
  intros A m k s' H. unfold bail in H. destruct m as [s1 a|s1 e|]; try discriminate.
  destruct (v_restart s1) eqn:R; [discriminate|]. exists s1, a. auto.
Qed.

Lemma pend_pending_inv : forall A (m : step A) k (s' : vsock),
  pend m k = BrReturn s' PollPending -> v_transport_pending s' = false ->
  exists s1 a, m = SOk s1 a /\ v_restart s1 = false /\ v_transport_pending s1 = false /\
               k s1 a = BrReturn s' PollPending.
Proof.
  intros A m k s' H T. unfold pend in H. apply bail_pending_inv in H.
  destruct H as (s1 & a & E & R & H). exists s1, a.
  destruct (v_transport_pending s1) eqn:P.
  - inversion H; subst. congruence.
  - rewrite R in H. auto.
Qed.

Lemma bail_restart_inv : forall A (m : step A) k (s' : vsock),
  bail m k = BrRestart s' ->
  exists s1 a, m = SOk s1 a /\ ((v_restart s1 = true /\ s' = s1) \/
                                (v_restart s1 = false /\ k s1 a = BrRestart s')).
Proof.
  intros A m k s' H. unfold bail in H. destruct m as [s1 a|s1 e|]; try discriminate.
  exists s1, a. split; auto. destruct (v_restart s1); [left; inversion H; auto | right; auto].
Qed.

Lemma pend_restart_inv : forall A (m : step A) k (s' : vsock),
  pend m k = BrRestart s' ->
  exists s1 a, m = SOk s1 a /\ ((v_restart s1 = true /\ s' = s1) \/
                                (v_restart s1 = false /\ k s1 a = BrRestart s')).
Proof.
  intros A m k s' H. unfold pend in H. apply bail_restart_inv in H.
  destruct H as (s1 & a & E & [H|[R H]]); exists s1, a; split; auto.
  destruct (v_transport_pending s1); [discriminate|]. rewrite R in H. auto.
Qed.


(* ------------------------------------------------------------------ poll_body *)
Definition poll_start (s0 : vsock) : vsock :=
  set_restart (set_now (set_transport_pending s0 false) (v_env_now s0)) false.

(* what poll_body does after maybe_send_ack when the connection is not closed *)
Definition poll_tail (s : vsock) : vsock :=
  let s := if is_local_fin_or_later (v_state s)
           then set_t_inactivity s (timer_arm (v_t_inactivity s) (v_now s)
                                      SHUTDOWN_FINAL_CHANCE_DELAY false)
           else s in
  let '(s, t) := next_timer_to_poll s in
  match t with
  | Some instant => arm_in s (sat_sub instant (v_now s))
  | None => s
  end.

Lemma rx_flush_frame : forall (s : vsock) rx1 w,
  frame s (add_wakes (set_rx s rx1) w).
Proof. intros. unfold add_wakes. fr_via (frame_refl s). Qed.

(* ------------------------------------------------------------------ one walk through poll_body *)
Definition quiet (s : vsock) : Prop := v_restart s = false /\ v_transport_pending s = false.

Lemma quiet_fin_wait_1 : forall s, quiet s -> quiet (transition_to_fin_wait_1 s).
Proof. intros s H. unfold transition_to_fin_wait_1. destruct (v_state s); exact H. Qed.

(* Q is what is claimed of the outcome; A, B1, B2, B3, C, D hold of the state up to the incoming
   messages / after them / from the flush to the segmentation / from there to send_tx_queue /
   after it / after maybe_send_ack.
   Every other statement about all outcomes (or some) of poll_body is an instance. *)
Section PollWalk.
Variable Q : body_res (CC:=CC) -> Prop.
Variables A B1 B2 B3 C D : vsock -> Prop.

(* a call whose result goes through [pend] (chk = true) or [bail] (chk = false): each way out of the
   poll satisfies Q, going on satisfies P *)
Definition stage (chk : bool) (P : vsock -> Prop) {X} (m : step X) : Prop :=
  match m with
  | SOk s1 _ => if v_restart s1 then Q (BrRestart s1)
                else if chk && v_transport_pending s1 then Q (BrReturn s1 PollPending)
                else P s1
  | SErr s1 e => Q (die s1 e)
  | SPanic => Q BrPanic
  end.

Lemma bail_stage : forall X P (m : step X) k,
  stage false P m -> (forall s1 a, P s1 -> v_restart s1 = false -> Q (k s1 a)) -> Q (bail m k).
Proof.
  intros X P m k Hm Hk. unfold bail. destruct m as [s1 a|s1 e|]; cbn [stage andb] in Hm; try exact Hm.
  destruct (v_restart s1) eqn:R; [exact Hm|]. apply Hk; [exact Hm | exact R].
Qed.

Lemma pend_stage : forall X P (m : step X) k,
  stage true P m -> (forall s1 a, P s1 -> quiet s1 -> Q (k s1 a)) -> Q (pend m k).
Proof.
  intros X P m k Hm Hk. unfold pend. apply (bail_stage X (fun s1 => stage true P (SOk s1 tt))).
  - destruct m as [s1 a|s1 e|]; cbn [stage andb] in *; try exact Hm.
    destruct (v_restart s1); exact Hm.
  - intros s1 a H R. cbn [stage andb] in H. rewrite R in H |- *.
    destruct (v_transport_pending s1) eqn:T; [exact H|]. apply Hk; [exact H | split; assumption].
Qed.

Hypothesis Q_panic : Q BrPanic.
Hypothesis H_syn_ack : forall s, A s -> quiet s -> stage true A (maybe_send_syn_ack s).
Hypothesis H_send_ack : forall s, A s -> quiet s -> immediate_ack_to_transmit s = true ->
  stage true A (send_ack s).
Hypothesis H_pim : forall s, A s -> quiet s -> stage true B1 (process_all_incoming_messages cci s).
Hypothesis H_flush : forall s rx1 fb w, B1 s -> quiet s ->
  rx_flush (v_rx s) = (rx1, FlOk fb, w) -> B2 (add_wakes (set_rx s rx1) (rx_wakes w)).
Hypothesis H_idle : forall s, B2 s -> quiet s -> timer_expired (v_t_inactivity s) (v_now s) = true ->
  Q (die s ErrRemoteInactiveForTooLong).
Hypothesis H_split : forall s, B2 s -> quiet s -> timer_expired (v_t_inactivity s) (v_now s) = false ->
  stage false B3 (split_tx_queue_into_segments cci s).
Hypothesis H_stq : forall s, B3 s -> v_restart s = false -> stage true C (send_tx_queue cci s).
Hypothesis H_fw1 : forall s, C s -> quiet s -> should_close_on_own_initiative s = true ->
  C (transition_to_fin_wait_1 s).
Hypothesis H_fin : forall s, C s -> quiet s -> stage true C (maybe_send_fin s).
Hypothesis H_msa : forall s, C s -> quiet s -> stage true D (maybe_send_ack s).
Hypothesis H_closed : forall s, D s -> quiet s ->
  state_is_closed (v_state s) (o_wait_for_last_ack (v_opts s)) = true ->
  Q (BrReturn (just_before_death s None) PollReadyOk).
Hypothesis H_tail : forall s, D s -> quiet s ->
  state_is_closed (v_state s) (o_wait_for_last_ack (v_opts s)) = false ->
  Q (BrReturn (poll_tail s) PollPending).

(* the general form: the state entering maybe_send_syn_ack may satisfy less (A0) than the later
   ones (A), and the flush is only known not to panic from what holds before it *)
Section Entry.
Variable A0 : vsock -> Prop.
Hypothesis H_syn_ack0 : forall s, A0 s -> quiet s -> stage true A (maybe_send_syn_ack s).
Hypothesis H_flush_panic : forall s rx1 w, B1 s -> quiet s ->
  rx_flush (v_rx s) = (rx1, FlPanic, w) -> Q BrPanic.

Theorem poll_body_walk0 : forall s0, A0 (poll_start s0) -> Q (poll_body cci s0).
Proof.
  intros s0 HA. unfold poll_body. fold (poll_start s0).
  assert (Q0 : quiet (poll_start s0)) by (split; reflexivity).
  generalize dependent (poll_start s0). clear s0. intros s0 HA Q0.
  apply (pend_stage _ A); [apply H_syn_ack0; assumption|]. intros s1 _ A1 Q1.
  apply (pend_stage _ A).
  { destruct (immediate_ack_to_transmit s1) eqn:Im; [apply H_send_ack; assumption|].
    destruct Q1 as [R1 T1]. cbn [stage]. rewrite R1, T1. exact A1. }
  intros s2 _ A2 Q2.
  apply (pend_stage _ B1); [apply H_pim; assumption|]. intros s3 _ HB3 Q3.
  destruct (rx_flush (v_rx s3)) as [[rx1 fr] w] eqn:Efl. destruct fr as [fb|]; [|exact (H_flush_panic s3 rx1 w HB3 Q3 Efl)].
  pose proof (H_flush s3 rx1 fb w HB3 Q3 Efl) as HB4.
  assert (Q4 : quiet (add_wakes (set_rx s3 rx1) (rx_wakes w))) by exact Q3.
  set (s4 := add_wakes (set_rx s3 rx1) (rx_wakes w)) in *. clearbody s4.
  destruct (timer_expired _ _) eqn:Ex; [apply H_idle; assumption|].
  apply (bail_stage _ B3); [apply H_split; assumption|]. intros s5 _ HB5 R5.
  apply (pend_stage _ C); [apply H_stq; assumption|]. intros s6 _ HC6 Q6.
  assert (H7 : C (if should_close_on_own_initiative s6 then transition_to_fin_wait_1 s6 else s6) /\
               quiet (if should_close_on_own_initiative s6 then transition_to_fin_wait_1 s6 else s6)).
  { destruct (should_close_on_own_initiative s6) eqn:Cl; [|split; assumption].
    split; [apply H_fw1 | apply quiet_fin_wait_1]; assumption. }
  set (s7 := if should_close_on_own_initiative s6 then transition_to_fin_wait_1 s6 else s6) in *.
  clearbody s7. destruct H7 as [HC7 Q7].
  apply (pend_stage _ C); [apply H_fin; assumption|]. intros s8 _ HC8 Q8.
  apply (pend_stage _ D); [apply H_msa; assumption|]. intros s9 _ HD9 Q9.
  destruct (state_is_closed _ _) eqn:C9; [apply H_closed; assumption|].
  pose proof (H_tail s9 HD9 Q9 C9) as F. unfold poll_tail in F.
  destruct (next_timer_to_poll _) as [sx t]. destruct t; exact F.
Qed.

End Entry.

Theorem poll_body_walk : forall s0, A (poll_start s0) -> Q (poll_body cci s0).
Proof. exact (poll_body_walk0 A H_syn_ack (fun _ _ _ _ _ _ => Q_panic)). Qed.

End PollWalk.

(* what one iteration tells when it restarts (before maybe_send_ack: the full frame holds) or
   returns Pending with a writable transport *)
Definition br_cases (s : vsock) (r : body_res) : Prop :=
  match r with
  | BrRestart s' => frame s s'
  | BrReturn s' PollPending =>
      v_transport_pending s' = false ->
      exists sa sb b,
        frame s sa /\ maybe_send_ack sa = SOk sb b /\
        v_transport_pending sb = false /\ v_restart sb = false /\ s' = poll_tail sb
  | _ => True
  end.

Lemma frame_stage : forall X s0 s chk (m : step X),
  frame s0 s -> step_frame s m -> stage (br_cases s0) chk (frame s0) m.
Proof.
  intros X s0 s chk m H Hm. destruct m as [s1 a|s1 e|]; cbn [stage step_frame] in *; try exact I.
  assert (H1 : frame s0 s1) by (eapply frame_trans; eauto).
  destruct (v_restart s1); [exact H1|]. destruct chk; [|exact H1].
  destruct (v_transport_pending s1) eqn:T; [|exact H1]. intro T'. congruence.
Qed.

Lemma poll_body_cases : forall s0, br_cases (poll_start s0) (poll_body cci s0).
Proof.
  intros s0. set (s := poll_start s0).
  apply (poll_body_walk (br_cases s) (frame s) (frame s) (frame s) (frame s) (frame s)
           (fun sb => exists sa b, frame s sa /\ maybe_send_ack sa = SOk sb b)).
  - exact I.
  - intros s1 H _. eapply frame_stage; [exact H | apply maybe_send_syn_ack_frame].
  - intros s1 H _ _. eapply frame_stage; [exact H | apply send_ack_frame].
  - intros s1 H _. eapply frame_stage; [exact H | apply process_all_incoming_messages_frame].
  - intros s1 rx1 fb w H _ _. eapply frame_trans; [exact H | apply rx_flush_frame].
  - intros s1 _ _ _. exact I.
  - intros s1 H _ _. eapply frame_stage; [exact H | apply split_tx_queue_into_segments_frame].
  - intros s1 H _. eapply frame_stage; [exact H | apply send_tx_queue_frame].
  - intros s1 H _ _. eapply frame_trans; [exact H | apply transition_to_fin_wait_1_frame].
  - intros s1 H _. eapply frame_stage; [exact H | apply maybe_send_fin_frame].
  - (* maybe_send_ack keeps frame0 only, but cannot ask for a restart *)
    intros sa H [Ra _]. destruct (maybe_send_ack sa) as [sb b|sb e|] eqn:E; cbn [stage]; try exact I.
    rewrite (maybe_send_ack_restart _ _ _ E), Ra.
    destruct (v_transport_pending sb) eqn:T; cbn [andb br_cases]; [intro T'; congruence|].
    exists sa, b. auto.
  - intros sb _ _ _. exact I.
  - intros sb (sa & b & H & E) [Rb Tb] _ _. exists sa, sb, b. auto.
  - apply frame_refl.
Qed.


(* every outcome of poll_body is a frame0-successor of its start *)
Definition step_frame0 {A} (s : vsock) (m : step A) : Prop :=
  match m with SOk s' _ | SErr s' _ => frame0 s s' | SPanic => True end.

Lemma step_frame_frame0 : forall A (s : vsock) (m : step A), step_frame s m -> step_frame0 s m.
Proof. intros A s m F. destruct m; cbn [step_frame step_frame0] in *; auto using frame_frame0. Qed.

Definition br_frame0 (s : vsock) (r : body_res) : Prop :=
  match r with BrReturn s' _ | BrRestart s' => frame0 s s' | BrPanic => True end.

Lemma br_frame0_trans : forall a b r, frame0 a b -> br_frame0 b r -> br_frame0 a r.
Proof. intros a b r F G. destruct r; cbn [br_frame0] in *; auto; eapply frame0_trans; eauto. Qed.

Lemma die_frame0 : forall (s : vsock) e, br_frame0 s (die s e).
Proof. intros s e. unfold die. cbn [br_frame0]. apply frame_frame0, just_before_death_frame. Qed.

Lemma frame0_stage : forall X s0 s chk (m : step X),
  frame0 s0 s -> step_frame0 s m -> stage (br_frame0 s0) chk (frame0 s0) m.
Proof.
  intros X s0 s chk m H Hm. destruct m as [s1 a|s1 e|]; cbn [stage step_frame0] in *.
  - assert (H1 : frame0 s0 s1) by (eapply frame0_trans; eauto).
    destruct (v_restart s1); [exact H1|]. destruct (chk && _); exact H1.
  - eapply br_frame0_trans; [eapply frame0_trans; eauto | apply die_frame0].
  - exact I.
Qed.

Lemma poll_tail_frame : forall (s : vsock), frame s (poll_tail s).
Proof.
  intros s. unfold poll_tail, next_timer_to_poll, arm_in, add_wakes.
  repeat break_match; try (inversion Heqp; subst); fr_via (frame_refl s).
Qed.

Lemma poll_body_frame0 : forall s0, br_frame0 (poll_start s0) (poll_body cci s0).
Proof.
  intros s0. set (s := poll_start s0).
  apply (poll_body_walk (br_frame0 s) (frame0 s) (frame0 s) (frame0 s) (frame0 s) (frame0 s) (frame0 s)).
  - exact I.
  - intros s1 H _. eapply frame0_stage; [exact H | apply step_frame_frame0, maybe_send_syn_ack_frame].
  - intros s1 H _ _. eapply frame0_stage; [exact H | apply step_frame_frame0, send_ack_frame].
  - intros s1 H _.
    eapply frame0_stage; [exact H | apply step_frame_frame0, process_all_incoming_messages_frame].
  - intros s1 rx1 fb w H _ _. eapply frame0_trans; [exact H | apply frame_frame0, rx_flush_frame].
  - intros s1 H _ _. eapply br_frame0_trans; [exact H | apply die_frame0].
  - intros s1 H _ _.
    eapply frame0_stage; [exact H | apply step_frame_frame0, split_tx_queue_into_segments_frame].
  - intros s1 H _. eapply frame0_stage; [exact H | apply step_frame_frame0, send_tx_queue_frame].
  - intros s1 H _ _. eapply frame0_trans; [exact H | apply frame_frame0, transition_to_fin_wait_1_frame].
  - intros s1 H _. eapply frame0_stage; [exact H | apply step_frame_frame0, maybe_send_fin_frame].
  - intros s1 H _. eapply frame0_stage; [exact H | exact (maybe_send_ack_frame0 s1)].
  - intros s1 H _ _. eapply frame0_trans; [exact H | apply frame_frame0, just_before_death_frame].
  - intros s1 H _ _. eapply frame0_trans; [exact H | apply frame_frame0, poll_tail_frame].
  - apply frame0_refl.
Qed.

Lemma transition_to_fin_wait_1_restart : forall (s : vsock),
  v_restart (transition_to_fin_wait_1 s) = v_restart s.
Proof. intros s. unfold transition_to_fin_wait_1. destruct (v_state s); reflexivity. Qed.

(* ------------------------------------------------------------------ poll_loop / poll *)
(* across iterations of the restart loop the clock field v_now is re-read; everything else of
   [frame] is kept *)
Definition pframe (s s' : vsock) : Prop :=
  v_opts s' = v_opts s /\
  v_env_now s' = v_env_now s /\
  v_socket_created s' = v_socket_created s /\
  mss (v_ss s) <= mss (v_ss s') /\
  exists l, v_out s' = l ++ v_out s /\ (l = [] -> v_t_ack_delay s' = v_t_ack_delay s).

Lemma pframe_refl : forall s, pframe s s.
Proof. intros s. unfold pframe. repeat split; try lia. exists []. split; auto. Qed.

Lemma pframe_trans : forall a b c, pframe a b -> pframe b c -> pframe a c.
Proof.
  intros a b c (A1 & A2 & A4 & A5 & l1 & A6 & A7) (B1 & B2 & B4 & B5 & l2 & B6 & B7).
  unfold pframe. repeat split; try congruence; try lia.
  exists (l2 ++ l1). split.
  - rewrite B6, A6. apply app_assoc.
  - intros E. apply app_eq_nil in E. destruct E as [E2 E1]. rewrite B7, A7; auto.
Qed.

Lemma frame_pframe : forall s s', frame s s' -> pframe s s'.
Proof.
  intros s s' (A1 & A2 & A3 & A4 & A5 & l & A6 & A7). unfold pframe. repeat split; auto.
  exists l; auto.
Qed.

Lemma pframe_start : forall s, pframe s (poll_start s).
Proof. intros s. unfold pframe, poll_start. vsimpl_goal. repeat split; try lia. exists []. split; auto. Qed.

Lemma poll_loop_pending_inv : forall fuel s s',
  poll_loop cci fuel s = (s', PollPending) -> v_transport_pending s' = false ->
  exists s0 sa sb b,
    pframe s s0 /\ frame (poll_start s0) sa /\ maybe_send_ack sa = SOk sb b /\
    v_transport_pending sb = false /\ v_restart sb = false /\ s' = poll_tail sb.
Proof.
  induction fuel as [|fuel IH]; intros s s' H T; cbn [poll_loop] in H; [discriminate|].
  pose proof (poll_body_cases s) as F.
  destruct (poll_body cci s) as [s1 r|s1|]; cbn [br_cases] in F.
  - inversion H; subst. destruct (F T) as (sa & sb & b & E).
    exists s, sa, sb, b. split; [apply pframe_refl | exact E].
  - apply IH in H; [|exact T]. destruct H as (s0 & sa & sb & b & P & H).
    exists s0, sa, sb, b. split; [|exact H].
    eapply pframe_trans; [|exact P].
    eapply pframe_trans; [apply pframe_start | apply frame_pframe; exact F].
  - discriminate.
Qed.

(* what every poll (whatever its result) keeps *)
Definition pframe0 (s s' : vsock) : Prop :=
  v_opts s' = v_opts s /\ v_env_now s' = v_env_now s /\
  v_socket_created s' = v_socket_created s /\ mss (v_ss s) <= mss (v_ss s').

Lemma pframe0_trans : forall a b c, pframe0 a b -> pframe0 b c -> pframe0 a c.
Proof.
  intros a b c (A1 & A2 & A3 & A4) (B1 & B2 & B3 & B4). unfold pframe0.
  repeat split; try congruence; lia.
Qed.

Lemma frame0_start_pframe0 : forall s s', frame0 (poll_start s) s' -> pframe0 s s'.
Proof.
  intros s s' (A1 & A2 & A3 & A4 & A5 & _). unfold poll_start in *.
  unfold pframe0. repeat split; auto.
Qed.

Lemma poll_loop_pframe0 : forall fuel s s' r, poll_loop cci fuel s = (s', r) -> pframe0 s s'.
Proof.
  induction fuel as [|fuel IH]; intros s s' r H; cbn [poll_loop] in H.
  - inversion H; subst. unfold pframe0. repeat split; lia.
  - pose proof (poll_body_frame0 s) as F.
    destruct (poll_body cci s) as [s1 r1|s1|]; cbn [br_frame0] in *.
    + inversion H; subst. apply frame0_start_pframe0; exact F.
    + eapply pframe0_trans; [apply frame0_start_pframe0; exact F | eapply IH; exact H].
    + inversion H; subst. unfold pframe0. repeat split; lia.
Qed.

Definition poll_init (s : vsock) : vsock := set_arm_in (set_wakes (set_out s []) []) None.

(* conversion must unfold [poll], never the fixpoint [poll_loop] on its literal fuel *)
Strategy opaque [poll_loop].
Lemma poll_unfold : forall s, poll cci s = poll_loop cci 64 (poll_init s).
Proof. intros s. unfold poll, poll_init. reflexivity. Qed.
Strategy transparent [poll_loop].

Lemma poll_init_fields : forall (s : vsock),
  v_opts (poll_init s) = v_opts s /\ v_env_now (poll_init s) = v_env_now s /\
  v_ss (poll_init s) = v_ss s /\ v_out (poll_init s) = [] /\
  v_t_ack_delay (poll_init s) = v_t_ack_delay s.
Proof. intros s. repeat split; exact eq_refl. Qed.

Lemma poll_pframe0 : forall s s' r, poll cci s = (s', r) -> pframe0 s s'.
Proof.
  intros s s' r H. rewrite poll_unfold in H. apply poll_loop_pframe0 in H.
  destruct H as (P1 & P2 & P3 & P4).
  destruct (poll_init_fields s) as (I1 & I2 & I3 & I4 & I5).
  assert (I6 : v_socket_created (poll_init s) = v_socket_created s) by exact eq_refl.
  rewrite I1 in P1. rewrite I2 in P2. rewrite I6 in P3. rewrite I3 in P4.
  unfold pframe0. auto.
Qed.

Lemma poll_tail_fields : forall (s : vsock),
  v_cbu (poll_tail s) = v_cbu s /\ v_ss (poll_tail s) = v_ss s /\ v_rx (poll_tail s) = v_rx s /\
  v_state (poll_tail s) = v_state s /\ v_last_sent_window (poll_tail s) = v_last_sent_window s /\
  v_t_ack_delay (poll_tail s) = v_t_ack_delay s /\ v_now (poll_tail s) = v_now s /\
  v_last_consumed (poll_tail s) = v_last_consumed s /\
  v_last_sent_ack_nr (poll_tail s) = v_last_sent_ack_nr s /\
  v_out (poll_tail s) = v_out s /\ v_transport_pending (poll_tail s) = v_transport_pending s /\
  v_env_now (poll_tail s) = v_env_now s /\ v_segs (poll_tail s) = v_segs s /\
  v_unsegmented (poll_tail s) = v_unsegmented s /\ v_opts (poll_tail s) = v_opts s /\
  v_tx (poll_tail s) = v_tx s /\ v_last_remote_window (poll_tail s) = v_last_remote_window s.
Proof.
  intros s. unfold poll_tail, next_timer_to_poll, arm_in, add_wakes.
  repeat break_match; try (inversion Heqp; subst); vsimpl_goal; repeat split; first [exact eq_refl | assumption | symmetry; assumption].
Qed.

Lemma poll_start_fields : forall (s : vsock),
  v_opts (poll_start s) = v_opts s /\ v_env_now (poll_start s) = v_env_now s /\
  v_now (poll_start s) = v_env_now s /\
  v_ss (poll_start s) = v_ss s /\ v_out (poll_start s) = v_out s /\
  v_t_ack_delay (poll_start s) = v_t_ack_delay s.
Proof. intros s. repeat split; exact eq_refl. Qed.

(* the shape of every poll that returns Pending with a writable transport *)
Lemma poll_pending_inv : forall s s',
  poll cci s = (s', PollPending) -> v_transport_pending s' = false ->
  exists sa sb b,
    v_opts sa = v_opts s /\ v_env_now sa = v_env_now s /\ v_now sa = v_env_now s /\
    mss (v_ss s) <= mss (v_ss sa) /\
    (v_out sa = [] -> v_t_ack_delay sa = v_t_ack_delay s) /\
    maybe_send_ack sa = SOk sb b /\ v_transport_pending sb = false /\ s' = poll_tail sb.
Proof.
  intros s s' H T. rewrite poll_unfold in H.
  apply poll_loop_pending_inv in H; [|exact T].
  destruct H as (s0 & sa & sb & b & P & F & E & Tb & Rb & S).
  exists sa, sb, b.
  destruct P as (P1 & P2 & P3 & P4 & l1 & P5 & P6).
  destruct F as (F1 & F2 & F3 & F4 & F5 & l2 & F6 & F7).
  destruct (poll_init_fields s) as (I1 & I2 & I3 & I4 & I5).
  destruct (poll_start_fields s0) as (S1 & S2 & S3 & S4 & S5 & S6).
  rewrite I1 in P1. rewrite I2 in P2. rewrite I3 in P4. rewrite I4 in P5. rewrite I5 in P6.
  rewrite S1 in F1. rewrite S2 in F2. rewrite S3 in F3. rewrite S4 in F5. rewrite S5 in F6.
  rewrite S6 in F7.
  repeat split; try congruence; try lia.
  intros O. rewrite F6, P5 in O. rewrite app_nil_r in O.
  apply app_eq_nil in O. destruct O as [O2 O1]. rewrite F7, P6; auto.
Qed.


(* ------------------------------------------------------------------ events and traces *)
Definition vstep_state (s : vsock) (o : vop) : vsock := fst (fst (fst (vstep cci s o))).

(* the step record a predicate sees for event o in state s (= the head of ftrace) *)
Definition fstep_of (s : vsock) (o : vop) : fstep :=
  let '(s', out, dw, sw) := vstep cci s o in
  {| fs_now := v_env_now s'; fs_pre := fp_of_vsock cci s; fs_event := fevent_of o;
     fs_result := fresult_of out; fs_disp_woken := dw; fs_self_woken := sw;
     fs_post := fp_of_vsock cci s' |}.

Lemma fstep_of_event : forall s o, fs_event (fstep_of s o) = fevent_of o.
Proof. intros s o. unfold fstep_of. destruct (vstep cci s o) as [[[s' out] dw] sw]. reflexivity. Qed.

Lemma fstep_of_poll : forall s sc s' r,
  poll cci (VSockRec.set_sends s sc) = (s', r) ->
  fstep_of s (VoPoll sc) =
  {| fs_now := v_env_now s'; fs_pre := fp_of_vsock cci s; fs_event := FePoll sc;
     fs_result := FrPoll r (map fpacket_of (rev (v_out s'))) (rev (v_wakes s')) (v_arm_in s');
     fs_disp_woken := false; fs_self_woken := false; fs_post := fp_of_vsock cci s' |}.
Proof. intros s sc s' r E. unfold fstep_of. cbn [vstep]. rewrite E. reflexivity. Qed.

Lemma ftrace_cons : forall s o rest,
  ftrace cci s (o :: rest) =
  fstep_of s o :: (if poll_finished (snd (fst (fst (vstep cci s o)))) then []
                   else ftrace cci (vstep_state s o) rest).
Proof.
  intros s o rest. cbn [ftrace]. unfold fstep_of, vstep_state.
  destruct (vstep cci s o) as [[[s' out] dw] sw]. reflexivity.
Qed.

Lemma set_sends_fields : forall (s : vsock) sc,
  v_opts (VSockRec.set_sends s sc) = v_opts s /\
  v_socket_created (VSockRec.set_sends s sc) = v_socket_created s /\
  v_ss (VSockRec.set_sends s sc) = v_ss s.
Proof. intros. repeat split; exact eq_refl. Qed.

Ltac keep_tac := split; [|split]; exact eq_refl.

Lemma vstep_nonpoll_keeps : forall s o,
  match o with VoPoll _ => True | _ =>
    v_opts (vstep_state s o) = v_opts s /\
    v_socket_created (vstep_state s o) = v_socket_created s /\
    v_ss (vstep_state s o) = v_ss s
  end.
Proof.
  intros s o. unfold vstep_state. destruct o.
  - cbn [vstep fst]; keep_tac.
  - cbn [vstep fst]; keep_tac.
  - exact I.
  - cbn [vstep]. destruct (v_inbox_closed s); cbn [fst]; keep_tac.
  - cbn [vstep fst]; keep_tac.
  - cbn [vstep]. destruct (writer_dropped _); [|destruct (poll_write _ _) as [[tx1 r] w]];
      cbn [fst]; keep_tac.
  - cbn [vstep]. destruct (writer_dropped _); [|destruct (poll_flush _) as [[tx1 r] w]];
      cbn [fst]; keep_tac.
  - cbn [vstep]. destruct (writer_dropped _); [|destruct (poll_shutdown _) as [[tx1 r] w]];
      cbn [fst]; keep_tac.
  - cbn [vstep]. destruct (reader_dropped _); [|destruct (rx_read _ _) as [[rx1 r] w]];
      cbn [fst]; keep_tac.
  - cbn [vstep]. destruct (reader_dropped _); [|destruct (rx_drop_reader _) as [rx1 w]];
      cbn [fst]; keep_tac.
  - cbn [vstep]. destruct (drop_writer _) as [tx1 w]; cbn [fst]; keep_tac.
Qed.

(* every event keeps the options and socket_created, and never lowers mss *)
Lemma vstep_keeps : forall s o,
  v_opts (vstep_state s o) = v_opts s /\
  v_socket_created (vstep_state s o) = v_socket_created s /\
  mss (v_ss s) <= mss (v_ss (vstep_state s o)).
Proof.
  intros s o. pose proof (vstep_nonpoll_keeps s o) as K.
  destruct o; try (destruct K as (K1 & K2 & K3); rewrite K3; repeat split; auto; apply Z.le_refl).
  unfold vstep_state. cbn [vstep].
  destruct (poll cci (VSockRec.set_sends s script)) as [s' r] eqn:E. cbn [fst].
  destruct (poll_pframe0 _ _ _ E) as (P1 & P2 & P3 & P4).
  destruct (set_sends_fields s script) as (Q1 & Q2 & Q3).
  rewrite Q1 in P1. rewrite Q2 in P3. rewrite Q3 in P4.
  repeat split; auto.
Qed.

(* a step-local predicate that holds of every step from a state satisfying an invariant holds along
   every trace; the invariant needs to be kept only by the steps after which the trace continues *)
Lemma ftrace_forallb_unfinished : forall (Inv : vsock -> Prop) (P : fstep -> bool),
  (forall s o, Inv s -> P (fstep_of s o) = true) ->
  (forall s o, Inv s -> poll_finished (snd (fst (fst (vstep cci s o)))) = false ->
               Inv (vstep_state s o)) ->
  forall ops s, Inv s -> forallb P (ftrace cci s ops) = true.
Proof.
  intros Inv P HP HI. induction ops as [|o rest IH]; intros s I; [reflexivity|].
  rewrite ftrace_cons. cbn [forallb]. rewrite (HP s o I). cbn [andb].
  destruct (poll_finished _) eqn:F; [reflexivity|]. apply IH. apply HI; assumption.
Qed.

Lemma ftrace_forallb : forall (Inv : vsock -> Prop) (P : fstep -> bool),
  (forall s o, Inv s -> P (fstep_of s o) = true) ->
  (forall s o, Inv s -> Inv (vstep_state s o)) ->
  forall ops s, Inv s -> forallb P (ftrace cci s ops) = true.
Proof. intros Inv P HP HI. apply ftrace_forallb_unfinished; auto. Qed.

End WithCC.
