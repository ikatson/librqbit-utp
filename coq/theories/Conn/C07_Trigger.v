(* C07 — the trigger side of the immediate ACK.
   [kf]: through every function of poll_body the list of emitted packets only grows, mss stays below
   2^16, and a forced ACK (consumed_but_unacked_bytes = usize::MAX) stays forced until a packet goes out.
   [pim_trigger]: process_incoming_message on a duplicate ST_DATA, a FIN, or an ST_DATA arriving while the
   reassembly queue holds data forces the ACK (or sends it on the spot).
   [pim_status]: an ST_DATA that changes the empty/non-empty status of the reassembly queue does the same.
   Conn/C07_TriggerStep.v lifts both to a poll that ran to its end (Pending, transport writable). *)
From Utp Require Import Base.Prelude Wire.SeqNr Wire.SeqNr_Proofs Wire.Header Rtt.Rtte Mtu.SegSizes
  Rx.Rx Rx.Rx_Proofs Tx.Ring Tx.Segments Conn.Recovery Conn.Msg Conn.VSockRec Conn.VSock Conn.VSockRun
  Conn.VObs Conn.VSock_LemmasTx Conn.VSock_LemmasIn Conn.VSock_Lemmas Conn.VSock_LemmasStep
  Conn.VSock_LemmasReach Conn.VSock_LemmasTimers Conn.VSock_LemmasPipe Conn.VSock_LemmasEof
  Conn.C07_Pred Conn.C07_Proofs Conn.C07_Pred2.

(* ------------------------------------------------------------------ arithmetic / Rx facts *)
Lemma mss_opd_hi ss n : mss (on_payload_delivered ss n) <= Z.max (mss ss) U16_MAX.
Proof.
  unfold mss, on_payload_delivered; cbn [min_ss]. unfold U16_MAX.
  pose proof (Z.mod_pos_bound (Z.min n 65535) M16 ltac:(unfold M16; lia)) as B. unfold M16 in *. lia.
Qed.

Lemma mss_ss_new_hi c : mss (ss_new c) <= U16_MAX.
Proof.
  unfold mss, ss_new, ss_calc, clamped_link_mtu, default_min_mtu, ip_header,
    IPV4_HEADER, IPV6_HEADER, UDP_HEADER, UTP_HEADER, U16_MAX; cbn [min_ss cfg_ipv4].
  destruct (cfg_ipv4 c); lia.
Qed.

Lemma sat_add_forced b : 0 <= b -> sat_add_usize USIZE_MAX b = USIZE_MAX.
Proof. intro H. unfold sat_add_usize. lia. Qed.

Lemma twf_b_nonneg l : 0 <= twf_b l.
Proof.
  unfold twf_b. induction l as [|x xs IH]; cbn [take_while_filled snd]; [lia|].
  destruct (slot_is_default x); cbn [snd]; [lia|].
  destruct (take_while_filled xs) as [n b]. cbn [snd] in *. pose proof (slot_len_nonneg x). lia.
Qed.

Lemma rx_add_remove_bytes r k p off r' n b w :
  rx_add_remove r k p off = (r', UarOk (ArConsumed n b), w) -> 0 <= b.
Proof.
  unfold rx_add_remove. destruct (ooq_add_remove r k p off) as [s1 a] eqn:E.
  destruct (ooq_add_remove_cases _ _ _ _ _ _ E) as [[-> Ha]|(m & old & _ & _ & _ & _ & _ & Hs')].
  - destruct a; try contradiction; intro H; injection H as _ H _; discriminate H.
  - cbv zeta in Hs'. destruct Hs' as [_ ->].
    destruct (_ && _).
    + destruct (rx_flush s1) as [[s2 fr] w2]. destruct fr; intro H; [|discriminate].
      injection H as _ _ <- _. apply twf_b_nonneg.
    + intro H. injection H as _ _ <- _. apply twf_b_nonneg.
Qed.

(* the flush pops delivered slots from the front: the empty/non-empty status of the queue stays *)
Lemma flush_loop_status : forall fuel s w fb fp s1 w1 fb1 fp1,
  flush_loop fuel s w fb fp = Some (s1, w1, fb1, fp1) -> ooq_is_empty s1 = ooq_is_empty s.
Proof.
  induction fuel as [|fuel IH]; intros s w fb fp s1 w1 fb1 fp1; cbn [flush_loop].
  - intro H; injection H as <- _ _ _. reflexivity.
  - destruct (filled_front s =? 0); [intro H; injection H as <- _ _ _; reflexivity|].
    destruct (ooq_data s) as [|m rest]; [discriminate|].
    destruct (w <? _); [intro H; injection H as <- _ _ _; reflexivity|].
    destruct (reader_dropped s); [intro H; injection H as <- _ _ _; reflexivity|].
    destruct (_ <? _); [discriminate|].
    intro H. apply IH in H. rewrite H. unfold ooq_is_empty. cbn [pop_front_state filled_front ooq_len].
    destruct (Z.eqb_spec (filled_front s - 1) (ooq_len s - 1)), (Z.eqb_spec (filled_front s) (ooq_len s));
      try reflexivity; lia.
Qed.

Lemma rx_flush_status r r' fr w : rx_flush r = (r', fr, w) -> ooq_is_empty r' = ooq_is_empty r.
Proof.
  unfold rx_flush. intro H.
  set (s0 := set_wakers r _ (reader_waker r) (last_remaining_rx_window r)) in *.
  destruct (flush_loop _ s0 _ 0 0) as [[[[s1 w1] fb] fp]|] eqn:E.
  - apply flush_loop_status in E.
    destruct (0 <? fp); injection H as <- _ _; exact E.
  - injection H as <- _ _. reflexivity.
Qed.

Section WithCC.
Context {CC : Type} (cci : cc_iface CC).
Notation vsock := (vsock CC).

(* ------------------------------------------------------------------ kf *)
Definition kf (s s' : vsock) : Prop :=
  mss (v_ss s') <= Z.max (mss (v_ss s)) U16_MAX /\
  exists l, v_out s' = l ++ v_out s /\ (l = [] -> v_cbu s = USIZE_MAX -> v_cbu s' = USIZE_MAX).

Lemma kf_refl : forall s, kf s s.
Proof. intros s. unfold kf. split; [lia|]. exists []. split; auto. Qed.

Lemma kf_trans : forall a b c, kf a b -> kf b c -> kf a c.
Proof.
  intros a b c (A1 & l1 & A2 & A3) (B1 & l2 & B2 & B3). unfold kf. split; [lia|].
  exists (l2 ++ l1). split.
  - rewrite B2, A2. apply app_assoc.
  - intros E. apply app_eq_nil in E. destruct E as [E2 E1]. auto.
Qed.

Lemma kf_ext : forall s a b : vsock, kf s a ->
  mss (v_ss b) <= Z.max (mss (v_ss a)) U16_MAX -> v_out b = v_out a ->
  (v_cbu a = USIZE_MAX -> v_cbu b = USIZE_MAX) -> kf s b.
Proof.
  intros s a b (A1 & l & A2 & A3) B1 B2 B3. unfold kf. split; [lia|].
  exists l. split; [congruence|]. auto.
Qed.

Lemma kf_same : forall s a b : vsock, kf s a ->
  v_ss b = v_ss a -> v_out b = v_out a -> v_cbu b = v_cbu a -> kf s b.
Proof.
  intros s a b F B1 B2 B3. apply (kf_ext s a b F); [rewrite B1; lia | exact B2 | congruence].
Qed.

Notation stk := (stR kf).

Ltac kf_leaf := match goal with |- kf ?a _ => apply (kf_same a a); [apply kf_refl | exact eq_refl ..] end.
Ltac kf_via H := eapply kf_same; [exact H | exact eq_refl ..].

(* only ss changes, and stays below the bound *)
Lemma kf_ss : forall s b : vsock,
  mss (v_ss b) <= Z.max (mss (v_ss s)) U16_MAX -> v_out b = v_out s -> v_cbu b = v_cbu s -> kf s b.
Proof. intros s b B1 B2 B3. apply (kf_ext s s b (kf_refl s) B1 B2). congruence. Qed.

(* ---- instances of VSock_LemmasReach.StepRel.  [kf] is not closed under an arbitrary change of
   consumed_but_unacked_bytes (the leaf L_cbu), so the incoming path below keeps a walk of its own,
   through the function-level form [recv_loop_by] for the receive loop ---- *)
Lemma kf_sent : forall (s : vsock) p h, kf s (on_packet_sent (emit s p) h).
Proof.
  intros s p h. unfold kf, on_packet_sent, emit. vsimpl_goal. split; [lia|].
  exists [p]. split; [reflexivity|]. intros E; discriminate E.
Qed.

Lemma kf_data_sent : forall (s : vsock) p f, kf s (sent_state s p f).
Proof.
  intros s p f. pose proof (kf_sent s p (p_hdr p)) as F. unfold sent_state. cbv zeta.
  destruct (seq_gt _ _); try destruct (seq_gt _ _); kf_via F.
Qed.

(* an elementary update: a packet goes out, or ss / out / cbu are untouched *)
Ltac kf_elem := intros; first [apply kf_sent | apply kf_data_sent | kf_leaf].

Lemma send_ack_kf : forall (s : vsock), stk s (send_ack s).
Proof. apply (send_ack_R kf kf_refl kf_trans); kf_elem. Qed.

Lemma maybe_send_fin_kf : forall (s : vsock), stk s (maybe_send_fin s).
Proof. apply (maybe_send_fin_R kf kf_refl kf_trans); kf_elem. Qed.

Lemma send_data_kf : forall (s : vsock) h f, stk s (send_data s h f).
Proof. apply (send_data_R kf kf_refl kf_trans); kf_elem. Qed.

Lemma recovery_loop_kf : forall items (s : vsock) h mss0 st, stk s (recovery_loop items s h mss0 st).
Proof. apply (recovery_loop_R kf kf_refl kf_trans); kf_elem. Qed.

Lemma new_data_loop_kf : forall items (s : vsock) h remaining, stk s (new_data_loop items s h remaining).
Proof. apply (new_data_loop_R kf kf_refl kf_trans); kf_elem. Qed.

Lemma maybe_send_ack_kf : forall (s : vsock), stk s (maybe_send_ack s).
Proof. apply (maybe_send_ack_R kf kf_refl kf_trans); kf_elem. Qed.

Lemma maybe_send_syn_ack_kf : forall (s : vsock), stk s (maybe_send_syn_ack s).
Proof. apply (maybe_send_syn_ack_R kf kf_refl kf_trans); kf_elem. Qed.

Lemma kf_probe_given_up : forall (s : vsock) segs1 rw ps, kf s (probe_given_up s segs1 rw ps).
Proof.
  intros s segs1 rw ps. unfold probe_given_up. cbv zeta.
  destruct (seq_gt _ _); (apply kf_ss; [vsimpl_goal; rewrite mss_on_probe_failed; lia | exact eq_refl ..]).
Qed.

Lemma kf_cut : forall (s : vsock) tl ss' segs' rem',
  segment_loop (ring (v_tx s)) (o_nagle (v_opts s)) (v_ss s) (v_segs s) tl (v_last_remote_window s)
    = Some (ss', segs', rem') ->
  kf s (set_unsegmented (VSockRec.set_segs (set_ss s ss') segs') rem').
Proof.
  intros s tl ss' segs' rem' E. apply segment_loop_mss in E.
  apply kf_ss; [vsimpl_goal; lia | exact eq_refl ..].
Qed.

Lemma split_tx_queue_into_segments_kf : forall (s : vsock), stk s (split_tx_queue_into_segments cci s).
Proof.
  apply (split_tx_queue_into_segments_R cci kf kf_refl kf_trans);
    [kf_elem | kf_elem | kf_elem | intros; apply kf_probe_given_up | kf_elem | exact kf_cut].
Qed.

Lemma on_rto_reactions_kf : forall (s s1 : vsock), on_rto_reactions cci s = Some s1 -> kf s s1.
Proof.
  intros s s1 H. unfold on_rto_reactions in H.
  destruct (Rtte.on_rto_timeout _); inversion H; subst. kf_leaf.
Qed.

Lemma kf_popped : forall (s : vsock) size segs',
  kf s (set_restart (set_ss (VSockRec.set_segs s segs')
                            (disarm_cooldown (on_probe_failed (v_ss s) size))) true).
Proof.
  intros. apply kf_ss; [|exact eq_refl ..].
  vsimpl_goal. rewrite mss_disarm_cooldown, mss_on_probe_failed. lia.
Qed.

Lemma send_tx_queue_kf : forall (s : vsock), stk s (send_tx_queue cci s).
Proof.
  apply (send_tx_queue_R cci kf kf_refl kf_trans);
    first [exact on_rto_reactions_kf | intros; apply kf_popped | kf_elem].
Qed.

Lemma transition_to_fin_wait_1_kf : forall (s : vsock), kf s (transition_to_fin_wait_1 s).
Proof. apply (transition_to_fin_wait_1_R kf kf_refl kf_trans); kf_elem. Qed.

Lemma rx_flush_kf : forall (s : vsock) rx1 w, kf s (add_wakes (set_rx s rx1) w).
Proof. intros. unfold add_wakes. kf_leaf. Qed.

(* ---- incoming messages ---- *)
Lemma state_table_kf : forall (s : vsock) h,
  match state_table s h with TblDrop s1 | TblErr s1 _ | TblContinue s1 => kf s s1 end.
Proof. apply (state_table_R kf kf_refl kf_trans); kf_elem. Qed.

Lemma force_immediate_ack_kf : forall (s : vsock), kf s (force_immediate_ack s).
Proof.
  intros s. unfold force_immediate_ack.
  apply (kf_ext s s); [apply kf_refl | vsimpl_goal; lia | exact eq_refl | intros _; exact eq_refl].
Qed.

(* ACK processing leaves last_consumed, rx, out and cbu alone; ss changes by on_payload_delivered *)
Lemma pim_ack_fields (s1 : vsock) h s2 res : pim_ack cci s1 h = Some (s2, res) ->
  v_last_consumed s2 = v_last_consumed s1 /\ v_rx s2 = v_rx s1 /\ v_out s2 = v_out s1 /\
  v_cbu s2 = v_cbu s1 /\ mss (v_ss s2) <= Z.max (mss (v_ss s1)) U16_MAX.
Proof.
  unfold pim_ack. destruct (remove_up_to_ack _ _ _ _) as [segs1 res0].
  destruct (match is_recovering (v_recovery s1) with true => _ | false => _ end) as [rtte1|]; [|discriminate].
  destruct (cc_on_ack cci _ _ _ _) as [cc3|]; [|discriminate].
  destruct (recovery_on_ack cci _ _ _ _ _ _ _) as [[[rec1 segs2] cc4]|]; [|discriminate].
  intro H; injection H as <- _. do 4 (split; [reflexivity|]). vsimpl_goal. apply mss_opd_hi.
Qed.

(* what the ST_DATA arm does with the result of the reassembly queue: a forced ACK stays forced
   because the consumed bytes are added with saturation *)
Lemma pim_data_consumed_kf : forall (s4 : vsock) r rx0 k p off rx1 w,
  rx_add_remove rx0 k p off = (rx1, UarOk r, w) -> kf s4 (data_consumed s4 r).
Proof.
  intros s4 r rx0 k p off rx1 w Ea. unfold data_consumed. destruct r as [n bytes| | | | |]; try apply kf_refl.
  apply rx_add_remove_bytes in Ea. unfold restart_remote_inactivity_timer.
  apply (kf_ext s4 s4); [apply kf_refl | vsimpl_goal; lia | exact eq_refl |].
  vsimpl_goal. intro K. rewrite K. apply sat_add_forced. exact Ea.
Qed.

Lemma pim_data_kf : forall (s2 : vsock) m res offset, stk s2 (pim_data cci s2 m res offset).
Proof.
  intros s2 m res offset. rewrite pim_data_eq.
  destruct (offset <? 0); [apply force_immediate_ack_kf|].
  destruct (rx_add_remove _ _ _ _) as [[rx1 ar] w] eqn:Ea.
  assert (F4 : kf s2 (data_in cci s2 (Z.of_nat (length (m_payload m))) rx1 (rx_wakes w))).
  { unfold data_in, add_wakes. apply kf_ss; [vsimpl_goal; apply mss_opd_hi | exact eq_refl ..]. }
  revert F4. generalize (data_in cci s2 (Z.of_nat (length (m_payload m))) rx1 (rx_wakes w)). intros s4 F4.
  unfold data_tail. destruct ar as [r|]; [|exact I].
  destruct (add_err r); [exact F4|]. cbv zeta.
  pose proof (kf_trans _ _ _ F4 (pim_data_consumed_kf s4 r _ _ _ _ _ _ Ea)) as F5.
  revert F5. generalize (data_consumed s4 r). intros s5 F5.
  destruct (_ || _); [|exact F5].
  apply (stR_weaken kf kf_trans) with (s := force_immediate_ack s5);
    [exact (kf_trans _ _ _ F5 (force_immediate_ack_kf s5))|].
  apply (stR_sbind kf kf_trans); [apply send_ack_kf|].
  intros s7 _. apply kf_refl.
Qed.

Lemma pim_fin_kf : forall (s2 : vsock) m res offset seen, stk s2 (pim_fin s2 m res offset seen).
Proof.
  intros s2 m res offset seen. unfold pim_fin. cbv zeta.
  pose proof (force_immediate_ack_kf s2) as F3.
  generalize dependent (force_immediate_ack s2). intros s3 F3.
  destruct (_ && _); [|exact F3].
  destruct (rx_add_remove _ _ _ _) as [[rx1 ar] w].
  assert (F5 : kf s2 (add_wakes (set_rx (set_last_consumed s3 (ch_seq (m_hdr m))) rx1) (rx_wakes w)))
    by (unfold add_wakes; kf_via F3).
  generalize dependent (add_wakes (set_rx (set_last_consumed s3 (ch_seq (m_hdr m))) rx1) (rx_wakes w)).
  intros s5 F5.
  destruct ar as [r|]; [|exact I].
  destruct (add_err r); [exact F5|].
  destruct (mark_vsock_closed _) as [tx1 w2]. cbn [stR]. unfold add_wakes. kf_via F5.
Qed.

Lemma pim_cont_kf : forall (s1 : vsock) m seen, stk s1 (pim_cont cci s1 m seen).
Proof.
  intros s1 m seen. unfold pim_cont.
  destruct (pim_ack cci s1 (m_hdr m)) as [[s2 res]|] eqn:Ea; [|exact I].
  destruct (pim_ack_fields _ _ _ _ Ea) as (_ & _ & O2 & C2 & M2). cbv zeta.
  apply (stR_weaken kf kf_trans) with (s := s2); [exact (kf_ss s1 s2 M2 O2 C2)|].
  destruct (ch_type (m_hdr m)); first [apply pim_data_kf | apply pim_fin_kf | apply kf_refl].
Qed.

Lemma process_incoming_message_kf : forall (s : vsock) m, stk s (process_incoming_message cci s m).
Proof.
  intros s m. rewrite process_incoming_message_eq.
  pose proof (state_table_kf s (m_hdr m)) as T.
  destruct (state_table s (m_hdr m)) as [s1|s1 e|s1]; [exact T | exact T |].
  apply (stR_weaken kf kf_trans) with (s := s1); [exact T | apply pim_cont_kf].
Qed.

Lemma recv_loop_kf : forall fuel (s : vsock) acc, stk s (recv_loop cci fuel s acc).
Proof.
  apply (recv_loop_by cci kf kf_refl kf_trans process_incoming_message_kf
           transition_to_fin_wait_1_kf maybe_send_fin_kf); intros; kf_leaf.
Qed.

Lemma paim_rest_kf : forall (s1 : vsock) r, stk s1 (paim_rest s1 r).
Proof.
  intros s1 r. unfold paim_rest.
  match goal with |- stR kf s1 (sbind ?m _) =>
    match m with context [acked_counts_as_sent ?x] => set (s2 := x) end end.
  assert (F2 : kf s1 s2).
  { subst s2. unfold restart_remote_inactivity_timer. repeat break_match; first [apply kf_refl | kf_leaf]. }
  clearbody s2.
  apply (stR_weaken kf kf_trans) with (s := s2); [exact F2|].
  apply (stR_sbind kf kf_trans).
  - destruct (0 <? _); [|apply kf_refl].
    assert (F2' : kf s2 (acked_counts_as_sent s2)).
    { unfold acked_counts_as_sent. destruct (seq_gt _ _ && seq_lt _ _); [kf_leaf | apply kf_refl]. }
    apply (stR_weaken kf kf_trans) with (s := acked_counts_as_sent s2); [exact F2'|].
    generalize (acked_counts_as_sent s2). intro s2'.
    destruct (truncate_front _ _) as [tx1 tr].
    destruct tr; [|cbn [stR]; kf_leaf].
    destruct (wake_writer tx1) as [tx2 w]. cbn [stR]. unfold add_wakes. kf_leaf.
  - intros s3 _. unfold set_recovering. repeat break_match; cbn [stR]; first [exact I | apply kf_refl | kf_leaf].
Qed.

Lemma process_all_incoming_messages_kf : forall (s : vsock),
  stk s (process_all_incoming_messages cci s).
Proof.
  intros s. rewrite paim_eq.
  apply (stR_sbind kf kf_trans); [apply recv_loop_kf|].
  intros s1 res. apply paim_rest_kf.
Qed.

(* ================================================================== the triggers *)

(* the message is a trigger in the state in which it is processed *)
Definition trig (s : vsock) (m : msg) : bool :=
  c07_is_trigger (v_state s) (v_last_consumed s) (ooq_is_empty (v_rx s)) (m_hdr m).

Lemma state_table_rx : forall (s : vsock) h,
  match state_table s h with
  | TblDrop s1 | TblErr s1 _ | TblContinue s1 => v_rx s1 = v_rx s /\ v_out s1 = v_out s
  end.
Proof.
  intros s h. unfold state_table, restart_remote_inactivity_timer.
  repeat break_match; split; reflexivity.
Qed.

Lemma state_table_continues (s : vsock) h :
  c07_hs_done (v_state s) = true -> c07_tbl_continues (v_state s) (v_last_consumed s) h = true ->
  exists s1, state_table s h = TblContinue s1 /\ v_last_consumed s1 = v_last_consumed s /\
             v_rx s1 = v_rx s /\ v_out s1 = v_out s /\ v_cbu s1 = v_cbu s.
Proof.
  intros Hh Ht. unfold c07_tbl_continues in Ht. unfold state_table, restart_remote_inactivity_timer.
  destruct (ch_type h) eqn:Et; try discriminate;
    destruct (v_state s) eqn:Est; try discriminate; cbn [negb];
    try rewrite Ht; cbn [negb];
    repeat match goal with |- context [if ?c then _ else _] => destruct c eqn:? end;
    try (eexists; repeat split; reflexivity).
  (* LastAck, ST_DATA beyond the remote FIN: excluded by the guard *)
  all: exfalso; cbn [orb negb] in Ht; congruence.
Qed.

(* a forced ACK handed to send_ack: it goes out, or stays forced *)
Lemma send_ack_forced (s s' : vsock) b :
  send_ack s = SOk s' b -> v_cbu s = USIZE_MAX ->
  v_cbu s' = USIZE_MAX \/ exists p, v_out s' = p :: v_out s.
Proof.
  intros H C. unfold send_ack, send_control_packet in H.
  destruct (v_transport_pending s); [inversion H; subst; left; exact C|].
  destruct (next_send s _) as [s0 o] eqn:E. apply next_send_fields in E.
  destruct E as (E1 & _ & _ & _ & _ & E6 & _).
  destruct o; try discriminate; inversion H; subst.
  - right. unfold on_packet_sent, emit. vsimpl_goal. rewrite E6. eexists. reflexivity.
  - left. vsimpl_goal. congruence.
Qed.

Lemma pim_data_out (s2 : vsock) n rx1 wk (r : add_result) :
  let s5 := data_consumed (data_in cci s2 n rx1 wk) r in
  v_out (force_immediate_ack s5) = v_out s2 /\ v_rx s5 = rx1.
Proof. cbv zeta. destruct r; split; reflexivity. Qed.

Lemma pim_data_cases (s2 : vsock) m res offset s' r :
  pim_data cci s2 m res offset = SOk s' r ->
  (offset <? 0 = true /\ v_cbu s' = USIZE_MAX) \/
  (offset <? 0 = false /\
   ((ooq_is_empty (v_rx s') = true /\ ooq_is_empty (v_rx s2) = true) \/
    v_cbu s' = USIZE_MAX \/ exists p, v_out s' = p :: v_out s2) /\
   (ooq_is_empty (v_rx s2) = false -> v_cbu s' = USIZE_MAX \/ exists p, v_out s' = p :: v_out s2)).
Proof.
  rewrite pim_data_eq. destruct (offset <? 0) eqn:Eo.
  { intros H. inversion H; subst. left. split; reflexivity. }
  intro H. right. split; [reflexivity|].
  destruct (rx_add_remove _ KData (m_payload m) offset) as [[rx1 ar] w]. unfold data_tail in H.
  destruct ar as [a|]; [|discriminate]. destruct (add_err a); [discriminate|].
  destruct (pim_data_out s2 (Z.of_nat (length (m_payload m))) rx1 (rx_wakes w) a) as [Ho Hr].
  cbv zeta in H, Ho, Hr.
  match type of H with (if ?c then _ else _) = _ => destruct c eqn:Ec end.
  - match type of H with context [send_ack ?x] => destruct (send_ack x) as [s6 b| |] eqn:Es end;
      cbn [sbind] in H; try discriminate. inversion H; subst.
    apply send_ack_forced in Es; [|reflexivity].
    assert (G : v_cbu s' = USIZE_MAX \/ exists p, v_out s' = p :: v_out s2).
    { destruct Es as [K|[p Hp]]; [left; exact K|right]. exists p. rewrite Hp, Ho. reflexivity. }
    split; [right; exact G | intros _; exact G].
  - inversion H; subst. apply orb_false_iff in Ec. destruct Ec as [Ec1 Ec2].
    rewrite negb_false_iff in Ec1, Ec2.
    split; [left; split; [exact Ec1 | exact Ec2] | intro K; congruence].
Qed.

Lemma pim_fin_forced (s2 : vsock) m res offset seen s' r :
  pim_fin s2 m res offset seen = SOk s' r -> v_cbu s' = USIZE_MAX.
Proof.
  unfold pim_fin. cbv zeta. destruct (_ && _).
  - destruct (rx_add_remove _ KFin _ _) as [[rx1 ar] w].
    destruct ar as [a|]; [|discriminate]. destruct (add_err a); [discriminate|].
    destruct (mark_vsock_closed _) as [tx1 w2]. intro H; inversion H; subst. reflexivity.
  - intro H; inversion H; subst. reflexivity.
Qed.

(* a trigger message: the ACK is forced, or was sent on the spot *)
Theorem pim_trigger (s : vsock) m s' r :
  process_incoming_message cci s m = SOk s' r -> trig s m = true ->
  v_cbu s' = USIZE_MAX \/ exists p, v_out s' = p :: v_out s.
Proof.
  intros H Ht. rewrite process_incoming_message_eq in H. unfold trig, c07_is_trigger in Ht.
  rewrite !andb_true_iff in Ht. destruct Ht as ((Hh & Hc) & Hk).
  destruct (state_table_continues s (m_hdr m) Hh Hc) as (s1 & Es & L1 & R1 & O1 & C1).
  rewrite Es in H. unfold pim_cont in H.
  destruct (pim_ack cci s1 (m_hdr m)) as [[s2 res]|] eqn:Ea; [|discriminate].
  destruct (pim_ack_fields _ _ _ _ Ea) as (L2 & R2 & O2 & C2 & _).
  cbv zeta in H. destruct (ch_type (m_hdr m)) eqn:Et; try discriminate.
  - apply pim_data_cases in H. rewrite L2, L1 in H. rewrite R2, R1, O2, O1 in H.
    destruct H as [[_ H]|(Eo & _ & H)]; [left; exact H|].
    rewrite Eo in Hk. cbn [orb] in Hk. rewrite negb_true_iff in Hk. exact (H Hk).
  - left. eapply pim_fin_forced; exact H.
Qed.

(* any message: the empty/non-empty status of the reassembly queue stays, or the ACK is forced / sent *)
Theorem pim_status (s : vsock) m s' r :
  process_incoming_message cci s m = SOk s' r ->
  ooq_is_empty (v_rx s') = ooq_is_empty (v_rx s) \/ v_cbu s' = USIZE_MAX \/
  exists p, v_out s' = p :: v_out s.
Proof.
  intros H. rewrite process_incoming_message_eq in H.
  pose proof (state_table_rx s (m_hdr m)) as T.
  destruct (state_table s (m_hdr m)) as [s1|s1 e|s1]; try discriminate.
  - inversion H; subst. left. destruct T as [T _]. rewrite T. reflexivity.
  - destruct T as [R1 O1]. unfold pim_cont in H.
    destruct (pim_ack cci s1 (m_hdr m)) as [[s2 res]|] eqn:Ea; [|discriminate].
    destruct (pim_ack_fields _ _ _ _ Ea) as (L2 & R2 & O2 & C2 & _).
    cbv zeta in H. destruct (ch_type (m_hdr m)) eqn:Et.
    + apply pim_data_cases in H. rewrite R2, R1, O2, O1 in H.
      destruct H as [[_ H]|(_ & [[H1 H2]|H] & _)]; [right; left; exact H | left; congruence | right; exact H].
    + right; left. eapply pim_fin_forced; exact H.
    + inversion H; subst. left. congruence.
    + inversion H; subst. left. congruence.
    + inversion H; subst. left. congruence.
Qed.

End WithCC.
