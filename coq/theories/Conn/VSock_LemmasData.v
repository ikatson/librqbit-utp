(* Reusable frame lemmas about sub-functions of the connection model, and the receive glue of
   process_incoming_message for ST_DATA (C01, T2 lifted to the connection): an incoming data
   packet touches the receiver exactly as `rx_add_remove (v_rx s) KData payload
   (seq_sub seq (last_consumed + 1))` does, and last_consumed advances by the returned count. *)
From Utp Require Import Base.Prelude Wire.SeqNr Wire.Header Rtt.Rtte Mtu.SegSizes Rx.Rx Tx.Ring
  Tx.Segments Conn.Recovery Conn.Msg Conn.VSockRec Conn.VSock.
From Utp Require Conn.VSock_LemmasTx.

Arguments SOk {CC A}. Arguments SErr {CC A}. Arguments SPanic {CC A}.
Arguments TblDrop {CC}. Arguments TblErr {CC}. Arguments TblContinue {CC}.

Section Frames.
Context {CC : Type} (cci : cc_iface CC).
Notation vsock := (vsock CC).

(* the fields that carry bytes *)
Definition same_data (s s' : vsock) : Prop :=
  v_rx s' = v_rx s /\ v_tx s' = v_tx s /\ v_segs s' = v_segs s /\ v_last_consumed s' = v_last_consumed s.

Lemma same_data_refl s : same_data s s.
Proof. unfold same_data; auto. Qed.
Lemma same_data_trans a b c : same_data a b -> same_data b c -> same_data a c.
Proof. unfold same_data. intros (A1 & A2 & A3 & A4) (B1 & B2 & B3 & B4). repeat split; congruence. Qed.

Lemma next_send_data (s : vsock) size s1 o : next_send s size = (s1, o) -> same_data s s1.
Proof.
  intro H. destruct (VSock_LemmasTx.next_send_cases _ _ _ _ H) as [[[-> _]|(o0 & r & _ & ->)] _];
    unfold same_data; vsimpl; repeat split.
Qed.

Lemma send_control_packet_data (s : vsock) h s' b : send_control_packet s h = SOk s' b -> same_data s s'.
Proof.
  unfold send_control_packet. destruct (v_transport_pending s); [intro H; injection H as <- _; apply same_data_refl|].
  destruct (next_send s _) as [s1 o] eqn:E. pose proof (next_send_data _ _ _ _ E) as (A1 & A2 & A3 & A4).
  destruct o; try discriminate; intro H; injection H as <- _; unfold same_data, on_packet_sent, emit; vsimpl; auto.
Qed.

Lemma send_ack_data (s : vsock) s' b : send_ack s = SOk s' b -> same_data s s'.
Proof. unfold send_ack. apply send_control_packet_data. Qed.

Lemma state_table_data (s : vsock) h :
  match state_table s h with
  | TblDrop s' | TblErr s' _ | TblContinue s' => same_data s s'
  end.
Proof.
  unfold state_table, same_data, restart_remote_inactivity_timer.
  destruct (ch_type h); destruct (v_state s);
    repeat match goal with
    | |- context [if ?c then _ else _] => destruct c
    end; vsimpl; auto.
Qed.

(* ------------------------------------------------------------------ the receive glue *)
Lemma pim_data_glue (s : vsock) (m : msg) s' res :
  ch_type (m_hdr m) = ST_DATA ->
  process_incoming_message cci s m = SOk s' res ->
  (v_rx s' = v_rx s /\ v_last_consumed s' = v_last_consumed s) \/
  (let off := seq_sub (ch_seq (m_hdr m)) (wadd16 (v_last_consumed s) 1) in
   0 <= off /\
   exists rx1 ar w, rx_add_remove (v_rx s) KData (m_payload m) off = (rx1, UarOk ar, w) /\
     v_rx s' = rx1 /\
     v_last_consumed s' = match ar with
                          | ArConsumed n _ => wadd16 (v_last_consumed s) (n mod M16)
                          | _ => v_last_consumed s
                          end).
Proof.
  intros Hty. unfold process_incoming_message.
  pose proof (state_table_data s (m_hdr m)) as Hst.
  destruct (state_table s (m_hdr m)) as [s1|s1 e|s1]; [|discriminate|].
  { intro H; injection H as <- _. destruct Hst as (A1 & _ & _ & A4). left. auto. }
  destruct Hst as (A1 & A2 & A3 & A4).
  destruct (remove_up_to_ack (v_segs s1) (v_now s1) (ch_ack (m_hdr m)) (ch_sack (m_hdr m))) as [segs1 r0].
  destruct (match is_recovering (v_recovery s1), ar_new_rtt r0 with
            | false, Some rtt => sample (v_rtte s1) rtt
            | _, _ => Some (v_rtte s1) end) as [rtte1|]; [|discriminate].
  destruct (cc_on_ack cci _ (v_now s1) (ar_acked_bytes r0) (roundtrip_time rtte1)) as [cc3|]; [|discriminate].
  destruct (recovery_on_ack cci (v_recovery s1) (m_hdr m) segs1 (v_last_sent_seq_nr s1) cc3 (v_now s1)
              (roundtrip_time rtte1)) as [[[rec1 segs2] cc4]|]; [|discriminate].
  rewrite Hty. vsimpl.
  rewrite A1, A4.
  destruct (Z.ltb_spec (seq_sub (ch_seq (m_hdr m)) (wadd16 (v_last_consumed s) 1)) 0) as [Hneg|Hoff].
  { intro H; injection H as <- _. left. unfold force_immediate_ack; vsimpl. auto. }
  destruct (rx_add_remove (v_rx s) KData (m_payload m) _) as [[rx1 ar] w] eqn:Era.
  destruct ar as [r|]; [|discriminate].
  destruct (add_err r) eqn:Eerr; [discriminate|].
  right. split; [exact Hoff|]. exists rx1, r, w. split; [reflexivity|].
  revert H. 
  match goal with |- context [if ?c then _ else _] => destruct c end.
  - match goal with |- context [send_ack ?S] => destruct (send_ack S) as [s6 b|s6 e|] eqn:Esa end;
      cbn [sbind]; try discriminate.
    intro H; injection H as <- _.
    destruct (send_ack_data _ _ _ Esa) as (B1 & _ & _ & B4). rewrite B1, B4.
    destruct r; unfold force_immediate_ack, add_wakes, restart_remote_inactivity_timer; vsimpl; rewrite ?A4; auto.
  - intro H; injection H as <- _.
    destruct r; unfold add_wakes, restart_remote_inactivity_timer; vsimpl; rewrite ?A4; auto.
Qed.

End Frames.
