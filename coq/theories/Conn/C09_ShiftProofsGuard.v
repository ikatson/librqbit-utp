(* C09 trace shift: the guard does not depend on the labelling — a state / scenario inside the guard
   is still inside it after the relabelling (so the claim of the clause is about the scenario, not about
   the numbers it happens to be labelled with, and the relabelling can be iterated).  The layers
   (Conn/C09_ShiftProofsSeg.v ... Poll.v) show this for each function along with the commutation;
   here it is put together for one step and for a scenario. *)
From Utp Require Import Base.Prelude Wire.SeqNr Wire.SeqNr_Proofs Wire.Header Rtt.Rtte Mtu.SegSizes Rx.Rx Tx.Ring
  Tx.Segments Conn.Recovery Conn.Msg Conn.VSockRec Conn.VSock Conn.VSockRun Conn.VObs Conn.VSock_LemmasIn
  Conn.C09_Pred Conn.C09_Shift Conn.C09_ShiftProofsSeq Conn.C09_ShiftProofsSeg Conn.C09_ShiftProofsRec
  Conn.C09_ShiftProofsTx Conn.C09_ShiftProofsIn Conn.C09_ShiftProofsPoll.

Section G.
Variables da db dc : Z.
Context {CC : Type} (cci : cc_iface CC).
Notation vsock := (vsock CC).
Notation sh := (shift_vsock da db dc (CC:=CC)).

Lemma guard_vstep_shift (s : vsock) o : c09_guard_vstep cci s o = true ->
  c09_guard_vstep cci (sh s) (shift_op da db o) = true.
Proof.
  rewrite !c09_guard_vstep_unfold. destruct o; cbn [shift_op]; try reflexivity.
  rewrite st_sends. apply poll_shift_guard.
Qed.

(* the relabelled scenario is inside the guard as well *)
Theorem guard_trace_shift : forall ops (s : vsock), c09_guard_trace cci s ops = true ->
  c09_guard_trace cci (sh s) (map (shift_op da db) ops) = true.
Proof.
  induction ops as [|o rest IH]; intros s G; [reflexivity|].
  cbn [map c09_guard_trace] in *. apply andb_true_iff in G as [G1 G2].
  rewrite (guard_vstep_shift s o G1), (vstep_shift da db dc cci s o G1). cbn [andb].
  destruct (vstep cci s o) as [[[s' out] dw] sw]. cbn [shift_vres].
  rewrite poll_finished_shift. destruct (poll_finished out); [reflexivity|]. now apply IH.
Qed.

End G.
