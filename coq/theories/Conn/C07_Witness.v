(* C07 — witness scenarios (constant-window congestion controller, Conn/C10_Proofs.wtrace):
   the guards of the every-trace theorems are met on reachable traces, and the assumed-and-monitored
   precondition c07_pre_monitor is FALSE on a reachable trace of the model (D4 class: more than
   WRAP_TOLERANCE sequence numbers consumed across the 16-bit wrap without an ACK in between). *)
From Utp Require Import Base.Prelude Wire.SeqNr Wire.Header Rx.Rx Conn.Recovery Conn.Msg Conn.VSockRec
  Conn.VSock Conn.VSockRun Conn.VObs Conn.VSock_Inv Conn.C10_Pred Conn.C10_Proofs
  Conn.C07_Pred Conn.C07_Pred2.

Definition c07_cfg1 : vconfig := wcfg 1048576.

(* ---- silence when idle: the guard holds at the first and at the third step ---- *)
Definition c07_idle_ops : list vop := [VoPoll []; VoSetNow 2000000; VoPoll []].

Lemma c07_idle_nonvacuous :
  exists w cfg ops,
    vconfig_ok cfg = true /\ Forall op_msg_ok ops /\
    existsb (fun st => c07_idle_pre (fs_now st) (fs_pre st) && c07_poll_done st && c07_wnd_status_same st)
            (wtrace w cfg ops) = true /\
    c07_idle_silent_partial cfg (wtrace w cfg ops) = true.
Proof.
  exists 1000, c07_cfg1, c07_idle_ops.
  split; [vm_compute; reflexivity|]. split; [repeat constructor|].
  split; vm_compute; reflexivity.
Qed.

(* ---- triggers: in-order data, its duplicate, an out-of-order arrival (stored), the gap fill, a FIN ---- *)
Definition c07_trig_ops : list vop :=
  [VoDeliver (wmsg ST_DATA 1 100 10); VoPoll []; VoDeliver (wmsg ST_DATA 1 100 10); VoPoll [];
   VoDeliver (wmsg ST_DATA 3 100 10); VoPoll []; VoDeliver (wmsg ST_DATA 2 100 10); VoPoll [];
   VoDeliver (wmsg ST_FIN 4 100 0); VoPoll []].

Definition c07_fire (h : chdr) (st : fstep) : bool :=
  c07_poll_done st &&
  c07_is_trigger (f_state (fs_pre st)) (f_last_consumed (fs_pre st)) (fp_ooq_empty (fs_pre st)) h.

Definition c07_status_changed (st : fstep) : bool :=
  c07_poll_done st && negb (Bool.eqb (fp_ooq_empty (fs_pre st)) (fp_ooq_empty (fs_post st))).

Lemma c07_trig_ops_ok : Forall op_msg_ok c07_trig_ops.
Proof.
  unfold c07_trig_ops. repeat (constructor; [first [exact I | cbn; discriminate | cbn; reflexivity]|]).
  constructor.
Qed.

(* step 4: the duplicate; step 6: out-of-order data stored (status changes); step 8: the gap fill
   (trigger and status change); step 10: the FIN *)
Lemma c07_trigger_nonvacuous :
  exists w cfg ops,
    vconfig_ok cfg = true /\ Forall op_msg_ok ops /\
    c07_trigger_ok cfg (wtrace w cfg ops) = true /\
    forallb (c07_reasm_change_ok cfg) (wtrace w cfg ops) = true /\
    match nth_error (wtrace w cfg ops) 3 with
    | Some st => c07_fire (m_hdr (wmsg ST_DATA 1 100 10)) st = true | None => False end /\
    match nth_error (wtrace w cfg ops) 5 with
    | Some st => c07_status_changed st = true | None => False end /\
    match nth_error (wtrace w cfg ops) 7 with
    | Some st => c07_fire (m_hdr (wmsg ST_DATA 2 100 10)) st = true /\ c07_status_changed st = true
    | None => False end /\
    match nth_error (wtrace w cfg ops) 9 with
    | Some st => c07_fire (m_hdr (wmsg ST_FIN 4 100 0)) st = true | None => False end.
Proof.
  exists 1000, c07_cfg1, c07_trig_ops.
  split; [vm_compute; reflexivity|]. split; [exact c07_trig_ops_ok|].
  split; [vm_compute; reflexivity|]. split; [vm_compute; reflexivity|].
  split; [vm_compute; reflexivity|]. split; [vm_compute; reflexivity|].
  split; [vm_compute; split; reflexivity|]. vm_compute; reflexivity.
Qed.

(* ---- c07_pre_monitor is false of the model ---- *)
Definition c07_wrap_cfg : vconfig :=
  {| vc_incoming := false; vc_ipv4 := true; vc_link_mtu := 1500; vc_rx_buf := 1048576;
     vc_tx_init := 32768; vc_tx_max := 1048576; vc_nagle := true; vc_max_retx := 5;
     vc_inactivity := 10000000000; vc_wait_last_ack := true; vc_mtu_probe_max_retx := 1;
     vc_isn := 100; vc_remote_seq := 65000; vc_remote_conn_id := 7; vc_remote_wnd := 1048576;
     vc_remote_ts := 5; vc_syn_sent := 0; vc_now0 := 1000000 |}.

(* n one-byte ST_DATA in sequence *)
Fixpoint c07_delivers (n : nat) (seq : Z) : list vop :=
  match n with
  | O => []
  | S n' => VoDeliver (wmsg ST_DATA seq 100 1) :: c07_delivers n' (wadd16 seq 1)
  end.

Lemma c07_delivers_ok : forall n seq, Forall op_msg_ok (c07_delivers n seq).
Proof.
  induction n as [|n IH]; intros seq; cbn [c07_delivers]; constructor; [|apply IH].
  cbn. discriminate.
Qed.

(* 1030 one-byte packets 65000, 65001, ... 493 arrive and are processed by one poll; 1030 < 2*mss = 1056
   bytes, so no immediate ACK; 42 ms later the delayed-ACK timer has expired, the next poll sends
   nothing and turns the timer off: ack_to_transmit (a SeqNr comparison with WRAP_TOLERANCE = 1024)
   sees last_consumed = 493 BEHIND last_sent_ack_nr = 64999. *)
Definition c07_wrap_ops : list vop :=
  c07_delivers 1030 65000 ++ [VoPoll []; VoSetNow 42000000; VoPoll []].

Definition c07_ack_lost (st : fstep) : bool :=
  c07_poll_done st && (0 <? f_cbu (fs_post st)) &&
  match f_t_ack_delay (fs_pre st) with Some e => e <=? fs_now st | None => false end &&
  match f_t_ack_delay (fs_post st) with None => true | Some _ => false end &&
  match c07_pkts st with [] => true | _ :: _ => false end.

Lemma c07_wrap_ops_ok : Forall op_msg_ok c07_wrap_ops.
Proof. unfold c07_wrap_ops. apply Forall_app. split; [apply c07_delivers_ok | repeat constructor]. Qed.

(* everything the two theorems below read off a trace, as one boolean: the trace of c07_wrap_ops
   (1033 steps) is evaluated once *)
Definition c07_wrap_facts (cfg : vconfig) (tr : list fstep) : bool :=
  negb (forallb (c07_pre_monitor cfg) tr) && existsb c07_ack_lost tr &&
  forallb (c07_delayed_ok cfg) tr && forallb (c07_fires_ok cfg) tr && forallb (c07_immediate_ok cfg) tr &&
  forallb (c07_dist_ok cfg) tr && forallb (c07_pre_monitor_g cfg) tr &&
  existsb (fun st => c07_live st && (0 <? f_cbu (fs_post st)) && (f_cbu (fs_post st) <? M16)) tr.

Lemma c07_wrap_facts_parts cfg tr : c07_wrap_facts cfg tr = true ->
  forallb (c07_pre_monitor cfg) tr = false /\ existsb c07_ack_lost tr = true /\
  forallb (c07_delayed_ok cfg) tr = true /\ forallb (c07_fires_ok cfg) tr = true /\
  forallb (c07_immediate_ok cfg) tr = true /\
  forallb (c07_dist_ok cfg) tr = true /\ forallb (c07_pre_monitor_g cfg) tr = true /\
  existsb (fun st => c07_live st && (0 <? f_cbu (fs_post st)) && (f_cbu (fs_post st) <? M16)) tr = true.
Proof. unfold c07_wrap_facts. rewrite !andb_true_iff, negb_true_iff. tauto. Qed.

Lemma c07_wrap_facts_hold :
  c07_wrap_facts c07_wrap_cfg (wtrace 1048576 c07_wrap_cfg c07_wrap_ops) = true.
Proof. vm_compute. reflexivity. Qed.

Lemma c07_pre_monitor_refuted_witness :
  exists w cfg ops,
    vconfig_ok cfg = true /\ Forall op_msg_ok ops /\
    forallb (c07_pre_monitor cfg) (wtrace w cfg ops) = false /\
    (* consequence: unacknowledged bytes, the delayed-ACK timer expired, and the poll sends nothing and
       disarms the timer *)
    existsb c07_ack_lost (wtrace w cfg ops) = true /\
    (* the step-local C07 predicates all hold on this trace: they are guarded by c07_pre *)
    forallb (c07_delayed_ok cfg) (wtrace w cfg ops) = true /\
    forallb (c07_fires_ok cfg) (wtrace w cfg ops) = true /\
    forallb (c07_immediate_ok cfg) (wtrace w cfg ops) = true.
Proof.
  exists 1048576, c07_wrap_cfg, c07_wrap_ops.
  destruct (c07_wrap_facts_parts _ _ c07_wrap_facts_hold) as (Hpre & Hlost & Hdel & Hfire & Himm & _).
  split; [vm_compute; reflexivity|]. split; [exact c07_wrap_ops_ok|].
  exact (conj Hpre (conj Hlost (conj Hdel (conj Hfire Himm)))).
Qed.

(* ---- the exact-distance form holds where c07_pre fails, and its guard is met ---- *)
Lemma c07_dist_nonvacuous :
  exists w cfg ops,
    vconfig_ok cfg = true /\ 0 <= vc_remote_seq cfg < M16 /\ Forall op_msg_ok ops /\
    forallb (c07_pre_monitor cfg) (wtrace w cfg ops) = false /\
    forallb (c07_dist_ok cfg) (wtrace w cfg ops) = true /\
    forallb (c07_pre_monitor_g cfg) (wtrace w cfg ops) = true /\
    existsb (fun st => c07_live st && (0 <? f_cbu (fs_post st)) && (f_cbu (fs_post st) <? M16))
            (wtrace w cfg ops) = true.
Proof.
  exists 1048576, c07_wrap_cfg, c07_wrap_ops.
  destruct (c07_wrap_facts_parts _ _ c07_wrap_facts_hold) as (Hpre & _ & _ & _ & _ & Hdist & Hg & Hlive).
  split; [vm_compute; reflexivity|]. split; [vm_compute; split; [discriminate | reflexivity]|].
  split; [exact c07_wrap_ops_ok|].
  exact (conj Hpre (conj Hdist (conj Hg Hlive))).
Qed.

Lemma c07_pre_monitor_g_nonvacuous :
  exists w cfg ops,
    vconfig_ok cfg = true /\ 0 <= vc_remote_seq cfg < M16 /\ Forall op_msg_ok ops /\
    forallb (c07_pre_monitor_g cfg) (wtrace w cfg ops) = true /\
    existsb (fun st => c07_poll_done st && (0 <? f_cbu (fs_post st)) && (f_cbu (fs_post st) <=? WRAP_TOLERANCE))
            (wtrace w cfg ops) = true.
Proof.
  exists 1000, c07_cfg1, c07_trig_ops.
  split; [vm_compute; reflexivity|]. split; [vm_compute; split; [discriminate | reflexivity]|].
  split; [exact c07_trig_ops_ok|]. split; vm_compute; reflexivity.
Qed.
