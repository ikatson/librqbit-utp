(* The recovery-pipe timer and the phase of the recovery state machine: after a Pending poll with a
   writable transport, started with the pipe timer idle, an armed pipe timer means the connection
   is in the Recovering phase.  (next_timer_to_poll clears the pipe timer, so this is about the
   state the timer tail sees.)  The proof follows poll_body stage by stage through the restart
   loop (Conn/VSock_LemmasStep.v, PollStaged). *)
From Utp Require Import Base.Prelude Wire.SeqNr Wire.Header Rtt.Rtte Rtt.Rtte_Proofs Mtu.SegSizes
  Rx.Rx Tx.Ring Tx.Segments Tx.Segments_Proofs Tx.Segments_ProofsOut
  Conn.Recovery Conn.Msg Conn.VSockRec Conn.VSock Conn.VSockRun Conn.VObs
  Conn.VSock_LemmasTx Conn.VSock_LemmasIn Conn.VSock_Lemmas Conn.VSock_LemmasStep Conn.VSock_LemmasReach Conn.VSock_LemmasTimers.

Lemma rto_pos : forall rt, rto_in_bounds rt -> 0 < retransmission_timeout rt.
Proof. intros rt [H _]. unfold RTTE_MIN_RTO, MS in H. lia. Qed.

Lemma ne_arm : forall t now d,
  0 < d -> timer_expired t now = false -> timer_expired (timer_arm t now d false) now = false.
Proof.
  intros t now d Hd H. unfold timer_arm, timer_expired in *. destruct t as [e|]; lia.
Qed.

Section WithCC.
Context {CC : Type} (cci : cc_iface CC).
Notation vsock := (vsock CC).

Definition SC (s : vsock) : Prop :=
  state_is_closed (v_state s) (o_wait_for_last_ack (v_opts s)) = true.
Definition PN (s : vsock) : Prop := v_t_recovery_pipe s = None.
Definition REC (s : vsock) : Prop := is_recovering (v_recovery s) = true.
Definition NE (s : vsock) : Prop := timer_expired (v_t_retransmit s) (v_now s) = false.
Definition NW (s : vsock) : Prop := v_now s = v_env_now s.
Definition IBE (s : vsock) : Prop := v_inbox s = [] /\ v_inbox_closed s = false.

(* ------------------------------------------------------------------ what the control-packet
   family, send_data, the segmentation and the transitions leave alone *)
Definition qb (s s' : vsock) : Prop :=
  v_opts s' = v_opts s /\ v_t_recovery_pipe s' = v_t_recovery_pipe s /\
  v_recovery s' = v_recovery s /\ v_now s' = v_now s /\ v_env_now s' = v_env_now s /\
  v_inbox s' = v_inbox s /\ v_inbox_closed s' = v_inbox_closed s /\ v_rtte s' = v_rtte s /\
  v_restart s' = v_restart s /\
  (v_transport_pending s = true -> v_transport_pending s' = true) /\
  (SC s -> SC s') /\
  (rto_in_bounds (v_rtte s) -> NE s -> NE s').

Lemma qb_refl : forall s, qb s s.
Proof. intros s. unfold qb. repeat split; auto. Qed.

Lemma qb_trans : forall a b c, qb a b -> qb b c -> qb a c.
Proof.
  unfold qb. intros a b c (A1 & A2 & A3 & A4 & A5 & A6 & A7 & A8 & A9 & A10 & A11 & A12)
    (B1 & B2 & B3 & B4 & B5 & B6 & B7 & B8 & B9 & B10 & B11 & B12).
  repeat split; try congruence; auto.
  intros Hb Hn. apply B12; [rewrite A8; exact Hb | apply A12; assumption].
Qed.

Notation stq := (stR qb).

(* everything qb looks at, and the state, the transport flag and the retransmission timer, equal *)
Lemma qb_same : forall (s s' : vsock),
  v_opts s' = v_opts s -> v_t_recovery_pipe s' = v_t_recovery_pipe s ->
  v_recovery s' = v_recovery s -> v_now s' = v_now s -> v_env_now s' = v_env_now s ->
  v_inbox s' = v_inbox s -> v_inbox_closed s' = v_inbox_closed s -> v_rtte s' = v_rtte s ->
  v_restart s' = v_restart s -> v_transport_pending s' = v_transport_pending s \/ v_transport_pending s' = true ->
  v_state s' = v_state s -> v_t_retransmit s' = v_t_retransmit s -> qb s s'.
Proof.
  intros s s' E1 E2 E3 E4 E5 E6 E7 E8 E9 E10 E11 E12. unfold qb, SC, NE.
  rewrite E1, E4, E11, E12. repeat split; auto. destruct E10 as [E10|E10]; congruence.
Qed.

(* the same with the retransmission timer armed for one RTO (never earlier than before) *)
Lemma qb_armed : forall (s s' : vsock),
  v_opts s' = v_opts s -> v_t_recovery_pipe s' = v_t_recovery_pipe s ->
  v_recovery s' = v_recovery s -> v_now s' = v_now s -> v_env_now s' = v_env_now s ->
  v_inbox s' = v_inbox s -> v_inbox_closed s' = v_inbox_closed s -> v_rtte s' = v_rtte s ->
  v_restart s' = v_restart s -> v_transport_pending s' = v_transport_pending s ->
  v_state s' = v_state s ->
  v_t_retransmit s' = timer_arm (v_t_retransmit s) (v_now s) (retransmission_timeout (v_rtte s)) false ->
  qb s s'.
Proof.
  intros s s' E1 E2 E3 E4 E5 E6 E7 E8 E9 E10 E11 E12. unfold qb, SC, NE.
  rewrite E1, E4, E11, E12. repeat split; auto; try congruence.
  intros Hb Hn. apply ne_arm; [apply rto_pos; exact Hb | exact Hn].
Qed.

Ltac qb_same_tac := apply qb_same; first [exact eq_refl | left; exact eq_refl | right; exact eq_refl].
Ltac qb_via H := eapply qb_trans; [exact H | qb_same_tac].

Lemma qb_arm : forall s : vsock,
  qb s (set_t_retransmit s (timer_arm (v_t_retransmit s) (v_now s)
                              (retransmission_timeout (v_rtte s)) false)).
Proof. intros. apply qb_armed; exact eq_refl. Qed.

Lemma qb_data_sent : forall (s : vsock) p f, qb s (sent_state s p f).
Proof.
  intros. unfold sent_state, on_packet_sent, emit.
  destruct (seq_gt _ _); try destruct (seq_gt _ _); apply qb_armed; exact eq_refl.
Qed.

Ltac qb_leaf := first [qb_same_tac | apply qb_arm | apply qb_data_sent].

Lemma send_control_packet_qb : forall (s : vsock) h, stq s (send_control_packet s h).
Proof. apply (send_control_packet_R qb qb_refl qb_trans); intros; qb_leaf. Qed.

Lemma send_ack_qb : forall (s : vsock), stq s (send_ack s).
Proof. intros s. apply send_control_packet_qb. Qed.

Lemma maybe_send_fin_qb : forall (s : vsock), stq s (maybe_send_fin s).
Proof. apply (maybe_send_fin_R qb qb_refl qb_trans); intros; qb_leaf. Qed.

Lemma maybe_send_ack_qb : forall (s : vsock), stq s (maybe_send_ack s).
Proof. apply (maybe_send_ack_R qb qb_refl qb_trans); intros; qb_leaf. Qed.

Lemma send_data_qb : forall (s : vsock) h f, stq s (send_data s h f).
Proof. apply (send_data_R qb qb_refl qb_trans); intros; qb_leaf. Qed.

Lemma recovery_loop_qb : forall items (s : vsock) h mss0 st,
  stq s (recovery_loop items s h mss0 st).
Proof. apply (recovery_loop_R qb qb_refl qb_trans); intros; qb_leaf. Qed.

Lemma new_data_loop_qb : forall items (s : vsock) h remaining,
  stq s (new_data_loop items s h remaining).
Proof. apply (new_data_loop_R qb qb_refl qb_trans); intros; qb_leaf. Qed.

Lemma sc_not_syn : forall (s : vsock), SC s ->
  v_state s <> SynReceived /\ (forall k, v_state s <> SynAckSent k) /\ v_state s <> Established.
Proof. intros s H. unfold SC in H. destruct (v_state s); try discriminate; repeat split; discriminate. Qed.

Lemma maybe_send_syn_ack_qb : forall (s : vsock), stq s (maybe_send_syn_ack s).
Proof.
  intros s. unfold maybe_send_syn_ack.
  assert (G : forall c, (SC s -> False) -> stq s
     (if c =? o_max_retx (v_opts s) then SErr s ErrMaxSynAckRetransmissionsReached
      else sbind (send_ack s) (fun s1 sent =>
        if sent then SOk (set_t_syn_ack_resend (set_state s1 (SynAckSent (c + 1)))
               (timer_arm (v_t_syn_ack_resend s1) (v_now s1) SYNACK_RESEND_INTERNAL true)) tt
        else SOk s1 tt))).
  { intros c Hn. destruct (_ =? _); [apply qb_refl|].
    pose proof (send_ack_qb s) as Q. pose proof (send_ack_txf s) as T.
    destruct (send_ack s) as [s1 b|s1 e|]; cbn [sbind stR] in *; auto.
    destruct b; cbn [stR]; [|exact Q].
    eapply qb_trans; [exact Q|].
    destruct T as (_ & _ & _ & _ & _ & _ & T7 & _). destruct Q as (Q1 & _).
    unfold qb, SC, NE. vsimpl_goal. repeat split; auto.
    intro H. exfalso. apply Hn. unfold SC. rewrite <- T7, <- Q1. exact H. }
  destruct (v_state s) eqn:Est; try (cbn [stR]; qb_same_tac).
  - apply G. intro H. unfold SC in H. rewrite Est in H. discriminate.
  - destruct (timer_expired _ _); [|apply qb_refl]. apply G. intro H. unfold SC in H.
    rewrite Est in H. discriminate.
Qed.

Lemma transition_to_fin_wait_1_qb : forall (s : vsock), qb s (transition_to_fin_wait_1 s).
Proof.
  intros s. unfold transition_to_fin_wait_1.
  destruct (v_state s) eqn:Est; try apply qb_refl;
    (unfold qb, SC, NE; vsimpl_goal; rewrite Est; repeat split; auto; discriminate).
Qed.

Lemma rx_flush_qb : forall (s : vsock) rx1 w, qb s (add_wakes (set_rx s rx1) w).
Proof. intros. unfold add_wakes. qb_same_tac. Qed.

(* ---- segmentation: the retransmission timer is touched only when it has expired ---- *)
Lemma pop_expired_not_timed_out : forall t mr t' pe,
  pop_expired_mtu_probe t false mr = (t', pe) -> forall a b, pe <> PeExpired a b.
Proof.
  intros t mr t' pe H a b. unfold pop_expired_mtu_probe in H.
  destruct (last_and_init _) as [[init x]|]; [|inversion H; discriminate].
  destruct (sg_delivered x); [inversion H; discriminate|]. cbn [andb] in H.
  destruct (sg_probe x); inversion H; discriminate.
Qed.

Lemma split_tx_queue_into_segments_qb : forall (s : vsock),
  stq s (split_tx_queue_into_segments cci s).
Proof.
  apply (split_tx_queue_into_segments_R cci qb qb_refl qb_trans); try (intros; unfold add_wakes; qb_same_tac).
  intros s1 segs1 rw ps Ep.
  (* the timer had expired: nothing to keep about NE *)
  assert (Hx : timer_expired (v_t_retransmit s1) (v_now s1) = true).
  { destruct (timer_expired (v_t_retransmit s1) (v_now s1)) eqn:X; [reflexivity|].
    exfalso. exact (pop_expired_not_timed_out _ _ _ _ Ep _ _ eq_refl). }
  unfold probe_given_up, qb, SC, NE. destruct (seq_gt _ _); vsimpl_goal; repeat split; auto;
    intros _ Hn; unfold NE in Hn; congruence.
Qed.

(* ------------------------------------------------------------------ incoming messages *)
Definition pimr (s s' : vsock) : Prop :=
  v_opts s' = v_opts s /\ v_t_recovery_pipe s' = v_t_recovery_pipe s /\ v_now s' = v_now s /\
  v_env_now s' = v_env_now s /\ v_inbox_closed s' = v_inbox_closed s /\ v_restart s' = v_restart s /\
  (SC s -> SC s').

Lemma pimr_refl : forall s, pimr s s.
Proof. intros s. unfold pimr. repeat split; auto. Qed.

Lemma pimr_trans : forall a b c, pimr a b -> pimr b c -> pimr a c.
Proof.
  unfold pimr. intros a b c (A1 & A2 & A3 & A4 & A5 & A6 & A7) (B1 & B2 & B3 & B4 & B5 & B6 & B7).
  repeat split; try congruence; auto.
Qed.

Notation stp := (stR pimr).

Lemma qb_pimr : forall s s', qb s s' -> pimr s s'.
Proof.
  intros s s' (A1 & A2 & A3 & A4 & A5 & A6 & A7 & A8 & A9 & A10 & A11 & A12). unfold pimr. auto 10.
Qed.

Lemma pimr_same : forall (s s' : vsock),
  v_opts s' = v_opts s -> v_t_recovery_pipe s' = v_t_recovery_pipe s -> v_now s' = v_now s ->
  v_env_now s' = v_env_now s -> v_inbox_closed s' = v_inbox_closed s -> v_restart s' = v_restart s ->
  v_state s' = v_state s -> pimr s s'.
Proof.
  intros s s' E1 E2 E3 E4 E5 E6 E7. unfold pimr, SC. rewrite E1, E7. repeat split; auto.
Qed.

Ltac pimr_same_tac := apply pimr_same; exact eq_refl.
Ltac pimr_via H := eapply pimr_trans; [exact H | pimr_same_tac].

Lemma state_table_pimr : forall (s : vsock) h,
  match state_table s h with TblDrop s1 | TblErr s1 _ | TblContinue s1 => pimr s s1 end.
Proof.
  intros s h. unfold state_table, restart_remote_inactivity_timer.
  destruct (ch_type h); destruct (v_state s) eqn:Est; repeat break_match;
    first [ apply pimr_refl
          | unfold pimr, SC; vsimpl_goal; rewrite ?Est; cbn [state_is_closed];
            repeat split; auto; try discriminate ].
Qed.

Ltac pimr_leaf :=
  first [ pimr_same_tac | unfold add_wakes; pimr_same_tac | apply state_table_pimr
        | apply qb_pimr, transition_to_fin_wait_1_qb ].

Lemma pimr_ack : forall (s1 : vsock) h s2 res, pim_ack cci s1 h = Some (s2, res) -> pimr s1 s2.
Proof.
  intros s1 h s2 res E. destruct (pim_ack_shape cci _ _ _ _ E) as (? & ? & ? & ? & ? & ->). pimr_same_tac.
Qed.

Lemma recv_loop_pimr : forall fuel (s : vsock) acc, stp s (recv_loop cci fuel s acc).
Proof.
  apply (recv_loop_R cci pimr pimr_refl pimr_trans); try (intros; pimr_leaf).
  - apply pimr_ack.
  - intros s. unfold pimr, SC. vsimpl_goal. cbn [state_is_closed]. repeat split; auto.
Qed.

(* what the bookkeeping after the receive loop keeps *)
Definition pst (s s' : vsock) : Prop :=
  v_state s' = v_state s /\ v_opts s' = v_opts s /\ v_inbox s' = v_inbox s /\
  v_inbox_closed s' = v_inbox_closed s /\ v_transport_pending s' = v_transport_pending s /\
  v_t_recovery_pipe s' = v_t_recovery_pipe s /\ v_now s' = v_now s /\ v_env_now s' = v_env_now s /\
  v_restart s' = v_restart s /\ v_rx s' = v_rx s.

Lemma pst_refl : forall s, pst s s.
Proof. intros s. unfold pst. repeat split. Qed.

Lemma pst_trans : forall a b c, pst a b -> pst b c -> pst a c.
Proof.
  unfold pst. intros a b c (A1&A2&A3&A4&A5&A6&A7&A8&A9&A10) (B1&B2&B3&B4&B5&B6&B7&B8&B9&B10).
  repeat split; congruence.
Qed.

Ltac pst_tac := unfold pst; repeat split; exact eq_refl.

Definition paim_rest (s1 : vsock) (r : on_ack_result) : step unit :=
      let s2 :=
        if (0 <? ar_acked_segments r) || (0 <? ar_newly_sacked_segments r) then
          let s' := set_rto_retransmissions s1 0 in
          match ss_segs (v_segs s'), our_fin_if_unacked (v_state s') with
          | [], None => set_t_inactivity (set_t_retransmit s' None) None
          | _, _ =>
              restart_remote_inactivity_timer
                (set_t_retransmit s' (timer_arm (v_t_retransmit s') (v_now s')
                                        (retransmission_timeout (v_rtte s')) true))
          end
        else s1 in
      let s3o : step unit :=
        if 0 <? ar_acked_segments r then
          let s2 := acked_counts_as_sent s2 in
          let '(tx1, tr) := truncate_front (v_tx s2) (ar_acked_bytes r) in
          match tr with
          | TrBug _ _ => SErr (set_tx s2 tx1) (ErrBug BugTruncateFront)
          | TrOk => let '(tx2, w) := wake_writer tx1 in
                    SOk (add_wakes (set_tx s2 tx2) (tx_wakes w)) tt
          end
        else SOk s2 tt in
      sbind s3o (fun s3 _ =>
        match rv_phase (v_recovery s3) with
        | Recovering rc =>
            match calc_pipe (v_segs s3) (rc_high_rxt rc) (v_last_sent_seq_nr s3)
                            (roundtrip_time (v_rtte s3)) (v_now s3) with
            | None => SPanic
            | Some (segs', pipe, recalc) =>
                SOk (set_recovering (set_segs s3 segs')
                       {| rc_recovery_point := rc_recovery_point rc; rc_high_rxt := rc_high_rxt rc;
                          rc_total_retx := rc_total_retx rc; rc_pipe := pipe; rc_recalc := recalc;
                          rc_cwnd := rc_cwnd rc |}) tt
            end
        | _ => SOk s3 tt
        end).

Lemma paim_eq : forall (s : vsock),
  process_all_incoming_messages cci s =
  sbind (recv_loop cci (v_inbox s ++ [ {| m_hdr := outgoing_header s; m_payload := [] |} ]) s
                   on_ack_result_default)
        (fun s1 res => paim_rest s1 (fst res)).
Proof.
  intros s. unfold process_all_incoming_messages, paim_rest.
  destruct (recv_loop _ _ _ _) as [s1 [r b]| |]; reflexivity.
Qed.

Lemma paim_rest_pst : forall (s1 : vsock) r, stR pst s1 (paim_rest s1 r).
Proof.
  intros s1 r. unfold paim_rest.
  match goal with |- stR pst s1 (sbind ?m _) =>
    match m with context [acked_counts_as_sent ?x] => set (s2 := x) end end.
  assert (F2 : pst s1 s2).
  { subst s2. unfold restart_remote_inactivity_timer. repeat break_match; first [apply pst_refl | pst_tac]. }
  clearbody s2.
  apply (stR_weaken pst pst_trans) with (s := s2); [exact F2|].
  apply (stR_sbind pst pst_trans).
  - destruct (0 <? _); [|apply pst_refl].
    assert (F2' : pst s2 (acked_counts_as_sent s2)).
    { unfold acked_counts_as_sent. destruct (seq_gt _ _ && seq_lt _ _); [pst_tac | apply pst_refl]. }
    apply (stR_weaken pst pst_trans) with (s := acked_counts_as_sent s2); [exact F2'|].
    generalize (acked_counts_as_sent s2). intro s2'.
    destruct (truncate_front _ _) as [tx1 tr].
    destruct tr; [|cbn [stR]; pst_tac].
    destruct (wake_writer tx1) as [tx2 w]. cbn [stR]. unfold add_wakes. pst_tac.
  - intros s3 _. unfold set_recovering. repeat break_match; cbn [stR]; first [exact I | apply pst_refl | pst_tac].
Qed.

Lemma pst_pimr : forall s s', pst s s' -> pimr s s'.
Proof.
  intros s s' (A1&A2&A3&A4&A5&A6&A7&A8&A9&A10). unfold pimr, SC. rewrite A1, A2. repeat split; auto.
Qed.

Lemma process_all_incoming_messages_pimr : forall (s : vsock),
  stp s (process_all_incoming_messages cci s).
Proof.
  intros s. rewrite paim_eq.
  apply (stR_sbind pimr pimr_trans); [apply recv_loop_pimr|].
  intros s1 res. pose proof (paim_rest_pst s1 (fst res)) as H.
  destruct (paim_rest s1 (fst res)); cbn [stR] in *; auto using pst_pimr.
Qed.

(* after the receive loop: the connection is closed, or the transport blocked, or the inbox is
   drained and its channel open *)
Lemma recv_loop_post : forall fuel (s : vsock) acc s1 res,
  recv_loop cci fuel s acc = SOk s1 res -> SC s1 \/ v_transport_pending s1 = true \/ IBE s1.
Proof.
  assert (Hclosed : forall (s : vsock) (acc : on_ack_result) s1 res,
    sbind (maybe_send_fin (transition_to_fin_wait_1 s))
          (fun s2 _ => SOk (set_state s2 Closed) (acc, true)) = SOk s1 res -> SC s1).
  { intros s acc s1 res H. destruct (maybe_send_fin _) as [s2 b| |]; cbn [sbind] in H; try discriminate.
    inversion H; subst. unfold SC. reflexivity. }
  induction fuel as [|x fuel IH]; intros s acc s1 res; cbn [recv_loop].
  - destruct (v_inbox s) eqn:Ei.
    + destruct (v_inbox_closed s) eqn:Ec; [intro H; left; eapply Hclosed; exact H|].
      intro H; inversion H; subst. right; right. unfold IBE. vsimpl_goal. auto.
    + discriminate.
  - destruct (v_inbox s) as [|m rest] eqn:Ei.
    + destruct (v_inbox_closed s) eqn:Ec; [intro H; left; eapply Hclosed; exact H|].
      intro H; inversion H; subst. right; right. unfold IBE. vsimpl_goal. auto.
    + destruct (process_incoming_message cci (set_inbox s rest) m) as [s2 r| |]; cbn [sbind]; try discriminate.
      destruct (state_is_closed _ _ || v_transport_pending s2) eqn:Eo.
      * intro H; inversion H; subst. apply orb_true_iff in Eo. unfold SC. tauto.
      * apply IH.
Qed.

Lemma process_all_incoming_messages_post : forall (s s' : vsock) u,
  process_all_incoming_messages cci s = SOk s' u ->
  SC s' \/ v_transport_pending s' = true \/ IBE s'.
Proof.
  intros s s' u H. rewrite paim_eq in H.
  destruct (recv_loop _ _ _ _) as [s1 res| |] eqn:E; cbn [sbind] in H; try discriminate.
  apply recv_loop_post in E. pose proof (paim_rest_pst s1 (fst res)) as P. rewrite H in P. cbn [stR] in P.
  destruct P as (A1&A2&A3&A4&A5&_). unfold SC, IBE in *. rewrite A1, A2, A3, A4, A5. exact E.
Qed.

(* with a drained inbox nothing is processed: the recovery phase and the retransmission timer stay *)
Lemma process_all_incoming_messages_idle : forall (s s' : vsock) u,
  IBE s -> process_all_incoming_messages cci s = SOk s' u ->
  v_t_retransmit s' = v_t_retransmit s /\ (REC s -> REC s') /\ v_inbox s' = [] /\
  v_inbox_closed s' = false.
Proof.
  intros s s' u [Hi Hc] H. rewrite paim_eq in H. rewrite Hi in H. cbn [app recv_loop] in H.
  rewrite Hi, Hc in H. cbn [sbind fst] in H. unfold paim_rest in H.
  cbn [on_ack_result_default ar_acked_segments ar_newly_sacked_segments Z.ltb Z.compare orb sbind] in H.
  destruct (rv_phase (v_recovery (set_inbox_waker s true))) eqn:Ep.
  - inversion H; subst. vsimpl_goal. unfold REC, is_recovering. repeat split; auto.
  - inversion H; subst. vsimpl_goal. unfold REC, is_recovering. repeat split; auto.
  - destruct (calc_pipe _ _ _ _ _) as [[[sg pp] rcl]|]; [|discriminate].
    inversion H; subst. unfold set_recovering. vsimpl_goal. unfold REC, is_recovering. cbn [rv_phase].
    repeat split; auto.
Qed.

(* ------------------------------------------------------------------ send_tx_queue *)
Definition ITN (s : vsock) : Prop := iter_for_sending (v_segs s) None = [].
Definition V2 (s : vsock) : Prop := (PN s \/ REC s) /\ (NE s \/ ITN s).
Definition RB (s : vsock) : Prop := rto_in_bounds (v_rtte s).

Lemma filter_all_false : forall A (p : A -> bool) l, (forall x, In x l -> p x = false) -> filter p l = [].
Proof.
  intros A p l. induction l as [|y ys IH]; intro G; [reflexivity|]. cbn [filter].
  rewrite (G y (or_introl eq_refl)). apply IH. intros x Hx. apply G. right; exact Hx.
Qed.

Lemma iter_some_nil : forall t st, iter_for_sending t None = [] -> iter_for_sending t (Some st) = [].
Proof.
  intros t st H. unfold iter_for_sending in *. cbn [skipn] in H.
  pose proof (filter_nil_forall _ _ H) as F.
  match goal with |- filter ?p (map ?mk (enum_from ?o (skipn ?o ?l))) = [] =>
    assert (G : forall x, In x (map mk (enum_from o (skipn o l))) -> p x = false) end.
  { intros x Hx. apply in_map_iff in Hx. destruct Hx as ([i g] & <- & Hin).
    cbn [fs_seg]. apply enum_from_In in Hin.
    assert (Hg : In g (ss_segs t)).
    { rewrite <- (firstn_skipn (Z.to_nat (Z.max (seq_sub st (ss_snd_una t)) 0)) (ss_segs t)).
      apply in_or_app. right. exact Hin. }
    assert (Hex : exists j, In (j, g) (enum_from 0 (ss_segs t))).
    { generalize 0%nat. revert Hg. generalize (ss_segs t). induction l as [|y ys IH]; intros [] j.
      - subst. exists j. left; reflexivity.
      - destruct (IH H0 (S j)) as (k & K). exists k. right; exact K. }
    destruct Hex as (j & Hj).
    match type of F with forall x, In x (map ?mk0 ?items) -> _ =>
      specialize (F (mk0 (j, g)) (in_map mk0 _ _ Hj)) end.
    cbn [fs_seg] in F. exact F. }
  apply filter_all_false. exact G.
Qed.

Lemma on_rto_reactions_pp : forall (s s1 : vsock), on_rto_reactions cci s = Some s1 ->
  v_t_recovery_pipe s1 = v_t_recovery_pipe s /\ v_now s1 = v_now s /\ v_restart s1 = v_restart s /\
  v_t_retransmit s1 = v_t_retransmit s /\ RB s1 /\ v_segs s1 = v_segs s.
Proof.
  intros s s1 H. unfold on_rto_reactions in H.
  destruct (Rtte.on_rto_timeout (v_rtte s)) as [rt|] eqn:E; inversion H; subst.
  assert (B : rto_in_bounds rt) by (eapply timeout_in_bounds; exact E).
  unfold RB. vsimpl_goal. repeat split; try reflexivity; apply B.
Qed.

Lemma send_control_packet_segs : forall (s : vsock) h,
  stR (fun a b : vsock => v_segs b = v_segs a) s (send_control_packet s h).
Proof.
  intros s h. unfold send_control_packet. destruct (v_transport_pending s); [reflexivity|].
  unfold next_send.
  repeat break_match; try (inversion Heqp; subst); cbn [stR]; reflexivity.
Qed.

Lemma maybe_send_fin_segs : forall (s s' : vsock) b, maybe_send_fin s = SOk s' b -> v_segs s' = v_segs s.
Proof.
  intros s s' b H. unfold maybe_send_fin in H.
  destruct (v_transport_pending s); [inversion H; reflexivity|].
  destruct (our_fin_if_unacked _); [|inversion H; reflexivity].
  destruct (negb _); [inversion H; reflexivity|].
  pose proof (send_control_packet_segs s (hdr_with (outgoing_header s) ST_FIN z None)) as G.
  destruct (send_control_packet s _) as [s2 sent| |]; cbn [sbind stR] in *; try discriminate.
  destruct sent; inversion H; subst; exact G.
Qed.

(* the RTO branch *)
Lemma rto_branch_kn : forall (s : vsock) h,
  ti s -> (PN s \/ (REC s /\ NE s)) ->
  match rto_branch cci s h with
  | SOk s1 ret =>
      RB s1 /\ v_restart s1 = v_restart s /\ (PN s1 \/ REC s1) /\
      (ret = false -> v_rto_retransmissions s1 <= 0 -> V2 s1)
  | _ => True
  end.
Proof.
  intros s h Hti Hkn. unfold rto_branch.
  destruct (timer_expired (v_t_retransmit s) (v_now s)) eqn:Ex.
  2:{ split; [apply Hti|]. split; [reflexivity|]. split; [tauto|].
      intros _ _. unfold V2, NE. split; [tauto|left; exact Ex]. }
  assert (Hpn : PN s).
  { destruct Hkn as [H|[_ H]]; [exact H|]. unfold NE in H. congruence. }
  destruct (iter_for_sending (v_segs s) None) as [|f l] eqn:Eit.
  - (* nothing left to resend *)
    assert (Hoff : RB (set_t_retransmit s None) /\ v_restart (set_t_retransmit s None) = v_restart s /\
                   (PN (set_t_retransmit s None) \/ REC (set_t_retransmit s None)) /\
                   (false = false -> v_rto_retransmissions (set_t_retransmit s None) <= 0 ->
                    V2 (set_t_retransmit s None))).
    { split; [apply Hti|]. split; [reflexivity|]. split; [left; exact Hpn|].
      intros _ _. unfold V2. split; [left; exact Hpn|]. left. reflexivity. }
    destruct (our_fin_if_unacked _); [|exact Hoff].
    destruct (_ =? _); [|exact Hoff].
    set (s1 := set_last_sent_seq_nr s (wsub16 (v_last_sent_seq_nr s) 1)).
    pose proof (maybe_send_fin_qb s1) as Q. pose proof (maybe_send_fin_segs s1) as Sg.
    destruct (maybe_send_fin s1) as [s2 sent| |]; cbn [sbind stR] in *; auto.
    destruct Q as (Q1 & Q2 & Q3 & Q4 & Q5 & Q6 & Q7 & Q8 & Q9 & Q10 & Q11 & Q12).
    specialize (Sg s2 sent eq_refl).
    destruct sent.
    + destruct (on_rto_reactions cci s2) as [s3|] eqn:Er; [|exact I].
      apply on_rto_reactions_pp in Er. destruct Er as (R1 & R2 & R3 & R4 & R5 & R6).
      split; [exact R5|]. split; [vsimpl_goal; rewrite R3, Q9; exact eq_refl|].
      assert (Hp3 : PN (set_t_retransmit s3 (timer_arm (v_t_retransmit s3) (v_now s3)
                          (retransmission_timeout (v_rtte s3)) true))).
      { unfold PN. vsimpl_goal. rewrite R1, Q2. exact Hpn. }
      split; [left; exact Hp3|]. intros _ _. unfold V2. split; [left; exact Hp3|].
      left. unfold NE. vsimpl_goal. unfold timer_arm, timer_expired. pose proof (rto_pos _ R5).
      destruct (v_t_retransmit s3); lia.
    + split; [unfold RB; rewrite Q8; apply Hti|]. split; [rewrite Q9; exact eq_refl|].
      assert (Hp2 : PN s2) by (unfold PN; rewrite Q2; exact Hpn).
      split; [left; exact Hp2|]. intros _ _. unfold V2. split; [left; exact Hp2|].
      right. unfold ITN. rewrite Sg. exact Eit.
  - (* the first unacknowledged segment is resent *)
    pose proof (send_data_qb s h f) as Q. pose proof (send_data_ti s h f) as T.
    destruct (send_data s h f) as [s1 r|s1 e|]; cbn [stR] in *; auto.
    destruct Q as (Q1 & Q2 & Q3 & Q4 & Q5 & Q6 & Q7 & Q8 & Q9 & Q10 & Q11 & Q12).
    specialize (T Hti).
    assert (Hp1 : PN s1) by (unfold PN; rewrite Q2; exact Hpn).
    destruct r; auto.
    + cbv zeta.
      match goal with |- match (match ?o with _ => _ end) with _ => _ end => destruct o as [s2|] eqn:E end; [|exact I].
      assert (F2 : RB s2 /\ v_restart s2 = v_restart s1 /\ v_t_recovery_pipe s2 = v_t_recovery_pipe s1 /\
                   0 <= v_rto_retransmissions s2).
      { destruct (negb _).
        - pose proof (on_rto_reactions_ti cci _ _ E T) as T2.
          apply on_rto_reactions_pp in E. destruct E as (R1 & R2 & R3 & R4 & R5 & R6).
          split; [exact R5|]. split; [exact R3|]. split; [exact R1|]. apply T2.
        - injection E as <-. split; [apply T|]. split; [reflexivity|]. split; [reflexivity|]. apply T. }
      destruct F2 as (G1 & G2 & G3 & G4).
      split; [exact G1|]. split; [vsimpl_goal; congruence|].
      split; [left; unfold PN; vsimpl_goal; rewrite G3; exact Hp1|].
      intros _ Hr. cbn [v_rto_retransmissions set_rto_retransmissions set_last_sent_seq_nr set_t_retransmit] in Hr. lia.
    + split; [unfold RB; rewrite Q8; apply Hti|]. split; [exact Q9|]. split; [left; exact Hp1|].
      intro H; discriminate H.
Qed.

(* the recovery branch *)
Lemma rec_branch_kn : forall (s : vsock) h,
  RB s -> V2 s ->
  match rec_branch s h with
  | SOk s1 ret => RB s1 /\ v_restart s1 = v_restart s /\ V2 s1
  | _ => True
  end.
Proof.
  intros s h Hrb [Hpr Hni]. unfold rec_branch.
  destruct (rv_phase (v_recovery s)) as [rp|dup|rc] eqn:Ep.
  1,2: (split; [exact Hrb|]; split; [reflexivity|]; split; assumption).
  assert (Hafter : forall (s1 : vsock) res,
     RB s1 -> v_restart s1 = v_restart s -> (NE s1 \/ ITN s1) ->
     match rec_after rc h (mss (v_ss s)) s1 res with
     | SOk s2 ret => RB s2 /\ v_restart s2 = v_restart s /\ V2 s2
     | _ => True
     end).
  { intros s1 [st early] B1 R1 N1. unfold rec_after.
    assert (Hrec : forall x, REC (set_recovering s1 x)) by (intro x; exact eq_refl).
    destruct early.
    { split; [exact B1|]. split; [exact R1|]. split; [right; apply Hrec | exact N1]. }
    match goal with |- match (match our_fin_if_unacked (v_state ?y) with _ => _ end) with _ => _ end =>
      assert (F3 : RB y /\ v_restart y = v_restart s /\ REC y /\ (NE y \/ ITN y));
      [|revert F3; generalize y; intros sy F3] end.
    { destruct (_ <? _); [|split; [exact B1|]; split; [exact R1|]; split; [apply Hrec | exact N1]].
      destruct (rc_recalc rc); [split; [exact B1|]; split; [exact R1|]; split; [apply Hrec | exact N1]|].
      destruct (0 <? _); (split; [exact B1|]; split; [exact R1|]; split; [apply Hrec | exact N1]). }
    destruct F3 as (G1 & G2 & G3 & G4).
    destruct (our_fin_if_unacked _); [destruct (_ =? _)|];
      (split; [exact G1|]; split; [exact G2|]; split; [right; first [exact G3 | exact eq_refl] | exact G4]). }
  destruct Hni as [Hne|Hit].
  - pose proof (recovery_loop_qb (rec_items s rc) s h (mss (v_ss s)) (rec_st0 rc)) as Q.
    destruct (recovery_loop _ s h _ _) as [s1 res| |]; cbn [sbind stR] in *; auto.
    destruct Q as (Q1 & Q2 & Q3 & Q4 & Q5 & Q6 & Q7 & Q8 & Q9 & Q10 & Q11 & Q12).
    apply Hafter; [unfold RB; rewrite Q8; exact Hrb | exact Q9 | left; apply Q12; assumption].
  - assert (Ei : rec_items s rc = []).
    { unfold rec_items. unfold ITN in Hit. rewrite Hit. rewrite firstn_nil. reflexivity. }
    rewrite Ei. cbn [recovery_loop sbind]. apply Hafter; auto.
Qed.

(* never-sent data; the only place that requests a restart *)
Lemma new_branch_kn : forall (s : vsock) h,
  RB s -> V2 s ->
  match new_branch cci s h with
  | SOk s1 _ =>
      (v_restart s1 = v_restart s /\ (PN s1 \/ REC s1)) \/
      (v_restart s1 = true /\ (PN s1 \/ (REC s1 /\ NE s1)))
  | _ => True
  end.
Proof.
  intros s h Hrb [Hpr Hni]. unfold new_branch.
  destruct Hni as [Hne|Hit].
  - pose proof (new_data_loop_qb (new_items s) s h (new_remaining cci s)) as Q.
    destruct (new_data_loop _ s h _) as [s1 tl| |]; cbn [sbind stR] in *; auto.
    destruct Q as (Q1 & Q2 & Q3 & Q4 & Q5 & Q6 & Q7 & Q8 & Q9 & Q10 & Q11 & Q12).
    assert (Hpr1 : PN s1 \/ REC s1) by (unfold PN, REC; rewrite Q2, Q3; exact Hpr).
    assert (Hne1 : NE s1) by (apply Q12; assumption).
    unfold new_after. destruct tl as [[sq sz]|]; [|left; auto].
    destruct (pop_mtu_probe _ _) as [segs' popped]. destruct popped; [|exact I].
    right. split; [reflexivity|]. destruct Hpr1 as [H|H]; [left; exact H|right; split; [exact H|exact Hne1]].
  - unfold new_items, ITN in *. rewrite (iter_some_nil _ _ Hit). cbn [new_data_loop sbind new_after].
    left. auto.
Qed.

Theorem send_tx_queue_kn : forall (s : vsock),
  ti s -> (PN s \/ (REC s /\ NE s)) -> v_restart s = false ->
  match send_tx_queue cci s with
  | SOk s' _ =>
      (v_restart s' = true -> PN s' \/ (REC s' /\ NE s')) /\
      (v_restart s' = false -> PN s' \/ REC s')
  | _ => True
  end.
Proof.
  intros s Hti Hkn Hr. rewrite send_tx_queue_eq.
  destruct (v_transport_pending s).
  { split; [congruence|]. intros _. tauto. }
  pose proof (rto_branch_kn s (outgoing_header s) Hti Hkn) as H1.
  destruct (rto_branch cci s _) as [s1 ret| |]; cbn [sbind]; auto.
  destruct H1 as (B1 & R1 & P1 & V1). unfold after_rto_k.
  assert (Hstop : (v_restart s1 = true -> PN s1 \/ (REC s1 /\ NE s1)) /\ (v_restart s1 = false -> PN s1 \/ REC s1)).
  { split; [congruence|]. intros _. exact P1. }
  destruct ret; [exact Hstop|].
  destruct (0 <? v_rto_retransmissions s1) eqn:Ez; [exact Hstop|].
  destruct (ss_segs (v_segs s1)); [exact Hstop|].
  assert (V1' : V2 s1) by (apply V1; [reflexivity|lia]).
  pose proof (rec_branch_kn s1 (outgoing_header s) B1 V1') as H2.
  destruct (rec_branch s1 _) as [s2 ret2| |]; cbn [sbind]; auto.
  destruct H2 as (B2 & R2 & V2s).
  destruct ret2.
  { split; [congruence|]. intros _. apply V2s. }
  pose proof (new_branch_kn s2 (outgoing_header s) B2 V2s) as H3.
  destruct (new_branch cci s2 _) as [s3 u| |]; auto.
  destruct H3 as [[E3 P3]|[E3 P3]].
  - split; [congruence|]. intros _. exact P3.
  - split; [intros _; exact P3|congruence].
Qed.

Lemma classic_sc : forall (s : vsock), SC s \/ (SC s -> False).
Proof. intros s. unfold SC. destruct (state_is_closed _ _); [left; reflexivity | right; discriminate]. Qed.

(* ------------------------------------------------------------------ the stages of a poll *)
Definition ARM0 (s : vsock) : Prop := v_arm_in s = None.

Definition pA0 (s : vsock) : Prop :=
  ti s /\ ARM0 s /\ (SC s \/ PN s \/ (REC s /\ NE s /\ NW s /\ IBE s)).
Definition pA (s : vsock) : Prop :=
  ti s /\ ARM0 s /\ NW s /\ (SC s \/ PN s \/ (REC s /\ NE s /\ IBE s)).
Definition pB (s : vsock) : Prop :=
  ti s /\ ARM0 s /\ NW s /\ (SC s \/ (IBE s /\ (PN s \/ (REC s /\ NE s)))).
Definition pC (s : vsock) : Prop :=
  ti s /\ ARM0 s /\ NW s /\ (SC s \/ PN s \/ REC s).

Lemma reach_arm0 : forall (s s' : vsock), reach false false s s' -> ARM0 s -> ARM0 s'.
Proof. intros s s' H A. unfold ARM0 in *. rewrite (reach_arm_in _ _ _ H). exact A. Qed.

Lemma qb_pA : forall s s', qb s s' -> ti s' -> ARM0 s' -> pA s -> pA s'.
Proof.
  intros s s' (Q1 & Q2 & Q3 & Q4 & Q5 & Q6 & Q7 & Q8 & Q9 & Q10 & Q11 & Q12) T' A' (T & _ & W & H).
  unfold pA. split; [exact T'|]. split; [exact A'|]. split; [unfold NW in *; congruence|].
  destruct H as [H|[H|(H1 & H2 & H3)]].
  - left. auto.
  - right; left. unfold PN in *. congruence.
  - right; right. split; [unfold REC in *; congruence|]. split; [apply Q12; [apply T|exact H2]|].
    unfold IBE in *. rewrite Q6, Q7. exact H3.
Qed.

Lemma qb_pB : forall s s', qb s s' -> ti s' -> ARM0 s' -> pB s -> pB s'.
Proof.
  intros s s' (Q1 & Q2 & Q3 & Q4 & Q5 & Q6 & Q7 & Q8 & Q9 & Q10 & Q11 & Q12) T' A' (T & _ & W & H).
  unfold pB. split; [exact T'|]. split; [exact A'|]. split; [unfold NW in *; congruence|].
  destruct H as [H|(H0 & H)].
  - left. auto.
  - right. split; [unfold IBE in *; rewrite Q6, Q7; exact H0|].
    destruct H as [H|(H1 & H2)]; [left; unfold PN in *; congruence|].
    right. split; [unfold REC in *; congruence | apply Q12; [apply T|exact H2]].
Qed.

Lemma qb_pC : forall s s', qb s s' -> ti s' -> ARM0 s' -> pC s -> pC s'.
Proof.
  intros s s' (Q1 & Q2 & Q3 & Q4 & Q5 & Q6 & Q7 & Q8 & Q9 & Q10 & Q11 & Q12) T' A' (T & _ & W & H).
  unfold pC. split; [exact T'|]. split; [exact A'|]. split; [unfold NW in *; congruence|].
  destruct H as [H|[H|H]]; [left; auto | right; left; unfold PN in *; congruence |
                            right; right; unfold REC in *; congruence].
Qed.

(* a step that satisfies qb, keeps ti and does not touch arm_in keeps a stage predicate *)
Lemma stage_qb : forall (P : vsock -> Prop) X (s : vsock) (m : step X),
  (forall a b, qb a b -> ti b -> ARM0 b -> P a -> P b) ->
  (forall a, P a -> ti a /\ ARM0 a) ->
  stq s m -> stR tiR s m -> stR (reach false false) s m -> P s -> stU P m.
Proof.
  intros P X s m HP Hti Q T R Hs. destruct m as [s' a|s' e|]; cbn [stR stU] in *; auto.
  destruct (Hti _ Hs) as [T0 A0]. apply (HP s s'); auto. eapply reach_arm0; eassumption.
Qed.

Lemma pA_ti : forall a, pA a -> ti a /\ ARM0 a. Proof. intros a H. split; apply H. Qed.
Lemma pB_ti : forall a, pB a -> ti a /\ ARM0 a. Proof. intros a H. split; apply H. Qed.
Lemma pC_ti : forall a, pC a -> ti a /\ ARM0 a. Proof. intros a H. split; apply H. Qed.

Lemma no_restart_qb : forall X (s : vsock) (m : step X), stq s m -> no_restart s m.
Proof.
  intros X s m Q R. destruct m as [s' a|s' e|]; cbn [stR stU] in *; auto.
  destruct Q as (_ & _ & _ & _ & _ & _ & _ & _ & Q9 & _). congruence.
Qed.

(* poll_S with its seven no_restart side conditions discharged: only send_tx_queue requests a restart *)
Theorem poll_S_nr : forall A0 A B1 B2 C D : vsock -> Prop,
  (forall s, A0 s -> A (poll_start s)) ->
  (forall s, A s -> stC A (maybe_send_syn_ack s)) ->
  (forall s, A s -> stC A (send_ack s)) ->
  (forall s, A s -> stC B1 (process_all_incoming_messages cci s)) ->
  (forall s rx1 fb w, B1 s ->
     rx_flush (v_rx s) = (rx1, FlOk fb, w) -> B2 (add_wakes (set_rx s rx1) (rx_wakes w))) ->
  (forall s, B2 s -> stU B2 (split_tx_queue_into_segments cci s)) ->
  (forall s, B2 s -> v_restart s = false ->
     stU (fun s' => (v_restart s' = true -> A0 s') /\
                    (v_restart s' = false -> v_transport_pending s' = false -> C s'))
         (send_tx_queue cci s)) ->
  (forall s, C s -> C (transition_to_fin_wait_1 s)) ->
  (forall s, C s -> stC C (maybe_send_fin s)) ->
  (forall s, C s -> stC D (maybe_send_ack s)) ->
  forall s s' : vsock,
    A0 (poll_init s) -> poll cci s = (s', PollPending) -> tail_shape D s'.
Proof.
  intros A0 A B1 B2 C D H1 H2 H3 H4 H5 H6 H7 H8 H9 H10.
  apply (poll_S cci A0 A B1 B2 C D H1 H2 H3 H4 H5 H6 H7 H8 H9 H10).
  - intro a. apply no_restart_qb, maybe_send_syn_ack_qb.
  - intro a. apply no_restart_qb, send_ack_qb.
  - intros a Ra. pose proof (process_all_incoming_messages_pimr a) as P'.
    destruct (process_all_incoming_messages cci a); cbn [stU stR] in *; auto.
    destruct P' as (_ & _ & _ & _ & _ & P6 & _). congruence.
  - intro a. apply no_restart_qb, split_tx_queue_into_segments_qb.
  - apply transition_to_fin_wait_1_restart.
  - intro a. apply no_restart_qb, maybe_send_fin_qb.
  - intro a. apply no_restart_qb, maybe_send_ack_qb.
Qed.

Theorem poll_pipe_tail : forall (s s' : vsock),
  ti s -> PN s -> poll cci s = (s', PollPending) -> v_transport_pending s' = false ->
  exists sb, ti sb /\ v_arm_in sb = None /\ v_now sb = v_env_now sb /\
             (PN sb \/ REC sb) /\ v_transport_pending sb = false /\ s' = poll_tail sb.
Proof.
  intros s s' Hti Hpn H Hnp.
  assert (HS : tail_shape pC s').
  { apply (poll_S_nr pA0 pA pB pB pC pC) with (s := s); try exact H.
    - (* poll_start *)
      intros a (T & A & Q). unfold pA. split; [apply poll_start_ti; exact T|].
      split; [exact A|]. split; [reflexivity|].
      destruct Q as [Q|[Q|(Q1 & Q2 & Q3 & Q4)]]; [left; exact Q | right; left; exact Q | right; right].
      split; [exact Q1|]. split; [|exact Q4]. unfold NE, NW in *. unfold poll_start. vsimpl_goal.
      rewrite <- Q3. exact Q2.
    - intros a Ha. apply stU_stC.
      apply (stage_qb pA _ a _ qb_pA pA_ti); auto using maybe_send_syn_ack_qb, maybe_send_syn_ack_ti, maybe_send_syn_ack_reach.
    - intros a Ha. apply stU_stC.
      apply (stage_qb pA _ a _ qb_pA pA_ti); auto using send_ack_qb, send_ack_ti.
      apply stf_strch, send_ack_txf.
    - (* process_all_incoming_messages *)
      intros a (T & A & W & Q).
      pose proof (process_all_incoming_messages_ti cci a) as T'.
      pose proof (process_all_incoming_messages_pimr a) as P'.
      pose proof (process_all_incoming_messages_reach cci false false a) as R'.
      pose proof (process_all_incoming_messages_post a) as Post.
      pose proof (process_all_incoming_messages_idle a) as Idle.
      destruct (process_all_incoming_messages cci a) as [b u| |]; cbn [stC stR] in *; auto.
      intro Tp. specialize (T' T). specialize (Post b u eq_refl). specialize (Idle b u).
      destruct P' as (P1 & P2 & P3 & P4 & P5 & P6 & P7).
      unfold pB. split; [exact T'|]. split; [eapply reach_arm0; eassumption|].
      split; [unfold NW in *; congruence|].
      destruct Q as [Q|Q]; [left; auto|].
      destruct Post as [Po|[Po|Po]]; [left; exact Po | congruence | right].
      split; [exact Po|].
      destruct Q as [Q|(Q1 & Q2 & Q3)]; [left; unfold PN in *; congruence|].
      destruct (Idle Q3 eq_refl) as (I1 & I2 & _). right. split; [auto|].
      unfold NE in *. rewrite I1, P3. exact Q2.
    - intros a rx1 fb w Ha _. apply (qb_pB a); [apply rx_flush_qb | | exact (proj1 (proj2 Ha)) | exact Ha].
      apply (rx_flush_ti a rx1 (rx_wakes w)). apply Ha.
    - intros a Ha.
      apply (stage_qb pB _ a _ qb_pB pB_ti); auto using split_tx_queue_into_segments_qb,
        split_tx_queue_into_segments_ti, split_tx_queue_into_segments_reach.
    - (* send_tx_queue *)
      intros a (T & A & W & Q) Ra.
      pose proof (send_tx_queue_ti cci a) as T'.
      pose proof (send_tx_queue_txf cci a) as X'.
      pose proof (send_tx_queue_frame cci a) as F'.
      assert (K' : (SC a -> False) ->
                   match send_tx_queue cci a with
                   | SOk s1 _ => (v_restart s1 = true -> PN s1 \/ (REC s1 /\ NE s1)) /\
                                 (v_restart s1 = false -> PN s1 \/ REC s1)
                   | _ => True end).
      { intro Hn. apply send_tx_queue_kn; [exact T| |exact Ra].
        destruct Q as [Q|(_ & Q)]; [contradiction | exact Q]. }
      destruct (send_tx_queue cci a) as [b u| |]; cbn [stU stR step_frame] in *; auto.
      specialize (T' T).
      destruct X' as (X1 & X2 & X3 & X4 & X5 & X6 & X7 & X8).
      destruct F' as (F1 & F2 & F3 & _).
      assert (Ab : ARM0 b) by (unfold ARM0 in *; congruence).
      assert (Wb : NW b) by (unfold NW in *; congruence).
      assert (Sb : SC a -> SC b) by (unfold SC; rewrite X7, F1; auto).
      assert (Ib : IBE a -> IBE b) by (unfold IBE; rewrite X5, X6; auto).
      destruct Q as [Q|(Q0 & Q)].
      + split; intros; [unfold pA0 | unfold pC]; repeat (split; [assumption|]); left; auto.
      + destruct (classic_sc a) as [Hs|Hs].
        * split; intros; [unfold pA0 | unfold pC]; repeat (split; [assumption|]); left; auto.
        * destruct (K' Hs) as [K1 K2]. split.
          -- intro Rb. unfold pA0. split; [exact T'|]. split; [exact Ab|].
             destruct (K1 Rb) as [K|[K3 K4]]; [right; left; exact K|right; right]. auto.
          -- intros Rb _. unfold pC. split; [exact T'|]. split; [exact Ab|]. split; [exact Wb|].
             right. exact (K2 Rb).
    - intros a Ha. apply (qb_pC a); [apply transition_to_fin_wait_1_qb | | | exact Ha].
      + apply transition_to_fin_wait_1_ti. apply Ha.
      + eapply reach_arm0; [apply transition_to_fin_wait_1_reach | apply Ha].
    - intros a Ha. apply stU_stC.
      apply (stage_qb pC _ a _ qb_pC pC_ti); auto using maybe_send_fin_qb, maybe_send_fin_ti.
      apply stf_strch, maybe_send_fin_txf.
    - intros a Ha. apply stU_stC.
      apply (stage_qb pC _ a _ qb_pC pC_ti); auto using maybe_send_ack_qb, maybe_send_ack_ti.
      apply stf_strch, maybe_send_ack_txf.
    - unfold pA0. split; [exact Hti|]. split; [reflexivity|]. right; left. exact Hpn. }
  destruct HS as [HS|(sb & (T & A & W & Q) & Tp & Rs & Cl & ->)]; [congruence|].
  exists sb. split; [exact T|]. split; [exact A|]. split; [exact W|].
  split; [|split; [exact Tp|reflexivity]].
  destruct Q as [Q|[Q|Q]]; [unfold SC in Q; congruence | left; exact Q | right; exact Q].
Qed.

End WithCC.
