(* A staged Hoare walk through VirtualSocket::poll for the polls that return Pending - whether at the end
   of the body or early, with the transport blocked.  Like PollStaged of Conn/VSock_LemmasStep.v, but
   - every function is entered with transport_pending = false and restart = false (the premises [ok0]),
   - the state of an EARLY Pending return (transport blocked) is described too: each stage predicate
     yields the final predicate Q when the transport flag is set.
   Stages: A0 at the start of an iteration, A up to process_all_incoming_messages, B1 after it, B2 from the
   flush to send_tx_queue, C from there to maybe_send_ack, D after it. *)
From Utp Require Import Base.Prelude Wire.SeqNr Wire.Header Rtt.Rtte Mtu.SegSizes Rx.Rx Tx.Ring
  Tx.Segments Conn.Recovery Conn.Msg Conn.VSockRec Conn.VSock Conn.VSockRun Conn.VObs
  Conn.VSock_Lemmas Conn.VSock_LemmasTx Conn.VSock_LemmasStep Conn.VSock_LemmasReach Conn.VSock_LemmasTimers
  Conn.VSock_LemmasPipe Conn.C17_StepLemmas Conn.C05_Proofs.

Section WithCC.
Context {CC : Type} (cci : cc_iface CC).
Notation vsock := (vsock CC).

Definition stW (P : vsock -> Prop) {X} (m : step X) : Prop :=
  match m with SOk s' _ => P s' | _ => True end.

Definition ok0 (s : vsock) : Prop := v_transport_pending s = false /\ v_restart s = false.

Lemma split_keeps_tp (s : vsock) :
  stW (fun s' => v_transport_pending s' = v_transport_pending s) (split_tx_queue_into_segments cci s).
Proof.
  pose proof (split_tx_spec cci s) as Sp.
  destruct (split_tx_queue_into_segments cci s); cbn [stW split_post] in *; auto.
  destruct Sp as ((_&_&_&_&_&_&F7&_) & _). exact F7.
Qed.

Section PollWalk.
(* the stage predicates are indexed by the number of restarts so far *)
Variables A0 A B1 B2 B3 C D Q : nat -> vsock -> Prop.

Hypothesis H_start : forall k s, A0 k s -> A k (poll_start s).
Hypothesis H_syn : forall k s, A k s -> ok0 s -> stW (A k) (maybe_send_syn_ack s).
Hypothesis H_ack : forall k s, A k s -> ok0 s -> stW (A k) (send_ack s).
Hypothesis H_pim : forall k s, A k s -> ok0 s -> stW (B1 k) (process_all_incoming_messages cci s).
Hypothesis H_flush : forall k s rx1 fb w, B1 k s -> ok0 s ->
  rx_flush (v_rx s) = (rx1, FlOk fb, w) -> B2 k (add_wakes (set_rx s rx1) (rx_wakes w)).
Hypothesis H_split : forall k s, B2 k s -> ok0 s -> stW (B3 k) (split_tx_queue_into_segments cci s).
Hypothesis H_stq : forall k s, B3 k s -> ok0 s ->
  stW (fun s' => (v_restart s' = true -> A0 (S k) s') /\
                 (v_restart s' = false -> v_transport_pending s' = true -> Q k s') /\
                 (ok0 s' -> C k s'))
      (send_tx_queue cci s).
Hypothesis H_fw1 : forall k s, C k s -> ok0 s -> C k (transition_to_fin_wait_1 s).
Hypothesis H_fin : forall k s, C k s -> ok0 s -> stW (C k) (maybe_send_fin s).
Hypothesis H_msa : forall k s, C k s -> ok0 s -> stW (D k) (maybe_send_ack s).
Hypothesis E_A : forall k s, A k s -> v_transport_pending s = true -> Q k s.
Hypothesis E_B1 : forall k s, B1 k s -> v_transport_pending s = true -> Q k s.
Hypothesis E_C : forall k s, C k s -> v_transport_pending s = true -> Q k s.
Hypothesis E_D : forall k s, D k s -> v_transport_pending s = true -> Q k s.
Hypothesis H_tail : forall k s, D k s -> ok0 s ->
  state_is_closed (v_state s) (o_wait_for_last_ack (v_opts s)) = false -> Q k (poll_tail s).

Definition brW (k : nat) (r : body_res) : Prop :=
  match r with
  | BrReturn s' PollPending => Q k s'
  | BrRestart s' => A0 (S k) s'
  | _ => True
  end.

(* a stage that cannot request a restart *)
Lemma W_stage : forall kk X (P : vsock -> Prop) (m : step X) s,
  v_restart s = false -> no_restart s m -> stW P m ->
  (forall s1, P s1 -> v_transport_pending s1 = true -> Q kk s1) ->
  stage (brW kk) true P m.
Proof.
  intros kk X P m s R0 Hn Hm He. specialize (Hn R0). destruct m as [s1 a|s1 e|]; try exact I.
  cbn [stage stW stU andb] in *. rewrite Hn.
  destruct (v_transport_pending s1) eqn:T; [apply He; assumption | exact Hm].
Qed.

Theorem poll_body_W : forall k s0, A0 k s0 -> brW k (poll_body cci s0).
Proof.
  intros k s0 HA.
  apply (poll_body_walk cci (brW k) (A k) (B1 k) (B2 k)
           (fun s => B3 k s /\ v_transport_pending s = false) (C k) (D k)).
  - exact I.
  - intros s H [R T]. apply (W_stage k _ _ _ s R);
      [apply no_restart_qb, maybe_send_syn_ack_qb | apply H_syn; [exact H | split; assumption] | apply E_A].
  - intros s H [R T] _. apply (W_stage k _ _ _ s R);
      [apply no_restart_qb, send_ack_qb | apply H_ack; [exact H | split; assumption] | apply E_A].
  - intros s H [R T]. apply (W_stage k _ _ _ s R);
      [| apply H_pim; [exact H | split; assumption] | apply E_B1].
    intro Ra. pose proof (process_all_incoming_messages_pimr cci s) as P'.
    destruct (process_all_incoming_messages cci s); cbn [stU stR] in *; auto.
    destruct P' as (_ & _ & _ & _ & _ & P6 & _). congruence.
  - intros s rx1 fb w H [R T] E. exact (H_flush k s rx1 fb w H (conj T R) E).
  - intros s _ _ _. exact I.
  - intros s H [R T] _. pose proof (H_split k s H (conj T R)) as HB5.
    pose proof (no_restart_qb _ _ _ (split_tx_queue_into_segments_qb cci s) R) as R5.
    pose proof (split_keeps_tp s) as T5.
    destruct (split_tx_queue_into_segments cci s) as [s5 a5|s5 e5|]; try exact I.
    cbn [stage stW stU andb] in *. rewrite R5. split; [exact HB5 | rewrite T5; exact T].
  - (* send_tx_queue: the only stage that may restart *)
    intros s [H T] R. pose proof (H_stq k s H (conj T R)) as H6.
    destruct (send_tx_queue cci s) as [s6 a6|s6 e6|]; try exact I.
    cbn [stage stW] in *. destruct H6 as (H6r & H6p & H6c).
    destruct (v_restart s6) eqn:R6; [apply H6r; reflexivity|].
    destruct (v_transport_pending s6) eqn:T6; [apply H6p; reflexivity | apply H6c; split; assumption].
  - intros s H [R T] _. apply H_fw1; [exact H | split; assumption].
  - intros s H [R T]. apply (W_stage k _ _ _ s R);
      [apply no_restart_qb, maybe_send_fin_qb | apply H_fin; [exact H | split; assumption] | apply E_C].
  - intros s H [R T]. apply (W_stage k _ _ _ s R);
      [apply no_restart_qb, maybe_send_ack_qb | apply H_msa; [exact H | split; assumption] | apply E_D].
  - intros s _ _ _. exact I.
  - intros s H [R T] Cl. apply H_tail; [exact H | split; assumption | exact Cl].
  - apply H_start. exact HA.
Qed.

Theorem poll_loop_W : forall fuel k s s',
  A0 k s -> poll_loop cci fuel s = (s', PollPending) -> exists k', (k' < k + fuel)%nat /\ Q k' s'.
Proof.
  induction fuel as [|fuel IH]; intros k s s' HA H; cbn [poll_loop] in H; [discriminate|].
  pose proof (poll_body_W k s HA) as F.
  destruct (poll_body cci s) as [s1 r1|s1|]; cbn [brW] in *.
  - inversion H; subst. exists k. split; [lia|exact F].
  - destruct (IH (S k) s1 s' F H) as (k' & Hk & HQ). exists k'. split; [lia|exact HQ].
  - discriminate.
Qed.

End PollWalk.
End WithCC.
