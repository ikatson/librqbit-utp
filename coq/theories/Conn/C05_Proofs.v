(* C05 — the sender obeys the peer's window; slow start; single segment after an RTO.
   Theorems about the model's send path (send_tx_queue and its parts).  See Props/C05.v. *)
From Utp Require Import Base.Prelude Wire.SeqNr Wire.SeqNr_Proofs Wire.Header Rtt.Rtte Rtt.Rtte_Proofs
  Mtu.SegSizes Rx.Rx Tx.Ring Tx.Ring_Proofs Tx.Segments Tx.Segments_Proofs
  Conn.Recovery Conn.Msg Conn.VSockRec Conn.VSock Conn.VSock_LemmasTx Conn.VSock_LemmasIn.

(* payload bytes of the ST_DATA datagrams in a list *)
Fixpoint data_bytes (l : list packet) : Z :=
  match l with
  | [] => 0
  | p :: r => (match ch_type (p_hdr p) with ST_DATA => Z.of_nat (length (p_payload p)) | _ => 0 end)
              + data_bytes r
  end.

Lemma data_bytes_app a b : data_bytes (a ++ b) = data_bytes a + data_bytes b.
Proof. induction a as [|x xs IH]; cbn [app data_bytes]; lia. Qed.

(* every segment of the table carries at least one byte (invariant: segment_loop_pos below) *)
Definition segs_pos (t : segments) : Prop := Forall (fun g => 1 <= sg_size g) (ss_segs t).

(* ---- counted flight vs. the true amount of sent-and-not-delivered payload ---- *)
Definition seg_is_sent (g : seg) : bool := match sg_sent g with NotSent => false | _ => true end.

Fixpoint true_flight (l : list seg) : Z :=
  match l with
  | [] => 0
  | g :: r => (if seg_is_sent g && negb (sg_delivered g) then sg_size g else 0) + true_flight r
  end.

(* the first k segments of the table have been transmitted, the others never (segments already
   delivered count in neither flight and are exempt) *)
Definition sent_prefix (l : list seg) (k : nat) : Prop :=
  Forall (fun g => seg_is_sent g || sg_delivered g = true) (firstn k l) /\
  Forall (fun g => negb (seg_is_sent g) || sg_delivered g = true) (skipn k l).

Lemma true_flight_app a b : true_flight (a ++ b) = true_flight a + true_flight b.
Proof. induction a as [|x xs IH]; cbn [app true_flight]; lia. Qed.

Lemma true_flight_all_sent l :
  Forall (fun g => seg_is_sent g || sg_delivered g = true) l -> true_flight l = flight_sum l.
Proof.
  induction 1 as [|g r Hg _ IH]; cbn [true_flight flight_sum]; [reflexivity|].
  rewrite IH. destruct (seg_is_sent g), (sg_delivered g); cbn [andb negb orb] in *; try reflexivity; discriminate.
Qed.

Lemma true_flight_none_sent l :
  Forall (fun g => negb (seg_is_sent g) || sg_delivered g = true) l -> true_flight l = 0.
Proof.
  induction 1 as [|g r Hg _ IH]; cbn [true_flight]; [reflexivity|]. rewrite IH.
  destruct (seg_is_sent g), (sg_delivered g); cbn [andb negb orb] in *; try reflexivity; discriminate.
Qed.

(* tolerance hypothesis: at most 1024 transmitted segments outstanding (D4 in DESIGN.md: beyond
   that seq_nr_offset has the wrong sign).  k = number of transmitted segments in the table,
   last_sent_seq_nr = snd_una + k - 1 *)
Lemma flight_size_exact t ls k :
  0 <= ss_snd_una t < M16 -> 0 <= k <= 1024 ->
  ls = wsub16 (wadd16 (ss_snd_una t) k) 1 ->
  sent_prefix (ss_segs t) (Z.to_nat k) ->
  calc_flight_size t ls = true_flight (ss_segs t).
Proof.
  intros Hu Hk Hls (Hs & Hn). unfold calc_flight_size.
  assert (Hd : seq_sub ls (ss_snd_una t) = k - 1).
  { unfold seq_sub. replace ls with ((ss_snd_una t + (k - 1)) mod M16).
    - apply offset_true_distance; unfold WRAP_TOLERANCE; lia.
    - rewrite Hls. unfold wsub16, wadd16, M16 in *. lia. }
  rewrite Hd. replace (Z.max (k - 1 + 1) 0) with k by lia.
  rewrite <- (firstn_skipn (Z.to_nat k) (ss_segs t)) at 2.
  rewrite true_flight_app, (true_flight_all_sent _ Hs), (true_flight_none_sent _ Hn). lia.
Qed.

(* without the tolerance hypothesis the counted flight is wrong: 1500 one-byte segments (D4) *)


Section WithCC.
Context {CC : Type} (cci : cc_iface CC).
Notation vsock := (vsock CC).

Lemma data_payload_length (s : vsock) f :
  sent_ok s f -> 0 <= sg_size (fs_seg f) ->
  Z.of_nat (length (data_payload s f)) = sg_size (fs_seg f).
Proof.
  unfold sent_ok, data_payload. intros (_ & Hoff & Hb) Hsz.
  rewrite firstn_length, skipn_length. lia.
Qed.

Lemma data_bytes_sent (s : vsock) h : forall sent,
  Forall (sent_ok s) sent -> Forall (fun f => 0 <= sg_size (fs_seg f)) sent ->
  data_bytes (rev (map (data_pkt s h) sent)) = fs_bytes sent.
Proof.
  induction sent as [|f r IH]; intros Hok Hsz; cbn [map rev fs_bytes]; [reflexivity|].
  inversion Hok; subst. inversion Hsz; subst.
  rewrite data_bytes_app, IH by assumption. cbn [data_bytes data_pkt p_hdr p_payload data_hdr ch_type].
  rewrite data_payload_length by assumption. lia.
Qed.

Lemma iter_sizes_pos t st : segs_pos t -> Forall (fun f => 1 <= sg_size (fs_seg f)) (iter_for_sending t st).
Proof.
  unfold segs_pos. intro Hp. apply Forall_forall. intros f Hf.
  destruct (iter_item_ok _ _ _ Hf) as (Hn & _). rewrite nth_error_map in Hn.
  destruct (nth_error (ss_segs t) (fs_idx f)) as [g|] eqn:Eg; [|discriminate].
  cbn [option_map] in Hn. unfold dview in Hn. injection Hn as H1 _ _.
  rewrite Forall_forall in Hp. specialize (Hp g (nth_error_In _ _ Eg)). lia.
Qed.

Lemma Forall_app_l {A} (P : A -> Prop) a b : Forall P (a ++ b) -> Forall P a.
Proof. intro H. apply Forall_app in H. tauto. Qed.

Lemma flight_sum_nonneg l : Forall (fun g => 1 <= sg_size g) l -> 0 <= flight_sum l.
Proof.
  induction 1 as [|g r Hg _ IH]; cbn [flight_sum]; [lia|]. destruct (sg_delivered g); lia.
Qed.

Lemma calc_flight_nonneg t ls : segs_pos t -> 0 <= calc_flight_size t ls.
Proof.
  unfold segs_pos, calc_flight_size. intro H. apply flight_sum_nonneg.
  rewrite <- (firstn_skipn (Z.to_nat (Z.max (seq_sub ls (ss_snd_una t) + 1) 0)) (ss_segs t)) in H.
  exact (Forall_app_l _ _ _ H).
Qed.

(* the budget of the new-data loop outside loss recovery *)
Definition window_budget (s : vsock) : Z :=
  sat_sub (Z.min (cc_window cci (v_cc s)) (v_last_remote_window s))
          (calc_flight_size (v_segs s) (v_last_sent_seq_nr s)).

Lemma new_remaining_not_recovering s :
  is_recovering (v_recovery s) = false -> new_remaining cci s = window_budget s.
Proof.
  unfold is_recovering, new_remaining, remaining_cwnd, window_budget.
  destruct (rv_phase (v_recovery s)); [reflexivity|reflexivity|discriminate].
Qed.

(* ---- (a) loop level ---- *)
Lemma new_data_loop_le_budget : forall items (s : vsock) h rem s',
  0 <= rem -> step_st (new_data_loop items s h rem) = Some s' ->
  exists sent rest, items = sent ++ rest /\
    v_out s' = rev (map (data_pkt s h) sent) ++ v_out s /\ fs_bytes sent <= rem.
Proof.
  intros items s h rem s' Hrem H.
  destruct (new_data_loop_spec _ _ _ _ _ Hrem H) as (sent & rest & E & (Hf & Ho & _) & Hb).
  exists sent, rest. auto.
Qed.

(* ---- (a) send_tx_queue level ---- *)
(* outside recovery one call of send_tx_queue emits either at most one datagram from the RTO part
   (timer expired: the head retransmission or the FIN), or only datagrams of the new-data loop, whose
   payload is bounded by min(cwnd, rwnd) - flight *)
Inductive stq_nonrec_outcome (s s' : vsock) : Prop :=
| SnQuiet : v_out s' = v_out s -> stq_nonrec_outcome s s'
| SnRto (f : for_sending) (rest : list for_sending) :
    timer_expired (v_t_retransmit s) (v_now s) = true ->
    iter_for_sending (v_segs s) None = f :: rest ->
    v_out s' = data_pkt s (outgoing_header s) f :: v_out s ->
    v_rto_retransmissions s' = v_rto_retransmissions s + 1 ->
    stq_nonrec_outcome s s'
| SnFin (fin : Z) :
    timer_expired (v_t_retransmit s) (v_now s) = true ->
    iter_for_sending (v_segs s) None = [] ->
    v_out s' = fin_pkt (set_last_sent_seq_nr s (wsub16 fin 1)) fin :: v_out s ->
    stq_nonrec_outcome s s'
| SnNew (sent rest : list for_sending) :
    v_rto_retransmissions s <= 0 ->
    new_items s = sent ++ rest ->
    v_out s' = rev (map (data_pkt s (outgoing_header s)) sent) ++ v_out s ->
    Forall (sent_ok s) sent ->
    fs_bytes sent <= window_budget s ->
    stq_nonrec_outcome s s'.

Lemma rec_items_nil (s : vsock) rc : iter_for_sending (v_segs s) None = [] -> rec_items s rc = [].
Proof. unfold rec_items. intros ->. destruct (Z.to_nat _); reflexivity. Qed.

(* the two loops of send_tx_queue *)
Definition rec_new (s : vsock) (h : chdr) : step unit :=
  sbind (rec_branch s h) (fun s ret => if ret then SOk s tt else new_branch cci s h).

(* after the RTO part the call returns, unless that part let it go on, the counter is zero and the table
   holds segments: then the two loops run *)
Lemma after_rto_k_cases h (s1 : vsock) ret :
  after_rto_k cci h s1 ret = SOk s1 tt \/
  (ret = false /\ v_rto_retransmissions s1 <= 0 /\ ss_segs (v_segs s1) <> [] /\
   after_rto_k cci h s1 ret = rec_new s1 h).
Proof.
  unfold after_rto_k, rec_new. destruct ret; [left; reflexivity|].
  destruct (Z.ltb_spec 0 (v_rto_retransmissions s1)); [left; reflexivity|].
  destruct (ss_segs (v_segs s1)); [left; reflexivity|right]. repeat split; [assumption|discriminate].
Qed.

Lemma send_tx_queue_nonrec s s' :
  is_recovering (v_recovery s) = false -> 0 <= v_rto_retransmissions s ->
  step_st (send_tx_queue cci s) = Some s' -> stq_nonrec_outcome s s'.
Proof.
  intros Hnr Hcnt. rewrite send_tx_queue_eq.
  destruct (v_transport_pending s) eqn:Ep.
  { cbn [step_st]. intro H; injection H as <-. apply SnQuiet; reflexivity. }
  set (h := outgoing_header s).
  destruct (rto_branch cci s h) as [s1 ret|s1 e|] eqn:Er; cbn [sbind].
  3: discriminate.
  2:{ cbn [step_st]. intro H; injection H as <-.
      assert (Hs : step_st (rto_branch cci s h) = Some s1) by (rewrite Er; reflexivity).
      pose proof (rto_branch_spec cci _ _ _ Hs) as Ho. rewrite Er in Ho.
      destruct Ho as [Ho _ _ _ _ _
                     | f rest _ _ Hr _ _ _ _ _ _ _ _ _ _ _ _ _
                     | fin _ _ _ _ Hr _ _ _ _ _ _ _ _ _ _]; try discriminate.
      apply SnQuiet; exact Ho. }
  assert (Hs : step_st (rto_branch cci s h) = Some s1) by (rewrite Er; reflexivity).
  pose proof (rto_branch_spec cci _ _ _ Hs) as Ho. rewrite Er in Ho.
  destruct Ho as [Ho Hf Hsg Hls Hne Hnq
                 | f rest Hexp Hit Hr Ho Hok Hsg Hrto Hls Htx Hop Hnow Hrw Hst Hpr Htr _
                 | fin Hexp Hit Hfin Hls Hr Ho Hsg Hrto Hls' Htx Hop Hnow Hrt Htr _].
  - (* the RTO part emitted nothing *)
    destruct (after_rto_k_cases h s1 ret) as [->|(_ & Hz & _ & ->)].
    { cbn [step_st]. intro H; injection H as <-. apply SnQuiet; exact Ho. }
    assert (Hf' := Hf). unfold sd_frame in Hf'.
    destruct Hf' as (F1 & F2 & F3 & F4 & F5 & F6 & F7 & F8 & F9 & F10 & F11 & F12 & F13 & F14 & F15 & F16).
    unfold rec_new.
    assert (Hrb : rec_branch s1 h = SOk s1 false).
    { unfold rec_branch. rewrite F4. unfold is_recovering in Hnr.
      destruct (rv_phase (v_recovery s)); [reflexivity|reflexivity|discriminate]. }
    rewrite Hrb. cbn [sbind]. intro H.
    destruct (new_branch_spec cci _ _ _ H) as (sent & rest & s2 & E & (Hf2 & Ho2 & Hsg2 & Hok2 & _) & Hb & P & A1 & _).
    destruct Hls as [Hls|Hnil].
    + apply (SnNew _ _ sent rest).
      * rewrite <- F5. lia.
      * unfold new_items in *. rewrite <- Hsg, <- Hls. exact E.
      * rewrite A1, Ho2, Ho. f_equal. f_equal. apply map_ext. intro g. apply data_pkt_frame. exact Hf.
      * eapply Forall_impl; [|exact Hok2]. intro g. apply sent_ok_frame. exact Hf.
      * rewrite new_remaining_not_recovering in Hb by (rewrite F4; exact Hnr).
        unfold window_budget in *. rewrite F2, F3, Hsg, Hls in Hb. exact Hb.
    + (* nothing undelivered in the table: the new-data iterator is empty *)
      unfold new_items in E. rewrite Hsg, (iter_none_nil _ _ Hnil) in E.
      destruct sent; [|discriminate]. cbn [map rev app] in Ho2.
      apply SnQuiet. rewrite A1, Ho2, Ho. reflexivity.
  - (* the head was retransmitted: single-segment mode, nothing else goes out *)
    destruct (after_rto_k_cases h s1 ret) as [->|(_ & Hz & _)]; [|exfalso; lia].
    cbn [step_st]. intro H; injection H as <-. eapply SnRto; eauto.
  - destruct (after_rto_k_cases h s1 ret) as [->|(_ & _ & _ & ->)].
    { cbn [step_st]. intro H; injection H as <-. apply (SnFin _ _ fin); [exact Hexp|exact Hit|congruence]. }
    unfold rec_new.
    (* the table holds nothing undelivered: neither later part sends *)
    assert (Hit' : iter_for_sending (v_segs s1) None = []) by (rewrite Hsg; exact Hit).
    destruct (rec_branch s1 h) as [s2 ret2|s2 e2|] eqn:Erb; cbn [sbind]; [| |discriminate].
    + assert (Hs2 : step_st (rec_branch s1 h) = Some s2) by (rewrite Erb; reflexivity).
      assert (Ho2 : v_out s2 = v_out s1 /\ v_segs s2 = v_segs s1).
      { destruct (rec_branch_spec _ _ _ Hs2) as [(_ & _ & ->)|(rc & sent & s1' & Eph & Hincl & Hem & P & A1 & A2 & _)];
          [auto|].
        rewrite (rec_items_nil _ _ Hit') in Hincl. apply incl_l_nil in Hincl. subst sent.
        destruct Hem as (_ & Ho3 & Hsg3 & _). cbn [map rev app on_sent_all fold_left] in *.
        split; congruence. }
      destruct Ho2 as (Ho2 & Hsg2).
      destruct ret2.
      { cbn [step_st]. intro H; injection H as <-. apply (SnFin _ _ fin); [exact Hexp|exact Hit|congruence]. }
      intro H. destruct (new_branch_spec cci _ _ _ H) as (sent & rest' & s3 & E & (Hf3 & Ho3 & _) & Hb & P & A1 & _).
      unfold new_items in E. rewrite Hsg2, (iter_none_nil _ _ Hit') in E.
      destruct sent; [|discriminate]. cbn [map rev app] in Ho3.
      apply (SnFin _ _ fin); [exact Hexp|exact Hit|congruence].
    + cbn [step_st]. intro H; injection H as <-.
      assert (Hs2 : step_st (rec_branch s1 h) = Some s2) by (rewrite Erb; reflexivity).
      destruct (rec_branch_spec _ _ _ Hs2) as [(_ & Hx & _)|(rc & sent & s1' & Eph & Hincl & Hem & P & A1 & A2 & _)];
        [rewrite Erb in Hx; discriminate|].
      rewrite (rec_items_nil _ _ Hit') in Hincl. apply incl_l_nil in Hincl. subst sent.
      destruct Hem as (_ & Ho3 & _). cbn [map rev app] in Ho3.
      apply (SnFin _ _ fin); [exact Hexp|exact Hit|congruence].
Qed.

Lemma new_items_sizes_pos (s : vsock) sent rest :
  segs_pos (v_segs s) -> new_items s = sent ++ rest -> Forall (fun f => 1 <= sg_size (fs_seg f)) sent.
Proof.
  intros Hp E. pose proof (iter_sizes_pos (v_segs s) (Some (wadd16 (v_last_sent_seq_nr s) 1)) Hp) as H.
  unfold new_items in E. rewrite E in H. exact (Forall_app_l _ _ _ H).
Qed.

Lemma fs_bytes_pos sent : Forall (fun f => 1 <= sg_size (fs_seg f)) sent -> sent <> [] -> 1 <= fs_bytes sent.
Proof.
  destruct sent as [|f r]; [congruence|]. intros H _. inversion H as [|? ? H1 H2]; subst.
  cbn [fs_bytes]. assert (0 <= fs_bytes r).
  { clear - H2. induction H2; cbn [fs_bytes]; lia. }
  lia.
Qed.

(* (a) the window clause, about one call of send_tx_queue outside loss recovery *)
Theorem new_data_le_window s s' :
  is_recovering (v_recovery s) = false -> 0 <= v_rto_retransmissions s -> segs_pos (v_segs s) ->
  step_st (send_tx_queue cci s) = Some s' ->
  exists new, v_out s' = new ++ v_out s /\
    ((timer_expired (v_t_retransmit s) (v_now s) = true /\ (length new <= 1)%nat /\
      (new <> [] -> iter_for_sending (v_segs s) None = [] \/
                    v_rto_retransmissions s' = v_rto_retransmissions s + 1)) \/
     (data_bytes new <= window_budget s /\
      (new = [] \/
       calc_flight_size (v_segs s) (v_last_sent_seq_nr s) + data_bytes new
         <= Z.min (cc_window cci (v_cc s)) (v_last_remote_window s)))).
Proof.
  intros Hnr Hcnt Hpos H.
  destruct (send_tx_queue_nonrec s s' Hnr Hcnt H) as [Ho|f rest Hexp Hit Ho Hr|fin Hexp Hit Ho|sent rest Hz E Ho Hok Hb].
  - exists []. split; [exact Ho|]. right. split; [cbn; unfold window_budget, sat_sub; lia|left; reflexivity].
  - exists [data_pkt s (outgoing_header s) f]. split; [exact Ho|]. left.
    split; [exact Hexp|]. split; [cbn; lia|]. intros _. right. exact Hr.
  - exists [fin_pkt (set_last_sent_seq_nr s (wsub16 fin 1)) fin]. split; [exact Ho|]. left.
    split; [exact Hexp|]. split; [cbn; lia|]. intros _. left. exact Hit.
  - exists (rev (map (data_pkt s (outgoing_header s)) sent)). split; [exact Ho|]. right.
    pose proof (new_items_sizes_pos s sent rest Hpos E) as Hsz.
    assert (Hsz0 : Forall (fun f => 0 <= sg_size (fs_seg f)) sent)
      by (eapply Forall_impl; [|exact Hsz]; cbn; intros; lia).
    rewrite (data_bytes_sent s _ sent Hok Hsz0).
    split; [exact Hb|].
    destruct sent as [|f0 r0]; [left; reflexivity|right].
    assert (1 <= fs_bytes (f0 :: r0)) by (apply fs_bytes_pos; [exact Hsz|discriminate]).
    unfold window_budget, sat_sub in Hb. lia.
Qed.

(* (b) a zero peer window: the new-data loop does not start *)
Theorem zero_window_silent s s' :
  v_last_remote_window s = 0 ->
  is_recovering (v_recovery s) = false -> 0 <= v_rto_retransmissions s -> segs_pos (v_segs s) ->
  step_st (send_tx_queue cci s) = Some s' ->
  v_out s' = v_out s \/
  (timer_expired (v_t_retransmit s) (v_now s) = true /\ exists p, v_out s' = p :: v_out s).
Proof.
  intros Hw Hnr Hcnt Hpos H.
  destruct (send_tx_queue_nonrec s s' Hnr Hcnt H) as [Ho|f rest Hexp Hit Ho Hr|fin Hexp Hit Ho|sent rest Hz E Ho Hok Hb].
  - left; exact Ho.
  - right. eauto.
  - right. eauto.
  - left. pose proof (new_items_sizes_pos s sent rest Hpos E) as Hsz.
    destruct sent as [|f0 r0]; [exact Ho|exfalso].
    assert (1 <= fs_bytes (f0 :: r0)) by (apply fs_bytes_pos; [exact Hsz|discriminate]).
    pose proof (calc_flight_nonneg (v_segs s) (v_last_sent_seq_nr s) Hpos).
    unfold window_budget, sat_sub in Hb. rewrite Hw in Hb. lia.
Qed.

Theorem zero_window_loop (s : vsock) h :
  segs_pos (v_segs s) -> new_data_loop (new_items s) s h 0 = SOk s None.
Proof. intro Hp. apply new_data_loop_zero. apply iter_sizes_pos. exact Hp. Qed.

Theorem zero_window_budget (s : vsock) :
  v_last_remote_window s = 0 -> is_recovering (v_recovery s) = false -> segs_pos (v_segs s) ->
  new_remaining cci s = 0.
Proof.
  intros Hw Hnr Hp. rewrite new_remaining_not_recovering by exact Hnr.
  pose proof (calc_flight_nonneg (v_segs s) (v_last_sent_seq_nr s) Hp).
  unfold window_budget, sat_sub. rewrite Hw. lia.
Qed.

(* (d) PARTIAL: whenever new data goes out outside recovery the counted flight stays within the
   congestion window; the Cubic-specific growth of that window is C15's subject *)
Theorem slow_start_bound_partial s s' :
  is_recovering (v_recovery s) = false -> 0 <= v_rto_retransmissions s -> segs_pos (v_segs s) ->
  timer_expired (v_t_retransmit s) (v_now s) = false ->
  step_st (send_tx_queue cci s) = Some s' ->
  exists new, v_out s' = new ++ v_out s /\
    (new = [] \/ calc_flight_size (v_segs s) (v_last_sent_seq_nr s) + data_bytes new
                   <= cc_window cci (v_cc s)).
Proof.
  intros Hnr Hcnt Hpos Hexp H.
  destruct (new_data_le_window s s' Hnr Hcnt Hpos H) as (new & Ho & [(Hx & _)|(_ & Hb)]); [congruence|].
  exists new. split; [exact Ho|]. destruct Hb as [Hb|Hb]; [left; exact Hb|right; lia].
Qed.

(* (a) the other way: in terms of what is truly outstanding *)
Theorem true_flight_le_window s s' k :
  is_recovering (v_recovery s) = false -> 0 <= v_rto_retransmissions s -> segs_pos (v_segs s) ->
  0 <= ss_snd_una (v_segs s) < M16 -> 0 <= k <= 1024 ->
  v_last_sent_seq_nr s = wsub16 (wadd16 (ss_snd_una (v_segs s)) k) 1 ->
  sent_prefix (ss_segs (v_segs s)) (Z.to_nat k) ->
  timer_expired (v_t_retransmit s) (v_now s) = false ->
  step_st (send_tx_queue cci s) = Some s' ->
  exists new, v_out s' = new ++ v_out s /\
    (new = [] \/
     true_flight (ss_segs (v_segs s)) + data_bytes new
       <= Z.min (cc_window cci (v_cc s)) (v_last_remote_window s)).
Proof.
  intros Hnr Hcnt Hpos Hu Hk Hls Hsp Hexp H.
  destruct (new_data_le_window s s' Hnr Hcnt Hpos H) as (new & Ho & [(Hx & _)|(_ & Hb)]); [congruence|].
  exists new. split; [exact Ho|]. destruct Hb as [Hb|Hb]; [left; exact Hb|right].
  rewrite <- (flight_size_exact (v_segs s) (v_last_sent_seq_nr s) k Hu Hk Hls Hsp). exact Hb.
Qed.

(* ---- the positive-size invariant of the table: what the segmentation loop enqueues ---- *)
Lemma enqueue_pos t len p : segs_pos t -> 1 <= len -> segs_pos (enqueue t len p).
Proof.
  unfold segs_pos, enqueue, Segments.set_segs; cbn [ss_segs]. intros H Hl.
  apply Forall_app. split; [exact H|]. constructor; [cbn [sg_size]; exact Hl|constructor].
Qed.

Lemma next_segment_size_ge ss ss1 sz :
  next_segment_size ss = Some (ss1, sz) -> min_ss ss1 = min_ss ss /\ (1 <= min_ss ss -> 1 <= sz).
Proof.
  unfold next_segment_size. destruct (cd_rem ss =? 0).
  - unfold bind, next_probe. cbn [min_ss max_ss np_diff np_half np_sum1 np_sum2].
    destruct (_ && _ && _) eqn:E; [|discriminate]. intro H; injection H as <- <-. cbn [min_ss].
    split; [reflexivity|]. intro H1.
    apply andb_prop in E. destruct E as [E _]. apply andb_prop in E. destruct E as [E _].
    unfold np_sum2, np_sum1, np_half, np_diff in *. cbn [min_ss max_ss] in *. lia.
  - intro H; injection H as <- <-. cbn [min_ss]. split; [reflexivity|auto].
Qed.

Lemma segment_loop_pos : forall fuel nagle ss segs rm rwr ss' segs' rm',
  1 <= min_ss ss -> segs_pos segs ->
  segment_loop fuel nagle ss segs rm rwr = Some (ss', segs', rm') ->
  segs_pos segs' /\ min_ss ss' = min_ss ss.
Proof.
  induction fuel as [|b fuel IH]; intros nagle ss segs rm rwr ss' segs' rm' Hm Hp; cbn [segment_loop].
  - intro H; injection H as <- <- <-. auto.
  - destruct ((0 <? rm) && (0 <? rwr)) eqn:Ec; [|intro H; injection H as <- <- <-; auto].
    apply andb_prop in Ec. destruct Ec as [Hr Hw]. apply Z.ltb_lt in Hr. apply Z.ltb_lt in Hw.
    destruct (next_segment_size ss) as [[ss1 sz]|] eqn:En; [|discriminate].
    destruct (next_segment_size_ge _ _ _ En) as [Hm1 Hsz]. specialize (Hsz Hm).
    assert (Hpay : 1 <= Z.min (Z.min sz rwr) rm) by (clear - Hr Hw Hsz; lia).
    destruct (nagle && _ && _).
    { intro H; injection H as <- <- <-. auto. }
    destruct (mss ss1 <? Z.min (Z.min sz rwr) rm).
    + intro H; injection H as <- <- <-. split; [apply enqueue_pos; assumption|exact Hm1].
    + intro H. assert (Hm1' : 1 <= min_ss ss1) by lia.
      destruct (IH _ _ _ _ _ _ _ _ Hm1' (enqueue_pos _ _ false Hp Hpay) H) as [A B].
      split; [exact A|lia].
Qed.

(* ---- (c) single-segment mode after a retransmission timeout ---- *)
(* the RTO part retransmitted the head: the counter becomes positive and that datagram is the only
   one of this call *)
Theorem after_rto_single s s' f rest :
  v_transport_pending s = false ->
  timer_expired (v_t_retransmit s) (v_now s) = true ->
  iter_for_sending (v_segs s) None = f :: rest ->
  0 <= v_rto_retransmissions s ->
  step_st (send_tx_queue cci s) = Some s' ->
  v_out s' = v_out s \/
  (v_out s' = data_pkt s (outgoing_header s) f :: v_out s /\
   v_rto_retransmissions s' = v_rto_retransmissions s + 1 /\ 0 < v_rto_retransmissions s' /\
   v_last_sent_seq_nr s' = fs_seq f).
Proof.
  intros Hp Hexp Hit Hcnt. rewrite send_tx_queue_eq, Hp.
  set (h := outgoing_header s).
  destruct (rto_branch cci s h) as [s1 ret|s1 e|] eqn:Er; cbn [sbind]; [| |discriminate].
  - assert (Hs : step_st (rto_branch cci s h) = Some s1) by (rewrite Er; reflexivity).
    pose proof (rto_branch_spec cci _ _ _ Hs) as Ho. rewrite Er in Ho.
    destruct Ho as [Ho Hf Hsg Hls Hne Hnq
                   | f' rest' _ Hit' Hr Ho Hok Hsg Hrto Hls Htx Hop Hnow Hrw Hst Hpr Htr _
                   | fin _ Hit' _ _ _ _ _ _ _ _ _ _ _ _ _].
    + (* send_data did not send (transport pending): the call returns *)
      destruct ret; [|exfalso; exact (Hnq _ _ Hexp Hit eq_refl)].
      cbn [after_rto_k step_st]. intro H; injection H as <-. left; exact Ho.
    + rewrite Hit in Hit'. injection Hit' as <- <-.
      destruct (after_rto_k_cases h s1 ret) as [->|(_ & Hz & _)]; [|exfalso; lia].
      cbn [step_st]. intro H; injection H as <-. right. repeat split; auto; lia.
    + rewrite Hit in Hit'. discriminate.
  - cbn [step_st]. intro H; injection H as <-.
    assert (Hs : step_st (rto_branch cci s h) = Some s1) by (rewrite Er; reflexivity).
    pose proof (rto_branch_spec cci _ _ _ Hs) as Ho. rewrite Er in Ho.
    destruct Ho as [Ho _ _ _ _ _
                   | f' rest' _ _ Hr _ _ _ _ _ _ _ _ _ _ _ _ _
                   | fin _ _ _ _ Hr _ _ _ _ _ _ _ _ _ _]; try discriminate.
    left; exact Ho.
Qed.

(* while the counter is positive a call emits at most the one datagram of the RTO part, only when
   the timer has expired again, and never lowers the counter *)
Theorem rto_mode_single s s' :
  0 < v_rto_retransmissions s ->
  step_st (send_tx_queue cci s) = Some s' ->
  v_rto_retransmissions s <= v_rto_retransmissions s' /\
  (v_out s' = v_out s \/
   (timer_expired (v_t_retransmit s) (v_now s) = true /\ exists p, v_out s' = p :: v_out s)).
Proof.
  intros Hcnt. rewrite send_tx_queue_eq.
  destruct (v_transport_pending s).
  { cbn [step_st]. intro H; injection H as <-. split; [lia|left; reflexivity]. }
  set (h := outgoing_header s).
  destruct (rto_branch cci s h) as [s1 ret|s1 e|] eqn:Er; cbn [sbind]; [| |discriminate].
  - assert (Hs : step_st (rto_branch cci s h) = Some s1) by (rewrite Er; reflexivity).
    pose proof (rto_branch_spec cci _ _ _ Hs) as Ho. rewrite Er in Ho.
    assert (Hret : forall sx, 0 < v_rto_retransmissions sx ->
              step_st (after_rto_k cci h sx ret) = Some s' -> s' = sx).
    { intros sx Hx. destruct (after_rto_k_cases h sx ret) as [->|(_ & Hz & _)]; [cbn [step_st]; congruence|lia]. }
    destruct Ho as [Ho Hf Hsg Hls Hne Hnq
                   | f' rest' Hexp Hit' Hr Ho Hok Hsg Hrto Hls Htx Hop Hnow Hrw Hst Hpr Htr _
                   | fin Hexp Hit' _ _ _ Ho _ Hrto _ _ _ _ _ _ _].
    + assert (Hc : v_rto_retransmissions s1 = v_rto_retransmissions s) by (unfold sd_frame in Hf; tauto).
      intro H. rewrite (Hret s1 ltac:(lia) H). split; [lia|left; exact Ho].
    + intro H. rewrite (Hret s1 ltac:(lia) H). split; [lia|right; eauto].
    + intro H. rewrite (Hret s1 ltac:(lia) H). split; [lia|right; eauto].
  - cbn [step_st]. intro H; injection H as <-.
    assert (Hs : step_st (rto_branch cci s h) = Some s1) by (rewrite Er; reflexivity).
    pose proof (rto_branch_spec cci _ _ _ Hs) as Ho. rewrite Er in Ho.
    destruct Ho as [Ho Hf _ _ _ _
                   | f' rest' _ _ Hr _ _ _ _ _ _ _ _ _ _ _ _ _
                   | fin _ _ _ _ Hr _ _ _ _ _ _ _ _ _ _]; try discriminate.
    assert (Hc : v_rto_retransmissions s1 = v_rto_retransmissions s) by (unfold sd_frame in Hf; tauto).
    split; [lia|left; exact Ho].
Qed.

(* ---- (c) continued: what resets the counter ---- *)
Lemma recv_loop_rto fuel s acc s' :
  step_st (recv_loop cci fuel s acc) = Some s' ->
  v_rto_retransmissions s' = v_rto_retransmissions s.
Proof. intro H. destruct (recv_loop_frame cci _ _ _ _ H) as (A & _). exact A. Qed.

(* the counter leaves process_all_incoming_messages unchanged, or is reset to zero, which happens
   only when the messages of this poll acknowledged (cumulatively or selectively) something new.
   Since the repair of D17 the bookkeeping also runs when the receive loop ended on the closed
   channel (`early` = true), so the reset is no longer confined to early = false. *)
Theorem rto_mode_exit_ack s s' :
  step_st (process_all_incoming_messages cci s) = Some s' ->
  v_rto_retransmissions s' = v_rto_retransmissions s \/
  (v_rto_retransmissions s' = 0 /\
   exists s1 r early,
     recv_loop cci (v_inbox s ++ [ {| m_hdr := outgoing_header s; m_payload := [] |} ]) s
               on_ack_result_default = SOk s1 (r, early) /\
     (0 < ar_acked_segments r \/ 0 < ar_newly_sacked_segments r)).
Proof.
  unfold process_all_incoming_messages.
  destruct (recv_loop cci _ s on_ack_result_default) as [s1 [r early]|s1 e|] eqn:El; cbn [sbind]; [| |discriminate].
  2:{ cbn [step_st]. intro H; injection H as <-. left. apply (recv_loop_rto _ _ _ _ ltac:(rewrite El; reflexivity)). }
  assert (H1 : v_rto_retransmissions s1 = v_rto_retransmissions s)
    by (apply (recv_loop_rto _ _ _ _ ltac:(rewrite El; reflexivity))).
  set (s2 := if (0 <? ar_acked_segments r) || (0 <? ar_newly_sacked_segments r) then _ else s1).
  assert (H2 : (v_rto_retransmissions s2 = v_rto_retransmissions s) \/
               (v_rto_retransmissions s2 = 0 /\ (0 < ar_acked_segments r \/ 0 < ar_newly_sacked_segments r))).
  { unfold s2. destruct ((0 <? ar_acked_segments r) || (0 <? ar_newly_sacked_segments r)) eqn:Ec; [|left; exact H1].
    right. split; [|lia].
    unfold restart_remote_inactivity_timer.
    destruct (ss_segs (v_segs (set_rto_retransmissions s1 0))); [destruct (our_fin_if_unacked _)|]; vsimpl; reflexivity. }
  clearbody s2.
  assert (Hfin : forall s3, v_rto_retransmissions s3 = v_rto_retransmissions s2 ->
            step_st (match rv_phase (v_recovery s3) with
                     | Recovering rc =>
                         match calc_pipe (v_segs s3) (rc_high_rxt rc) (v_last_sent_seq_nr s3)
                                         (roundtrip_time (v_rtte s3)) (v_now s3) with
                         | None => SPanic
                         | Some (segs', pipe, recalc) =>
                             SOk (set_recovering (set_segs s3 segs')
                                    {| rc_recovery_point := rc_recovery_point rc; rc_high_rxt := rc_high_rxt rc;
                                       rc_total_retx := rc_total_retx rc; rc_pipe := pipe; rc_recalc := recalc;
                                       rc_cwnd := rc_cwnd rc |}) tt
                         end
                     | _ => SOk s3 tt
                     end) = Some s' -> v_rto_retransmissions s' = v_rto_retransmissions s2).
  { intros s3 H3. destruct (rv_phase (v_recovery s3)); try (cbn [step_st]; intro H; injection H as <-; exact H3).
    destruct (calc_pipe _ _ _ _ _) as [[[segs' pipe] recalc]|]; [|discriminate].
    cbn [step_st]. intro H; injection H as <-. unfold set_recovering. vsimpl. exact H3. }
  assert (Hgoal : forall x : vsock, v_rto_retransmissions x = v_rto_retransmissions s2 ->
            v_rto_retransmissions x = v_rto_retransmissions s \/
            (v_rto_retransmissions x = 0 /\
             exists s1' r' early', SOk s1 (r, early) = SOk s1' (r', early') /\
               (0 < ar_acked_segments r' \/ 0 < ar_newly_sacked_segments r'))).
  { intros x Hx. destruct H2 as [H2|[H2 H2']]; [left; congruence|right]. split; [congruence|]. eauto. }
  destruct (0 <? ar_acked_segments r).
  - assert (Hb : v_rto_retransmissions (acked_counts_as_sent s2) = v_rto_retransmissions s2).
    { unfold acked_counts_as_sent. destruct (seq_gt _ _ && seq_lt _ _); vsimpl; reflexivity. }
    revert Hb. generalize (acked_counts_as_sent s2). intros s2b Hb.
    destruct (truncate_front (v_tx s2b) (ar_acked_bytes r)) as [tx1 tr]. destruct tr.
    + destruct (wake_writer tx1) as [tx2 w]. cbn [sbind]. cbv beta. intro H. apply Hgoal.
      eapply Hfin; [|exact H]. unfold add_wakes. vsimpl. exact Hb.
    + cbn [sbind step_st]. intro H; injection H as <-. apply Hgoal. vsimpl. exact Hb.
  - cbn [sbind]. cbv beta. intro H. apply Hgoal. eapply Hfin; [|exact H]. reflexivity.
Qed.

(* ---- what split_tx_queue_into_segments does to the sender ---- *)
(* a pop that gives the probe up was handed a true flag, and took an undelivered probe off the end *)
Lemma pop_expired_expired t b mr t' rw ps :
  pop_expired_mtu_probe t b mr = (t', PeExpired rw ps) ->
  b = true /\ exists init g, last_and_init (ss_segs t) = Some (init, g) /\ ss_segs t' = init /\
    sg_delivered g = false /\ sg_probe g = true /\ mr <= seg_retransmit_count g.
Proof.
  unfold pop_expired_mtu_probe. destruct (last_and_init _) as [[init g]|]; [|discriminate].
  destruct (sg_delivered g) eqn:Ed; [discriminate|].
  destruct (b && sg_probe g && (mr <=? seg_retransmit_count g)) eqn:Ec; [|destruct (sg_probe g); discriminate].
  apply andb_prop in Ec. destruct Ec as [Ec E3]. apply andb_prop in Ec. destruct Ec as [E1 E2].
  intro H; injection H as <- _ _. split; [exact E1|]. exists init, g. apply Z.leb_le in E3.
  repeat split; auto.
Qed.

Definition split_frame (s s' : vsock) : Prop :=
  v_out s' = v_out s /\ v_state s' = v_state s /\ v_cc s' = v_cc s /\
  v_last_remote_window s' = v_last_remote_window s /\ v_recovery s' = v_recovery s /\
  v_rtte s' = v_rtte s /\ v_transport_pending s' = v_transport_pending s /\ v_opts s' = v_opts s /\
  v_now s' = v_now s.

Definition snd_kept (s s' : vsock) : Prop :=
  v_rto_retransmissions s' = v_rto_retransmissions s /\ v_t_retransmit s' = v_t_retransmit s /\
  v_last_sent_seq_nr s' = v_last_sent_seq_nr s.

(* the table t2 and the segment sizes ss2 from which new segments are cut: those of s, or, when the MTU
   probe has used up its retransmissions, the table without it (counter reset, timer armed afresh) *)
Definition split_pre (s : vsock) (t2 : segments) (ss2 : segsizes) (s' : vsock) : Prop :=
  (t2 = v_segs s /\ ss2 = v_ss s /\ snd_kept s s') \/
  (exists rw ps,
     pop_expired_mtu_probe (v_segs s)
       (timer_expired (v_t_retransmit s) (v_now s) && negb (is_local_fin_or_later (v_state s)))
       (o_mtu_probe_max_retx (v_opts s)) = (t2, PeExpired rw ps) /\
     ss2 = on_probe_failed (v_ss s) ps /\ v_rto_retransmissions s' = 0 /\
     v_t_retransmit s' = match ss_segs t2 with
                         | [] => None
                         | _ => timer_arm (v_t_retransmit s) (v_now s) (retransmission_timeout (v_rtte s)) true
                         end).

(* ... and the table of s' is t2 itself, or what the segmentation loop made of it *)
Definition split_post (s : vsock) (m : step unit) : Prop :=
  match m with
  | SOk s' _ | SErr s' _ =>
      split_frame s s' /\ exists t2 ss2, split_pre s t2 ss2 s' /\
        ((v_segs s' = t2 /\ v_ss s' = ss2) \/
         exists fuel nagle rm rwr, segment_loop fuel nagle ss2 t2 rm rwr = Some (v_ss s', v_segs s', v_unsegmented s'))
  | SPanic => True
  end.

Lemma split_tx_spec (s : vsock) : split_post s (split_tx_queue_into_segments cci s).
Proof.
  unfold split_tx_queue_into_segments. cbv zeta.
  assert (Hid : forall s1 : vsock, split_frame s s1 -> v_segs s1 = v_segs s -> v_ss s1 = v_ss s -> snd_kept s s1 ->
            split_frame s s1 /\ exists t2 ss2, split_pre s t2 ss2 s1 /\
              ((v_segs s1 = t2 /\ v_ss s1 = ss2) \/
               exists fuel nagle rm rwr, segment_loop fuel nagle ss2 t2 rm rwr = Some (v_ss s1, v_segs s1, v_unsegmented s1))).
  { intros s1 F Es Ess K. split; [exact F|]. exists (v_segs s), (v_ss s). split; [left; auto|left; auto]. }
  destruct (_ =? 0); [apply Hid; repeat split|].
  match goal with |- context [is_remote_fin_or_later (v_state ?x)] =>
    assert (F : split_frame s x /\ v_segs x = v_segs s /\ v_ss x = v_ss s /\ snd_kept s x);
    [|revert F; generalize x; intros s1 F] end.
  { destruct (_ && _); [|repeat split]. destruct (grow _ _) as [tx1 g]. destruct g; [|repeat split].
    destruct (wake_writer tx1) as [tx2 w]. repeat split. }
  destruct F as (F & Es & Ess & K).
  destruct (is_remote_fin_or_later _); [apply Hid; assumption|].
  destruct (pop_expired_mtu_probe _ _ _) as [segs1 pe] eqn:Ep.
  assert (Hcont : forall tl (s2 : vsock), split_frame s s2 -> split_pre s (v_segs s2) (v_ss s2) s2 ->
    split_post s
      (if tl <? ss_len_bytes (v_segs s2) then SErr s2 (ErrBug BugInBufferComputations)
       else match segment_loop (ring (v_tx s2)) (o_nagle (v_opts s2)) (v_ss s2) (v_segs s2)
                    (tl - ss_len_bytes (v_segs s2)) (v_last_remote_window s2) with
            | Some (ss', segs', remaining) =>
                SOk (set_unsegmented (VSockRec.set_segs (set_ss s2 ss') segs') remaining) tt
            | None => SPanic
            end)).
  { intros tl s2 F2 P2. destruct (_ <? _).
    - split; [exact F2|]. exists (v_segs s2), (v_ss s2). split; [exact P2|left; auto].
    - destruct (segment_loop _ _ _ _ _ _) as [[[ss' segs'] rem]|] eqn:El; [|exact I].
      split; [exact F2|]. exists (v_segs s2), (v_ss s2). split; [exact P2|right]. do 4 eexists. exact El. }
  destruct F as (F1 & F2 & F3 & F4 & F5 & F6 & F7 & F8 & F9). destruct K as (K1 & K2 & K3).
  destruct pe as [rw ps| |].
  - rewrite Es, K2, F9, F2, F8 in Ep.
    apply Hcont.
    + destruct (seq_gt _ _); repeat split; assumption.
    + right. exists rw, ps. destruct (seq_gt _ _); vsimpl; rewrite Ess, K2, F9, F6; auto.
  - apply Hid; repeat split; assumption.
  - apply Hcont; [repeat split; assumption|left; repeat split; assumption].
Qed.

(* boundary B6: popping an expired MTU probe resets the counter too (the code treats that expiry as
   probe-failure detection, not as a retransmission timeout) *)
Theorem rto_mode_exit_probe s s' :
  step_st (split_tx_queue_into_segments cci s) = Some s' ->
  v_rto_retransmissions s' = v_rto_retransmissions s \/
  (v_rto_retransmissions s' = 0 /\
   exists (s1 : vsock) segs1 rw ps,
     pop_expired_mtu_probe (v_segs s1) (timer_expired (v_t_retransmit s1) (v_now s1))
                           (o_mtu_probe_max_retx (v_opts s1)) = (segs1, PeExpired rw ps)).
Proof.
  intro H. pose proof (split_tx_spec s) as Sp.
  destruct (split_tx_queue_into_segments cci s) as [s0 u|s0 e|]; [| |discriminate];
    injection H as <-; destruct Sp as (_ & t2 & ss2 & [(_ & _ & K & _)|(rw & ps & Ep & _ & C & _)] & _);
    try (left; exact K); right; (split; [exact C|]).
  (* (repair of D6) the flag handed to the pop is `expired && not local-fin`; a pop that gave the probe up had it true *)
  all: destruct (pop_expired_expired _ _ _ _ _ _ Ep) as [Fl _]; apply andb_prop in Fl; destruct Fl as [Fl1 Fl2];
    rewrite Fl2, andb_true_r in Ep; eauto.
Qed.

End WithCC.
