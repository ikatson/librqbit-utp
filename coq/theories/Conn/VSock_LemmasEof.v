(* Behind c02_eof_wakes: rx_inv of the receive half is an invariant of every reachable state, and
   once the connection has accepted the peer's in-sequence FIN (state LastAck) the reassembly queue
   holds something or the user queue is non-empty — the EOF marker is in one of them. *)
From Utp Require Import Base.Prelude Wire.SeqNr Wire.Header Rtt.Rtte Mtu.SegSizes Rx.Rx Rx.Rx_Proofs
  Tx.Ring Tx.Segments Conn.Recovery Conn.Msg Conn.VSockRec Conn.VSock Conn.VSockRun Conn.VObs
  Conn.VSock_LemmasTx Conn.VSock_Lemmas Conn.VSock_LemmasStep Conn.VSock_LemmasReach Conn.VSock_LemmasPark
  Conn.VSock_LemmasTimers Conn.VSock_LemmasPipe.

(* ------------------------------------------------------------------ Rx *)
Definition rxe (r : rx) : Prop := 0 < ooq_len r \/ q r <> [].

Lemma app_one_not_nil {A} (l : list A) x : l ++ [x] <> [].
Proof. destruct l; discriminate. Qed.

Lemma flush_loop_rxe : forall fuel s w fb fp s1 w1 fb1 fp1,
  flush_loop fuel s w fb fp = Some (s1, w1, fb1, fp1) -> rxe s -> rxe s1.
Proof.
  induction fuel as [|fuel IH]; intros s w fb fp s1 w1 fb1 fp1; cbn [flush_loop].
  - intro H; injection H as <- _ _ _. auto.
  - destruct (filled_front s =? 0); [intro H; injection H as <- _ _ _; auto|].
    destruct (ooq_data s) as [|m rest]; [discriminate|].
    destruct (w <? _); [intro H; injection H as <- _ _ _; auto|].
    destruct (reader_dropped s); [intro H; injection H as <- _ _ _; auto|].
    destruct (_ <? _); [discriminate|].
    intros H _. eapply IH; [exact H|]. right. rxs. apply app_one_not_nil.
Qed.

Lemma rx_flush_rxe r r' fr w : rx_flush r = (r', fr, w) -> rxe r -> rxe r'.
Proof.
  unfold rx_flush. intros H He.
  set (s0 := set_wakers r _ (reader_waker r) (last_remaining_rx_window r)) in *.
  assert (He0 : rxe s0) by exact He.
  destruct (flush_loop _ s0 _ 0 0) as [[[[s1 w1] fb] fp]|] eqn:E.
  - apply (flush_loop_rxe _ _ _ _ _ _ _ _ _ E) in He0.
    destruct (0 <? fp); injection H as <- _ _; exact He0.
  - injection H as <- _ _. exact He0.
Qed.

Lemma rx_add_remove_rxe r k p off r' ar w :
  rx_inv r -> rx_add_remove r k p off = (r', ar, w) -> rxe r -> rxe r'.
Proof.
  intros Hinv H He. unfold rx_add_remove in H.
  destruct (ooq_add_remove r k p off) as [s1 a] eqn:E.
  assert (He1 : rxe s1).
  { destruct (ooq_add_remove_cases _ _ _ _ _ _ E) as [[-> _]|(m & old & _ & _ & _ & _ & _ & Hs')]; [exact He|].
    cbv zeta in Hs'. destruct Hs' as [-> _]. left. rxs. pose proof (inv_ff_bounds r Hinv). lia. }
  destruct a; try (injection H as <- _ _; exact He1).
  destruct (_ && _); [|injection H as <- _ _; exact He1].
  destruct (rx_flush s1) as [[s2 fr] w2] eqn:Ef.
  apply (rx_flush_rxe _ _ _ _ Ef) in He1. destruct fr; injection H as <- _ _; exact He1.
Qed.

(* the in-sequence FIN: afterwards the reassembly queue is not empty, or the flush moved it on *)
Lemma rx_add_fin_rxe r p r' a w :
  rx_inv r -> rx_add_remove r KFin p 0 = (r', UarOk a, w) ->
  a <> ArErrBugMissingSlot -> rxe r'.
Proof.
  intros Hinv H Ha. pose proof (inv_ff_bounds r Hinv) as Hb.
  destruct Hinv as (Hlen & Hcap & Hff & Hl & Hrest).
  unfold rx_add_remove in H. destruct (ooq_add_remove r KFin p 0) as [s1 a0] eqn:E.
  assert (He1 : rxe s1 /\ a0 <> ArErrBugMissingSlot \/ a0 = ArErrBugMissingSlot).
  { unfold ooq_add_remove in E. destruct (ooq_is_full r) eqn:Ef.
    { injection E as <- <-. left. split; [|discriminate]. left. unfold ooq_is_full in Ef. lia. }
    destruct (Z.leb_spec (Z.of_nat (length (ooq_data r))) (0 + filled_front r)) as [Hge|Hlt].
    { injection E as <- <-. left. split; [|discriminate]. left. lia. }
    destruct (nth_error (ooq_data r) (Z.to_nat (0 + filled_front r))) as [old|] eqn:En;
      [|injection E as <- <-; right; reflexivity].
    destruct (slot_is_default old) eqn:Eo; cbn [negb] in E.
    - destruct (take_while_filled _) as [n b]. injection E as <- <-. left. split; [|discriminate].
      left. rxs. lia.
    - (* the slot at filled_front is a hole *)
      exfalso. assert (Hh : slot_is_default (nth (Z.to_nat (filled_front r)) (ooq_data r) slot_default) = true).
      { rewrite Hff. apply twf_n_hole. rewrite <- Hff. lia. }
      replace (0 + filled_front r) with (filled_front r) in En by lia.
      rewrite (nth_error_nth _ _ slot_default En) in Hh. congruence. }
  destruct He1 as [[He1 Hn0]|He1]; [|subst a0].
  - destruct a0; try (injection H as <- <- _; exact He1).
    destruct (_ && _); [|injection H as <- <- _; exact He1].
    destruct (rx_flush s1) as [[s2 fr] w2] eqn:Ef.
    apply (rx_flush_rxe _ _ _ _ Ef) in He1. destruct fr; [|discriminate]. injection H as <- _ _; exact He1.
  - injection H as _ <- _. congruence.
Qed.

(* rx_inv through the dispatcher-side and the application-side operations *)
Lemma rx_dop_inv d r r' w : rx_dop d r r' w -> rx_inv r -> rx_inv r'.
Proof.
  intros H Hinv. destruct H.
  - exact (proj1 (rx_flush_spec _ _ _ _ Hinv H)).
  - exact (proj1 (rx_add_remove_spec _ _ _ _ _ _ _ Hinv H H0)).
  - assert (Hst : rx_step r OMarkClosed = (r', OutUnit, w)) by (cbn [rx_step]; rewrite H0; reflexivity).
    exact (proj1 (rx_step_spec r OMarkClosed r' OutUnit w Hinv I Hst)).
  - assert (Hst : rx_step r OEnqueueError = (r', OutUnit, w)) by (cbn [rx_step]; rewrite H0; reflexivity).
    exact (proj1 (rx_step_spec r OEnqueueError r' OutUnit w Hinv I Hst)).
Qed.

Section WithCC.
Context {CC : Type} (cci : cc_iface CC).
Notation vsock := (vsock CC).

Definition rxi (s : vsock) : Prop := rx_inv (v_rx s).

Lemma rxi_reach : forall d t (s s' : vsock), reach d t s s' -> rxi s -> rxi s'.
Proof.
  intros d t s s' H. induction H; unfold rxi in *; intro K.
  - exact K.
  - auto.
  - rewrite H. exact K.
  - eapply rx_dop_inv; eassumption.
  - rewrite H0. exact K.
  - rewrite H0. exact K.
Qed.

Theorem rxi_vstep : forall (s : vsock) o, rxi s -> rxi (vstep_state cci s o).
Proof.
  intros s o Hp. unfold vstep_state. destruct o; cbn [vstep];
    try (repeat match goal with |- context [if ?c then _ else _] => destruct c end;
         repeat match goal with |- context [let '(_, _) := ?t in _] => destruct t end;
         cbn [fst]; exact Hp).
  - destruct (poll cci (VSockRec.set_sends s script)) as [s' r] eqn:E. cbn [fst].
    apply poll_reach in E. eapply rxi_reach; [exact E|]. exact Hp.
  - destruct (reader_dropped (v_rx s)); [exact Hp|].
    destruct (rx_read (v_rx s) n) as [[rx1 r] w] eqn:E. cbn [fst].
    exact (proj1 (rx_read_spec _ _ _ _ _ Hp E)).
  - destruct (reader_dropped (v_rx s)) eqn:Ed; [exact Hp|].
    destruct (rx_drop_reader (v_rx s)) as [rx1 w] eqn:E. cbn [fst].
    assert (Hst : rx_step (v_rx s) ODropReader = (rx1, OutUnit, w)) by (cbn [rx_step]; rewrite Ed, E; reflexivity).
    exact (proj1 (rx_step_spec (v_rx s) ODropReader rx1 OutUnit w Hp I Hst)).
Qed.

Lemma rxi_vsock_new : forall mk c s, 0 < vc_rx_buf c -> vsock_new cci mk c = Some s -> rxi s.
Proof.
  intros mk c s Hb H. unfold vsock_new in H.
  destruct (match (if vc_incoming c then None else _) with Some r => _ | None => _ end); [|discriminate].
  assert (Hm : 0 < mss (ss_new {| cfg_ipv4 := vc_ipv4 c; cfg_link_mtu := vc_link_mtu c; cfg_cooldown := 3 |})).
  { apply Z.lt_le_trans with 1; [lia | apply mss_ss_new_pos]. }
  inversion H; subst. unfold rxi. cbn [v_rx]. apply build_inv; [exact Hm | exact Hb].
Qed.

(* ------------------------------------------------------------------ the FIN in sequence *)
Lemma seq_sub_same : forall x, seq_sub x x = 0.
Proof. intros x. unfold seq_sub, seq_nr_offset. rewrite Z.ltb_irrefl, Z.eqb_refl. reflexivity. Qed.

Definition isLA (st : vstate) : bool := match st with LastAck _ _ => true | _ => false end.

Definition hh (s : vsock) : Prop := rxi s /\ (isLA (v_state s) = true -> rxe (v_rx s)).
Definition hhR (s s' : vsock) : Prop := hh s -> hh s'.

Lemma hhR_refl : forall s, hhR s s. Proof. intros s H; exact H. Qed.
Lemma hhR_trans : forall a b c, hhR a b -> hhR b c -> hhR a c.
Proof. intros a b c H1 H2 H. auto. Qed.

Notation sth := (stR hhR).

Lemma hh_same : forall (s s' : vsock),
  v_rx s' = v_rx s -> (isLA (v_state s') = true -> isLA (v_state s) = true) -> hhR s s'.
Proof. intros s s' E1 E2 [H1 H2]. unfold hh, rxi. rewrite E1. split; auto. Qed.

Lemma txf_hh : forall s s', txf s s' -> hhR s s'.
Proof.
  intros s s' (A1 & _ & _ & _ & _ & _ & A7 & _). apply hh_same; [exact A1|]. rewrite A7. auto.
Qed.

Lemma stf_sth : forall X (s : vsock) (m : step X), stR txf s m -> sth s m.
Proof. intros X s m H. destruct m; cbn [stR] in *; auto using txf_hh. Qed.

Ltac hh_same_tac := apply hh_same; [exact eq_refl | let K := fresh in intro K; exact K].

(* segmentation touches neither the receive half nor the state *)
Definition srx (s s' : vsock) : Prop := v_rx s' = v_rx s /\ v_state s' = v_state s.

Lemma split_srx : forall (s : vsock), stR srx s (split_tx_queue_into_segments cci s).
Proof.
  assert (Hrefl : forall a : vsock, srx a a) by (intro a; split; reflexivity).
  assert (Htrans : forall a b c : vsock, srx a b -> srx b c -> srx a c).
  { intros a b c [A1 A2] [B1 B2]. split; congruence. }
  apply (split_tx_queue_into_segments_R cci srx Hrefl Htrans); intros;
    unfold probe_given_up; try destruct (seq_gt _ _); split; exact eq_refl.
Qed.

(* the table creates LastAck only for the peer's in-sequence FIN *)
Lemma state_table_la : forall (s : vsock) h,
  match state_table s h with
  | TblDrop s1 | TblErr s1 _ =>
      v_rx s1 = v_rx s /\ (isLA (v_state s1) = true -> isLA (v_state s) = true)
  | TblContinue s1 =>
      v_rx s1 = v_rx s /\ v_last_consumed s1 = v_last_consumed s /\
      ((isLA (v_state s1) = true -> isLA (v_state s) = true) \/
       (ch_type h = ST_FIN /\ is_remote_fin_or_later (v_state s) = false /\
        ch_seq h = wadd16 (v_last_consumed s) 1))
  end.
Proof.
  intros s h. unfold state_table, restart_remote_inactivity_timer.
  destruct (ch_type h) eqn:Et; destruct (v_state s) eqn:Est;
    repeat match goal with
    | |- context [if negb (?a =? ?b) then _ else _] => destruct (Z.eqb_spec a b); cbn [negb]
    | |- context [if ?c then _ else _] => destruct c
    | |- context [match ?c with _ => _ end] => destruct c
    end;
    vsimpl_goal; rewrite ?Est; cbn [isLA is_remote_fin_or_later];
    repeat split; auto; try (left; intro HLA; discriminate HLA); try (intro HLA; discriminate HLA);
    try (right; repeat split; auto; fail).
Qed.

Lemma hh_of : forall r st (x : vsock),
  v_rx x = r -> v_state x = st -> rx_inv r -> (isLA st = true -> rxe r) -> hh x.
Proof. intros r st x E1 E2 H1 H2. unfold hh, rxi. rewrite E1, E2. auto. Qed.

Lemma process_incoming_message_hh : forall (s : vsock) m,
  hh s -> stU hh (process_incoming_message cci s m).
Proof.
  intros s m Hh. revert Hh. unfold process_incoming_message.
  pose proof (state_table_la s (m_hdr m)) as T.
  destruct (state_table s (m_hdr m)) as [s1|s1 e|s1]; cbn [stU]; auto.
  - intros [H1 H2]. destruct T as [T1 T2]. unfold hh, rxi. rewrite T1. split; auto.
  - intros [H1 H2]. destruct T as (T1 & T2 & T3).
    destruct (remove_up_to_ack _ _ _ _) as [segs1 res].
    destruct (match is_recovering _, _ with | false, Some rtt => _ | _, _ => _ end) as [rtte1|]; [|exact I].
    destruct (cc_on_ack _ _ _ _ _) as [cc3|]; [|exact I].
    destruct (recovery_on_ack _ _ _ _ _ _ _ _) as [[[rec1 segs2] cc4]|]; [|exact I].
    match goal with |- context [seq_sub _ (wadd16 (v_last_consumed ?x) 1)] =>
      assert (F2 : v_rx x = v_rx s /\ v_state x = v_state s1 /\ v_last_consumed x = v_last_consumed s);
      [|revert F2; generalize x; intros s2 F2] end.
    { split; [exact T1|]. split; [exact eq_refl | exact T2]. }
    destruct F2 as (R2 & S2 & C2).
    assert (Hold : forall x : vsock, v_rx x = v_rx s -> v_state x = v_state s1 ->
                   (isLA (v_state s1) = true -> isLA (v_state s) = true) -> hh x).
    { intros x Ex Es Hla. unfold hh, rxi. rewrite Ex, Es. split; auto. }
    destruct (ch_type (m_hdr m)) eqn:Et.
    + (* ST_DATA *)
      assert (Hla : isLA (v_state s1) = true -> isLA (v_state s) = true).
      { destruct T3 as [T3|(T3 & _)]; [exact T3|discriminate]. }
      destruct (_ <? 0) eqn:Eoff; [cbn [stU]; unfold force_immediate_ack; apply Hold; [exact R2 | exact S2 | exact Hla]|].
      match goal with |- context [rx_add_remove (v_rx ?x)] =>
        assert (F3 : v_rx x = v_rx s /\ v_state x = v_state s1); [|revert F3; generalize x; intros s3 F3] end.
      { split; [exact R2 | exact S2]. }
      destruct F3 as [R3 S3].
      match goal with |- context [rx_add_remove _ _ _ ?off] => assert (Hoff : 0 <= off) by lia end.
      destruct (rx_add_remove _ _ _ _) as [[rx1 ar] w] eqn:Ea. rewrite R3 in Ea.
      assert (I1 : rx_inv rx1) by exact (proj1 (rx_add_remove_spec _ _ _ _ _ _ _ H1 Hoff Ea)).
      assert (E1 : isLA (v_state s1) = true -> rxe rx1).
      { intro K. eapply rx_add_remove_rxe; [exact H1 | exact Ea | auto]. }
      assert (Hnew : forall x : vsock, v_rx x = rx1 -> v_state x = v_state s1 -> hh x).
      { intros x Ex Es. unfold hh, rxi. rewrite Ex, Es. split; auto. }
      assert (F4 : v_rx (add_wakes (set_rx s3 rx1) (rx_wakes w)) = rx1 /\
                   v_state (add_wakes (set_rx s3 rx1) (rx_wakes w)) = v_state s1).
      { split; [exact eq_refl | exact S3]. }
      revert F4. generalize (add_wakes (set_rx s3 rx1) (rx_wakes w)). intros s4 F4.
      destruct F4 as [R4 S4].
      destruct ar as [r|]; [|exact I].
      destruct (add_err r); [exact I|].
      match goal with |- context [send_ack (force_immediate_ack ?x)] =>
        assert (F5 : v_rx x = rx1 /\ v_state x = v_state s1); [|revert F5; generalize x; intros s5 F5] end.
      { unfold restart_remote_inactivity_timer. destruct r; (split; [exact R4 | exact S4]). }
      destruct F5 as [R5 S5].
      destruct (_ || _); [|cbn [stU]; apply Hnew; assumption].
      pose proof (send_ack_txf (force_immediate_ack s5)) as X.
      destruct (send_ack (force_immediate_ack s5)) as [s6 b| |]; cbn [sbind stU stR] in *; auto.
      destruct X as (X1 & _ & _ & _ & _ & _ & X7 & _). apply Hnew; [rewrite X1; exact R5 | rewrite X7; exact S5].
    + (* ST_FIN *)
      destruct (negb (is_remote_fin_or_later (v_state s)) && _) eqn:Eb.
      * apply andb_true_iff in Eb. destruct Eb as [Eb1 Eb2]. apply negb_true_iff in Eb1.
        match goal with |- context [rx_add_remove (v_rx ?x)] =>
          assert (F3 : v_rx x = v_rx s /\ v_state x = v_state s1); [|revert F3; generalize x; intros s4 F3] end.
        { split; [exact R2 | exact S2]. }
        destruct F3 as [R3 S3].
        match goal with |- context [rx_add_remove _ _ _ ?off] => assert (Hoff : 0 <= off) by lia end.
        destruct (rx_add_remove _ _ _ _) as [[rx1 ar] w] eqn:Ea. rewrite R3 in Ea.
        assert (I1 : rx_inv rx1) by exact (proj1 (rx_add_remove_spec _ _ _ _ _ _ _ H1 Hoff Ea)).
        destruct ar as [r|]; [|exact I].
        destruct (add_err r) eqn:Ee; [exact I|].
        destruct (mark_vsock_closed _) as [tx1 w2]. cbn [stU].
        apply (hh_of rx1 (v_state s1)); [exact eq_refl | exact S3 | exact I1|].
        intro K.
        destruct T3 as [T3|(_ & _ & T3)].
        -- (* LastAck before: the FIN had been seen *)
           specialize (T3 K). destruct (v_state s); discriminate.
        -- (* the in-sequence FIN *)
           assert (Ez : seq_sub (ch_seq (m_hdr m)) (wadd16 (v_last_consumed s2) 1) = 0)
             by (rewrite C2, T3; apply seq_sub_same).
           rewrite Ez in Ea. eapply rx_add_fin_rxe; [exact H1 | exact Ea|].
           intro Hr. rewrite Hr in Ee. discriminate.
      * cbn [stU]. unfold force_immediate_ack. apply Hold; [exact R2 | exact S2 |].
        destruct T3 as [T3|(_ & T3 & T4)]; [exact T3|].
        (* a new LastAck needs the branch above *)
        exfalso. rewrite T3 in Eb. cbn [negb andb] in Eb.
        assert (Ez : seq_sub (ch_seq (m_hdr m)) (wadd16 (v_last_consumed s2) 1) = 0)
          by (rewrite C2, T4; apply seq_sub_same).
        rewrite Ez in Eb. discriminate.
    + cbn [stU]. apply Hold; auto. destruct T3 as [T3|(T3 & _)]; [exact T3|discriminate].
    + cbn [stU]. apply Hold; auto. destruct T3 as [T3|(T3 & _)]; [exact T3|discriminate].
    + cbn [stU]. apply Hold; auto. destruct T3 as [T3|(T3 & _)]; [exact T3|discriminate].
Qed.

Lemma transition_to_fin_wait_1_hh : forall (s : vsock), hhR s (transition_to_fin_wait_1 s).
Proof.
  intros s. unfold transition_to_fin_wait_1.
  destruct (v_state s) eqn:Est; try apply hhR_refl;
    (apply hh_same; [exact eq_refl | intro K; discriminate K]).
Qed.

Lemma recv_loop_hh : forall fuel (s : vsock) acc, hh s -> stU hh (recv_loop cci fuel s acc).
Proof.
  assert (Hclosed : forall (s : vsock) (acc : on_ack_result), hh s ->
    stU hh (sbind (maybe_send_fin (transition_to_fin_wait_1 s))
                  (fun s2 _ => SOk (set_state s2 Closed) (acc, true)))).
  { intros s acc Hh. apply transition_to_fin_wait_1_hh in Hh.
    pose proof (maybe_send_fin_txf (transition_to_fin_wait_1 s)) as X.
    destruct (maybe_send_fin _) as [s2 b| |]; cbn [sbind stU stR] in *; auto.
    apply (txf_hh _ _ X) in Hh. revert Hh. apply hh_same; [exact eq_refl | intro K; discriminate K]. }
  induction fuel as [|x fuel IH]; intros s acc Hh.
  - cbn [recv_loop]. destruct (v_inbox s).
    + destruct (v_inbox_closed s); [apply Hclosed; exact Hh|]. cbn [stU]. exact Hh.
    + exact I.
  - cbn [recv_loop]. destruct (v_inbox s) as [|m rest].
    + destruct (v_inbox_closed s); [apply Hclosed; exact Hh|]. cbn [stU]. exact Hh.
    + assert (Hh' : hh (set_inbox s rest)) by exact Hh.
      pose proof (process_incoming_message_hh (set_inbox s rest) m Hh') as P.
      destruct (process_incoming_message cci (set_inbox s rest) m) as [s1 r| |]; cbn [sbind stU] in *; auto.
      destruct (_ || _); [exact P|]. apply IH. exact P.
Qed.

Lemma process_all_incoming_messages_hh : forall (s : vsock),
  hh s -> stU hh (process_all_incoming_messages cci s).
Proof.
  intros s Hh. rewrite paim_eq.
  pose proof (recv_loop_hh (v_inbox s ++ [ {| m_hdr := outgoing_header s; m_payload := [] |} ]) s
                on_ack_result_default Hh) as P.
  destruct (recv_loop _ _ _ _) as [s1 res| |]; cbn [sbind stU] in *; auto.
  pose proof (paim_rest_pst s1 (fst res)) as Q.
  destruct (paim_rest s1 (fst res)) as [s2 u| |]; cbn [stU stR] in *; auto.
  destruct Q as (Q1 & _ & _ & _ & _ & _ & _ & _ & _ & Q10). revert P.
  apply hh_same; [exact Q10 | rewrite Q1; auto].
Qed.

Lemma maybe_send_syn_ack_hh : forall (s : vsock), sth s (maybe_send_syn_ack s).
Proof.
  apply (maybe_send_syn_ack_by hhR hhR_refl hhR_trans).
  - intro s. apply stf_sth, send_ack_txf.
  - intros s c. apply hh_same; [exact eq_refl | intro K; discriminate K].
  - intro s. hh_same_tac.
Qed.

Lemma rx_flush_hh : forall (s : vsock) rx1 fb w,
  rx_flush (v_rx s) = (rx1, FlOk fb, w) -> hh s -> hh (add_wakes (set_rx s rx1) (rx_wakes w)).
Proof.
  intros s rx1 fb w E [H1 H2].
  apply (hh_of rx1 (v_state s)); [exact eq_refl | exact eq_refl | |].
  - exact (proj1 (rx_flush_spec _ _ _ _ H1 E)).
  - intro K. eapply rx_flush_rxe; [exact E | auto].
Qed.

(* after every poll that returns Pending *)
Theorem poll_hh : forall (s s' : vsock),
  hh s -> poll cci s = (s', PollPending) -> hh s'.
Proof.
  intros s s' Hh H.
  assert (PS : pend_shape hhR (poll_init s) s').
  { apply (poll_Rp cci hhR hhR_refl hhR_trans); try exact H.
    - intros a K. exact K.
    - intros a. apply stR_stRk, maybe_send_syn_ack_hh.
    - intros a. apply stR_stRk, stf_sth, send_ack_txf.
    - intros a. pose proof (process_all_incoming_messages_hh a) as P.
      destruct (process_all_incoming_messages cci a); cbn [stRk stU] in *; auto.
    - intros a rx1 fb w E K. eapply rx_flush_hh; [exact E | exact K].
    - intros a. pose proof (split_srx a) as P.
      destruct (split_tx_queue_into_segments cci a) as [b u|b e|]; cbn [stRk stR] in *; auto.
      destruct P as [P1 P2]. apply hh_same; [exact P1 | rewrite P2; auto].
    - intros a. apply stR_stRk, stf_sth, send_tx_queue_txf.
    - apply transition_to_fin_wait_1_hh.
    - intros a. apply stR_stRk, stf_sth, maybe_send_fin_txf.
    - intros a. apply stR_stRk, stf_sth, maybe_send_ack_txf. }
  assert (Hi : hh (poll_init s)) by exact Hh.
  destruct PS as [[_ R]|(sa & sb & b & R1 & _ & R2 & _ & _ & _ & E)]; [exact (R Hi)|].
  rewrite E. destruct (poll_tail_fields sb) as (_ & _ & F3 & F4 & _).
  generalize (R2 (R1 Hi)). apply hh_same; [exact F3 | rewrite F4; auto].
Qed.

End WithCC.
