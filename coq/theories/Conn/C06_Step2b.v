(* C06, trace level: guarded c06_stable_plen_ok (Conn/C06_Pred3.v c06_stable_plen_ok_g). *)
From Utp Require Conn.VSock_Inv.
From Utp Require Import Base.Prelude Wire.SeqNr Wire.SeqNr_Proofs Wire.Header Rtt.Rtte Rtt.Rtte_Proofs
  Mtu.SegSizes Rx.Rx Tx.Ring Tx.Ring_Proofs Tx.Segments Tx.Segments_Proofs Tx.Segments_ProofsOut
  Conn.Recovery Conn.Msg Conn.VSockRec Conn.VSock Conn.VSockRun Conn.VObs
  Conn.VSock_Lemmas Conn.VSock_LemmasStep Conn.VSock_LemmasReach Conn.VSock_LemmasTx
  Conn.VSock_LemmasIn Conn.VSock_LemmasTimers Conn.VSock_LemmasPipe Conn.C17_StepLemmas
  Conn.C10_Pred Conn.C05_Pred Conn.C06_Pred Conn.C0506_Pred2 Conn.C06_Pred2 Conn.C06_Pred3 Conn.C06_RecProofs
  Conn.C06_StepLemmas Conn.C06_StepLemmas2 Conn.C06_StepLemmas3 Conn.C10_Proofs Conn.C06_Step.

(* ------------------------------------------------------------------ the map, against one fingerprint *)
Definition pmap := list (Z * (Z * bool)).

(* every number of the map is named by the table, and the entry agrees with the size on record unless the
   record is that of a probe *)
Definition consistent (g : fseg) (pl : Z) (pr : bool) : Prop :=
  pr = true \/ (fg_size g = pl /\ fg_probe g = false).
Definition MInv (m : pmap) (f : vfp) : Prop :=
  forall q pl pr, assoc_z q m = Some (pl, pr) ->
    exists g, fseg_of_seq f q = Some g /\ consistent g pl pr.
(* the weak form: the numbers the table names agree *)
Definition MW (m : pmap) (f : vfp) : Prop :=
  forall q pl pr g, assoc_z q m = Some (pl, pr) -> fseg_of_seq f q = Some g -> consistent g pl pr.

(* how two tables relate across one poll, as the fingerprints show it: a number named before and after names
   a segment of the same size, not a probe, unless it named a probe before *)
Definition TS (f f' : vfp) : Prop :=
  forall q g g', fseg_of_seq f q = Some g -> fseg_of_seq f' q = Some g' ->
    fg_probe g = true \/ (fg_size g' = fg_size g /\ fg_probe g' = false).

Lemma MInv_TS_MW : forall m f f', MInv m f -> TS f f' -> MW m f'.
Proof.
  intros m f f' Hi Ht q pl pr g' Ha Hn. destruct (Hi q pl pr Ha) as (g & Hg & [Hc|[Hc1 Hc2]]).
  - left. exact Hc.
  - destruct (Ht q g g' Hg Hn) as [K|[K1 K2]]; [congruence|]. right. split; congruence.
Qed.

Lemma assoc_z_filter : forall (P : Z -> bool) (m : pmap) q,
  assoc_z q (filter (fun e : Z * (Z * bool) => P (fst e)) m) = if P q then assoc_z q m else None.
Proof.
  intros P. induction m as [|[k v] r IH]; intro q; cbn [filter assoc_z fst].
  - destruct (P q); reflexivity.
  - destruct (P k) eqn:Ek; cbn [assoc_z].
    + destruct (Z.eqb_spec q k) as [->|Hne]; [rewrite Ek; reflexivity | apply IH].
    + rewrite IH. destruct (Z.eqb_spec q k) as [->|Hne]; [rewrite Ek; reflexivity | reflexivity].
Qed.

Lemma MW_filter_MInv : forall m f,
  MW m f -> MInv (filter (fun e : Z * (Z * bool) => seq_named f (fst e)) m) f.
Proof.
  intros m f Hw q pl pr Ha. rewrite (assoc_z_filter (seq_named f)) in Ha. unfold seq_named in Ha.
  destruct (fseg_of_seq f q) as [g|] eqn:Eg; [|discriminate]. exists g. split; [reflexivity|].
  eapply Hw; eauto.
Qed.

(* one poll's packets folded into the map: every data packet names a segment of its size *)
Lemma stable_step_MW : forall (st : fstep) sc r pkts w a,
  fs_event st = FePoll sc -> fs_result st = FrPoll r pkts w a ->
  (forall p, In p pkts -> fq_is_data p = true ->
     exists g, fseg_of_seq (fs_post st) (ch_seq (fq_hdr p)) = Some g /\ fg_size g = fq_plen p) ->
  forall m, MW m (fs_post st) ->
  fst (stable_step m st) = true /\ MW (snd (stable_step m st)) (fs_post st).
Proof.
  intros st sc r pkts w a Hev Hres Hp m Hm. unfold stable_step. rewrite Hev, Hres.
  match goal with |- context [fold_left ?f _ _] => set (F := f) end.
  assert (HF : forall ok m p, F (ok, m) p =
    if fq_is_data p then
      (ok && match assoc_z (ch_seq (fq_hdr p)) m with
             | Some (pl, was_probe) => (pl =? fq_plen p) || was_probe
             | None => true
             end,
       (ch_seq (fq_hdr p), (fq_plen p,
          match fseg_of_seq (fs_post st) (ch_seq (fq_hdr p)) with Some g => fg_probe g | None => false end)) :: m)
    else (ok, m)) by reflexivity.
  clearbody F. clear Hres. revert m Hm.
  assert (G : forall ok, ok = true -> forall m, MW m (fs_post st) ->
    fst (fold_left F pkts (ok, m)) = true /\ MW (snd (fold_left F pkts (ok, m))) (fs_post st)).
  { revert Hp. induction pkts as [|p rest IH]; intros Hp ok Hok m Hm; cbn [fold_left].
    - split; [exact Hok | exact Hm].
    - rewrite HF. destruct (fq_is_data p) eqn:Ed.
      + destruct (Hp p (or_introl eq_refl) Ed) as (g0 & Hg0 & Hsz0).
        destruct (fseg_of_seq (fs_post st) (ch_seq (fq_hdr p))) as [g|] eqn:Hg; [|discriminate].
        assert (Hsz : fg_size g = fq_plen p) by congruence. clear g0 Hg0 Hsz0.
        apply IH.
        * intros p' Hin. apply Hp. right. exact Hin.
        * subst ok. cbn [andb]. destruct (assoc_z (ch_seq (fq_hdr p)) m) as [[pl wp]|] eqn:Ea; [|reflexivity].
          destruct (Hm _ _ _ g Ea Hg) as [K|[K1 K2]].
          -- rewrite K. apply orb_true_r.
          -- rewrite <- K1, Hsz, Z.eqb_refl. reflexivity.
        * intros q pl pr g0 Ha Hn. cbn [assoc_z] in Ha.
          destruct (Z.eqb_spec q (ch_seq (fq_hdr p))) as [->|Hne].
          -- injection Ha as <- <-. rewrite Hg in Hn. injection Hn as <-.
             unfold consistent. destruct (fg_probe g); [left; reflexivity | right; split; [exact Hsz | reflexivity]].
          -- eapply Hm; eauto.
      + apply IH; [intros p' Hin; apply Hp; right; exact Hin | exact Hok | exact Hm]. }
  intros m Hm. apply G; [reflexivity | exact Hm].
Qed.

Section WithCC.
Context {CC : Type} (cci : cc_iface CC).
Notation vsock := (vsock CC).

(* what the packets of a poll name (Conn/C06_StepLemmas.v OUT) in the fingerprint *)
Lemma OUT_named : forall (s' : vsock),
  seg_inv (v_segs s') -> OUT s' -> tol_ok (fp_of_vsock cci s') = true ->
  forall p, In p (map fpacket_of (rev (v_out s'))) -> fq_is_data p = true ->
    exists g, fseg_of_seq (fp_of_vsock cci s') (ch_seq (fq_hdr p)) = Some g /\ fg_size g = fq_plen p.
Proof.
  intros s' Hinv Hout Ht x Hx Hd.
  apply in_map_iff in Hx. destruct Hx as (p & <- & Hp). apply in_rev in Hp.
  unfold OUT in Hout. rewrite Forall_forall in Hout. specialize (Hout p Hp).
  assert (Hty : ch_type (p_hdr p) = ST_DATA).
  { unfold fq_is_data, fpacket_of in Hd. cbn [fq_hdr] in Hd. destruct (ch_type (p_hdr p)); try discriminate; reflexivity. }
  destruct (Hout Hty) as (j & g & A1 & A2 & A3 & A4 & A5 & A6).
  exists (fseg_of g). unfold fpacket_of. cbn [fq_hdr fq_plen]. rewrite A2. split.
  - apply (fseg_of_seq_table cci s' j g Hinv Ht A1).
  - unfold fseg_of. cbn [fg_size]. exact A5.
Qed.

Lemma MInv_segs : forall m (s s' : vsock), v_segs s' = v_segs s ->
  MInv m (fp_of_vsock cci s) -> MInv m (fp_of_vsock cci s').
Proof.
  intros m s s' E H q pl pr Ha. destruct (H q pl pr Ha) as (g & Hg & Hc). exists g. split; [|exact Hc].
  unfold fseg_of_seq in *. cbn [fp_of_vsock f_segs f_snd_una] in *. rewrite E. exact Hg.
Qed.

(* ---- TS from a relation between the two tables in the style of DM (Conn/C06_StepLemmas2.v): d entries
   dropped from the front, what stays keeps size and probe flag unless it was a probe *)
Definition SMl (d : nat) (l0 l : list seg) : Prop :=
  forall i g g', nth_error l0 (d + i) = Some g -> nth_error l i = Some g' ->
    sg_probe g = true \/ (sg_size g' = sg_size g /\ sg_probe g' = false).
Definition SM (t0 t : segments) : Prop :=
  exists d, (d <= length (ss_segs t0))%nat /\
    ss_snd_una t = wadd16 (ss_snd_una t0) (Z.of_nat d mod M16) /\ SMl d (ss_segs t0) (ss_segs t).

Lemma seq_sub_cong : forall a b, (seq_sub a b - (a - b)) mod M16 = 0.
Proof.
  intros a b. unfold seq_sub, seq_nr_offset, WRAP_TOLERANCE, wsub16, M16.
  destruct (a <? b); [destruct (_ <=? _); lia|].
  destruct (Z.eqb_spec a b); [lia|]. destruct (_ <=? _); lia.
Qed.

Lemma SM_TS : forall (s s' : vsock),
  SM (v_segs s) (v_segs s') ->
  tol_ok (fp_of_vsock cci s) = true -> tol_ok (fp_of_vsock cci s') = true ->
  TS (fp_of_vsock cci s) (fp_of_vsock cci s').
Proof.
  intros s s' (d & Hd & Hu & Hl) Ht Ht' q g g'. unfold tol_ok, fseg_of_seq in *.
  cbn [fp_of_vsock f_segs f_snd_una] in *. rewrite ?map_length in *.
  apply Z.leb_le in Ht. apply Z.leb_le in Ht'.
  pose proof (seq_sub_cong q (ss_snd_una (v_segs s))) as C1.
  pose proof (seq_sub_cong q (ss_snd_una (v_segs s'))) as C2.
  set (k := seq_sub q (ss_snd_una (v_segs s))) in *.
  set (k' := seq_sub q (ss_snd_una (v_segs s'))) in *. clearbody k k'.
  intros E1 E2.
  destruct ((0 <=? k) && (k <? Z.of_nat (length (ss_segs (v_segs s))))) eqn:R1; [|discriminate].
  destruct ((0 <=? k') && (k' <? Z.of_nat (length (ss_segs (v_segs s'))))) eqn:R2; [|discriminate].
  apply andb_true_iff in R1. destruct R1 as [R1a R1b]. apply Z.leb_le in R1a. apply Z.ltb_lt in R1b.
  apply andb_true_iff in R2. destruct R2 as [R2a R2b]. apply Z.leb_le in R2a. apply Z.ltb_lt in R2b.
  assert (Hk : k = Z.of_nat d + k').
  { rewrite Hu in C2. unfold wadd16, M16 in *. lia. }
  rewrite nth_error_map in E1, E2.
  destruct (nth_error (ss_segs (v_segs s)) (Z.to_nat k)) as [x|] eqn:N1; [|discriminate].
  destruct (nth_error (ss_segs (v_segs s')) (Z.to_nat k')) as [x'|] eqn:N2; [|discriminate].
  cbn [option_map] in E1, E2. injection E1 as <-. injection E2 as <-.
  assert (Hn : Z.to_nat k = (d + Z.to_nat k')%nat) by (clear - Hk R2a; lia).
  rewrite Hn in N1.
  unfold fseg_of. cbn [fg_probe fg_size]. exact (Hl _ _ _ N1 N2).
Qed.

(* the step of the tables over one poll that the transport cannot answer with EMSGSIZE *)
Definition TSH : Prop :=
  forall (s s' : vsock) r, LB 0 s -> EF s -> poll cci s = (s', r) ->
    tol_ok (fp_of_vsock cci s) = true -> tol_ok (fp_of_vsock cci s') = true ->
    TS (fp_of_vsock cci s) (fp_of_vsock cci s').

Theorem stable_trace_g_partial : TSH ->
  forall ops (s : vsock) m, LB 0 s -> MInv m (fp_of_vsock cci s) ->
    stable_trace_g (v_emsg_limit s) m (ftrace cci s ops) = true.
Proof.
  intros HT. induction ops as [|o rest IH]; intros s m HL Hm; [reflexivity|].
  rewrite ftrace_cons'. cbn [stable_trace_g].
  assert (Hn : lim_next (v_emsg_limit s) (fstep_of cci s o) = v_emsg_limit (vstep_state cci s o)).
  { unfold lim_next. rewrite fstep_of_event, vstep_limit. destruct o; reflexivity. }
  rewrite Hn.
  assert (HL' : LB 0 (vstep_state cci s o)) by (apply (vstep_LB cci s o HL)).
  assert (Hnp : (forall sc, o <> VoPoll sc) ->
    (let '(ok, acc') := stable_step_g (v_emsg_limit s) m (fstep_of cci s o) in
     ok && stable_trace_g (v_emsg_limit (vstep_state cci s o)) acc'
             (if poll_finished (vstep_out cci s o) then [] else ftrace cci (vstep_state cci s o) rest)) = true).
  { intro Ho. unfold stable_step_g. rewrite fstep_of_event.
    pose proof (vstep_nonpoll_segs cci s o) as Hs.
    destruct o; cbn [fevent_of andb]; try (destruct (poll_finished _); [reflexivity|];
      apply IH; [exact HL' | eapply MInv_segs; [exact Hs | exact Hm]]).
    exfalso. eapply Ho. reflexivity. }
  destruct o; try (apply Hnp; discriminate).
  clear Hnp. rename script into sc.
  destruct (poll cci (VSockRec.set_sends s sc)) as [s' r] eqn:E.
  destruct (vstep_poll cci s sc s' r E) as [Es _]. rewrite Es in *.
  rewrite (fstep_of_poll cci s sc s' r E). unfold stable_step_g, poll_noemsg.
  cbn [fs_event fs_pre fs_post].
  assert (Hrest : forall m', MInv m' (fp_of_vsock cci s') ->
    stable_trace_g (v_emsg_limit s') m'
      (if poll_finished (vstep_out cci s (VoPoll sc)) then [] else ftrace cci s' rest) = true).
  { intros m' Hm'. destruct (poll_finished _); [reflexivity|]. apply IH; assumption. }
  assert (Hnil : MInv [] (fp_of_vsock cci s')) by (intros q pl pr Ha; discriminate).
  destruct (script_legit sc) eqn:Esc; [|cbn [andb]; apply Hrest; exact Hnil].
  destruct (v_emsg_limit s) eqn:El; [cbn [andb]; apply Hrest; exact Hnil|].
  destruct (tol_ok (fp_of_vsock cci s)) eqn:Et; [|cbn [andb]; apply Hrest; exact Hnil].
  destruct (tol_ok (fp_of_vsock cci s')) eqn:Et'; [|cbn [andb]; apply Hrest; exact Hnil].
  cbn [andb].
  set (st := {| fs_now := v_env_now s'; fs_pre := fp_of_vsock cci s; fs_event := FePoll sc;
                fs_result := FrPoll r (map fpacket_of (rev (v_out s'))) (rev (v_wakes s')) (v_arm_in s');
                fs_disp_woken := false; fs_self_woken := false; fs_post := fp_of_vsock cci s' |}).
  assert (HL0 : LB 0 (VSockRec.set_sends s sc)) by (eapply LB_kp; [exact HL|]; unfold kp; auto).
  assert (HE : EF (VSockRec.set_sends s sc)) by (split; [exact Esc | exact El]).
  pose proof (poll_OUT_DM_strict_all cci _ _ _ HL0 HE E) as HO.
  assert (Hpk : forall p, In p (map fpacket_of (rev (v_out s'))) -> fq_is_data p = true ->
     exists g, fseg_of_seq (fp_of_vsock cci s') (ch_seq (fq_hdr p)) = Some g /\ fg_size g = fq_plen p).
  { destruct r; try (apply OUT_named; [apply HL' | apply HO | exact Et']).
    rewrite HO. cbn [rev map]. intros p []. }
  assert (Hts : TS (fp_of_vsock cci s) (fp_of_vsock cci s')).
  { change (fp_of_vsock cci s) with (fp_of_vsock cci (VSockRec.set_sends s sc)).
    apply (HT _ _ r HL0 HE E); [exact Et | exact Et']. }
  pose proof (MInv_TS_MW _ _ _ Hm Hts) as Hw.
  destruct (stable_step_MW st sc r _ _ _ eq_refl eq_refl Hpk m Hw) as [K1 K2].
  destruct (stable_step m st) as [ok m1]. cbn [fst snd] in K1, K2. subst ok. cbn [andb].
  apply Hrest. apply (MW_filter_MInv m1 (fp_of_vsock cci s') K2).
Qed.

(* PARTIAL: every trace from vsock_new satisfies the guarded predicate, GIVEN the table step TSH.
   What is missing is TSH itself: over one EMSGSIZE-free poll from an LB state, a sequence number named by the
   table before and after names a segment of the same size that is not a probe, unless it named a probe before.
   It is the size/probe analogue of DM (Conn/C06_StepLemmas2.v poll_OUT_DM_strict_all: d entries dropped from the
   front, delivered ones stay delivered) and has the same proof skeleton (poll_H with pim_rule / send_tx_queue_rule);
   the leaves it needs and that do not exist yet: sack_phase, recovery_on_ack, calc_pipe/pipe_loop and on_sent keep
   sg_size and sg_probe pointwise (Forall2), strip_delivered drops a prefix, pop_expired_mtu_probe removes only a
   last entry with sg_probe = true, enqueue/segment_loop append; then the index shift d + k between the two tables
   has to be carried through seq_sub (both tables within the tolerance: d + k <= 2048). *)
Theorem c06_stable_plen_ok_g_partial : TSH ->
  forall cfg mk c (s0 : vsock) ops,
    vconfig_ok c = true -> vsock_new cci mk c = Some s0 ->
    c06_stable_plen_ok_g cfg (ftrace cci s0 ops) = true.
Proof.
  intros HT cfg mk c s0 ops Hc H0. unfold c06_stable_plen_ok_g.
  rewrite <- (vsock_new_limit cci _ _ _ H0). apply (stable_trace_g_partial HT).
  - eapply vsock_new_LB; eassumption.
  - intros q pl pr Ha. discriminate.
Qed.

(* the same, with the missing piece stated on the tables (the form a poll_H proof would produce; SM_TS carries it
   through seq_sub).  To prove SMH along the skeleton of poll_OUT_DM_strict_all the running relation has to be
   SM strengthened by "every entry of the first table at an index >= d + length of the current table is a probe"
   (those are the popped ones: pop_expired_mtu_probe pops only a last entry with sg_probe = true, and the segment
   enqueued afterwards at that index may have another size). *)
Definition SMH : Prop :=
  forall (s s' : vsock) r, LB 0 s -> EF s -> poll cci s = (s', r) -> SM (v_segs s) (v_segs s').

Lemma SMH_TSH : SMH -> TSH.
Proof. intros H s s' r HL HE E Ht Ht'. apply SM_TS; [eapply H; eauto | exact Ht | exact Ht']. Qed.

Theorem c06_stable_plen_ok_g_partial_SM : SMH ->
  forall cfg mk c (s0 : vsock) ops,
    vconfig_ok c = true -> vsock_new cci mk c = Some s0 ->
    c06_stable_plen_ok_g cfg (ftrace cci s0 ops) = true.
Proof. intro H. apply c06_stable_plen_ok_g_partial. apply SMH_TSH. exact H. Qed.

(* ---- unconditional: within one poll (map reset at every poll) ---- *)
Theorem c06_stable_plen_poll_poll : forall cfg (s : vsock) sc,
  LB 0 s -> v_emsg_limit s = None -> script_legit sc = true ->
  c06_stable_plen_poll cfg (fstep_of cci s (VoPoll sc)) = true.
Proof.
  intros cfg s sc HL Hl Hs. unfold c06_stable_plen_poll.
  destruct (poll cci (VSockRec.set_sends s sc)) as [s' r] eqn:E.
  rewrite (fstep_of_poll cci s sc s' r E). cbn [fs_post].
  destruct (tol_ok (fp_of_vsock cci s')) eqn:Et'; [|reflexivity].
  match goal with |- fst (stable_step [] ?x) = true => set (st := x) end.
  assert (HL0 : LB 0 (VSockRec.set_sends s sc)) by (eapply LB_kp; [exact HL|]; unfold kp; auto).
  assert (HE : EF (VSockRec.set_sends s sc)) by (split; [exact Hs | exact Hl]).
  pose proof (poll_LB cci _ HL0) as HL'. rewrite E in HL'. cbn [fst] in HL'.
  pose proof (poll_OUT_DM_strict_all cci _ _ _ HL0 HE E) as HO.
  assert (Hpk : forall p, In p (map fpacket_of (rev (v_out s'))) -> fq_is_data p = true ->
     exists g, fseg_of_seq (fp_of_vsock cci s') (ch_seq (fq_hdr p)) = Some g /\ fg_size g = fq_plen p).
  { destruct r; try (apply OUT_named; [apply HL' | apply HO | exact Et']).
    rewrite HO. cbn [rev map]. intros p []. }
  assert (Hnil : MW [] (fs_post st)) by (intros q pl pr g Ha; discriminate).
  destruct (stable_step_MW st sc r _ _ _ eq_refl eq_refl Hpk [] Hnil) as [K1 _]. exact K1.
Qed.

Theorem c06_stable_plen_poll_other : forall cfg (s : vsock) o,
  (forall sc, o <> VoPoll sc) -> c06_stable_plen_poll cfg (fstep_of cci s o) = true.
Proof.
  intros cfg s o Hnp. unfold c06_stable_plen_poll. destruct (tol_ok _); [|reflexivity].
  unfold stable_step. rewrite fstep_of_event.
  destruct o; try reflexivity. exfalso. eapply Hnp. reflexivity.
Qed.

Theorem c06_stable_plen_ok_p_trace : forall cfg mk c (s0 : vsock) ops,
  vconfig_ok c = true -> vsock_new cci mk c = Some s0 ->
  c06_stable_plen_ok_p cfg (ftrace cci s0 ops) = true.
Proof.
  intros cfg mk c s0 ops Hc H0. unfold c06_stable_plen_ok_p.
  rewrite <- (vsock_new_limit cci _ _ _ H0). apply noemsg_scan_ok.
  - apply c06_stable_plen_poll_other.
  - apply c06_stable_plen_poll_poll.
  - eapply vsock_new_LB; eassumption.
Qed.

End WithCC.

Print Assumptions c06_stable_plen_ok_g_partial.
Print Assumptions c06_stable_plen_ok_g_partial_SM.
Print Assumptions SM_TS.

(* ------------------------------------------------------------------ non-vacuity: the scenario of
   backoff_cap_nonvacuous (Conn/C06_Step.v: one segment, retransmitted by five expiries of the timer): every poll
   meets the guard of stable_step_g, the same sequence number goes out several times (so the map is consulted),
   and both the guarded and the original predicate hold *)
Definition data_seqs (tr : list fstep) : list Z :=
  flat_map (fun st => match fs_result st with
                      | FrPoll _ pkts _ _ => map (fun p => ch_seq (fq_hdr p)) (filter fq_is_data pkts)
                      | _ => []
                      end) tr.

Lemma stable_plen_g_nonvacuous :
  exists w cfg ops,
    vconfig_ok cfg = true /\ Forall op_msg_ok ops /\
    forallb (fun st => poll_noemsg None st && tol_ok (fs_pre st) && tol_ok (fs_post st)) (wtrace w cfg ops) = true /\
    (6 <=? Z.of_nat (length (data_seqs (wtrace w cfg ops)))) = true /\
    forallb (fun q => q =? 101) (data_seqs (wtrace w cfg ops)) = true /\
    c06_stable_plen_ok_g cfg (wtrace w cfg ops) = true /\
    c06_stable_plen_ok cfg (wtrace w cfg ops) = true.
Proof.
  exists 1000, nv_cfg, nv_rto_ops.
  split; [vm_compute; reflexivity|]. split; [repeat constructor|].
  repeat split; vm_compute; reflexivity.
Qed.

(* the per-poll form on the same scenario: every poll meets its guard, data goes out in six of them *)
Lemma stable_plen_p_nonvacuous :
  exists w cfg ops,
    vconfig_ok cfg = true /\ Forall op_msg_ok ops /\
    forallb (fun st => poll_noemsg None st && tol_ok (fs_post st)) (wtrace w cfg ops) = true /\
    (6 <=? Z.of_nat (length (data_seqs (wtrace w cfg ops)))) = true /\
    c06_stable_plen_ok_p cfg (wtrace w cfg ops) = true.
Proof.
  exists 1000, nv_cfg, nv_rto_ops.
  split; [vm_compute; reflexivity|]. split; [repeat constructor|].
  repeat split; vm_compute; reflexivity.
Qed.
