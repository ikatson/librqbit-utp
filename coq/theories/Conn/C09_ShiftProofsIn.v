(* C09 trace shift, layer 3: the receiving side of the connection model (state table,
   process_incoming_message, the receive loop and its bookkeeping) commutes with the relabelling,
   and the relabelled state is inside the guard again. *)
From Utp Require Import Base.Prelude Wire.SeqNr Wire.SeqNr_Proofs Wire.Header Rtt.Rtte Mtu.SegSizes Rx.Rx Tx.Ring
  Tx.Segments Conn.Recovery Conn.Msg Conn.VSockRec Conn.VSock Conn.VSockRun Conn.VObs Conn.VSock_LemmasIn
  Conn.C09_Pred Conn.C09_Shift Conn.C09_ShiftProofsSeq Conn.C09_ShiftProofsSeg Conn.C09_ShiftProofsRec
  Conn.C09_ShiftProofsTx.

Section In.
Variables da db dc : Z.
Context {CC : Type} (cci : cc_iface CC).
Notation vsock := (vsock CC).
Notation sh := (shift_vsock da db dc (CC:=CC)).
Notation so := (shift_out_hdr da db dc).
Notation si := (shift_in_hdr da db).
Notation sm := (shift_msg da db).
Notation sst := (shift_step da db dc (CC:=CC)).

Ltac fin := rewrite ?sh16_wadd16, ?sh16_wsub16; reflexivity.
Ltac eqs :=
  shproj; rewrite ?sh16_wsub16, ?sh16_wadd16;
  rewrite ?(sh16_eqb da), ?(sh16_eqb db)
    by (assumption || apply u16_ok_wsub16 || apply u16_ok_wadd16).

Lemma state_table_shift (s : vsock) h : g_state_table s h = true ->
  state_table (sh s) (si h) = shift_table_res da db dc (state_table s h).
Proof.
  unfold g_state_table. intros G.
  apply andb_true_iff in G as [G G3]. apply andb_true_iff in G as [Ga Gs].
  unfold state_table. cbn [shift_in_hdr ch_type ch_ack ch_seq]. shproj.
  revert G3.
  destruct (v_state s) as [|c| |f| |f r|]; cbn [shift_state]; intros G3;
    destruct (ch_type h); try reflexivity; eqs.
  (* SynAckSent, DATA and STATE: only ack_nr is tested, against seq_nr - 1 *)
  1,3: destruct (negb (ch_ack h =? wsub16 (v_seq_nr s) 1)); reflexivity.
  (* FIN in SynAckSent, Established, FinWait2: only seq_nr is tested, against last_consumed + 1 *)
  1,2,6: destruct (negb (ch_seq h =? wadd16 (v_last_consumed s) 1)); fin.
  (* LastAck, DATA / STATE / FIN: ack_nr against our FIN, then seq_nr against the remote FIN *)
  4-6: apply andb_true_iff in G3 as [Gf Gr]; eqs; rewrite (cmp_ok_seq_gt db _ _ Gr);
    destruct (ch_ack h =? f); [reflexivity|]; destruct (seq_gt (ch_seq h) r); reflexivity.
  - (* FinWait1 *) apply andb_true_iff in G3 as [Gf Gl]. eqs. destruct (ch_ack h =? f); reflexivity.
  - apply andb_true_iff in G3 as [Gf Gl]. eqs.
    destruct (negb (ch_seq h =? wadd16 (v_last_consumed s) 1)); [reflexivity|].
    destruct (ch_ack h =? f); reflexivity.
  - apply andb_true_iff in G3 as [Gf Gl]. eqs. destruct (ch_ack h =? f); [|reflexivity].
    rewrite (seq_sub_eq1_shift db _ _ Gs Gl).
    destruct (seq_sub (ch_seq h) (v_last_consumed s) =? 1); reflexivity.
  - (* LastAck, RESET *) apply andb_true_iff in G3 as [Gf Gr]. eqs.
    destruct (ch_ack h =? f); reflexivity.
Qed.

Lemma g_state_table_shift (s : vsock) h : g_state_table s h = true -> g_state_table (sh s) (si h) = true.
Proof.
  unfold g_state_table. cbn [shift_in_hdr ch_ack ch_seq]. shproj. rewrite !u16_ok_sh16. cbn [andb].
  intros G. apply andb_true_iff in G as [_ G].
  destruct (v_state s); cbn [shift_state]; try reflexivity.
  - now rewrite !u16_ok_sh16.
  - apply andb_true_iff in G as [_ G]. now rewrite u16_ok_sh16, (cmp_ok_shift db _ _ G).
Qed.

Definition shift_ackres (r : option (vsock * on_ack_result)) : option (vsock * on_ack_result) :=
  match r with Some (s2, res) => Some (sh s2, res) | None => None end.

Lemma pim_ack_shift (s1 : vsock) h :
  g_remove_up_to_ack (v_segs s1) (ch_ack h) (ch_sack h) = true ->
  g_recovery_on_ack (v_recovery s1) h
    (fst (remove_up_to_ack (v_segs s1) (v_now s1) (ch_ack h) (ch_sack h))) (v_last_sent_seq_nr s1) = true ->
  pim_ack cci (sh s1) (si h) = shift_ackres (pim_ack cci s1 h).
Proof.
  intros G1 G2. unfold pim_ack.
  shproj. cbn [shift_in_hdr ch_ack ch_sack ch_wnd ch_ts].
  rewrite (remove_up_to_ack_shift da _ _ _ _ G1).
  destruct (remove_up_to_ack (v_segs s1) (v_now s1) (ch_ack h) (ch_sack h)) as [segs1 res].
  cbn [fst snd] in *.
  rewrite is_recovering_shift. shproj.
  destruct (match is_recovering (v_recovery s1) with true => _ | false => _ end) as [rtte1|]; [|reflexivity].
  destruct (cc_on_ack cci _ _ _ _) as [cc3|]; [|reflexivity].
  shproj.
  fold (si h). rewrite (recovery_on_ack_shift cci da db _ _ _ _ _ _ _ G2).
  destruct (recovery_on_ack cci _ _ _ _ _ _ _) as [[[rec1 segs2] cc4]|]; reflexivity.
Qed.

Lemma pim_ack_last_consumed (s1 : vsock) h s2 res :
  pim_ack cci s1 h = Some (s2, res) -> v_last_consumed s2 = v_last_consumed s1.
Proof.
  unfold pim_ack.
  destruct (remove_up_to_ack (v_segs s1) (v_now s1) (ch_ack h) (ch_sack h)) as [segs1 r0].
  destruct (match is_recovering (v_recovery s1) with true => _ | false => _ end) as [rtte1|]; [|discriminate].
  destruct (cc_on_ack cci _ _ _ _) as [cc3|]; [|discriminate].
  destruct (recovery_on_ack cci _ _ _ _ _ _ _) as [[[rec1 segs2] cc4]|]; [|discriminate].
  intros H. injection H as <- _. reflexivity.
Qed.

Lemma pim_data_shift (s2 : vsock) m res offset :
  pim_data cci (sh s2) (sm m) res offset = sst idf (pim_data cci s2 m res offset).
Proof.
  unfold pim_data. destruct (offset <? 0); [reflexivity|].
  cbn [shift_msg m_payload]. shproj.
  rewrite st_ss, st_cc. shproj.
  set (s3 := set_cc (set_ss s2 _) _).
  destruct (rx_add_remove (v_rx s3) KData (m_payload m) offset) as [[rx1 ar] w].
  rewrite st_rx, add_wakes_shift.
  set (s4 := add_wakes (set_rx s3 rx1) (rx_wakes w)).
  destruct ar as [r|]; [|reflexivity].
  destruct (add_err r); [reflexivity|].
  set (s5' := match r with ArConsumed n bytes => _ | _ => sh s4 end).
  set (s5 := match r with ArConsumed n bytes => _ | _ => s4 end).
  assert (E : s5' = sh s5).
  { unfold s5', s5. destruct r; try reflexivity.
    shproj. rewrite sh16_wadd16. reflexivity. }
  rewrite E. clear E s5'. shproj.
  destruct (negb (ooq_is_empty (v_rx s5)) || negb (ooq_is_empty (v_rx s2))); [|reflexivity].
  rewrite force_immediate_ack_shift.
  eapply (sbind_shift da db dc idf idf). { apply send_ack_shift. }
  intros s6 a _. reflexivity.
Qed.

Lemma pim_fin_shift (s2 : vsock) m res offset seen :
  pim_fin (sh s2) (sm m) res offset seen = sst idf (pim_fin s2 m res offset seen).
Proof.
  unfold pim_fin. cbn [shift_msg m_hdr m_payload]. rewrite force_immediate_ack_shift.
  destruct (negb seen && (0 <=? offset)); [|reflexivity].
  cbn [shift_in_hdr ch_seq]. rewrite st_last_consumed. shproj.
  set (s4 := set_last_consumed _ _).
  destruct (rx_add_remove (v_rx s4) KFin (m_payload m) offset) as [[rx1 ar] w].
  rewrite st_rx, add_wakes_shift.
  destruct ar as [r|]; [|reflexivity].
  destruct (add_err r); [reflexivity|].
  destruct (mark_vsock_closed _) as [tx1 w2]. reflexivity.
Qed.

Lemma pim_cont_shift (s1 : vsock) m seen :
  g_remove_up_to_ack (v_segs s1) (ch_ack (m_hdr m)) (ch_sack (m_hdr m)) = true ->
  g_recovery_on_ack (v_recovery s1) (m_hdr m)
    (fst (remove_up_to_ack (v_segs s1) (v_now s1) (ch_ack (m_hdr m)) (ch_sack (m_hdr m))))
    (v_last_sent_seq_nr s1) = true ->
  cmp_ok (ch_seq (m_hdr m)) (wadd16 (v_last_consumed s1) 1) = true ->
  pim_cont cci (sh s1) (sm m) seen = sst idf (pim_cont cci s1 m seen).
Proof.
  intros G1 G2 G3. unfold pim_cont. cbn [shift_msg m_hdr].
  rewrite (pim_ack_shift s1 (m_hdr m) G1 G2).
  destruct (pim_ack cci s1 (m_hdr m)) as [[s2 res]|] eqn:E; [|reflexivity].
  apply pim_ack_last_consumed in E. cbn [shift_ackres].
  cbn [shift_in_hdr ch_seq ch_type].
  shproj. rewrite sh16_wadd16, E, (cmp_ok_seq_sub db _ _ G3).
  fold (si (m_hdr m)). change {| m_hdr := si (m_hdr m); m_payload := m_payload m |} with (sm m).
  destruct (ch_type (m_hdr m)); try reflexivity.
  - apply pim_data_shift.
  - apply pim_fin_shift.
Qed.

Lemma pim_shift (s : vsock) m : g_pim s m = true ->
  process_incoming_message cci (sh s) (sm m) = sst idf (process_incoming_message cci s m).
Proof.
  unfold g_pim. intros G. apply andb_true_iff in G as [G1 G2].
  rewrite !process_incoming_message_eq. cbn [shift_msg m_hdr].
  rewrite (state_table_shift s _ G1). shproj. rewrite is_remote_fin_shift.
  destruct (state_table s (m_hdr m)) as [s1|s1 e|s1]; cbn [shift_table_res]; [reflexivity|reflexivity|].
  apply andb_true_iff in G2 as [G2 G5]. apply andb_true_iff in G2 as [G3 G4].
  now apply pim_cont_shift.
Qed.

Lemma g_pim_shift (s : vsock) m : g_pim s m = true -> g_pim (sh s) (sm m) = true.
Proof.
  unfold g_pim. cbv zeta. cbn [shift_msg m_hdr]. intros G. apply andb_true_iff in G as [G1 G2].
  rewrite (g_state_table_shift s _ G1), (state_table_shift s _ G1). cbn [andb].
  destruct (state_table s (m_hdr m)) as [s1|s1 e|s1]; cbn [shift_table_res]; [reflexivity|reflexivity|].
  apply andb_true_iff in G2 as [G2 G5]. apply andb_true_iff in G2 as [G3 G4].
  shproj.
  cbn [shift_in_hdr ch_ack ch_sack ch_seq].
  rewrite (g_remove_up_to_ack_shift da _ _ _ G3), (remove_up_to_ack_shift da _ _ _ _ G3). cbn [fst andb].
  fold (si (m_hdr m)).
  rewrite (g_recovery_on_ack_shift da db _ _ _ _ G4). cbn [andb].
  rewrite sh16_wadd16. now apply cmp_ok_shift.
Qed.

Lemma transition_to_fin_wait_1_shift (s : vsock) :
  transition_to_fin_wait_1 (sh s) = sh (transition_to_fin_wait_1 s).
Proof.
  unfold transition_to_fin_wait_1. shproj.
  destruct (v_state s); cbn [shift_state]; shproj; rewrite ?sh16_wadd16; reflexivity.
Qed.

Lemma recv_loop_shift : forall fuel fuel' (s : vsock) acc,
  length fuel' = length fuel -> g_recv_loop cci fuel s = true ->
  recv_loop cci fuel' (sh s) acc = sst idf (recv_loop cci fuel s acc) /\
  g_recv_loop cci fuel' (sh s) = true.
Proof.
  induction fuel as [|x fuel IH]; intros fuel' s acc HL G; destruct fuel' as [|x' fuel']; try discriminate;
    cbn [recv_loop g_recv_loop] in *; shproj; destruct (v_inbox s) as [|m rest]; cbn [map].
  1,3: (* empty inbox: the fuel is not looked at *)
    destruct (v_inbox_closed s); [|now split];
    rewrite transition_to_fin_wait_1_shift; split; [|now apply g_maybe_send_fin_shift];
    eapply (sbind_shift da db dc idf idf); [now apply maybe_send_fin_shift|];
    intros s2 a _; reflexivity.
  - now split.
  - rewrite st_inbox. apply andb_true_iff in G as [G1 G2].
    rewrite (g_pim_shift _ _ G1). cbn [andb].
    eapply (sbind_shift_g da db dc idf idf). { now apply pim_shift. } { exact G2. }
    intros s1 r Gk. cbv beta in Gk. unfold idf.
    shproj. rewrite state_is_closed_shift.
    destruct (state_is_closed (v_state s1) (o_wait_for_last_ack (v_opts s1)) || v_transport_pending s1);
      [now split|].
    apply IH; [now injection HL|assumption].
Qed.

Lemma acked_counts_as_sent_shift (s : vsock) : g_acked_counts_as_sent s = true ->
  acked_counts_as_sent (sh s) = sh (acked_counts_as_sent s) /\ g_acked_counts_as_sent (sh s) = true.
Proof.
  unfold g_acked_counts_as_sent, acked_counts_as_sent. intros G. apply andb_true_iff in G as [G1 G2].
  shproj. cbn [shift_segments ss_snd_una].
  rewrite sh16_wsub16, (cmp_ok_seq_gt da _ _ G1), (cmp_ok_seq_lt da _ _ G2),
    (cmp_ok_shift da _ _ G1), (cmp_ok_shift da _ _ G2).
  split; [|reflexivity]. destruct (seq_gt _ _ && seq_lt _ _); reflexivity.
Qed.

Lemma paim_s2_shift (s1 : vsock) r : paim_s2 (sh s1) r = sh (paim_s2 s1 r).
Proof.
  unfold paim_s2. destruct ((0 <? ar_acked_segments r) || (0 <? ar_newly_sacked_segments r)); [|reflexivity].
  cbv zeta. rewrite st_rto_retransmissions. shproj. rewrite our_fin_shift.
  cbn [shift_segments ss_segs].
  destruct (ss_segs (v_segs (set_rto_retransmissions s1 0)));
    destruct (our_fin_if_unacked (v_state (set_rto_retransmissions s1 0))); reflexivity.
Qed.

Lemma paim_s3o_shift (s2 : vsock) r :
  (if 0 <? ar_acked_segments r then g_acked_counts_as_sent s2 else true) = true ->
  paim_s3o (sh s2) r = sst idf (paim_s3o s2 r) /\
  (if 0 <? ar_acked_segments r then g_acked_counts_as_sent (sh s2) else true) = true.
Proof.
  unfold paim_s3o. intros G. destruct (0 <? ar_acked_segments r); [|now split].
  cbv zeta. destruct (acked_counts_as_sent_shift s2 G) as [-> ->]. split; [|reflexivity]. shproj.
  destruct (truncate_front _ _) as [tx1 tr]. destruct tr; [|reflexivity].
  destruct (wake_writer tx1) as [tx2 w]. reflexivity.
Qed.

Lemma paim_pipe_shift (s3 : vsock) u : g_paim_pipe s3 u = true ->
  paim_pipe (sh s3) (idf u) = sst idf (paim_pipe s3 u) /\ g_paim_pipe (sh s3) (idf u) = true.
Proof.
  unfold g_paim_pipe, paim_pipe. intros G. shproj. cbn [shift_recovery rv_phase].
  destruct (rv_phase (v_recovery s3)) as [rp|d|rc]; cbn [shift_rphase]; [now split|now split|].
  cbn [rc_high_rxt rc_recovery_point rc_total_retx rc_cwnd].
  rewrite (calc_pipe_shift da _ _ _ _ _ G), (g_calc_pipe_shift da _ _ _ G). split; [|reflexivity].
  destruct (calc_pipe (v_segs s3) _ _ _ _) as [[[segs' pipe] recalc]|]; reflexivity.
Qed.

Lemma paim_rest_shift (s1 : vsock) res : g_paim_rest s1 res = true ->
  paim_rest (sh s1) (idf res) = sst idf (paim_rest s1 res) /\ g_paim_rest (sh s1) (idf res) = true.
Proof.
  unfold g_paim_rest, paim_rest, idf. destruct res as [r b]. cbn [fst]. intros G.
  apply andb_true_iff in G as [G1 G2]. rewrite paim_s2_shift.
  destruct (paim_s3o_shift _ r G1) as [E ->]. cbn [andb].
  eapply (sbind_shift_g da db dc idf idf). { exact E. } { exact G2. }
  intros s3 u Gp. now apply paim_pipe_shift.
Qed.

Lemma process_all_decompose (s : vsock) :
  process_all_incoming_messages cci s =
  sbind (recv_loop cci (paim_fuel s) s on_ack_result_default) paim_rest.
Proof. reflexivity. Qed.

Lemma process_all_shift_guard (s : vsock) : g_process_all cci s = true ->
  process_all_incoming_messages cci (sh s) = sst idf (process_all_incoming_messages cci s) /\
  g_process_all cci (sh s) = true.
Proof.
  unfold g_process_all. intros G. apply andb_true_iff in G as [G1 G2].
  rewrite !process_all_decompose.
  assert (HL : length (paim_fuel (sh s)) = length (paim_fuel s)).
  { unfold paim_fuel. shproj. rewrite !app_length, map_length. reflexivity. }
  destruct (recv_loop_shift _ _ s on_ack_result_default HL G1) as [EL ->]. cbn [andb].
  eapply (sbind_shift_g da db dc idf idf). { exact EL. } { exact G2. }
  intros s1 res Gr. now apply paim_rest_shift.
Qed.

Lemma process_all_shift (s : vsock) : g_process_all cci s = true ->
  process_all_incoming_messages cci (sh s) = sst idf (process_all_incoming_messages cci s).
Proof. intros G. exact (proj1 (process_all_shift_guard s G)). Qed.

End In.
