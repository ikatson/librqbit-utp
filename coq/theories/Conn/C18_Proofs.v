(* C18 — Nagle coalescing: the segmentation loop, its log, and the Nagle rule on what it appends. *)
From Utp Require Import Base.Prelude Wire.SeqNr Wire.Header Rtt.Rtte Mtu.SegSizes
  Rx.Rx Tx.Ring Tx.Segments Conn.Recovery Conn.Msg Conn.VSockRec Conn.VSock Conn.VSockRun Conn.VObs
  Conn.VSock_Lemmas Conn.C18_Pred.


(* ------------------------------------------------------------------ the log of one run of the
   segmentation loop: one record per segment enqueued (a specification device: the same
   recursion as segment_loop, returning what it enqueued and under which conditions) *)
Record enq := {
  e_inflight : bool;     (* the table was non-empty when the segment was cut *)
  e_offer : Z;           (* size offered by next_segment_size *)
  e_rwr : Z;             (* remaining remote window at that moment *)
  e_rem : Z;             (* unsegmented bytes at that moment *)
  e_size : Z;            (* payload size of the segment *)
  e_probe : bool;
}.

Fixpoint seg_log (fuel : list Z) (nagle : bool) (ss : segsizes) (segs : segments)
  (remaining rwr : Z) : list enq :=
  match fuel with
  | [] => []
  | _ :: fuel' =>
      if (0 <? remaining) && (0 <? rwr) then
        match next_segment_size ss with
        | None => []
        | Some (ss1, sz) =>
            let max_payload := Z.min sz rwr in
            let payload := Z.min max_payload remaining in
            let in_flight := match ss_segs segs with [] => false | _ => true end in
            if nagle && negb (payload =? max_payload) && in_flight then []
            else
              let is_probe := mss ss1 <? payload in
              let e := {| e_inflight := in_flight; e_offer := sz; e_rwr := rwr; e_rem := remaining;
                          e_size := payload; e_probe := is_probe |} in
              if is_probe then [e]
              else e :: seg_log fuel' nagle ss1 (enqueue segs payload is_probe)
                                (remaining - payload) (rwr - payload)
        end
      else []
  end.

Definition seg_of_enq (off : Z) (e : enq) : seg :=
  {| sg_size := e_size e; sg_abs := off; sg_delivered := false; sg_sent := NotSent;
     sg_probe := e_probe e; sg_lost := false; sg_expired := false; sg_sacks_after := false |}.

Fixpoint segs_of_log (off : Z) (l : list enq) : list seg :=
  match l with
  | [] => []
  | e :: r => seg_of_enq off e :: segs_of_log (off + e_size e) r
  end.

Lemma next_segment_size_ge_mss : forall ss ss1 sz,
  next_segment_size ss = Some (ss1, sz) -> mss ss <= sz.
Proof.
  intros ss ss1 sz H. unfold next_segment_size in H.
  destruct (cd_rem ss =? 0).
  - unfold bind, next_probe in H. cbn [min_ss max_ss] in H.
    match type of H with context [if ?c then _ else _] => destruct c eqn:C end; [|discriminate].
    inversion H; subst. unfold np_sum2, np_sum1, np_half, np_diff, mss in *. cbn [min_ss max_ss] in *. lia.
  - inversion H; subst. unfold mss. lia.
Qed.

Lemma enqueue_segs : forall t p b,
  ss_segs (enqueue t p b) =
  ss_segs t ++ [{| sg_size := p; sg_abs := ss_offset t; sg_delivered := false; sg_sent := NotSent;
                   sg_probe := b; sg_lost := false; sg_expired := false; sg_sacks_after := false |}].
Proof. reflexivity. Qed.

Lemma enqueue_offset : forall t p b, ss_offset (enqueue t p b) = ss_offset t + p.
Proof. reflexivity. Qed.

(* the loop appends exactly the logged segments, at consecutive offsets *)
Lemma segment_loop_log : forall fuel nagle ss segs rem rwr ss' segs' rem',
  segment_loop fuel nagle ss segs rem rwr = Some (ss', segs', rem') ->
  ss_segs segs' = ss_segs segs ++ segs_of_log (ss_offset segs) (seg_log fuel nagle ss segs rem rwr) /\
  ss_offset segs' = ss_offset segs + sumZ (map e_size (seg_log fuel nagle ss segs rem rwr)) /\
  rem' = rem - sumZ (map e_size (seg_log fuel nagle ss segs rem rwr)) /\
  mss ss' = mss ss.
Proof.
  induction fuel as [|x fuel IH]; intros nagle ss segs rem rwr ss' segs' rem' H;
    cbn [segment_loop seg_log] in *.
  - inversion H; subst. cbn [segs_of_log map sumZ]. rewrite app_nil_r. repeat split; lia.
  - destruct ((0 <? rem) && (0 <? rwr)).
    2:{ inversion H; subst. cbn [segs_of_log map sumZ]. rewrite app_nil_r. repeat split; lia. }
    destruct (next_segment_size ss) as [[ss1 sz]|] eqn:N; [|discriminate].
    pose proof (mss_next_segment_size _ _ _ N) as M.
    destruct (nagle && negb (_ =? _) && _).
    { inversion H; subst. cbn [segs_of_log map sumZ]. rewrite app_nil_r. repeat split; try lia. }
    destruct (mss ss1 <? _) eqn:P.
    + inversion H; subst. cbn [segs_of_log map sumZ e_size].
      rewrite enqueue_segs, enqueue_offset. unfold seg_of_enq; cbn [e_size e_probe].
      repeat split; try lia; try exact M.
    + apply IH in H. destruct H as (H1 & H2 & H3 & H4).
      cbn [segs_of_log map sumZ e_size].
      rewrite enqueue_segs in H1. rewrite enqueue_offset in H2. rewrite enqueue_offset in H1.
      rewrite H1, H2, H3, H4. rewrite <- app_assoc. cbn [app].
      unfold seg_of_enq at 1; cbn [e_size e_probe].
      repeat split; try lia; try exact M.
Qed.

(* (a) Nagle on: every segment cut while the table was non-empty has exactly the size
   min(size offered, remaining remote window): it is full or window-limited, never shortened
   by the amount of buffered data *)
Lemma seg_log_nagle : forall fuel ss segs rem rwr,
  Forall (fun e => e_inflight e = true -> e_size e = Z.min (e_offer e) (e_rwr e))
         (seg_log fuel true ss segs rem rwr).
Proof.
  induction fuel as [|x fuel IH]; intros ss segs rem rwr; cbn [seg_log]; [constructor|].
  destruct ((0 <? rem) && (0 <? rwr)); [|constructor].
  destruct (next_segment_size ss) as [[ss1 sz]|]; [|constructor].
  destruct (Z.min (Z.min sz rwr) rem =? Z.min sz rwr) eqn:F.
  - cbn [negb andb].
    destruct (mss ss1 <? _); constructor; try constructor; try apply IH; cbn [e_inflight e_size e_offer e_rwr]; lia.
  - cbn [negb andb].
    destruct (ss_segs segs) eqn:S; [|constructor].
    destruct (mss ss1 <? _); constructor; try constructor; try apply IH;
      cbn [e_inflight]; discriminate.
Qed.

(* equivalently: a segment smaller than that is cut only when the table was empty *)
Lemma seg_log_partial_only_when_idle : forall fuel ss segs rem rwr,
  Forall (fun e => e_size e < Z.min (e_offer e) (e_rwr e) -> e_inflight e = false)
         (seg_log fuel true ss segs rem rwr).
Proof.
  intros. eapply Forall_impl; [|apply seg_log_nagle].
  intros e H L. cbv beta in H. destruct (e_inflight e) eqn:I; [specialize (H eq_refl); lia | reflexivity].
Qed.

(* every logged segment: sizes offered are at least mss, what follows a segment in the same run
   was cut with a non-empty table and a window that was not exhausted *)
Lemma seg_log_shape : forall fuel nagle ss segs rem rwr e rest,
  seg_log fuel nagle ss segs rem rwr = e :: rest ->
  mss ss <= e_offer e /\ 0 < e_rwr e /\ 0 < e_rem e /\
  e_size e = Z.min (Z.min (e_offer e) (e_rwr e)) (e_rem e) /\
  (e_inflight e = nonempty (ss_segs segs)) /\ e_rwr e = rwr /\
  (rest <> [] -> e_size e < e_rwr e /\ e_probe e = false /\
                 exists fuel' ss1, mss ss1 = mss ss /\
                   rest = seg_log fuel' nagle ss1 (enqueue segs (e_size e) false)
                                  (rem - e_size e) (rwr - e_size e)).
Proof.
  intros fuel nagle ss segs rem rwr e rest H. destruct fuel as [|x fuel]; cbn [seg_log] in H; [discriminate|].
  destruct (0 <? rem) eqn:R; [|discriminate]. destruct (0 <? rwr) eqn:W; [|discriminate]. cbn [andb] in H.
  destruct (next_segment_size ss) as [[ss1 sz]|] eqn:N; [|discriminate].
  pose proof (next_segment_size_ge_mss _ _ _ N) as G.
  pose proof (mss_next_segment_size _ _ _ N) as M.
  destruct (nagle && negb (_ =? _) && _); [discriminate|].
  assert (NEq : match ss_segs segs with [] => false | _ :: _ => true end = nonempty (ss_segs segs))
    by (destruct (ss_segs segs); reflexivity).
  destruct (mss ss1 <? _) eqn:P; inversion H; subst; cbn [e_offer e_rwr e_rem e_size e_inflight e_probe];
    (split; [lia|]); (split; [lia|]); (split; [lia|]); (split; [lia|]); (split; [exact NEq|]); (split; [reflexivity|]).
  - intros C; exfalso; apply C; reflexivity.
  - intros C. split; [|split].
    + destruct fuel as [|y fuel]; cbn [seg_log] in C; [exfalso; apply C; reflexivity|].
      destruct (0 <? rem - _) eqn:R2; [|exfalso; apply C; reflexivity].
      destruct (0 <? rwr - _) eqn:W2; [|exfalso; apply C; reflexivity]. lia.
    + reflexivity.
    + exists fuel, ss1. split; [exact M | reflexivity].
Qed.

(* the observable Nagle rule on the appended segments: [acc] = bytes cut earlier in this run,
   [w] = the remote window the run started with *)
Fixpoint walk_app (m w acc : Z) (prev : bool) (app : list enq) : bool :=
  match app with
  | [] => true
  | e :: rest => (if prev then (m <=? e_size e) || (w <=? acc + e_size e) else true)
                 && walk_app m w (acc + e_size e) true rest
  end.

Lemma seg_log_walk : forall fuel ss segs rem rwr m w acc,
  m <= mss ss -> rwr = w - acc ->
  walk_app m w acc (nonempty (ss_segs segs)) (seg_log fuel true ss segs rem rwr) = true.
Proof.
  intros fuel ss segs rem rwr m w acc.
  remember (seg_log fuel true ss segs rem rwr) as l eqn:L.
  revert fuel ss segs rem rwr acc L.
  induction l as [|e rest IH]; intros fuel ss segs rem rwr acc L Hm Hw; [reflexivity|].
  symmetry in L.
  pose proof (seg_log_nagle fuel ss segs rem rwr) as NG. rewrite L in NG. inversion NG as [|? ? NGe _]; subst.
  destruct (seg_log_shape _ _ _ _ _ _ _ _ L) as (S1 & S2 & S3 & S4 & S5 & S5b & S6).
  cbn [walk_app]. apply andb_true_intro. split.
  - destruct (nonempty (ss_segs segs)) eqn:NE; [|reflexivity].
    rewrite S5 in NGe. specialize (NGe eq_refl). lia.
  - destruct rest as [|e2 rest2]; [reflexivity|].
    assert (C : e2 :: rest2 <> []) by discriminate.
    destruct (S6 C) as (_ & _ & fuel' & ss1 & M1 & R).
    assert (NE : nonempty (ss_segs (enqueue segs (e_size e) false)) = true).
    { unfold enqueue, Segments.set_segs; cbn [ss_segs]. destruct (ss_segs segs); reflexivity. }
    assert (Hm1 : m <= mss ss1) by lia.
    assert (Hw1 : w - acc - e_size e = w - (acc + e_size e)) by lia.
    pose proof (IH fuel' ss1 _ _ _ (acc + e_size e) R Hm1 Hw1) as Wk. rewrite NE in Wk. exact Wk.
Qed.

(* ------------------------------------------------------------------ from logs to the predicate *)
Lemma walk_old : forall off m w l prev rest,
  Forall (fun g => sg_abs g < off) l ->
  c18_walk off m w prev (map fseg_of l ++ rest) = c18_walk off m w (prev || nonempty l) rest.
Proof.
  induction l as [|g l IH]; intros prev rest F; cbn [map app nonempty].
  - rewrite orb_false_r. reflexivity.
  - inversion F as [|? ? Fg Fl]; subst. cbn [c18_walk].
    replace (off <=? fg_abs (fseg_of g)) with false by (cbn [fseg_of fg_abs]; lia).
    rewrite andb_false_r. cbn [andb]. rewrite IH by exact Fl. rewrite orb_true_r. reflexivity.
Qed.

Lemma walk_app_segs : forall off m w log acc prev,
  walk_app m w acc prev log = true ->
  c18_walk off m w prev (map fseg_of (segs_of_log (off + acc) log)) = true.
Proof.
  induction log as [|e rest IH]; intros acc prev H; [reflexivity|].
  cbn [walk_app] in H. apply andb_prop in H. destruct H as [H1 H2].
  cbn [segs_of_log map c18_walk]. apply andb_true_intro. split.
  - cbn [fseg_of seg_of_enq fg_abs fg_size sg_abs sg_size].
    destruct prev; [|reflexivity]. cbn [andb].
    destruct (off <=? off + acc); [|reflexivity].
    replace (off + acc + e_size e - off) with (acc + e_size e) by lia. exact H1.
  - replace (off + acc + e_size e) with (off + (acc + e_size e)) by lia. apply IH; exact H2.
Qed.

Section WithCC.
Context {CC : Type} (cci : cc_iface CC).
Notation vsock := (vsock CC).

(* (a) at the level of the loop: what is appended, and the Nagle rule for each appended segment *)
Theorem c18_no_partial_while_unacked_lemma : forall fuel ss segs rem rwr ss' segs' rem',
  segment_loop fuel true ss segs rem rwr = Some (ss', segs', rem') ->
  let log := seg_log fuel true ss segs rem rwr in
  ss_segs segs' = ss_segs segs ++ segs_of_log (ss_offset segs) log /\
  rem' = rem - sumZ (map e_size log) /\
  Forall (fun e => e_inflight e = true -> e_size e = Z.min (e_offer e) (e_rwr e)) log /\
  Forall (fun e => e_size e < Z.min (e_offer e) (e_rwr e) -> e_inflight e = false) log.
Proof.
  intros fuel ss segs rem rwr ss' segs' rem' H log.
  destruct (segment_loop_log _ _ _ _ _ _ _ _ _ H) as (L1 & _ & L3 & _).
  split; [exact L1|]. split; [exact L3|]. split; [apply seg_log_nagle | apply seg_log_partial_only_when_idle].
Qed.

(* what the log records is what the loop saw: offer >= mss, window and data positive, the
   in-flight flag is "the table was non-empty" *)
Theorem c18_log_head_faithful : forall fuel nagle ss segs rem rwr e rest,
  seg_log fuel nagle ss segs rem rwr = e :: rest ->
  mss ss <= e_offer e /\ 0 < e_rwr e /\ 0 < e_rem e /\
  e_size e = Z.min (Z.min (e_offer e) (e_rwr e)) (e_rem e) /\
  e_inflight e = nonempty (ss_segs segs).
Proof.
  intros fuel nagle ss segs rem rwr e rest H.
  destruct (seg_log_shape _ _ _ _ _ _ _ _ H) as (S1 & S2 & S3 & S4 & S5 & _ & _). auto.
Qed.

Lemma rev_last_split : forall A (l : list A) x r, rev l = x :: r -> l = rev r ++ [x].
Proof. intros A l x r H. rewrite <- (rev_involutive l). rewrite H. reflexivity. Qed.

End WithCC.
