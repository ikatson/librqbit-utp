(* C17, step level: the step predicates of Conn/C17_Pred.v hold of EVERY step of the model
   (every state, every event), and therefore along every trace.
     c17_reset_ok            no precondition                      c17_reset_ok_step / _trace
     c17_fin_number_step_ok  no precondition                      c17_fin_number_step_ok_step / _trace
     c17_synack_ok           under syn_pre (an invariant)         c17_synack_ok_step / _trace
     c17_fin_after_data_ok   FALSE as written (c17_fin_after_data_ok_refuted); holds unless the channel is
                             closed and the poll reports ErrSend  c17_fin_after_data_ok_step_gen / _step_inv,
                             _guarded_trace, _noerr_trace, _ok_open_trace
     c17_reset_trace_ok      along every trace from vsock_new     c17_reset_trace_ok_trace
   Guards defined here (boolean, on the step): c17_seg_bounds, c17_not_err_send, c17_fin_after_data_guard. *)
From Utp Require Import Base.Prelude Wire.SeqNr Wire.Header Wire.Header_Proofs Rtt.Rtte Mtu.SegSizes
  Rx.Rx Tx.Ring Tx.Segments Conn.Recovery Conn.Msg Conn.VSockRec Conn.VSock Conn.VSockRun Conn.VObs
  Conn.VSock_Lemmas Conn.VSock_LemmasTx Conn.VSock_LemmasFin Conn.C17_Pred Conn.C17_Proofs Conn.C17_StepLemmas.
From Utp Require Conn.VSock_LemmasReach.

Section WithCC.
Context {CC : Type} (cci : cc_iface CC).
Notation vsock := (vsock CC).

(* ------------------------------------------------------------------ a whole poll under G0 *)
Definition pG0 (s00 s' : vsock) (r : poll_result) : Prop :=
  match r with
  | PollPending => G0 s00 s' /\ (v_transport_pending s' = false -> not_closed s')
  | PollPanic => G0 s00 s'
  | PollReadyOk => exists s1, G0 s00 s1 /\ s' = just_before_death s1 None
  | PollReadyErr e => exists s1, G0 s00 s1 /\ s' = just_before_death s1 (Some e)
  end.

Lemma poll_loop_G0 fuel (s00 : vsock) :
  pG0 s00 (fst (poll_loop cci fuel s00)) (snd (poll_loop cci fuel s00)).
Proof.
  apply (poll_loop_ind cci (fun t => G0 s00 t) (fun s' r => pG0 s00 s' r)).
  - intros s H. exact H.
  - intros s H. pose proof (poll_body_G0 cci s) as B.
    destruct (poll_body cci s) as [s' r|s'|]; cbn [bG0] in B; [|eapply G0_trans; eauto|exact I].
    destruct r; cbn [pG0].
    + destruct B as [B1 B2]. split; [eapply G0_trans; eauto|exact B2].
    + destruct B as (s1 & B1 & B2). exists s1. split; [eapply G0_trans; eauto|exact B2].
    + destruct B as (s1 & B1 & B2). exists s1. split; [eapply G0_trans; eauto|exact B2].
    + contradiction.
  - apply G0_refl.
Qed.

Lemma poll_G0 (s s' : vsock) r : poll cci s = (s', r) -> pG0 (poll_init s) s' r.
Proof.
  intro E. rewrite poll_unfold in E. pose proof (poll_loop_G0 64 (poll_init s)) as H.
  rewrite E in H. exact H.
Qed.

(* ------------------------------------------------------------------ packets of a step *)
Lemma forallb_pkts (P : fpacket -> bool) (l : list packet) :
  (forall p, In p l -> P (fpacket_of p) = true) -> forallb P (map fpacket_of (rev l)) = true.
Proof.
  intro H. apply forallb_forall. intros x Hx. apply in_map_iff in Hx. destruct Hx as (p & <- & Hp).
  apply in_rev in Hp. auto.
Qed.

Lemma pkt_is_of t p : pkt_is t (fpacket_of p) = ptype_eqb (ch_type (p_hdr p)) t.
Proof. reflexivity. Qed.

Lemma ptype_eqb_false a b : a <> b -> ptype_eqb a b = false.
Proof. intro H. destruct (ptype_eqb a b) eqn:E; [|reflexivity]. apply ptype_eqb_iff in E. contradiction. Qed.

(* a step that is not a poll satisfies every predicate that only judges polls *)
Lemma fstep_not_poll (s : vsock) o :
  (forall sc, o <> VoPoll sc) -> forall sc, fs_event (fstep_of cci s o) <> FePoll sc.
Proof. intros H sc. rewrite fstep_of_event. destruct o; try discriminate. exfalso. eapply H; reflexivity. Qed.

(* ================================================================== c17_fin_number_step_ok *)
(* what a whole poll guarantees about our FIN: the state moves by st_rel, and if a number is recorded at
   the end every ST_FIN of the poll carries it *)
Definition FN (s s' : vsock) : Prop :=
  st_rel (v_state s) (v_state s') /\
  forall f, our_fin_if_unacked (v_state s') = Some f ->
    forall p, In p (v_out s') -> ch_type (p_hdr p) = ST_FIN -> ch_seq (p_hdr p) = f.

Lemma G0_FN (s00 s' : vsock) : v_out s00 = [] -> G0 s00 s' -> FN s00 s'.
Proof.
  intros Ho (A1 & (l & A2 & A3) & _). split; [exact A1|].
  intros f Hf p Hp Ht. rewrite A2, Ho, app_nil_r in Hp. rewrite Forall_forall in A3.
  destruct (A3 p Hp) as (_ & _ & K). destruct (K Ht) as (_ & K2). apply K2. exact Hf.
Qed.

Lemma poll_FN (s s' : vsock) r : poll cci s = (s', r) -> FN s s'.
Proof.
  intro E. apply poll_G0 in E.
  assert (Ho : v_out (poll_init s) = []) by reflexivity.
  assert (Hst : v_state (poll_init s) = v_state s) by reflexivity.
  cut (FN (poll_init s) s'). { unfold FN. rewrite Hst. auto. }
  destruct r; cbn [pG0] in E.
  - apply G0_FN; [exact Ho|apply E].
  - destruct E as (s1 & E1 & ->). apply G0_FN; [exact Ho|]. apply jbd_G0; auto.
  - destruct E as (s1 & E1 & ->).
    destruct (is_local_fin_or_later (v_state s1)) eqn:El.
    + apply G0_FN; [exact Ho|]. apply jbd_G0; auto.
    + pose proof (jbd_spec s1 (Some e)) as J. cbv zeta in J. destruct J as (J1 & _).
      split; [rewrite J1; apply E1|]. intros f Hf. rewrite J1 in Hf.
      destruct (v_state s1); cbn [is_local_fin_or_later our_fin_if_unacked] in *; discriminate.
  - apply G0_FN; assumption.
Qed.

Theorem c17_fin_number_step_ok_step : forall cfg (s : vsock) o,
  c17_fin_number_step_ok cfg (fstep_of cci s o) = true.
Proof.
  intros cfg s o. destruct o;
    try (unfold c17_fin_number_step_ok; rewrite fstep_of_event; reflexivity).
  destruct (poll cci (VSockRec.set_sends s script)) as [s' r] eqn:E.
  rewrite (fstep_of_poll cci s script s' r E). unfold c17_fin_number_step_ok, fin_of_state.
  cbn [fs_event fs_result fs_pre fs_post fp_of_vsock f_state].
  apply poll_FN in E. destruct E as (E1 & E2).
  change (v_state (VSockRec.set_sends s script)) with (v_state s) in E1.
  apply andb_true_intro. split.
  - destruct (our_fin_if_unacked (v_state s)) as [f|] eqn:Ef; [|reflexivity].
    destruct (our_fin_if_unacked (v_state s')) as [f'|] eqn:Ef'; [|reflexivity].
    apply Z.eqb_eq. eapply st_rel_fin; eauto.
  - destruct (our_fin_if_unacked (v_state s')) as [f|] eqn:Ef; [|reflexivity].
    apply forallb_pkts. intros p Hp. rewrite pkt_is_of.
    destruct (ptype_eqb (ch_type (p_hdr p)) ST_FIN) eqn:Et; [|reflexivity].
    apply ptype_eqb_iff in Et. apply Z.eqb_eq. exact (E2 f eq_refl p Hp Et).
Qed.

(* ================================================================== c17_reset_ok *)
(* no datagram of a poll is an ST_RESET *)
Lemma G0_no_reset (s00 s1 : vsock) :
  v_out s00 = [] -> G0 s00 s1 -> forall p, In p (v_out s1) -> ch_type (p_hdr p) <> ST_RESET.
Proof.
  intros Ho (_ & (l & A2 & A3) & _) p Hp. rewrite A2, Ho, app_nil_r in Hp. rewrite Forall_forall in A3.
  destruct (A3 p Hp) as (K & _). exact K.
Qed.

Lemma jbd_no_reset (s1 : vsock) e :
  (forall p, In p (v_out s1) -> ch_type (p_hdr p) <> ST_RESET) ->
  forall p, In p (v_out (just_before_death s1 e)) -> ch_type (p_hdr p) <> ST_RESET.
Proof.
  intros H p Hp. pose proof (jbd_spec s1 e) as J. cbv zeta in J.
  destruct J as (_ & _ & _ & _ & _ & _ & [J|(_ & _ & q & J & Hq & _)]); rewrite J in Hp.
  - apply H; exact Hp.
  - destruct Hp as [<-|Hp]; [rewrite Hq; discriminate|apply H; exact Hp].
Qed.

Theorem poll_no_reset_pkt (s s' : vsock) r :
  poll cci s = (s', r) -> forall p, In p (v_out s') -> ch_type (p_hdr p) <> ST_RESET.
Proof.
  intro E. apply poll_G0 in E.
  assert (Ho : v_out (poll_init s) = []) by reflexivity.
  destruct r; cbn [pG0] in E.
  - apply (G0_no_reset _ _ Ho (proj1 E)).
  - destruct E as (s1 & E1 & ->). apply jbd_no_reset. apply (G0_no_reset _ _ Ho E1).
  - destruct E as (s1 & E1 & ->). apply jbd_no_reset. apply (G0_no_reset _ _ Ho E1).
  - apply (G0_no_reset _ _ Ho E).
Qed.

(* the invariant of the restart loop: no FIN emitted so far in this poll, or nothing is left in the
   inbox (so no message, in particular no reset, can be processed any more) *)
Definition NF (s : vsock) : Prop := Forall nofin (v_out s) \/ v_inbox s = [].

(* what is claimed of a poll that reports the reset *)
Definition RQ (s' : vsock) (r : poll_result) : Prop :=
  r = PollReadyErr ErrStResetReceived -> v_state s' = Closed /\ Forall nofin (v_out s').

Definition RP (r : body_res) : Prop :=
  match r with BrReturn s' r => RQ s' r | BrRestart s' => NF s' | BrPanic => True end.

Lemma NF_step (s s' : vsock) : NF s -> GN s s' -> (v_inbox s = [] -> v_inbox s' = []) -> NF s'.
Proof.
  intros [H|H] (l & E & Hl) Hi; [left; rewrite E; apply Forall_app; auto|right; auto].
Qed.

Lemma G_inbox (s s' : vsock) : G s s' -> v_inbox s = [] -> v_inbox s' = [].
Proof. intros ((_ & _ & H & _) & _). exact H. Qed.

Lemma reset_dec (e : verror) : e = ErrStResetReceived \/ e <> ErrStResetReceived.
Proof. destruct e; auto; right; discriminate. Qed.

Lemma RP_die_other (s : vsock) e : e <> ErrStResetReceived -> RP (die s e).
Proof. intro H. unfold die, RP, RQ. intro E. injection E as E. contradiction. Qed.

Lemma RP_die_reset (s : vsock) :
  v_state s = Closed -> Forall nofin (v_out s) -> RP (die s ErrStResetReceived).
Proof.
  intros Hs Ho. unfold die, RP, RQ. intros _.
  pose proof (jbd_spec s (Some ErrStResetReceived)) as J. cbv zeta in J.
  destruct J as (J1 & _ & _ & _ & _ & _ & J7). split; [congruence|].
  destruct J7 as [J7|(Hl & _)]; [rewrite J7; exact Ho|rewrite Hs in Hl; discriminate].
Qed.

Lemma bail_RP {A} (m : step A) k :
  match m with
  | SOk s1 a => (v_restart s1 = true -> NF s1) /\ (v_restart s1 = false -> RP (k s1 a))
  | SErr s1 e => RP (die s1 e)
  | SPanic => True
  end -> RP (bail m k).
Proof.
  unfold bail. destruct m as [s1 a|s1 e|]; auto. intros [H1 H2].
  destruct (v_restart s1) eqn:R; [apply H1; reflexivity|apply H2; reflexivity].
Qed.

Lemma pend_RP {A} (m : step A) k :
  match m with
  | SOk s1 a => (v_restart s1 = true -> NF s1) /\
                (v_restart s1 = false -> v_transport_pending s1 = false -> RP (k s1 a))
  | SErr s1 e => RP (die s1 e)
  | SPanic => True
  end -> RP (pend m k).
Proof.
  intro H. unfold pend. apply bail_RP. destruct m as [s1 a|s1 e|]; auto. destruct H as [H1 H2].
  split; [exact H1|]. intro R. destruct (v_transport_pending s1) eqn:T; [unfold RP, RQ; discriminate|].
  rewrite R. apply H2; [exact R|reflexivity].
Qed.

Lemma imm_GN (s : vsock) : sGN s (if immediate_ack_to_transmit s then send_ack s else SOk s false).
Proof. destruct (immediate_ack_to_transmit s); [apply send_ack_GN|apply GN_refl]. Qed.

Lemma imm_G (s : vsock) : sG s (if immediate_ack_to_transmit s then send_ack s else SOk s false).
Proof. destruct (immediate_ack_to_transmit s); [apply send_ack_G|apply G_refl]. Qed.

Lemma head_RP k (t : vsock) :
  NF t -> (forall s3, NF s3 -> v_restart s3 = false -> RP (k s3)) -> RP (body_head cci k t).
Proof.
  intros Hn Hk. unfold body_head.
  assert (N0 : NF (body_start t)) by exact Hn. revert N0. generalize (body_start t). intros s N0.
  apply pend_RP. pose proof (maybe_send_syn_ack_GN s) as A1. pose proof (maybe_send_syn_ack_G s) as B1.
  destruct (maybe_send_syn_ack s) as [s1 a1|s1 e1|]; cbn [sGN sG] in *; [|apply RP_die_other; apply A1|exact I].
  assert (N1 : NF s1) by (eapply NF_step; [exact N0|exact A1|apply G_inbox; exact B1]).
  split; [auto|]. intros _ _.
  apply pend_RP. pose proof (imm_GN s1) as A2. pose proof (imm_G s1) as B2.
  destruct (if immediate_ack_to_transmit s1 then send_ack s1 else SOk s1 false) as [s2 a2|s2 e2|];
    cbn [sGN sG] in *; [|apply RP_die_other; apply A2|exact I].
  assert (N2 : NF s2) by (eapply NF_step; [exact N1|exact A2|apply G_inbox; exact B2]).
  split; [auto|]. intros _ _.
  apply pend_RP. pose proof (process_all_N cci s2) as A3. pose proof (process_all_G cci s2) as B3.
  destruct (process_all_incoming_messages cci s2) as [s3 a3|s3 e3|]; cbn [rlN sGr] in *; [| |exact I].
  - assert (N3 : NF s3).
    { destruct A3 as [A3|A3]; [|right; exact A3]. eapply NF_step; [exact N2|exact A3|apply G_inbox; exact B3]. }
    split; [auto|]. intros R3 _. apply Hk; assumption.
  - destruct (reset_dec e3) as [->|Hne]; [|apply RP_die_other; exact Hne].
    destruct (A3 eq_refl) as (C1 & C2 & (l & C3 & C4)).
    apply RP_die_reset; [exact C1|]. destruct N2 as [N2|N2]; [|contradiction].
    rewrite C3. apply Forall_app; auto.
Qed.

Lemma back_RP (s6 : vsock) : v_restart s6 = false -> RP (body_back s6).
Proof.
  intro R6. unfold body_back. cbv zeta.
  assert (R7 : v_restart (if should_close_on_own_initiative s6 then transition_to_fin_wait_1 s6 else s6) = false).
  { destruct (should_close_on_own_initiative s6); [rewrite transition_to_fin_wait_1_restart|]; exact R6. }
  revert R7. generalize (if should_close_on_own_initiative s6 then transition_to_fin_wait_1 s6 else s6).
  intros s7 R7.
  apply pend_RP. pose proof (maybe_send_fin_G s7) as B8.
  destruct (maybe_send_fin s7) as [s8 b8|s8 e8|] eqn:E8; cbn [sG] in *; [|apply RP_die_other; apply B8|exact I].
  pose proof (maybe_send_fin_restart _ _ _ E8) as R8. rewrite R7 in R8.
  split; [intro X; congruence|]. intros _ _.
  apply pend_RP. pose proof (maybe_send_ack_G s8) as B9.
  destruct (maybe_send_ack s8) as [s9 b9|s9 e9|] eqn:E9; cbn [sG] in *; [|apply RP_die_other; apply B9|exact I].
  pose proof (maybe_send_ack_restart _ _ _ E9) as R9. rewrite R8 in R9.
  split; [intro X; congruence|]. intros _ _.
  unfold body_finish. destruct (state_is_closed _ _); [unfold RP, RQ; discriminate|].
  cbv zeta. destruct (next_timer_to_poll _) as [sx tx]. unfold RP, RQ. discriminate.
Qed.

Lemma mid_RP (s3 : vsock) : NF s3 -> v_restart s3 = false -> RP (body_mid cci body_back s3).
Proof.
  intros N3 R3. unfold body_mid. destruct (rx_flush (v_rx s3)) as [[rx1 fr] w]. destruct fr; [|exact I].
  cbv zeta.
  assert (N4 : NF (add_wakes (set_rx s3 rx1) (rx_wakes w))) by exact N3.
  assert (R4 : v_restart (add_wakes (set_rx s3 rx1) (rx_wakes w)) = false) by exact R3.
  revert N4 R4. generalize (add_wakes (set_rx s3 rx1) (rx_wakes w)). intros s4 N4 R4.
  destruct (timer_expired _ _); [apply RP_die_other; discriminate|].
  apply bail_RP. pose proof (split_keeps cci s4) as K. pose proof (split_G cci s4) as B5.
  destruct (split_tx_queue_into_segments cci s4) as [s5 a5|s5 e5|]; cbn [sG] in *;
    [|apply RP_die_other; apply B5|exact I].
  destruct K as [K1 K2].
  assert (N5 : NF s5) by (eapply NF_step; [exact N4|apply GN_eq; exact K1|apply G_inbox; exact B5]).
  split; [auto|]. intros R5.
  apply pend_RP. pose proof (send_tx_queue_G cci s5) as B6.
  destruct (send_tx_queue cci s5) as [s6 a6|s6 e6|] eqn:E6; cbn [sG] in *;
    [|apply RP_die_other; apply B6|exact I].
  split.
  - intro R6. eapply NF_step; [exact N5|eapply stq_restart_data; eauto|apply G_inbox; exact B6].
  - intros R6 _. apply back_RP. exact R6.
Qed.

Lemma poll_body_RP (t : vsock) : NF t -> RP (poll_body cci t).
Proof.
  intro Hn. rewrite poll_body_parts. unfold body_front. apply head_RP; [exact Hn|].
  intros s3 N3 R3. apply mid_RP; assumption.
Qed.

Theorem poll_reset (s s' : vsock) :
  poll cci s = (s', PollReadyErr ErrStResetReceived) ->
  v_state s' = Closed /\
  forall p, In p (v_out s') -> ch_type (p_hdr p) <> ST_FIN /\ ch_type (p_hdr p) <> ST_RESET.
Proof.
  intro E. pose proof (poll_no_reset_pkt _ _ _ E) as Hr.
  rewrite poll_unfold in E.
  pose proof (poll_loop_ind cci NF RQ) as H.
  assert (H0 : RQ s' (PollReadyErr ErrStResetReceived)).
  { specialize (H ltac:(intros; unfold RQ; discriminate)).
    assert (Hb : forall t, NF t -> match poll_body cci t with
                                   | BrReturn s'0 r => RQ s'0 r | BrRestart s'0 => NF s'0 | BrPanic => True end).
    { intros t Ht. exact (poll_body_RP t Ht). }
    specialize (H Hb 64%nat (poll_init s)). rewrite E in H. apply H. left. constructor. }
  destruct (H0 eq_refl) as (A1 & A2). split; [exact A1|].
  intros p Hp. rewrite Forall_forall in A2. split; [apply A2; exact Hp|apply Hr; exact Hp].
Qed.

Theorem c17_reset_ok_step : forall cfg (s : vsock) o, c17_reset_ok cfg (fstep_of cci s o) = true.
Proof.
  intros cfg s o. destruct o;
    try (unfold c17_reset_ok; rewrite fstep_of_event; reflexivity).
  destruct (poll cci (VSockRec.set_sends s script)) as [s' r] eqn:E.
  rewrite (fstep_of_poll cci s script s' r E). unfold c17_reset_ok.
  cbn [fs_event fs_result fs_post fp_of_vsock f_state].
  destruct r as [| |e|]; try reflexivity.
  destruct e; try reflexivity. cbn [verror_is_reset].
  apply poll_reset in E. destruct E as (E1 & E2). rewrite E1. cbn [state_is_closed_st andb].
  apply forallb_pkts. intros p Hp. rewrite !pkt_is_of. destruct (E2 p Hp) as (A & B).
  rewrite (ptype_eqb_false _ _ A), (ptype_eqb_false _ _ B). reflexivity.
Qed.

(* ================================================================== c17_synack_ok *)
Definition syn_due (s : vsock) : bool :=
  match v_state s with
  | SynReceived => true
  | SynAckSent _ => timer_expired (v_t_syn_ack_resend s) (v_env_now s)
  | _ => false
  end.
Definition syn_k0 (s : vsock) : Z := match v_state s with SynAckSent k => k | _ => 0 end.
Definition syn_hs (s : vsock) : bool := match v_state s with SynReceived | SynAckSent _ => true | _ => false end.

(* nothing to do for maybe_send_syn_ack: past the handshake, or the resend timer has not expired *)
Definition notdue (t : vsock) : Prop :=
  match v_state t with
  | SynReceived => False
  | SynAckSent _ => timer_expired (v_t_syn_ack_resend t) (v_env_now t) = false
  | _ => True
  end.

Lemma body_notdue (t : vsock) : notdue t -> bframe t (poll_body cci t).
Proof.
  intro Hn. rewrite poll_body_decomp.
  destruct (maybe_send_syn_ack_spec (body_start t) eq_refl) as (S1 & S2 & _).
  unfold notdue in Hn.
  assert (Hm : exists s1, maybe_send_syn_ack (body_start t) = SOk s1 tt /\ pframe t s1 /\
                          v_restart s1 = false /\ v_transport_pending s1 = false).
  { change (v_state (body_start t)) with (v_state t) in S1, S2.
    change (v_now (body_start t)) with (v_env_now t) in S2.
    change (v_t_syn_ack_resend (body_start t)) with (v_t_syn_ack_resend t) in S2.
    destruct (v_state t) eqn:Es; try contradiction.
    1: { exists (body_start t). split; [apply S2; [reflexivity|exact Hn]|].
         split; [apply body_start_frame|split; reflexivity]. }
    all: eexists; (split; [apply S1; reflexivity|]); (split; [|split; reflexivity]);
      (split; [apply body_start_frame|]); unfold syn_rel, body_start; vsimpl; rewrite Es; exact I. }
  destruct Hm as (s1 & -> & F1 & R1 & T1). unfold pend, bail. rewrite R1, T1.
  apply body_rest_frame. exact F1.
Qed.

Lemma notdue_pframe (t t' : vsock) : notdue t -> pframe t t' -> notdue t'.
Proof.
  unfold notdue. intros Hn ((_ & _ & _ & He & _) & Hr). unfold syn_rel in Hr.
  destruct (v_state t'); auto.
  - rewrite Hr in Hn. exact Hn.
  - destruct Hr as (Hr1 & Hr2). rewrite Hr1 in Hn. rewrite Hr2, He. exact Hn.
Qed.

Lemma poll_loop_notdue : forall fuel t, notdue t -> pframe t (fst (poll_loop cci fuel t)).
Proof.
  induction fuel as [|fuel IH]; intros t Hn; cbn [poll_loop fst]; [apply pframe_refl|].
  pose proof (body_notdue t Hn) as B. destruct (poll_body cci t) as [s' r|s'|]; cbn [bframe fst] in *.
  - exact B.
  - eapply pframe_trans; [exact B|]. apply IH. eapply notdue_pframe; eauto.
  - apply pframe_refl.
Qed.

Definition syn_kept (s s' : vsock) : Prop :=
  v_state s' = v_state s /\ v_t_syn_ack_resend s' = v_t_syn_ack_resend s.

Definition syn_sent (s s' : vsock) : Prop :=
  (exists l p, v_out s' = l ++ [p] /\ ch_type (p_hdr p) = ST_STATE /\ ch_seq (p_hdr p) = v_seq_nr s /\
               ch_ack (p_hdr p) = v_last_consumed s /\ p_payload p = []) /\
  match v_state s' with
  | SynReceived => False
  | SynAckSent k => k = syn_k0 s + 1 /\ v_t_syn_ack_resend s' = Some (v_env_now s + SYNACK_RESEND_INTERNAL)
  | _ => True
  end.

(* everything a poll can do about the SYN-ACK *)
Definition SY (s s' : vsock) (r : poll_result) : Prop :=
  v_env_now s' = v_env_now s /\
  if syn_hs s then
    if syn_due s then
      if syn_k0 s =? o_max_retx (v_opts s)
      then r = PollReadyErr ErrMaxSynAckRetransmissionsReached /\ syn_kept s s'
      else syn_sent s s' \/ syn_kept s s'
    else syn_rel s s'
  else syn_hs s' = false.

Lemma pframe_env (a b : vsock) : pframe a b -> v_env_now b = v_env_now a.
Proof. intros ((_ & _ & _ & He & _) & _). exact He. Qed.

Lemma jbd_kept (s : vsock) e :
  syn_kept s (just_before_death s e) /\ v_env_now (just_before_death s e) = v_env_now s.
Proof.
  pose proof (jbd_spec s e) as J. cbv zeta in J. destruct J as (J1 & _ & _ & _ & _ & J6 & _).
  split; [split; assumption|]. apply pframe_env. apply just_before_death_frame.
Qed.

Lemma poll_loop_SY fuel (s00 : vsock) :
  v_out s00 = [] ->
  SY s00 (fst (poll_loop cci (S fuel) s00)) (snd (poll_loop cci (S fuel) s00)).
Proof.
  intro Ho. unfold SY.
  (* the cases where maybe_send_syn_ack has nothing to do: the strong frame holds for the whole poll *)
  assert (Hnd : notdue s00 ->
            v_env_now (fst (poll_loop cci (S fuel) s00)) = v_env_now s00 /\
            syn_rel s00 (fst (poll_loop cci (S fuel) s00))).
  { intro Hn. pose proof (poll_loop_notdue (S fuel) s00 Hn) as F. split; [apply pframe_env; exact F|apply F]. }
  destruct (syn_hs s00) eqn:Ehs.
  2:{ assert (Hn : notdue s00) by (unfold notdue, syn_hs in *; destruct (v_state s00); auto; discriminate).
      destruct (Hnd Hn) as [A B]. split; [exact A|]. unfold syn_rel in B. unfold syn_hs in *.
      destruct (v_state (fst (poll_loop cci (S fuel) s00))); auto.
      - rewrite B in Ehs. discriminate.
      - destruct B as [B _]. rewrite B in Ehs. discriminate. }
  destruct (syn_due s00) eqn:Edue.
  2:{ assert (Hn : notdue s00).
      { unfold notdue, syn_hs, syn_due in *. destruct (v_state s00); auto; discriminate. }
      destruct (Hnd Hn) as [A B]. split; assumption. }
  clear Hnd.
  cbn [poll_loop]. rewrite poll_body_decomp.
  destruct (maybe_send_syn_ack_spec (body_start s00) eq_refl) as (_ & _ & S3 & S4).
  change (v_state (body_start s00)) with (v_state s00) in S3, S4.
  change (v_now (body_start s00)) with (v_env_now s00) in S3, S4.
  change (v_t_syn_ack_resend (body_start s00)) with (v_t_syn_ack_resend s00) in S3, S4.
  change (v_opts (body_start s00)) with (v_opts s00) in S3, S4.
  change (v_seq_nr (body_start s00)) with (v_seq_nr s00) in S4.
  change (v_last_consumed (body_start s00)) with (v_last_consumed s00) in S4.
  fold (syn_k0 s00) in S3, S4.
  assert (Hhs : match v_state s00 with SynReceived | SynAckSent _ => true | _ => false end = true) by exact Ehs.
  assert (Hdue : match v_state s00 with SynReceived => true
                 | SynAckSent _ => timer_expired (v_t_syn_ack_resend s00) (v_env_now s00) | _ => false end = true)
    by exact Edue.
  specialize (S3 Hhs Hdue). specialize (S4 Hhs Hdue).
  destruct (Z.eqb_spec (syn_k0 s00) (o_max_retx (v_opts s00))) as [Hk|Hk].
  - (* exhausted *)
    rewrite (S3 Hk). unfold pend, bail, die. cbn [fst snd].
    destruct (jbd_kept (body_start s00) (Some ErrMaxSynAckRetransmissionsReached)) as [K1 K2].
    split; [exact K2|]. split; [reflexivity|exact K1].
  - destruct (S4 Hk) as [(s1 & p & h & Hs & -> & P1 & P2 & P3 & P4)|[(s1 & Hs & ->)|(s1 & Hs & ->)]].
    + (* the SYN-ACK went out *)
      set (sA := set_t_syn_ack_resend (set_state (on_packet_sent (emit s1 p) h) (SynAckSent (syn_k0 s00 + 1)))
                   (Some (v_env_now s00 + SYNACK_RESEND_INTERNAL))).
      assert (FA : v_restart sA = false /\ v_transport_pending sA = false /\ v_out sA = [p] /\
                   v_env_now sA = v_env_now s00 /\ v_state sA = SynAckSent (syn_k0 s00 + 1) /\
                   v_t_syn_ack_resend sA = Some (v_env_now s00 + SYNACK_RESEND_INTERNAL)).
      { unfold sA, on_packet_sent, emit. destruct Hs as [->|[q ->]]; unfold body_start; vsimpl; rewrite Ho; repeat split. }
      destruct FA as (A1 & A2 & A3 & A4 & A5 & A6).
      unfold pend, bail. rewrite A1, A2.
      pose proof (body_rest_frame cci sA sA (pframe_refl sA)) as B.
      (* whatever follows is a pframe-successor of sA *)
      assert (Hfin : forall s' : vsock, pframe sA s' ->
                v_env_now s' = v_env_now s00 /\ (syn_sent s00 s' \/ syn_kept s00 s')).
      { intros s' F. split; [rewrite (pframe_env _ _ F); exact A4|]. left.
        destruct F as ((_ & _ & _ & _ & _ & _ & (l & Fo) & _) & Fr). split.
        - exists l, p. rewrite Fo, A3. repeat split; assumption.
        - unfold syn_rel in Fr. destruct (v_state s'); auto.
          + rewrite A5 in Fr. discriminate.
          + destruct Fr as [Fr1 Fr2]. rewrite A5 in Fr1. injection Fr1 as <-. split; [reflexivity|congruence]. }
      destruct (body_rest cci sA tt) as [s' r|s''|]; cbn [bframe fst snd] in *.
      * apply Hfin. exact B.
      * apply Hfin. eapply pframe_trans; [exact B|]. apply poll_loop_notdue.
        destruct B as ((_ & _ & _ & Be & _) & Br). unfold notdue. unfold syn_rel in Br.
        destruct (v_state s''); auto.
        -- rewrite A5 in Br. discriminate.
        -- destruct Br as [_ Br]. rewrite Br, A6, Be, A4. unfold timer_expired, SYNACK_RESEND_INTERNAL. lia.
      * split; [reflexivity|]. right. split; reflexivity.
    + (* the transport refused it *)
      unfold pend, bail. cbn [fst snd].
      assert (FA : v_restart (set_transport_pending s1 true) = false /\
                   v_state s1 = v_state s00 /\ v_t_syn_ack_resend s1 = v_t_syn_ack_resend s00 /\
                   v_env_now s1 = v_env_now s00).
      { destruct Hs as [->|[q ->]]; unfold body_start; vsimpl; repeat split. }
      destruct FA as (A1 & A2 & A3 & A4). rewrite A1.
      change (v_transport_pending (set_transport_pending s1 true)) with true. cbn [fst snd].
      split; [exact A4|]. right. split; assumption.
    + (* transport error *)
      unfold pend, bail, die. cbn [fst snd].
      assert (FA : v_state s1 = v_state s00 /\ v_t_syn_ack_resend s1 = v_t_syn_ack_resend s00 /\
                   v_env_now s1 = v_env_now s00).
      { destruct Hs as [->|[q ->]]; unfold body_start; vsimpl; repeat split. }
      destruct FA as (A2 & A3 & A4).
      destruct (jbd_kept s1 (Some ErrSend)) as [[K1 K1'] K2].
      split; [congruence|]. right. split; congruence.
Qed.

Lemma poll_SY (s s' : vsock) sc r : poll cci (VSockRec.set_sends s sc) = (s', r) -> SY s s' r.
Proof.
  intro E. rewrite poll_unfold in E.
  pose proof (poll_loop_SY 63 (poll_init (VSockRec.set_sends s sc)) eq_refl) as H.
  change (S 63) with 64%nat in H. rewrite E in H. exact H.
Qed.

(* the precondition: the options are those of the configuration, the limit is not negative, and a
   SYN-ACK counter is within 1..limit.  Invariant of every trace from vsock_new (see below). *)
Definition syn_pre (cfg : vconfig) (s : vsock) : Prop :=
  o_max_retx (v_opts s) = vc_max_retx cfg /\ 0 <= vc_max_retx cfg /\
  forall k, v_state s = SynAckSent k -> 1 <= k <= vc_max_retx cfg.

Lemma optz_eqb_refl a : optz_eqb a a = true.
Proof. destruct a; cbn [optz_eqb]; [apply Z.eqb_refl|reflexivity]. Qed.

(* the predicate, as a function of the few values it looks at *)
Definition synack_check (maxr : Z) (st0 : vstate) (t0 : option Z) (now : Z) (st1 : vstate) (t1 : option Z)
  (r : poll_result) (first_ok : bool) : bool :=
  let handshaking := match st0 with SynReceived | SynAckSent _ => true | _ => false end in
  let due := match st0 with
             | SynReceived => true
             | SynAckSent _ => timer_expired t0 now
             | _ => false
             end in
  let k0 := match st0 with SynAckSent k => k | _ => 0 end in
  let sent := match st1 with
              | SynReceived => false
              | SynAckSent k' => negb (k' =? k0)
              | _ => due
              end in
  if handshaking then
    (if sent then first_ok else true) &&
    (if sent then due else true) &&
    (match st1 with
     | SynAckSent k' =>
         (if sent then (k' =? k0 + 1) && optz_eqb t1 (Some (now + SYNACK_RESEND_INTERNAL))
          else (k' =? k0) && optz_eqb t1 t0) &&
         (1 <=? k') && (k' <=? maxr)
     | SynReceived => match st0 with SynReceived => true | _ => false end
     | _ => true
     end) &&
    (if due && (k0 =? maxr) then
       match r with PollReadyErr e => verror_is_max_synack e | _ => false end
     else true)
  else
    match st1 with SynReceived | SynAckSent _ => false | _ => true end.

Lemma c17_synack_ok_check cfg st :
  c17_synack_ok cfg st =
  match fs_event st, fs_result st with
  | FePoll _, FrPoll r pkts _ _ =>
      synack_check (vc_max_retx cfg) (f_state (fs_pre st)) (f_t_syn_ack_resend (fs_pre st)) (fs_now st)
        (f_state (fs_post st)) (f_t_syn_ack_resend (fs_post st)) r
        (match pkts with p :: _ => synack_shape (fs_pre st) p | [] => false end)
  | _, _ => true
  end.
Proof. reflexivity. Qed.

Ltac zb := repeat match goal with
  | |- context [?a =? ?b] => destruct (Z.eqb_spec a b); try lia
  | |- context [?a <=? ?b] => destruct (Z.leb_spec a b); try lia
  end; cbn [andb negb orb]; try reflexivity.

Lemma synack_check_ok maxr st0 t0 now st1 t1 r first_ok :
  0 <= maxr -> (forall k, st0 = SynAckSent k -> 1 <= k <= maxr) ->
  (let hs := match st0 with SynReceived | SynAckSent _ => true | _ => false end in
   let due := match st0 with SynReceived => true | SynAckSent _ => timer_expired t0 now | _ => false end in
   let k0 := match st0 with SynAckSent k => k | _ => 0 end in
   if hs then
     if due then
       if k0 =? maxr
       then r = PollReadyErr ErrMaxSynAckRetransmissionsReached /\ st1 = st0 /\ t1 = t0
       else (first_ok = true /\
             match st1 with
             | SynReceived => False
             | SynAckSent k => k = k0 + 1 /\ t1 = Some (now + SYNACK_RESEND_INTERNAL)
             | _ => True
             end) \/ (st1 = st0 /\ t1 = t0)
     else match st1 with
          | SynAckSent k => st0 = SynAckSent k /\ t1 = t0
          | SynReceived => st0 = SynReceived
          | _ => True
          end
   else match st1 with SynReceived | SynAckSent _ => False | _ => True end) ->
  synack_check maxr st0 t0 now st1 t1 r first_ok = true.
Proof.
  intros H0 Hk H. cbv zeta in H. unfold synack_check.
  destruct st0 as [|k0| | | | |]; cbv beta iota zeta.
  3-7: destruct st1; try contradiction; reflexivity.
  - (* SynReceived *)
    destruct (Z.eqb_spec 0 maxr) as [Hm|Hm].
    + destruct H as (-> & -> & ->). cbn [andb verror_is_max_synack]. reflexivity.
    + destruct H as [(-> & H)|(-> & ->)]; [|cbn [andb]; reflexivity].
      destruct st1 as [|k1| | | | |]; try contradiction; cbn [andb]; try reflexivity.
      destruct H as [-> ->]. rewrite optz_eqb_refl. zb.
  - (* SynAckSent k0 *)
    specialize (Hk k0 eq_refl).
    destruct (timer_expired t0 now) eqn:Edue.
    + destruct (Z.eqb_spec k0 maxr) as [Hm|Hm].
      * destruct H as (-> & -> & ->). rewrite optz_eqb_refl. zb.
      * destruct H as [(-> & H)|(-> & ->)]; [|rewrite optz_eqb_refl; zb].
        destruct st1 as [|k1| | | | |]; try contradiction; cbn [andb]; try reflexivity.
        destruct H as [-> ->]. rewrite optz_eqb_refl. zb.
    + destruct st1 as [|k1| | | | |]; try discriminate; cbn [andb]; try reflexivity.
      destruct H as [H ->]. injection H as <-. rewrite optz_eqb_refl. zb.
Qed.

Theorem c17_synack_ok_step : forall cfg (s : vsock) o,
  syn_pre cfg s -> c17_synack_ok cfg (fstep_of cci s o) = true.
Proof.
  intros cfg s o (Pm & P0 & Pk). rewrite c17_synack_ok_check. destruct o;
    try (rewrite fstep_of_event; reflexivity).
  destruct (poll cci (VSockRec.set_sends s script)) as [s' r] eqn:E.
  rewrite (fstep_of_poll cci s script s' r E).
  cbn [fs_event fs_result fs_pre fs_post fs_now fp_of_vsock f_state f_t_syn_ack_resend].
  apply poll_SY in E. destruct E as (En & E). rewrite En.
  apply synack_check_ok; [exact P0|exact Pk|]. cbv zeta.
  unfold syn_hs, syn_due in E. fold (syn_k0 s). rewrite <- Pm.
  destruct (match v_state s with SynReceived | SynAckSent _ => true | _ => false end) eqn:Ehs.
  2:{ unfold syn_hs in E. destruct (v_state s'); try discriminate; exact I. }
  destruct (match v_state s with SynReceived => true
            | SynAckSent _ => timer_expired (v_t_syn_ack_resend s) (v_env_now s) | _ => false end) eqn:Edue.
  2:{ exact E. }
  destruct (syn_k0 s =? o_max_retx (v_opts s)).
  - destruct E as (E1 & E2 & E3). auto.
  - destruct E as [((l & p & Eo & Q1 & Q2 & Q3 & Q4) & E)|(E1 & E2)]; [left|right; split; assumption].
    split; [|exact E].
    rewrite Eo, rev_app_distr. cbn [rev app map].
    unfold synack_shape, pkt_is, pkt_seq, pkt_ack, fpacket_of. cbn [fq_hdr fq_plen fp_of_vsock f_seq_nr f_last_consumed].
    rewrite Q1, Q2, Q3, Q4. cbn [length Z.of_nat]. rewrite !Z.eqb_refl. reflexivity.
Qed.

(* ---- syn_pre is an invariant of every trace from vsock_new ---- *)
Lemma syn_pre_new mk cfg (s0 : vsock) :
  vsock_new cci mk cfg = Some s0 -> 0 <= vc_max_retx cfg -> syn_pre cfg s0.
Proof.
  unfold vsock_new. intros H H0.
  destruct (match (if vc_incoming cfg then None else _) with Some r => _ | None => _ end); [|discriminate].
  injection H as <-. unfold syn_pre. cbn [v_opts o_max_retx v_state].
  split; [reflexivity|]. split; [exact H0|]. intros k Hk. destruct (vc_incoming cfg); discriminate.
Qed.

(* what the events other than a poll leave alone *)
Lemma vstep_nonpoll_fields (s : vsock) o :
  match o with
  | VoPoll _ => True
  | _ => v_state (vstep_state cci s o) = v_state s /\
         v_cbu (vstep_state cci s o) = v_cbu s /\ v_ss (vstep_state cci s o) = v_ss s /\
         (o <> VoCloseInbox -> v_inbox_closed (vstep_state cci s o) = v_inbox_closed s) /\
         match o with
         | VoDeliver _ | VoCloseInbox => True
         | _ => v_inbox (vstep_state cci s o) = v_inbox s /\
                poll_finished (snd (fst (fst (vstep cci s o)))) = false
         end
  end.
Proof.
  unfold vstep_state. destruct o; try exact I; cbn [vstep].
  - repeat split.
  - repeat split.
  - destruct (v_inbox_closed s) eqn:Hc; repeat split; intros _; exact Hc.
  - repeat split. intro H. destruct (H eq_refl).
  - destruct (writer_dropped _); [|destruct (poll_write _ _) as [[tx1 r] w]]; repeat split.
  - destruct (writer_dropped _); [|destruct (poll_flush _) as [[tx1 r] w]]; repeat split.
  - destruct (writer_dropped _); [|destruct (poll_shutdown _) as [[tx1 r] w]]; repeat split.
  - destruct (reader_dropped _); [|destruct (rx_read _ _) as [[rx1 r] w]]; repeat split.
  - destruct (reader_dropped _); [|destruct (rx_drop_reader _) as [rx1 w]]; repeat split.
  - destruct (drop_writer _) as [tx1 w]; repeat split.
Qed.

Lemma vstep_nonpoll_state (s : vsock) o :
  (forall sc, o <> VoPoll sc) -> v_state (vstep_state cci s o) = v_state s.
Proof.
  intro Hn. pose proof (vstep_nonpoll_fields s o) as K.
  destruct o; try exact (proj1 K). exfalso. eapply Hn; reflexivity.
Qed.

Lemma syn_pre_vstep cfg (s : vsock) o : syn_pre cfg s -> syn_pre cfg (vstep_state cci s o).
Proof.
  intros (Pm & P0 & Pk). destruct (vstep_keeps cci s o) as (Ko & _).
  split; [rewrite Ko; exact Pm|]. split; [exact P0|].
  assert (Hnp : (forall sc, o <> VoPoll sc) -> forall k, v_state (vstep_state cci s o) = SynAckSent k ->
                1 <= k <= vc_max_retx cfg).
  { intros Hn k Hk. rewrite (vstep_nonpoll_state s o Hn) in Hk. apply Pk. exact Hk. }
  destruct o; try (apply Hnp; intros sc; discriminate). clear Hnp.
  unfold vstep_state. cbn [vstep].
  destruct (poll cci (VSockRec.set_sends s script)) as [s' r] eqn:E. cbn [fst].
  apply poll_SY in E. destruct E as (_ & E). unfold syn_hs, syn_due, syn_sent, syn_kept, syn_k0 in E.
  rewrite Pm in E. intros k Hk.
  destruct (v_state s) as [|k0| | | | |] eqn:Es; try (rewrite Hk in E; discriminate).
  - destruct (Z.eqb_spec 0 (vc_max_retx cfg)) as [Hm|Hm].
    + destruct E as (_ & E1 & _). congruence.
    + destruct E as [(_ & E)|(E1 & _)]; [|congruence]. rewrite Hk in E. destruct E as [-> _]. lia.
  - specialize (Pk k0 eq_refl).
    destruct (timer_expired _ _).
    + destruct (Z.eqb_spec k0 (vc_max_retx cfg)) as [Hm|Hm].
      * destruct E as (_ & E1 & _). rewrite Hk in E1. injection E1 as ->. exact Pk.
      * destruct E as [(_ & E)|(E1 & _)].
        -- rewrite Hk in E. destruct E as [-> _]. lia.
        -- rewrite Hk in E1. injection E1 as ->. exact Pk.
    + unfold syn_rel in E. rewrite Hk, Es in E. destruct E as [E _]. injection E as ->. exact Pk.
Qed.

(* ================================================================== c17_fin_after_data_ok *)
(* every byte of the send buffer is segmented (or the buffer is empty) and every segment was sent *)
Definition FAD (s : vsock) : Prop :=
  (Z.of_nat (length (ring (v_tx s))) <= ss_len_bytes (v_segs s) \/ ring (v_tx s) = []) /\
  (forall g, In g (ss_segs (v_segs s)) -> sg_delivered g = true \/ seg_send_count g <> 0).

(* the steps after the decision to close keep the state, the ring and the segments *)
Definition keeps3 (s s' : vsock) : Prop :=
  v_state s' = v_state s /\ ring (v_tx s') = ring (v_tx s) /\ v_segs s' = v_segs s.

Lemma keeps3_refl s : keeps3 s s.
Proof. unfold keeps3. auto. Qed.

Lemma keeps3_trans a b c : keeps3 a b -> keeps3 b c -> keeps3 a c.
Proof. unfold keeps3. intros (A1 & A2 & A3) (B1 & B2 & B3). repeat split; congruence. Qed.

(* keeps3 contains the elementary updates of the control packets (VSock_LemmasReach, StepRel) *)
Ltac k3_leaf := intros; unfold keeps3, on_packet_sent, emit; vsimpl; auto.

Lemma maybe_send_fin_keeps3 (s : vsock) :
  match maybe_send_fin s with SOk s' _ | SErr s' _ => keeps3 s s' | SPanic => True end.
Proof. apply (VSock_LemmasReach.maybe_send_fin_R keeps3 keeps3_refl keeps3_trans); k3_leaf. Qed.

Lemma maybe_send_ack_keeps3 (s : vsock) :
  match maybe_send_ack s with SOk s' _ | SErr s' _ => keeps3 s s' | SPanic => True end.
Proof. apply (VSock_LemmasReach.maybe_send_ack_R keeps3 keeps3_refl keeps3_trans); k3_leaf. Qed.

(* left: nobody entered FinWait1 since the poll_body under consideration started at t;
   right: the decision to close on own initiative was taken, with everything sent *)
Definition Jt (t s : vsock) : Prop :=
  (forall f, v_state s = FinWait1 f -> v_state t = FinWait1 f) \/ FAD s.

Lemma Jt_keeps (t s s' : vsock) : Jt t s -> keeps3 s s' -> Jt t s'.
Proof.
  intros [H|[H1 H2]] (K1 & K2 & K3); [left; intros f Hf; apply H; congruence|right].
  unfold FAD. rewrite K2, K3. split; assumption.
Qed.

Definition body_tail (s : vsock) : body_res :=
  pend (maybe_send_fin s) (fun s _ => pend (maybe_send_ack s) (fun s _ => body_finish s)).

Lemma body_back_tail s6 :
  body_back s6 = body_tail (if should_close_on_own_initiative s6 then transition_to_fin_wait_1 s6 else s6).
Proof. reflexivity. Qed.

Lemma tail_J (t s7 : vsock) :
  v_restart s7 = false -> Jt t s7 ->
  match body_tail s7 with BrReturn s' _ => Jt t s' | BrRestart _ => False | BrPanic => True end.
Proof.
  intros R7 J7. unfold body_tail, pend, bail, die.
  pose proof (maybe_send_fin_keeps3 s7) as K8.
  destruct (maybe_send_fin s7) as [s8 b8|s8 e8|] eqn:E8; [| |exact I].
  2:{ eapply Jt_keeps; [exact J7|]. destruct K8 as (K1 & K2 & K3).
      pose proof (jbd_spec s8 (Some e8)) as J. cbv zeta in J. destruct J as (J1 & J2 & J3 & _).
      repeat split; congruence. }
  pose proof (maybe_send_fin_restart _ _ _ E8) as R8. rewrite R7 in R8. rewrite R8.
  assert (J8 : Jt t s8) by (eapply Jt_keeps; eauto).
  destruct (v_transport_pending s8); [exact J8|].
  pose proof (maybe_send_ack_keeps3 s8) as K9.
  destruct (maybe_send_ack s8) as [s9 b9|s9 e9|] eqn:E9; [| |exact I].
  2:{ eapply Jt_keeps; [exact J8|]. destruct K9 as (K1 & K2 & K3).
      pose proof (jbd_spec s9 (Some e9)) as J. cbv zeta in J. destruct J as (J1 & J2 & J3 & _).
      repeat split; congruence. }
  pose proof (maybe_send_ack_restart _ _ _ E9) as R9. rewrite R8 in R9. rewrite R9.
  assert (J9 : Jt t s9) by (eapply Jt_keeps; eauto).
  destruct (v_transport_pending s9); [exact J9|].
  unfold body_finish. destruct (state_is_closed _ _).
  { eapply Jt_keeps; [exact J9|].
    pose proof (jbd_spec s9 None) as J. cbv zeta in J. destruct J as (J1 & J2 & J3 & _).
    repeat split; assumption. }
  match goal with |- context [next_timer_to_poll ?x] => assert (J10 : Jt t x); [|revert J10; generalize x; intros s10 J10] end.
  { destruct (is_local_fin_or_later (v_state s9)); exact J9. }
  unfold next_timer_to_poll, arm_in, add_wakes. destruct (v_transport_pending s10).
  - destruct (v_t_inactivity s10); [|exact J10]. destruct (_ <=? _); exact J10.
  - match goal with |- Jt t (match ?x with _ => _ end) => destruct x end;
      [destruct (_ <=? _)|]; exact J10.
Qed.

Definition is_err_send (r : poll_result) : Prop := r = PollReadyErr ErrSend.

Lemma body_FAD (t : vsock) :
  match poll_body cci t with
  | BrReturn s' r =>
      (forall f, v_state s' = FinWait1 f -> v_state t = FinWait1 f) \/ FAD s' \/
      (v_inbox_closed t = true /\ r = PollReadyErr ErrSend)
  | BrRestart s' => G t s'
  | BrPanic => True
  end.
Proof.
  rewrite poll_body_parts. apply body_front_walk.
  - intros r He. destruct r as [s' [| |e|]|s'|]; cbn [early] in He; try contradiction; auto.
    + left. apply He.
    + destruct He as (s1 & (_ & HW) & ->).
      pose proof (jbd_spec s1 (Some e)) as J. cbv zeta in J. destruct J as (J1 & _).
      destruct HW as [HW|(Hc & ->)]; [left|right; right; auto].
      intros f Hf. apply HW. congruence.
  - intros s4 s5 s6 F4 E5 E6 F6 R6 T6. rewrite body_back_tail.
    assert (G46 : G s4 s6).
    { pose proof (split_G cci s4) as A. rewrite E5 in A. pose proof (send_tx_queue_G cci s5) as B. rewrite E6 in B.
      eapply G_trans; eauto. }
    assert (J7 : Jt t (if should_close_on_own_initiative s6 then transition_to_fin_wait_1 s6 else s6)).
    { destruct (should_close_on_own_initiative s6) eqn:Hc; [right|left; apply F6].
      assert (HF : FAD s6).
      { destruct (should_close_guard s6 Hc) as (_ & Hu & Hl). split; [|apply all_sent_of_guard; exact Hu].
        destruct (ring (v_tx s4)) as [|b0 rest] eqn:Er.
        - right. rewrite (split_empty_ring cci s4 Er) in E5. injection E5 as <-.
          pose proof (send_tx_queue_uframe cci (set_tx s4 (register_dispatcher_if_empty (v_tx s4)))) as U.
          rewrite E6 in U. cbn [sufr_r] in U. destruct U as [(_ & U2 & _)|U]; [|congruence].
          rewrite U2. vsimpl. unfold register_dispatcher_if_empty. rewrite Er. cbn [ring upd]. reflexivity.
        - left. eapply (fin_after_all_data_in_poll cci s4 s5 s6); eauto; [|rewrite Er; discriminate].
          destruct G46 as ((Hst & _) & _).
          destruct (v_state s4), (v_state s6); cbn [st_rel is_local_fin_or_later is_remote_fin_or_later] in *;
            try reflexivity; try discriminate; contradiction. }
      unfold transition_to_fin_wait_1. destruct (v_state s6); exact HF. }
    assert (R7 : v_restart (if should_close_on_own_initiative s6 then transition_to_fin_wait_1 s6 else s6) = false).
    { destruct (should_close_on_own_initiative s6); [rewrite transition_to_fin_wait_1_restart|]; exact R6. }
    pose proof (tail_J t _ R7 J7) as H.
    destruct (body_tail _) as [s' r|s'|]; [|contradiction|exact I].
    destruct H as [H|H]; auto.
Qed.

Theorem poll_FAD (s s' : vsock) r :
  poll cci s = (s', r) ->
  forall f, v_state s' = FinWait1 f ->
    v_state s = FinWait1 f \/ FAD s' \/ (v_inbox_closed s = true /\ r = PollReadyErr ErrSend).
Proof.
  intro E. rewrite poll_unfold in E.
  pose proof (poll_loop_ind cci
    (fun t => (forall f, v_state t = FinWait1 f -> v_state s = FinWait1 f) /\ v_inbox_closed t = v_inbox_closed s)
    (fun s' r => forall f, v_state s' = FinWait1 f ->
       v_state s = FinWait1 f \/ FAD s' \/ (v_inbox_closed s = true /\ r = PollReadyErr ErrSend))) as H.
  specialize (H ltac:(intros t [Ht _] f Hf; left; auto)).
  assert (Hb : forall t, (forall f, v_state t = FinWait1 f -> v_state s = FinWait1 f) /\
                         v_inbox_closed t = v_inbox_closed s ->
     match poll_body cci t with
     | BrReturn s'0 r0 => forall f, v_state s'0 = FinWait1 f ->
         v_state s = FinWait1 f \/ FAD s'0 \/ (v_inbox_closed s = true /\ r0 = PollReadyErr ErrSend)
     | BrRestart s'0 => (forall f, v_state s'0 = FinWait1 f -> v_state s = FinWait1 f) /\
                        v_inbox_closed s'0 = v_inbox_closed s
     | BrPanic => True
     end).
  { intros t [Ht Hc]. pose proof (body_FAD t) as B. destruct (poll_body cci t) as [s1 r1|s1|]; [| |exact I].
    - intros f Hf. destruct B as [B|[B|(B1 & B2)]]; [left; auto|right; left; exact B|].
      right; right. split; [congruence|exact B2].
    - destruct B as ((_ & _ & _ & B4 & _) & BW). split; [intros f Hf; auto|congruence]. }
  specialize (H Hb 64%nat (poll_init s)). rewrite E in H. apply H. split; [auto|reflexivity].
Qed.

(* assumed-and-monitored on the fingerprint after the step: the segmented bytes are within the buffer *)
Definition c17_seg_bounds (fp : vfp) : bool :=
  (0 <=? f_seg_len_bytes fp) && (f_seg_len_bytes fp <=? f_tx_len fp).

(* c17_not_err_send: Conn/C17_Pred.v *)

Lemma FAD_bool (s' : vsock) :
  FAD s' -> c17_seg_bounds (fp_of_vsock cci s') = true ->
  (f_tx_len (fp_of_vsock cci s') =? f_seg_len_bytes (fp_of_vsock cci s')) &&
  forallb (fun g => negb (fg_sent_kind g =? 0) || fg_delivered g) (f_segs (fp_of_vsock cci s')) = true.
Proof.
  intros [H1 H2] Hb. unfold c17_seg_bounds in Hb. cbn [fp_of_vsock f_tx_len f_seg_len_bytes f_segs] in *.
  apply andb_true_iff in Hb as (Hb1 & Hb2). apply Z.leb_le in Hb1, Hb2.
  apply andb_true_intro. split.
  - apply Z.eqb_eq. destruct H1 as [H1|H1]; [lia|]. rewrite H1 in *. cbn [length Z.of_nat] in *. lia.
  - apply forallb_forall. intros x Hx. apply in_map_iff in Hx. destruct Hx as (g & <- & Hg).
    unfold fseg_of. cbn [fg_sent_kind fg_delivered].
    destruct (H2 g Hg) as [Hd|Hc]; [rewrite Hd; apply orb_true_r|].
    unfold seg_send_count in Hc. destruct (sg_sent g); [contradiction|reflexivity|reflexivity].
Qed.

(* general form: the predicate holds unless the channel was closed AND the poll reports a transport error *)
Theorem c17_fin_after_data_ok_step_gen : forall cfg (s : vsock) o,
  c17_seg_bounds (fs_post (fstep_of cci s o)) = true ->
  v_inbox_closed s = false \/ c17_not_err_send (fs_result (fstep_of cci s o)) = true ->
  c17_fin_after_data_ok cfg (fstep_of cci s o) = true.
Proof.
  intros cfg s o. destruct o;
    try (intros _ _; unfold c17_fin_after_data_ok; rewrite fstep_of_event; reflexivity).
  destruct (poll cci (VSockRec.set_sends s script)) as [s' r] eqn:E.
  rewrite (fstep_of_poll cci s script s' r E). unfold c17_fin_after_data_ok.
  cbn [fs_event fs_result fs_pre fs_post]. intros Hb Hg.
  destruct (f_state (fp_of_vsock cci s')) as [| | |f| | |] eqn:Es'; try reflexivity.
  cbn [fp_of_vsock f_state] in Es'.
  destruct (pre_local_fin (f_state (fp_of_vsock cci s))) eqn:Epre; [reflexivity|].
  cbn [fp_of_vsock f_state] in Epre. unfold pre_local_fin in Epre.
  destruct (poll_FAD _ _ _ E f Es') as [H|[H|(H1 & H2)]].
  - change (v_state (VSockRec.set_sends s script)) with (v_state s) in H. rewrite H in Epre. discriminate.
  - apply FAD_bool; assumption.
  - exfalso. change (v_inbox_closed (VSockRec.set_sends s script)) with (v_inbox_closed s) in H1.
    destruct Hg as [Hg|Hg]; [congruence|]. rewrite H2 in Hg. discriminate.
Qed.

Theorem c17_fin_after_data_ok_step_open : forall cfg (s : vsock) o,
  v_inbox_closed s = false -> c17_seg_bounds (fs_post (fstep_of cci s o)) = true ->
  c17_fin_after_data_ok cfg (fstep_of cci s o) = true.
Proof. intros cfg s o H1 H2. apply c17_fin_after_data_ok_step_gen; auto. Qed.

(* the guard evaluated on the step alone *)
Definition c17_fin_after_data_guard (st : fstep) : bool :=
  c17_seg_bounds (fs_post st) && c17_not_err_send (fs_result st).

Definition c17_fin_after_data_guarded (cfg : vconfig) (st : fstep) : bool :=
  if c17_fin_after_data_guard st then c17_fin_after_data_ok cfg st else true.

Theorem c17_fin_after_data_guarded_step : forall cfg (s : vsock) o,
  c17_fin_after_data_guarded cfg (fstep_of cci s o) = true.
Proof.
  intros cfg s o. unfold c17_fin_after_data_guarded, c17_fin_after_data_guard.
  destruct (c17_seg_bounds _) eqn:E1; [|reflexivity]. destruct (c17_not_err_send _) eqn:E2; [|reflexivity].
  cbn [andb]. apply c17_fin_after_data_ok_step_gen; auto.
Qed.

(* ================================================================== along every trace *)
Theorem c17_reset_ok_trace : forall cfg ops (s : vsock),
  forallb (c17_reset_ok cfg) (ftrace cci s ops) = true.
Proof.
  intros cfg ops s. apply (ftrace_forallb cci (fun _ => True)); auto.
  intros s0 o _. apply c17_reset_ok_step.
Qed.

Theorem c17_fin_number_step_ok_trace : forall cfg ops (s : vsock),
  forallb (c17_fin_number_step_ok cfg) (ftrace cci s ops) = true.
Proof.
  intros cfg ops s. apply (ftrace_forallb cci (fun _ => True)); auto.
  intros s0 o _. apply c17_fin_number_step_ok_step.
Qed.

Theorem c17_synack_ok_trace_pre : forall cfg ops (s : vsock),
  syn_pre cfg s -> forallb (c17_synack_ok cfg) (ftrace cci s ops) = true.
Proof.
  intros cfg. apply (ftrace_forallb cci (syn_pre cfg)).
  - intros s o H. apply c17_synack_ok_step. exact H.
  - apply syn_pre_vstep.
Qed.

Theorem c17_synack_ok_trace : forall mk cfg (s0 : vsock) ops,
  vsock_new cci mk cfg = Some s0 -> 0 <= vc_max_retx cfg ->
  forallb (c17_synack_ok cfg) (ftrace cci s0 ops) = true.
Proof.
  intros mk cfg s0 ops Hn H0. apply c17_synack_ok_trace_pre. eapply syn_pre_new; eauto.
Qed.

Theorem c17_fin_after_data_guarded_trace : forall cfg ops (s : vsock),
  forallb (c17_fin_after_data_guarded cfg) (ftrace cci s ops) = true.
Proof.
  intros cfg ops s. apply (ftrace_forallb cci (fun _ => True)); auto.
  intros s0 o _. apply c17_fin_after_data_guarded_step.
Qed.

(* while the dispatcher's channel is open (no VoCloseInbox so far) only the bound is needed *)
Definition c17_fin_after_data_bounded (cfg : vconfig) (st : fstep) : bool :=
  if c17_seg_bounds (fs_post st) then c17_fin_after_data_ok cfg st else true.

Definition not_close_inbox (o : vop) : Prop := o <> VoCloseInbox.

Lemma vstep_inbox_open (s : vsock) o :
  not_close_inbox o -> v_inbox_closed s = false -> v_inbox_closed (vstep_state cci s o) = false.
Proof.
  intros Hn Hc. pose proof (vstep_nonpoll_fields s o) as K.
  destruct o; try (destruct K as (_ & _ & _ & K4 & _); rewrite (K4 Hn); exact Hc).
  unfold vstep_state. cbn [vstep].
  destruct (poll cci (VSockRec.set_sends s script)) as [s' r] eqn:E. cbn [fst].
  rewrite poll_unfold in E. pose proof (poll_loop_frame0 cci 64 (poll_init (VSockRec.set_sends s script))) as F.
  rewrite E in F. cbn [fst] in F. destruct F as (_ & _ & _ & _ & _ & F6 & _). rewrite F6. exact Hc.
Qed.

Theorem c17_fin_after_data_open_trace : forall cfg ops (s : vsock),
  v_inbox_closed s = false -> Forall not_close_inbox ops ->
  forallb (c17_fin_after_data_bounded cfg) (ftrace cci s ops) = true.
Proof.
  intros cfg. induction ops as [|o rest IH]; intros s Hc Hops; [reflexivity|].
  inversion Hops as [|? ? Ho Hrest]; subst.
  rewrite ftrace_cons. cbn [forallb]. apply andb_true_intro. split.
  - unfold c17_fin_after_data_bounded. destruct (c17_seg_bounds _) eqn:Eb; [|reflexivity].
    apply c17_fin_after_data_ok_step_open; assumption.
  - destruct (poll_finished _); [reflexivity|]. apply IH; [|exact Hrest]. apply vstep_inbox_open; assumption.
Qed.

Lemma vsock_new_inbox_open mk cfg (s0 : vsock) : vsock_new cci mk cfg = Some s0 -> v_inbox_closed s0 = false.
Proof.
  unfold vsock_new. intros H.
  destruct (match (if vc_incoming cfg then None else _) with Some r => _ | None => _ end); [|discriminate].
  injection H as <-. reflexivity.
Qed.

(* ================================================================== c17_reset_trace_ok *)
(* ---- what the receive loop leaves behind: an empty inbox, or a closed connection, or a blocked
   transport ---- *)
Definition Dd (s : vsock) : Prop :=
  v_inbox s = [] \/ state_is_closed (v_state s) (o_wait_for_last_ack (v_opts s)) = true \/
  v_transport_pending s = true.

Lemma recv_loop_D : forall fuel (s : vsock) acc s' x, recv_loop cci fuel s acc = SOk s' x -> Dd s'.
Proof.
  assert (Hbase : forall (s : vsock) (acc : on_ack_result) s' x,
    v_inbox s = [] ->
    (if v_inbox_closed s
     then sbind (maybe_send_fin (transition_to_fin_wait_1 s))
                (fun s2 _ => SOk (set_state s2 Closed) (acc, true))
     else SOk (set_inbox_waker s true) (acc, false)) = SOk s' x -> Dd s').
  { intros s acc s' x Ei. destruct (v_inbox_closed s).
    - destruct (maybe_send_fin _) as [s2 b|s2 e|]; cbn [sbind]; try discriminate.
      intro H; injection H as <- _. right; left. reflexivity.
    - intro H; injection H as <- _. left. exact Ei. }
  induction fuel as [|m0 fuel IH]; intros s acc s' x; cbn [recv_loop];
    destruct (v_inbox s) as [|m rest] eqn:Ei; try (apply Hbase; exact Ei); try discriminate.
  destruct (process_incoming_message cci (set_inbox s rest) m) as [s1 r|s1 e|]; cbn [sbind]; try discriminate.
  destruct (state_is_closed _ _ || v_transport_pending s1) eqn:Eb.
  - intro H; injection H as <- _. apply orb_true_iff in Eb. right. exact Eb.
  - apply IH.
Qed.

Lemma process_all_D (s2 s3 : vsock) u : process_all_incoming_messages cci s2 = SOk s3 u -> Dd s3.
Proof.
  rewrite process_all_eq.
  destruct (recv_loop cci _ s2 on_ack_result_default) as [s1 res|s1 e|] eqn:El; cbn [sbind]; try discriminate.
  intro H. apply recv_loop_D in El. apply pa_tail_keeps in H. destruct H as (K1 & K2 & K3 & K4 & _).
  unfold Dd in *. rewrite K1, K2, K3, K4. exact El.
Qed.

Lemma closed_mono (a b : vsock) :
  G0 a b -> state_is_closed (v_state a) (o_wait_for_last_ack (v_opts a)) = true ->
  state_is_closed (v_state b) (o_wait_for_last_ack (v_opts b)) = true.
Proof.
  intros (H1 & _ & _ & _ & Ho). rewrite Ho.
  destruct (v_state a), (v_state b); cbn [st_rel state_is_closed] in *; auto; try discriminate; contradiction.
Qed.

(* a poll that returns Pending with a writable transport has drained the inbox *)
Theorem poll_pending_drained (s s' : vsock) :
  poll cci s = (s', PollPending) -> v_transport_pending s' = false -> v_inbox s' = [].
Proof.
  intros E T. rewrite poll_unfold in E.
  pose proof (poll_loop_ind cci (fun _ => True)
    (fun s' r => r = PollPending -> v_transport_pending s' = false -> v_inbox s' = [])) as H.
  specialize (H ltac:(intros; discriminate)).
  assert (Hb : forall t : vsock, True -> match poll_body cci t with
     | BrReturn s'0 r => r = PollPending -> v_transport_pending s'0 = false -> v_inbox s'0 = []
     | BrRestart _ => True | BrPanic => True end).
  { intros t _. rewrite poll_body_parts. unfold body_front.
    apply (body_head_walk cci (fun r => match r with
       | BrReturn s'0 r => r = PollPending -> v_transport_pending s'0 = false -> v_inbox s'0 = []
       | _ => True end)).
    - intros r He. destruct r as [s1 [| |e|]|s1|]; cbn [early] in He; auto; try contradiction;
        try (intros; discriminate). destruct He as [_ He]. intros _ X. congruence.
    - intros s2 s3 _ _ E3 _ _ T3. pose proof (process_all_D _ _ _ E3) as D.
      pose proof (body_mid_back_G0 cci s3 s3 (G_refl s3)) as B.
      destruct (body_mid cci body_back s3) as [s1 r|s1|]; auto.
      intros -> T1. cbn [bG0] in B. destruct B as [B1 B2]. specialize (B2 T1).
      destruct D as [D|[D|D]]; [apply B1; exact D| |congruence].
      pose proof (closed_mono _ _ B1 D) as C. unfold not_closed in B2. congruence. }
  specialize (H Hb 64%nat (poll_init s) I). rewrite E in H. apply H; auto.
Qed.

Theorem poll_pending_not_closed (s s' : vsock) :
  poll cci s = (s', PollPending) -> v_transport_pending s' = false -> not_closed s'.
Proof. intros E T. apply poll_G0 in E. cbn [pG0] in E. apply E. exact T. Qed.

Lemma pG0_state (a s' : vsock) r : pG0 a s' r -> st_rel (v_state a) (v_state s').
Proof.
  destruct r; cbn [pG0].
  - intros [H _]. apply H.
  - intros (s1 & H & ->). pose proof (jbd_spec s1 None) as J. cbv zeta in J. destruct J as (J1 & _).
    rewrite J1. apply H.
  - intros (s1 & H & ->). pose proof (jbd_spec s1 (Some e)) as J. cbv zeta in J. destruct J as (J1 & _).
    rewrite J1. apply H.
  - intro H. apply H.
Qed.

Lemma st_rel_closed b : st_rel Closed b -> b = Closed.
Proof. destruct b; cbn [st_rel]; intro H; try contradiction; reflexivity. Qed.

(* ---- a reset at the head of the inbox, past the handshake, no immediate ACK owed ---- *)
(* not acknowledging our FIN in LastAck: reported at once, nothing on the wire *)
Theorem reset_err_poll_out : forall (s : vsock) script m rest,
  past_handshake (v_state s) = true -> immediate_ack_to_transmit s = false ->
  v_inbox s = m :: rest -> ch_type (m_hdr m) = ST_RESET ->
  (forall f r, v_state s = LastAck f r -> ch_ack (m_hdr m) <> f) ->
  exists s', poll cci (VSockRec.set_sends s script) = (s', PollReadyErr ErrStResetReceived) /\ v_out s' = [].
Proof.
  intros s script m rest Hp Himm Hin Ht Hn.
  rewrite (poll_past_handshake cci s script Hp Himm). cbv zeta.
  set (s1 := set_t_syn_ack_resend (body_start (poll_init (VSockRec.set_sends s script))) None).
  unfold process_all_incoming_messages.
  change (v_inbox s1) with (v_inbox s). rewrite Hin. cbn [app recv_loop].
  change (v_inbox s1) with (v_inbox s). rewrite Hin.
  rewrite (reset_message_err cci (set_inbox s1 rest) m Ht Hn). cbn [sbind].
  unfold pend at 1, bail at 1, die.
  eexists. split; [reflexivity|].
  pose proof (jbd_spec (set_state (set_inbox s1 rest) Closed) (Some ErrStResetReceived)) as J.
  cbv zeta in J. destruct J as (_ & _ & _ & _ & _ & _ & [J|(Hl & _)]); [rewrite J; reflexivity|discriminate Hl].
Qed.

(* acknowledging our FIN in LastAck: the connection is Closed when the poll returns (unless it panics) *)
Theorem reset_ack_poll : forall (s : vsock) script m rest f r0 s' r,
  immediate_ack_to_transmit s = false ->
  v_inbox s = m :: rest -> ch_type (m_hdr m) = ST_RESET ->
  v_state s = LastAck f r0 -> ch_ack (m_hdr m) = f ->
  poll cci (VSockRec.set_sends s script) = (s', r) -> r = PollPanic \/ v_state s' = Closed.
Proof.
  intros s script m rest f r0 s' r Himm Hin Ht Hs Ha.
  rewrite (poll_past_handshake cci s script) by (try rewrite Hs; auto). cbv zeta.
  set (s1 := set_t_syn_ack_resend (body_start (poll_init (VSockRec.set_sends s script))) None).
  rewrite process_all_eq.
  assert (Hin1 : v_inbox s1 = m :: rest) by exact Hin.
  assert (Hs1 : v_state s1 = LastAck f r0) by exact Hs.
  rewrite Hin1. cbn [app].
  rewrite (reset_ok_recv_loop cci s1 m rest f r0 _ on_ack_result_default m Hin1 Ht Hs1 Ha). cbn [sbind].
  set (sR := set_state (set_inbox s1 rest) Closed).
  set (res := (result_update on_ack_result_default on_ack_result_default, false)).
  assert (HB : bG0 sR (pend (pa_tail sR res) (fun (s : vsock) (_ : unit) => body_mid cci body_back s))).
  { apply (pend_walk (bG0 sR) sR sR); [apply G_refl|apply sG_sGr, pa_tail_G|apply early_bG0|].
    intros s3 a _ F3 _ _. apply body_mid_back_G0. exact F3. }
  assert (HR : v_state sR = Closed) by reflexivity.
  destruct (pend (pa_tail sR res) _) as [s'' r''|s''|].
  - intro H; injection H as <- <-. right. apply st_rel_closed. rewrite <- HR.
    destruct r''; cbn [bG0] in HB.
    + apply HB.
    + destruct HB as (sx & HB & ->). pose proof (jbd_spec sx None) as J. cbv zeta in J.
      destruct J as (J1 & _). rewrite J1. apply HB.
    + destruct HB as (sx & HB & ->). pose proof (jbd_spec sx (Some e)) as J. cbv zeta in J.
      destruct J as (J1 & _). rewrite J1. apply HB.
    + contradiction.
  - cbn [bG0] in HB. intro H. pose proof (poll_loop_G0 63 s'') as P. rewrite H in P. cbn [fst snd] in P.
    apply pG0_state in P. right. apply st_rel_closed. rewrite <- HR.
    eapply st_rel_trans; [apply HB|exact P].
  - intro H; injection H as <- <-. left. reflexivity.
Qed.

(* ---- the trace walk ---- *)
(* what reset_scan's `pending` knows about the model's inbox *)
Definition RInv (s : vsock) (pending : option (list chdr)) : Prop :=
  match pending with
  | Some l => v_inbox_closed s = false /\ map m_hdr (v_inbox s) = l
  | None => True
  end.

Lemma vstep_other (s : vsock) o :
  match o with
  | VoPoll _ | VoDeliver _ | VoCloseInbox => True
  | _ => v_inbox (vstep_state cci s o) = v_inbox s /\
         v_inbox_closed (vstep_state cci s o) = v_inbox_closed s /\
         poll_finished (snd (fst (fst (vstep cci s o)))) = false
  end.
Proof.
  pose proof (vstep_nonpoll_fields s o) as K.
  destruct o; try exact I; destruct K as (_ & _ & _ & K4 & K5 & K6);
    (split; [exact K5|split; [apply K4; discriminate|exact K6]]).
Qed.

(* the judgement of one poll *)
Definition reset_poll_check (pending : option (list chdr)) (st : fstep) : bool :=
  match pending with
  | Some (h :: _) =>
      if ptype_eqb (ch_type h) ST_RESET &&
         match f_state (fs_pre st) with SynReceived | SynAckSent _ => false | _ => true end &&
         (f_cbu (fs_pre st) <? IMMEDIATE_ACK_EVERY_RMSS * f_mss (fs_pre st))
      then
        let acks_fin := match f_state (fs_pre st) with
                        | LastAck f _ => ch_ack h =? f | _ => false end in
        match fs_result st with
        | FrPoll (PollReadyErr e) pk _ _ =>
            if acks_fin then true
            else verror_is_reset e && match pk with [] => true | _ => false end
        | FrPoll PollReadyOk _ _ _ => acks_fin
        | FrPoll PollPending _ _ _ => acks_fin && f_transport_pending (fs_post st)
        | _ => true
        end
      else true
  | _ => true
  end.

Lemma reset_poll_check_ok (s : vsock) sc s' r pending :
  RInv s pending -> poll cci (VSockRec.set_sends s sc) = (s', r) ->
  reset_poll_check pending (fstep_of cci s (VoPoll sc)) = true.
Proof.
  intros Hi E. rewrite (fstep_of_poll cci s sc s' r E). unfold reset_poll_check.
  destruct pending as [[|h l']|]; try reflexivity.
  cbn [fs_pre fs_post fs_result fp_of_vsock f_state f_cbu f_mss f_transport_pending].
  destruct Hi as [Hc Hm].
  destruct (v_inbox s) as [|m rest] eqn:Hin; [discriminate|]. cbn [map] in Hm. injection Hm as Hh _.
  destruct (ptype_eqb (ch_type h) ST_RESET) eqn:Et; [|reflexivity]. cbn [andb].
  apply ptype_eqb_iff in Et. rewrite <- Hh in Et.
  destruct (match v_state s with SynReceived | SynAckSent _ => false | _ => true end) eqn:Eph; [|reflexivity].
  cbn [andb].
  destruct (v_cbu s <? IMMEDIATE_ACK_EVERY_RMSS * mss (v_ss s)) eqn:Ecb; [|reflexivity].
  assert (Himm : immediate_ack_to_transmit s = false).
  { unfold immediate_ack_to_transmit. apply Z.ltb_lt in Ecb. apply Z.leb_gt. exact Ecb. }
  cbv zeta.
  destruct (match v_state s with LastAck f _ => ch_ack h =? f | _ => false end) eqn:Eaf.
  - (* acknowledges our FIN *)
    destruct (v_state s) as [| | | | |f r0|] eqn:Es; try discriminate.
    apply Z.eqb_eq in Eaf. rewrite <- Hh in Eaf.
    destruct r; try reflexivity. cbn [andb].
    destruct (v_transport_pending s') eqn:T; [reflexivity|exfalso].
    pose proof (poll_pending_not_closed _ _ E T) as N.
    destruct (reset_ack_poll s sc m rest f r0 s' PollPending Himm Hin Et Es Eaf E) as [X|X]; [discriminate|].
    unfold not_closed in N. rewrite X in N. discriminate.
  - (* does not *)
    assert (Hn : forall f r1, v_state s = LastAck f r1 -> ch_ack (m_hdr m) <> f).
    { intros f r1 Hs. rewrite Hs in Eaf. apply Z.eqb_neq in Eaf. rewrite Hh. exact Eaf. }
    assert (Hp : past_handshake (v_state s) = true) by exact Eph.
    destruct (reset_err_poll_out s sc m rest Hp Himm Hin Et Hn) as (s'' & E' & Ho).
    rewrite E in E'. injection E' as <- ->. rewrite Ho. reflexivity.
Qed.

Lemma reset_scan_poll pending st rest :
  (exists sc, fs_event st = FePoll sc) ->
  reset_scan (st :: rest) pending =
  reset_poll_check pending st &&
  reset_scan rest (if f_transport_pending (fs_post st) then None
                   else match pending with Some _ => Some [] | None => None end).
Proof. intros [sc H]. cbn [reset_scan]. rewrite H. reflexivity. Qed.

Theorem reset_scan_model : forall ops (s : vsock) pending,
  RInv s pending -> reset_scan (ftrace cci s ops) pending = true.
Proof.
  induction ops as [|o ops IH]; intros s pending Hi; [reflexivity|].
  rewrite ftrace_cons.
  pose proof (vstep_other s o) as Ho.
  (* the events that touch neither the inbox nor its channel leave RInv as it is *)
  destruct o;
    try (destruct Ho as (O1 & O2 & O3); rewrite O3; cbn [reset_scan]; rewrite fstep_of_event; cbn [fevent_of];
         apply IH; destruct pending; cbn [RInv] in *; [rewrite O1, O2; exact Hi|exact I]).
  - (* poll *)
    destruct (poll cci (VSockRec.set_sends s script)) as [s' r] eqn:E.
    rewrite reset_scan_poll by (exists script; apply fstep_of_event).
    rewrite (reset_poll_check_ok s script s' r pending Hi E). cbn [andb].
    assert (Hf : snd (fst (fst (vstep cci s (VoPoll script)))) = VrPoll r (rev (v_out s')) (rev (v_wakes s')) (v_arm_in s')).
    { cbn [vstep]. rewrite E. reflexivity. }
    rewrite Hf. unfold poll_finished. destruct r; try reflexivity.
    assert (Hs : vstep_state cci s (VoPoll script) = s').
    { unfold vstep_state. cbn [vstep]. rewrite E. reflexivity. }
    rewrite Hs. apply IH.
    rewrite (fstep_of_poll cci s script s' _ E). cbn [fs_post fp_of_vsock f_transport_pending].
    destruct (v_transport_pending s') eqn:T; [exact I|].
    destruct pending as [l|]; [|exact I]. cbn [RInv] in *. destruct Hi as [Hc _].
    split.
    + pose proof (poll_G0 _ _ _ E) as P. cbn [pG0] in P. destruct P as ((_ & _ & _ & P4 & _) & _).
      rewrite P4. exact Hc.
    + rewrite (poll_pending_drained _ _ E T). reflexivity.
  - (* deliver *)
    cbn [reset_scan]. rewrite fstep_of_event. cbn [fevent_of].
    assert (Hf : poll_finished (snd (fst (fst (vstep cci s (VoDeliver m))))) = false).
    { cbn [vstep]. destruct (v_inbox_closed s); reflexivity. }
    rewrite Hf. apply IH. destruct pending as [l|]; [|exact I]. cbn [RInv] in *. destruct Hi as [Hc Hm].
    unfold vstep_state. cbn [vstep]. rewrite Hc. cbn [fst]. vsimpl. split; [exact Hc|].
    rewrite map_app, Hm. reflexivity.
  - (* close *)
    cbn [reset_scan]. rewrite fstep_of_event. cbn [fevent_of].
    assert (Hf : poll_finished (snd (fst (fst (vstep cci s VoCloseInbox)))) = false) by reflexivity.
    rewrite Hf. apply IH. exact I.
Qed.

Theorem c17_reset_trace_ok_trace_pre : forall cfg ops (s : vsock),
  v_inbox s = [] -> v_inbox_closed s = false ->
  c17_reset_trace_ok cfg (ftrace cci s ops) = true.
Proof.
  intros cfg ops s H1 H2. unfold c17_reset_trace_ok. apply reset_scan_model.
  cbn [RInv]. rewrite H1. auto.
Qed.

Theorem c17_reset_trace_ok_trace : forall mk cfg (s0 : vsock) ops,
  vsock_new cci mk cfg = Some s0 -> c17_reset_trace_ok cfg (ftrace cci s0 ops) = true.
Proof.
  intros mk cfg s0 ops H. apply c17_reset_trace_ok_trace_pre.
  - revert H. unfold vsock_new.
    destruct (match (if vc_incoming cfg then None else _) with Some r => _ | None => _ end); [|discriminate].
    intro H; injection H as <-. reflexivity.
  - eapply vsock_new_inbox_open; eauto.
Qed.

(* ================================================================== the step theorems, spelled out
   over vstep (what Props/C17.v states) *)
Lemma fstep_of_expand (P : fstep -> bool) (s : vsock) o :
  P (fstep_of cci s o) = true ->
  let '(s', out, dw, sw) := vstep cci s o in
  P {| fs_now := v_env_now s'; fs_pre := fp_of_vsock cci s; fs_event := fevent_of o;
       fs_result := fresult_of out; fs_disp_woken := dw; fs_self_woken := sw;
       fs_post := fp_of_vsock cci s' |} = true.
Proof. unfold fstep_of. destruct (vstep cci s o) as [[[s' out] dw] sw]. auto. Qed.

Theorem c17_reset_ok_vstep : forall cfg (s : vsock) o,
  let '(s', out, dw, sw) := vstep cci s o in
  c17_reset_ok cfg
    {| fs_now := v_env_now s'; fs_pre := fp_of_vsock cci s; fs_event := fevent_of o;
       fs_result := fresult_of out; fs_disp_woken := dw; fs_self_woken := sw;
       fs_post := fp_of_vsock cci s' |} = true.
Proof. intros cfg s o. apply (fstep_of_expand (c17_reset_ok cfg)). apply c17_reset_ok_step. Qed.

Theorem c17_fin_number_step_ok_vstep : forall cfg (s : vsock) o,
  let '(s', out, dw, sw) := vstep cci s o in
  c17_fin_number_step_ok cfg
    {| fs_now := v_env_now s'; fs_pre := fp_of_vsock cci s; fs_event := fevent_of o;
       fs_result := fresult_of out; fs_disp_woken := dw; fs_self_woken := sw;
       fs_post := fp_of_vsock cci s' |} = true.
Proof. intros cfg s o. apply (fstep_of_expand (c17_fin_number_step_ok cfg)). apply c17_fin_number_step_ok_step. Qed.

Theorem c17_synack_ok_vstep : forall cfg (s : vsock) o,
  syn_pre cfg s ->
  let '(s', out, dw, sw) := vstep cci s o in
  c17_synack_ok cfg
    {| fs_now := v_env_now s'; fs_pre := fp_of_vsock cci s; fs_event := fevent_of o;
       fs_result := fresult_of out; fs_disp_woken := dw; fs_self_woken := sw;
       fs_post := fp_of_vsock cci s' |} = true.
Proof. intros cfg s o H. apply (fstep_of_expand (c17_synack_ok cfg)). apply c17_synack_ok_step. exact H. Qed.

Theorem syn_pre_vstep_expanded : forall cfg (s : vsock) o,
  syn_pre cfg s -> let '(s', _, _, _) := vstep cci s o in syn_pre cfg s'.
Proof.
  intros cfg s o H. pose proof (syn_pre_vstep cfg s o H) as K. unfold vstep_state in K.
  destruct (vstep cci s o) as [[[s' out] dw] sw]. exact K.
Qed.

Theorem c17_fin_after_data_ok_vstep_gen : forall cfg (s : vsock) o,
  let '(s', out, dw, sw) := vstep cci s o in
  let st := {| fs_now := v_env_now s'; fs_pre := fp_of_vsock cci s; fs_event := fevent_of o;
               fs_result := fresult_of out; fs_disp_woken := dw; fs_self_woken := sw;
               fs_post := fp_of_vsock cci s' |} in
  c17_seg_bounds (fs_post st) = true ->
  v_inbox_closed s = false \/ c17_not_err_send (fs_result st) = true ->
  c17_fin_after_data_ok cfg st = true.
Proof.
  intros cfg s o. pose proof (c17_fin_after_data_ok_step_gen cfg s o) as H. unfold fstep_of in H.
  destruct (vstep cci s o) as [[[s' out] dw] sw]. exact H.
Qed.

Theorem c17_fin_after_data_guarded_vstep : forall cfg (s : vsock) o,
  let '(s', out, dw, sw) := vstep cci s o in
  c17_fin_after_data_guarded cfg
    {| fs_now := v_env_now s'; fs_pre := fp_of_vsock cci s; fs_event := fevent_of o;
       fs_result := fresult_of out; fs_disp_woken := dw; fs_self_woken := sw;
       fs_post := fp_of_vsock cci s' |} = true.
Proof. intros cfg s o. apply (fstep_of_expand (c17_fin_after_data_guarded cfg)). apply c17_fin_after_data_guarded_step. Qed.

Theorem c17_fin_after_data_bounded_vstep : forall cfg (s : vsock) o,
  v_inbox_closed s = false ->
  let '(s', out, dw, sw) := vstep cci s o in
  c17_fin_after_data_bounded cfg
    {| fs_now := v_env_now s'; fs_pre := fp_of_vsock cci s; fs_event := fevent_of o;
       fs_result := fresult_of out; fs_disp_woken := dw; fs_self_woken := sw;
       fs_post := fp_of_vsock cci s' |} = true.
Proof.
  intros cfg s o H. apply (fstep_of_expand (c17_fin_after_data_bounded cfg)).
  unfold c17_fin_after_data_bounded. destruct (c17_seg_bounds _) eqn:Eb; [|reflexivity].
  apply c17_fin_after_data_ok_step_open; assumption.
Qed.

(* ================================================================== the monitored bound is an invariant *)
Lemma LB_seg_bounds (s : vsock) : LB 0 s -> c17_seg_bounds (fp_of_vsock cci s) = true.
Proof.
  intros (A & _ & _ & D). unfold c17_seg_bounds. cbn [fp_of_vsock f_seg_len_bytes f_tx_len].
  pose proof (seg_len_nonneg _ A). apply andb_true_intro. split; apply Z.leb_le; lia.
Qed.

Lemma LB_vstep_state (s : vsock) o : LB 0 s -> LB 0 (vstep_state cci s o).
Proof. intro H. unfold vstep_state. apply vstep_LB. exact H. Qed.

Theorem c17_seg_bounds_step : forall (s : vsock) o,
  LB 0 s -> c17_seg_bounds (fs_post (fstep_of cci s o)) = true.
Proof.
  intros s o H. pose proof (LB_vstep_state s o H) as K. unfold fstep_of, vstep_state in *.
  destruct (vstep cci s o) as [[[s' out] dw] sw]. cbn [fs_post fst] in *. apply LB_seg_bounds. exact K.
Qed.

Theorem c17_seg_bounds_trace : forall mk cfg (s0 : vsock) ops,
  C10_Pred.vconfig_ok cfg = true -> vsock_new cci mk cfg = Some s0 ->
  forallb (fun st => c17_seg_bounds (fs_post st)) (ftrace cci s0 ops) = true.
Proof.
  intros mk cfg s0 ops Hc Hn. apply (ftrace_forallb cci (LB 0)).
  - intros s o H. apply c17_seg_bounds_step. exact H.
  - apply LB_vstep_state.
  - eapply vsock_new_LB; eauto.
Qed.

(* c17_fin_after_data_ok without the monitored bound: it holds of every step of every connection built
   from a valid configuration unless the channel was closed AND the poll reports a transport error *)
Theorem c17_fin_after_data_ok_step_inv : forall cfg (s : vsock) o,
  LB 0 s ->
  v_inbox_closed s = false \/ c17_not_err_send (fs_result (fstep_of cci s o)) = true ->
  c17_fin_after_data_ok cfg (fstep_of cci s o) = true.
Proof.
  intros cfg s o H Hg. apply c17_fin_after_data_ok_step_gen; [|exact Hg]. apply c17_seg_bounds_step. exact H.
Qed.

(* c17_fin_after_data_noerr: Conn/C17_Pred.v *)

Theorem c17_fin_after_data_noerr_trace : forall mk cfg (s0 : vsock) ops,
  C10_Pred.vconfig_ok cfg = true -> vsock_new cci mk cfg = Some s0 ->
  forallb (c17_fin_after_data_noerr cfg) (ftrace cci s0 ops) = true.
Proof.
  intros mk cfg s0 ops Hc Hn. apply (ftrace_forallb cci (LB 0)).
  - intros s o H. unfold c17_fin_after_data_noerr. destruct (c17_not_err_send _) eqn:E; [|reflexivity].
    apply c17_fin_after_data_ok_step_inv; auto.
  - apply LB_vstep_state.
  - eapply vsock_new_LB; eauto.
Qed.

(* and while the channel is open (no VoCloseInbox in the trace) the predicate as written holds *)
Theorem c17_fin_after_data_ok_open_trace : forall mk cfg (s0 : vsock) ops,
  C10_Pred.vconfig_ok cfg = true -> vsock_new cci mk cfg = Some s0 -> Forall not_close_inbox ops ->
  forallb (c17_fin_after_data_ok cfg) (ftrace cci s0 ops) = true.
Proof.
  intros mk cfg s0 ops Hc Hn Hops.
  assert (H0 : LB 0 s0) by (eapply vsock_new_LB; eauto).
  assert (C0 : v_inbox_closed s0 = false) by (eapply vsock_new_inbox_open; eauto).
  clear Hn. revert s0 H0 C0. induction ops as [|o rest IH]; intros s H0 C0; [reflexivity|].
  inversion Hops as [|? ? Ho Hrest]; subst.
  rewrite ftrace_cons. cbn [forallb]. apply andb_true_intro. split.
  - apply c17_fin_after_data_ok_step_inv; auto.
  - destruct (poll_finished _); [reflexivity|]. apply IH; [exact Hrest| |].
    + apply LB_vstep_state. exact H0.
    + apply vstep_inbox_open; assumption.
Qed.

Theorem LB_vstep_expanded : forall (s : vsock) o,
  LB 0 s -> let '(s', _, _, _) := vstep cci s o in LB 0 s'.
Proof.
  intros s o H. pose proof (vstep_LB cci s o H) as K. destruct (vstep cci s o) as [[[s' out] dw] sw]. exact K.
Qed.

Theorem c17_fin_after_data_ok_vstep_inv : forall cfg (s : vsock) o,
  LB 0 s ->
  let '(s', out, dw, sw) := vstep cci s o in
  let st := {| fs_now := v_env_now s'; fs_pre := fp_of_vsock cci s; fs_event := fevent_of o;
               fs_result := fresult_of out; fs_disp_woken := dw; fs_self_woken := sw;
               fs_post := fp_of_vsock cci s' |} in
  v_inbox_closed s = false \/ c17_not_err_send (fs_result st) = true ->
  c17_fin_after_data_ok cfg st = true.
Proof.
  intros cfg s o H0. pose proof (c17_fin_after_data_ok_step_inv cfg s o H0) as H. unfold fstep_of in H.
  destruct (vstep cci s o) as [[[s' out] dw] sw]. exact H.
Qed.

End WithCC.

(* ================================================================== witnesses *)
(* c17_fin_after_data_ok as written is FALSE of the model: 100 bytes written and never segmented, the
   dispatcher's channel closed, and the FIN that the channel-closed arm of the receive loop sends at
   once refused by the transport: the poll dies in FinWait1 (the arm sets Closed only after the send).
   The monitored bound holds in that step; both guards fail, as they must. *)
Definition fad_ops : list vop := [VoWrite (repeat 7 100); VoCloseInbox; VoPoll [TIoErr]].

Definition fad_refuted_b : bool :=
  match vsock_new (fixed_cc 4096) (fun _ _ => tt) (wit_cfg 1500) with
  | Some s0 =>
      let tr := ftrace (fixed_cc 4096) s0 fad_ops in
      negb (forallb (c17_fin_after_data_ok (wit_cfg 1500)) tr) &&
      forallb (fun st => c17_seg_bounds (fs_post st)) tr &&
      match last tr {| fs_now := 0; fs_pre := fp_of_vsock (fixed_cc 4096) s0; fs_event := FeFlush;
                       fs_result := FrNone; fs_disp_woken := false; fs_self_woken := false;
                       fs_post := fp_of_vsock (fixed_cc 4096) s0 |} with
      | st => match f_state (fs_pre st), f_state (fs_post st), fs_result st with
              | Established, FinWait1 _, FrPoll (PollReadyErr ErrSend) [] _ _ =>
                  (f_tx_len (fs_post st) =? 100) && (f_seg_len_bytes (fs_post st) =? 0)
              | _, _, _ => false
              end
      end
  | None => false
  end.

Theorem c17_fin_after_data_ok_refuted :
  exists cfg ops s0,
    vsock_new (fixed_cc 4096) (fun _ _ => tt) cfg = Some s0 /\
    forallb (c17_fin_after_data_ok cfg) (ftrace (fixed_cc 4096) s0 ops) = false.
Proof.
  exists (wit_cfg 1500), fad_ops.
  destruct (vsock_new (fixed_cc 4096) (fun _ _ => tt) (wit_cfg 1500)) as [s0|] eqn:E; [|vm_compute in E; discriminate].
  exists s0. split; [reflexivity|].
  assert (H : fad_refuted_b = true) by (vm_compute; reflexivity).
  unfold fad_refuted_b in H. rewrite E in H.
  apply andb_true_iff in H as (H & _). apply andb_true_iff in H as (H & _).
  apply negb_true_iff in H. exact H.
Qed.

Theorem c17_fin_after_data_refuted_shape : fad_refuted_b = true.
Proof. vm_compute. reflexivity. Qed.

(* the guard is satisfiable by a reachable step that really closes on own initiative: the D13 regression
   trace ends with a poll that moves Established -> FinWait1 with the guard true *)
Definition fad_guard_witness_b : bool :=
  match vsock_new (fixed_cc 1584) (fun _ _ => tt) (wit_cfg 576) with
  | Some s0 =>
      let tr := ftrace (fixed_cc 1584) s0 d13_ops in
      existsb (fun st => c17_fin_after_data_guard st &&
                         negb (pre_local_fin (f_state (fs_pre st))) &&
                         match f_state (fs_post st) with FinWait1 _ => true | _ => false end) tr &&
      forallb (c17_fin_after_data_guarded (wit_cfg 576)) tr
  | None => false
  end.

Example c17_fin_after_data_guard_satisfiable : fad_guard_witness_b = true.
Proof. vm_compute. reflexivity. Qed.

(* c17_synack_ok needs 0 <= max_retx: with a negative limit the first SYN-ACK already exceeds it *)
Definition synack_neg_cfg : vconfig :=
  {| vc_incoming := true; vc_ipv4 := true; vc_link_mtu := 1500; vc_rx_buf := 1048576;
     vc_tx_init := 32768; vc_tx_max := 1048576; vc_nagle := true; vc_max_retx := -1;
     vc_inactivity := 10000000000; vc_wait_last_ack := true; vc_mtu_probe_max_retx := 1;
     vc_isn := 100; vc_remote_seq := 1; vc_remote_conn_id := 7; vc_remote_wnd := 1048576;
     vc_remote_ts := 0; vc_syn_sent := 0; vc_now0 := 1000000000 |}.

Theorem c17_synack_ok_negative_limit_refuted :
  exists cfg ops s0,
    vsock_new (fixed_cc 4096) (fun _ _ => tt) cfg = Some s0 /\ vc_max_retx cfg < 0 /\
    forallb (c17_synack_ok cfg) (ftrace (fixed_cc 4096) s0 ops) = false.
Proof.
  exists synack_neg_cfg, [VoPoll []].
  destruct (vsock_new (fixed_cc 4096) (fun _ _ => tt) synack_neg_cfg) as [s0|] eqn:E; [|vm_compute in E; discriminate].
  exists s0. split; [reflexivity|]. split; [reflexivity|].
  vm_compute in E. injection E as <-. vm_compute. reflexivity.
Qed.

(* and with a non-negative limit the precondition is met by every connection vsock_new builds; an
   incoming connection really goes through the handshake states *)
Definition synack_witness_b : bool :=
  match vsock_new (fixed_cc 4096) (fun _ _ => tt)
          {| vc_incoming := true; vc_ipv4 := true; vc_link_mtu := 1500; vc_rx_buf := 1048576;
             vc_tx_init := 32768; vc_tx_max := 1048576; vc_nagle := true; vc_max_retx := 2;
             vc_inactivity := 10000000000; vc_wait_last_ack := true; vc_mtu_probe_max_retx := 1;
             vc_isn := 100; vc_remote_seq := 1; vc_remote_conn_id := 7; vc_remote_wnd := 1048576;
             vc_remote_ts := 0; vc_syn_sent := 0; vc_now0 := 1000000000 |} with
  | Some s0 =>
      let tr := ftrace (fixed_cc 4096) s0
                  [VoPoll []; VoSetNow 1300000000; VoPoll []; VoSetNow 1600000000; VoPoll []] in
      match map (fun st => f_state (fs_post st)) tr with
      | [SynAckSent 1; SynAckSent 1; SynAckSent 2; SynAckSent 2; SynAckSent 2] =>
          match last tr {| fs_now := 0; fs_pre := fp_of_vsock (fixed_cc 4096) s0; fs_event := FeFlush;
                           fs_result := FrNone; fs_disp_woken := false; fs_self_woken := false;
                           fs_post := fp_of_vsock (fixed_cc 4096) s0 |} with
          | st => match fs_result st with
                  | FrPoll (PollReadyErr ErrMaxSynAckRetransmissionsReached) _ _ _ => true
                  | _ => false
                  end
          end
      | _ => false
      end
  | None => false
  end.

Example c17_synack_handshake_reachable : synack_witness_b = true.
Proof. vm_compute. reflexivity. Qed.
