(* The retransmission-timer invariant of a connection, kept by every function of a poll and by
   every event:
     ti s := the RTO is within [RTTE_MIN_RTO, RTTE_MAX_RTO]
          /\ 0 <= rto_retransmissions
          /\ (a sent, undelivered segment exists -> the retransmission timer is armed).
   The timer is turned off in three places only (process_all_incoming_messages when the table is
   empty, the RTO branch of send_tx_queue when nothing is left to resend, the expired-probe arm of
   split_tx_queue_into_segments when no segment remains); a segment becomes "sent" only in
   send_data, which arms the timer. *)
From Utp Require Import Base.Prelude Wire.SeqNr Wire.Header Rtt.Rtte Rtt.Rtte_Proofs Mtu.SegSizes
  Rx.Rx Tx.Ring Tx.Segments Tx.Segments_Proofs Tx.Segments_ProofsOut
  Conn.Recovery Conn.Msg Conn.VSockRec Conn.VSock Conn.VSockRun Conn.VObs
  Conn.VSock_LemmasTx Conn.VSock_LemmasIn Conn.VSock_Lemmas Conn.VSock_LemmasStep Conn.VSock_LemmasReach.

Lemma timer_arm_some : forall t now d r, timer_arm t now d r <> None.
Proof. intros t now d r. unfold timer_arm. destruct t; [destruct r|]; discriminate. Qed.

Section WithCC.
Context {CC : Type} (cci : cc_iface CC).
Notation vsock := (vsock CC).

Definition rd (s : vsock) : Prop :=
  segs_out (ss_segs (v_segs s)) = true -> v_t_retransmit s <> None.

Definition ti (s : vsock) : Prop :=
  rto_in_bounds (v_rtte s) /\ 0 <= v_rto_retransmissions s /\ rd s.

Definition tiR (s s' : vsock) : Prop := ti s -> ti s'.

Lemma tiR_refl : forall s, tiR s s.
Proof. intros s H; exact H. Qed.

Lemma tiR_trans : forall a b c, tiR a b -> tiR b c -> tiR a c.
Proof. intros a b c H1 H2 H. auto. Qed.

Notation stt := (stR tiR).

Lemma ti_gen : forall (s s' : vsock),
  (rto_in_bounds (v_rtte s) -> rto_in_bounds (v_rtte s')) ->
  (0 <= v_rto_retransmissions s -> 0 <= v_rto_retransmissions s') ->
  (v_t_retransmit s' <> None \/ segs_out (ss_segs (v_segs s')) = false \/
   (out_sub (ss_segs (v_segs s')) (ss_segs (v_segs s)) /\ v_t_retransmit s' = v_t_retransmit s)) ->
  tiR s s'.
Proof.
  intros s s' H1 H2 H3 (A & B & C). unfold ti, rd. split; [auto|]. split; [auto|].
  destruct H3 as [H3|[H3|[H3 H4]]].
  - intros _. exact H3.
  - intro K. congruence.
  - intro K. rewrite H4. apply C. apply H3. exact K.
Qed.

Lemma ti_same : forall (s s' : vsock),
  v_rtte s' = v_rtte s -> v_rto_retransmissions s' = v_rto_retransmissions s ->
  v_segs s' = v_segs s -> v_t_retransmit s' = v_t_retransmit s -> tiR s s'.
Proof.
  intros s s' E1 E2 E3 E4. apply ti_gen.
  - rewrite E1; auto.
  - rewrite E2; auto.
  - right; right. rewrite E3. split; [intro K; exact K | exact E4].
Qed.

(* rtte / counter untouched, the timer is armed afterwards *)
Lemma ti_armed : forall (s s' : vsock),
  v_rtte s' = v_rtte s -> v_rto_retransmissions s' = v_rto_retransmissions s ->
  v_t_retransmit s' <> None -> tiR s s'.
Proof.
  intros s s' E1 E2 E3. apply ti_gen.
  - rewrite E1; auto.
  - rewrite E2; auto.
  - left; exact E3.
Qed.

Ltac ti_same_tac := apply ti_same; exact eq_refl.

(* goal [tiR s b] from [H : tiR s a], b = a with untouched (rtte, counter, segs, timer) *)
Ltac ti_via H := eapply tiR_trans; [exact H | ti_same_tac].

(* (re)arming the timer *)
Lemma ti_arm : forall (s : vsock) b,
  tiR s (set_t_retransmit s (timer_arm (v_t_retransmit s) (v_now s)
                               (retransmission_timeout (v_rtte s)) b)).
Proof. intros. apply ti_armed; try exact eq_refl. vsimpl_goal. apply timer_arm_some. Qed.

(* send_data arms the timer *)
Lemma ti_data_sent : forall (s : vsock) p f, tiR s (sent_state s p f).
Proof.
  intros. unfold sent_state, on_packet_sent, emit.
  destruct (seq_gt _ _); try destruct (seq_gt _ _);
    (apply ti_armed; [exact eq_refl | exact eq_refl | vsimpl_goal; apply timer_arm_some]).
Qed.

(* turning it off when no sent segment is outstanding *)
Lemma ti_off : forall s : vsock,
  segs_out (ss_segs (v_segs s)) = false -> tiR s (set_t_retransmit s None).
Proof. intros s H. apply ti_gen; vsimpl_goal; auto. Qed.

Lemma ti_retx : forall (s : vsock) n,
  0 <= n \/ v_rto_retransmissions s <= n -> tiR s (set_rto_retransmissions s n).
Proof.
  intros s n H. apply ti_gen; vsimpl_goal; auto; [lia|].
  right; right. split; [intro K; exact K | reflexivity].
Qed.

Lemma on_rto_reactions_ti : forall (s s1 : vsock), on_rto_reactions cci s = Some s1 -> tiR s s1.
Proof.
  intros s s1 H. unfold on_rto_reactions in H.
  destruct (Rtte.on_rto_timeout (v_rtte s)) as [rt|] eqn:E; inversion H; subst.
  apply ti_gen; vsimpl_goal.
  - intros _. eapply timeout_in_bounds; exact E.
  - auto.
  - right; right. split; [intro K; exact K | reflexivity].
Qed.

Lemma ti_popped : forall (s : vsock) q segs' ss', pop_mtu_probe (v_segs s) q = (segs', true) ->
  tiR s (set_restart (set_ss (VSockRec.set_segs s segs') ss') true).
Proof.
  intros s q segs' ss' Ep. apply ti_gen; vsimpl_goal; auto.
  right; right. split; [|reflexivity]. eapply pop_mtu_probe_out; exact Ep.
Qed.

(* ---- segmentation ---- *)
Lemma segment_loop_out : forall fuel nagle ss segs rem rwr ss' segs' rem',
  segment_loop fuel nagle ss segs rem rwr = Some (ss', segs', rem') ->
  segs_out (ss_segs segs') = segs_out (ss_segs segs).
Proof.
  induction fuel as [|x fuel IH]; intros nagle ss segs rem rwr ss' segs' rem' H; cbn [segment_loop] in H.
  - inversion H; reflexivity.
  - destruct (_ && _); [|inversion H; reflexivity].
    destruct (next_segment_size ss) as [[ss1 sz]|]; [|discriminate].
    destruct (_ && _ && _); [inversion H; subst; reflexivity|].
    destruct (mss ss1 <? _).
    + inversion H; subst. apply enqueue_out.
    + apply IH in H. rewrite H. apply enqueue_out.
Qed.

Lemma split_tx_queue_into_segments_ti : forall (s : vsock),
  stt s (split_tx_queue_into_segments cci s).
Proof.
  apply (split_tx_queue_into_segments_R cci tiR tiR_refl tiR_trans); try (intros; unfold add_wakes; ti_same_tac).
  - (* the probe is given up: the timer stays armed unless no segment remains *)
    intros s1 segs1 rw ps _. unfold probe_given_up. cbv zeta.
    match goal with |- tiR s1 (set_ss ?s3 _) => assert (F3 : tiR s1 s3); [|ti_via F3] end.
    match goal with |- tiR s1 (if _ then set_last_sent_seq_nr ?s2 _ else _) =>
      assert (F2 : tiR s1 s2); [|destruct (seq_gt _ _); [ti_via F2 | exact F2]] end.
    apply ti_gen; vsimpl_goal; auto; [lia|].
    destruct (ss_segs segs1) eqn:El; [right; left; reflexivity|left; apply timer_arm_some].
  - intros s tl ss' segs' rem' E. apply segment_loop_out in E.
    apply ti_gen; vsimpl_goal; auto.
    right; right. split; [|reflexivity]. unfold out_sub. rewrite E. auto.
Qed.

(* ---- death, transitions ---- *)
Lemma mark_both_closed_ti : forall (s : vsock), tiR s (mark_both_closed s).
Proof.
  intros s. unfold mark_both_closed.
  destruct (rx_mark_vsock_closed _); destruct (mark_vsock_closed _). ti_same_tac.
Qed.

Lemma recovery_on_ack_out : forall r h segs ls cc now rtt r' segs' cc',
  recovery_on_ack cci r h segs ls cc now rtt = Some (r', segs', cc') ->
  segs_out (ss_segs segs') = segs_out (ss_segs segs).
Proof.
  intros r h segs ls cc now rtt r' segs' cc' H. unfold recovery_on_ack in H.
  cbn [rv_phase] in H. destruct (rv_phase r).
  - destruct (seq_ge _ _); inversion H; reflexivity.
  - destruct (ss_segs segs) eqn:Es; [inversion H; subst; rewrite Es; reflexivity|].
    rewrite <- Es.
    match type of H with match ?c with _ => _ end = _ => destruct c as [[dup' la']|] end; [|discriminate].
    destruct (_ <? _); [inversion H; reflexivity|].
    destruct (calc_pipe _ _ _ _ _) as [[[sg pipe] recalc]|] eqn:Ec; [|discriminate].
    inversion H; subst. eapply calc_pipe_out; exact Ec.
  - destruct (seq_ge _ _); inversion H; reflexivity.
Qed.

(* an acknowledgement removes and re-flags segments: none becomes outstanding; a new RTT sample
   keeps the RTO in bounds *)
Lemma ti_ack : forall (s1 : vsock) h s2 res, pim_ack cci s1 h = Some (s2, res) -> tiR s1 s2.
Proof.
  intros s1 h s2 res. unfold pim_ack.
  destruct (remove_up_to_ack _ _ _ _) as [segs1 res0] eqn:Er.
  destruct (match is_recovering (v_recovery s1) with true => _ | false => _ end) as [rtte1|] eqn:Ert;
    [|discriminate].
  destruct (cc_on_ack _ _ _ _ _) as [cc3|]; [|discriminate].
  destruct (recovery_on_ack _ _ _ _ _ _ _ _) as [[[rec1 segs2] cc4]|] eqn:Ero; [|discriminate].
  intro E. injection E as <- _. apply ti_gen; vsimpl_goal.
  - intro Hb. destruct (is_recovering _); [injection Ert as <-; exact Hb|].
    destruct (ar_new_rtt res0); [eapply sample_in_bounds; exact Ert | injection Ert as <-; exact Hb].
  - auto.
  - right; right. split; [|reflexivity].
    intro K. rewrite (recovery_on_ack_out _ _ _ _ _ _ _ _ _ _ Ero) in K.
    exact (remove_up_to_ack_out _ _ _ _ _ _ Er K).
Qed.

Lemma ti_pipe : forall (s : vsock) hr ls rtt now segs' pipe recalc rc,
  calc_pipe (v_segs s) hr ls rtt now = Some (segs', pipe, recalc) ->
  tiR s (set_recovering (VSockRec.set_segs s segs') rc).
Proof.
  intros s hr ls rtt now segs' pipe recalc rc Ec. unfold set_recovering.
  apply ti_gen; vsimpl_goal; auto.
  right; right. split; [|reflexivity]. unfold out_sub. rewrite (calc_pipe_out _ _ _ _ _ _ _ _ Ec). auto.
Qed.

Lemma transition_to_fin_wait_1_ti : forall (s : vsock), tiR s (transition_to_fin_wait_1 s).
Proof. apply (transition_to_fin_wait_1_R tiR tiR_refl tiR_trans); intros; ti_same_tac. Qed.

Lemma state_table_ti : forall (s : vsock) h,
  match state_table s h with TblDrop s1 | TblErr s1 _ | TblContinue s1 => tiR s s1 end.
Proof. apply (state_table_R tiR tiR_refl tiR_trans); intros; ti_same_tac. Qed.

(* every elementary update of a poll *)
Ltac ti_leaf :=
  first [ ti_same_tac | unfold add_wakes; ti_same_tac | apply ti_arm | apply ti_data_sent
        | apply ti_off; assumption | apply ti_retx; auto with zarith | eapply ti_popped; eassumption
        | eapply ti_ack; eassumption | eapply ti_pipe; eassumption
        | eapply on_rto_reactions_ti; eassumption
        | apply state_table_ti | apply transition_to_fin_wait_1_ti ].

Lemma send_control_packet_ti : forall (s : vsock) h, stt s (send_control_packet s h).
Proof. apply (send_control_packet_R tiR tiR_refl tiR_trans); intros; ti_leaf. Qed.

Lemma send_ack_ti : forall (s : vsock), stt s (send_ack s).
Proof. intros s. apply send_control_packet_ti. Qed.

Lemma maybe_send_fin_ti : forall (s : vsock), stt s (maybe_send_fin s).
Proof. apply (maybe_send_fin_R tiR tiR_refl tiR_trans); intros; ti_leaf. Qed.

Lemma maybe_send_ack_ti : forall (s : vsock), stt s (maybe_send_ack s).
Proof. apply (maybe_send_ack_R tiR tiR_refl tiR_trans); intros; ti_leaf. Qed.

Lemma send_data_ti : forall (s : vsock) h f, stt s (send_data s h f).
Proof. apply (send_data_R tiR tiR_refl tiR_trans); intros; ti_leaf. Qed.

Lemma send_tx_queue_ti : forall (s : vsock), stt s (send_tx_queue cci s).
Proof. apply (send_tx_queue_R cci tiR tiR_refl tiR_trans); intros; ti_leaf. Qed.

Lemma process_incoming_message_ti : forall (s : vsock) m,
  stt s (process_incoming_message cci s m).
Proof. apply (process_incoming_message_R cci tiR tiR_refl tiR_trans); intros; ti_leaf. Qed.

Lemma process_all_incoming_messages_ti : forall (s : vsock),
  stt s (process_all_incoming_messages cci s).
Proof. apply (process_all_incoming_messages_R cci tiR tiR_refl tiR_trans); intros; ti_leaf. Qed.

Lemma just_before_death_ti : forall (s : vsock) e, tiR s (just_before_death s e).
Proof.
  apply (just_before_death_R tiR tiR_refl tiR_trans); try (intros; ti_leaf). apply mark_both_closed_ti.
Qed.

Lemma maybe_send_syn_ack_ti : forall (s : vsock), stt s (maybe_send_syn_ack s).
Proof. apply (maybe_send_syn_ack_R tiR tiR_refl tiR_trans); intros; ti_leaf. Qed.

Lemma poll_tail_ti : forall (s : vsock), tiR s (poll_tail s).
Proof.
  apply (poll_tail_R tiR tiR_refl tiR_trans); try (intros; ti_leaf).
  intros s d. unfold arm_in, add_wakes. destruct (_ <=? 0); ti_same_tac.
Qed.

Lemma rx_flush_ti : forall (s : vsock) rx1 w, tiR s (add_wakes (set_rx s rx1) w).
Proof. intros. unfold add_wakes. ti_same_tac. Qed.

Lemma poll_start_ti : forall (s : vsock), tiR s (poll_start s).
Proof. intros s. unfold poll_start. ti_same_tac. Qed.

(* ------------------------------------------------------------------ a whole poll, every event *)
Theorem poll_ti : forall (s s' : vsock) r, poll cci s = (s', r) -> ti s -> ti s'.
Proof.
  intros s s' r H Hti.
  assert (Hi : ti (poll_init s)) by exact Hti.
  revert Hi. change (tiR (poll_init s) s').
  apply (poll_R cci tiR tiR_refl tiR_trans) with (r := r); try exact H.
  - apply poll_start_ti.
  - apply maybe_send_syn_ack_ti.
  - apply send_ack_ti.
  - apply process_all_incoming_messages_ti.
  - intros s0 rx1 fb w _. apply rx_flush_ti.
  - apply split_tx_queue_into_segments_ti.
  - apply send_tx_queue_ti.
  - apply transition_to_fin_wait_1_ti.
  - apply maybe_send_fin_ti.
  - apply maybe_send_ack_ti.
  - apply just_before_death_ti.
  - apply poll_tail_ti.
Qed.

Theorem ti_vstep : forall (s : vsock) o, ti s -> ti (vstep_state cci s o).
Proof.
  intros s o Hp. unfold vstep_state. destruct o; cbn [vstep].
  - exact Hp.
  - exact Hp.
  - destruct (poll cci (VSockRec.set_sends s script)) as [s' r] eqn:E. cbn [fst].
    eapply poll_ti; [exact E | exact Hp].
  - destruct (v_inbox_closed s); exact Hp.
  - exact Hp.
  - destruct (writer_dropped (v_tx s)); [exact Hp|].
    destruct (poll_write (v_tx s) buf) as [[tx1 r] w]. exact Hp.
  - destruct (writer_dropped (v_tx s)); [exact Hp|].
    destruct (poll_flush (v_tx s)) as [[tx1 r] w]. exact Hp.
  - destruct (writer_dropped (v_tx s)); [exact Hp|].
    destruct (poll_shutdown (v_tx s)) as [[tx1 r] w]. exact Hp.
  - destruct (reader_dropped (v_rx s)); [exact Hp|].
    destruct (rx_read (v_rx s) n) as [[rx1 r] w]. exact Hp.
  - destruct (reader_dropped (v_rx s)); [exact Hp|].
    destruct (rx_drop_reader (v_rx s)) as [rx1 w]. exact Hp.
  - destruct (drop_writer (v_tx s)) as [tx1 w]. exact Hp.
Qed.

Lemma ti_vsock_new : forall mk c s, vsock_new cci mk c = Some s -> ti s.
Proof.
  intros mk c s H. unfold vsock_new in H.
  destruct (match (if vc_incoming c then None else _) with Some r => _ | None => _ end) as [rt0|] eqn:Ert;
    [|discriminate].
  inversion H; subst. unfold ti, rd. cbn [v_rtte v_rto_retransmissions v_segs v_t_retransmit].
  split; [|split; [lia|]].
  - destruct (vc_incoming c); [injection Ert as <-; apply default_in_bounds|].
    eapply sample_in_bounds; exact Ert.
  - unfold segments_new. cbn [ss_segs segs_out existsb]. discriminate.
Qed.

End WithCC.
