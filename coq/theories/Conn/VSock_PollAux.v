(* Auxiliary facts for the whole-poll invariant (Conn/VSock_PollIn.v, VSock_PollTx.v, VSock_Poll.v):
   - per-segment facts the byte-accounting invariant seg_inv does not record (send times are
     non-negative; at most the LAST segment of the table is an undelivered MTU probe) and their
     preservation by every operation of Tx/Segments.v;
   - how remove_up_to_ack moves snd_una, and the exact condition under which calc_pipe panics;
   - the Hoare triple `spx` (like VSock_Inv.sp, but the state of an error exit is described too). *)
From Utp Require Import Base.Prelude Wire.SeqNr Wire.SeqNr_Proofs Wire.Header Rtt.Rtte Rtt.Rtte_Proofs
  Mtu.SegSizes Rx.Rx Rx.Rx_Proofs Tx.Ring Tx.Ring_Proofs Tx.Segments
  Tx.Segments_Proofs Conn.Recovery Conn.Msg Conn.VSockRec Conn.VSock Conn.VSockRun Conn.VObs
  Conn.C10_Pred Conn.VSock_LemmasIn Conn.VSock_Inv.

(* ------------------------------------------------------------------ per-segment facts *)
Definition seg_time_ok (g : seg) : Prop :=
  match seg_last_sent g with Some t => 0 <= t | None => True end.

(* an MTU probe that is still unacknowledged *)
Definition live_probe (g : seg) : bool := sg_probe g && negb (sg_delivered g).

(* every live probe of the list has a size in q *)
Definition lp_all (q : Z -> Prop) (l : list seg) : Prop :=
  Forall (fun g => live_probe g = true -> q (sg_size g)) l.

Definition no_live (l : list seg) : Prop := lp_all (fun _ => False) l.

(* how one segment may change while it stays in the table: flags only; delivered is monotone *)
Definition seg_ev (g g' : seg) : Prop :=
  sg_probe g' = sg_probe g /\ sg_size g' = sg_size g /\
  (sg_delivered g = true -> sg_delivered g' = true) /\
  (seg_time_ok g -> seg_time_ok g').

Lemma seg_ev_refl g : seg_ev g g.
Proof. unfold seg_ev. auto. Qed.

Lemma seg_ev_trans a b c : seg_ev a b -> seg_ev b c -> seg_ev a c.
Proof.
  unfold seg_ev. intros (A1 & A2 & A3 & A4) (B1 & B2 & B3 & B4).
  repeat split; try congruence; auto.
Qed.

Lemma ev_refl l : Forall2 seg_ev l l.
Proof. induction l; constructor; auto using seg_ev_refl. Qed.

Lemma ev_trans : forall a b c, Forall2 seg_ev a b -> Forall2 seg_ev b c -> Forall2 seg_ev a c.
Proof.
  induction a as [|x xs IH]; intros b c H1 H2.
  - inversion H1; subst. inversion H2; subst. constructor.
  - inversion H1 as [|? y ? ys Hxy Hr]; subst. inversion H2 as [|? z ? zs Hyz Hr2]; subst.
    constructor; [eapply seg_ev_trans; eauto|eapply IH; eauto].
Qed.

Lemma ev_time l l' : Forall2 seg_ev l l' -> Forall seg_time_ok l -> Forall seg_time_ok l'.
Proof.
  induction 1 as [|x y xs ys (_ & _ & _ & Ht) _ IH]; intro H; [constructor|].
  inversion H; subst. constructor; auto.
Qed.

Lemma ev_lp q l l' : Forall2 seg_ev l l' -> lp_all q l -> lp_all q l'.
Proof.
  unfold lp_all. induction 1 as [|x y xs ys (Hp & Hs & Hd & _) _ IH]; intro H; [constructor|].
  inversion H as [|? ? Hx Hr]; subst. constructor; [|auto].
  unfold live_probe in *. rewrite Hp, Hs. intro Hl. apply Hx.
  apply andb_true_iff in Hl. destruct Hl as [Hl1 Hl2]. rewrite Hl1. cbn [andb].
  destruct (sg_delivered x); [|reflexivity]. rewrite (Hd eq_refl) in Hl2. discriminate.
Qed.

Lemma ev_length l l' : Forall2 seg_ev l l' -> length l' = length l.
Proof. induction 1; cbn [length]; congruence. Qed.

Lemma ev_removelast : forall l l', Forall2 seg_ev l l' -> Forall2 seg_ev (removelast l) (removelast l').
Proof.
  induction 1 as [|x y xs ys Hxy Hr IH]; [constructor|].
  cbn [removelast]. destruct Hr as [|x2 y2 xs2 ys2 H2 Hr2]; [constructor|].
  constructor; [exact Hxy|exact IH].
Qed.

Lemma lp_app q a b : lp_all q (a ++ b) <-> lp_all q a /\ lp_all q b.
Proof. unfold lp_all. apply Forall_app. Qed.

Lemma lp_weaken (q q' : Z -> Prop) l : (forall z, q z -> q' z) -> lp_all q l -> lp_all q' l.
Proof.
  intros Hq H. unfold lp_all in *. eapply Forall_impl; [|exact H]. cbn. intros g Hg Hl. auto.
Qed.

Lemma no_live_lp q l : no_live l -> lp_all q l.
Proof. apply lp_weaken. intros z []. Qed.

Lemma removelast_suffix_lp q (a b : list seg) : lp_all q (removelast (a ++ b)) -> lp_all q (removelast b).
Proof.
  destruct b as [|x xs]; [intros _; constructor|].
  rewrite removelast_app by discriminate. intro H. apply lp_app in H. tauto.
Qed.

Lemma lp_removelast q (l : list seg) : lp_all q l -> lp_all q (removelast l).
Proof.
  unfold lp_all. induction l as [|y ys IH]; intro H; [constructor|].
  cbn [removelast]. destruct ys as [|y2 ys2]; [constructor|].
  inversion H; subst. constructor; [assumption|]. apply IH. assumption.
Qed.

Lemma removelast_prefix_lp q (a b : list seg) : lp_all q (removelast (a ++ b)) -> lp_all q (removelast a).
Proof.
  destruct b as [|x xs].
  - rewrite app_nil_r. auto.
  - rewrite removelast_app by discriminate. intro H. apply lp_app in H. destruct H as [H _].
    apply lp_removelast. exact H.
Qed.

(* non-probe segments are never larger than the proven segment size (m = min_ss) *)
Definition np_le (m : Z) (l : list seg) : Prop :=
  Forall (fun g => sg_probe g = false -> sg_size g <= m) l.

Lemma ev_np m l l' : Forall2 seg_ev l l' -> np_le m l -> np_le m l'.
Proof.
  unfold np_le. induction 1 as [|x y xs ys (Hp & Hs & _ & _) _ IH]; intro H; [constructor|].
  inversion H as [|? ? Hx Hr]; subst. constructor; [|auto]. rewrite Hp, Hs. exact Hx.
Qed.

Lemma np_mono m m' l : m <= m' -> np_le m l -> np_le m' l.
Proof.
  intros Hm H. unfold np_le in *. eapply Forall_impl; [|exact H]. cbn. intros g Hg Hp.
  specialize (Hg Hp). lia.
Qed.

(* the facts about the table of one connection that are not byte accounting *)
Definition segs_aux (q : Z -> Prop) (m : Z) (l : list seg) : Prop :=
  Forall seg_time_ok l /\ no_live (removelast l) /\ lp_all q l /\ np_le m l.

Lemma aux_ev q m l l' : Forall2 seg_ev l l' -> segs_aux q m l -> segs_aux q m l'.
Proof.
  intros H (A & B & C & D). split; [eapply ev_time; eauto|].
  split; [eapply ev_lp; [apply ev_removelast; exact H|exact B]|].
  split; [eapply ev_lp; eauto|eapply ev_np; eauto].
Qed.

Lemma aux_suffix q m a b : segs_aux q m (a ++ b) -> segs_aux q m b.
Proof.
  intros (A & B & C & D). apply Forall_app in A. apply lp_app in C. apply Forall_app in D.
  split; [tauto|]. split; [eapply removelast_suffix_lp; exact B|]. split; tauto.
Qed.

Lemma aux_prefix q m a b : segs_aux q m (a ++ b) -> segs_aux q m a.
Proof.
  intros (A & B & C & D). apply Forall_app in A. apply lp_app in C. apply Forall_app in D.
  split; [tauto|]. split; [eapply removelast_prefix_lp; exact B|]. split; tauto.
Qed.

(* popping the last segment leaves no live probe at all *)
Lemma aux_pop q m a g : segs_aux q m (a ++ [g]) -> no_live a.
Proof.
  intros (_ & B & _). rewrite removelast_app in B by discriminate.
  cbn [removelast] in B. rewrite app_nil_r in B. exact B.
Qed.

Lemma aux_weaken (q q' : Z -> Prop) m l : (forall z, q z -> q' z) -> segs_aux q m l -> segs_aux q' m l.
Proof. intros Hq (A & B & C & D). split; [exact A|]. split; [exact B|]. split; [eapply lp_weaken; eauto|exact D]. Qed.

Lemma aux_mono q m m' l : m <= m' -> segs_aux q m l -> segs_aux q m' l.
Proof. intros Hm (A & B & C & D). split; [exact A|]. split; [exact B|]. split; [exact C|eapply np_mono; eauto]. Qed.

Lemma aux_no_live q m l : Forall seg_time_ok l -> no_live l -> np_le m l -> segs_aux q m l.
Proof.
  intros A B D. split; [exact A|]. split; [apply lp_removelast; exact B|]. split; [apply no_live_lp; exact B|exact D].
Qed.

(* appending a never-sent segment behind a table without live probe *)
Lemma aux_enqueue (q : Z -> Prop) m l g :
  Forall seg_time_ok l -> no_live l -> np_le m l -> sg_sent g = NotSent ->
  (live_probe g = true -> q (sg_size g)) -> (sg_probe g = false -> sg_size g <= m) ->
  segs_aux q m (l ++ [g]).
Proof.
  intros A B D Hs Hq Hm. split.
  - apply Forall_app. split; [exact A|]. constructor; [|constructor].
    unfold seg_time_ok, seg_last_sent. rewrite Hs. exact I.
  - split.
    + rewrite removelast_app by discriminate. cbn [removelast]. rewrite app_nil_r. exact B.
    + split.
      * apply lp_app. split; [apply no_live_lp; exact B|]. constructor; [exact Hq|constructor].
      * apply Forall_app. split; [exact D|]. constructor; [exact Hm|constructor].
Qed.

(* ------------------------------------------------------------------ remove_up_to_ack *)
Lemma apply_sack_ev : forall l bits now a l' a',
  apply_sack l bits now a = (l', a') -> Forall2 seg_ev l l'.
Proof.
  induction l as [|s r IH]; intros bits now a l' a'; cbn [apply_sack].
  - intro H; injection H as <- _. constructor.
  - destruct bits as [|b bs]; [intro H; injection H as <- _; apply ev_refl|].
    destruct (negb (sg_delivered s) && b).
    + destruct (apply_sack r bs now _) as [r' a''] eqn:E. intro H; injection H as <- _.
      constructor; [|exact (IH _ _ _ _ _ E)].
      unfold seg_ev, mark_delivered, seg_time_ok, seg_last_sent; cbn. repeat split; auto.
    + destruct (apply_sack r bs now a) as [r' a''] eqn:E. intro H; injection H as <- _.
      constructor; [apply seg_ev_refl|exact (IH _ _ _ _ _ E)].
Qed.

Lemma sack_phase_ev t rest a1 u now ack sk rest2 a2 depth lse :
  sack_phase t rest a1 u now ack sk = (rest2, a2, depth, lse) -> Forall2 seg_ev rest rest2.
Proof.
  unfold sack_phase. destruct rest as [|s0 r0]; [intro H; injection H as <- _ _ _; constructor|].
  destruct sk as [k|]; [|intro H; injection H as <- _ _ _; apply ev_refl].
  destruct (seq_gt u ack); [|intro H; injection H as <- _ _ _; apply ev_refl].
  destruct (0 <=? seq_sub (wadd16 ack 2) u).
  - destruct (apply_sack (skipn _ (s0 :: r0)) (sk_bits k) now _) as [tl' a'] eqn:Ea.
    intro H; injection H as <- _ _ _.
    rewrite <- (firstn_skipn (Z.to_nat (seq_sub (wadd16 ack 2) u)) (s0 :: r0)) at 1.
    apply Forall2_app; [apply ev_refl|exact (apply_sack_ev _ _ _ _ _ _ Ea)].
  - destruct (apply_sack (s0 :: r0) _ now _) as [l' a'] eqn:Ea.
    intro H; injection H as <- _ _ _. exact (apply_sack_ev _ _ _ _ _ _ Ea).
Qed.

Lemma wadd16_wadd16 u a b : wadd16 (wadd16 u (a mod M16)) (b mod M16) = wadd16 u ((a + b) mod M16).
Proof. unfold wadd16, M16. lia. Qed.

(* the structure of the table after an ACK: a prefix is gone (k segments), what stays evolved
   flag-wise, and snd_una moved by exactly k *)
Lemma remove_up_to_ack_struct t now ack sk t' r :
  remove_up_to_ack t now ack sk = (t', r) ->
  exists a b d,
    ss_segs t = a ++ b /\ Forall2 seg_ev b (d ++ ss_segs t') /\
    ar_acked_segments r = Z.of_nat (length a) + Z.of_nat (length d) /\
    ss_snd_una t' = wadd16 (ss_snd_una t) (ar_acked_segments r mod M16).
Proof.
  unfold remove_up_to_ack.
  set (dc := if 0 <=? seq_sub ack (ss_snd_una t)
             then Z.to_nat (Z.min (seq_sub ack (ss_snd_una t) + 1) (len_z (ss_segs t))) else 0%nat).
  set (a1 := drain_acc (firstn dc (ss_segs t)) now {| ac_rtt := None; ac_maxp := 0; ac_cnt := 0; ac_bytes := 0 |}).
  destruct (drain_acc_spec (firstn dc (ss_segs t)) now {| ac_rtt := None; ac_maxp := 0; ac_cnt := 0; ac_bytes := 0 |})
    as [Hc1 _]. fold a1 in Hc1. cbn [ac_cnt] in Hc1.
  destruct (sack_phase t (skipn dc (ss_segs t)) a1 _ now ack sk) as [[[rest2 a2] depth] lse] eqn:E2.
  pose proof (sack_phase_ev _ _ _ _ _ _ _ _ _ _ _ E2) as Hev.
  destruct (strip_delivered rest2 0 0) as [[rest3 cnt3] bytes3] eqn:E3.
  destruct (strip_delivered_spec _ _ _ _ _ _ E3) as (dropped & Hd & Hc3 & _ & _).
  intro H; injection H as <- <-. cbn [ss_segs ss_snd_una ar_acked_segments].
  exists (firstn dc (ss_segs t)), (skipn dc (ss_segs t)), dropped.
  split; [symmetry; apply firstn_skipn|]. split; [rewrite <- Hd; exact Hev|].
  split; [lia|].
  assert (Hdc : Z.of_nat (length (firstn dc (ss_segs t))) = Z.of_nat dc).
  { rewrite firstn_length. unfold dc, len_z. destruct (0 <=? seq_sub ack (ss_snd_una t)); lia. }
  rewrite wadd16_wadd16. f_equal. f_equal. lia.
Qed.

Lemma remove_up_to_ack_aux q m t now ack sk t' r :
  remove_up_to_ack t now ack sk = (t', r) ->
  segs_aux q m (ss_segs t) -> segs_aux q m (ss_segs t').
Proof.
  intros H Ha. destruct (remove_up_to_ack_struct _ _ _ _ _ _ H) as (a & b & d & E & Hev & _).
  rewrite E in Ha. apply aux_suffix in Ha. apply (aux_ev _ _ _ _ Hev) in Ha.
  eapply aux_suffix; exact Ha.
Qed.

(* ------------------------------------------------------------------ calc_pipe / on_sent *)
Lemma pipe_loop_ev : forall l t hr th now a l' a',
  pipe_loop l t hr th now a = (l', a') -> Forall2 seg_ev (map snd l) l'.
Proof.
  induction l as [|[off s] r IH]; intros t hr th now a l' a'; cbn [pipe_loop].
  - intro H; injection H as <- _. constructor.
  - destruct (seg_last_sent s) eqn:Els.
    + destruct (sg_delivered s) eqn:Ed.
      * destruct (pipe_loop r t hr th now _) as [r' a''] eqn:E. intro H; injection H as <- _.
        cbn [map snd]. constructor; [apply seg_ev_refl|exact (IH _ _ _ _ _ _ _ E)].
      * destruct (pipe_loop r t hr th now _) as [r' a''] eqn:E. intro H; injection H as <- _.
        cbn [map snd]. constructor; [|exact (IH _ _ _ _ _ _ _ E)].
        unfold seg_ev, seg_time_ok, seg_last_sent; cbn. repeat split; auto; congruence.
    + destruct (pipe_loop r t hr th now a) as [r' a''] eqn:E. intro H; injection H as <- _.
      cbn [map snd]. constructor; [apply seg_ev_refl|exact (IH _ _ _ _ _ _ _ E)].
Qed.

Lemma Forall2_rev {A B} (R : A -> B -> Prop) : forall l l', Forall2 R l l' -> Forall2 R (rev l) (rev l').
Proof.
  induction 1 as [|x y xs ys Hxy _ IH]; [constructor|].
  cbn [rev]. apply Forall2_app; [exact IH|]. constructor; [exact Hxy|constructor].
Qed.

Lemma calc_pipe_ev t hr hd rtt now t' p rc :
  calc_pipe t hr hd rtt now = Some (t', p, rc) ->
  Forall2 seg_ev (ss_segs t) (ss_segs t') /\ ss_snd_una t' = ss_snd_una t /\
  ss_removed t' = ss_removed t /\ ss_offset t' = ss_offset t.
Proof.
  unfold calc_pipe. destruct (_ <? _); [discriminate|].
  destruct (pipe_loop _ t hr _ now _) as [upd a] eqn:E. intro H; injection H as <- _ _.
  unfold Segments.set_segs; cbn [ss_segs ss_snd_una ss_removed ss_offset].
  split; [|auto].
  apply pipe_loop_ev in E. rewrite map_rev, enum_from_snd in E.
  apply Forall2_rev in E. rewrite rev_involutive in E.
  rewrite <- (firstn_skipn (Z.to_nat (Z.min (Z.max (seq_sub hd (ss_snd_una t)) 0) (len_z (ss_segs t)))) (ss_segs t)) at 1.
  apply Forall2_app; [exact E|apply ev_refl].
Qed.

(* calc_pipe never panics (repair of D21: `take` is clamped to the table length) *)
Lemma calc_pipe_some t hr hd rtt now : exists t' p rc, calc_pipe t hr hd rtt now = Some (t', p, rc).
Proof.
  pose proof (calc_pipe_total t hr hd rtt now) as H.
  destruct (calc_pipe t hr hd rtt now) as [[[t' p] rc]|]; [eauto|congruence].
Qed.

Lemma update_nth_ev (f : seg -> seg) : (forall g, seg_ev g (f g)) ->
  forall l n, Forall2 seg_ev l (update_nth l n f).
Proof.
  intros Hf. induction l as [|x xs IH]; intros [|n]; cbn [update_nth]; try constructor;
    auto using seg_ev_refl, ev_refl.
Qed.

Lemma on_sent_ev t idx now : 0 <= now -> Forall2 seg_ev (ss_segs t) (ss_segs (on_sent t idx now)).
Proof.
  intro Hn. unfold on_sent, Segments.set_segs; cbn [ss_segs]. apply update_nth_ev.
  intro g. unfold seg_ev, seg_on_sent, seg_time_ok, seg_last_sent; cbn.
  repeat split; auto. intros _. destruct (sg_sent g); exact Hn.
Qed.

(* ------------------------------------------------------------------ connection level *)
Section PollAux.
Context {CC : Type} (cci : cc_iface CC).
Notation vsock := (vsock CC).
Notation step := (@step CC).
Variable strict : bool.

(* like VSock_Inv.sp, but the state of an error exit satisfies E *)
Definition spx {A} (m : step A) (Q : vsock -> A -> Prop) (E : vsock -> Prop) : Prop :=
  match m with SOk s a => Q s a | SErr s e => allowed strict e /\ E s | SPanic => False end.

Lemma spx_bind {A B} (m : step A) (f : vsock -> A -> step B) (Q1 : vsock -> A -> Prop)
  (Q2 : vsock -> B -> Prop) (E : vsock -> Prop) :
  spx m Q1 E -> (forall s a, Q1 s a -> spx (f s a) Q2 E) -> spx (sbind m f) Q2 E.
Proof. destruct m as [s a|s e|]; cbn [spx sbind]; auto. Qed.

Lemma spx_weaken {A} (m : step A) (Q1 Q2 : vsock -> A -> Prop) (E1 E2 : vsock -> Prop) :
  spx m Q1 E1 -> (forall s a, Q1 s a -> Q2 s a) -> (forall s, E1 s -> E2 s) -> spx m Q2 E2.
Proof. destruct m as [s a|s e|]; cbn [spx]; intuition. Qed.

Lemma spx_sp {A} (m : step A) Q E : spx m Q E -> sp strict m Q.
Proof. destruct m as [s a|s e|]; cbn [spx sp]; tauto. Qed.

(* ---- the extended invariant: byte accounting (vs_inv_p) + the per-segment facts + the clock ---- *)
Definition sx (q : Z -> Prop) (s : vsock) : Prop :=
  segs_aux q (min_ss (v_ss s)) (ss_segs (v_segs s)) /\ 0 <= v_now s <= SAMPLE_BOUND.

Definition vs_x (ti tm p : Z) (q : Z -> Prop) (s : vsock) : Prop :=
  vs_inv_p ti tm p s /\ sx q s.

(* the state of an error exit: acknowledged bytes may still be in the ring *)
Definition vs_xe (ti tm : Z) (q : Z -> Prop) (s : vsock) : Prop := exists p, vs_x ti tm p q s.

Lemma x_xe ti tm p q s : vs_x ti tm p q s -> vs_xe ti tm q s.
Proof. intro H. exists p. exact H. Qed.

Lemma x_same_core ti tm p q s s' : vs_x ti tm p q s -> same_core s s' -> vs_x ti tm p q s'.
Proof.
  intros [H1 [H2 H3]] Hc. split; [eapply inv_same_core; eauto|].
  destruct Hc as (_ & _ & E3 & E4 & _ & _ & _ & _ & _ & _ & _ & E12 & _).
  unfold sx. rewrite E3, E4, E12. auto.
Qed.

Lemma x_weaken ti tm p (q q' : Z -> Prop) s : (forall z, q z -> q' z) -> vs_x ti tm p q s -> vs_x ti tm p q' s.
Proof. intros Hq [H1 [H2 H3]]. split; [exact H1|]. split; [eapply aux_weaken; eauto|exact H3]. Qed.

(* segment-size monotonicity: min_ss only grows, max_ss only shrinks *)
Definition ss_mono (a b : segsizes) : Prop := max_ss b <= max_ss a /\ min_ss a <= min_ss b.
Lemma ss_mono_refl a : ss_mono a a.
Proof. unfold ss_mono; lia. Qed.
Lemma ss_mono_trans a b c : ss_mono a b -> ss_mono b c -> ss_mono a c.
Proof. unfold ss_mono; lia. Qed.

(* ---- control packets, with the error state ---- *)
Definition ctl_rel (s s' : vsock) : Prop :=
  send_frame s s' /\ v_seq_nr s' = v_seq_nr s /\ v_env_now s' = v_env_now s.

Lemma ctl_refl s : ctl_rel s s.
Proof. split; [apply send_frame_refl|]. split; reflexivity. Qed.

Lemma ctl_trans a b c : ctl_rel a b -> ctl_rel b c -> ctl_rel a c.
Proof.
  intros (A1 & A2 & A3) (B1 & B2 & B3). split; [eapply send_frame_trans; eauto|]. split; congruence.
Qed.

Lemma next_send_ctl (s : vsock) size s1 o :
  next_send s size = (s1, o) ->
  ctl_rel s s1 /\ v_last_sent_seq_nr s1 = v_last_sent_seq_nr s /\ (emsg_free s -> o <> TEmsgsize).
Proof.
  intro H. destruct (next_send_core _ _ _ _ H) as (Hc & Hl & _ & Hr & Hf).
  destruct (next_send_shape _ _ _ _ H) as [[[-> _]|(o0 & r & _ & ->)] _].
  - split; [apply ctl_refl|]. split; [reflexivity|]. intro He. apply Hf. exact He.
  - split; [|split; [exact Hl|intro He; apply Hf; exact He]].
    split; [split; [exact Hc|split; [intro He; apply Hf; exact He|exact Hr]]|]. vsimpl. split; reflexivity.
Qed.

Lemma send_control_packet_x (s : vsock) h :
  spx (send_control_packet s h)
      (fun s' _ => ctl_rel s s' /\ v_last_sent_seq_nr s' = v_last_sent_seq_nr s)
      (fun s' => ctl_rel s s' /\ v_last_sent_seq_nr s' = v_last_sent_seq_nr s).
Proof.
  unfold send_control_packet.
  destruct (v_transport_pending s); [cbn [spx]; split; [apply ctl_refl|reflexivity]|].
  destruct (next_send s _) as [s1 o] eqn:E.
  destruct (next_send_ctl _ _ _ _ E) as (Hc & Hl & Hf).
  assert (Hfr : forall s2, same_core s1 s2 -> v_sends s2 = v_sends s1 -> v_restart s2 = v_restart s1 ->
                  v_seq_nr s2 = v_seq_nr s1 -> v_env_now s2 = v_env_now s1 ->
                  v_last_sent_seq_nr s2 = v_last_sent_seq_nr s1 ->
                  ctl_rel s s2 /\ v_last_sent_seq_nr s2 = v_last_sent_seq_nr s).
  { intros s2 K1 K2 K3 K4 K5 K6. split; [|congruence].
    eapply ctl_trans; [exact Hc|]. split; [|split; assumption].
    split; [exact K1|]. split; [|exact K3].
    unfold emsg_free. destruct K1 as (_&_&_&_&_&_&_&_&_&_&Ke&_). rewrite K2, Ke. auto. }
  destruct o; cbn [spx allowed].
  - apply Hfr; unfold on_packet_sent, emit, same_core; vsimpl; repeat split.
  - apply Hfr; unfold same_core; vsimpl; repeat split.
  - split; [exact I|]. split; [exact Hc|exact Hl].
  - split; [exact I|]. split; [exact Hc|exact Hl].
Qed.

Lemma send_ack_x (s : vsock) :
  spx (send_ack s)
      (fun s' _ => ctl_rel s s' /\ v_last_sent_seq_nr s' = v_last_sent_seq_nr s)
      (fun s' => ctl_rel s s' /\ v_last_sent_seq_nr s' = v_last_sent_seq_nr s).
Proof. unfold send_ack. apply send_control_packet_x. Qed.

(* maybe_send_fin: last_sent_seq_nr either stays or becomes our (unacknowledged) FIN, and then
   only from the value just before it *)
Lemma maybe_send_fin_x (s : vsock) :
  spx (maybe_send_fin s)
      (fun s' _ => ctl_rel s s' /\
         (v_last_sent_seq_nr s' = v_last_sent_seq_nr s \/
          exists f, our_fin_if_unacked (v_state s) = Some f /\ seq_sub f (v_last_sent_seq_nr s) = 1 /\
                    v_last_sent_seq_nr s' = f))
      (fun s' => ctl_rel s s' /\ v_last_sent_seq_nr s' = v_last_sent_seq_nr s).
Proof.
  unfold maybe_send_fin.
  destruct (v_transport_pending s); [cbn [spx]; split; [apply ctl_refl|left; reflexivity]|].
  destruct (our_fin_if_unacked (v_state s)) as [f|] eqn:Ef; [|cbn [spx]; split; [apply ctl_refl|left; reflexivity]].
  destruct (Z.eqb_spec (seq_sub f (v_last_sent_seq_nr s)) 1) as [E1|E1]; cbn [negb];
    [|cbn [spx]; split; [apply ctl_refl|left; reflexivity]].
  eapply spx_bind; [apply send_control_packet_x|].
  intros s1 sent [Hc Hl]. destruct sent; cbn [spx]; [|split; [exact Hc|left; exact Hl]].
  split.
  - eapply ctl_trans; [exact Hc|]. split; [|vsimpl; split; reflexivity].
    unfold send_frame, same_core, emsg_free. vsimpl. repeat split; tauto.
  - right. exists f. vsimpl. auto.
Qed.

(* ---- the state table ---- *)
Definition tbl_rel (s s1 : vsock) : Prop :=
  v_rx s1 = v_rx s /\ v_tx s1 = v_tx s /\ v_segs s1 = v_segs s /\ v_ss s1 = v_ss s /\
  v_rtte s1 = v_rtte s /\ v_recovery s1 = v_recovery s /\ v_opts s1 = v_opts s /\
  v_inbox s1 = v_inbox s /\ v_inbox_closed s1 = v_inbox_closed s /\
  v_emsg_limit s1 = v_emsg_limit s /\ v_now s1 = v_now s /\ v_sends s1 = v_sends s /\
  v_restart s1 = v_restart s /\ v_last_sent_seq_nr s1 = v_last_sent_seq_nr s /\
  v_env_now s1 = v_env_now s /\ (v_state s1 <> Closed -> v_state s <> Closed).

Lemma state_table_rel (s : vsock) h : tbl_rel s (tbl_state (state_table s h)).
Proof.
  unfold state_table, restart_remote_inactivity_timer, tbl_rel.
  destruct (ch_type h); destruct (v_state s) eqn:Est; cbn [tbl_state negb];
    repeat (match goal with |- context [if ?c then _ else _] => destruct c end);
    cbn [tbl_state]; repeat (split; [reflexivity|]); vsimpl; congruence.
Qed.

Lemma state_table_err (s : vsock) h s1 e :
  v_state s <> SynReceived -> state_table s h = TblErr s1 e -> e = ErrStResetReceived /\ v_state s1 = Closed.
Proof.
  intros Hs. unfold state_table.
  destruct (ch_type h); destruct (v_state s) eqn:Est; try congruence;
    repeat match goal with
    | |- context [if ?c then _ else _] => destruct c
    end; intro H; inversion H; subst; vsimpl; auto.
Qed.

Lemma x_state ti tm p q (s s' : vsock) :
  vs_x ti tm p q s -> v_rx s' = v_rx s -> v_tx s' = v_tx s -> v_segs s' = v_segs s -> v_ss s' = v_ss s ->
  v_rtte s' = v_rtte s -> v_recovery s' = v_recovery s -> v_opts s' = v_opts s -> v_now s' = v_now s ->
  (v_state s' <> Closed -> v_state s <> Closed) -> vs_x ti tm p q s'.
Proof.
  intros [H1 [H2 H3]] E1 E2 E3 E4 E5 E6 E7 E8 Hst. split.
  - eapply inv_update; [exact H1|..]; rewrite ?E3, ?E4, ?E5, ?E6; try assumption; try reflexivity; try lia;
      apply (inv_parts _ _ _ _ H1).
  - unfold sx. rewrite E3, E4, E8. auto.
Qed.

Lemma x_tbl ti tm p q (s s1 : vsock) : vs_x ti tm p q s -> tbl_rel s s1 -> vs_x ti tm p q s1.
Proof.
  intros Hx (E1&E2&E3&E4&E5&E6&E7&_&_&_&E11&_&_&_&_&Hst). eapply x_state; eassumption.
Qed.

End PollAux.
