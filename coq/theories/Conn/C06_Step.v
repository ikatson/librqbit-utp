(* C06, step level: the predicates of Conn/C06_Pred.v (and c06_no_resend_acked of Conn/C0506_Pred2.v) as
   THEOREMS about every step of the model (every state satisfying a proved invariant, every event) and about
   every trace from vsock_new.  Machinery: Conn/C06_StepLemmas.v (PollHoare, SendRule, PimRule, fpr, CAP, OUT),
   Conn/C06_StepLemmas2.v (RTO modes, back-off, DM), Conn/C06_StepLemmas3.v (fast retransmit).
     c06_joint_ok         every trace (valid configuration)                           c06_joint_ok_trace
     c06_cap_ok           under CAPc (an invariant), every step, every result         c06_cap_ok_step / _trace
     c06_backoff_ok       under ti /\ LB 0 (invariants), every step, restarts incl.  c06_backoff_ok_step / _trace
     c06_emitted_live_ok  FALSE as stated (emitted_live_restart_refuted: restart after EMSGSIZE);
                          every poll the transport cannot answer with EMSGSIZE        c06_emitted_live_ok_poll,
                          guarded trace predicate c06_emitted_live_ok_g               c06_emitted_live_ok_g_trace
     c06_no_resend_acked  EMSGSIZE-free polls, tables within the wrap tolerance       c06_no_resend_acked_t_poll,
                          (c06_no_resend_acked_t / _g, Conn/C06_Pred2.v)              c06_no_resend_acked_g_trace
     c06_fast_retx_ok     EMSGSIZE-free polls, guard of c06_fast_retx_ok_t            c06_fast_retx_ok_t_poll,
                                                                                      c06_fast_retx_ok_g_trace
   Non-vacuity: backoff_cap_nonvacuous, fast_retx_nonvacuous.
   NOT done here: c06_rp_exit_ok, c06_stable_plen_ok (trace level). *)
From Utp Require Conn.VSock_Inv.
From Utp Require Import Base.Prelude Wire.SeqNr Wire.SeqNr_Proofs Wire.Header Rtt.Rtte Rtt.Rtte_Proofs
  Mtu.SegSizes Rx.Rx Tx.Ring Tx.Ring_Proofs Tx.Segments Tx.Segments_Proofs Tx.Segments_ProofsOut
  Conn.Recovery Conn.Msg Conn.VSockRec Conn.VSock Conn.VSockRun Conn.VObs
  Conn.VSock_Lemmas Conn.VSock_LemmasStep Conn.VSock_LemmasReach Conn.VSock_LemmasTx
  Conn.VSock_LemmasIn Conn.VSock_LemmasTimers Conn.VSock_LemmasPipe Conn.C17_StepLemmas
  Conn.C10_Pred Conn.C05_Pred Conn.C06_Pred Conn.C0506_Pred2 Conn.C06_Pred2 Conn.C06_RecProofs
  Conn.C06_StepLemmas Conn.C06_StepLemmas2 Conn.C06_StepLemmas3 Conn.C10_Proofs.

Section WithCC.
Context {CC : Type} (cci : cc_iface CC).
Notation vsock := (vsock CC).

(* ================================================================== c06_joint_ok *)
Lemma poll_write_TW : forall t buf t' r w,
  poll_write t buf = (t', r, w) ->
  g_removed t' = g_removed t /\
  Z.of_nat (length (ring t')) = Z.of_nat (length (ring t)) + match r with WrOk n => n | _ => 0 end.
Proof.
  intros t buf t' r w. unfold poll_write.
  destruct (_ <? _); [intro H; injection H as <- <- _; cbn [g_removed ring upd]; split; lia|].
  destruct (t_vsock_closed t); [intro H; injection H as <- <- _; split; lia|].
  destruct (writer_shutdown t); [intro H; injection H as <- <- _; split; lia|].
  destruct (writer_dropped t); [intro H; injection H as <- <- _; split; lia|].
  cbv zeta. destruct (Z.eqb_spec (Z.min (Z.of_nat (length buf)) (Z.max (cap t - Z.of_nat (length (ring t))) 0)) 0) as [E|E];
    intro H; injection H as <- <- _; cbn [g_removed ring upd]; [split; lia|].
  split; [reflexivity|]. rewrite app_length, firstn_length. lia.
Qed.

(* the state after an application event, and what it did to the three numbers *)
Lemma vstep_nonpoll_JI : forall w (s : vsock) o,
  JI w s -> (forall sc, o <> VoPoll sc) ->
  JI (match fresult_of (vstep_out cci s o) with FrWrite (WrOk n) => w + n | _ => w end) (vstep_state cci s o).
Proof.
  intros w s o HJ Hnp. pose proof (vstep_LB cci s o (proj1 HJ)) as L'.
  destruct HJ as (L & Q & T). unfold vstep_out, vstep_state in *.
  assert (Hsame : forall s' : vsock, v_tx s' = v_tx s -> v_segs s' = v_segs s -> JQ s' /\ TW s' = w).
  { intros s' E1 E2. unfold JQ, TW in *. rewrite E1, E2. auto. }
  destruct o; cbn [vstep fst snd fresult_of] in *.
  - split; [exact L'|]. apply Hsame; reflexivity.
  - split; [exact L'|]. apply Hsame; reflexivity.
  - exfalso. eapply Hnp; reflexivity.
  - destruct (v_inbox_closed s); cbn [fst snd fresult_of] in *; (split; [exact L'|]); apply Hsame; reflexivity.
  - split; [exact L'|]. apply Hsame; reflexivity.
  - destruct (writer_dropped (v_tx s)); [cbn [fst snd fresult_of] in *; split; [exact L'|]; apply Hsame; reflexivity|].
    destruct (poll_write (v_tx s) buf) as [[tx1 r] w0] eqn:E. cbn [fst snd fresult_of] in *.
    destruct (poll_write_TW _ _ _ _ _ E) as [G R]. split; [exact L'|].
    unfold JQ, TW in *. vsimpl_goal. rewrite G. split; [exact Q|].
    destruct r; try (destruct r); lia.
  - destruct (writer_dropped (v_tx s)); [cbn [fst snd fresult_of] in *; split; [exact L'|]; apply Hsame; reflexivity|].
    destruct (poll_flush (v_tx s)) as [[tx1 r] w0] eqn:E. cbn [fst snd fresult_of] in *.
    destruct (proj1 (VSock_Inv.tx_flag_ops (v_tx s)) _ _ _ E) as [F1 F2].
    split; [exact L'|]. unfold JQ, TW in *. vsimpl_goal. rewrite F1, F2. auto.
  - destruct (writer_dropped (v_tx s)); [cbn [fst snd fresult_of] in *; split; [exact L'|]; apply Hsame; reflexivity|].
    destruct (poll_shutdown (v_tx s)) as [[tx1 r] w0] eqn:E. cbn [fst snd fresult_of] in *.
    destruct (proj1 (proj2 (VSock_Inv.tx_flag_ops (v_tx s))) _ _ _ E) as [F1 F2].
    split; [exact L'|]. unfold JQ, TW in *. vsimpl_goal. rewrite F1, F2. auto.
  - destruct (reader_dropped (v_rx s)); [cbn [fst snd fresult_of] in *; split; [exact L'|]; apply Hsame; reflexivity|].
    destruct (rx_read (v_rx s) n) as [[rx1 r] w0]. cbn [fst snd fresult_of] in *.
    split; [exact L'|]. destruct r; apply Hsame; reflexivity.
  - destruct (reader_dropped (v_rx s)); [cbn [fst snd fresult_of] in *; split; [exact L'|]; apply Hsame; reflexivity|].
    destruct (rx_drop_reader (v_rx s)) as [rx1 w0]. cbn [fst snd fresult_of] in *.
    split; [exact L'|]. apply Hsame; reflexivity.
  - destruct (drop_writer (v_tx s)) as [tx1 w0] eqn:E. cbn [fst snd fresult_of] in *.
    destruct (proj2 (proj2 (VSock_Inv.tx_flag_ops (v_tx s))) _ _ E) as [F1 F2].
    split; [exact L'|]. unfold JQ, TW in *. vsimpl_goal. rewrite F1, F2. auto.
Qed.

Lemma vstep_nonpoll_out : forall (s : vsock) o,
  (forall sc, o <> VoPoll sc) ->
  poll_finished (vstep_out cci s o) = false /\
  forall r pk wk a, fresult_of (vstep_out cci s o) <> FrPoll r pk wk a.
Proof.
  intros s o Hnp. unfold vstep_out.
  destruct o; cbn [vstep]; try (exfalso; eapply Hnp; reflexivity);
    repeat break_match; cbn [fst snd poll_finished fresult_of]; split; try reflexivity;
    intros ? ? ? ? H; repeat break_match_hyp H; discriminate H.
Qed.

Theorem joint_trace_ok : forall ops w (s : vsock), JI w s -> joint_trace w (ftrace cci s ops) = true.
Proof.
  induction ops as [|o rest IH]; intros w s HJ; [reflexivity|].
  rewrite ftrace_cons'. cbn [joint_trace].
  assert (Hnon : (forall sc, o <> VoPoll sc) ->
    (match fs_result (fstep_of cci s o) with
     | FrPoll PollPending _ _ _ =>
         (f_seg_removed (fs_post (fstep_of cci s o)) =?
          match fs_result (fstep_of cci s o) with FrWrite (WrOk n) => w + n | _ => w end -
          f_tx_len (fs_post (fstep_of cci s o))) &&
         (f_seg_len_bytes (fs_post (fstep_of cci s o)) <=? f_tx_len (fs_post (fstep_of cci s o)))
     | _ => true
     end) &&
    joint_trace (match fs_result (fstep_of cci s o) with FrWrite (WrOk n) => w + n | _ => w end)
      (if poll_finished (vstep_out cci s o) then [] else ftrace cci (vstep_state cci s o) rest) = true).
  { intro Hnp. pose proof (vstep_nonpoll_JI w s o HJ Hnp) as K.
    destruct (vstep_nonpoll_out s o Hnp) as [Hf Hr]. rewrite Hf, fstep_of_result.
    destruct (fresult_of (vstep_out cci s o)) as [|r pk wk a|r|r|?| | | |] eqn:Er;
      try (exfalso; eapply Hr; reflexivity); cbn [andb]; apply IH; exact K. }
  destruct o as [t|m|sc|m| |buf| | |n| |]; try (apply Hnon; discriminate). clear Hnon.
  (* the poll *)
  destruct (poll cci (VSockRec.set_sends s sc)) as [s' r] eqn:E.
  destruct (vstep_poll cci s sc s' r E) as [V1 V2]. rewrite V1, V2.
  rewrite (fstep_of_poll cci s sc s' r E). cbn [fs_result fs_post poll_finished].
  destruct r; try reflexivity.
  assert (HJ' : JI w s') by (eapply (poll_JI cci w (VSockRec.set_sends s sc)); [exact HJ | exact E]).
  rewrite (IH w s' HJ'). rewrite andb_true_r.
  destruct HJ' as ((A & B & C & D) & Q & T). unfold JQ, TW in *.
  cbn [fp_of_vsock f_seg_removed f_tx_len f_seg_len_bytes].
  apply andb_true_intro. split; [apply Z.eqb_eq; lia | apply Z.leb_le; lia].
Qed.

Theorem c06_joint_ok_trace : forall cfg mk c (s0 : vsock) ops,
  vconfig_ok c = true -> vsock_new cci mk c = Some s0 -> c06_joint_ok cfg (ftrace cci s0 ops) = true.
Proof.
  intros cfg mk c s0 ops Hc H0. unfold c06_joint_ok. apply joint_trace_ok.
  split; [eapply vsock_new_LB; eassumption|].
  unfold vsock_new in H0.
  destruct (match (if vc_incoming c then None else _) with Some r => _ | None => _ end); [|discriminate].
  inversion H0; subst. unfold JQ, TW. cbn. auto.
Qed.

(* ================================================================== c06_cap_ok *)
Lemma vstep_nonpoll_segs : forall (s : vsock) o,
  match o with VoPoll _ => True | _ => v_segs (vstep_state cci s o) = v_segs s end.
Proof.
  intros s o. unfold vstep_state. destruct o; try exact I; cbn [vstep]; repeat break_match; reflexivity.
Qed.

Lemma CAP_forallb : forall cfg (s : vsock),
  CAP s -> o_max_retx (v_opts s) = vc_max_retx cfg ->
  forallb (fun g => fg_retx g <=? vc_max_retx cfg) (f_segs (fp_of_vsock cci s)) = true.
Proof.
  intros cfg s [Hc _] Hm. cbn [fp_of_vsock f_segs]. apply forallb_forall. intros x Hx.
  apply in_map_iff in Hx. destruct Hx as (g & <- & Hg).
  unfold SP in Hc. rewrite Forall_forall in Hc. specialize (Hc g Hg).
  unfold fseg_of, seg_retransmit_count, capP in *. cbn [fg_retx]. apply Z.leb_le. rewrite <- Hm. lia.
Qed.

Lemma MAXW_existsb : forall cfg (s : vsock),
  MAXW s -> o_max_retx (v_opts s) = vc_max_retx cfg ->
  existsb (fun g => (fg_retx g =? vc_max_retx cfg) && negb (fg_delivered g)) (f_segs (fp_of_vsock cci s)) = true.
Proof.
  intros cfg s (g & Hg & Hc & Hd) Hm. cbn [fp_of_vsock f_segs]. apply existsb_exists.
  exists (fseg_of g). split; [apply in_map; exact Hg|].
  unfold fseg_of. cbn [fg_retx fg_delivered]. rewrite Hd, Hc, Hm, Z.eqb_refl. reflexivity.
Qed.

Definition CAPc (c : vconfig) (s : vsock) : Prop := CAP s /\ o_max_retx (v_opts s) = vc_max_retx c.

Theorem c06_cap_ok_step : forall cfg (s : vsock) o,
  CAPc cfg s -> CAPc cfg (vstep_state cci s o) /\ c06_cap_ok cfg (fstep_of cci s o) = true.
Proof.
  intros cfg s o [Hc Hm].
  destruct (vstep_keeps cci s o) as (Ko & _ & _).
  assert (Hnon : (forall sc, o <> VoPoll sc) -> v_segs (vstep_state cci s o) = v_segs s ->
                 CAPc cfg (vstep_state cci s o) /\ c06_cap_ok cfg (fstep_of cci s o) = true).
  { intros Hnp Hs.
    assert (Hc' : CAP (vstep_state cci s o)) by (eapply CAP_eq; eauto).
    split; [split; [exact Hc' | congruence]|].
    unfold c06_cap_ok. rewrite fstep_of_post, fstep_of_result.
    rewrite (CAP_forallb cfg _ Hc') by congruence. cbn [andb].
    destruct (vstep_nonpoll_out s o Hnp) as [_ Hr].
    destruct (fresult_of (vstep_out cci s o)) eqn:Er; try reflexivity.
    exfalso. eapply Hr. reflexivity. }
  pose proof (vstep_nonpoll_segs s o) as Hsg.
  destruct o as [t|m|sc|m| |buf| | |n| |]; try (apply Hnon; [discriminate | exact Hsg]). clear Hnon Hsg.
  destruct (poll cci (VSockRec.set_sends s sc)) as [s' r] eqn:E.
  destruct (vstep_poll cci s sc s' r E) as [V1 V2]. rewrite V1 in *.
  assert (Hc0 : CAP (VSockRec.set_sends s sc)) by (eapply CAP_eq; [| |exact Hc]; reflexivity).
  destruct (poll_CAP cci _ _ _ Hc0 E) as [Hc' Hx].
  split; [split; [exact Hc' | congruence]|].
  rewrite (fstep_of_poll cci s sc s' r E). unfold c06_cap_ok. cbn [fs_post fs_result].
  rewrite (CAP_forallb cfg _ Hc') by congruence. cbn [andb].
  destruct r; try reflexivity. destruct e; try reflexivity.
  apply MAXW_existsb; [apply Hx; reflexivity | congruence].
Qed.

Lemma CAPc_vsock_new : forall mk c (s0 : vsock),
  0 <= vc_max_retx c -> vsock_new cci mk c = Some s0 -> CAPc c s0.
Proof.
  intros mk c s0 H0 Hn. unfold vsock_new in Hn.
  destruct (match (if vc_incoming c then None else _) with Some r => _ | None => _ end); [|discriminate].
  inversion Hn; subst. unfold CAPc, CAP. cbn. split; [split; [constructor | exact H0] | reflexivity].
Qed.

Theorem c06_cap_ok_trace : forall mk c (s0 : vsock) ops,
  0 <= vc_max_retx c -> vsock_new cci mk c = Some s0 ->
  forallb (c06_cap_ok c) (ftrace cci s0 ops) = true.
Proof.
  intros mk c s0 ops H0 Hn.
  apply (ftrace_forallb cci (CAPc c)).
  - intros s o Hp. apply c06_cap_ok_step; exact Hp.
  - intros s o Hp. apply c06_cap_ok_step; exact Hp.
  - eapply CAPc_vsock_new; eassumption.
Qed.

(* ================================================================== c06_emitted_live_ok *)
(* the snapshot segment a sequence number of the table names *)
Lemma fseg_of_seq_table : forall (s : vsock) j g,
  seg_inv (v_segs s) -> tol_ok (fp_of_vsock cci s) = true ->
  nth_error (ss_segs (v_segs s)) j = Some g ->
  fseg_of_seq (fp_of_vsock cci s) (wadd16 (ss_snd_una (v_segs s)) (Z.of_nat j mod M16)) = Some (fseg_of g).
Proof.
  intros s j g (_ & _ & _ & _ & Hu) Ht Hn. unfold tol_ok, fseg_of_seq in *.
  cbn [fp_of_vsock f_segs f_snd_una] in *. rewrite map_length in *. apply Z.leb_le in Ht.
  assert (Hj : (j < length (ss_segs (v_segs s)))%nat) by (apply nth_error_Some; congruence).
  assert (Hk : seq_sub (wadd16 (ss_snd_una (v_segs s)) (Z.of_nat j mod M16)) (ss_snd_una (v_segs s)) = Z.of_nat j).
  { unfold seq_sub, wadd16. rewrite (Z.mod_small (Z.of_nat j)) by (unfold M16; lia).
    apply offset_true_distance; unfold WRAP_TOLERANCE; try lia; try exact Hu. }
  rewrite Hk.
  replace ((0 <=? Z.of_nat j) && (Z.of_nat j <? Z.of_nat (length (ss_segs (v_segs s))))) with true
    by (symmetry; apply andb_true_intro; split; [apply Z.leb_le | apply Z.ltb_lt]; lia).
  rewrite Nat2Z.id. apply map_nth_error. exact Hn.
Qed.

Lemma OUT_emitted_live : forall cfg (s s' : vsock) sc,
  poll cci (VSockRec.set_sends s sc) = (s', PollPending) ->
  seg_inv (v_segs s') -> NW s' -> OUT s' ->
  c06_emitted_live_ok cfg (fstep_of cci s (VoPoll sc)) = true.
Proof.
  intros cfg s s' sc E Hinv Hnw Hout. rewrite (fstep_of_poll cci s sc s' _ E). unfold c06_emitted_live_ok.
  cbn [fs_event fs_result fs_post fs_now].
  destruct (tol_ok (fp_of_vsock cci s')) eqn:Ht; [|reflexivity].
  apply forallb_forall. intros x Hx. apply filter_In in Hx. destruct Hx as [Hx Hd].
  apply in_map_iff in Hx. destruct Hx as (p & <- & Hp). apply in_rev in Hp.
  unfold OUT in Hout. rewrite Forall_forall in Hout. specialize (Hout p Hp).
  assert (Hty : ch_type (p_hdr p) = ST_DATA).
  { unfold fq_is_data, fpacket_of in Hd. cbn [fq_hdr] in Hd. destruct (ch_type (p_hdr p)); try discriminate; reflexivity. }
  destruct (Hout Hty) as (j & g & A1 & A2 & A3 & A4 & A5 & A6).
  unfold fpacket_of. cbn [fq_hdr fq_plen]. rewrite A2, (fseg_of_seq_table s' j g Hinv Ht A1).
  unfold fseg_of. cbn [fg_delivered fg_sent_kind fg_size fg_last_sent]. rewrite A3, A5, A6, Z.eqb_refl.
  unfold NW in Hnw. rewrite Hnw, Z.eqb_refl. destruct (sg_sent g); [contradiction | reflexivity | reflexivity].
Qed.

(* the whole poll in the strict regime: NW and OUT at every Pending exit *)
Theorem poll_OUT_strict : forall (s s' : vsock),
  LB 0 s -> EF s -> poll cci s = (s', PollPending) -> NW s' /\ OUT s'.
Proof.
  intros s s' HL HE H. destruct (poll_OUT_DM_strict cci s s' HL HE H) as (K1 & K2 & _). split; assumption.
Qed.

(* every poll that the transport cannot answer with EMSGSIZE *)
Theorem c06_emitted_live_ok_poll : forall cfg (s : vsock) sc,
  LB 0 s -> v_emsg_limit s = None -> script_legit sc = true ->
  c06_emitted_live_ok cfg (fstep_of cci s (VoPoll sc)) = true.
Proof.
  intros cfg s sc HL Hl Hs.
  destruct (poll cci (VSockRec.set_sends s sc)) as [s' r] eqn:E.
  destruct r; try (rewrite (fstep_of_poll cci s sc s' _ E); reflexivity).
  assert (HL0 : LB 0 (VSockRec.set_sends s sc)) by (eapply LB_kp; [exact HL|]; unfold kp; auto).
  pose proof (poll_LB cci _ HL0) as HL'. rewrite E in HL'. cbn [fst] in HL'.
  assert (HE : EF (VSockRec.set_sends s sc)) by (split; [exact Hs | exact Hl]).
  destruct (poll_OUT_strict _ _ HL0 HE E) as [Hnw Hout].
  eapply OUT_emitted_live; eauto. apply HL'.
Qed.

Theorem c06_emitted_live_ok_other : forall cfg (s : vsock) o,
  (forall sc, o <> VoPoll sc) -> c06_emitted_live_ok cfg (fstep_of cci s o) = true.
Proof.
  intros cfg s o Hnp. unfold c06_emitted_live_ok. rewrite fstep_of_event.
  destruct o; try reflexivity. exfalso. eapply Hnp. reflexivity.
Qed.

(* the path limit a trace carries along *)
Lemma vstep_limit : forall (s : vsock) o,
  v_emsg_limit (vstep_state cci s o) = match o with VoSetLimit m => m | _ => v_emsg_limit s end.
Proof.
  intros s o. unfold vstep_state. destruct o; cbn [vstep]; try (repeat break_match; reflexivity).
  destruct (poll cci (VSockRec.set_sends s script)) as [s' r] eqn:E. cbn [fst].
  rewrite poll_unfold in E.
  pose proof (VSock_LemmasFin.poll_loop_frame0 cci 64 (poll_init (VSockRec.set_sends s script))) as F.
  rewrite E in F. cbn [fst] in F. destruct F as (_ & _ & _ & _ & F5 & _). exact F5.
Qed.

Theorem noemsg_scan_inv : forall (Inv : vsock -> Prop) (P : fstep -> bool),
  (forall (s : vsock) o, Inv s -> Inv (vstep_state cci s o)) ->
  (forall (s : vsock) o, (forall sc, o <> VoPoll sc) -> P (fstep_of cci s o) = true) ->
  (forall (s : vsock) sc, Inv s -> v_emsg_limit s = None -> script_legit sc = true ->
                          P (fstep_of cci s (VoPoll sc)) = true) ->
  forall ops (s : vsock), Inv s -> noemsg_scan P (v_emsg_limit s) (ftrace cci s ops) = true.
Proof.
  intros Inv P Hstep Hother Hpoll. induction ops as [|o rest IH]; intros s HL; [reflexivity|].
  rewrite ftrace_cons'. cbn [noemsg_scan].
  assert (Hn : lim_next (v_emsg_limit s) (fstep_of cci s o) = v_emsg_limit (vstep_state cci s o)).
  { unfold lim_next. rewrite fstep_of_event, vstep_limit. destruct o; reflexivity. }
  rewrite Hn. apply andb_true_intro. split.
  - unfold poll_noemsg. rewrite fstep_of_event.
    destruct o; cbn [fevent_of]; try (apply Hother; discriminate).
    destruct (script_legit script) eqn:Es; [|reflexivity].
    destruct (v_emsg_limit s) eqn:El; [reflexivity|]. cbn [andb]. apply Hpoll; assumption.
  - destruct (poll_finished _); [reflexivity|]. apply IH. apply Hstep. exact HL.
Qed.

Corollary noemsg_scan_ok : forall (P : fstep -> bool),
  (forall (s : vsock) o, (forall sc, o <> VoPoll sc) -> P (fstep_of cci s o) = true) ->
  (forall (s : vsock) sc, LB 0 s -> v_emsg_limit s = None -> script_legit sc = true ->
                          P (fstep_of cci s (VoPoll sc)) = true) ->
  forall ops (s : vsock), LB 0 s -> noemsg_scan P (v_emsg_limit s) (ftrace cci s ops) = true.
Proof. intro P. apply (noemsg_scan_inv (LB 0)). intros s o HL. apply (vstep_LB cci s o HL). Qed.

Lemma vsock_new_limit : forall mk c (s0 : vsock), vsock_new cci mk c = Some s0 -> v_emsg_limit s0 = None.
Proof.
  intros mk c s0 H0. unfold vsock_new in H0.
  destruct (match (if vc_incoming c then None else _) with Some r => _ | None => _ end); [|discriminate].
  inversion H0; subst. reflexivity.
Qed.

Theorem c06_emitted_live_ok_g_trace : forall cfg mk c (s0 : vsock) ops,
  vconfig_ok c = true -> vsock_new cci mk c = Some s0 ->
  c06_emitted_live_ok_g cfg (ftrace cci s0 ops) = true.
Proof.
  intros cfg mk c s0 ops Hc H0. unfold c06_emitted_live_ok_g.
  rewrite <- (vsock_new_limit _ _ _ H0). apply noemsg_scan_ok.
  - apply c06_emitted_live_ok_other.
  - apply c06_emitted_live_ok_poll.
  - eapply vsock_new_LB; eassumption.
Qed.

(* ================================================================== c06_no_resend_acked *)
Lemma seq_sub_ahead : forall u m, 0 <= u < M16 -> 0 <= m <= 4096 ->
  seq_sub ((u + m) mod M16) u = m \/ seq_sub ((u + m) mod M16) u < 0.
Proof.
  intros u m Hu Hm. unfold seq_sub, seq_nr_offset, wsub16, WRAP_TOLERANCE, M16 in *.
  destruct (Z.ltb_spec ((u + m) mod 65536) u);
  [ destruct (Z.leb_spec (((u + m) mod 65536 - u) mod 65536) 1024)
  | destruct (Z.eqb_spec ((u + m) mod 65536) u);
    [ | destruct (Z.leb_spec ((u - (u + m) mod 65536) mod 65536) 1024) ] ]; lia.
Qed.

Theorem c06_no_resend_acked_t_poll : forall cfg (s : vsock) sc,
  LB 0 s -> v_emsg_limit s = None -> script_legit sc = true ->
  c06_no_resend_acked_t cfg (fstep_of cci s (VoPoll sc)) = true.
Proof.
  intros cfg s sc HL Hl Hs. unfold c06_no_resend_acked_t, c06_no_resend_acked.
  destruct (poll cci (VSockRec.set_sends s sc)) as [s' r] eqn:E.
  rewrite (fstep_of_poll cci s sc s' r E). cbn [fs_event fs_result fs_pre fs_post].
  destruct (tol_ok (fp_of_vsock cci s')) eqn:Ht'; [|reflexivity].
  destruct (tol_ok (fp_of_vsock cci s)) eqn:Ht; [|reflexivity].
  assert (HL0 : LB 0 (VSockRec.set_sends s sc)) by (eapply LB_kp; [exact HL|]; unfold kp; auto).
  assert (HE : EF (VSockRec.set_sends s sc)) by (split; [exact Hs | exact Hl]).
  pose proof (poll_OUT_DM_strict_all cci _ _ _ HL0 HE E) as K.
  assert (Hcase : v_out s' = [] \/ (OUT s' /\ DM (v_segs s) (v_segs s'))).
  { destruct r; [right|right|right|left]; try (destruct K as (_ & K2 & K3); split; assumption). exact K. }
  clear K. destruct Hcase as [Ho|[Hout (d & D1 & D2 & D3)]]; [rewrite Ho; reflexivity|].
  apply forallb_forall. intros x Hx. apply filter_In in Hx. destruct Hx as [Hx Hd].
  apply in_map_iff in Hx. destruct Hx as (p & <- & Hp). apply in_rev in Hp.
  unfold OUT in Hout. rewrite Forall_forall in Hout. specialize (Hout p Hp).
  assert (Hty : ch_type (p_hdr p) = ST_DATA).
  { unfold fq_is_data, fpacket_of in Hd. cbn [fq_hdr] in Hd. destruct (ch_type (p_hdr p)); try discriminate; reflexivity. }
  destruct (Hout Hty) as (j & g' & A1 & A2 & A3 & _).
  unfold fpacket_of. cbn [fq_hdr]. unfold fseg_of_seq.
  unfold tol_ok in Ht, Ht'. cbn [fp_of_vsock f_segs f_snd_una] in *. rewrite map_length in *.
  apply Z.leb_le in Ht, Ht'.
  assert (Hj : (j < length (ss_segs (v_segs s')))%nat) by (apply nth_error_Some; congruence).
  destruct HL as ((_ & _ & _ & _ & Hu) & _).
  rewrite A2, D2. change (v_segs (VSockRec.set_sends s sc)) with (v_segs s) in *.
  rewrite wadd16_wadd16 by lia. unfold wadd16.
  rewrite (Z.mod_small (Z.of_nat d + Z.of_nat j)) by (unfold M16; lia).
  destruct (seq_sub_ahead (ss_snd_una (v_segs s)) (Z.of_nat d + Z.of_nat j) Hu ltac:(lia)) as [Hk|Hk].
  - rewrite Hk.
    destruct ((0 <=? Z.of_nat d + Z.of_nat j) && (Z.of_nat d + Z.of_nat j <? Z.of_nat (length (ss_segs (v_segs s))))) eqn:Eb;
      [|reflexivity].
    rewrite <- Nat2Z.inj_add, Nat2Z.id.
    rewrite nth_error_map. destruct (nth_error (ss_segs (v_segs s)) (d + j)) as [g0|] eqn:E0; [|reflexivity].
    cbn [option_map]. unfold fseg_of. cbn [fg_delivered].
    destruct (sg_delivered g0) eqn:Ed0; [|reflexivity].
    exfalso. destruct (D3 j g0 E0 Ed0) as (g2 & G1 & G2). congruence.
  - replace (0 <=? seq_sub ((ss_snd_una (v_segs s) + (Z.of_nat d + Z.of_nat j)) mod M16) (ss_snd_una (v_segs s)))
      with false by (symmetry; apply Z.leb_gt; exact Hk). reflexivity.
Qed.

Theorem c06_no_resend_acked_t_other : forall cfg (s : vsock) o,
  (forall sc, o <> VoPoll sc) -> c06_no_resend_acked_t cfg (fstep_of cci s o) = true.
Proof.
  intros cfg s o Hnp. unfold c06_no_resend_acked_t, c06_no_resend_acked. rewrite fstep_of_event.
  destruct (tol_ok _); [|reflexivity]. destruct o; try reflexivity. exfalso. eapply Hnp. reflexivity.
Qed.

Theorem c06_no_resend_acked_g_trace : forall cfg mk c (s0 : vsock) ops,
  vconfig_ok c = true -> vsock_new cci mk c = Some s0 ->
  c06_no_resend_acked_g cfg (ftrace cci s0 ops) = true.
Proof.
  intros cfg mk c s0 ops Hc H0. unfold c06_no_resend_acked_g.
  rewrite <- (vsock_new_limit _ _ _ H0). apply noemsg_scan_ok.
  - apply c06_no_resend_acked_t_other.
  - apply c06_no_resend_acked_t_poll.
  - eapply vsock_new_LB; eassumption.
Qed.

(* ================================================================== c06_fast_retx_ok *)
Theorem c06_fast_retx_ok_t_poll : forall cfg (s : vsock) sc,
  LB 0 s -> ti s -> v_emsg_limit s = None -> script_legit sc = true ->
  c06_fast_retx_ok_t cfg (fstep_of cci s (VoPoll sc)) = true.
Proof.
  intros cfg s sc HL Hti Hl Hs. unfold c06_fast_retx_ok_t, c06_fast_retx_ok.
  destruct (poll cci (VSockRec.set_sends s sc)) as [s' r] eqn:E.
  rewrite (fstep_of_poll cci s sc s' r E). cbn [fs_event fs_result fs_pre fs_post].
  match goal with |- (if ?c then _ else _) = true => destruct c eqn:G end; [|reflexivity].
  destruct r; try reflexivity.
  apply andb_true_iff in G. destruct G as [G1 G2]. apply Z.leb_le in G1.
  cbn [fp_of_vsock f_recovery f_sack_depth f_segs f_rto_retx f_transport_pending f_snd_una] in *.
  destruct (rv_phase (v_recovery s)) as [rp0|d0|rc0] eqn:E0; try reflexivity;
    (destruct (rv_phase (v_recovery s')) as [rp1|d1|rc1] eqn:E1; try reflexivity).
  all: match goal with |- (if ?c then _ else _) = true => destruct c eqn:G3 end; [|reflexivity].
  all: repeat (apply andb_true_iff in G3; destruct G3 as [G3 ?]).
  all: destruct (first_undelivered (map fseg_of (ss_segs (v_segs s')))) as [[i g]|] eqn:Ef; [|reflexivity].
  all: match goal with |- (if ?c then _ else _) = true => destruct c eqn:G4 end; [|reflexivity].
  all: apply andb_true_iff in G4; destruct G4 as [_ G4]; cbn [rc_recovery_point] in G4.
  all: assert (HL0 : LB 0 (VSockRec.set_sends s sc)) by (eapply LB_kp; [exact HL|]; unfold kp; auto).
  all: assert (HE : EF (VSockRec.set_sends s sc)) by (split; [exact Hs | exact Hl]).
  all: assert (Hnr : is_recovering (v_recovery (VSockRec.set_sends s sc)) = false)
         by (unfold is_recovering; change (v_recovery (VSockRec.set_sends s sc)) with (v_recovery s); rewrite E0; reflexivity).
  all: pose proof (poll_fast_strict cci (Z.of_nat (length (ss_segs (v_segs s)))) _ _ HL0 Hti HE Hnr
                     ltac:(unfold len_z; cbn; lia) E) as K.
  all: rewrite map_length in G2; apply Z.ltb_lt in G2.
  all: apply negb_true_iff in H0; apply Z.eqb_eq in H1.
  all: destruct (K H0 H1 rc1 i E1 (first_undelivered_fu _ _ _ Ef) G1 G2 G4) as (p & P1 & P2 & P3).
  all: apply existsb_exists; exists (fpacket_of p); split;
         [apply in_map; rewrite <- in_rev; exact P1|];
         unfold fq_is_data, fpacket_of; cbn [fq_hdr]; rewrite P2, P3; cbn [andb]; apply Z.eqb_refl.
Qed.

Theorem c06_fast_retx_ok_t_other : forall cfg (s : vsock) o,
  (forall sc, o <> VoPoll sc) -> c06_fast_retx_ok_t cfg (fstep_of cci s o) = true.
Proof.
  intros cfg s o Hnp. unfold c06_fast_retx_ok_t, c06_fast_retx_ok. rewrite fstep_of_event.
  destruct (_ && _); [|reflexivity]. destruct o; try reflexivity. exfalso. eapply Hnp. reflexivity.
Qed.

Theorem c06_fast_retx_ok_g_trace : forall cfg mk c (s0 : vsock) ops,
  vconfig_ok c = true -> vsock_new cci mk c = Some s0 ->
  c06_fast_retx_ok_g cfg (ftrace cci s0 ops) = true.
Proof.
  intros cfg mk c s0 ops Hc H0. unfold c06_fast_retx_ok_g.
  rewrite <- (vsock_new_limit _ _ _ H0).
  apply (noemsg_scan_inv (fun s : vsock => LB 0 s /\ ti s)).
  - intros s o [HL Ht]. split; [apply (vstep_LB cci s o HL) | apply ti_vstep; exact Ht].
  - apply c06_fast_retx_ok_t_other.
  - intros s sc [HL Ht]. apply c06_fast_retx_ok_t_poll; assumption.
  - split; [eapply vsock_new_LB; eassumption | eapply ti_vsock_new; exact H0].
Qed.

(* ================================================================== c06_backoff_ok *)
Lemma filter_data_nodata : forall l, Forall nodata l -> filter fq_is_data (map fpacket_of l) = [].
Proof.
  induction l as [|p r IH]; intro H; [reflexivity|]. inversion H; subst. cbn [map filter].
  unfold fq_is_data at 1, fpacket_of at 1. cbn [fq_hdr]. unfold nodata in H2.
  destruct (ch_type (p_hdr p)); try (apply IH; assumption). contradiction.
Qed.

Lemma filter_data_one : forall p l1 l2,
  Forall nodata l1 -> Forall nodata l2 -> ch_type (p_hdr p) = ST_DATA ->
  filter fq_is_data (map fpacket_of (rev (l2 ++ p :: l1))) = [fpacket_of p].
Proof.
  intros p l1 l2 H1 H2 Hp. rewrite rev_app_distr. cbn [rev]. rewrite <- app_assoc. cbn [app].
  rewrite map_app, filter_app.
  rewrite (filter_data_nodata (rev l1)) by (apply Forall_rev; exact H1).
  cbn [map filter app].
  assert (Hd : fq_is_data (fpacket_of p) = true) by (unfold fq_is_data, fpacket_of; cbn [fq_hdr]; rewrite Hp; reflexivity).
  rewrite Hd. rewrite (filter_data_nodata (rev l2)) by (apply Forall_rev; exact H2). reflexivity.
Qed.

Lemma RB_bounds : forall s : vsock, RB s ->
  (RTTE_MIN_RTO <=? f_rto (fp_of_vsock cci s)) && (f_rto (fp_of_vsock cci s) <=? RTTE_MAX_RTO) = true.
Proof.
  intros s [H1 H2]. cbn [fp_of_vsock f_rto]. apply andb_true_intro. split; apply Z.leb_le; assumption.
Qed.

Theorem c06_backoff_ok_step : forall cfg (s : vsock) o,
  ti s -> LB 0 s -> c06_backoff_ok cfg (fstep_of cci s o) = true.
Proof.
  intros cfg s o Hti HL. unfold c06_backoff_ok.
  pose proof (ti_vstep cci s o Hti) as Hti'.
  rewrite fstep_of_post, (RB_bounds _ (proj1 Hti')). cbn [andb]. clear Hti'.
  destruct o as [t|m|sc|m| |buf| | |n| |]; try (rewrite fstep_of_event; reflexivity).
  destruct (poll cci (VSockRec.set_sends s sc)) as [s' r] eqn:E.
  rewrite (fstep_of_poll cci s sc s' r E). cbn [fs_event fs_result fs_pre fs_post fs_now].
  destruct r; try reflexivity.
  destruct (vstep_poll cci s sc s' _ E) as [V1 _]. rewrite V1.
  assert (HL0 : LB 0 (VSockRec.set_sends s sc)) by (eapply LB_kp; [exact HL|]; unfold kp; auto).
  pose proof (poll_LB cci _ HL0) as HL'. rewrite E in HL'. cbn [fst] in HL'.
  assert (Hti0 : ti (VSockRec.set_sends s sc)) by exact Hti.
  pose proof (poll_backoff cci (v_rto_retransmissions s) (v_rtte s) _ _ Hti0 eq_refl eq_refl E) as (T & N & M).
  match goal with |- (if ?c then _ else _) = true => destruct c eqn:G end; [|reflexivity].
  apply andb_true_iff in G. destruct G as [G1 G2]. apply Z.eqb_eq in G1. cbn [fp_of_vsock f_rto_retx] in G1.
  destruct M as [(p & l1 & l2 & j & g & A1 & A2 & A3 & A4 & A5 & A6 & A7 & A8 & A9)|M]; [|exfalso; lia].
  rewrite A1, (filter_data_one p l1 l2 A2 A3 A4).
  unfold fpacket_of. cbn [fq_hdr]. rewrite A6.
  rewrite (fseg_of_seq_table s' j g (proj1 HL') G2 A5).
  unfold fseg_of at 1. cbn [fg_probe]. cbn [fp_of_vsock f_rto f_t_retransmit]. rewrite A8.
  unfold NW in N. rewrite N, Z.eqb_refl, andb_true_r.
  destruct (sg_probe g).
  - rewrite A7. apply Z.eqb_refl.
  - unfold c06_backoff_core. apply Z.eqb_eq.
    rewrite (timeout_doubles_rto _ _ (proj1 Hti) A7). reflexivity.
Qed.

Theorem c06_backoff_ok_trace : forall cfg mk c (s0 : vsock) ops,
  vconfig_ok c = true -> vsock_new cci mk c = Some s0 ->
  forallb (c06_backoff_ok cfg) (ftrace cci s0 ops) = true.
Proof.
  intros cfg mk c s0 ops Hc H0.
  apply (ftrace_forallb cci (fun s => ti s /\ LB 0 s)).
  - intros s o [H1 H2]. apply c06_backoff_ok_step; assumption.
  - intros s o [H1 H2]. split; [apply ti_vstep; exact H1 | apply (vstep_LB cci s o H2)].
  - split; [eapply ti_vsock_new; exact H0 | eapply vsock_new_LB; eassumption].
Qed.

End WithCC.

(* ------------------------------------------------------------------ c06_emitted_live_ok without the guard is
   FALSE of the model: a poll that pops a failed MTU probe restarts, and the restarted iteration processes
   the messages still queued AFTER the first iteration sent data.
   Scenario (wait_for_last_ack off, nagle off, constant window): 4000 bytes written, first poll blocked
   (segments 101 = 528 bytes and 102 = 991-byte probe unsent); path limit 600; the peer's FIN and a duplicate
   ST_DATA acknowledging 101 are queued; poll [Sent; Sent; Pending]: the FIN is taken (LastAck, the receive
   loop stops), 101 goes out, the probe is answered EMSGSIZE and popped, restart; the second iteration takes
   the queued ACK: 101 leaves the table; the ACK the duplicate forces blocks: Pending.  The poll emitted
   ST_DATA 101, and 101 is not in the table afterwards. *)
Definition live_cfg : vconfig :=
  {| vc_incoming := false; vc_ipv4 := true; vc_link_mtu := 1500; vc_rx_buf := 1048576;
     vc_tx_init := 32768; vc_tx_max := 1048576; vc_nagle := false; vc_max_retx := 5;
     vc_inactivity := 10000000000; vc_wait_last_ack := false; vc_mtu_probe_max_retx := 1;
     vc_isn := 100; vc_remote_seq := 1; vc_remote_conn_id := 7; vc_remote_wnd := 1048576;
     vc_remote_ts := 5; vc_syn_sent := 0; vc_now0 := 1000000 |}.

Definition live_ops : list vop :=
  [VoPoll []; VoWrite (repeat 0 (Z.to_nat 4000)); VoPoll [TPending];
   VoSetLimit (Some 600);
   VoDeliver (wmsg ST_FIN 1 100 0); VoDeliver (wmsg ST_DATA 0 101 10);
   VoPoll [TSent; TSent; TPending]].

Lemma emitted_live_restart_refuted :
  exists w cfg ops,
    vconfig_ok cfg = true /\ Forall op_msg_ok ops /\
    forallb (c06_emitted_live_ok cfg) (wtrace w cfg ops) = false /\
    (* the failing poll runs under a path limit: the guarded predicate does not claim it *)
    c06_emitted_live_ok_g cfg (wtrace w cfg ops) = true /\
    (* and the other predicates of the step family hold of the scenario *)
    forallb (c06_cap_ok cfg) (wtrace w cfg ops) = true.
Proof.
  exists 100000, live_cfg, live_ops.
  split; [vm_compute; reflexivity|]. split.
  { unfold live_ops. repeat (apply Forall_cons; [try exact I|]); try apply Forall_nil.
    - vm_compute. reflexivity.
    - vm_compute. discriminate. }
  split; [vm_compute; reflexivity|]. split; vm_compute; reflexivity.
Qed.

(* ------------------------------------------------------------------ the guards of the theorems above are met
   by reachable steps (the theorems are not vacuous) *)
Definition nv_cfg : vconfig :=
  {| vc_incoming := false; vc_ipv4 := true; vc_link_mtu := 1500; vc_rx_buf := 1048576;
     vc_tx_init := 32768; vc_tx_max := 1048576; vc_nagle := false; vc_max_retx := 5;
     vc_inactivity := 1000000000000; vc_wait_last_ack := true; vc_mtu_probe_max_retx := 1;
     vc_isn := 100; vc_remote_seq := 1; vc_remote_conn_id := 7; vc_remote_wnd := 1048576;
     vc_remote_ts := 5; vc_syn_sent := 0; vc_now0 := 1000000 |}.

(* six expiries of the retransmission timer with max_retransmissions = 5: five back-offs, then the cap *)
Definition nv_rto_ops : list vop :=
  [VoWrite (repeat 0 (Z.to_nat 528)); VoPoll []; VoSetNow 2000000000; VoPoll []; VoSetNow 5000000000; VoPoll [];
   VoSetNow 9000000000; VoPoll []; VoSetNow 20000000000; VoPoll []; VoSetNow 40000000000; VoPoll [];
   VoSetNow 80000000000; VoPoll []].

Definition rto_fired (st : fstep) : bool :=
  match fs_result st with
  | FrPoll PollPending _ _ _ => (f_rto_retx (fs_post st) =? f_rto_retx (fs_pre st) + 1) && tol_ok (fs_post st)
  | _ => false
  end.

Definition gave_up (st : fstep) : bool :=
  match fs_result st with FrPoll (PollReadyErr ErrMaxRetransmissionsReached) _ _ _ => true | _ => false end.

Lemma backoff_cap_nonvacuous :
  exists w cfg ops,
    vconfig_ok cfg = true /\ Forall op_msg_ok ops /\
    Z.of_nat (length (filter rto_fired (wtrace w cfg ops))) = 5 /\
    existsb gave_up (wtrace w cfg ops) = true /\
    forallb (c06_backoff_ok cfg) (wtrace w cfg ops) = true /\
    forallb (c06_cap_ok cfg) (wtrace w cfg ops) = true /\
    c06_emitted_live_ok_g cfg (wtrace w cfg ops) = true /\
    c06_no_resend_acked_g cfg (wtrace w cfg ops) = true /\
    c06_joint_ok cfg (wtrace w cfg ops) = true.
Proof.
  exists 1000, nv_cfg, nv_rto_ops.
  split; [vm_compute; reflexivity|]. split; [repeat constructor|].
  repeat split; vm_compute; reflexivity.
Qed.

(* three duplicate ACKs: the poll enters Recovering and retransmits the first undelivered segment *)
Definition nv_dup : msg := wmsg ST_STATE 1 100 0.
Definition nv_fast_ops : list vop :=
  [VoWrite (repeat 0 (Z.to_nat 528)); VoPoll [];
   VoDeliver nv_dup; VoDeliver nv_dup; VoDeliver nv_dup; VoDeliver nv_dup; VoPoll []].

Definition entered_recovery (st : fstep) : bool :=
  match fs_result st, f_recovery (fs_pre st), f_recovery (fs_post st) with
  | FrPoll PollPending pk _ _, CountingDuplicates _, Recovering _ =>
      (f_rto_retx (fs_post st) =? 0) && negb (f_transport_pending (fs_post st)) &&
      existsb fq_is_data pk
  | _, _, _ => false
  end.

Lemma fast_retx_nonvacuous :
  exists w cfg ops,
    vconfig_ok cfg = true /\ Forall op_msg_ok ops /\
    existsb entered_recovery (wtrace w cfg ops) = true /\
    c06_fast_retx_ok_g cfg (wtrace w cfg ops) = true /\
    forallb (c06_fast_retx_ok cfg) (wtrace w cfg ops) = true.
Proof.
  exists 1000, nv_cfg, nv_fast_ops.
  split; [vm_compute; reflexivity|]. split.
  { unfold nv_fast_ops. repeat (apply Forall_cons; [try exact I|]); try apply Forall_nil; vm_compute; reflexivity. }
  repeat split; vm_compute; reflexivity.
Qed.
