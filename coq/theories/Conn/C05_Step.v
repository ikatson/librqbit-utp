(* C05 — the step predicates of Conn/C05_Pred.v / Conn/C0506_Pred2.v as THEOREMS about every step of the
   model (forall state satisfying a proved invariant, forall event) and about every trace from vsock_new.
     c05_rto_single_ok     under ti (an invariant)       c05_rto_single_ok_step / _trace *)
From Utp Require Import Base.Prelude Wire.SeqNr Wire.Header Rtt.Rtte Rtt.Rtte_Proofs Mtu.SegSizes Rx.Rx Tx.Ring
  Tx.Segments Conn.Recovery Conn.Msg Conn.VSockRec Conn.VSock Conn.VSockRun Conn.VObs
  Conn.VSock_Lemmas Conn.VSock_LemmasTx Conn.VSock_LemmasStep Conn.VSock_LemmasTimers
  Conn.VSock_LemmasPipe Conn.C17_StepLemmas Conn.C07_Proofs Conn.C05_Pred Conn.C06_Pred Conn.C0506_Pred2 Conn.C05_Pred3
  Conn.C05_Proofs Conn.C05_Flight Conn.C05_StepLemmas Conn.C05_Segs Conn.C05_Walk Conn.C05_StepZw Conn.C05_StepWin Conn.C05_StepExit
  Conn.C10_Pred Conn.VSock_Inv Conn.C10_Proofs Conn.C05_Refuted.

(* ------------------------------------------------------------------ lists *)
Lemma filter_rev' {A} (p : A -> bool) : forall l, filter p (rev l) = rev (filter p l).
Proof.
  induction l as [|x xs IH]; [reflexivity|]. cbn [rev filter]. rewrite filter_app, IH. cbn [filter].
  destruct (p x); cbn [rev]; [reflexivity|rewrite app_nil_r; reflexivity].
Qed.

Lemma filter_map_comm {A X} (f : A -> X) (p : X -> bool) (q : A -> bool) :
  (forall x, p (f x) = q x) -> forall l, filter p (map f l) = map f (filter q l).
Proof.
  intros H. induction l as [|x xs IH]; [reflexivity|]. cbn [map filter]. rewrite H, IH.
  destruct (q x); reflexivity.
Qed.

Section WithCC.
Context {CC : Type} (cci : cc_iface CC).
Notation vsock := (vsock CC).

Lemma data_filter_out (s' : vsock) :
  filter fq_is_data (map fpacket_of (rev (v_out s'))) = map fpacket_of (rev (dout s')).
Proof.
  rewrite (filter_map_comm fpacket_of fq_is_data is_data); [|intro x; reflexivity].
  rewrite filter_rev'. reflexivity.
Qed.

(* ------------------------------------------------------------------ the relation KJ through a Pending poll *)
Theorem poll_pending_KJ (s s' : vsock) :
  poll cci s = (s', PollPending) -> KJ (poll_start (poll_init s)) s'.
Proof.
  intro H. rewrite poll_unfold in H. apply poll_loop_start in H.
  apply (poll_loop_Rp2 cci KJ KJ_refl KJ_trans) in H.
  - destruct H as (s1 & H1 & H2). eapply KJ_trans; [exact H1|].
    eapply KJ_trans; [apply poll_start_KJ|].
    destruct H2 as [[_ H2]|(sa & sb & b & G1 & G2 & G3 & _ & _ & _ & ->)]; [exact H2|].
    eapply KJ_trans; [exact G1|]. eapply KJ_trans; [exact G3|]. apply poll_tail_KJ.
  - apply poll_start_KJ.
  - apply maybe_send_syn_ack_KJ.
  - apply send_ack_KJ.
  - apply process_all_KJ.
  - intros s0 rx1 fb w _. apply rx_flush_KJ.
  - apply split_KJ.
  - apply send_tx_queue_KJ.
  - apply transition_to_fin_wait_1_KJ.
  - apply maybe_send_fin_KJ.
  - apply maybe_send_ack_KJ.
Qed.

(* what a Pending poll leaves: the ghost invariant with the counter / timer of the state before *)
Theorem poll_pending_J (s : vsock) sc s' :
  ti s -> poll cci (VSockRec.set_sends s sc) = (s', PollPending) ->
  v_env_now s' = v_env_now s /\
  J (v_rto_retransmissions s) (timer_expired (v_t_retransmit s) (v_env_now s)) (v_env_now s) s'.
Proof.
  intros Hti H. apply poll_pending_KJ in H.
  destruct Hti as (T1 & T2 & T3).
  destruct (H (v_env_now s) (v_rto_retransmissions s) (timer_expired (v_t_retransmit s) (v_env_now s)) T2)
    as [(_ & _ & He) HJ].
  - split; [split; [exact T1|split; [exact T2|exact T3]]|]. split; reflexivity.
  - apply JA; [reflexivity|reflexivity|]. unfold texp. cbn. auto.
  - split; [exact He|exact HJ].
Qed.

(* ================================================================== c05_rto_single_ok *)
Theorem c05_rto_single_ok_step : forall cfg (s : vsock) o,
  ti s -> c05_rto_single_ok cfg (fstep_of cci s o) = true.
Proof.
  intros cfg s o Hti.
  destruct o; try (unfold c05_rto_single_ok; rewrite fstep_of_event; reflexivity).
  destruct (poll cci (VSockRec.set_sends s script)) as [s' r] eqn:E.
  rewrite (fstep_of_poll cci s script s' r E). unfold c05_rto_single_ok.
  cbn [fs_event fs_result fs_pre fs_post fs_now].
  destruct r; try reflexivity.
  destruct (poll_pending_J s script s' Hti E) as [He HJ].
  cbn [fp_of_vsock f_rto_retx f_last_sent_seq_nr f_t_retransmit].
  destruct (Z.ltb_spec 0 (v_rto_retransmissions s')) as [Hpos|Hz]; [|reflexivity].
  rewrite data_filter_out, He.
  destruct HJ as [A1 A2 A3|A1 A2|p A1 A2 A3 A4 A5 A6].
  - rewrite A1. cbn [rev map]. apply Z.eqb_eq. exact A2.
  - lia.
  - rewrite A1. cbn [rev app map fpacket_of fq_hdr]. rewrite A2, A3, Z.eqb_refl. cbn [andb].
    rewrite andb_true_r. apply orb_true_iff.
    destruct A6 as [A6|[A6 _]]; [left|right]; apply Z.eqb_eq; exact A6.
Qed.

Theorem c05_rto_single_ok_trace : forall cfg mk c (s0 : vsock) ops,
  vsock_new cci mk c = Some s0 -> forallb (c05_rto_single_ok cfg) (ftrace cci s0 ops) = true.
Proof.
  intros cfg mk c s0 ops H0.
  apply (ftrace_forallb cci ti).
  - intros s o Hp. apply c05_rto_single_ok_step; exact Hp.
  - intros s o Hp. apply ti_vstep; exact Hp.
  - eapply ti_vsock_new; exact H0.
Qed.

(* ================================================================== c05_zero_window_ok
   for the polls that end with the connection still open (post_open): every queued message was processed
   before anything was sent, so the window the ST_DATA went into is the one the poll leaves behind.
   Invariants: ti, sp (every segment holds at least one byte), and the options are those of cfg. *)
Definition optc (cfg : vconfig) (s : vsock) : Prop :=
  o_wait_for_last_ack (v_opts s) = vc_wait_last_ack cfg.

Lemma optc_vstep cfg (s : vsock) o : optc cfg s -> optc cfg (vstep_state cci s o).
Proof. unfold optc. destruct (vstep_keeps cci s o) as (K & _). rewrite K. auto. Qed.

Lemma optc_vsock_new mk c (s : vsock) : vsock_new cci mk c = Some s -> optc c s.
Proof.
  intro H. unfold vsock_new in H.
  destruct (match (if vc_incoming c then None else _) with Some r => _ | None => _ end); [|discriminate].
  inversion H; subst. reflexivity.
Qed.

Lemma phase_recovering_fp (s : vsock) :
  phase_recovering (f_recovery (fp_of_vsock cci s)) = is_recovering (v_recovery s).
Proof. cbn [fp_of_vsock f_recovery]. unfold is_recovering. destruct (rv_phase (v_recovery s)); reflexivity. Qed.

Theorem c05_zero_window_ok_open_step : forall cfg (s : vsock) o,
  ti s -> C05_Segs.sp s -> optc cfg s -> c05_zero_window_ok_open cfg (fstep_of cci s o) = true.
Proof.
  intros cfg s o Hti Hsp Hopt. unfold c05_zero_window_ok_open.
  destruct (post_open cfg (fstep_of cci s o)) eqn:Hopen; [|reflexivity].
  destruct o; try (unfold c05_zero_window_ok; rewrite fstep_of_event; reflexivity).
  destruct (poll cci (VSockRec.set_sends s script)) as [s' r] eqn:E.
  rewrite (fstep_of_poll cci s script s' r E) in *. unfold c05_zero_window_ok, post_open in *.
  cbn [fs_event fs_result fs_pre fs_post fs_now] in *.
  destruct r; try reflexivity.
  destruct (poll_pending_zw cci s script s' Hti Hsp E) as (He & HJ & HW).
  destruct (poll_pframe0 cci _ _ _ E) as (Po & _).
  rewrite phase_recovering_fp. cbn [fp_of_vsock f_last_remote_window f_rto_retx f_state] in *.
  destruct (Z.eqb_spec (v_last_remote_window s') 0) as [Hw|Hw]; [|reflexivity].
  destruct (is_recovering (v_recovery s')) eqn:Hrec; [reflexivity|]. cbn [negb andb].
  rewrite data_filter_out, map_length, rev_length.
  assert (HZ : ZW s').
  { destruct HW as [HW|HW]; [|exact HW]. unfold SC in HW. unfold optc in Hopt.
    rewrite Po in HW. cbn [v_opts VSockRec.set_sends] in HW. rewrite Hopt in HW. rewrite HW in Hopen. discriminate. }
  destruct (Z.eqb_spec (v_rto_retransmissions s') 0) as [Hr|Hr].
  - destruct HZ as [HZ|[HZ|[HZ|HZ]]]; [rewrite HZ; reflexivity|lia| |contradiction].
    unfold RECb in HZ. congruence.
  - destruct HJ as [A1 A2 A3|A1 A2|p A1 A2 A3 A4 A5 A6]; [rewrite A1; reflexivity|contradiction|rewrite A1; reflexivity].
Qed.

Theorem c05_zero_window_ok_open_trace : forall mk c (s0 : vsock) ops,
  0 <= vc_isn c < M16 -> vsock_new cci mk c = Some s0 ->
  forallb (c05_zero_window_ok_open c) (ftrace cci s0 ops) = true.
Proof.
  intros mk c s0 ops Hisn H0.
  apply (ftrace_forallb_live cci (fun s => ti s /\ C05_Segs.sp s /\ optc c s)).
  - intros s o (H1 & H2 & H3). apply c05_zero_window_ok_open_step; assumption.
  - intros s o (H1 & H2 & H3) Hl. split; [apply ti_vstep; exact H1|].
    split; [apply sp_vstep_live; assumption|apply optc_vstep; exact H3].
  - split; [eapply ti_vsock_new; exact H0|]. split; [eapply sp_vsock_new; [exact Hisn|exact H0]|eapply optc_vsock_new; exact H0].
Qed.

(* ================================================================== "no NEW payload into a zero window"
   outside the known class D16, for the polls that end open: with a zero window and outside recovery the
   only ST_DATA of the poll is the one the RTO branch sent (c05_zero_window_strict_or_d16_open) *)
Theorem c05_zero_window_strict_or_d16_open_step : forall cfg (s : vsock) o,
  ti s -> C05_Segs.sp s -> optc cfg s -> c05_zero_window_strict_or_d16_open cfg (fstep_of cci s o) = true.
Proof.
  intros cfg s o Hti Hsp Hopt. unfold c05_zero_window_strict_or_d16_open.
  destruct (post_open cfg (fstep_of cci s o)) eqn:Hopen; [|reflexivity].
  destruct o; try (unfold c05_zero_window_strict; rewrite fstep_of_event; reflexivity).
  destruct (poll cci (VSockRec.set_sends s script)) as [s' r] eqn:E.
  rewrite (fstep_of_poll cci s script s' r E) in *.
  unfold c05_zero_window_strict, c05_d16_class2, post_open in *.
  cbn [fs_event fs_result fs_pre fs_post fs_now] in *.
  destruct r; try reflexivity.
  destruct (poll_pending_zw cci s script s' Hti Hsp E) as (He & HJ & HW).
  destruct (poll_pframe0 cci _ _ _ E) as (Po & _).
  rewrite phase_recovering_fp.
  cbn [fp_of_vsock f_last_remote_window f_rto_retx f_state f_t_retransmit f_last_sent_seq_nr] in *.
  destruct (Z.eqb_spec (v_last_remote_window s') 0) as [Hw|Hw]; [|reflexivity].
  destruct (is_recovering (v_recovery s')) eqn:Hrec; [reflexivity|]. cbn [negb andb].
  destruct (Z.of_nat (length (f_segs (fp_of_vsock cci s))) <=? 1024); [|reflexivity].
  rewrite data_filter_out.
  assert (HZ : ZW s').
  { destruct HW as [HW|HW]; [|exact HW]. unfold SC in HW. unfold optc in Hopt.
    rewrite Po in HW. cbn [v_opts VSockRec.set_sends] in HW. rewrite Hopt in HW. rewrite HW in Hopen. discriminate. }
  destruct HJ as [A1 A2 A3|A1 A2|p A1 A2 A3 A4 A5 A6].
  - rewrite A1. reflexivity.
  - destruct HZ as [HZ|[HZ|[HZ|HZ]]]; [rewrite HZ; reflexivity|lia| |contradiction].
    unfold RECb in HZ. congruence.
  - rewrite A1. cbn [rev app map forallb filter].
    destruct (was_sent_before (fp_of_vsock cci s) (fpacket_of p)); [reflexivity|].
    cbn [andb negb orb fpacket_of fq_hdr]. rewrite He, A3, A2, Z.eqb_refl. cbn [andb].
    apply orb_true_iff. destruct A6 as [A6|[A6 _]]; [left|right]; apply Z.eqb_eq; exact A6.
Qed.

Theorem c05_zero_window_strict_or_d16_open_trace : forall mk c (s0 : vsock) ops,
  0 <= vc_isn c < M16 -> vsock_new cci mk c = Some s0 ->
  forallb (c05_zero_window_strict_or_d16_open c) (ftrace cci s0 ops) = true.
Proof.
  intros mk c s0 ops Hisn H0.
  apply (ftrace_forallb_live cci (fun s => ti s /\ C05_Segs.sp s /\ optc c s)).
  - intros s o (H1 & H2 & H3). apply c05_zero_window_strict_or_d16_open_step; assumption.
  - intros s o (H1 & H2 & H3) Hl. split; [apply ti_vstep; exact H1|].
    split; [apply sp_vstep_live; assumption|apply optc_vstep; exact H3].
  - split; [eapply ti_vsock_new; exact H0|]. split; [eapply sp_vsock_new; [exact Hisn|exact H0]|eapply optc_vsock_new; exact H0].
Qed.

(* ================================================================== the window clause
   c05_window_ok2 (the clause as intended) and c05_window_ok (as written) under the guards c05_win_guard *)
Lemma fflight_fseg : forall (l : list seg) n, fflight (firstn n (map fseg_of l)) = FLp l n.
Proof.
  unfold FLp. induction l as [|g r IH]; intros [|n]; cbn [map firstn fflight flight_sum]; try reflexivity.
  rewrite IH. unfold fseg_of. cbn [fg_delivered fg_size]. reflexivity.
Qed.

Lemma plen_sum_app a b : plen_sum (a ++ b) = plen_sum a + plen_sum b.
Proof. induction a as [|x xs IH]; cbn [app plen_sum]; lia. Qed.

Lemma plen_sum_rev l : plen_sum (rev l) = plen_sum l.
Proof. induction l as [|x xs IH]; [reflexivity|]. cbn [rev plen_sum]. rewrite plen_sum_app, IH. cbn [plen_sum]. lia. Qed.

Lemma plen_sum_data (l : list packet) : plen_sum (map fpacket_of (filter is_data l)) = data_bytes (filter is_data l).
Proof.
  induction l as [|p r IH]; [reflexivity|]. cbn [filter]. destruct (is_data p) eqn:E; [|exact IH].
  cbn [map plen_sum data_bytes]. rewrite IH. unfold is_data in E. destruct (ch_type (p_hdr p)); try discriminate.
  reflexivity.
Qed.

Lemma plen_sum_nonneg l : 0 <= plen_sum (map fpacket_of l).
Proof. induction l as [|p r IH]; cbn [map plen_sum fpacket_of fq_plen]; lia. Qed.

Theorem c05_window_ok2_step : forall cfg (s : vsock) o,
  ti s -> C05_Segs.sp s -> optc cfg s ->
  c05_window_ok2 cfg (fstep_of cci s o) = true /\ c05_window_ok_g cfg (fstep_of cci s o) = true.
Proof.
  intros cfg s o Hti Hsp Hopt.
  destruct o; try (unfold c05_window_ok2, c05_window_ok_g; rewrite fstep_of_event; split; reflexivity).
  destruct (poll cci (VSockRec.set_sends s script)) as [s' r] eqn:E.
  unfold c05_window_ok2, c05_window_ok_g, c05_window_ok.
  rewrite (fstep_of_poll cci s script s' r E). cbn [fs_event fs_result].
  destruct r; try (split; reflexivity).
  destruct (c05_win_guard cfg _) eqn:G; [|split; reflexivity].
  unfold c05_win_guard, post_open in G. cbn [fs_pre fs_post fs_now] in G.
  rewrite phase_recovering_fp in G.
  cbn [fp_of_vsock f_t_retransmit f_rto_retx f_segs f_last_sent_seq_nr f_snd_una f_state] in G.
  repeat (apply andb_true_iff in G; destruct G as [G ?]).
  rename H into Gd, H0 into Gl2, H1 into Gl1, H2 into Glen, H3 into Grec, H4 into Grto, H5 into Gexp.
  apply andb_true_iff in Gd. destruct Gd as [Gd1 Gd2].
  apply negb_true_iff in Gexp, Grec, G. apply Z.eqb_eq in Grto.
  rewrite map_length in Glen.
  destruct (poll_pframe0 cci _ _ _ E) as (Po & Pe & _).
  cbn [v_env_now VSockRec.set_sends] in Pe. rewrite Pe in Gexp.
  assert (Hsp' : C05_Segs.sp s') by (eapply poll_pending_sp; eauto).
  assert (Hu : 0 <= ss_snd_una (v_segs s') < M16) by apply Hsp'.
  destruct (poll_pending_xw cci s script s' (ss_snd_una (v_segs s')) Hti Hsp Gexp ltac:(lia) Hu ltac:(lia) E)
    as (_ & HJ & HW).
  cbn [fs_post]. rewrite phase_recovering_fp.
  cbn [fp_of_vsock f_rto_retx f_segs f_snd_una f_cc_window f_last_remote_window].
  rewrite Grto, Grec. cbn [Z.eqb negb andb].
  replace (Z.of_nat (length (map fseg_of (ss_segs (v_segs s')))) <=? 1024) with true
    by (symmetry; rewrite map_length; apply Z.leb_le; lia).
  rewrite data_filter_out.
  destruct HW as [HW|(k' & Hk & HW)].
  { exfalso. unfold SC in HW. unfold optc in Hopt. rewrite Po in HW. cbn [v_opts VSockRec.set_sends] in HW.
    rewrite Hopt in HW. congruence. }
  destruct HW as [HW|(idxs & c & Hc & H1 & H2 & H3)]; [unfold RECb in HW; congruence|].
  assert (Fi : Forall (fun i => (i < 1024)%nat) idxs).
  { eapply Forall_impl; [|exact H2]. intros i Hi. cbn beta in Hi. unfold C05_StepWin.sgs in Hi. lia. }
  destruct (H3 eq_refl Fi) as (A & B0 & C0).
  unfold seqs_of in H1.
  destruct (rev (dout s')) as [|p1 later] eqn:Erev; [split; reflexivity|].
  destruct idxs as [|i1 r]; [discriminate|]. cbn [map] in H1. injection H1 as Hp1 _.
  destruct C0 as (_ & C2 & C3).
  cbn [map fpacket_of fq_hdr].
  assert (Hi1 : (i1 < 1024)%nat) by (inversion Fi; assumption).
  assert (Ek : seq_sub (ch_seq (p_hdr p1)) (ss_snd_una (v_segs s')) = Z.of_nat i1).
  { rewrite Hp1. apply seq_sub_seq_at_u; [exact Hu|lia]. }
  rewrite Ek, Nat2Z.id, fflight_fseg.
  assert (Hsum : plen_sum (map fpacket_of (p1 :: later)) = dby s').
  { rewrite <- Erev, <- plen_sum_rev, <- map_rev, rev_involutive. unfold dby, dout. apply plen_sum_data. }
  unfold C05_StepWin.Wn, C05_StepWin.sgs in C3.
  split.
  - change (fpacket_of p1 :: map fpacket_of later) with (map fpacket_of (p1 :: later)). rewrite Hsum.
    unfold c05_window_core. apply Z.leb_le. lia.
  - unfold c05_window_core. apply Z.leb_le.
    pose proof (plen_sum_nonneg later). cbn [map plen_sum] in Hsum.
    assert (0 <= fq_plen (fpacket_of p1)) by (cbn [fpacket_of fq_plen]; lia). lia.
Qed.

Theorem c05_window_ok2_trace : forall mk c (s0 : vsock) ops,
  0 <= vc_isn c < M16 -> vsock_new cci mk c = Some s0 ->
  forallb (c05_window_ok2 c) (ftrace cci s0 ops) = true.
Proof.
  intros mk c s0 ops Hisn H0.
  apply (ftrace_forallb_live cci (fun s => ti s /\ C05_Segs.sp s /\ optc c s)).
  - intros s o (H1 & H2 & H3). apply c05_window_ok2_step; assumption.
  - intros s o (H1 & H2 & H3) Hl. split; [apply ti_vstep; exact H1|].
    split; [apply sp_vstep_live; assumption|apply optc_vstep; exact H3].
  - split; [eapply ti_vsock_new; exact H0|]. split; [eapply sp_vsock_new; [exact Hisn|exact H0]|eapply optc_vsock_new; exact H0].
Qed.

Theorem c05_window_ok_g_trace : forall mk c (s0 : vsock) ops,
  0 <= vc_isn c < M16 -> vsock_new cci mk c = Some s0 ->
  forallb (c05_window_ok_g c) (ftrace cci s0 ops) = true.
Proof.
  intros mk c s0 ops Hisn H0.
  apply (ftrace_forallb_live cci (fun s => ti s /\ C05_Segs.sp s /\ optc c s)).
  - intros s o (H1 & H2 & H3). apply c05_window_ok2_step; assumption.
  - intros s o (H1 & H2 & H3) Hl. split; [apply ti_vstep; exact H1|].
    split; [apply sp_vstep_live; assumption|apply optc_vstep; exact H3].
  - split; [eapply ti_vsock_new; exact H0|]. split; [eapply sp_vsock_new; [exact Hisn|exact H0]|eapply optc_vsock_new; exact H0].
Qed.

(* ================================================================== the monitored preconditions, the
   part that is an invariant: c05_monitor_core_ok *)
Lemma fp_core_of (s : vsock) : ti s -> C05_Segs.sp s -> c05_fp_core (fp_of_vsock cci s) = true.
Proof.
  intros (_ & Hr & _) (Hm & (Hp & _)). unfold c05_fp_core. cbn [fp_of_vsock f_segs f_rto_retx f_mss].
  apply andb_true_iff. split; [apply andb_true_iff; split|].
  - apply forallb_forall. intros fg Hfg. apply in_map_iff in Hfg. destruct Hfg as (g & <- & Hg).
    unfold segs_pos in Hp. rewrite Forall_forall in Hp.
    specialize (Hp g Hg). cbn [fseg_of fg_size]. apply Z.leb_le. exact Hp.
  - apply Z.leb_le. exact Hr.
  - apply Z.leb_le. exact Hm.
Qed.

Theorem c05_monitor_core_ok_step : forall cfg (s : vsock) o,
  ti s -> C05_Segs.sp s -> c05_monitor_core_ok cfg (fstep_of cci s o) = true.
Proof.
  intros cfg s o Hti Hsp. unfold c05_monitor_core_ok. rewrite fstep_of_pre, fstep_of_result, fstep_of_post.
  rewrite (fp_core_of s Hti Hsp). cbn [andb].
  pose proof (ti_vstep cci s o Hti) as Hti'.
  pose proof (sp_vstep_live cci s o Hsp) as Hsp'.
  destruct (vstep_out cci s o) as [|r pk w a|r|r|r] eqn:Eo; cbn [fresult_of poll_finished] in *.
  - apply fp_core_of; auto.
  - destruct r; try reflexivity. apply fp_core_of; auto.
  - apply fp_core_of; auto.
  - apply fp_core_of; auto.
  - destruct r; apply fp_core_of; auto.
Qed.

Theorem c05_monitor_core_ok_trace : forall cfg mk c (s0 : vsock) ops,
  0 <= vc_isn c < M16 -> vsock_new cci mk c = Some s0 ->
  forallb (c05_monitor_core_ok cfg) (ftrace cci s0 ops) = true.
Proof.
  intros cfg mk c s0 ops Hisn H0.
  apply (ftrace_forallb_live cci (fun s => ti s /\ C05_Segs.sp s)).
  - intros s o (H1 & H2). apply c05_monitor_core_ok_step; assumption.
  - intros s o (H1 & H2) Hl. split; [apply ti_vstep; exact H1|apply sp_vstep_live; assumption].
  - split; [eapply ti_vsock_new; exact H0|eapply sp_vsock_new; [exact Hisn|exact H0]].
Qed.

(* ================================================================== leaving single-segment mode:
   c05_rto_exit_ok2 *)
Definition optm (cfg : vconfig) (s : vsock) : Prop :=
  o_mtu_probe_max_retx (v_opts s) = vc_mtu_probe_max_retx cfg.

Lemma optm_vstep cfg (s : vsock) o : optm cfg s -> optm cfg (vstep_state cci s o).
Proof. unfold optm. destruct (vstep_keeps cci s o) as (K & _). rewrite K. auto. Qed.

Lemma optm_vsock_new mk c (s : vsock) : vsock_new cci mk c = Some s -> optm c s.
Proof.
  intro H. unfold vsock_new in H.
  destruct (match (if vc_incoming c then None else _) with Some r => _ | None => _ end); [|discriminate].
  inversion H; subst. reflexivity.
Qed.

Lemma count_delivered_fseg (l : list seg) : count_delivered (map fseg_of l) = cds l.
Proof. induction l as [|g r IH]; [reflexivity|]. cbn [map count_delivered cds fseg_of fg_delivered]. rewrite IH. reflexivity. Qed.

Theorem c05_rto_exit_ok2_step : forall cfg (s : vsock) o,
  ti s -> C05_Segs.sp s -> optm cfg s -> c05_rto_exit_ok2 cfg (fstep_of cci s o) = true.
Proof.
  intros cfg s o Hti Hsp Hopt.
  destruct o; try (unfold c05_rto_exit_ok2; rewrite fstep_of_event; reflexivity).
  destruct (poll cci (VSockRec.set_sends s script)) as [s' r] eqn:E.
  unfold c05_rto_exit_ok2. rewrite (fstep_of_poll cci s script s' r E).
  cbn [fs_event fs_result fs_pre fs_post fs_now].
  destruct r; try reflexivity.
  cbn [fp_of_vsock f_rto_retx f_seg_removed f_segs].
  destruct (Z.ltb_spec 0 (v_rto_retransmissions s)) as [Hr|Hr]; [|reflexivity].
  destruct (Z.eqb_spec (v_rto_retransmissions s') 0) as [Hz|Hz]; [|reflexivity]. cbn [andb].
  destruct (poll_pframe0 cci _ _ _ E) as (_ & Pe & _). cbn [v_env_now VSockRec.set_sends] in Pe.
  destruct (poll_pending_exit cci s script s' Hti Hsp Hr E) as [X|[X|[[X1 X2]|X]]]; [lia| | |].
  - apply orb_true_iff. left. apply orb_true_iff. left. apply Z.ltb_lt. exact X.
  - apply orb_true_iff. left. apply orb_true_iff. right. apply Z.ltb_lt.
    rewrite map_length, firstn_map, !count_delivered_fseg. exact X2.
  - apply orb_true_iff. right. destruct X as (Xe & init & g & Xl & Xp & Xd & Xm).
    unfold probe_expiry_due. cbn [fp_of_vsock f_t_retransmit f_segs]. rewrite Pe, Xe. cbn [andb].
    unfold C05_StepExit.sgs in Xl. rewrite Xl. unfold last_fseg. rewrite map_app, rev_app_distr. cbn [map rev app].
    cbn [fseg_of fg_probe fg_delivered fg_retx]. rewrite Xp, Xd. cbn [andb negb].
    apply Z.leb_le. unfold optm in Hopt. rewrite <- Hopt. exact Xm.
Qed.

Theorem c05_rto_exit_ok2_trace : forall mk c (s0 : vsock) ops,
  0 <= vc_isn c < M16 -> vsock_new cci mk c = Some s0 ->
  forallb (c05_rto_exit_ok2 c) (ftrace cci s0 ops) = true.
Proof.
  intros mk c s0 ops Hisn H0.
  apply (ftrace_forallb_live cci (fun s => ti s /\ C05_Segs.sp s /\ optm c s)).
  - intros s o (H1 & H2 & H3). apply c05_rto_exit_ok2_step; assumption.
  - intros s o (H1 & H2 & H3) Hl. split; [apply ti_vstep; exact H1|].
    split; [apply sp_vstep_live; assumption|apply optm_vstep; exact H3].
  - split; [eapply ti_vsock_new; exact H0|]. split; [eapply sp_vsock_new; [exact Hisn|exact H0]|eapply optm_vsock_new; exact H0].
Qed.

End WithCC.

(* ================================================================== c05_rto_exit_ok is FALSE of the model
   (boundary B6 in a form the predicate does not recognise).  Single-segment mode is left when the
   expired MTU probe is popped; the predicate excuses that exit when max_ss was lowered by the poll, but
   on_probe_failed lowers max_ss only down to min_ss, and the peer's own payloads may have raised min_ss
   to max_ss while the probe was outstanding.
   Scenario (constant window, link MTU 1500: min_ss 528, max_ss 1452): write 3000 bytes, poll (segment
   101 of 528 bytes and the probe 102 of 991 bytes go out), ACK of 101, 3 s later the timer fires and the
   probe is retransmitted (counter 1), the peer's ST_DATA of 1452 bytes arrives (min_ss := 1452 = max_ss),
   3 s later the timer fires again: the probe is popped as expired, the counter is reset, max_ss stays
   1452, nothing was acknowledged - and the same poll sends two new segments (102 with 1452 bytes, 103). *)
Definition b6_ops : list vop :=
  [VoWrite (repeat 0 (Z.to_nat 3000)); VoPoll []; VoDeliver (wmsg ST_STATE 1 101 0); VoPoll [];
   VoSetNow 3000000000; VoPoll [];
   VoDeliver (wmsg ST_DATA 1 101 1452);
   VoSetNow 6000000000; VoPoll []].

Lemma rto_exit_ok_b6_refuted :
  exists w cfg ops,
    vconfig_ok cfg = true /\ Forall op_msg_ok ops /\
    forallb (c05_rto_exit_ok cfg) (wtrace w cfg ops) = false /\
    (* the failing step is in the class B6, and outside that class the clause holds on this trace *)
    existsb (c05_rto_exit_b6_class cfg) (wtrace w cfg ops) = true /\
    forallb (fun st => c05_rto_exit_ok cfg st || c05_rto_exit_b6_class cfg st) (wtrace w cfg ops) = true /\
    (* the restated clause holds, the other C05 step clauses hold *)
    forallb (c05_rto_exit_ok2 cfg) (wtrace w cfg ops) = true /\
    forallb (c05_rto_single_ok cfg) (wtrace w cfg ops) = true /\
    (* what the last poll did: counter 1 -> 0, max_ss unchanged, two ST_DATA *)
    match rev (wtrace w cfg ops) with
    | st :: _ => f_rto_retx (fs_pre st) = 1 /\ f_rto_retx (fs_post st) = 0 /\
                 f_max_ss (fs_post st) = f_max_ss (fs_pre st) /\
                 f_snd_una (fs_post st) = f_snd_una (fs_pre st) /\
                 match fs_result st with
                 | FrPoll PollPending pkts _ _ => length (filter fq_is_data pkts) = 2%nat
                 | _ => False
                 end
    | [] => False
    end.
Proof.
  exists 100000, d16_cfg, b6_ops.
  split; [vm_compute; reflexivity|]. split.
  { repeat constructor; cbv [op_msg_ok msg_ok wmsg m_hdr ch_type m_payload]; vm_compute; discriminate. }
  pattern (wtrace 100000 d16_cfg b6_ops). apply let_once. vm_compute. repeat split.
Qed.

(* ================================================================== c05_zero_window_ok without the guard
   post_open is FALSE of the model: a poll whose receive loop stops early on a closed connection (here
   LastAck with wait_for_last_ack = false) may send before it has processed every queued message; the
   restart after an EMSGSIZE on the MTU probe runs the receive loop again, and the window the poll
   leaves behind is not the one its ST_DATA went into.
   Scenario: 3000 bytes are written and segmented (528 bytes, probe of 991) but the transport is blocked;
   the peer's FIN and an old ST_DATA advertising a ZERO window are queued, the path limit is set to 600;
   the next poll takes the FIN (LastAck: closed), sends segment 101 (528 bytes), gets EMSGSIZE on the
   probe, restarts, processes the second message (window := 0), and ends Pending on a blocked ACK. *)
Definition closed_cfg : vconfig :=
  {| vc_incoming := false; vc_ipv4 := true; vc_link_mtu := 1500; vc_rx_buf := 1048576;
     vc_tx_init := 32768; vc_tx_max := 1048576; vc_nagle := false; vc_max_retx := 5;
     vc_inactivity := 10000000000; vc_wait_last_ack := false; vc_mtu_probe_max_retx := 1;
     vc_isn := 100; vc_remote_seq := 1; vc_remote_conn_id := 7; vc_remote_wnd := 1048576;
     vc_remote_ts := 5; vc_syn_sent := 0; vc_now0 := 1000000 |}.

Definition zero_wnd_data : msg :=
  {| m_hdr := {| ch_type := ST_DATA; ch_conn_id := 0; ch_ts := 10; ch_ts_diff := 0; ch_wnd := 0;
                 ch_seq := 1; ch_ack := 100; ch_sack := None; ch_close_reason := None |};
     m_payload := [0] |}.

Definition closed_ops : list vop :=
  [VoWrite (repeat 0 (Z.to_nat 3000)); VoPoll [TPending];
   VoDeliver (wmsg ST_FIN 1 100 0); VoDeliver zero_wnd_data; VoSetLimit (Some 600);
   VoPoll [TSent; TSent; TPending]].

Lemma zero_window_ok_closed_refuted :
  exists w cfg ops,
    vconfig_ok cfg = true /\ Forall op_msg_ok ops /\
    forallb (c05_zero_window_ok cfg) (wtrace w cfg ops) = false /\
    (* the failing poll ends with the connection closed; the guarded clause holds *)
    forallb (c05_zero_window_ok_open cfg) (wtrace w cfg ops) = true /\
    forallb (fun st => c05_zero_window_ok cfg st || negb (post_open cfg st)) (wtrace w cfg ops) = true /\
    match rev (wtrace w cfg ops) with
    | st :: _ => f_last_remote_window (fs_post st) = 0 /\ f_rto_retx (fs_post st) = 0 /\
                 f_state (fs_post st) = LastAck 101 1 /\
                 match fs_result st with
                 | FrPoll PollPending pkts _ _ =>
                     map (fun q => (ch_seq (fq_hdr q), fq_plen q)) (filter fq_is_data pkts) = [(101, 528)]
                 | _ => False
                 end
    | [] => False
    end.
Proof.
  exists 100000, closed_cfg, closed_ops.
  split; [vm_compute; reflexivity|]. split.
  { repeat constructor; cbv [op_msg_ok msg_ok wmsg zero_wnd_data m_hdr ch_type m_payload]; vm_compute; try discriminate; reflexivity. }
  pattern (wtrace 100000 closed_cfg closed_ops). apply let_once. vm_compute. repeat split.
Qed.

(* ================================================================== the guards are met by reachable steps *)
(* the window clause: the first poll after a write sends two segments under the guard *)
Lemma win_guard_nonvacuous :
  exists w cfg ops,
    vconfig_ok cfg = true /\ Forall op_msg_ok ops /\
    existsb (fun st => c05_win_guard cfg st &&
                       match fs_result st with
                       | FrPoll PollPending pkts _ _ => (2 <=? Z.of_nat (length (filter fq_is_data pkts)))
                       | _ => false
                       end) (wtrace w cfg ops) = true /\
    forallb (c05_window_ok2 cfg) (wtrace w cfg ops) = true /\
    forallb (c05_window_ok_g cfg) (wtrace w cfg ops) = true.
Proof.
  exists 100000, d16_cfg, [VoWrite (repeat 0 (Z.to_nat 3000)); VoPoll []].
  split; [vm_compute; reflexivity|]. split; [repeat constructor|].
  pattern (wtrace 100000 d16_cfg [VoWrite (repeat 0 (Z.to_nat 3000)); VoPoll []]). apply let_once.
  vm_compute. repeat split.
Qed.

(* the zero-window clauses: the D16 scenario has polls with a zero window that end open; the RTO poll
   is in the class D16 (c05_d16_class2), the others send nothing *)
Lemma zero_window_open_nonvacuous :
  exists w cfg ops,
    vconfig_ok cfg = true /\ Forall op_msg_ok ops /\
    existsb (fun st => post_open cfg st && (f_last_remote_window (fs_post st) =? 0) &&
                       match fs_result st with FrPoll PollPending _ _ _ => true | _ => false end)
            (wtrace w cfg ops) = true /\
    existsb (c05_d16_class2 cfg) (wtrace w cfg ops) = true /\
    forallb (c05_zero_window_ok_open cfg) (wtrace w cfg ops) = true /\
    forallb (c05_zero_window_strict_or_d16_open cfg) (wtrace w cfg ops) = true.
Proof.
  exists 1056, d16_cfg, d16_ops.
  split; [vm_compute; reflexivity|]. split; [repeat constructor|].
  pattern (wtrace 1056 d16_cfg d16_ops). apply let_once. vm_compute. repeat split.
Qed.

(* single-segment mode: the poll in which the timer fires emits exactly one ST_DATA and the counter grows *)
Lemma rto_single_nonvacuous :
  exists w cfg ops,
    vconfig_ok cfg = true /\ Forall op_msg_ok ops /\
    existsb (fun st => (0 <? f_rto_retx (fs_post st)) &&
                       match fs_result st with
                       | FrPoll PollPending pkts _ _ => Z.of_nat (length (filter fq_is_data pkts)) =? 1
                       | _ => false
                       end) (wtrace w cfg ops) = true /\
    forallb (c05_rto_single_ok cfg) (wtrace w cfg ops) = true.
Proof.
  exists 1056, d16_cfg, d16_ops.
  split; [vm_compute; reflexivity|]. split; [repeat constructor|].
  pattern (wtrace 1056 d16_cfg d16_ops). apply let_once. vm_compute. repeat split.
Qed.

(* leaving single-segment mode by an ACK: the timer fires (counter 1), the ACK of the retransmitted segment
   arrives, the next poll resets the counter - the cumulative-progress disjunct of c05_rto_exit_ok2 *)
Definition exit_ops : list vop :=
  [VoWrite (repeat 0 (Z.to_nat 400)); VoPoll []; VoSetNow 3000000000; VoPoll [];
   VoDeliver (wmsg ST_STATE 1 101 0); VoPoll []].

Lemma rto_exit_nonvacuous :
  exists w cfg ops,
    vconfig_ok cfg = true /\ Forall op_msg_ok ops /\
    existsb (fun st => (0 <? f_rto_retx (fs_pre st)) && (f_rto_retx (fs_post st) =? 0) &&
                       (f_seg_removed (fs_pre st) <? f_seg_removed (fs_post st)) &&
                       match fs_result st with FrPoll PollPending _ _ _ => true | _ => false end)
            (wtrace w cfg ops) = true /\
    forallb (c05_rto_exit_ok2 cfg) (wtrace w cfg ops) = true /\
    forallb (c05_rto_exit_ok cfg) (wtrace w cfg ops) = true.
Proof.
  exists 100000, d16_cfg, exit_ops.
  split; [vm_compute; reflexivity|]. split; [repeat constructor|].
  pattern (wtrace 100000 d16_cfg exit_ops). apply let_once. vm_compute. repeat split.
Qed.
