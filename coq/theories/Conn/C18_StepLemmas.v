(* C18 at the level of a whole poll — the supporting lemmas.
   1. how the operations of Tx/Segments.v change the table, as relations on the list of segments
      (re-flagging [Forall2 seg_le / seg_eq], removal from the front, popping the last probe);
   2. the table invariants: [TIt] (positively tiled, len_bytes = sum of sizes: every state) and
      [Tab off0] (poll-local: old segments below off0, the new ones tile [off0, offset));
   3. what each function of poll_body does to (segs, last_remote_window, ss, inbox, opts,
      unsegmented): [keep] (nothing), [stx] (send path: re-flag / pop a probe and restart),
      [pimr] (incoming messages: remove, re-flag). *)
From Utp Require Import Base.Prelude Wire.SeqNr Wire.Header Rtt.Rtte Mtu.SegSizes
  Rx.Rx Tx.Ring Tx.Segments Tx.Segments_Proofs Tx.Segments_ProofsOut Conn.Recovery Conn.Msg Conn.VSockRec Conn.VSock
  Conn.VSockRun Conn.VObs Conn.VSock_Lemmas Conn.VSock_LemmasStep Conn.VSock_LemmasReach
  Conn.C18_Pred Conn.C18_Proofs.

(* ================================================================== 1. segments, one by one *)
Definition seg_sh (g g' : seg) : Prop :=
  sg_abs g' = sg_abs g /\ sg_size g' = sg_size g /\ sg_probe g' = sg_probe g.
(* incoming acknowledgements: a segment may become delivered *)
Definition seg_le (g g' : seg) : Prop :=
  seg_sh g g' /\ (sg_delivered g = true -> sg_delivered g' = true).
(* the send path and calc_pipe: only sent/lost/expired/sacks_after change *)
Definition seg_eq (g g' : seg) : Prop :=
  seg_sh g g' /\ sg_delivered g' = sg_delivered g.

Lemma seg_eq_refl g : seg_eq g g.
Proof. repeat split. Qed.
Lemma seg_le_refl g : seg_le g g.
Proof. repeat split. auto. Qed.
Lemma seg_eq_le g g' : seg_eq g g' -> seg_le g g'.
Proof. intros [H D]. split; [exact H|]. rewrite D. auto. Qed.
Lemma seg_le_trans a b c : seg_le a b -> seg_le b c -> seg_le a c.
Proof.
  intros ((A1 & A2 & A3) & A4) ((B1 & B2 & B3) & B4). repeat split; try congruence. auto.
Qed.
Lemma seg_eq_trans a b c : seg_eq a b -> seg_eq b c -> seg_eq a c.
Proof.
  intros ((A1 & A2 & A3) & A4) ((B1 & B2 & B3) & B4). repeat split; congruence.
Qed.

Lemma F2_refl {A} (R : A -> A -> Prop) : (forall x, R x x) -> forall l, Forall2 R l l.
Proof. intros H. induction l; constructor; auto. Qed.

Lemma F2_trans {A} (R : A -> A -> Prop) :
  (forall a b c, R a b -> R b c -> R a c) ->
  forall l1 l2 l3, Forall2 R l1 l2 -> Forall2 R l2 l3 -> Forall2 R l1 l3.
Proof.
  intros H l1 l2 l3 F. revert l3. induction F; intros l3 G; inversion G; subst; constructor; eauto.
Qed.

Lemma F2_impl {A} (R S : A -> A -> Prop) : (forall a b, R a b -> S a b) ->
  forall l l', Forall2 R l l' -> Forall2 S l l'.
Proof. intros H l l' F. induction F; constructor; auto. Qed.

Lemma F2_skipn {A} (R : A -> A -> Prop) : forall n l l',
  Forall2 R l l' -> Forall2 R (skipn n l) (skipn n l').
Proof.
  induction n as [|n IH]; intros l l' F; [exact F|].
  destruct F; cbn [skipn]; [constructor|]. apply IH. exact F.
Qed.

Lemma F2_firstn {A} (R : A -> A -> Prop) : forall n l l',
  Forall2 R l l' -> Forall2 R (firstn n l) (firstn n l').
Proof.
  induction n as [|n IH]; intros l l' F; [constructor|].
  destruct F; cbn [firstn]; constructor; auto.
Qed.

Lemma F2_length {A} (R : A -> A -> Prop) l l' : Forall2 R l l' -> length l = length l'.
Proof. intro F. induction F; cbn [length]; congruence. Qed.

(* what depends on the shape only *)
Lemma F2_sum l l' : Forall2 seg_le l l' -> sum_sizes l' = sum_sizes l.
Proof.
  intro F. induction F as [|g g' l l' ((_ & S & _) & _) _ IH]; cbn [sum_sizes]; [reflexivity|]. lia.
Qed.

Lemma F2_tiled : forall l l' base, Forall2 seg_le l l' -> tiled base l -> tiled base l'.
Proof.
  intros l l' base F. revert base.
  induction F as [|g g' l l' ((A & S & _) & _) _ IH]; intros base T; cbn [tiled] in *; [exact I|].
  destruct T as (T1 & T2 & T3). rewrite A, S. repeat split; auto.
Qed.

Lemma F2_Forall (P : seg -> Prop) l l' :
  (forall g g', seg_le g g' -> P g -> P g') -> Forall2 seg_le l l' -> Forall P l -> Forall P l'.
Proof.
  intros H F. induction F; intros G; inversion G; subst; constructor; eauto.
Qed.

Lemma F2_walk off m w : forall l l' prev, Forall2 seg_le l l' ->
  c18_walk off m w prev (map fseg_of l') = c18_walk off m w prev (map fseg_of l).
Proof.
  intros l l' prev F. revert prev.
  induction F as [|g g' l l' ((A & S & _) & _) _ IH]; intros prev; cbn [map c18_walk]; [reflexivity|].
  cbn [fseg_of fg_abs fg_size]. rewrite A, S, IH. reflexivity.
Qed.

(* ---- the newest segment is not an undelivered MTU probe ---- *)
Definition upr (g : seg) : bool := sg_probe g && negb (sg_delivered g).

Definition lastok (l : list seg) : Prop :=
  match rev l with g :: _ => upr g = false | [] => True end.

Lemma lastok_app_last l g : lastok (l ++ [g]) <-> upr g = false.
Proof. unfold lastok. rewrite rev_app_distr. cbn [rev app]. tauto. Qed.

Lemma list_last_cases {A} (l : list A) : l = [] \/ exists i x, l = i ++ [x].
Proof.
  destruct (rev l) as [|x r] eqn:E.
  - left. rewrite <- (rev_involutive l), E. reflexivity.
  - right. exists (rev r), x. rewrite <- (rev_involutive l), E. reflexivity.
Qed.

Lemma F2_app_last_inv {A} (R : A -> A -> Prop) : forall i x l',
  Forall2 R (i ++ [x]) l' -> exists i' x', l' = i' ++ [x'] /\ Forall2 R i i' /\ R x x'.
Proof.
  intros i x l' F. apply Forall2_app_inv_l in F. destruct F as (i' & t & Fi & Ft & ->).
  inversion Ft as [|? x' ? t' Rx Fn]; subst. inversion Fn; subst. exists i', x'. auto.
Qed.

Lemma lastok_F2 l l' : Forall2 seg_le l l' -> lastok l -> lastok l'.
Proof.
  intros F H. destruct (list_last_cases l) as [->|(i & x & ->)].
  - inversion F; subst. exact I.
  - apply F2_app_last_inv in F. destruct F as (i' & x' & -> & _ & ((_ & _ & P) & D)).
    apply lastok_app_last in H. apply lastok_app_last. unfold upr in *. rewrite P.
    destruct (sg_probe x); [|reflexivity]. cbn [andb] in *.
    destruct (sg_delivered x); [rewrite (D eq_refl); reflexivity | discriminate].
Qed.

Lemma skipn_app_last {A} : forall n (i : list A) x,
  skipn n (i ++ [x]) = [] \/ exists i', skipn n (i ++ [x]) = i' ++ [x].
Proof.
  induction n as [|n IH]; intros i x; [right; exists i; reflexivity|].
  destruct i as [|y i]; cbn [app skipn].
  - left. destruct n; reflexivity.
  - apply IH.
Qed.

Lemma lastok_skipn n l : lastok l -> lastok (skipn n l).
Proof.
  intro H. destruct (list_last_cases l) as [->|(i & x & ->)].
  - rewrite skipn_nil. exact I.
  - destruct (skipn_app_last n i x) as [->|(i' & ->)]; [exact I|].
    apply lastok_app_last. apply lastok_app_last in H. exact H.
Qed.

(* ---- positively tiled up to [off] ---- *)
Definition PT (base : Z) (l : list seg) (off : Z) : Prop :=
  tiled base l /\ Forall (fun g => 0 < sg_size g) l /\ off = base + sum_sizes l.

Lemma PT_F2 base l l' off : Forall2 seg_le l l' -> PT base l off -> PT base l' off.
Proof.
  intros F (T & P & O). split; [eapply F2_tiled; eauto|]. split.
  - eapply F2_Forall; [|exact F|exact P]. intros g g' ((_ & S & _) & _). rewrite S. auto.
  - rewrite (F2_sum _ _ F). exact O.
Qed.

Lemma PT_skipn base l off n : PT base l off -> PT (base + sum_sizes (firstn n l)) (skipn n l) off.
Proof.
  intros (T & P & O). pose proof (firstn_skipn_sum n l) as Sm.
  rewrite <- (firstn_skipn n l) in T, P.
  apply tiled_app in T. apply Forall_app in P.
  destruct T as [_ T]. destruct P as [_ P].
  split; [exact T|]. split; [exact P|]. lia.
Qed.

Lemma PT_nonneg base l off : PT base l off -> base <= off.
Proof. intros (T & _ & O). pose proof (tiled_sizes_nonneg _ _ T). lia. Qed.

Lemma PT_pos base l off : PT base l off -> l <> [] -> base < off.
Proof.
  intros (T & P & O) N. destruct l as [|g l]; [congruence|].
  cbn [sum_sizes tiled] in *. inversion P; subst. destruct T as (_ & _ & T).
  pose proof (tiled_sizes_nonneg _ _ T). lia.
Qed.

Lemma PT_nil base off : PT base [] off <-> off = base.
Proof. unfold PT. cbn [tiled sum_sizes]. split; [intros (_ & _ & O); lia|]. intro. repeat split; auto; lia. Qed.

Lemma PT_snoc base l off g p :
  PT base l off -> sg_abs g = off -> sg_size g = p -> 0 < p -> PT base (l ++ [g]) (off + p).
Proof.
  intros (T & P & O) A <- S. split; [|split].
  - apply tiled_app. split; [exact T|]. cbn [tiled]. repeat split; try lia.
  - apply Forall_app. split; [exact P|]. constructor; [exact S|constructor].
  - rewrite sum_sizes_app. cbn [sum_sizes]. lia.
Qed.

Lemma PT_unsnoc base l off g : PT base (l ++ [g]) off -> PT base l (off - sg_size g) /\ sg_abs g = off - sg_size g.
Proof.
  intros (T & P & O). apply tiled_app in T. destruct T as [T1 T2]. apply Forall_app in P. destruct P as [P1 _].
  rewrite sum_sizes_app in O. cbn [sum_sizes tiled] in *. destruct T2 as (A & _ & _).
  split; [split; [exact T1|split; [exact P1|lia]] | lia].
Qed.

Lemma PT_abs_lt base l off : PT base l off -> Forall (fun g => sg_abs g < off) l.
Proof.
  intros H. apply Forall_forall. intros g In.
  apply in_split in In. destruct In as (l1 & l2 & ->).
  destruct H as (T & P & O). apply tiled_app in T. destruct T as [_ T].
  apply Forall_app in P. destruct P as [_ P]. rewrite sum_sizes_app in O.
  cbn [tiled sum_sizes] in *. destruct T as (A & _ & T). inversion P; subst.
  pose proof (tiled_sizes_nonneg _ _ T). lia.
Qed.

Lemma PT_abs_ge base l off : PT base l off -> Forall (fun g => base <= sg_abs g) l.
Proof. intros (T & _ & _). apply tiled_abs_ge. exact T. Qed.

(* ================================================================== 2. table invariants *)
(* every reachable state *)
Definition TIt (t : segments) : Prop :=
  ss_len_bytes t = sum_sizes (ss_segs t) /\ exists base, PT base (ss_segs t) (ss_offset t).

(* during one poll: off0 = next-byte offset before the poll *)
Definition Tab (off0 : Z) (t : segments) : Prop :=
  exists old new, ss_segs t = old ++ new /\ Forall (fun g => sg_abs g < off0) old /\ lastok old /\
                  PT off0 new (ss_offset t).

(* re-flagging *)
Definition tfl (R : seg -> seg -> Prop) (t t' : segments) : Prop :=
  Forall2 R (ss_segs t) (ss_segs t') /\ ss_offset t' = ss_offset t /\ ss_len_bytes t' = ss_len_bytes t.
(* removal from the front, then re-flagging *)
Definition trm (t t' : segments) : Prop :=
  exists n, Forall2 seg_le (skipn n (ss_segs t)) (ss_segs t') /\ ss_offset t' = ss_offset t /\
            ss_len_bytes t' = ss_len_bytes t - sum_sizes (firstn n (ss_segs t)).
(* the last segment, an undelivered probe, is popped *)
Definition tpop (t t' : segments) : Prop :=
  exists g, ss_segs t = ss_segs t' ++ [g] /\ upr g = true /\
            ss_offset t' = ss_offset t - sg_size g /\ ss_len_bytes t' = ss_len_bytes t - sg_size g.

Lemma tfl_refl (R : seg -> seg -> Prop) t : (forall g, R g g) -> tfl R t t.
Proof. intro H. split; [apply F2_refl; exact H|]. split; reflexivity. Qed.

Lemma tfl_trans (R : seg -> seg -> Prop) a b c : (forall x y z, R x y -> R y z -> R x z) -> tfl R a b -> tfl R b c -> tfl R a c.
Proof.
  intros H (A1 & A2 & A3) (B1 & B2 & B3). split; [eapply F2_trans; eauto|]. split; congruence.
Qed.

Lemma tfl_eq_le t t' : tfl seg_eq t t' -> tfl seg_le t t'.
Proof. intros (A & B & C). split; [eapply F2_impl; [|exact A]; apply seg_eq_le|]. auto. Qed.

Lemma tfl_trm t t' : tfl seg_le t t' -> trm t t'.
Proof. intros (A & B & C). exists O. cbn [skipn firstn sum_sizes]. split; [exact A|]. split; [exact B|lia]. Qed.

Lemma trm_refl t : trm t t.
Proof. apply tfl_trm, tfl_refl, seg_le_refl. Qed.

Lemma skipn_skipn {A} : forall n m (l : list A), skipn n (skipn m l) = skipn (m + n) l.
Proof.
  intros n m. revert n. induction m as [|m IH]; intros n l; [reflexivity|].
  destruct l; cbn [skipn plus]; [apply skipn_nil|apply IH].
Qed.

Lemma sum_firstn_add : forall m n l,
  sum_sizes (firstn (m + n) l) = sum_sizes (firstn m l) + sum_sizes (firstn n (skipn m l)).
Proof.
  induction m as [|m IH]; intros n l; [cbn [plus firstn skipn sum_sizes]; lia|].
  destruct l as [|g l]; cbn [plus firstn skipn sum_sizes].
  - rewrite firstn_nil. cbn [sum_sizes]. lia.
  - rewrite IH. lia.
Qed.

Lemma trm_trans a b c : trm a b -> trm b c -> trm a c.
Proof.
  intros (n1 & A1 & A2 & A3) (n2 & B1 & B2 & B3). exists (n1 + n2)%nat.
  split; [|split; [congruence|]].
  - rewrite <- skipn_skipn. eapply F2_trans; [apply seg_le_trans| |exact B1].
    apply F2_skipn. exact A1.
  - rewrite B3, A3, sum_firstn_add.
    rewrite (F2_sum _ _ (F2_firstn _ n2 _ _ A1)). lia.
Qed.

(* ---- TIt ---- *)
Lemma TIt_trm t t' : trm t t' -> TIt t -> TIt t'.
Proof.
  intros (n & F & O & L) (B & base & P). split.
  - rewrite L, B, (F2_sum _ _ F). pose proof (firstn_skipn_sum n (ss_segs t)). lia.
  - exists (base + sum_sizes (firstn n (ss_segs t))). rewrite O.
    eapply PT_F2; [exact F|]. apply PT_skipn. exact P.
Qed.

Lemma TIt_tpop t t' : tpop t t' -> TIt t -> TIt t'.
Proof.
  intros (g & S & _ & O & L) (B & base & P). rewrite S in B, P. split.
  - rewrite L, B, sum_sizes_app. cbn [sum_sizes]. lia.
  - exists base. rewrite O. apply PT_unsnoc in P. exact (proj1 P).
Qed.

Lemma TIt_enqueue t p b : 0 < p -> TIt t -> TIt (enqueue t p b).
Proof.
  intros Hp (B & base & P). unfold TIt, enqueue, Segments.set_segs; cbn [ss_segs ss_len_bytes ss_offset]. split.
  - rewrite sum_sizes_app. cbn [sum_sizes sg_size]. lia.
  - exists base.
    apply PT_snoc; [exact P | reflexivity | reflexivity | exact Hp].
Qed.

Lemma TIt_pre t : TIt t -> Forall (fun g => sg_abs g < ss_offset t) (ss_segs t).
Proof. intros (_ & base & P). eapply PT_abs_lt; eauto. Qed.

Lemma TIt_len_nonneg t : TIt t -> 0 <= ss_len_bytes t.
Proof. intros (B & base & (T & _ & _)). rewrite B. eapply tiled_sizes_nonneg; eauto. Qed.

(* ---- Tab ---- *)
Lemma Tab_tfl off0 t t' : tfl seg_le t t' -> Tab off0 t -> Tab off0 t'.
Proof.
  intros (F & O & _) (old & new & S & Fo & Lo & P). rewrite S in F.
  apply Forall2_app_inv_l in F. destruct F as (old' & new' & F1 & F2 & S').
  exists old', new'. split; [exact S'|]. split; [|split].
  - eapply F2_Forall; [|exact F1|exact Fo]. intros g g' ((A & _) & _). rewrite A. auto.
  - eapply lastok_F2; eauto.
  - rewrite O. eapply PT_F2; eauto.
Qed.

(* nothing new was segmented yet *)
Lemma Tab_no_new off0 t : ss_offset t = off0 -> Tab off0 t ->
  Forall (fun g => sg_abs g < off0) (ss_segs t) /\ lastok (ss_segs t).
Proof.
  intros E (old & new & S & Fo & Lo & P).
  destruct new as [|g new]; [rewrite S, app_nil_r; auto|]. exfalso.
  assert (off0 < ss_offset t) by (eapply PT_pos; [exact P|discriminate]). lia.
Qed.

(* removal: only while nothing new was segmented *)
Lemma Tab_trm off0 t t' : trm t t' -> ss_offset t = off0 -> Tab off0 t -> Tab off0 t'.
Proof.
  intros (n & F & O & _) E T. destruct (Tab_no_new _ _ E T) as [Fo Lo].
  exists (ss_segs t'), []. rewrite app_nil_r. split; [reflexivity|]. split; [|split].
  - eapply F2_Forall; [|exact F|apply Forall_skipn; exact Fo]. intros g g' ((A & _) & _). rewrite A. auto.
  - eapply lastok_F2; [exact F|]. apply lastok_skipn. exact Lo.
  - rewrite O, E. apply PT_nil. reflexivity.
Qed.

(* a pop takes a NEW segment *)
Lemma Tab_tpop off0 t t' : tpop t t' -> Tab off0 t -> Tab off0 t' /\ off0 <= ss_offset t' < ss_offset t.
Proof.
  intros (g & S & U & O & _) (old & new & S0 & Fo & Lo & P).
  destruct (list_last_cases new) as [->|(ni & x & ->)].
  - exfalso. rewrite app_nil_r in S0. rewrite S0 in S. rewrite S in Lo.
    apply lastok_app_last in Lo. congruence.
  - rewrite S0, app_assoc in S. apply app_inj_tail in S. destruct S as [S ->].
    pose proof P as (_ & Pp & _). apply Forall_app in Pp. destruct Pp as [_ Pp]. inversion Pp; subst.
    apply PT_unsnoc in P. destruct P as [P _]. split.
    + exists old, ni. split; [auto|]. split; [exact Fo|]. split; [exact Lo|]. rewrite O. exact P.
    + rewrite O. pose proof (PT_nonneg _ _ _ P). lia.
Qed.

Lemma Tab_ge off0 t : Tab off0 t -> off0 <= ss_offset t.
Proof. intros (old & new & _ & _ & _ & P). eapply PT_nonneg; eauto. Qed.

Lemma Tab_enqueue off0 t p b : 0 < p -> Tab off0 t -> Tab off0 (enqueue t p b).
Proof.
  intros Hp (old & new & S & Fo & Lo & P). unfold Tab, enqueue, Segments.set_segs; cbn [ss_segs ss_offset].
  eexists old, (new ++ [_]). split; [rewrite S, app_assoc; reflexivity|]. split; [exact Fo|]. split; [exact Lo|].
  apply PT_snoc; [exact P | reflexivity | reflexivity | exact Hp].
Qed.

(* the initial table of a poll *)
Lemma Tab_init t : TIt t -> lastok (ss_segs t) -> Tab (ss_offset t) t.
Proof.
  intros H L. exists (ss_segs t), []. rewrite app_nil_r. split; [reflexivity|].
  split; [apply TIt_pre; exact H|]. split; [exact L|]. apply PT_nil. reflexivity.
Qed.

(* the observable walk: old segments are not judged *)
Lemma Tab_walk_old off0 m w t : ss_offset t = off0 -> Tab off0 t ->
  c18_walk off0 m w false (map fseg_of (ss_segs t)) = true.
Proof.
  intros E T. destruct (Tab_no_new _ _ E T) as [Fo _].
  rewrite <- (app_nil_r (map fseg_of _)). rewrite walk_old by exact Fo. reflexivity.
Qed.

(* ================================================================== 3. the operations of the table *)
Lemma apply_sack_le : forall l bits now a l' a',
  apply_sack l bits now a = (l', a') -> Forall2 seg_le l l'.
Proof.
  induction l as [|s r IH]; intros bits now a l' a'; cbn [apply_sack].
  - intro H; injection H as <- _. constructor.
  - destruct bits as [|b bs]; [intro H; injection H as <- _; apply F2_refl, seg_le_refl|].
    destruct (negb (sg_delivered s) && b).
    + destruct (apply_sack r bs now _) as [r' a''] eqn:E. intro H; injection H as <- _.
      constructor; [|exact (IH _ _ _ _ _ E)]. repeat split.
    + destruct (apply_sack r bs now a) as [r' a''] eqn:E. intro H; injection H as <- _.
      constructor; [apply seg_le_refl | exact (IH _ _ _ _ _ E)].
Qed.

Lemma sack_phase_le t rest a1 su now ack sk rest2 a2 depth lse :
  sack_phase t rest a1 su now ack sk = (rest2, a2, depth, lse) -> Forall2 seg_le rest rest2.
Proof.
  unfold sack_phase. intro E2.
  destruct rest as [|s0 r0] eqn:Er; [injection E2 as <- _ _ _; constructor|].
  destruct sk as [k|]; [|injection E2 as <- _ _ _; apply F2_refl, seg_le_refl].
  destruct (seq_gt _ ack); [|injection E2 as <- _ _ _; apply F2_refl, seg_le_refl].
  destruct (0 <=? seq_sub (wadd16 ack 2) _).
  - destruct (apply_sack (skipn _ (s0 :: r0)) (sk_bits k) now _) as [tl' a'] eqn:Ea.
    injection E2 as <- _ _ _.
    rewrite <- (firstn_skipn (Z.to_nat (seq_sub (wadd16 ack 2) su)) (s0 :: r0)) at 1.
    apply Forall2_app; [apply F2_refl, seg_le_refl | exact (apply_sack_le _ _ _ _ _ _ Ea)].
  - destruct (apply_sack (s0 :: r0) _ now _) as [l' a'] eqn:Ea.
    injection E2 as <- _ _ _. exact (apply_sack_le _ _ _ _ _ _ Ea).
Qed.

Lemma skipn_app_length {A} (a b : list A) : skipn (length a) (a ++ b) = b.
Proof. induction a; cbn [length skipn app]; auto. Qed.
Lemma firstn_app_length {A} (a b : list A) : firstn (length a) (a ++ b) = a.
Proof. induction a; cbn [length firstn app]; [reflexivity|]. f_equal. auto. Qed.

Lemma remove_up_to_ack_trm t now ack sk t' r :
  remove_up_to_ack t now ack sk = (t', r) -> trm t t'.
Proof.
  unfold remove_up_to_ack.
  set (dc := if 0 <=? seq_sub ack (ss_snd_una t)
             then Z.to_nat (Z.min (seq_sub ack (ss_snd_una t) + 1) (len_z (ss_segs t))) else 0%nat).
  set (a1 := drain_acc (firstn dc (ss_segs t)) now {| ac_rtt := None; ac_maxp := 0; ac_cnt := 0; ac_bytes := 0 |}).
  set (rest := skipn dc (ss_segs t)).
  destruct (drain_acc_spec (firstn dc (ss_segs t)) now {| ac_rtt := None; ac_maxp := 0; ac_cnt := 0; ac_bytes := 0 |})
    as [_ Hb1]. fold a1 in Hb1. cbn [ac_bytes] in Hb1.
  destruct (sack_phase t rest a1 _ now ack sk) as [[[rest2 a2] depth] lse] eqn:E2.
  apply sack_phase_le in E2.
  destruct (strip_delivered rest2 0 0) as [[rest3 cnt3] bytes3] eqn:E3.
  destruct (strip_delivered_spec _ _ _ _ _ _ E3) as (dropped & Hd & _ & Hb3 & _).
  intro H; injection H as <- _. unfold trm; cbn [ss_segs ss_len_bytes ss_offset].
  exists (dc + length dropped)%nat. split; [|split; [reflexivity|]].
  - rewrite <- skipn_skipn. fold rest.
    pose proof (F2_skipn seg_le (length dropped) _ _ E2) as F. rewrite Hd, skipn_app_length in F. exact F.
  - rewrite sum_firstn_add. fold rest.
    pose proof (F2_sum _ _ (F2_firstn seg_le (length dropped) _ _ E2)) as F.
    rewrite Hd, firstn_app_length in F. lia.
Qed.

Lemma pipe_loop_eq : forall l t hr th now a l' a',
  pipe_loop l t hr th now a = (l', a') -> Forall2 seg_eq (map snd l) l'.
Proof.
  induction l as [|[off s] r IH]; intros t hr th now a l' a'; cbn [pipe_loop].
  - intro H; injection H as <- _. constructor.
  - destruct (seg_last_sent s).
    + destruct (sg_delivered s) eqn:Dl.
      * destruct (pipe_loop r t hr th now _) as [r' a''] eqn:E. intro H; injection H as <- _.
        cbn [map snd]. constructor; [apply seg_eq_refl | exact (IH _ _ _ _ _ _ _ E)].
      * destruct (pipe_loop r t hr th now _) as [r' a''] eqn:E. intro H; injection H as <- _.
        cbn [map snd]. constructor; [repeat split; cbn [sg_delivered]; congruence | exact (IH _ _ _ _ _ _ _ E)].
    + destruct (pipe_loop r t hr th now a) as [r' a''] eqn:E. intro H; injection H as <- _.
      cbn [map snd]. constructor; [apply seg_eq_refl | exact (IH _ _ _ _ _ _ _ E)].
Qed.

Lemma F2_rev {A} (R : A -> A -> Prop) l l' : Forall2 R l l' -> Forall2 R (rev l) (rev l').
Proof.
  intro F. induction F; cbn [rev]; [constructor|].
  apply Forall2_app; [assumption|]. constructor; [assumption|constructor].
Qed.

Lemma calc_pipe_tfl t hr hd rtt now t' p rc :
  calc_pipe t hr hd rtt now = Some (t', p, rc) -> tfl seg_eq t t'.
Proof.
  unfold calc_pipe. destruct (_ <? _); [discriminate|].
  destruct (pipe_loop _ t hr _ now _) as [upd a] eqn:E. intro H; injection H as <- _ _.
  apply pipe_loop_eq in E. rewrite map_rev, enum_from_snd in E. apply F2_rev in E.
  rewrite rev_involutive in E.
  unfold tfl, Segments.set_segs; cbn [ss_segs ss_offset ss_len_bytes]. split; [|split; reflexivity].
  match goal with |- Forall2 _ _ (_ ++ skipn ?n _) => rewrite <- (firstn_skipn n (ss_segs t)) at 1 end.
  apply Forall2_app; [exact E | apply F2_refl, seg_eq_refl].
Qed.

Lemma update_nth_eq (f : seg -> seg) : (forall s, seg_eq s (f s)) ->
  forall l n, Forall2 seg_eq l (update_nth l n f).
Proof.
  intros Hf. induction l as [|x xs IH]; intros [|n]; cbn [update_nth]; try constructor;
    auto using seg_eq_refl, (F2_refl seg_eq seg_eq_refl).
Qed.

Lemma on_sent_tfl t idx now : tfl seg_eq t (on_sent t idx now).
Proof.
  unfold tfl, on_sent, Segments.set_segs; cbn [ss_segs ss_offset ss_len_bytes].
  split; [|split; reflexivity]. apply update_nth_eq. intro s. repeat split.
Qed.

Lemma pop_mtu_probe_spec t q t' b :
  pop_mtu_probe t q = (t', b) -> (b = true /\ tpop t t') \/ (b = false /\ t' = t).
Proof.
  unfold pop_mtu_probe. destruct (last_and_init (ss_segs t)) as [[init s]|] eqn:E.
  - destruct (_ && sg_probe s && negb (sg_delivered s)) eqn:C.
    + intro H; injection H as <- <-. left. split; [reflexivity|].
      exists s. unfold Segments.set_segs; cbn [ss_segs ss_offset ss_len_bytes].
      split; [apply last_and_init_app; exact E|]. split; [|split; reflexivity].
      unfold upr. apply andb_prop in C. destruct C as [C1 C2]. apply andb_prop in C1. destruct C1 as [_ C1].
      rewrite C1, C2. reflexivity.
    + intro H; injection H as <- <-. right. auto.
  - intro H; injection H as <- <-. right. auto.
Qed.

Lemma pop_expired_spec t to mr t' pe :
  pop_expired_mtu_probe t to mr = (t', pe) ->
  match pe with
  | PeExpired _ _ => tpop t t'
  | PeNotExpired => t' = t /\ ~ lastok (ss_segs t)
  | PeEmpty => t' = t /\ lastok (ss_segs t)
  end.
Proof.
  unfold pop_expired_mtu_probe. destruct (last_and_init (ss_segs t)) as [[init s]|] eqn:E.
  - apply last_and_init_app in E. destruct (sg_delivered s) eqn:D.
    + intro H; injection H as <- <-. split; [reflexivity|]. rewrite E. apply lastok_app_last.
      unfold upr. rewrite D. apply andb_false_r.
    + destruct (to && sg_probe s && _) eqn:C.
      * intro H; injection H as <- <-. exists s.
        unfold Segments.set_segs; cbn [ss_segs ss_offset ss_len_bytes]. split; [exact E|].
        split; [|split; reflexivity]. unfold upr. rewrite D.
        apply andb_prop in C. destruct C as [C _]. apply andb_prop in C. destruct C as [_ C]. rewrite C. reflexivity.
      * destruct (sg_probe s) eqn:P; intro H; injection H as <- <-; (split; [reflexivity|]); rewrite E.
        -- intro L. apply lastok_app_last in L. unfold upr in L. rewrite P, D in L. discriminate.
        -- apply lastok_app_last. unfold upr. rewrite P. reflexivity.
  - intro H; injection H as <- <-. split; [reflexivity|]. unfold lastok, last_and_init in *.
    destruct (rev (ss_segs t)); [exact I|discriminate].
Qed.

Section RecAck.
Context {CC : Type} (cci : cc_iface CC).
Lemma recovery_on_ack_tfl r h segs ls cc now rtt r' segs' cc' :
  recovery_on_ack cci r h segs ls cc now rtt = Some (r', segs', cc') -> tfl seg_eq segs segs'.
Proof.
  unfold recovery_on_ack. cbn [rv_phase rv_supports_sack rv_last_ack].
  assert (Rf : tfl seg_eq segs segs) by (apply tfl_refl, seg_eq_refl).
  destruct (rv_phase r).
  - destruct (seq_ge _ _); intro H; injection H as _ <- _; exact Rf.
  - destruct (ss_segs segs) eqn:Es; [intro H; injection H as _ <- _; exact Rf|].
    match goal with |- match ?c with _ => _ end = _ -> _ => destruct c as [[d la]|] end; [|discriminate].
    destruct (d <? _); [intro H; injection H as _ <- _; exact Rf|].
    destruct (calc_pipe _ _ _ _ _) as [[[sg pp] rc]|] eqn:Ec; [|discriminate].
    intro H; injection H as _ <- _. eapply calc_pipe_tfl; eauto.
  - destruct (seq_ge _ _); intro H; injection H as _ <- _; exact Rf.
Qed.
End RecAck.


Lemma walk_prefix off m w l g prev :
  c18_walk off m w prev (map fseg_of (l ++ [g])) = true -> c18_walk off m w prev (map fseg_of l) = true.
Proof.
  revert prev. induction l as [|x l IH]; intros prev; cbn [app map c18_walk]; [reflexivity|].
  intro H. apply andb_prop in H. destruct H as [H1 H2]. rewrite H1. cbn [andb]. apply IH. exact H2.
Qed.

Lemma lastok_F2_eq l l' : Forall2 seg_eq l l' -> (lastok l <-> lastok l').
Proof.
  intros F. destruct (list_last_cases l) as [->|(i & x & ->)].
  - inversion F; subst. tauto.
  - apply F2_app_last_inv in F. destruct F as (i' & x' & -> & _ & ((_ & _ & P) & D)).
    rewrite !lastok_app_last. unfold upr. rewrite P, D. tauto.
Qed.
