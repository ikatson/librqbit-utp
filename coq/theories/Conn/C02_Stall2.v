(* c02_no_silent_stall at the level of the model state: what send_tx_queue leaves behind when it
   returns Ok with a writable transport and no restart - either the retransmission timer is armed,
   or nothing is undelivered, or the connection is in loss recovery, or the new-data part looked at
   the first never-sent segment and found it too large for the windows. *)
From Utp Require Import Base.Prelude Wire.SeqNr Wire.Header Rtt.Rtte Rtt.Rtte_Proofs Mtu.SegSizes
  Rx.Rx Tx.Ring Tx.Segments Tx.Segments_Proofs Tx.Segments_ProofsOut
  Conn.Recovery Conn.Msg Conn.VSockRec Conn.VSock Conn.VSockRun Conn.VObs Conn.C10_Pred Conn.C02_Pred
  Conn.C02_Pred2 Conn.VSock_LemmasTx Conn.VSock_Lemmas Conn.VSock_LemmasStep Conn.VSock_LemmasReach
  Conn.VSock_LemmasTimers Conn.VSock_LemmasPipe
  Conn.C02_SegLemmas2 Conn.C02_Lemmas2.

(* ------------------------------------------------------------------ lists *)
Lemma find_split : forall {A} (p : A -> bool) l g,
  find p l = Some g ->
  exists pre post, l = pre ++ g :: post /\ (forall x, In x pre -> p x = false) /\ p g = true.
Proof.
  intros A p. induction l as [|y ys IH]; intros g H; cbn [find] in H; [discriminate|].
  destruct (p y) eqn:E.
  - injection H as <-. exists [], ys. split; [reflexivity|]. split; [intros x []|exact E].
  - destruct (IH g H) as (pre & post & -> & H1 & H2). exists (y :: pre), post.
    split; [reflexivity|]. split; [|exact H2]. intros x [<-|Hx]; [exact E|apply H1; exact Hx].
Qed.

Lemma existsb_firstn_len : forall {A} (p : A -> bool) n pre g post,
  existsb p (firstn n (pre ++ g :: post)) = false -> p g = true -> (n <= length pre)%nat.
Proof.
  intros A p n pre g post H Hg. destruct (Nat.le_gt_cases n (length pre)) as [L|L]; [exact L|exfalso].
  rewrite firstn_app in H. rewrite existsb_app in H. apply orb_false_iff in H. destruct H as [_ H].
  destruct (n - length pre)%nat as [|k] eqn:Ek; [lia|].
  cbn [firstn existsb] in H. rewrite Hg in H. discriminate.
Qed.

Lemma skipn_app_le : forall {A} n (a b : list A), (n <= length a)%nat -> skipn n (a ++ b) = skipn n a ++ b.
Proof.
  intros A n a b L. rewrite skipn_app. replace (n - length a)%nat with 0%nat by lia. reflexivity.
Qed.

Lemma firstn_app_le : forall {A} n (a b : list A), (n <= length a)%nat -> firstn n (a ++ b) = firstn n a.
Proof.
  intros A n a b L. rewrite firstn_app. replace (n - length a)%nat with 0%nat by lia.
  cbn [firstn]. apply app_nil_r.
Qed.

Lemma flight_sum_delivered : forall l, (forall x, In x l -> sg_delivered x = true) -> flight_sum l = 0.
Proof.
  induction l as [|y ys IH]; intro H; cbn [flight_sum]; [reflexivity|].
  rewrite (H y (or_introl eq_refl)). rewrite IH; [reflexivity|]. intros x Hx. apply H. right; exact Hx.
Qed.

(* the iterator restricted to [start ..] begins with the first undelivered segment when
   everything before that segment is delivered and the start index is not beyond it *)
Lemma iter_head_exact : forall t st pre g post,
  ss_segs t = pre ++ g :: post -> (forall x, In x pre -> sg_delivered x = true) ->
  sg_delivered g = false ->
  (match st with Some s => Z.to_nat (Z.max (seq_sub s (ss_snd_una t)) 0) | None => 0%nat end <= length pre)%nat ->
  exists rest, iter_for_sending t st =
    {| fs_idx := length pre; fs_seq := wadd16 (ss_snd_una t) (Z.of_nat (length pre) mod M16);
       fs_payload_offset := sg_abs g - ss_removed t; fs_seg := g |} :: rest.
Proof.
  intros t st pre g post E Hpre Hg Hoff. unfold iter_for_sending.
  set (off := match st with Some s => _ | None => 0%nat end) in *.
  rewrite E, (skipn_app_le off pre (g :: post) Hoff), enum_from_app, map_app, filter_app.
  match goal with |- exists rest, filter ?p (map ?mk ?a) ++ _ = _ =>
    assert (Hn : filter p (map mk a) = []) end.
  { apply filter_all_false. intros x Hx. apply in_map_iff in Hx. destruct Hx as ([i y] & <- & Hin).
    cbn [fs_seg]. apply enum_from_In in Hin.
    assert (Hy : In y pre).
    { rewrite <- (firstn_skipn off pre). apply in_or_app. right; exact Hin. }
    rewrite (Hpre y Hy). reflexivity. }
  rewrite Hn. cbn [app enum_from map filter fs_seg]. rewrite Hg. cbn [negb].
  rewrite skipn_length. replace (off + (length pre - off))%nat with (length pre) by lia.
  eexists. reflexivity.
Qed.

Section WithCC.
Context {CC : Type} (cci : cc_iface CC).
Notation vsock := (vsock CC).

(* ------------------------------------------------------------------ the clause on the model state *)
Definition seg_nsu (g : seg) : bool :=
  match sg_sent g with NotSent => negb (sg_delivered g) | _ => false end.

Definition strand_free_s (s : vsock) : bool :=
  negb (existsb seg_nsu (firstn (strand_bound (v_last_sent_seq_nr s) (ss_snd_una (v_segs s)))
                                (ss_segs (v_segs s)))).

Definition stall_ok (s : vsock) : Prop :=
  segs_out (ss_segs (v_segs s)) = false -> is_recovering (v_recovery s) = false ->
  forall g, find seg_nsu (ss_segs (v_segs s)) = Some g ->
  sg_size g <= v_last_remote_window s -> sg_size g <= cc_window cci (v_cc s) ->
  strand_free_s s = true -> v_t_retransmit s <> None.

(* the fields stall_ok reads are the same, or the timer is armed *)
Definition skr (s s' : vsock) : Prop :=
  v_t_retransmit s' <> None \/
  (v_segs s' = v_segs s /\ v_recovery s' = v_recovery s /\ v_last_remote_window s' = v_last_remote_window s /\
   v_cc s' = v_cc s /\ v_last_sent_seq_nr s' = v_last_sent_seq_nr s /\ v_t_retransmit s' = v_t_retransmit s).

Lemma skr_refl : forall s, skr s s.
Proof. intros s. right. auto 10. Qed.

Lemma skr_ok : forall s s', skr s s' -> stall_ok s -> stall_ok s'.
Proof.
  intros s s' [K|(E1 & E2 & E3 & E4 & E5 & E6)] H; [intros _ _ g _ _ _ _; exact K|].
  unfold stall_ok, strand_free_s in *. rewrite E1, E2, E3, E4, E5, E6. exact H.
Qed.

Lemma skr_same : forall (s s' : vsock),
  v_segs s' = v_segs s -> v_recovery s' = v_recovery s -> v_last_remote_window s' = v_last_remote_window s ->
  v_cc s' = v_cc s -> v_last_sent_seq_nr s' = v_last_sent_seq_nr s -> v_t_retransmit s' = v_t_retransmit s ->
  skr s s'.
Proof. intros. right. auto 10. Qed.

Ltac skr_same_tac := apply skr_same; exact eq_refl.

(* the three sufficient reasons *)
Lemma stall_ok_armed : forall s : vsock, v_t_retransmit s <> None -> stall_ok s.
Proof. intros s H _ _ g _ _ _ _. exact H. Qed.

Lemma seg_nsu_und : forall g, seg_nsu g = true -> sg_delivered g = false.
Proof. intros g H. unfold seg_nsu in H. destruct (sg_sent g); try discriminate. apply negb_true_iff; exact H. Qed.

Lemma stall_ok_no_und : forall s : vsock, und (ss_segs (v_segs s)) = false -> stall_ok s.
Proof.
  intros s H _ _ g Hf _ _ _. exfalso. apply find_some in Hf. destruct Hf as [Hin Hg].
  assert (K : und (ss_segs (v_segs s)) = true).
  { apply und_In. exists g. split; [exact Hin | apply seg_nsu_und; exact Hg]. }
  congruence.
Qed.

Lemma stall_ok_recovering : forall s : vsock, is_recovering (v_recovery s) = true -> stall_ok s.
Proof. intros s H _ K. congruence. Qed.

(* ------------------------------------------------------------------ the new-data part *)
Lemma new_data_loop_first : forall items (s : vsock) h rem s' tl,
  new_data_loop items s h rem = SOk s' tl ->
  v_t_retransmit s' <> None \/
  (sd_unchanged s s' /\
   (items = [] \/ exists f rest, items = f :: rest /\
      (rem < sg_size (fs_seg f) \/ v_transport_pending s' = true \/ tl <> None))).
Proof.
  intros items s h rem s' tl H. destruct items as [|f rest]; cbn [new_data_loop] in H.
  - injection H as <- <-. right. split; [|left; reflexivity].
    unfold sd_unchanged. split; [apply sd_frame_refl|]. repeat split.
  - destruct (Z.ltb_spec rem (sg_size (fs_seg f))) as [L|L].
    + injection H as <- <-. right. split; [|right; exists f, rest; split; [reflexivity|left; exact L]].
      unfold sd_unchanged. split; [apply sd_frame_refl|]. repeat split.
    + pose proof (send_data_spec s h f) as D.
      destruct (send_data s h f) as [s1 r|s1 e|]; try discriminate.
      destruct r.
      * left. destruct D as (_ & _ & _ & _ & Dt & _).
        pose proof (new_data_loop_sdr rest s1 h (rem - sg_size (fs_seg f))) as F.
        rewrite H in F. cbn [stR] in F. destruct F as (_ & F & _). apply F. rewrite Dt. apply timer_arm_some.
      * injection H as <- <-. destruct D as [D1 D2]. right. split; [exact D1|].
        right. exists f, rest. split; [reflexivity|]. right; left. exact D2.
      * injection H as <- <-. destruct D as [D1 D2]. right. split; [exact D1|].
        right. exists f, rest. split; [reflexivity|]. right; right. discriminate.
Qed.

(* nothing outstanding: everything before the first never-sent undelivered segment is delivered *)
Lemma nsu_prefix_delivered : forall l pre g post,
  l = pre ++ g :: post -> segs_out l = false -> (forall x, In x pre -> seg_nsu x = false) ->
  forall x, In x pre -> sg_delivered x = true.
Proof.
  intros l pre g post E Ho Hp x Hx.
  assert (Hin : In x l) by (rewrite E; apply in_or_app; left; exact Hx).
  destruct (sg_delivered x) eqn:Ed; [reflexivity|exfalso].
  specialize (Hp x Hx). unfold seg_nsu in Hp. rewrite Ed in Hp. cbn [negb] in Hp.
  assert (K : segs_out l = true).
  { apply segs_out_In. exists x. split; [exact Hin|]. unfold seg_out, seg_sent_b. rewrite Ed.
    destruct (sg_sent x); [discriminate|reflexivity|reflexivity]. }
  congruence.
Qed.

Lemma new_branch_stall : forall (s s' : vsock) h u,
  new_branch cci s h = SOk s' u -> v_restart s = false -> v_restart s' = false ->
  v_transport_pending s' = false -> stall_ok s'.
Proof.
  intros s s' h u H R0 R' T'. unfold new_branch in H.
  destruct (new_data_loop (new_items s) s h (new_remaining cci s)) as [s1 tl| |] eqn:El; cbn [sbind] in H;
    try discriminate.
  pose proof (new_data_loop_first _ _ _ _ _ _ El) as F.
  assert (Htl : tl = None /\ s' = s1).
  { unfold new_after in H. destruct tl as [[sq sz]|]; [|injection H as <-; auto].
    destruct (pop_mtu_probe _ _) as [segs' popped]. destruct popped; [|discriminate].
    injection H as <-. cbn [v_restart set_restart] in R'. discriminate. }
  destruct Htl as [-> ->]. clear H.
  destruct F as [F|[U F]]; [apply stall_ok_armed; exact F|].
  destruct U as (Uf & _ & Usegs & Uls & Utr & _).
  destruct Uf as (_ & Ucc & Ulrw & Urec & _).
  intros Hout Hrec g Hfind Hlrw Hcw Hsf. exfalso.
  rewrite Usegs in Hout, Hfind. rewrite Urec in Hrec. rewrite Ulrw in Hlrw. rewrite Ucc in Hcw.
  unfold strand_free_s in Hsf. rewrite Usegs, Uls in Hsf. apply negb_true_iff in Hsf.
  destruct (find_split _ _ _ Hfind) as (pre & post & E & Hpre & Hg).
  pose proof (nsu_prefix_delivered _ _ _ _ E Hout Hpre) as Hdel.
  rewrite E in Hsf. apply existsb_firstn_len in Hsf; [|exact Hg].
  unfold strand_bound in Hsf.
  assert (Hgd : sg_delivered g = false) by (apply seg_nsu_und; exact Hg).
  destruct (iter_head_exact (v_segs s) (Some (wadd16 (v_last_sent_seq_nr s) 1)) pre g post E Hdel Hgd)
    as (rest & Hit); [lia|].
  fold (new_items s) in Hit.
  destruct F as [F|(f0 & rest0 & F0 & F)]; [rewrite F in Hit; discriminate|].
  rewrite Hit in F0. injection F0 as <- <-.
  destruct F as [F|[F|F]]; [|congruence|congruence].
  (* the budget: nothing in flight *)
  assert (Hrem : new_remaining cci s = sat_sub (Z.min (cc_window cci (v_cc s)) (v_last_remote_window s)) 0).
  { unfold new_remaining, remaining_cwnd. unfold is_recovering in Hrec.
    destruct (rv_phase (v_recovery s)); try discriminate;
      (f_equal; unfold calc_flight_size; rewrite E, firstn_app_le by lia;
       apply flight_sum_delivered; intros x Hx; apply Hdel; eapply In_firstn; exact Hx). }
  rewrite Hrem in F. cbn [fs_seg] in F. unfold sat_sub in F. lia.
Qed.

(* ------------------------------------------------------------------ the recovery part *)
Definition undr (s s' : vsock) : Prop :=
  und (ss_segs (v_segs s)) = false -> und (ss_segs (v_segs s')) = false.

Lemma sdr_undr : forall s s', sdr s s' -> undr s s'.
Proof. intros s s' (_ & _ & A) H. rewrite (und_dlv _ _ A). exact H. Qed.

Lemma rec_after_keeps : forall rc h mss0 (s1 s2 : vsock) res r,
  rec_after rc h mss0 s1 res = SOk s2 r ->
  is_recovering (v_recovery s2) = true /\ v_segs s2 = v_segs s1 /\ v_restart s2 = v_restart s1.
Proof.
  intros rc h mss0 s1 s2 [st early] r H. unfold rec_after in H.
  destruct early; [injection H as <- _; repeat split|].
  match type of H with (match our_fin_if_unacked (v_state ?y) with _ => _ end) = _ =>
    assert (F3 : is_recovering (v_recovery y) = true /\ v_segs y = v_segs s1 /\ v_restart y = v_restart s1);
    [|revert F3 H; generalize y; intros sy F3 H] end.
  { destruct (rl_cwnd st <? mss0); [|repeat split]. destruct (rc_recalc rc); [repeat split|].
    destruct (0 <? rl_sent st); repeat split. }
  destruct (our_fin_if_unacked _); [destruct (_ =? _)|]; injection H as <- _;
    first [exact F3 | destruct F3 as (_ & F2 & F3); repeat split; assumption].
Qed.

Lemma rec_branch_norec : forall (s : vsock) h,
  is_recovering (v_recovery s) = false -> rec_branch s h = SOk s false.
Proof.
  intros s h H. unfold rec_branch. unfold is_recovering in H.
  destruct (rv_phase (v_recovery s)); [reflexivity|reflexivity|discriminate].
Qed.

Lemma rec_branch_keeps : forall (s s2 : vsock) h r,
  rec_branch s h = SOk s2 r ->
  undr s s2 /\ v_restart s2 = v_restart s /\
  (is_recovering (v_recovery s) = true -> is_recovering (v_recovery s2) = true).
Proof.
  intros s s2 h r H. unfold rec_branch in H.
  destruct (rv_phase (v_recovery s)) as [rp|d|rc] eqn:Ep;
    try (injection H as <- _; split; [intro K; exact K|]; split; [reflexivity|];
         unfold is_recovering; rewrite Ep; discriminate).
  pose proof (recovery_loop_sdr (rec_items s rc) s h (mss (v_ss s)) (rec_st0 rc)) as F.
  pose proof (recovery_loop_qb (rec_items s rc) s h (mss (v_ss s)) (rec_st0 rc)) as Q.
  destruct (recovery_loop _ s h _ _) as [s1 res| |]; cbn [sbind stR] in *; try discriminate.
  destruct (rec_after_keeps _ _ _ _ _ _ _ H) as (A1 & A2 & A3).
  destruct Q as (_ & _ & _ & _ & _ & _ & _ & _ & Q9 & _).
  split; [intro K; rewrite A2; apply (sdr_undr _ _ F K)|]. split; [congruence|]. intros _. exact A1.
Qed.

Lemma new_after_keeps : forall (s1 s' : vsock) tl u,
  new_after s1 tl = SOk s' u ->
  v_recovery s' = v_recovery s1 /\ undr s1 s'.
Proof.
  intros s1 s' tl u H. unfold new_after in H. destruct tl as [[sq sz]|]; [|injection H as <-; split; [reflexivity|intro K; exact K]].
  destruct (pop_mtu_probe (v_segs s1) sq) as [segs' popped] eqn:Ep. destruct popped; [|discriminate].
  injection H as <-. split; [reflexivity|]. unfold undr. vsimpl_goal.
  unfold pop_mtu_probe in Ep. destruct (last_and_init _) as [[init x]|] eqn:El; [|inversion Ep].
  destruct (_ && _ && _); inversion Ep; subst. cbn [set_segs ss_segs].
  apply (pop_back_und_false _ _ _ El).
Qed.

Lemma new_branch_keeps : forall (s s' : vsock) h u,
  new_branch cci s h = SOk s' u ->
  undr s s' /\ (is_recovering (v_recovery s) = true -> is_recovering (v_recovery s') = true).
Proof.
  intros s s' h u H. unfold new_branch in H.
  pose proof (new_data_loop_sdr (new_items s) s h (new_remaining cci s)) as F.
  pose proof (new_data_loop_qb (new_items s) s h (new_remaining cci s)) as Q.
  destruct (new_data_loop _ s h _) as [s1 tl| |]; cbn [sbind stR] in *; try discriminate.
  destruct (new_after_keeps _ _ _ _ H) as (A1 & A2).
  destruct Q as (_ & _ & Q3 & _).
  split; [intro K; apply A2; apply (sdr_undr _ _ F K)|]. rewrite A1, Q3. intro K; exact K.
Qed.

(* ------------------------------------------------------------------ after the RTO part *)
Lemma after_rto_k_undr : forall h (s s' : vsock) ret u, after_rto_k cci h s ret = SOk s' u -> undr s s'.
Proof.
  intros h s s' ret u H. unfold after_rto_k in H.
  destruct ret; [injection H as <-; intro K; exact K|].
  destruct (0 <? v_rto_retransmissions s); [injection H as <-; intro K; exact K|].
  destruct (ss_segs (v_segs s)) eqn:Es; [injection H as <-; intro K; exact K|].
  destruct (rec_branch s h) as [s2 r2| |] eqn:Er; cbn [sbind] in H; try discriminate.
  destruct (rec_branch_keeps _ _ _ _ Er) as (A1 & _).
  destruct r2; [injection H as <-; exact A1|].
  destruct (new_branch_keeps _ _ _ _ H) as (B1 & _). intro K. apply B1, A1, K.
Qed.

Lemma after_rto_k_stall : forall h (s s' : vsock) ret u,
  after_rto_k cci h s ret = SOk s' u -> v_restart s = false -> v_restart s' = false ->
  v_transport_pending s' = false -> (ret = true -> v_transport_pending s = true) ->
  (0 < v_rto_retransmissions s -> v_t_retransmit s <> None) -> stall_ok s'.
Proof.
  intros h s s' ret u H R0 R' T' Hret Hrm. unfold after_rto_k in H.
  destruct ret; [injection H as <-; specialize (Hret eq_refl); congruence|].
  destruct (Z.ltb_spec 0 (v_rto_retransmissions s)) as [L|L];
    [injection H as <-; apply stall_ok_armed; auto|].
  destruct (ss_segs (v_segs s)) eqn:Es.
  { injection H as <-. apply stall_ok_no_und. rewrite Es. reflexivity. }
  destruct (is_recovering (v_recovery s)) eqn:Erec.
  - destruct (rec_branch s h) as [s2 r2| |] eqn:Er; cbn [sbind] in H; try discriminate.
    destruct (rec_branch_keeps _ _ _ _ Er) as (_ & _ & A3). specialize (A3 Erec).
    destruct r2; [injection H as <-; apply stall_ok_recovering; exact A3|].
    destruct (new_branch_keeps _ _ _ _ H) as (_ & B2). apply stall_ok_recovering. auto.
  - rewrite (rec_branch_norec s h Erec) in H. cbn [sbind] in H.
    eapply new_branch_stall; eassumption.
Qed.

(* ------------------------------------------------------------------ send_tx_queue *)
Theorem send_tx_queue_stall : forall (s s' : vsock) u,
  rm s -> v_restart s = false -> send_tx_queue cci s = SOk s' u ->
  v_restart s' = false -> v_transport_pending s' = false -> stall_ok s'.
Proof.
  intros s s' u Hrm R0 H R' T'. rewrite send_tx_queue_eq in H.
  destruct (v_transport_pending s) eqn:Tp; [injection H as <-; congruence|].
  set (h := outgoing_header s) in *. clearbody h.
  destruct (rto_branch cci s h) as [s1 ret| |] eqn:Eb; cbn [sbind] in H; try discriminate.
  unfold rto_branch in Eb.
  destruct (timer_expired (v_t_retransmit s) (v_now s)).
  2:{ injection Eb as <- <-. eapply after_rto_k_stall; try eassumption; [discriminate|].
      intro K. apply Hrm. exact K. }
  destruct (iter_for_sending (v_segs s) None) as [|f l] eqn:Eit.
  - (* nothing undelivered *)
    assert (Hu : und (ss_segs (v_segs s1)) = false).
    { pose proof (iter_nil_und _ Eit) as U.
      destruct (our_fin_if_unacked _); [|injection Eb as <- _; exact U].
      destruct (_ =? _); [|injection Eb as <- _; exact U].
      set (s0 := set_last_sent_seq_nr s (wsub16 (v_last_sent_seq_nr s) 1)) in *.
      assert (E0 : v_segs s0 = v_segs s) by reflexivity. clearbody s0.
      pose proof (maybe_send_fin_segs s0) as Sg.
      destruct (maybe_send_fin s0) as [s2 sent| |]; cbn [sbind] in Eb; try discriminate.
      specialize (Sg s2 sent eq_refl).
      destruct sent; [|injection Eb as <- _; rewrite Sg, E0; exact U].
      destruct (on_rto_reactions cci s2) as [s3|] eqn:Er; [|discriminate].
      apply on_rto_reactions_pp in Er. destruct Er as (_ & _ & _ & _ & _ & R6).
      injection Eb as <- _. vsimpl_goal. rewrite R6, Sg, E0. exact U. }
    apply stall_ok_no_und. exact (after_rto_k_undr _ _ _ _ _ H Hu).
  - pose proof (send_data_spec s h f) as D.
    destruct (send_data s h f) as [s2 r|s2 e|]; try discriminate.
    destruct r; try discriminate.
    + (* resent: the timer is armed *)
      destruct D as (Df & _).
      assert (R2 : v_restart s2 = false) by (unfold sd_frame in Df; destruct Df as (_&_&_&_&_&_&_&_&_&_&Df&_); congruence).
      cbv zeta in Eb.
      match type of Eb with (match ?o with _ => _ end) = _ => destruct o as [s3|] eqn:E3 end; [|discriminate].
      assert (R3 : v_restart s3 = false).
      { destruct (negb _); [|injection E3 as <-; exact R2].
        apply on_rto_reactions_pp in E3. destruct E3 as (_ & _ & E3 & _). congruence. }
      injection Eb as <- <-.
      eapply after_rto_k_stall; try exact H; try assumption; [discriminate|].
      intros _. vsimpl_goal. apply timer_arm_some.
    + (* the transport blocked *)
      destruct D as [(Df & _ & _ & _ & Dt & _) Dp]. injection Eb as <- <-.
      unfold sd_frame in Df. destruct Df as (_&_&_&_&Drto&_&_&_&_&_&Dr&_).
      eapply after_rto_k_stall; try exact H; try assumption; [congruence|intros _; exact Dp|].
      rewrite Drto, Dt. intro K. apply Hrm. exact K.
Qed.

End WithCC.
