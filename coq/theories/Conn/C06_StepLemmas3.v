(* C06, step level: lemmas for the fast-retransmit predicate.
   - [HRI]: while a poll processes its messages, a Recovering phase it entered has retransmitted nothing
     yet and its high_rxt lies a bounded number of segments below the left edge of the table;
   - [fu]: the index of the first undelivered segment, = the head of the unrestricted iterator;
   - [stq_fast]: a send_tx_queue call that finds such a phase (no RTO mode, transport writable)
     retransmits the first undelivered segment. *)
From Utp Require Conn.VSock_Inv.
From Utp Require Import Base.Prelude Wire.SeqNr Wire.SeqNr_Proofs Wire.Header Rtt.Rtte Rtt.Rtte_Proofs
  Mtu.SegSizes Rx.Rx Tx.Ring Tx.Ring_Proofs Tx.Segments Tx.Segments_Proofs Tx.Segments_ProofsOut
  Conn.Recovery Conn.Msg Conn.VSockRec Conn.VSock Conn.VSockRun Conn.VObs
  Conn.VSock_Lemmas Conn.VSock_LemmasStep Conn.VSock_LemmasReach Conn.VSock_LemmasTx
  Conn.VSock_LemmasIn Conn.VSock_LemmasFin Conn.VSock_LemmasTimers Conn.VSock_LemmasPipe
  Conn.C17_StepLemmas Conn.C05_Pred Conn.C06_Pred Conn.C06_RecProofs Conn.C06_StepLemmas Conn.C06_StepLemmas2.

(* ================================================================== the table after an ACK *)
Lemma remove_up_to_ack_len : forall t now ack sk t' r,
  remove_up_to_ack t now ack sk = (t', r) ->
  exists n : nat, (length (ss_segs t') + n = length (ss_segs t))%nat /\
    ss_snd_una t' = wadd16 (ss_snd_una t) (Z.of_nat n mod M16).
Proof.
  intros t now ack sk t' r. unfold remove_up_to_ack.
  set (dc := if 0 <=? seq_sub ack (ss_snd_una t) then _ else 0%nat).
  destruct (sack_phase t (skipn dc (ss_segs t)) _ _ now ack sk) as [[[rest2 a2] dp] lse] eqn:E2.
  destruct (strip_delivered rest2 0 0) as [[rest3 cnt3] bytes3] eqn:E3.
  intro H; injection H as <- _.
  apply sack_phase_dlv in E2.
  destruct (strip_delivered_spec _ _ _ _ _ _ E3) as (dropped & Hd & Hc3 & _).
  assert (Hdc : (dc <= length (ss_segs t))%nat).
  { subst dc. destruct (0 <=? _); [|lia]. unfold len_z. lia. }
  assert (Hl2 : length rest2 = (length (ss_segs t) - dc)%nat).
  { rewrite <- (Forall2_len _ _ _ _ _ E2), skipn_length. reflexivity. }
  assert (Hl3 : (length dropped + length rest3 = length rest2)%nat) by (rewrite Hd, app_length; reflexivity).
  exists (dc + length dropped)%nat. cbn [ss_segs ss_snd_una]. split; [lia|].
  rewrite Hc3, wadd16_wadd16 by lia. f_equal. f_equal. lia.
Qed.

Ltac skr_leaf := unfold skr; repeat split; reflexivity.
Ltac fpr_leaf := apply fpr_same; reflexivity.

Section WithCC.
Context {CC : Type} (cci : cc_iface CC).
Notation vsock := (vsock CC).

(* what recovery_on_ack does to the phase *)
Lemma recovery_on_ack_phase : forall r h segs ls cc now rtt r' segs' cc',
  recovery_on_ack cci r h segs ls cc now rtt = Some (r', segs', cc') ->
  match rv_phase r' with
  | Recovering rc' =>
      rv_phase r = Recovering rc' \/
      (rc_total_retx rc' = 0 /\ rc_high_rxt rc' = wsub16 (ss_snd_una segs) 1 /\ ss_segs segs <> [])
  | _ => True
  end.
Proof.
  intros r h segs ls cc now rtt r' segs' cc'. unfold recovery_on_ack. cbv zeta.
  cbn [rv_phase rv_supports_sack rv_last_ack]. intros H.
  destruct (rv_phase r) eqn:Ep.
  - destruct (seq_ge _ _); injection H as <- _ _; cbn [rv_phase]; exact I.
  - destruct (ss_segs segs) eqn:Es; [injection H as <- _ _; exact I|].
    match type of H with (match ?c with _ => _ end) = _ => destruct c as [[dup' la']|] end; [|discriminate].
    destruct (dup' <? SACK_DUP_THRESH); [injection H as <- _ _; exact I|].
    destruct (calc_pipe _ _ _ _ _) as [[[sg pipe] recalc]|] eqn:Ec; [|discriminate].
    injection H as <- _ _. cbn [rv_phase rc_total_retx rc_high_rxt]. right.
    split; [reflexivity|]. split; [reflexivity | discriminate].
  - destruct (seq_ge _ _); injection H as <- _ _; cbn [rv_phase]; [exact I | left; reflexivity].
Qed.

(* ================================================================== HRI *)
Definition HRI (L : Z) (s : vsock) : Prop :=
  0 <= ss_snd_una (v_segs s) < M16 /\
  match rv_phase (v_recovery s) with
  | Recovering rc =>
      rc_total_retx rc = 0 /\ 0 <= rc_high_rxt rc < M16 /\
      exists k, 1 <= k /\ k + len_z (ss_segs (v_segs s)) <= L + 1 /\
                ss_snd_una (v_segs s) = wadd16 (rc_high_rxt rc) (k mod M16)
  | _ => len_z (ss_segs (v_segs s)) <= L
  end.

(* the same once segments may have been appended: only the distance is kept *)
Definition HRJ (L : Z) (s : vsock) : Prop :=
  match rv_phase (v_recovery s) with
  | Recovering rc =>
      rc_total_retx rc = 0 /\ 0 <= rc_high_rxt rc < M16 /\
      exists k, 1 <= k <= L /\ ss_snd_una (v_segs s) = wadd16 (rc_high_rxt rc) (k mod M16)
  | _ => True
  end.

Lemma HRI_len : forall L (s : vsock), HRI L s -> len_z (ss_segs (v_segs s)) <= L.
Proof.
  intros L s (_ & H). destruct (rv_phase (v_recovery s)); try exact H.
  destruct H as (_ & _ & k & K1 & K2 & _). lia.
Qed.

Lemma HRI_eq : forall L (s s' : vsock),
  v_segs s' = v_segs s -> v_recovery s' = v_recovery s -> HRI L s -> HRI L s'.
Proof. intros L s s' E1 E2. unfold HRI. rewrite E1, E2. auto. Qed.

Lemma HRJ_eq : forall L (s s' : vsock),
  ss_snd_una (v_segs s') = ss_snd_una (v_segs s) -> v_recovery s' = v_recovery s -> HRJ L s -> HRJ L s'.
Proof. intros L s s' E1 E2. unfold HRJ. rewrite E1, E2. auto. Qed.

Lemma HRI_HRJ : forall L (s : vsock), ss_segs (v_segs s) <> [] -> HRI L s -> HRJ L s.
Proof.
  intros L s Hne (_ & H). unfold HRJ. destruct (rv_phase (v_recovery s)); try exact I.
  destruct H as (H1 & H2 & k & K1 & K2 & K3). split; [exact H1|]. split; [exact H2|].
  exists k. split; [|exact K3]. unfold len_z in K2.
  destruct (ss_segs (v_segs s)); [contradiction|]. cbn [length] in K2. lia.
Qed.

Lemma wadd16_wsub16_1 : forall u, 0 <= u < M16 -> wadd16 (wsub16 u 1) (1 mod M16) = u.
Proof. intros u Hu. unfold wadd16, wsub16, M16 in *. lia. Qed.

Lemma pim_ack_HRI : forall L (s1 s2 : vsock) h res,
  pim_ack cci s1 h = Some (s2, res) -> HRI L s1 -> HRI L s2.
Proof.
  intros L s1 s2 h res H (Hu & Hp). destruct (pim_ack_shape cci _ _ _ _ H) as (segs1 & rtte1 & cc3 & rec1 & segs2 & cc4 & Er & Ero & ->).
  destruct (remove_up_to_ack_len _ _ _ _ _ _ Er) as (n & Hn1 & Hn2).
  destruct (recovery_on_ack_dlv cci _ _ _ _ _ _ _ _ _ _ Ero) as [F Eu].
  pose proof (Forall2_len _ _ _ _ _ F) as Hl2.
  pose proof (recovery_on_ack_phase _ _ _ _ _ _ _ _ _ _ Ero) as Hph.
  assert (Hu1 : 0 <= ss_snd_una segs1 < M16) by (rewrite Hn2; apply wadd16_range).
  assert (HL : len_z (ss_segs (v_segs s1)) <= L) by (apply HRI_len; split; assumption).
  unfold HRI. vsimpl_goal. rewrite Eu. split; [exact Hu1|].
  unfold len_z in *. rewrite <- Hl2.
  destruct (rv_phase rec1) as [rp|dd|rc'] eqn:E1; try lia.
  destruct Hph as [Hsame|(T0 & Hh & Hne)].
  - rewrite Hsame in Hp. destruct Hp as (P1 & P2 & k & K1 & K2 & K3).
    split; [exact P1|]. split; [exact P2|]. exists (k + Z.of_nat n). split; [lia|]. split; [lia|].
    rewrite Hn2, K3. apply wadd16_wadd16; lia.
  - split; [exact T0|]. split; [rewrite Hh; apply VSock_Inv.wsub16_range|].
    exists 1. split; [lia|]. split; [lia|]. rewrite Hh. symmetry. apply wadd16_wsub16_1. exact Hu1.
Qed.

(* ================================================================== the first undelivered segment *)
Fixpoint fu_from (i : nat) (l : list seg) : option nat :=
  match l with
  | [] => None
  | g :: r => if sg_delivered g then fu_from (S i) r else Some i
  end.
Definition fu (l : list seg) : option nat := fu_from 0 l.

Lemma fu_from_dview : forall l l' i, map sg_delivered l' = map sg_delivered l -> fu_from i l' = fu_from i l.
Proof.
  induction l as [|x xs IH]; intros [|y ys] i H; cbn [map] in H; try discriminate; [reflexivity|].
  injection H as H1 H2. cbn [fu_from]. rewrite H1. destruct (sg_delivered x); [apply IH; exact H2 | reflexivity].
Qed.

Lemma first_undelivered_fu : forall l i g,
  first_undelivered (map fseg_of l) = Some (i, g) -> fu l = Some i.
Proof.
  intros l i g. unfold first_undelivered, fu. generalize 0%nat.
  induction l as [|x xs IH]; intros n; cbn [map fu_from]; [discriminate|].
  unfold fseg_of at 1. cbn [fg_delivered]. destruct (sg_delivered x).
  - apply IH.
  - intro H; injection H as <- _. reflexivity.
Qed.

Lemma fu_from_iter : forall (u rm : Z) l n i,
  fu_from n l = Some i ->
  exists x rest,
    filter (fun f => negb (sg_delivered (fs_seg f)))
      (map (fun '(i, s) => {| fs_idx := i; fs_seq := wadd16 u (Z.of_nat i mod M16);
                              fs_payload_offset := sg_abs s - rm; fs_seg := s |})
           (enum_from n l)) =
    {| fs_idx := i; fs_seq := wadd16 u (Z.of_nat i mod M16);
       fs_payload_offset := sg_abs x - rm; fs_seg := x |} :: rest.
Proof.
  intros u rm. induction l as [|x xs IH]; intros n i; cbn [fu_from enum_from map filter]; [discriminate|].
  cbn [fs_seg]. destruct (sg_delivered x) eqn:Ed; cbn [negb].
  - apply IH.
  - intro H; injection H as <-. eexists _, _. reflexivity.
Qed.

Lemma fu_iter : forall t i, fu (ss_segs t) = Some i ->
  exists f0 rest, iter_for_sending t None = f0 :: rest /\ fs_idx f0 = i /\
                  fs_seq f0 = wadd16 (ss_snd_una t) (Z.of_nat i mod M16).
Proof.
  intros t i H. unfold iter_for_sending. cbn [skipn].
  destruct (fu_from_iter (ss_snd_una t) (ss_removed t) _ _ _ H) as (x & rest & E).
  eexists _, rest. split; [exact E|]. split; reflexivity.
Qed.

(* ================================================================== send_tx_queue never ENTERS recovery *)
Definition nrR (s s' : vsock) : Prop :=
  is_recovering (v_recovery s) = false -> is_recovering (v_recovery s') = false.
Lemma nrR_refl : forall s, nrR s s. Proof. intros s H; exact H. Qed.
Lemma nrR_trans : forall a b c, nrR a b -> nrR b c -> nrR a c.
Proof. intros a b c H1 H2 H. auto. Qed.
Lemma nrR_same : forall s s' : vsock, v_recovery s' = v_recovery s -> nrR s s'.
Proof. intros s s' E H. rewrite E. exact H. Qed.

Lemma nrR_data_sent : forall (s : vsock) p f, nrR s (sent_state s p f).
Proof. intros s p f. apply nrR_same. apply (qb_data_sent s p f). Qed.

Lemma recovery_loop_nrR : forall items (s : vsock) h mss0 st, stR nrR s (recovery_loop items s h mss0 st).
Proof.
  apply (recovery_loop_R nrR nrR_refl nrR_trans); [| |exact nrR_data_sent]; intros; apply nrR_same; reflexivity.
Qed.

Lemma on_rto_reactions_nrR : forall (s s1 : vsock), on_rto_reactions cci s = Some s1 -> nrR s s1.
Proof.
  intros s s1 H. unfold on_rto_reactions in H. destruct (on_rto_timeout _); [|discriminate].
  injection H as <-. intro K. vsimpl_goal. rewrite recovery_on_rto_not_recovering; exact K.
Qed.

Lemma send_tx_queue_nrR : forall s : vsock, stR nrR s (send_tx_queue cci s).
Proof.
  assert (Ls : forall (s : vsock) l, nrR s (set_sends s l)) by (intros; apply nrR_same; reflexivity).
  assert (Lb : forall s : vsock, nrR s (set_transport_pending s true)) by (intros; apply nrR_same; reflexivity).
  intro s0. apply (stq_rule cci nrR nrR_refl nrR_trans Ls Lb nrR_data_sent).
  - apply (rto_branch_stR cci nrR nrR_refl nrR_trans Ls Lb nrR_data_sent);
      try (intros; apply nrR_same; reflexivity).
    exact on_rto_reactions_nrR.
  - (* already recovering: nothing to show *)
    intros s h. unfold rec_branch. destruct (rv_phase (v_recovery s)) eqn:Ep; try apply nrR_refl.
    assert (Hrec : is_recovering (v_recovery s) = true) by (unfold is_recovering; rewrite Ep; reflexivity).
    match goal with |- stR nrR s ?m => destruct m as [sa x|sa e|] end; cbn [stR]; auto; intro K; congruence.
  - intros s q segs' ss' _. apply nrR_same. reflexivity.
Qed.

(* ================================================================== the fast retransmission *)
Lemma rec_items_head : forall (s : vsock) rc f0 r0,
  iter_for_sending (v_segs s) None = f0 :: r0 ->
  0 <= ss_sack_depth (v_segs s) ->
  seq_le (fs_seq f0) (rc_high_rxt rc) = false ->
  seq_le (fs_seq f0) (rc_recovery_point rc) = true ->
  exists rest, rec_items s rc = f0 :: rest.
Proof.
  intros s rc f0 r0 Hit Hd Hh Hr. unfold rec_items. rewrite Hit.
  replace (Z.to_nat (ss_sack_depth (v_segs s) + 1)) with (S (Z.to_nat (ss_sack_depth (v_segs s)))) by lia.
  cbn [firstn skip_while]. rewrite Hh. cbn [take_while]. rewrite Hr. eexists. reflexivity.
Qed.

(* ================================================================== send_tx_queue keeps the recovery point *)
Definition rpR (s s' : vsock) : Prop :=
  (is_recovering (v_recovery s) = false -> is_recovering (v_recovery s') = false) /\
  (forall rc rc', rv_phase (v_recovery s) = Recovering rc -> rv_phase (v_recovery s') = Recovering rc' ->
                  rc_recovery_point rc' = rc_recovery_point rc).
Lemma rpR_refl : forall s, rpR s s.
Proof. intros s. split; [auto|]. intros rc rc' H1 H2. rewrite H1 in H2. injection H2 as <-. reflexivity. Qed.
Lemma rpR_trans : forall a b c, rpR a b -> rpR b c -> rpR a c.
Proof.
  intros a b c [A1 A2] [B1 B2]. split; [auto|]. intros rc rc' Ha Hc.
  destruct (rv_phase (v_recovery b)) as [rp|d|rcb] eqn:Eb.
  - assert (K : is_recovering (v_recovery b) = false) by (unfold is_recovering; rewrite Eb; reflexivity).
    apply B1 in K. unfold is_recovering in K. rewrite Hc in K. discriminate.
  - assert (K : is_recovering (v_recovery b) = false) by (unfold is_recovering; rewrite Eb; reflexivity).
    apply B1 in K. unfold is_recovering in K. rewrite Hc in K. discriminate.
  - rewrite (B2 rcb rc' eq_refl Hc). apply A2; [assumption | reflexivity].
Qed.
Lemma rpR_same : forall s s' : vsock, v_recovery s' = v_recovery s -> rpR s s'.
Proof. intros s s' E. unfold rpR. rewrite E. apply rpR_refl. Qed.
Lemma nrR_rpR : forall s s' : vsock, nrR s s' -> is_recovering (v_recovery s') = false -> rpR s s'.
Proof.
  intros s s' H K. split; [exact H|]. intros rc rc' _ H2. unfold is_recovering in K. rewrite H2 in K. discriminate.
Qed.

Lemma rpR_data_sent : forall (s : vsock) p f, rpR s (sent_state s p f).
Proof. intros s p f. apply rpR_same. apply (qb_data_sent s p f). Qed.

Lemma recovery_loop_rpR : forall items (s : vsock) h mss0 st, stR rpR s (recovery_loop items s h mss0 st).
Proof.
  apply (recovery_loop_R rpR rpR_refl rpR_trans); [| |exact rpR_data_sent]; intros; apply rpR_same; reflexivity.
Qed.

Lemma on_rto_reactions_rpR : forall (s s1 : vsock), on_rto_reactions cci s = Some s1 -> rpR s s1.
Proof.
  intros s s1 H. unfold on_rto_reactions in H. destruct (on_rto_timeout _); [|discriminate].
  injection H as <-. apply nrR_rpR.
  - intro K. vsimpl_goal. rewrite recovery_on_rto_not_recovering; exact K.
  - vsimpl_goal. unfold is_recovering, recovery_on_rto_timeout. destruct (rv_phase (v_recovery s)) eqn:E;
      cbn [rv_phase]; rewrite ?E; reflexivity.
Qed.

Lemma set_recovering_rpR : forall (s : vsock) rc rc1,
  rv_phase (v_recovery s) = Recovering rc -> rc_recovery_point rc1 = rc_recovery_point rc ->
  rpR s (set_recovering s rc1).
Proof.
  intros s rc rc1 E H. split.
  - intro K. unfold is_recovering in K. rewrite E in K. discriminate.
  - intros rc0 rc' H1 H2. rewrite E in H1. injection H1 as <-. unfold set_recovering in H2.
    cbn [v_recovery set_recovery rv_phase] in H2. injection H2 as <-. exact H.
Qed.

Lemma send_tx_queue_rpR : forall s : vsock, stR rpR s (send_tx_queue cci s).
Proof.
  assert (Ls : forall (s : vsock) l, rpR s (set_sends s l)) by (intros; apply rpR_same; reflexivity).
  assert (Lb : forall s : vsock, rpR s (set_transport_pending s true)) by (intros; apply rpR_same; reflexivity).
  intro s0. apply (stq_rule cci rpR rpR_refl rpR_trans Ls Lb rpR_data_sent).
  - apply (rto_branch_stR cci rpR rpR_refl rpR_trans Ls Lb rpR_data_sent);
      try (intros; apply rpR_same; reflexivity).
    exact on_rto_reactions_rpR.
  - (* the loop keeps the recovery record; what is written afterwards keeps its point *)
    intros s1 h. unfold rec_branch. destruct (rv_phase (v_recovery s1)) as [rp|d|rc] eqn:Ep; try apply rpR_refl.
    assert (Hfin : forall (sx : vsock) rcx, rc_recovery_point rcx = rc_recovery_point rc ->
              rpR s1 (set_recovering sx rcx)).
    { intros sx rcx Hx. split.
      - intro K. unfold is_recovering in K. rewrite Ep in K. discriminate.
      - intros rc0 rc' H1 H2. rewrite Ep in H1. injection H1 as <-. unfold set_recovering in H2.
        cbn [v_recovery set_recovery rv_phase] in H2. injection H2 as <-. exact Hx. }
    assert (Hfin2 : forall (sx : vsock) rcx tp, rc_recovery_point rcx = rc_recovery_point rc ->
              rpR s1 (set_t_recovery_pipe (set_recovering sx rcx) tp)).
    { intros sx rcx tp Hx. eapply rpR_trans; [apply (Hfin sx rcx Hx) | apply rpR_same; reflexivity]. }
    pose proof (recovery_loop_rpR (rec_items s1 rc) s1 h (mss (v_ss s1)) (rec_st0 rc)) as Hl.
    destruct (recovery_loop _ _ _ _ _) as [s2 [st early]|s2 e|]; cbn [sbind stR] in *; [|exact Hl|exact I].
    unfold rec_after. cbv beta iota zeta.
    destruct early; [apply Hfin; reflexivity|].
    destruct (_ <? _); [destruct (rc_recalc rc); [|destruct (0 <? _)]|];
      (destruct (our_fin_if_unacked _); [destruct (_ =? _)|]; cbn [stR];
       first [apply Hfin; reflexivity | apply Hfin2; reflexivity]).
  - intros s q segs' ss' _. apply rpR_same. reflexivity.
Qed.

(* the first step of the recovery arm on a phase that has retransmitted nothing: the head of its items
   is transmitted, or the transport blocks and the arm returns at once with the flag set *)
Lemma rec_branch_first : forall (s s2 : vsock) h rc f0 rest ret,
  rv_phase (v_recovery s) = Recovering rc -> rc_total_retx rc = 0 -> rec_items s rc = f0 :: rest ->
  rec_branch s h = SOk s2 ret ->
  (exists s1, send_data s h f0 = SOk s1 SdSent) \/
  (exists s1, send_data s h f0 = SOk s1 SdPending /\ ret = true /\
              v_transport_pending s2 = v_transport_pending s1).
Proof.
  intros s s2 h rc f0 rest ret Hph Htot Hit Erb. unfold rec_branch in Erb. rewrite Hph, Hit in Erb.
  cbn [recovery_loop] in Erb. unfold rec_st0 in Erb. cbn [rl_total] in Erb. rewrite Htot in Erb.
  cbn [Z.eqb orb negb Z.ltb Z.compare andb] in Erb.
  destruct (send_data s h f0) as [s1 [| |]|s1 e|]; cbn [sbind] in Erb; try discriminate.
  - left. exists s1. reflexivity.
  - right. exists s1. unfold rec_after in Erb. injection Erb as <- <-. auto.
Qed.

Theorem stq_fast : forall (s s' : vsock) u rc f0 rest,
  send_tx_queue cci s = SOk s' u -> ti s ->
  v_transport_pending s = false -> v_transport_pending s' = false -> v_rto_retransmissions s' = 0 ->
  rv_phase (v_recovery s) = Recovering rc -> rc_total_retx rc = 0 ->
  rec_items s rc = f0 :: rest ->
  (exists more, v_out s' = more ++ data_pkt s (outgoing_header s) f0 :: v_out s) /\
  (forall rc', rv_phase (v_recovery s') = Recovering rc' -> rc_recovery_point rc' = rc_recovery_point rc).
Proof.
  intros s s' u rc f0 rest H Hti Hp Hp' Hc' Hph Htot Hit.
  split.
  2:{ pose proof (send_tx_queue_rpR s) as K. rewrite H in K. intros rc' E. exact (proj2 K rc rc' Hph E). }
  assert (Hin : In f0 (iter_for_sending (v_segs s) None))
    by (apply (rec_items_incl s rc); rewrite Hit; left; reflexivity).
  assert (Hs : step_st (send_tx_queue cci s) = Some s') by (rewrite H; reflexivity).
  assert (Hc0 : 0 <= v_rto_retransmissions s) by apply Hti.
  pose proof H as H0. rewrite send_tx_queue_eq, Hp in H0.
  set (h := outgoing_header s) in *.
  (* the retransmission timer has not expired: the RTO branch would have counted, or blocked *)
  assert (Hexp : timer_expired (v_t_retransmit s) (v_now s) = false).
  { destruct (timer_expired (v_t_retransmit s) (v_now s)) eqn:Ex; [exfalso|reflexivity].
    unfold rto_branch in H0. rewrite Ex in H0.
    destruct (iter_for_sending (v_segs s) None) as [|f l] eqn:Ei; [destruct Hin|].
    pose proof (send_data_spec s h f) as Hd.
    destruct (send_data s h f) as [s1 [| |]|s1 e|]; cbn [sbind] in H0; try discriminate.
    - cbv zeta in H0.
      match type of H0 with sbind (match ?o with _ => _ end) _ = _ => destruct o as [s2|] eqn:E end;
        cbn [sbind] in H0; [|discriminate].
      unfold after_rto_k in H0.
      assert (Hs2 : 0 <= v_rto_retransmissions s2).
      { destruct Hd as ((_ & _ & _ & _ & F5 & _) & _).
        destruct (negb _); [|injection E as <-; lia].
        apply on_rto_reactions_spec in E. destruct E as (_ & _ & _ & _ & _ & _ & _ & R8 & _). lia. }
      match type of H0 with (if 0 <? ?c then _ else _) = _ =>
        replace (0 <? c) with true in H0 by (symmetry; apply Z.ltb_lt; vsimpl_goal; lia) end.
      injection H0 as <-. cbn [v_rto_retransmissions set_rto_retransmissions] in Hc'. vsimpl. lia.
    - unfold after_rto_k in H0. injection H0 as <-. destruct Hd as (_ & Ht). congruence. }
  assert (Hcnt : v_rto_retransmissions s = 0).
  { unfold rto_branch in H0. rewrite Hexp in H0. cbn [sbind] in H0. unfold after_rto_k in H0.
    destruct (Z.ltb_spec 0 (v_rto_retransmissions s)); [|lia]. injection H0 as <-. lia. }
  assert (Hne : ss_segs (v_segs s) <> []).
  { intro K. unfold iter_for_sending in Hin. rewrite K in Hin. destruct Hin. }
  (* the first item went out *)
  unfold rto_branch in H0. rewrite Hexp in H0. cbn [sbind] in H0. unfold after_rto_k in H0.
  rewrite Hcnt in H0. cbn [Z.ltb Z.compare] in H0.
  destruct (ss_segs (v_segs s)) as [|g0 gs] eqn:Esg; [congruence|].
  destruct (rec_branch s h) as [s2 ret|s2 e|] eqn:Erb; cbn [sbind] in H0; try discriminate.
  destruct (rec_branch_first s s2 h rc f0 rest ret Hph Htot Hit Erb) as [[s1 Esd]|(s1 & Esd & -> & Etp)].
  - (* sent *)
    rewrite <- Esg in Hne.
    exact (proj2 (fast_retransmit cci s s' rc f0 rest s1 Hp Hexp Hcnt Hne Hph Htot Hit Esd Hs)).
  - (* blocked: the flag is set and nothing resets it *)
    exfalso. injection H0 as <-. pose proof (send_data_spec s h f0) as Hd. rewrite Esd in Hd.
    destruct Hd as (_ & Ht). congruence.
Qed.

(* ================================================================== the strict regime: the shape of the
   table (delivered flags, left edge, SACK depth) is what it was when send_tx_queue started *)
Definition tshape (t : segments) : list bool * Z * Z :=
  (map sg_delivered (ss_segs t), ss_snd_una t, ss_sack_depth t).

Lemma on_sent_tshape : forall t i now, tshape (on_sent t i now) = tshape t.
Proof.
  intros t i now. unfold tshape, on_sent, Segments.set_segs. cbn [ss_segs ss_snd_una ss_sack_depth].
  rewrite map_update_nth; [reflexivity|]. intro x. reflexivity.
Qed.

Lemma stq_strict_tshape : forall (s s' : vsock) u,
  EF s -> send_tx_queue cci s = SOk s' u ->
  tshape (v_segs s') = tshape (v_segs s) /\ v_restart s' = v_restart s.
Proof.
  intros s s' u HE H.
  pose proof (send_tx_queue_rule cci
                (fun a : vsock => EF a /\ (tshape (v_segs a) = tshape (v_segs s) /\ v_restart a = v_restart s))
                (fun _ => False) (fun _ _ => True)) as R.
  assert (K : stI (fun a : vsock => EF a /\ (tshape (v_segs a) = tshape (v_segs s) /\ v_restart a = v_restart s))
                  (fun _ _ => True) (send_tx_queue cci s)).
  { apply R; auto.
    - intros a b F [K1 [K2 K3]]. split; [eapply EF_fpr; eauto|]. destruct F as (E1 & _ & _ & _ & _ & E6 & _).
      rewrite E1, E6. auto.
    - intros a h f a1 [K _] E. exact (proj2 (EF_send a h f a1 _ K E) eq_refl).
    - intros a h f a1 n rest [K1 [K2 K3]] _ E.
      pose proof (send_data_spec a h f) as Hd. rewrite E in Hd. destruct Hd as (Hf & _ & Hsg & _).
      destruct Hf as (_ & _ & _ & _ & _ & _ & _ & _ & _ & _ & F11 & _).
      split; [exact (proj1 (EF_send a h f a1 _ K1 E))|].
      rewrite Hsg, on_sent_tshape. split; [exact K2 | congruence].
    - intros a segs' q ss' []. }
  rewrite H in K. cbn [stI] in K. apply K.
Qed.

Lemma split_snd_una : forall s : vsock,
  stR (fun a b : vsock => ss_snd_una (v_segs b) = ss_snd_una (v_segs a)) s (split_tx_queue_into_segments cci s).
Proof.
  apply split_stR; try (intros; first [reflexivity | congruence]).
  - intros s segs1 [->|(init & x & _ & _ & ->)]; reflexivity.
  - intros s rem ss' segs' rem' E.
    exact (segment_loop_kept (fun t => ss_snd_una t = ss_snd_una (v_segs s)) (fun _ _ _ H => H)
             _ _ _ _ _ _ _ _ _ E eq_refl).
Qed.

(* ================================================================== the whole poll, strict regime *)
Section Fast.
Variable L : Z.

(* after send_tx_queue: in a state that shows a Recovering phase, no RTO mode and a writable transport, the
   first undelivered segment -- if it lies within the recovery point -- is among the datagrams *)
Definition FC (a : vsock) : Prop :=
  v_transport_pending a = false -> v_rto_retransmissions a = 0 ->
  forall rc' i, rv_phase (v_recovery a) = Recovering rc' -> fu (ss_segs (v_segs a)) = Some i ->
    0 <= ss_sack_depth (v_segs a) -> L + Z.of_nat i < 1024 ->
    seq_le (wadd16 (ss_snd_una (v_segs a)) (Z.of_nat i mod M16)) (rc_recovery_point rc') = true ->
    exists p, In p (v_out a) /\ ch_type (p_hdr p) = ST_DATA /\
              ch_seq (p_hdr p) = wadd16 (ss_snd_una (v_segs a)) (Z.of_nat i mod M16).

Definition HRK (s : vsock) : Prop :=
  match rv_phase (v_recovery s) with
  | Recovering rc =>
      rc_total_retx rc = 0 /\ 0 <= rc_high_rxt rc < M16 /\
      exists k, 1 <= k <= L + 1 /\ ss_snd_una (v_segs s) = wadd16 (rc_high_rxt rc) (k mod M16)
  | _ => True
  end.

Lemma HRI_HRK : forall s : vsock, HRI L s -> HRK s.
Proof.
  intros s (_ & H). unfold HRK. destruct (rv_phase (v_recovery s)); try exact I.
  destruct H as (H1 & H2 & k & K1 & K2 & K3). split; [exact H1|]. split; [exact H2|].
  exists k. split; [|exact K3]. unfold len_z in K2. lia.
Qed.

Lemma FC_fpr : forall a a' : vsock,
  fpr a a' -> (v_transport_pending a = true -> v_transport_pending a' = true) -> FC a -> FC a'.
Proof.
  intros a a' (E1 & _ & _ & _ & _ & _ & _ & (l & E8 & _) & _ & E11 & E12 & _) Htp K.
  unfold FC. rewrite E1, E11, E12. intros T C rc' i Hp Hf Hd Hl Hs.
  assert (Ta : v_transport_pending a = false) by (destruct (v_transport_pending a); [rewrite Htp in T; auto | reflexivity]).
  destruct (K Ta C rc' i Hp Hf Hd Hl Hs) as (p & P1 & P2 & P3).
  exists p. split; [rewrite E8; apply in_or_app; right; exact P1 | auto].
Qed.

Definition FA (a : vsock) : Prop := ti a /\ IA a /\ HRI L a.
Definition FB (a : vsock) : Prop := ti a /\ IA a /\ HRK a.

Lemma pim_FA : forall s : vsock,
  IA s /\ HRI L s -> spI (fun a => IA a /\ HRI L a) (process_all_incoming_messages cci s).
Proof.
  intros s Hi. apply pim_rule; try exact Hi.
  - intros a b F [K1 K2]. split; [eapply IA_fpr; eauto|].
    destruct F as (E1 & _ & _ & _ & _ & _ & _ & _ & _ & _ & E12 & _). eapply HRI_eq; eauto.
  - intros a l [K1 K2]. split; [eapply IA_skr; [|exact K1]; skr_leaf|].
    eapply HRI_eq; [| |exact K2]; reflexivity.
  - intros a c tr ti0 [K1 K2]. split; [eapply IA_skr; [|exact K1]; skr_leaf|].
    eapply HRI_eq; [| |exact K2]; reflexivity.
  - intros s1 s2 h res [K1 K2] E. split; [eapply IA_skr; [eapply pim_ack_skr; exact E | exact K1]|].
    eapply pim_ack_HRI; eauto.
  - intros s3 rc hd rtt now segs' p recalc [K1 K2] Eph E.
    split; [eapply IA_skr; [|exact K1]; unfold set_recovering; skr_leaf|].
    destruct (calc_pipe_dlv _ _ _ _ _ _ _ _ E) as [F Eu]. pose proof (Forall2_len _ _ _ _ _ F) as Hl.
    destruct K2 as (Hu & K2). rewrite Eph in K2. destruct K2 as (T0 & Hh & k & Q1 & Q2 & Q3).
    unfold HRI, set_recovering. vsimpl_goal. cbn [rv_phase rc_total_retx rc_high_rxt].
    rewrite Eu. split; [exact Hu|]. split; [exact T0|]. split; [exact Hh|].
    exists k. unfold len_z in *. rewrite <- Hl. auto.
Qed.

Theorem poll_fast_strict : forall (s s' : vsock),
  LB 0 s -> ti s -> EF s -> is_recovering (v_recovery s) = false ->
  len_z (ss_segs (v_segs s)) <= L ->
  poll cci s = (s', PollPending) -> FC s'.
Proof.
  intros s s' HL Hti HE Hnr Hlen H.
  set (A0 := fun a : vsock => ti a /\ EF a /\ v_out a = [] /\ HRI L a).
  assert (Hctl : forall X (a : vsock) (m : step X), FA a -> sfp a m -> stR tiR a m ->
             stH FC (fun _ _ => True) FA m).
  { intros X a m (T & K & Hh) F Tt. destruct m as [a' x|a' e|]; cbn [sfp stR stH] in *; auto.
    split; [intros Tp Tf; congruence|]. intros _. split; [exact (Tt T)|]. split; [eapply IA_fpr; eauto|].
    destruct F as (E1 & _ & _ & _ & _ & _ & _ & _ & _ & _ & E12 & _). eapply HRI_eq; eauto. }
  assert (Hcc : forall X (a : vsock) (m : step X), FC a -> sfp a m -> stR qb a m ->
             stH FC (fun _ _ => True) FC m).
  { intros X a m K F Q. destruct m as [a' x|a' e|]; cbn [sfp stR stH] in *; auto.
    assert (K' : FC a').
    { eapply FC_fpr; [exact F| |exact K]. destruct Q as (_ & _ & _ & _ & _ & _ & _ & _ & _ & Q10 & _). exact Q10. }
    split; intros _; exact K'. }
  assert (HR : resH A0 FC FC (fun _ _ => True) s' PollPending).
  { apply (poll_H cci A0 FA FA FB FC FC FC (fun _ _ => True)) with (s := s); try exact H.
    - intros a (T & E & O & Hh). split; [apply (poll_start_ti a T)|].
      split; [|eapply HRI_eq; [| |exact Hh]; reflexivity].
      split; [exact E|]. split; [reflexivity|]. split; [reflexivity|].
      change (v_out (poll_start a)) with (v_out a). rewrite O. constructor.
    - intros a K _. apply (Hctl _ a); [exact K | apply maybe_send_syn_ack_fpr | apply maybe_send_syn_ack_ti].
    - intros a K _. apply (Hctl _ a); [exact K | apply send_ack_fpr | apply send_ack_ti].
    - intros a (T & K & Hh) _. pose proof (process_all_incoming_messages_ti cci a) as T'.
      pose proof (pim_FA a (conj K Hh)) as PI.
      destruct (process_all_incoming_messages cci a) as [a' x|a' e|]; cbn [stR spI stH] in *; auto.
      split; [intros Tp Tf; congruence|]. intros _. split; [exact (T' T) | exact PI].
    - intros a rx1 fb w (T & K & Hh) _ _. split; [apply (rx_flush_ti a rx1 (rx_wakes w) T)|].
      split; [eapply IA_fpr; [|exact K]; unfold add_wakes; fpr_leaf|].
      apply HRI_HRK. eapply HRI_eq; [| |exact Hh]; reflexivity.
    - auto.
    - intros a (T & K & Hh) _. pose proof (split_tx_queue_into_segments_ti cci a) as T'.
      pose proof (split_skr cci a) as PS. pose proof (split_tx_queue_into_segments_qb cci a) as PQ.
      pose proof (split_snd_una a) as PU.
      destruct (split_tx_queue_into_segments cci a) as [a' x|a' e|]; cbn [stR stB] in *; auto.
      split; [exact (T' T)|]. split; [eapply IA_skr; eauto|].
      destruct PQ as (_ & _ & Q3 & _). unfold HRK in *. rewrite Q3, PU. exact Hh.
    - (* send_tx_queue *)
      intros a (T & (K1 & K2 & K3 & K4) & Hh) Ta Ra.
      pose proof (send_tx_queue_rpR a) as PR. pose proof (stq_fast a) as PF.
      pose proof (stq_strict_tshape a) as PS.
      destruct (send_tx_queue cci a) as [a' x|a' e|] eqn:Es; cbn [stR stQ] in *; auto.
      destruct (PS a' x K1 eq_refl) as [PS1 PS2]. unfold tshape in PS1. injection PS1 as S1 S2 S3.
      assert (KF : FC a').
      { intros Tp C rc' i Hp Hf Hd Hl Hs.
        destruct PR as [PR1 PR2].
        destruct (rv_phase (v_recovery a)) as [rp|dd|rc] eqn:Ea.
        { assert (Kn : is_recovering (v_recovery a) = false) by (unfold is_recovering; rewrite Ea; reflexivity).
          apply PR1 in Kn. unfold is_recovering in Kn. rewrite Hp in Kn. discriminate. }
        { assert (Kn : is_recovering (v_recovery a) = false) by (unfold is_recovering; rewrite Ea; reflexivity).
          apply PR1 in Kn. unfold is_recovering in Kn. rewrite Hp in Kn. discriminate. }
        unfold HRK in Hh. rewrite Ea in Hh. destruct Hh as (T0 & Hhr & k & Q1 & Q2).
        pose proof (PR2 rc rc' eq_refl Hp) as Hrp.
        assert (Hfa : fu (ss_segs (v_segs a)) = Some i).
        { unfold fu in *. rewrite <- (fu_from_dview _ _ 0%nat S1). exact Hf. }
        destruct (fu_iter _ _ Hfa) as (f0 & r0 & Hit & Hidx & Hseq).
        rewrite S2, Hrp in Hs. rewrite S3 in Hd. rewrite S2.
        assert (Hhigh : seq_le (fs_seq f0) (rc_high_rxt rc) = false).
        { rewrite Hseq, Q2. rewrite wadd16_wadd16 by lia. unfold wadd16, seq_le, seq_sub.
          rewrite (Z.mod_small (k + Z.of_nat i)) by (unfold M16; lia).
          rewrite offset_true_distance; unfold WRAP_TOLERANCE; try lia; try (apply Z.leb_gt; lia). }
        rewrite <- Hseq in Hs.
        destruct (rec_items_head a rc f0 r0 Hit Hd Hhigh Hs) as (rest & Hri).
        destruct (PF a' x rc f0 rest eq_refl T Ta Tp C eq_refl T0 Hri) as [(more & Ho) _].
        exists (data_pkt a (outgoing_header a) f0). split; [rewrite Ho; apply in_or_app; right; left; reflexivity|].
        split; [reflexivity|]. unfold data_pkt, data_hdr. cbn [p_hdr ch_seq]. exact Hseq. }
      split; [intro Rb; congruence|]. split; intros _ _; exact KF.
    - intros a K Ta. eapply FC_fpr; [apply transition_fpr| |exact K]. intro Kp. congruence.
    - intros a K _. apply (Hcc _ a); [exact K | apply maybe_send_fin_fpr | apply maybe_send_fin_qb].
    - intros a K _. apply (Hcc _ a); [exact K | apply maybe_send_ack_fpr | apply maybe_send_ack_qb].
    - split; [exact Hti|]. split; [exact HE|]. split; [reflexivity|].
      split; [apply HL|]. unfold is_recovering in Hnr.
      change (v_recovery (poll_init s)) with (v_recovery s). change (v_segs (poll_init s)) with (v_segs s).
      destruct (rv_phase (v_recovery s)); [exact Hlen | exact Hlen | discriminate]. }
  cbn [resH] in HR. destruct HR as [[Tp _]|(sb & K & _ & _ & _ & ->)].
  - intros T. congruence.
  - eapply FC_fpr; [apply poll_tail_fpr| |exact K].
    destruct (poll_tail_fields sb) as (_ & _ & _ & _ & _ & _ & _ & _ & _ & _ & F11 & _). intro Kp. congruence.
Qed.

End Fast.

End WithCC.
