(* Reusable Hoare-style lemmas about the functions of Conn/VSock.v, written for C17 / C03:
   - `pframe`: the fields no function of a poll modifies (options, ids, clock, EMSGSIZE limit)
     and the append-only outputs (datagrams, wake-ups), proved for every function up to `poll`;
   - `bail` / `pend` inversion, what a Ready result of `poll_body` / `poll_loop` looks like;
   - `send_control_packet` / `send_ack` / `maybe_send_fin` / `just_before_death` exact shapes. *)
From Utp Require Import Base.Prelude Wire.SeqNr Wire.Header Rtt.Rtte Mtu.SegSizes Rx.Rx Tx.Ring
  Tx.Segments Conn.Recovery Conn.Msg Conn.VSockRec Conn.VSock Conn.VSockRun.
From Utp Require Conn.VSock_LemmasIn Conn.VSock_LemmasReach.

Arguments SOk {CC A}. Arguments SErr {CC A}. Arguments SPanic {CC A}.

Section WithCC.
Context {CC : Type} (cci : cc_iface CC).
Notation vsock := (vsock CC).

(* ------------------------------------------------------------------ the poll frame *)
(* once a SYN-ACK has been sent, nothing but maybe_send_syn_ack touches its counter and timer *)
Definition syn_rel (s s' : vsock) : Prop :=
  match v_state s' with
  | SynAckSent k => v_state s = SynAckSent k /\ v_t_syn_ack_resend s' = v_t_syn_ack_resend s
  | SynReceived => v_state s = SynReceived
  | _ => True
  end.

Definition pframe0 (s s' : vsock) : Prop :=
  v_opts s' = v_opts s /\ v_conn_id_send s' = v_conn_id_send s /\
  v_socket_created s' = v_socket_created s /\ v_env_now s' = v_env_now s /\
  v_emsg_limit s' = v_emsg_limit s /\ v_inbox_closed s' = v_inbox_closed s /\
  (exists l, v_out s' = l ++ v_out s) /\ (exists w, v_wakes s' = w ++ v_wakes s).

Definition pframe (s s' : vsock) : Prop := pframe0 s s' /\ syn_rel s s'.

Lemma pframe0_refl s : pframe0 s s.
Proof. unfold pframe0. repeat split; try reflexivity; exists []; reflexivity. Qed.

Lemma pframe0_trans a b c : pframe0 a b -> pframe0 b c -> pframe0 a c.
Proof.
  unfold pframe0. intros (A1 & A2 & A3 & A4 & A5 & A6 & (l1 & A7) & (w1 & A8))
                        (B1 & B2 & B3 & B4 & B5 & B6 & (l2 & B7) & (w2 & B8)).
  repeat split; try congruence.
  - exists (l2 ++ l1). rewrite B7, A7, app_assoc. reflexivity.
  - exists (w2 ++ w1). rewrite B8, A8, app_assoc. reflexivity.
Qed.

Lemma syn_rel_refl s : syn_rel s s.
Proof. unfold syn_rel. destruct (v_state s); auto. Qed.

Lemma syn_rel_trans a b c : syn_rel a b -> syn_rel b c -> syn_rel a c.
Proof.
  unfold syn_rel. intros H1 H2. destruct (v_state c); auto.
  - rewrite H2 in H1. exact H1.
  - destruct H2 as (H2 & H3). rewrite H2 in H1. destruct H1 as (H1 & H4). split; congruence.
Qed.

Lemma pframe_refl s : pframe s s.
Proof. split; [apply pframe0_refl|apply syn_rel_refl]. Qed.

Lemma pframe_trans a b c : pframe a b -> pframe b c -> pframe a c.
Proof. intros (A & B) (C & D). split; [eapply pframe0_trans|eapply syn_rel_trans]; eauto. Qed.

Definition sframe {A} (s : vsock) (m : step A) : Prop :=
  match m with SOk s' _ => pframe s s' | SErr s' _ => pframe s s' | SPanic => True end.

(* solves `pframe s (setters ... s)` where only non-framed fields are set *)
Ltac pf_triv :=
  unfold pframe, pframe0, syn_rel; vsimpl; repeat split; try reflexivity;
  try (exists []; reflexivity); try (eexists; reflexivity);
  try (match goal with |- match v_state ?s with _ => _ end => destruct (v_state s); auto end).

Ltac abs_as t F z := revert F; generalize t; intros z F.

Lemma pframe_add_wakes s w : pframe s (add_wakes s w).
Proof. unfold add_wakes. split; [|exact (syn_rel_refl s)]. unfold pframe0; vsimpl. repeat split; try reflexivity.
  - exists []; reflexivity. - exists (rev w); reflexivity. Qed.

Lemma next_send_frame s size s1 o :
  next_send s size = (s1, o) ->
  v_opts s1 = v_opts s /\ v_out s1 = v_out s /\ v_wakes s1 = v_wakes s /\ pframe s s1.
Proof.
  unfold next_send. intro H.
  assert (G : forall s1', (s1' = s \/ exists r, s1' = set_sends s r) ->
     v_opts s1' = v_opts s /\ v_out s1' = v_out s /\ v_wakes s1' = v_wakes s /\ pframe s s1').
  { intros s1' [->|[r ->]]; vsimpl; repeat split; try reflexivity; try apply pframe_refl; pf_triv. }
  destruct (v_sends s) as [|o0 r] eqn:Es.
  - destruct (v_emsg_limit s) as [m|]; [destruct (m <? size)|]; injection H as <- <-; apply G; auto.
  - destruct o0; [destruct (v_emsg_limit s) as [m|]; [destruct (m <? size)|]|..];
      injection H as <- <-; apply G; right; eexists; reflexivity.
Qed.

(* ---- pframe contains every elementary update the functions of a poll perform: the frames of the
   functions are instances of the walks of VSock_LemmasReach (Section StepRel).  The updates that set
   the connection state come with their own lemmas (the table, the transition to FinWait1). ---- *)
(* an update that only applies setters, emits one datagram or appends wake-ups *)
Ltac pf_leaf :=
  intros; unfold on_packet_sent, emit, add_wakes, set_recovering; pf_triv; try (eexists [_]; reflexivity).

Lemma pframe_data_sent s p f : pframe s (VSock_LemmasTx.sent_state s p f).
Proof. unfold VSock_LemmasTx.sent_state. destruct (seq_gt _ _); try destruct (seq_gt _ _); pf_leaf. Qed.

Lemma pframe_probe_given_up s segs1 rw ps : pframe s (VSock_LemmasReach.probe_given_up s segs1 rw ps).
Proof. unfold VSock_LemmasReach.probe_given_up. destruct (seq_gt _ _); pf_leaf. Qed.

Lemma pframe_pim_ack s1 h s2 res : VSock_LemmasIn.pim_ack cci s1 h = Some (s2, res) -> pframe s1 s2.
Proof. intro E. destruct (VSock_LemmasReach.pim_ack_shape cci _ _ _ _ E) as (? & ? & ? & ? & ? & ->). pf_leaf. Qed.

Lemma on_rto_reactions_frame s s' : on_rto_reactions cci s = Some s' -> pframe s s'.
Proof. unfold on_rto_reactions. destruct (on_rto_timeout _); [|discriminate].
  intro H; injection H as <-. pf_triv. Qed.

Lemma mark_both_closed_frame s : pframe s (mark_both_closed s).
Proof.
  unfold mark_both_closed. destruct (rx_mark_vsock_closed _) as [rx1 w1].
  destruct (mark_vsock_closed _) as [tx1 w2]. pf_leaf.
Qed.

Lemma transition_frame s : pframe s (transition_to_fin_wait_1 s).
Proof. unfold transition_to_fin_wait_1. destruct (v_state s); try apply pframe_refl; pf_triv. Qed.

Lemma restart_inact_frame s : pframe s (restart_remote_inactivity_timer s).
Proof. unfold restart_remote_inactivity_timer. pf_triv. Qed.

Definition tframe (s : vsock) (r : table_res) : Prop :=
  match r with TblDrop s' | TblContinue s' => pframe s s' | TblErr s' _ => pframe s s' end.

Lemma state_table_frame s h : tframe s (state_table s h).
Proof.
  unfold state_table, restart_remote_inactivity_timer.
  destruct (ch_type h); destruct (v_state s); cbn [tframe];
    repeat match goal with |- context [if ?c then _ else _] => destruct c end;
    cbn [tframe]; try apply pframe_refl; pf_triv.
Qed.

Lemma arm_in_frame s d : pframe s (arm_in s d).
Proof. unfold arm_in. destruct (_ <=? _); pf_leaf. Qed.

(* a hypothesis of a walk: one of the lemmas above, or an update for pf_leaf *)
Ltac pf_inst :=
  first [ exact state_table_frame | exact transition_frame | exact mark_both_closed_frame
        | exact on_rto_reactions_frame | exact arm_in_frame | exact pframe_data_sent
        | exact pframe_pim_ack | (intros; apply pframe_probe_given_up) | pf_leaf ].

Lemma send_control_packet_frame s h : sframe s (send_control_packet s h).
Proof. apply (VSock_LemmasReach.send_control_packet_R pframe pframe_refl pframe_trans); pf_inst. Qed.

Lemma send_ack_frame s : sframe s (send_ack s).
Proof. unfold send_ack. apply send_control_packet_frame. Qed.

Lemma maybe_send_fin_frame s : sframe s (maybe_send_fin s).
Proof. apply (VSock_LemmasReach.maybe_send_fin_R pframe pframe_refl pframe_trans); pf_inst. Qed.

Lemma send_data_frame s h f : sframe s (send_data s h f).
Proof. apply (VSock_LemmasReach.send_data_R pframe pframe_refl pframe_trans); pf_inst. Qed.

Lemma recovery_loop_frame : forall items s h mss0 st, sframe s (recovery_loop items s h mss0 st).
Proof. apply (VSock_LemmasReach.recovery_loop_R pframe pframe_refl pframe_trans); pf_inst. Qed.

Lemma new_data_loop_frame : forall items s h rem, sframe s (new_data_loop items s h rem).
Proof. apply (VSock_LemmasReach.new_data_loop_R pframe pframe_refl pframe_trans); pf_inst. Qed.

Lemma send_tx_queue_frame s : sframe s (send_tx_queue cci s).
Proof. apply (VSock_LemmasReach.send_tx_queue_R cci pframe pframe_refl pframe_trans); pf_inst. Qed.

Lemma maybe_send_ack_frame s : sframe s (maybe_send_ack s).
Proof. apply (VSock_LemmasReach.maybe_send_ack_R pframe pframe_refl pframe_trans); pf_inst. Qed.

Lemma split_frame s : sframe s (split_tx_queue_into_segments cci s).
Proof. apply (VSock_LemmasReach.split_tx_queue_into_segments_R cci pframe pframe_refl pframe_trans); pf_inst. Qed.

Lemma just_before_death_frame s e : pframe s (just_before_death s e).
Proof. apply (VSock_LemmasReach.just_before_death_R pframe pframe_refl pframe_trans); pf_inst. Qed.

Lemma process_incoming_message_frame s m : sframe s (process_incoming_message cci s m).
Proof. apply (VSock_LemmasReach.process_incoming_message_R cci pframe pframe_refl pframe_trans); pf_inst. Qed.

Lemma recv_loop_frame : forall fuel s acc, sframe s (recv_loop cci fuel s acc).
Proof. apply (VSock_LemmasReach.recv_loop_R cci pframe pframe_refl pframe_trans); pf_inst. Qed.

Lemma process_all_frame s : sframe s (process_all_incoming_messages cci s).
Proof. apply (VSock_LemmasReach.process_all_incoming_messages_R cci pframe pframe_refl pframe_trans); pf_inst. Qed.

(* ------------------------------------------------------------------ poll_body *)
Definition bframe (s : vsock) (r : body_res) : Prop :=
  match r with BrReturn s' _ | BrRestart s' => pframe s s' | BrPanic => True end.

Lemma die_frame s0 s e : pframe s0 s -> bframe s0 (die s e).
Proof. intro F. unfold die. cbn [bframe]. eapply pframe_trans; [exact F|apply just_before_death_frame]. Qed.

Lemma bail_frame {A} s0 s (m : step A) k :
  pframe s0 s -> sframe s m -> (forall s1 a, pframe s0 s1 -> bframe s0 (k s1 a)) -> bframe s0 (bail m k).
Proof.
  intros F Hm Hk. unfold bail. destruct m as [s1 a|s1 e|]; cbn [sframe] in Hm; [| |exact I].
  - assert (F1 : pframe s0 s1) by (eapply pframe_trans; eauto).
    destruct (v_restart s1); [exact F1|apply Hk; exact F1].
  - apply die_frame. eapply pframe_trans; eauto.
Qed.

Lemma pend_frame {A} s0 s (m : step A) k :
  pframe s0 s -> sframe s m -> (forall s1 a, pframe s0 s1 -> bframe s0 (k s1 a)) -> bframe s0 (pend m k).
Proof.
  intros F Hm Hk. unfold pend. eapply bail_frame; eauto.
  intros s1 a F1. destruct (v_transport_pending s1); [exact F1|].
  destruct (v_restart s1); [exact F1|apply Hk; exact F1].
Qed.

(* the state with which one iteration of the restart loop starts *)
Definition body_start (s0 : vsock) : vsock :=
  set_restart (set_now (set_transport_pending s0 false) (v_env_now s0)) false.

Lemma body_start_frame s0 : pframe s0 (body_start s0).
Proof. unfold body_start. pf_triv. Qed.

(* everything of poll_body after maybe_send_syn_ack *)
Definition body_rest (s : vsock) (_ : unit) : body_res :=
  pend (if immediate_ack_to_transmit s then send_ack s else SOk s false) (fun s _ =>
  pend (process_all_incoming_messages cci s) (fun s _ =>
  let '(rx1, fr, w) := rx_flush (v_rx s) in
  match fr with
  | FlPanic => BrPanic
  | FlOk _ =>
    let s := add_wakes (set_rx s rx1) (rx_wakes w) in
    if timer_expired (v_t_inactivity s) (v_now s) then die s ErrRemoteInactiveForTooLong
    else
    bail (split_tx_queue_into_segments cci s) (fun s _ =>
    pend (send_tx_queue cci s) (fun s _ =>
    let s := if should_close_on_own_initiative s then transition_to_fin_wait_1 s else s in
    pend (maybe_send_fin s) (fun s _ =>
    pend (maybe_send_ack s) (fun s _ =>
    if state_is_closed (v_state s) (o_wait_for_last_ack (v_opts s)) then
      BrReturn (just_before_death s None) PollReadyOk
    else
      let s := if is_local_fin_or_later (v_state s)
               then set_t_inactivity s (timer_arm (v_t_inactivity s) (v_now s)
                                          SHUTDOWN_FINAL_CHANCE_DELAY false)
               else s in
      let '(s, t) := next_timer_to_poll s in
      let s := match t with
               | Some instant => arm_in s (sat_sub instant (v_now s))
               | None => s
               end in
      BrReturn s PollPending))))
  end)).

Lemma poll_body_decomp s0 :
  poll_body cci s0 = pend (maybe_send_syn_ack (body_start s0)) body_rest.
Proof. reflexivity. Qed.

Lemma body_rest_frame s0 s1 : pframe s0 s1 -> bframe s0 (body_rest s1 tt).
Proof.
  intro F1. unfold body_rest.
  eapply pend_frame; [exact F1| |].
  { destruct (immediate_ack_to_transmit s1); [apply send_ack_frame|apply pframe_refl]. }
  intros s2 _ F2.
  eapply pend_frame; [exact F2|apply process_all_frame|]. intros s3 _ F3.
  destruct (rx_flush (v_rx s3)) as [[rx1 fr] w]. destruct fr; cbv beta iota zeta; [|exact I].
  assert (F4 : pframe s0 (add_wakes (set_rx s3 rx1) (rx_wakes w))).
  { eapply pframe_trans; [exact F3|]. eapply pframe_trans; [|apply pframe_add_wakes]. pf_triv. }
  abs_as (add_wakes (set_rx s3 rx1) (rx_wakes w)) F4 s4.
  destruct (timer_expired _ _); [apply die_frame; exact F4|].
  eapply bail_frame; [exact F4|apply split_frame|]. intros s5 _ F5.
  eapply pend_frame; [exact F5|apply send_tx_queue_frame|]. intros s6 _ F6.
  assert (F7 : pframe s0 (if should_close_on_own_initiative s6 then transition_to_fin_wait_1 s6 else s6)).
  { destruct (should_close_on_own_initiative s6); [eapply pframe_trans; [exact F6|apply transition_frame]|exact F6]. }
  eapply pend_frame; [exact F7|apply maybe_send_fin_frame|]. intros s8 _ F8.
  eapply pend_frame; [exact F8|apply maybe_send_ack_frame|]. intros s9 _ F9.
  destruct (state_is_closed _ _).
  { cbn [bframe]. eapply pframe_trans; [exact F9|apply just_before_death_frame]. }
  match goal with |- context [next_timer_to_poll ?x] => assert (F10 : pframe s0 x); [|abs_as x F10 s10] end.
  { destruct (is_local_fin_or_later (v_state s9)); exact F9. }
  unfold next_timer_to_poll. destruct (v_transport_pending s10).
  - destruct (v_t_inactivity s10); cbn [bframe]; [|exact F10].
    eapply pframe_trans; [exact F10|apply arm_in_frame].
  - match goal with |- bframe _ (BrReturn match ?t with _ => _ end _) => destruct t end; cbn [bframe].
    + eapply pframe_trans; [|apply arm_in_frame]. exact F10.
    + exact F10.
Qed.

(* ---- the weak frame (no claim on the SYN-ACK counter) holds for the whole poll ---- *)
Definition sframe0 {A} (s : vsock) (m : step A) : Prop :=
  match m with SOk s' _ => pframe0 s s' | SErr s' _ => pframe0 s s' | SPanic => True end.
Definition bframe0 (s : vsock) (r : body_res) : Prop :=
  match r with BrReturn s' _ | BrRestart s' => pframe0 s s' | BrPanic => True end.

Lemma bframe_weak s0 s1 r : pframe0 s0 s1 -> bframe s1 r -> bframe0 s0 r.
Proof. intros F H. destruct r; cbn [bframe bframe0] in *; auto; destruct H as [H _]; eapply pframe0_trans; eauto. Qed.

Lemma maybe_send_syn_ack_frame0 s : sframe0 s (maybe_send_syn_ack s).
Proof.
  unfold maybe_send_syn_ack.
  assert (G : forall c, sframe0 s (if c =? o_max_retx (v_opts s) then SErr s ErrMaxSynAckRetransmissionsReached
     else sbind (send_ack s) (fun s1 sent => if sent then
        SOk (set_t_syn_ack_resend (set_state s1 (SynAckSent (c + 1)))
              (timer_arm (v_t_syn_ack_resend s1) (v_now s1) SYNACK_RESEND_INTERNAL true)) tt
        else SOk s1 tt))).
  { intro c. destruct (_ =? _); [apply pframe0_refl|].
    pose proof (send_ack_frame s) as H. destruct (send_ack s) as [s1 a|s1 e|]; cbn [sbind sframe sframe0] in *; auto.
    - destruct a; cbn [sframe0]; apply H.
    - apply H. }
  destruct (v_state s); try (cbn [sframe0]; exact (pframe0_refl s)); try apply G.
  destruct (timer_expired _ _); [apply G|apply pframe0_refl].
Qed.

Lemma poll_body_frame0 s0 : bframe0 s0 (poll_body cci s0).
Proof.
  rewrite poll_body_decomp. unfold pend at 1, bail.
  pose proof (maybe_send_syn_ack_frame0 (body_start s0)) as H.
  pose proof (body_start_frame s0) as [F0 _].
  destruct (maybe_send_syn_ack _) as [s1 a|s1 e|]; cbn [sframe0] in H; [| |exact I].
  - assert (F1 : pframe0 s0 s1) by (eapply pframe0_trans; eauto).
    destruct (v_restart s1); [exact F1|]. destruct (v_transport_pending s1); [exact F1|].
    cbv beta iota. destruct a.
    eapply bframe_weak; [exact F1|]. apply body_rest_frame. apply pframe_refl.
  - unfold die. cbn [bframe0]. eapply pframe0_trans; [exact F0|]. eapply pframe0_trans; [exact H|].
    apply just_before_death_frame.
Qed.

Lemma poll_loop_frame0 : forall fuel s, pframe0 s (fst (poll_loop cci fuel s)).
Proof.
  induction fuel as [|fuel IH]; intro s; cbn [poll_loop fst]; [apply pframe0_refl|].
  pose proof (poll_body_frame0 s) as H. destruct (poll_body cci s); cbn [bframe0 fst] in *; auto.
  - eapply pframe0_trans; [exact H|apply IH].
  - apply pframe0_refl.
Qed.

End WithCC.

(* ------------------------------------------------------------------ death *)
Section Death.
Context {CC : Type}.
Notation vsock := (vsock CC).

Definition same_but_sends (s s1 : vsock) : Prop := s1 = s \/ exists r, s1 = set_sends s r.

Lemma next_send_same (s : vsock) size s1 o : next_send s size = (s1, o) -> same_but_sends s s1.
Proof.
  unfold next_send, same_but_sends. intro H.
  destruct (v_sends s) as [|o0 r].
  - destruct (v_emsg_limit s) as [m|]; [destruct (m <? size)|]; injection H as <- <-; auto.
  - destruct o0; [destruct (v_emsg_limit s) as [m|]; [destruct (m <? size)|]|..];
      injection H as <- <-; right; eexists; reflexivity.
Qed.

Lemma send_control_packet_fields (s : vsock) h :
  match send_control_packet s h with
  | SOk s' _ | SErr s' _ =>
      v_rx s' = v_rx s /\ v_tx s' = v_tx s /\ v_state s' = v_state s /\ v_wakes s' = v_wakes s /\
      v_seq_nr s' = v_seq_nr s /\ v_segs s' = v_segs s
  | SPanic => True
  end.
Proof.
  unfold send_control_packet. destruct (v_transport_pending s); [repeat split|].
  destruct (next_send s _) as [s1 o] eqn:E. apply next_send_same in E.
  destruct o; destruct E as [->|[r ->]]; unfold on_packet_sent, emit; vsimpl; repeat split.
Qed.

Definition both_closed (s : vsock) : Prop :=
  vsock_closed (v_rx s) = true /\ t_vsock_closed (v_tx s) = true /\
  writer_waker (v_tx s) = false.

Lemma mark_both_closed_spec (s : vsock) :
  let s' := mark_both_closed s in
  both_closed s' /\ v_state s' = v_state s /\ v_out s' = v_out s /\ v_seq_nr s' = v_seq_nr s /\
  q (v_rx s') = q (v_rx s) /\ ring (v_tx s') = ring (v_tx s) /\
  current (v_rx s') = current (v_rx s) /\ is_eof (v_rx s') = is_eof (v_rx s) /\
  (vsock_closed (v_rx s) = false \/ reader_waker (v_rx s) = false -> reader_waker (v_rx s') = false) /\
  (vsock_closed (v_rx s) = false -> reader_waker (v_rx s) = true -> In VwReader (v_wakes s')) /\
  (writer_waker (v_tx s) = true -> In VwWriter (v_wakes s')).
Proof.
  unfold mark_both_closed, rx_mark_vsock_closed, mark_vsock_closed, both_closed, add_wakes.
  destruct (vsock_closed (v_rx s)) eqn:Evc; vsimpl; cbn [vsock_closed t_vsock_closed writer_waker upd
    set_flags q ring current is_eof reader_waker rx_wakes tx_wakes flat_map app];
    (repeat split; auto).
  - intros [H|H]; [discriminate|exact H].
  - intro H; discriminate.
  - intro H. rewrite H. cbn. auto.
  - intros _ H. rewrite H. destruct (writer_waker (v_tx s)); cbn; auto.
  - intro H. rewrite H. destruct (reader_waker (v_rx s)); cbn; auto.
Qed.

(* just_before_death: both halves closed, every registered application waker fired, the error
   queued for the reader; a FIN is attempted only for an error in a state before our own FIN *)
Lemma just_before_death_spec (s : vsock) (e : option verror) :
  vsock_closed (v_rx s) = false ->
  let s' := just_before_death s e in
  both_closed s' /\ reader_waker (v_rx s') = false /\ v_state s' = v_state s /\
  ring (v_tx s') = ring (v_tx s) /\
  current (v_rx s') = current (v_rx s) /\ is_eof (v_rx s') = is_eof (v_rx s) /\
  q (v_rx s') = (match e with Some _ => q (v_rx s) ++ [QError] | None => q (v_rx s) end) /\
  (reader_waker (v_rx s) = true -> In VwReader (v_wakes s')) /\
  (writer_waker (v_tx s) = true -> In VwWriter (v_wakes s')) /\
  (e = None \/ is_local_fin_or_later (v_state s) = true -> v_out s' = v_out s).
Proof.
  intro Hlive. unfold just_before_death. cbv zeta.
  (* s1 *)
  set (s1 := match e with
             | Some _ => let '(rx1, w) := rx_enqueue_error (v_rx s) in add_wakes (set_rx s rx1) (rx_wakes w)
             | None => s end).
  assert (H1 : vsock_closed (v_rx s1) = false /\ v_state s1 = v_state s /\ v_out s1 = v_out s /\
               v_tx s1 = v_tx s /\ current (v_rx s1) = current (v_rx s) /\ is_eof (v_rx s1) = is_eof (v_rx s) /\
               q (v_rx s1) = (match e with Some _ => q (v_rx s) ++ [QError] | None => q (v_rx s) end) /\
               (match e with Some _ => reader_waker (v_rx s1) = false | None => reader_waker (v_rx s1) = reader_waker (v_rx s) end) /\
               (reader_waker (v_rx s) = true -> match e with Some _ => In VwReader (v_wakes s1) | None => True end) /\
               (forall x, In x (v_wakes s) -> In x (v_wakes s1))).
  { subst s1. destruct e; [|repeat split; auto].
    unfold rx_enqueue_error, add_wakes. vsimpl. cbn [vsock_closed set_flags current is_eof q reader_waker].
    repeat split; auto.
    - intro H. rewrite H. cbn. auto.
    - intros x Hx. rewrite in_app_iff. right. exact Hx. }
  destruct H1 as (A1 & A2 & A3 & A4 & A5 & A6 & A7 & A8 & A9 & A10).
  pose proof (mark_both_closed_spec s1) as H2. cbv zeta in H2.
  destruct H2 as (B1 & B2 & B3 & B4 & B5 & B6 & B7 & B8 & B9 & B10 & B11).
  set (s2 := mark_both_closed s1) in *.
  assert (Hrw : reader_waker (v_rx s2) = false) by (apply B9; left; exact A1).
  assert (HwR : reader_waker (v_rx s) = true -> In VwReader (v_wakes s2)).
  { intro H. destruct e.
    - subst s2. unfold mark_both_closed. destruct (rx_mark_vsock_closed _), (mark_vsock_closed _).
      unfold add_wakes. vsimpl. rewrite in_app_iff. right. apply A9. exact H.
    - apply B10; [exact A1|]. rewrite A8. exact H. }
  assert (HwW : writer_waker (v_tx s) = true -> In VwWriter (v_wakes s2)).
  { intro H. apply B11. rewrite A4. exact H. }
  assert (Hbase : both_closed s2 /\ reader_waker (v_rx s2) = false /\ v_state s2 = v_state s /\
                  ring (v_tx s2) = ring (v_tx s) /\ current (v_rx s2) = current (v_rx s) /\
                  is_eof (v_rx s2) = is_eof (v_rx s) /\
                  q (v_rx s2) = (match e with Some _ => q (v_rx s) ++ [QError] | None => q (v_rx s) end) /\
                  (reader_waker (v_rx s) = true -> In VwReader (v_wakes s2)) /\
                  (writer_waker (v_tx s) = true -> In VwWriter (v_wakes s2)) /\ v_out s2 = v_out s).
  { repeat split; try apply B1; auto; try congruence; rewrite B6, A4; reflexivity. }
  destruct e as [err|].
  2:{ destruct Hbase as (C1 & C2 & C3 & C4 & C5 & C6 & C7 & C8 & C9 & C10). repeat split; try apply C1; auto. }
  destruct (negb (is_local_fin_or_later (v_state s2))) eqn:El.
  2:{ destruct Hbase as (C1 & C2 & C3 & C4 & C5 & C6 & C7 & C8 & C9 & C10). repeat split; try apply C1; auto. }
  destruct Hbase as (C1 & C2 & C3 & C4 & C5 & C6 & C7 & C8 & C9 & C10).
  pose proof (send_control_packet_fields (set_seq_nr s2 (wadd16 (v_seq_nr s2) 1))
                (hdr_with (outgoing_header s2) ST_FIN (v_seq_nr s2) None)) as Hf.
  assert (Hno : is_local_fin_or_later (v_state s) = false) by (rewrite <- C3; apply negb_true_iff; exact El).
  destruct (send_control_packet _ _) as [s4 b|s4 e4|]; vsimpl.
  - destruct Hf as (F1 & F2 & F3 & F4 & F5 & F6). unfold both_closed. rewrite F1, F2, F3, F4.
    repeat split; try apply C1; auto; intros [H|H]; congruence.
  - destruct Hf as (F1 & F2 & F3 & F4 & F5 & F6). unfold both_closed. rewrite F1, F2, F3, F4.
    repeat split; try apply C1; auto; intros [H|H]; congruence.
  - unfold both_closed. vsimpl. repeat split; try apply C1; auto; intros [H|H]; congruence.
Qed.

End Death.
