(* C05, zero-window clause at full strength: refutation witness (known class D16).
   The faithful model — and the real code, see known_findings.json — transmits a NEVER-SENT segment
   into a zero window when the retransmission timer fires: the ACK that closed the window re-armed the
   timer because the segment table was not empty, and the RTO branch of send_tx_queue sends the first
   undelivered segment whatever its history.
   case: vsock out 1 1500 1048576 32768 1048576 0 5 10000000000 1 1 100 1 7 1048576 5 1000000
         W3000,0 P M2,1,101,0,10,0,0,- P T3000000000 P *)
From Utp Require Import Base.Prelude Wire.SeqNr Wire.Header Rtt.Rtte Mtu.SegSizes Rx.Rx Tx.Ring Tx.Segments
  Conn.Recovery Conn.Msg Conn.VSockRec Conn.VSock Conn.VSockRun Conn.VObs Conn.C10_Pred Conn.VSock_Inv
  Conn.C10_Proofs Conn.C05_Pred.

Definition d16_cfg : vconfig :=
  {| vc_incoming := false; vc_ipv4 := true; vc_link_mtu := 1500; vc_rx_buf := 1048576;
     vc_tx_init := 32768; vc_tx_max := 1048576; vc_nagle := false; vc_max_retx := 5;
     vc_inactivity := 10000000000; vc_wait_last_ack := true; vc_mtu_probe_max_retx := 1;
     vc_isn := 100; vc_remote_seq := 1; vc_remote_conn_id := 7; vc_remote_wnd := 1048576;
     vc_remote_ts := 5; vc_syn_sent := 0; vc_now0 := 1000000 |}.

Definition d16_ack : msg :=
  {| m_hdr := {| ch_type := ST_STATE; ch_conn_id := 0; ch_ts := 10; ch_ts_diff := 0; ch_wnd := 0;
                 ch_seq := 1; ch_ack := 101; ch_sack := None; ch_close_reason := None |};
     m_payload := [] |}.

Definition d16_ops : list vop :=
  [VoWrite (repeat 0 (Z.to_nat 3000)); VoPoll []; VoDeliver d16_ack; VoPoll [];
   VoSetNow 3000000000; VoPoll []].

(* what is claimed of a run is checked by evaluating the run once *)
Lemma let_once {A} (x : A) (P : A -> Prop) : (let t := x in P t) -> P x.
Proof. exact (fun H => H). Qed.

Lemma zero_window_new_payload_refuted :
  exists w cfg ops,
    vconfig_ok cfg = true /\ Forall op_msg_ok ops /\
    forallb (c05_zero_window_strict cfg) (wtrace w cfg ops) = false /\
    existsb (c05_d16_class cfg) (wtrace w cfg ops) = true /\
    (* everywhere outside the known class the strict clause holds on this trace *)
    forallb (fun st => c05_zero_window_strict cfg st || c05_d16_class cfg st) (wtrace w cfg ops) = true.
Proof.
  exists 1056, d16_cfg, d16_ops.
  split; [vm_compute; reflexivity|]. split; [repeat constructor|].
  pattern (wtrace 1056 d16_cfg d16_ops). apply let_once. vm_compute. repeat split.
Qed.
