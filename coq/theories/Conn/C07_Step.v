(* C07 — silence when idle, for every trace of the model.
   1. [poll_idle]: the forward run of poll_body from an idle state (established, inbox drained and its
      channel open, nothing outstanding, nothing to acknowledge, no timer due): every stage leaves the state
      idle and emits nothing; the only packet a completed poll can emit is the window update, which flips
      the zero/non-zero status of the advertised window.
   2. [poll_done_ibe] / [poll_keeps_ibe]: a completed poll leaves the inbox drained and its channel open;
      a Pending poll never fills a drained inbox.
   3. [c07_idle_walk_trace]: the trace predicate c07_idle_silent_partial on every trace. *)
From Utp Require Import Base.Prelude Wire.SeqNr Wire.SeqNr_Proofs Wire.Header Rtt.Rtte Mtu.SegSizes
  Rx.Rx Tx.Ring Tx.Segments Conn.Recovery Conn.Msg Conn.VSockRec Conn.VSock Conn.VSockRun Conn.VObs
  Conn.VSock_LemmasTx Conn.VSock_Lemmas Conn.VSock_LemmasStep Conn.VSock_LemmasReach
  Conn.VSock_LemmasTimers Conn.VSock_LemmasPipe Conn.C07_Pred Conn.C07_Proofs.

(* ------------------------------------------------------------------ Rx / Segments facts *)
Lemma flush_loop_rd : forall fuel s w fb fp s1 w1 fb1 fp1,
  flush_loop fuel s w fb fp = Some (s1, w1, fb1, fp1) -> reader_dropped s1 = reader_dropped s.
Proof.
  induction fuel as [|fuel IH]; intros s w fb fp s1 w1 fb1 fp1; cbn [flush_loop].
  - intro H; injection H as <- _ _ _. reflexivity.
  - destruct (filled_front s =? 0); [intro H; injection H as <- _ _ _; reflexivity|].
    destruct (ooq_data s) as [|m rest]; [discriminate|].
    destruct (w <? _); [intro H; injection H as <- _ _ _; reflexivity|].
    destruct (reader_dropped s) eqn:Rd; [intro H; injection H as <- _ _ _; exact Rd|].
    destruct (_ <? _); [discriminate|].
    intro H. apply IH in H. rewrite H. cbn [pop_front_state reader_dropped]. exact Rd.
Qed.

Lemma rx_flush_rd r r' fr w : rx_flush r = (r', fr, w) -> reader_dropped r' = reader_dropped r.
Proof.
  unfold rx_flush. intro H.
  set (s0 := set_wakers r _ (reader_waker r) (last_remaining_rx_window r)) in *.
  destruct (flush_loop _ s0 _ 0 0) as [[[[s1 w1] fb] fp]|] eqn:E.
  - apply flush_loop_rd in E.
    destruct (0 <? fp); injection H as <- _ _; cbn [set_wakers reader_dropped]; exact E.
  - injection H as <- _ _. reflexivity.
Qed.

Lemma calc_pipe_nil t a b c d t' p r :
  ss_segs t = [] -> calc_pipe t a b c d = Some (t', p, r) -> ss_segs t' = [].
Proof.
  intros H. unfold calc_pipe. rewrite H. unfold len_z. cbn [length Z.of_nat].
  replace (Z.min (Z.max (seq_sub b (ss_snd_una t)) 0) 0) with 0 by lia.
  cbn [Z.ltb Z.compare Z.to_nat firstn enum_from rev pipe_loop app skipn].
  intro E. injection E as <- _ _. reflexivity.
Qed.

Lemma timer_quiet_spec t now : timer_quiet t now = negb (timer_expired t now).
Proof.
  destruct t as [e|]; cbn [timer_quiet timer_expired]; [|reflexivity].
  destruct (Z.ltb_spec now e), (Z.leb_spec e now); try reflexivity; lia.
Qed.

Section WithCC.
Context {CC : Type} (cci : cc_iface CC).
Notation vsock := (vsock CC).

Lemma stU_mono X (P Q : vsock -> Prop) (m : step X) : (forall s, P s -> Q s) -> stU P m -> stU Q m.
Proof. intros H K. destruct m; cbn [stU] in *; auto. Qed.

Lemma stU_sbind X Y (P : vsock -> Prop) (m : step X) (f : vsock -> X -> step Y) :
  stU P m -> (forall s1 a, P s1 -> stU P (f s1 a)) -> stU P (sbind m f).
Proof. intros Hm Hf. destruct m as [s1 a| |]; cbn [sbind stU] in *; auto. Qed.

(* the receive loop keeps what its parts keep *)
Lemma recv_loop_stU (P : vsock -> Prop) :
  (forall s l, P s -> P (set_inbox s l)) -> (forall s b, P s -> P (set_inbox_waker s b)) ->
  (forall s st, P s -> P (set_state s st)) -> (forall s, P s -> P (transition_to_fin_wait_1 s)) ->
  (forall s, P s -> stU P (maybe_send_fin s)) ->
  (forall s m, P s -> stU P (process_incoming_message cci s m)) ->
  forall fuel s acc, P s -> stU P (recv_loop cci fuel s acc).
Proof.
  intros Hib Hw Hst Hfw Hfin Hpim.
  assert (Hnil : forall s (acc : on_ack_result), P s -> stU P
    (if v_inbox_closed s
     then sbind (maybe_send_fin (transition_to_fin_wait_1 s)) (fun s2 _ => SOk (set_state s2 Closed) (acc, true))
     else SOk (set_inbox_waker s true) (acc, false))).
  { intros s acc H. destruct (v_inbox_closed s); [|apply Hw; exact H].
    apply stU_sbind; [apply Hfin, Hfw; exact H|]. intros s2 _ H2. apply Hst. exact H2. }
  induction fuel as [|x fuel IH]; intros s acc H; cbn [recv_loop]; destruct (v_inbox s) as [|m rest];
    try (apply Hnil; exact H); [exact I|].
  apply stU_sbind; [apply Hpim, Hib; exact H|].
  intros s1 r H1. destruct (_ || _); [exact H1 | apply IH; exact H1].
Qed.

(* ------------------------------------------------------------------ 1. the idle run *)
(* T: the clock of the poll; W: whether the window last advertised is zero *)
Definition idle (T : Z) (W : bool) (s : vsock) : Prop :=
  v_inbox s = [] /\ v_inbox_closed s = false /\ v_state s = Established /\
  ss_segs (v_segs s) = [] /\ ring (v_tx s) = [] /\ v_cbu s = 0 /\ 0 < mss (v_ss s) /\
  timer_expired (v_t_retransmit s) T = false /\ timer_expired (v_t_inactivity s) T = false /\
  timer_expired (v_t_ack_delay s) T = false /\
  writer_shutdown (v_tx s) = false /\ (reader_dropped (v_rx s) && writer_dropped (v_tx s)) = false /\
  v_out s = [] /\ (v_last_sent_window s =? 0) = W /\ v_env_now s = T.

(* inside an iteration of poll_body *)
Definition idleA (T : Z) (W : bool) (s : vsock) : Prop :=
  idle T W s /\ v_now s = T /\ v_restart s = false /\ v_transport_pending s = false.

(* after maybe_send_ack: nothing was emitted, or the window status flipped *)
Definition idleD (W : bool) (s : vsock) : Prop :=
  v_out s = [] \/ (v_last_sent_window s =? 0) <> W.

Ltac idle_dest H :=
  destruct H as ((Hi & Hc & Hst & Hsg & Hrg & Hcb & Hms & Hrt & Hin & Had & Hsh & Hdr & Hout & Hw & Hen)
                 & Hnow & Hrs & Htp).
Ltac idle_done := unfold idleA, idle; vsimpl_goal; repeat split; assumption.

Lemma idle_syn_ack T W s : idleA T W s -> stU (idleA T W) (maybe_send_syn_ack s).
Proof. intro H. idle_dest H. unfold maybe_send_syn_ack. rewrite Hst. cbn [stU]. idle_done. Qed.

Lemma idle_imm T W s : idleA T W s -> immediate_ack_to_transmit s = false.
Proof.
  intro H. idle_dest H. unfold immediate_ack_to_transmit, IMMEDIATE_ACK_EVERY_RMSS. rewrite Hcb.
  apply Z.leb_gt. lia.
Qed.

Lemma idle_pim T W s : idleA T W s -> stU (idleA T W) (process_all_incoming_messages cci s).
Proof.
  intro H. idle_dest H. rewrite paim_eq. rewrite Hi. cbn [app recv_loop]. rewrite Hi, Hc.
  cbn [sbind fst]. unfold paim_rest.
  cbn [on_ack_result_default ar_acked_segments ar_newly_sacked_segments Z.ltb Z.compare orb sbind].
  destruct (rv_phase (v_recovery (set_inbox_waker s true))) eqn:Ep.
  - cbn [stU]. idle_done.
  - cbn [stU]. idle_done.
  - destruct (calc_pipe _ _ _ _ _) as [[[sg pp] rcl]|] eqn:Ecp; [|exact I].
    apply calc_pipe_nil in Ecp; [|exact Hsg]. cbn [stU]. unfold set_recovering. idle_done.
Qed.

Lemma idle_flush T W s rx1 fb w :
  idleA T W s -> rx_flush (v_rx s) = (rx1, FlOk fb, w) ->
  idleA T W (add_wakes (set_rx s rx1) (rx_wakes w)).
Proof.
  intros H E. idle_dest H. apply rx_flush_rd in E. unfold add_wakes, idleA, idle. vsimpl_goal.
  rewrite E. repeat split; assumption.
Qed.

Lemma idle_split T W s : idleA T W s -> stU (idleA T W) (split_tx_queue_into_segments cci s).
Proof.
  intro H. idle_dest H.
  assert (E0 : (Z.of_nat (length (ring (v_tx s))) =? 0) = true) by (rewrite Hrg; reflexivity).
  unfold split_tx_queue_into_segments. rewrite E0. cbn [stU].
  unfold register_dispatcher_if_empty. rewrite Hrg. unfold idleA, idle. vsimpl_goal.
  cbn [upd ring writer_shutdown writer_dropped]. repeat split; assumption.
Qed.

Lemma idle_stq T W s : idleA T W s -> send_tx_queue cci s = SOk s tt.
Proof.
  intro H. idle_dest H. rewrite send_tx_queue_eq. rewrite Htp. unfold rto_branch. rewrite Hnow, Hrt.
  cbn [sbind]. unfold after_rto_k. destruct (0 <? _); [reflexivity|]. rewrite Hsg. reflexivity.
Qed.

Lemma idle_close T W s : idleA T W s -> should_close_on_own_initiative s = false.
Proof. intro H. idle_dest H. unfold should_close_on_own_initiative. rewrite Hdr, Hsh. reflexivity. Qed.

Lemma idle_fin T W s : idleA T W s -> maybe_send_fin s = SOk s false.
Proof. intro H. idle_dest H. unfold maybe_send_fin. rewrite Htp, Hst. reflexivity. Qed.

Lemma idle_msa T W s : idleA T W s ->
  match maybe_send_ack s with
  | SOk s1 _ => v_restart s1 = false /\ v_state s1 = Established /\
                (v_transport_pending s1 = false -> idleD W s1)
  | _ => True
  end.
Proof.
  intro H. pose proof (idle_imm _ _ _ H) as Im. idle_dest H. unfold maybe_send_ack. rewrite Im.
  destruct (should_send_window_update s) eqn:Wu.
  - pose proof (send_ack_qb s) as Q. pose proof (send_ack_txf s) as X.
    destruct (send_ack s) as [s1 b| |] eqn:E; auto. cbn [stR] in Q, X.
    destruct Q as (_ & _ & _ & _ & _ & _ & _ & _ & Q9 & _).
    destruct X as (_ & _ & _ & _ & _ & _ & X7 & _).
    split; [congruence|]. split; [congruence|]. intro Tp1.
    apply send_ack_sent in E; [|exact Tp1]. destruct E as (_ & _ & Lw & _).
    right. rewrite Lw. unfold should_send_window_update in Wu. rewrite Hst in Wu.
    cbn [is_remote_fin_or_later] in Wu. rewrite Hw in Wu.
    destruct (rx_window s =? 0), W; cbn in Wu; congruence.
  - rewrite Hnow, Had, Hcb. cbn [Z.ltb Z.compare].
    split; [exact Hrs|]. split; [exact Hst|]. intros _. left. exact Hout.
Qed.

Definition idleQ (W : bool) (r : body_res) : Prop :=
  match r with
  | BrReturn s' PollPending => v_transport_pending s' = false -> idleD W s'
  | BrRestart _ => False
  | _ => True
  end.

Lemma idle_stage T W chk X (m : step X) : stU (idleA T W) m -> stage (idleQ W) chk (idleA T W) m.
Proof.
  intro Hm. destruct m as [s1 a|s1 e|]; cbn [stage stU] in *; try exact I.
  pose proof Hm as (_ & _ & Rs & Tp). rewrite Rs, Tp, andb_false_r. exact Hm.
Qed.

Theorem poll_body_idle T W s0 : idle T W s0 -> idleQ W (poll_body cci s0).
Proof.
  intro H0.
  apply (poll_body_walk cci (idleQ W) (idleA T W) (idleA T W) (idleA T W) (idleA T W) (idleA T W)
           (fun s => v_state s = Established /\ idleD W s)).
  - exact I.
  - intros s H _. apply idle_stage, idle_syn_ack, H.
  - intros s H _ Im. rewrite (idle_imm _ _ _ H) in Im. discriminate.
  - intros s H _. apply idle_stage, idle_pim, H.
  - intros s rx1 fb w H _ E. exact (idle_flush _ _ _ _ _ _ H E).
  - intros s ((_ & _ & _ & _ & _ & _ & _ & _ & Hin & _) & Hnow & _) _ Ex. rewrite Hnow in Ex. congruence.
  - intros s H _ _. apply idle_stage, idle_split, H.
  - intros s H _. rewrite (idle_stq _ _ _ H). apply (idle_stage T W true _ (SOk s tt)). exact H.
  - intros s H _ Cl. rewrite (idle_close _ _ _ H) in Cl. discriminate.
  - intros s H _. rewrite (idle_fin _ _ _ H). apply (idle_stage T W true _ (SOk s false)). exact H.
  - intros s H _. pose proof (idle_msa _ _ _ H) as M.
    destruct (maybe_send_ack s) as [s9 b9| |]; try exact I.
    cbn [stage]. destruct M as (R9 & St9 & D9). rewrite R9.
    destruct (v_transport_pending s9) eqn:T9; cbn [andb idleQ]; [congruence|].
    split; [exact St9 | apply D9; reflexivity].
  - intros s [St _] _ Cl. rewrite St in Cl. discriminate.
  - intros s [_ D9] _ _ _.
    destruct (poll_tail_fields s) as (_ & _ & _ & _ & F5 & _ & _ & _ & _ & F10 & _).
    unfold idleD. rewrite F5, F10. exact D9.
  - destruct H0 as (Hi & Hc & Hst & Hsg & Hrg & Hcb & Hms & Hrt & Hin & Had & Hsh & Hdr & Hout & Hw & Hen).
    unfold poll_start, idleA, idle. vsimpl_goal. repeat split; assumption.
Qed.

Lemma poll_loop_idle fuel T W s s' :
  idle T W s -> poll_loop cci fuel s = (s', PollPending) -> v_transport_pending s' = false ->
  idleD W s'.
Proof.
  intros H0 E Tp. destruct fuel as [|fuel]; cbn [poll_loop] in E; [discriminate|].
  pose proof (poll_body_idle T W s H0) as Q.
  destruct (poll_body cci s) as [s1 r1|s1|]; cbn [idleQ] in Q.
  - inversion E; subst. apply Q. exact Tp.
  - contradiction.
  - discriminate.
Qed.

Theorem poll_idle T W s s' :
  idle T W (poll_init s) -> poll cci s = (s', PollPending) -> v_transport_pending s' = false ->
  idleD W s'.
Proof. intros H0 E Tp. rewrite poll_unfold in E. eapply poll_loop_idle; eassumption. Qed.

(* the guard of the predicate, read off the fingerprint *)
Lemma idle_pre_idle (s : vsock) sc :
  v_inbox s = [] -> v_inbox_closed s = false ->
  c07_idle_pre (v_env_now s) (fp_of_vsock cci s) = true ->
  idle (v_env_now s) (v_last_sent_window s =? 0) (poll_init (VSockRec.set_sends s sc)).
Proof.
  intros Hi Hc H. unfold c07_idle_pre in H.
  cbn [fp_of_vsock f_state f_segs f_tx_len f_cbu f_mss f_last_consumed f_last_sent_ack_nr f_t_retransmit
       f_t_inactivity f_t_ack_delay f_tx_writer_shutdown f_rx_reader_dropped f_tx_writer_dropped
       f_transport_pending] in H.
  rewrite !andb_true_iff in H.
  destruct H as (((((((((((H1 & H2) & H3) & H4) & H5) & _) & H7) & H8) & H9) & H10) & H11) & _).
  rewrite timer_quiet_spec, negb_true_iff in H7, H8, H9. rewrite negb_true_iff in H10, H11.
  unfold poll_init, idle. vsimpl_goal.
  split; [exact Hi|]. split; [exact Hc|].
  split; [destruct (v_state s); try discriminate; reflexivity|].
  split; [destruct (ss_segs (v_segs s)); [reflexivity | discriminate]|].
  split.
  { destruct (ring (v_tx s)); [reflexivity|]. apply Z.eqb_eq in H3. cbn [length] in H3. lia. }
  split; [apply Z.eqb_eq; exact H4|]. split; [apply Z.ltb_lt; exact H5|].
  repeat split; assumption.
Qed.

Theorem c07_idle_poll_silent : forall (s : vsock) sc s',
  v_inbox s = [] -> v_inbox_closed s = false ->
  c07_idle_pre (v_env_now s) (fp_of_vsock cci s) = true ->
  poll cci (VSockRec.set_sends s sc) = (s', PollPending) -> v_transport_pending s' = false ->
  Bool.eqb (v_last_sent_window s =? 0) (v_last_sent_window s' =? 0) = true ->
  v_out s' = [].
Proof.
  intros s sc s' Hi Hc Hp E Tp Hw.
  pose proof (idle_pre_idle s sc Hi Hc Hp) as H0.
  destruct (poll_idle _ _ _ _ H0 E Tp) as [D|D]; [exact D|].
  exfalso. apply D. symmetry. apply eqb_prop. exact Hw.
Qed.

(* ------------------------------------------------------------------ 2. the inbox across a poll *)
Lemma poll_tail_inbox (s : vsock) :
  v_inbox (poll_tail s) = v_inbox s /\ v_inbox_closed (poll_tail s) = v_inbox_closed s.
Proof.
  unfold poll_tail, next_timer_to_poll, arm_in, add_wakes.
  repeat break_match; try (inversion Heqp; subst); vsimpl_goal; repeat split;
    first [exact eq_refl | assumption | symmetry; assumption].
Qed.

(* closed, or the inbox drained and its channel open *)
Definition SI (s : vsock) : Prop := SC s \/ IBE s.

Lemma qb_SI (a b : vsock) : qb a b -> SI a -> SI b.
Proof.
  intros (Q1 & Q2 & Q3 & Q4 & Q5 & Q6 & Q7 & Q8 & Q9 & Q10 & Q11 & Q12) [H|[H1 H2]].
  - left. auto.
  - right. split; congruence.
Qed.

Lemma stq_SI X (s : vsock) (m : step X) : stR qb s m -> SI s -> stU SI m.
Proof. intros Q H. destruct m; cbn [stR stU] in *; auto. eapply qb_SI; eassumption. Qed.

(* a poll that ran to its end left the inbox drained, its channel open *)
Theorem poll_done_ibe (s s' : vsock) :
  poll cci s = (s', PollPending) -> v_transport_pending s' = false -> IBE s'.
Proof.
  intros H Tp.
  assert (HS : tail_shape SI s').
  { apply (poll_S_nr cci (fun _ => True) (fun _ => True) SI SI SI SI) with (s := s); try exact H.
    - intros a _. exact I.
    - intros a _. destruct (maybe_send_syn_ack a); cbn [stC]; auto.
    - intros a _. destruct (send_ack a); cbn [stC]; auto.
    - intros a _. pose proof (process_all_incoming_messages_post cci a) as P.
      destruct (process_all_incoming_messages cci a) as [b u| |]; cbn [stC]; auto.
      intro Tpb. destruct (P b u eq_refl) as [P1|[P1|P1]]; [left; exact P1 | congruence | right; exact P1].
    - intros a rx1 fb w K _. eapply qb_SI; [apply rx_flush_qb | exact K].
    - intros a K. apply (stq_SI _ a); [apply split_tx_queue_into_segments_qb | exact K].
    - intros a K Ra.
      pose proof (send_tx_queue_txf cci a) as X'. pose proof (send_tx_queue_frame cci a) as F'.
      destruct (send_tx_queue cci a) as [b u| |]; cbn [stU stR step_frame] in *; auto.
      destruct X' as (X1 & X2 & X3 & X4 & X5 & X6 & X7 & X8). destruct F' as (F1 & _).
      assert (Kb : SI b).
      { destruct K as [K|[K1 K2]]; [left; unfold SC in *; rewrite X7, F1; exact K|].
        right. split; congruence. }
      split; intros; [exact I | exact Kb].
    - intros a K. eapply qb_SI; [apply transition_to_fin_wait_1_qb | exact K].
    - intros a K. apply stU_stC. apply (stq_SI _ a); [apply maybe_send_fin_qb | exact K].
    - intros a K. apply stU_stC. apply (stq_SI _ a); [apply maybe_send_ack_qb | exact K].
    - exact I. }
  destruct HS as [HS|(sb & K & Tpb & _ & Cl & ->)]; [congruence|].
  destruct K as [K|[K1 K2]]; [unfold SC in K; congruence|].
  destruct (poll_tail_inbox sb) as [E1 E2]. split; congruence.
Qed.

(* a Pending poll never fills a drained inbox nor closes its channel *)
Definition RI (a b : vsock) : Prop := IBE a -> IBE b.

Lemma qb_RI (a b : vsock) : qb a b -> RI a b.
Proof.
  intros (Q1 & Q2 & Q3 & Q4 & Q5 & Q6 & Q7 & _) [H1 H2]. split; congruence.
Qed.

Lemma stq_RIk X (s : vsock) (m : step X) : stR qb s m -> stRk RI s m.
Proof. intros Q. destruct m; cbn [stR stRk] in *; auto. apply qb_RI; exact Q. Qed.

Theorem poll_keeps_ibe (s s' : vsock) :
  IBE s -> poll cci s = (s', PollPending) -> IBE s'.
Proof.
  intros Hs H.
  assert (P : pend_shape RI (poll_init s) s').
  { apply (poll_Rp cci RI); try exact H.
    - intros a K. exact K.
    - intros a b c F G K. auto.
    - intros a K. exact K.
    - intro a. apply stq_RIk, maybe_send_syn_ack_qb.
    - intro a. apply stq_RIk, send_ack_qb.
    - intro a. pose proof (process_all_incoming_messages_idle cci a) as P.
      destruct (process_all_incoming_messages cci a) as [b u| |]; cbn [stRk]; auto.
      intro K. destruct (P b u K eq_refl) as (_ & _ & I1 & I2). split; assumption.
    - intros a rx1 fb w _. apply qb_RI, rx_flush_qb.
    - intro a. apply stq_RIk, split_tx_queue_into_segments_qb.
    - intro a. pose proof (send_tx_queue_txf cci a) as X'.
      destruct (send_tx_queue cci a) as [b u| |]; cbn [stRk stR] in *; auto.
      destruct X' as (X1 & X2 & X3 & X4 & X5 & X6 & X7 & X8). intros [K1 K2]. split; congruence.
    - intro a. apply qb_RI, transition_to_fin_wait_1_qb.
    - intro a. apply stq_RIk, maybe_send_fin_qb.
    - intro a. apply stq_RIk, maybe_send_ack_qb. }
  destruct P as [[_ P]|(sa & sb & b & P1 & _ & P2 & _ & _ & _ & ->)].
  - apply P. exact Hs.
  - destruct (poll_tail_inbox sb) as [E1 E2].
    destruct (P2 (P1 Hs)) as [K1 K2]. split; congruence.
Qed.

(* ------------------------------------------------------------------ 3. the trace predicate *)
Lemma nonpoll_not_finished (s : vsock) o :
  (forall sc, o <> VoPoll sc) -> poll_finished (vstep_out cci s o) = false.
Proof.
  intros N. unfold vstep_out. destruct o; cbn [vstep];
    try (repeat match goal with |- context [if ?c then _ else _] => destruct c end;
         repeat match goal with |- context [let '(_, _) := ?t in _] => destruct t end;
         reflexivity).
  exfalso. eapply N. reflexivity.
Qed.

Lemma nonpoll_inbox (s : vsock) o :
  match o with VoPoll _ | VoDeliver _ | VoCloseInbox => False | _ => True end ->
  v_inbox (vstep_state cci s o) = v_inbox s /\ v_inbox_closed (vstep_state cci s o) = v_inbox_closed s.
Proof.
  intros N. unfold vstep_state. destruct o; try contradiction; cbn [vstep];
    repeat match goal with |- context [if ?c then _ else _] => destruct c end;
    repeat match goal with |- context [let '(_, _) := ?t in _] => destruct t end;
    cbn [fst]; split; reflexivity.
Qed.

Lemma nonpoll_ibe (s : vsock) o :
  match o with VoPoll _ | VoDeliver _ | VoCloseInbox => False | _ => True end ->
  IBE s -> IBE (vstep_state cci s o).
Proof. intros N [K1 K2]. destruct (nonpoll_inbox s o N) as [E1 E2]. split; congruence. Qed.

Section PollStep.
Variables (s : vsock) (sc : list send_outcome).
Let st := fstep_of cci s (VoPoll sc).

Lemma c07_idle_step_ok :
  IBE s ->
  c07_idle_pre (fs_now st) (fs_pre st) && c07_poll_done st && c07_wnd_status_same st = true ->
  c07_pkts st = [].
Proof.
  intros [Hi Hc] G. subst st. rewrite !andb_true_iff in G. destruct G as ((G1 & G2) & G3).
  destruct (poll_done_step cci s _ G2) as (sc' & s' & Eo & E & T & N). injection Eo as <-. clear G2.
  rewrite (fstep_of_poll cci s sc s' _ E) in *.
  unfold c07_wnd_status_same in G3. unfold c07_pkts.
  cbn [fs_now fs_pre fs_post fs_result fp_of_vsock f_last_sent_window] in *.
  rewrite N in G1. rewrite (c07_idle_poll_silent s sc s' Hi Hc G1 E T G3). reflexivity.
Qed.

Lemma c07_poll_done_ibe : c07_poll_done st = true -> IBE (vstep_state cci s (VoPoll sc)).
Proof.
  intros D. subst st. destruct (poll_done_step cci s _ D) as (sc' & s' & Eo & E & T & _).
  injection Eo as <-. destruct (vstep_poll cci s sc s' _ E) as [Es _]. rewrite Es.
  eapply poll_done_ibe; eassumption.
Qed.

Lemma c07_poll_live_ibe :
  poll_finished (vstep_out cci s (VoPoll sc)) = false -> IBE s -> IBE (vstep_state cci s (VoPoll sc)).
Proof.
  intros F K. destruct (poll cci (VSockRec.set_sends s sc)) as [s' r] eqn:E.
  destruct (vstep_poll cci s sc s' _ E) as [Es Eo]. rewrite Es. rewrite Eo in F.
  destruct r; try discriminate. eapply poll_keeps_ibe; [|exact E]. exact K.
Qed.
End PollStep.

Theorem c07_idle_walk_trace : forall ops b (s : vsock),
  (b = false -> IBE s) -> c07_idle_walk b (ftrace cci s ops) = true.
Proof.
  induction ops as [|o rest IH]; intros b s Hb; [reflexivity|].
  rewrite ftrace_cons'. cbn [c07_idle_walk]. rewrite fstep_of_event.
  destruct o; cbn [fevent_of];
    try (rewrite nonpoll_not_finished by (intros sc0; discriminate);
         apply IH; intro Hb'; apply nonpoll_ibe; [exact I | apply Hb; exact Hb']);
    try (rewrite nonpoll_not_finished by (intros sc0; discriminate); apply IH; discriminate).
  (* poll *)
  apply andb_true_intro. split.
  - destruct b; [reflexivity|]. cbn [negb andb].
    match goal with |- (if ?g then _ else _) = true => destruct g eqn:G end; [|reflexivity].
    rewrite (c07_idle_step_ok s script (Hb eq_refl) G). reflexivity.
  - destruct (poll_finished (vstep_out cci s (VoPoll script))) eqn:F; [reflexivity|].
    apply IH. intro Hb'.
    destruct (c07_poll_done (fstep_of cci s (VoPoll script))) eqn:D.
    + apply c07_poll_done_ibe. exact D.
    + apply c07_poll_live_ibe; [exact F | apply Hb; exact Hb'].
Qed.

Lemma ibe_vsock_new : forall mk c (s : vsock), vsock_new cci mk c = Some s -> IBE s.
Proof.
  intros mk c s H. unfold vsock_new in H.
  destruct (match (if vc_incoming c then None else _) with Some r => _ | None => _ end); [|discriminate].
  inversion H; subst. split; reflexivity.
Qed.

(* from every state whose inbox is drained and open *)
Theorem c07_idle_silent_from : forall cfg ops (s : vsock),
  v_inbox s = [] -> v_inbox_closed s = false ->
  c07_idle_silent_partial cfg (ftrace cci s ops) = true.
Proof.
  intros cfg ops s Hi Hc. unfold c07_idle_silent_partial. apply c07_idle_walk_trace.
  intros _. split; assumption.
Qed.

Theorem c07_idle_silent_trace : forall (cfg : vconfig) mk c (s0 : vsock) ops,
  vsock_new cci mk c = Some s0 -> c07_idle_silent_partial cfg (ftrace cci s0 ops) = true.
Proof.
  intros cfg mk c s0 ops H. destruct (ibe_vsock_new mk c s0 H) as [Hi Hc].
  apply c07_idle_silent_from; assumption.
Qed.

End WithCC.
