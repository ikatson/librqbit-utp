(* C06, second part: duplicate-ACK threshold (Conn/Recovery.v), fast retransmit, Karn. *)
From Utp Require Import Base.Prelude Wire.SeqNr Wire.Header Rtt.Rtte Mtu.SegSizes Rx.Rx Tx.Ring Tx.Segments Tx.Segments_Proofs
  Conn.Recovery Conn.Msg Conn.VSockRec Conn.VSock Conn.VSock_LemmasTx Conn.VSock_LemmasIn.

(* ---- how duplicates are counted ---- *)
Lemma count_sack_three h d k :
  ch_sack h = Some k -> 3 <= count_ones (sk_bits k) -> count_sack_duplicates h d = Some 3.
Proof.
  intros E H. unfold count_sack_duplicates, SACK_DUP_THRESH. rewrite E.
  destruct (Z.leb_spec 3 (count_ones (sk_bits k))); [reflexivity|lia].
Qed.

Lemma count_sack_one h d k :
  ch_sack h = Some k -> count_ones (sk_bits k) < 3 -> d + 1 <= 255 -> count_sack_duplicates h d = Some (d + 1).
Proof.
  intros E H Hd. unfold count_sack_duplicates, SACK_DUP_THRESH. rewrite E.
  destruct (Z.leb_spec 3 (count_ones (sk_bits k))); [lia|].
  destruct (Z.leb_spec (d + 1) 255); [reflexivity|lia].
Qed.

Lemma count_sack_none h d : ch_sack h = None -> count_sack_duplicates h d = Some 0.
Proof. intro E. unfold count_sack_duplicates. rewrite E. reflexivity. Qed.

Lemma count_non_sack_repeat h d w a :
  ch_type h = ST_STATE -> a = ch_ack h -> w = ch_wnd h ->
  count_non_sack_duplicates h d (Some (w, a)) = (Z.min 255 (d + 1), Some (w, a)).
Proof.
  intros Ht -> ->. unfold count_non_sack_duplicates. rewrite Ht, !Z.eqb_refl. reflexivity.
Qed.

Lemma count_non_sack_reset h d la :
  (match la with
   | Some (w, a) => ch_type h <> ST_STATE \/ a <> ch_ack h \/ w <> ch_wnd h
   | None => True
   end) ->
  count_non_sack_duplicates h d la = (0, Some (ch_wnd h, ch_ack h)).
Proof.
  unfold count_non_sack_duplicates. destruct la as [[w a]|]; [|reflexivity].
  intros [H|[H|H]].
  - destruct (ch_type h); try reflexivity. congruence.
  - destruct (Z.eqb_spec a (ch_ack h)); [congruence|]. rewrite andb_false_r. reflexivity.
  - destruct (Z.eqb_spec w (ch_wnd h)); [congruence|]. cbn [negb]. rewrite andb_false_r. reflexivity.
Qed.

Section WithCC.
Context {CC : Type} (cci : cc_iface CC).
Notation vsock := (vsock CC).

Definition counted_dups (r : recovery) (h : chdr) (d : Z) : option Z :=
  if rv_supports_sack r || (match ch_sack h with Some _ => true | None => false end)
  then count_sack_duplicates h d
  else Some (fst (count_non_sack_duplicates h d (rv_last_ack r))).

(* (i) from CountingDuplicates the phase becomes Recovering exactly when the count reaches 3 *)
Theorem dup_threshold r h segs ls cc now rtt d r' segs' cc' :
  rv_phase r = CountingDuplicates d -> ss_segs segs <> [] ->
  recovery_on_ack cci r h segs ls cc now rtt = Some (r', segs', cc') ->
  exists c, counted_dups r h d = Some c /\
    (c < 3 -> rv_phase r' = CountingDuplicates c /\ segs' = segs /\ cc' = cc) /\
    (3 <= c -> exists rc, rv_phase r' = Recovering rc /\
                 rc_high_rxt rc = wsub16 (ss_snd_una segs) 1 /\ rc_recovery_point rc = ls /\
                 rc_total_retx rc = 0 /\ cc' = cc_on_enter_recovery cci cc now).
Proof.
  intros Hph Hne. unfold recovery_on_ack, counted_dups. cbn [rv_phase rv_supports_sack rv_last_ack].
  rewrite Hph. destruct (ss_segs segs) as [|g0 gs] eqn:Es; [congruence|].
  destruct (rv_supports_sack r || _).
  - destruct (count_sack_duplicates h d) as [c|]; [|discriminate].
    unfold SACK_DUP_THRESH. destruct (Z.ltb_spec c 3) as [Hc|Hc].
    + intro H; injection H as <- <- <-. exists c. cbn [rv_phase]. split; [reflexivity|]. split; [auto|lia].
    + destruct (calc_pipe _ _ _ _ _) as [[[sg pipe] recalc]|]; [|discriminate].
      intro H; injection H as <- <- <-. exists c. cbn [rv_phase]. split; [reflexivity|]. split; [lia|].
      intros _. eexists. split; [reflexivity|]. cbn. auto.
  - destruct (count_non_sack_duplicates h d (rv_last_ack r)) as [c la'].
    cbn [fst]. unfold SACK_DUP_THRESH. destruct (Z.ltb_spec c 3) as [Hc|Hc].
    + intro H; injection H as <- <- <-. exists c. cbn [rv_phase]. split; [reflexivity|]. split; [auto|lia].
    + destruct (calc_pipe _ _ _ _ _) as [[[sg pipe] recalc]|]; [|discriminate].
      intro H; injection H as <- <- <-. exists c. cbn [rv_phase]. split; [reflexivity|]. split; [lia|].
      intros _. eexists. split; [reflexivity|]. cbn. auto.
Qed.

Theorem dup_empty_table_resets r h segs ls cc now rtt d r' segs' cc' :
  rv_phase r = CountingDuplicates d -> ss_segs segs = [] ->
  recovery_on_ack cci r h segs ls cc now rtt = Some (r', segs', cc') ->
  rv_phase r' = CountingDuplicates 0 /\ segs' = segs /\ cc' = cc.
Proof.
  intros Hph He. unfold recovery_on_ack. cbn [rv_phase]. rewrite Hph, He.
  intro H; injection H as <- <- <-. cbn [rv_phase]. auto.
Qed.

Theorem dup_ignored_until_recovery_point r h segs ls cc now rtt rp r' segs' cc' :
  rv_phase r = IgnoringUntilRecoveryPoint rp ->
  recovery_on_ack cci r h segs ls cc now rtt = Some (r', segs', cc') ->
  is_recovering r' = false /\ segs' = segs /\ cc' = cc /\
  (rv_phase r' = IgnoringUntilRecoveryPoint rp \/
   (seq_ge (ch_ack h) rp = true /\ rv_phase r' = CountingDuplicates 0)).
Proof.
  intros Hph. unfold recovery_on_ack, is_recovering. cbn [rv_phase]. rewrite Hph.
  destruct (seq_ge (ch_ack h) rp) eqn:E; intro H; injection H as <- <- <-; cbn [rv_phase];
    (split; [reflexivity|]); (split; [reflexivity|]); (split; [reflexivity|]); [right; split; reflexivity|left; reflexivity].
Qed.

(* (i) fast retransmit: in Recovering with no retransmission made yet the first item of the
   recovery iterator goes out although no RTO expired *)
Theorem fast_retransmit s s' rc f rest s1 :
  v_transport_pending s = false ->
  timer_expired (v_t_retransmit s) (v_now s) = false ->
  v_rto_retransmissions s = 0 ->
  ss_segs (v_segs s) <> [] ->
  rv_phase (v_recovery s) = Recovering rc -> rc_total_retx rc = 0 ->
  rec_items s rc = f :: rest ->
  send_data s (outgoing_header s) f = SOk s1 SdSent ->
  step_st (send_tx_queue cci s) = Some s' ->
  In f (iter_for_sending (v_segs s) None) /\
  exists more, v_out s' = more ++ data_pkt s (outgoing_header s) f :: v_out s.
Proof.
  intros Hp Hexp Hcnt Hne Hph Htot Hit Hsd.
  split; [apply (rec_items_incl s rc); rewrite Hit; left; reflexivity|].
  revert H. rewrite send_tx_queue_eq, Hp. unfold rto_branch. rewrite Hexp. cbn [sbind].
  unfold after_rto_k. rewrite Hcnt. cbn [Z.ltb Z.compare].
  destruct (ss_segs (v_segs s)) as [|g0 gs]; [congruence|].
  set (h := outgoing_header s) in *.
  destruct (rec_branch s h) as [s2 ret|s2 e|] eqn:Erb; cbn [sbind]; [| |discriminate].
  - assert (Hs2 : step_st (rec_branch s h) = Some s2) by (rewrite Erb; reflexivity).
    destruct (rec_branch_spec _ _ _ Hs2) as [(Hnr & _)|(rc' & sent & sx & Eph & Hincl & Hem & P & A1 & _ & _ & _ & _ & _ & Hfirst)].
    { unfold is_recovering in Hnr. rewrite Hph in Hnr. discriminate. }
    rewrite Hph in Eph. injection Eph as <-.
    specialize (Hfirst Htot f rest Hit). rewrite Hsd in Hfirst. destruct Hfirst as (sent' & ->).
    destruct Hem as (_ & Ho & _). cbn [map rev] in Ho. rewrite <- app_assoc in Ho. cbn [app] in Ho.
    destruct ret.
    + cbn [step_st]. intro H; injection H as <-. eexists. rewrite A1, Ho. reflexivity.
    + intro H. destruct (new_branch_spec cci _ _ _ H) as (sn & rn & s3 & _ & (_ & Ho3 & _) & _ & _ & B1 & _).
      eexists. rewrite B1, Ho3, A1, Ho, app_assoc. reflexivity.
  - cbn [step_st]. intro H; injection H as <-.
    assert (Hs2 : step_st (rec_branch s h) = Some s2) by (rewrite Erb; reflexivity).
    destruct (rec_branch_spec _ _ _ Hs2) as [(_ & Hx & _)|(rc' & sent & sx & Eph & Hincl & Hem & P & A1 & _ & _ & _ & _ & _ & Hfirst)];
      [rewrite Erb in Hx; discriminate|].
    rewrite Hph in Eph. injection Eph as <-.
    specialize (Hfirst Htot f rest Hit). rewrite Hsd in Hfirst. destruct Hfirst as (sent' & ->).
    destruct Hem as (_ & Ho & _). cbn [map rev] in Ho. rewrite <- app_assoc in Ho. cbn [app] in Ho.
    eexists. rewrite A1, Ho. reflexivity.
Qed.

End WithCC.

(* ---- (j) Karn: an RTT sample only comes from a segment sent exactly once ---- *)
Definition rtt_from (l : list seg) (now : Z) (o : option Z) : Prop :=
  match o with
  | None => True
  | Some x => exists g ts, In g l /\ sg_sent g = SentTime ts /\ x = sat_sub now ts
  end.

Lemma update_rtt_from l now o s : rtt_from l now o -> In s l -> rtt_from l now (update_rtt s now o).
Proof.
  intros Ho Hin. unfold update_rtt. destruct (sg_sent s) as [|ts|c t] eqn:Es; try exact Ho.
  destruct o as [y|]; cbn [rtt_min rtt_from].
  - destruct (Z.min_spec y (sat_sub now ts)) as [[_ ->]|[_ ->]]; [exact Ho|eauto].
  - eauto.
Qed.

Lemma drain_acc_from l now : forall l' a,
  incl l' l -> rtt_from l now (ac_rtt a) -> rtt_from l now (ac_rtt (drain_acc l' now a)).
Proof.
  induction l' as [|s r IH]; intros a Hi Ha; cbn [drain_acc]; [exact Ha|].
  apply IH; [intros x Hx; apply Hi; right; exact Hx|]. cbn [ac_rtt].
  apply update_rtt_from; [exact Ha|apply Hi; left; reflexivity].
Qed.

Lemma apply_sack_from l now : forall l' bits a l'' a',
  incl l' l -> rtt_from l now (ac_rtt a) -> apply_sack l' bits now a = (l'', a') ->
  rtt_from l now (ac_rtt a').
Proof.
  induction l' as [|s r IH]; intros bits a l'' a' Hi Ha; cbn [apply_sack].
  - intro H; injection H as _ <-. exact Ha.
  - destruct bits as [|b bs]; [intro H; injection H as _ <-; exact Ha|].
    assert (Hr : incl r l) by (intros x Hx; apply Hi; right; exact Hx).
    destruct (negb (sg_delivered s) && b).
    + destruct (apply_sack r bs now _) as [r' a''] eqn:E. intro H; injection H as _ <-.
      eapply IH; [exact Hr| |exact E]. cbn [ac_rtt]. apply update_rtt_from; [exact Ha|apply Hi; left; reflexivity].
    + destruct (apply_sack r bs now a) as [r' a''] eqn:E. intro H; injection H as _ <-.
      eapply IH; [exact Hr|exact Ha|exact E].
Qed.

Lemma incl_firstn {A} n (l : list A) : incl (firstn n l) l.
Proof. intros x Hx. rewrite <- (firstn_skipn n l). apply in_or_app. left; exact Hx. Qed.
Lemma incl_skipn {A} n (l : list A) : incl (skipn n l) l.
Proof. intros x Hx. rewrite <- (firstn_skipn n l). apply in_or_app. right; exact Hx. Qed.

Theorem karn_sample_source t now ack sk t' r x :
  remove_up_to_ack t now ack sk = (t', r) -> ar_new_rtt r = Some x ->
  exists g ts, In g (ss_segs t) /\ sg_sent g = SentTime ts /\ x = sat_sub now ts.
Proof.
  unfold remove_up_to_ack.
  set (dc := if 0 <=? seq_sub ack (ss_snd_una t) then _ else 0%nat).
  set (a1 := drain_acc (firstn dc (ss_segs t)) now _).
  assert (H1 : rtt_from (ss_segs t) now (ac_rtt a1)).
  { apply drain_acc_from; [apply incl_firstn|exact I]. }
  destruct (sack_phase t (skipn dc (ss_segs t)) a1 _ now ack sk) as [[[rest2 a2] depth] lse] eqn:E2.
  assert (H2 : rtt_from (ss_segs t) now (ac_rtt a2)).
  { unfold sack_phase in E2.
    destruct (skipn dc (ss_segs t)) as [|s0 r0] eqn:Er; [injection E2 as _ <- _ _; exact H1|].
    destruct sk as [k|]; [|injection E2 as _ <- _ _; exact H1].
    destruct (seq_gt _ ack); [|injection E2 as _ <- _ _; exact H1].
    assert (Hrest : incl (s0 :: r0) (ss_segs t)) by (rewrite <- Er; apply incl_skipn).
    destruct (0 <=? seq_sub (wadd16 ack 2) _).
    - destruct (apply_sack (skipn _ (s0 :: r0)) (sk_bits k) now _) as [tl' a'] eqn:Ea.
      injection E2 as _ <- _ _.
      refine (apply_sack_from (ss_segs t) now _ _ {| ac_rtt := ac_rtt a1; ac_maxp := ac_maxp a1; ac_cnt := 0; ac_bytes := 0 |} _ _ _ H1 Ea).
      intros y Hy. apply Hrest. eapply incl_skipn; exact Hy.
    - destruct (apply_sack (s0 :: r0) _ now _) as [l' a'] eqn:Ea.
      injection E2 as _ <- _ _. exact (apply_sack_from (ss_segs t) now _ _ {| ac_rtt := ac_rtt a1; ac_maxp := ac_maxp a1; ac_cnt := 0; ac_bytes := 0 |} _ _ Hrest H1 Ea). }
  destruct (strip_delivered rest2 0 0) as [[rest3 cnt3] bytes3].
  intro H; injection H as _ <-. cbn [ar_new_rtt]. intro Hx. rewrite Hx in H2. exact H2.
Qed.

Section WithCC2.
Context {CC : Type} (cci : cc_iface CC).

(* at the connection: the estimator changes in the ACK processing of a message only by one sample,
   taken outside Recovering, and that sample comes from a segment transmitted exactly once *)
Theorem karn_conn (s1 : vsock CC) h s2 res :
  pim_ack cci s1 h = Some (s2, res) ->
  v_rtte s2 = v_rtte s1 \/
  (is_recovering (v_recovery s1) = false /\
   exists x g ts, sample (v_rtte s1) x = Some (v_rtte s2) /\
     In g (ss_segs (v_segs s1)) /\ sg_sent g = SentTime ts /\ x = sat_sub (v_now s1) ts).
Proof.
  unfold pim_ack.
  destruct (remove_up_to_ack (v_segs s1) (v_now s1) (ch_ack h) (ch_sack h)) as [segs1 res0] eqn:Er.
  destruct (is_recovering (v_recovery s1)) eqn:Erec.
  - destruct (cc_on_ack cci _ _ _ _) as [cc3|]; [|discriminate].
    destruct (recovery_on_ack cci _ _ _ _ _ _ _) as [[[rec1 segs2] cc4]|]; [|discriminate].
    intro H; injection H as <- _. left. vsimpl. reflexivity.
  - destruct (ar_new_rtt res0) as [x|] eqn:Ex.
    + destruct (sample (v_rtte s1) x) as [rt|] eqn:Es; [|discriminate].
      destruct (cc_on_ack cci _ _ _ _) as [cc3|]; [|discriminate].
      destruct (recovery_on_ack cci _ _ _ _ _ _ _) as [[[rec1 segs2] cc4]|]; [|discriminate].
      intro H; injection H as <- _. right. split; [reflexivity|].
      destruct (karn_sample_source _ _ _ _ _ _ _ Er Ex) as (g & ts & Hin & Hs & Hx).
      exists x, g, ts. vsimpl. auto.
    + destruct (cc_on_ack cci _ _ _ _) as [cc3|]; [|discriminate].
      destruct (recovery_on_ack cci _ _ _ _ _ _ _) as [[[rec1 segs2] cc4]|]; [|discriminate].
      intro H; injection H as <- _. left. vsimpl. reflexivity.
Qed.
End WithCC2.

(* ---- (h) PARTIAL: what a datagram carries, in terms of the stream the application wrote ---- *)
(* under the joint invariant of ring and table (removed_offset = bytes truncated from the ring, and
   Tx/Ring_Proofs.tx_inv: the ring is the suffix of g_written after g_removed bytes) the payload cut
   from the ring at abs - removed is the slice [abs, abs + size) of everything ever written *)
Lemma payload_is_stream_slice (gw ring : list Z) (gr abs size : Z) :
  gw = firstn (Z.to_nat gr) gw ++ ring -> 0 <= gr <= abs -> (Z.to_nat gr <= length gw)%nat ->
  firstn (Z.to_nat size) (skipn (Z.to_nat (abs - gr)) ring) =
  firstn (Z.to_nat size) (skipn (Z.to_nat abs) gw).
Proof.
  intros Hg Hr Hl. rewrite Hg at 1. rewrite skipn_app.
  assert (Hlen : length (firstn (Z.to_nat gr) gw) = Z.to_nat gr) by (apply firstn_length_le; lia).
  rewrite Hlen. rewrite (skipn_all2 (firstn (Z.to_nat gr) gw)) by lia. cbn [app].
  replace (Z.to_nat abs - Z.to_nat gr)%nat with (Z.to_nat (abs - gr)) by lia. reflexivity.
Qed.

(* the stream only grows by appending: a slice that lay within it stays the same bytes *)
Lemma stream_slice_stable (gw ext : list Z) (abs size : Z) :
  0 <= abs -> 0 <= size -> abs + size <= Z.of_nat (length gw) ->
  firstn (Z.to_nat size) (skipn (Z.to_nat abs) (gw ++ ext)) =
  firstn (Z.to_nat size) (skipn (Z.to_nat abs) gw).
Proof.
  intros Ha Hs Hb. rewrite skipn_app, firstn_app, skipn_length.
  replace (Z.to_nat size - (length gw - Z.to_nat abs))%nat with 0%nat by lia.
  cbn [firstn]. apply app_nil_r.
Qed.

(* two transmissions of a segment with the same (abs, size), at two moments between which the
   joint invariant held and the stream only grew, carry the same bytes *)
Theorem stable_content_partial (gw1 ext ring1 ring2 : list Z) (gr1 gr2 abs size : Z) :
  gw1 = firstn (Z.to_nat gr1) gw1 ++ ring1 ->
  gw1 ++ ext = firstn (Z.to_nat gr2) (gw1 ++ ext) ++ ring2 ->
  0 <= gr1 <= abs -> 0 <= gr2 <= abs -> (Z.to_nat gr1 <= length gw1)%nat -> (Z.to_nat gr2 <= length (gw1 ++ ext))%nat ->
  0 <= size -> abs + size <= Z.of_nat (length gw1) ->
  firstn (Z.to_nat size) (skipn (Z.to_nat (abs - gr1)) ring1) =
  firstn (Z.to_nat size) (skipn (Z.to_nat (abs - gr2)) ring2).
Proof.
  intros H1 H2 R1 R2 L1 L2 Hs Hb.
  rewrite (payload_is_stream_slice gw1 ring1 gr1 abs size H1 R1 L1).
  rewrite (payload_is_stream_slice (gw1 ++ ext) ring2 gr2 abs size H2 R2 L2).
  symmetry. apply stream_slice_stable; lia.
Qed.

(* the dispatcher's own step that re-establishes the joint invariant: remove_up_to_ack advances
   removed_offset by exactly the acknowledged bytes it reports, truncate_front by what it is given *)
Theorem joint_inv_ack_then_truncate t now ack sk t' r (tx tx' : tx) :
  seg_inv t -> remove_up_to_ack t now ack sk = (t', r) ->
  ss_removed t = g_removed tx -> ar_acked_bytes r <= Z.of_nat (length (ring tx)) ->
  truncate_front tx (ar_acked_bytes r) = (tx', TrOk) ->
  ss_removed t' = g_removed tx'.
Proof.
  intros Hinv Hr Hj Hle Ht.
  destruct (remove_up_to_ack_inv _ _ _ _ _ _ Hinv Hr) as (_ & Hb & Hb0 & _).
  unfold truncate_front in Ht.
  destruct (Z.min (ar_acked_bytes r) (Z.of_nat (length (ring tx))) =? ar_acked_bytes r); [|discriminate].
  injection Ht as <-. cbn [g_removed upd]. lia.
Qed.

(* ---- the joint relation of ring and table across process_all_incoming_messages ----
   Since the repair of D17 (finding T1) the bookkeeping after the receive loop runs whichever
   way the loop ended, so the relation is re-established also in the poll in which the message
   channel closes.  p = bytes acknowledged by the messages processed so far in this call and not
   yet truncated from the ring. *)
Lemma sum_sizes_len0 (l : list seg) : length l = 0%nat -> sum_sizes l = 0.
Proof. destruct l; [reflexivity|discriminate]. Qed.

(* an ACK that removed no segment removed no byte *)
Lemma remove_up_to_ack_zero t now ack sk t' r :
  remove_up_to_ack t now ack sk = (t', r) -> ar_acked_segments r = 0 -> ar_acked_bytes r = 0.
Proof.
  unfold remove_up_to_ack.
  set (dc := if 0 <=? seq_sub ack (ss_snd_una t) then _ else 0%nat).
  set (a1 := drain_acc (firstn dc (ss_segs t)) now _).
  destruct (drain_acc_spec (firstn dc (ss_segs t)) now {| ac_rtt := None; ac_maxp := 0; ac_cnt := 0; ac_bytes := 0 |})
    as [Hc1 Hb1]. fold a1 in Hc1, Hb1. cbn [ac_cnt ac_bytes] in Hc1, Hb1.
  destruct (sack_phase t (skipn dc (ss_segs t)) a1 _ now ack sk) as [[[rest2 a2] depth] lse].
  destruct (strip_delivered rest2 0 0) as [[rest3 cnt3] bytes3] eqn:E3.
  destruct (strip_delivered_spec _ _ _ _ _ _ E3) as (dropped & Hd & Hc3 & Hb3 & _).
  intro H; injection H as _ <-. cbn [ar_acked_segments ar_acked_bytes]. intro Hz.
  rewrite (sum_sizes_len0 (firstn dc (ss_segs t))) in Hb1 by lia.
  rewrite (sum_sizes_len0 dropped) in Hb3 by lia. lia.
Qed.

Lemma calc_pipe_fields t hr hd rtt now t' p rc :
  calc_pipe t hr hd rtt now = Some (t', p, rc) ->
  ss_removed t' = ss_removed t /\ ss_offset t' = ss_offset t.
Proof.
  unfold calc_pipe. destruct (_ <? _); [discriminate|].
  destruct (pipe_loop _ t hr _ now _) as [u a]. intro H; injection H as <- _ _.
  unfold Segments.set_segs; cbn [ss_removed ss_offset]. auto.
Qed.

Section Joint.
Context {CC : Type} (cci : cc_iface CC).
Notation vsock := (vsock CC).

Definition joint_rel (p : Z) (s : vsock) : Prop :=
  seg_inv (v_segs s) /\
  g_removed (v_tx s) + p = ss_removed (v_segs s) /\
  ss_offset (v_segs s) <= g_removed (v_tx s) + Z.of_nat (length (ring (v_tx s))).

(* the table and the two ring fields the relation reads are unchanged *)
Definition jt_frame (s s' : vsock) : Prop :=
  v_segs s' = v_segs s /\ ring (v_tx s') = ring (v_tx s) /\ g_removed (v_tx s') = g_removed (v_tx s).

Lemma jt_refl s : jt_frame s s.
Proof. unfold jt_frame; repeat split. Qed.

Lemma jt_trans a b c : jt_frame a b -> jt_frame b c -> jt_frame a c.
Proof. unfold jt_frame. intros (A1&A2&A3) (B1&B2&B3). repeat split; congruence. Qed.

Lemma joint_frame p s s' : joint_rel p s -> jt_frame s s' -> joint_rel p s'.
Proof. unfold joint_rel, jt_frame. intros (A&B&C) (E1&E2&E3). rewrite E1, E2, E3. auto. Qed.

Lemma sd_jt s s' : sd_frame s s' -> v_segs s' = v_segs s -> jt_frame s s'.
Proof.
  unfold sd_frame, jt_frame. intros (Htx & _) Hs. rewrite Htx. auto.
Qed.

Lemma send_ack_jt (s : vsock) :
  match send_ack s with
  | SOk s1 _ | SErr s1 _ => jt_frame s s1
  | SPanic => True
  end.
Proof.
  unfold send_ack. pose proof (send_control_packet_spec s
    (hdr_with (outgoing_header s) ST_STATE (ch_seq (outgoing_header s)) (sack_of_rx (v_rx s)))) as H.
  destruct (send_control_packet s _) as [s1 [|]|s1 e|]; try exact I.
  - destruct H as (Hf & _ & A & _). apply sd_jt; assumption.
  - destruct H as (Hf & _ & A & _). apply sd_jt; assumption.
  - destruct H as (Hf & _ & A & _). apply sd_jt; assumption.
Qed.

Lemma maybe_send_fin_jt (s : vsock) :
  match maybe_send_fin s with
  | SOk s1 _ | SErr s1 _ => jt_frame s s1
  | SPanic => True
  end.
Proof.
  pose proof (maybe_send_fin_spec s) as H.
  destruct (maybe_send_fin s) as [s1 [|]|s1 e|]; try exact I.
  - destruct H as (seq & _ & _ & Hf & _ & A & _). apply sd_jt; assumption.
  - destruct H as (Hf & _ & A & _). apply sd_jt; assumption.
  - destruct H as (Hf & _ & A & _). apply sd_jt; assumption.
Qed.

Lemma state_table_jt (s : vsock) h : jt_frame s (tbl_state (state_table s h)).
Proof.
  unfold state_table, restart_remote_inactivity_timer, jt_frame.
  destruct (ch_type h); destruct (v_state s); cbn [tbl_state negb];
    repeat (match goal with |- context [if ?c then _ else _] => destruct c end);
    cbn [tbl_state]; vsimpl; repeat split.
Qed.

Lemma pim_data_jt s2 m res offset s' r :
  pim_data cci s2 m res offset = SOk s' r -> jt_frame s2 s' /\ r = res.
Proof.
  unfold pim_data. destruct (offset <? 0).
  { intro H; injection H as <- <-. split; [|reflexivity]. unfold jt_frame, force_immediate_ack. vsimpl. repeat split. }
  cbv zeta.
  destruct (rx_add_remove _ KData (m_payload m) offset) as [[rx1 ar] w].
  set (s4 := add_wakes _ _).
  assert (H4 : jt_frame s2 s4) by (unfold s4, add_wakes, jt_frame; vsimpl; repeat split).
  clearbody s4.
  destruct ar as [r0|]; [|discriminate].
  destruct (add_err r0); [discriminate|].
  set (s5 := match r0 with ArConsumed _ _ => _ | _ => s4 end).
  assert (H5 : jt_frame s2 s5).
  { eapply jt_trans; [exact H4|]. unfold s5, restart_remote_inactivity_timer, jt_frame.
    destruct r0; vsimpl; repeat split. }
  clearbody s5.
  destruct (_ || _).
  - pose proof (send_ack_jt (force_immediate_ack s5)) as Ha.
    destruct (send_ack (force_immediate_ack s5)) as [s6 b|s6 e|]; cbn [sbind]; [|discriminate|discriminate].
    intro H; injection H as <- <-. split; [|reflexivity].
    eapply jt_trans; [exact H5|]. eapply jt_trans; [|exact Ha].
    unfold jt_frame, force_immediate_ack; vsimpl; repeat split.
  - intro H; injection H as <- <-. auto.
Qed.

Lemma pim_fin_jt s2 m res offset seen s' r :
  pim_fin s2 m res offset seen = SOk s' r -> jt_frame s2 s' /\ r = res.
Proof.
  unfold pim_fin. cbv zeta. destruct (_ && _).
  - destruct (rx_add_remove _ KFin _ _) as [[rx1 ar] w].
    destruct ar as [r0|]; [|discriminate].
    destruct (add_err r0); [discriminate|].
    unfold mark_vsock_closed. intro H; injection H as <- <-. split; [|reflexivity].
    unfold jt_frame, add_wakes, force_immediate_ack. vsimpl. cbn [ring g_removed upd]. repeat split.
  - intro H; injection H as <- <-. split; [|reflexivity].
    unfold jt_frame, force_immediate_ack. vsimpl. repeat split.
Qed.

Lemma recovery_on_ack_segs r h segs ls cc now rtt r' segs' cc' :
  seg_inv segs -> recovery_on_ack cci r h segs ls cc now rtt = Some (r', segs', cc') ->
  seg_inv segs' /\ ss_removed segs' = ss_removed segs /\ ss_offset segs' = ss_offset segs.
Proof.
  intros Hinv. unfold recovery_on_ack. cbn [rv_phase rv_supports_sack rv_last_ack].
  destruct (rv_phase r) as [rp|d|rc].
  - destruct (seq_ge _ _); intro H; injection H as _ <- _; auto.
  - destruct (ss_segs segs) as [|g0 gs]; [intro H; injection H as _ <- _; auto|].
    destruct (rv_supports_sack r || _).
    + destruct (count_sack_duplicates h d) as [c|]; [|discriminate].
      destruct (c <? SACK_DUP_THRESH); [intro H; injection H as _ <- _; auto|].
      destruct (calc_pipe _ _ _ _ _) as [[[sg pipe] recalc]|] eqn:Ec; [|discriminate].
      intro H; injection H as _ <- _.
      destruct (calc_pipe_fields _ _ _ _ _ _ _ _ Ec) as (A & B).
      split; [eapply calc_pipe_inv; eauto|auto].
    + destruct (count_non_sack_duplicates h d (rv_last_ack r)) as [c la'].
      destruct (c <? SACK_DUP_THRESH); [intro H; injection H as _ <- _; auto|].
      destruct (calc_pipe _ _ _ _ _) as [[[sg pipe] recalc]|] eqn:Ec; [|discriminate].
      intro H; injection H as _ <- _.
      destruct (calc_pipe_fields _ _ _ _ _ _ _ _ Ec) as (A & B).
      split; [eapply calc_pipe_inv; eauto|auto].
  - destruct (seq_ge _ _); intro H; injection H as _ <- _; auto.
Qed.

(* what the result of a message, or the sum of the results of several, says about removed bytes *)
Definition acc_ok (a : on_ack_result) : Prop :=
  0 <= ar_acked_segments a /\ 0 <= ar_acked_bytes a /\ (ar_acked_segments a = 0 -> ar_acked_bytes a = 0).

Lemma acc_ok_default : acc_ok on_ack_result_default.
Proof. unfold acc_ok, on_ack_result_default; cbn [ar_acked_segments ar_acked_bytes]. lia. Qed.

Lemma acc_ok_update a b : acc_ok a -> acc_ok b -> acc_ok (result_update a b).
Proof. unfold acc_ok, result_update; cbn [ar_acked_segments ar_acked_bytes]. lia. Qed.

(* what pim_ack computes, when it does not fail *)
Lemma pim_ack_shape (s1 s2 : vsock) h res :
  pim_ack cci s1 h = Some (s2, res) ->
  exists segs1 rtte1 cc3 rec1 segs2 cc4,
    remove_up_to_ack (v_segs s1) (v_now s1) (ch_ack h) (ch_sack h) = (segs1, res) /\
    recovery_on_ack cci (v_recovery s1) h segs1 (v_last_sent_seq_nr s1) cc3 (v_now s1) (roundtrip_time rtte1)
      = Some (rec1, segs2, cc4) /\
    s2 = set_recovery
           (set_last_remote_window
              (set_last_remote_timestamp
                 (set_cc (set_rtte (set_ss (VSockRec.set_segs s1 segs2)
                                      (on_payload_delivered (v_ss s1) (ar_max_acked_payload res))) rtte1) cc4)
                 (ch_ts h))
              (ch_wnd h))
           rec1.
Proof.
  unfold pim_ack. destruct (remove_up_to_ack _ _ _ _) as [segs1 res0].
  destruct (match is_recovering (v_recovery s1) with true => _ | false => _ end) as [rtte1|]; [|discriminate].
  destruct (cc_on_ack cci _ _ _ _) as [cc3|]; [|discriminate].
  destruct (recovery_on_ack cci _ _ _ _ _ _ _) as [[[rec1 segs2] cc4]|] eqn:Eo; [|discriminate].
  intro H; injection H as <- <-. exists segs1, rtte1, cc3, rec1, segs2, cc4.
  split; [reflexivity|]. split; [exact Eo | reflexivity].
Qed.

Lemma pim_ack_joint s1 h s2 res p :
  joint_rel p s1 -> pim_ack cci s1 h = Some (s2, res) ->
  joint_rel (p + ar_acked_bytes res) s2 /\ acc_ok res.
Proof.
  intros (Hinv & Hj & Hb) H.
  destruct (pim_ack_shape _ _ _ _ H) as (segs1 & rtte1 & cc3 & rec1 & segs2 & cc4 & Er & Eo & ->).
  destruct (remove_up_to_ack_inv _ _ _ _ _ _ Hinv Er) as (I1 & B1 & B2 & O1 & _ & C1).
  destruct (recovery_on_ack_segs _ _ _ _ _ _ _ _ _ _ I1 Eo) as (I2 & R2 & O2).
  pose proof (remove_up_to_ack_zero _ _ _ _ _ _ Er) as Hz.
  split; [|unfold acc_ok; auto].
  unfold joint_rel. vsimpl. split; [exact I2|]. split; lia.
Qed.

Lemma process_incoming_message_joint (s : vsock) m s' r p :
  joint_rel p s -> process_incoming_message cci s m = SOk s' r ->
  joint_rel (p + ar_acked_bytes r) s' /\ acc_ok r.
Proof.
  intro Hj. rewrite process_incoming_message_eq.
  pose proof (state_table_jt s (m_hdr m)) as Ht.
  destruct (state_table s (m_hdr m)) as [s1|s1 e|s1]; cbn [tbl_state] in Ht; [|discriminate|].
  - intro H; injection H as <- <-. split; [|apply acc_ok_default].
    cbn [on_ack_result_default ar_acked_bytes]. replace (p + 0) with p by lia.
    eapply joint_frame; eauto.
  - unfold pim_cont. destruct (pim_ack cci s1 (m_hdr m)) as [[s2 res]|] eqn:Ea; [|discriminate].
    destruct (pim_ack_joint _ _ _ _ p (joint_frame _ _ _ Hj Ht) Ea) as (Hj2 & Hok). cbv zeta.
    destruct (ch_type (m_hdr m)).
    + intro H. destruct (pim_data_jt _ _ _ _ _ _ H) as (Hf & ->). split; [eapply joint_frame; eauto|exact Hok].
    + intro H. destruct (pim_fin_jt _ _ _ _ _ _ _ H) as (Hf & ->). split; [eapply joint_frame; eauto|exact Hok].
    + intro H; injection H as <- <-. auto.
    + intro H; injection H as <- <-. auto.
    + intro H; injection H as <- <-. auto.
Qed.

Lemma recv_loop_joint : forall fuel (s : vsock) acc s' r early,
  acc_ok acc -> joint_rel (ar_acked_bytes acc) s ->
  recv_loop cci fuel s acc = SOk s' (r, early) ->
  acc_ok r /\ joint_rel (ar_acked_bytes r) s'.
Proof.
  assert (Hbase : forall (s : vsock) (acc : on_ack_result) s' r early,
    acc_ok acc -> joint_rel (ar_acked_bytes acc) s ->
    (if v_inbox_closed s
     then sbind (maybe_send_fin (transition_to_fin_wait_1 s))
                (fun s2 _ => SOk (set_state s2 Closed) (acc, true))
     else SOk (set_inbox_waker s true) (acc, false)) = SOk s' (r, early) ->
    acc_ok r /\ joint_rel (ar_acked_bytes r) s').
  { intros s acc s' r early Hok Hj. destruct (v_inbox_closed s).
    - pose proof (maybe_send_fin_jt (transition_to_fin_wait_1 s)) as Hm.
      assert (Ht : jt_frame s (transition_to_fin_wait_1 s))
        by (unfold transition_to_fin_wait_1, jt_frame; destruct (v_state s); vsimpl; repeat split).
      destruct (maybe_send_fin (transition_to_fin_wait_1 s)) as [s2 b|s2 e|]; cbn [sbind]; [|discriminate|discriminate].
      intro H; injection H as <- <- _. split; [exact Hok|].
      eapply joint_frame; [exact Hj|]. eapply jt_trans; [exact Ht|]. eapply jt_trans; [exact Hm|].
      unfold jt_frame; vsimpl; repeat split.
    - intro H; injection H as <- <- _. split; [exact Hok|].
      eapply joint_frame; [exact Hj|]. unfold jt_frame; vsimpl; repeat split. }
  induction fuel as [|m0 fuel IH]; intros s acc s' r early Hok Hj; cbn [recv_loop];
    destruct (v_inbox s) as [|m rest] eqn:Ei; try (apply Hbase; assumption); try discriminate.
  destruct (process_incoming_message cci (set_inbox s rest) m) as [s1 r0|s1 e|] eqn:Ep; cbn [sbind];
    [|discriminate|discriminate].
  assert (Hj0 : joint_rel (ar_acked_bytes acc) (set_inbox s rest))
    by (eapply joint_frame; [exact Hj|]; unfold jt_frame; vsimpl; repeat split).
  destruct (process_incoming_message_joint _ _ _ _ _ Hj0 Ep) as (Hj1 & Hok0).
  assert (Hok1 : acc_ok (result_update acc r0)) by (apply acc_ok_update; assumption).
  assert (Hj1' : joint_rel (ar_acked_bytes (result_update acc r0)) s1) by exact Hj1.
  destruct (_ || _).
  - intro H; injection H as <- <- _. auto.
  - intro H. eapply IH; eauto.
Qed.

(* once the receive loop has returned (with either value of `early`: the channel-closed arm
   included), the rest of process_all_incoming_messages never reports BugTruncateFront and
   re-establishes removed_offset = bytes truncated from the ring, in every state *)
Theorem joint_inv_process_all (s : vsock) s1 r early :
  joint_rel 0 s ->
  recv_loop cci (v_inbox s ++ [ {| m_hdr := outgoing_header s; m_payload := [] |} ]) s
            on_ack_result_default = SOk s1 (r, early) ->
  match process_all_incoming_messages cci s with
  | SOk s' _ => joint_rel 0 s'
  | SErr _ _ => False
  | SPanic => True
  end.
Proof.
  intros Hj El. unfold process_all_incoming_messages. rewrite El. cbn [sbind].
  assert (Hj' : joint_rel (ar_acked_bytes on_ack_result_default) s) by exact Hj.
  destruct (recv_loop_joint _ _ _ _ _ _ acc_ok_default Hj' El) as ((Hs0 & Hb0 & Hz) & Hj1).
  set (s2 := if (0 <? ar_acked_segments r) || (0 <? ar_newly_sacked_segments r) then _ else s1).
  assert (H2 : jt_frame s1 s2).
  { unfold s2. destruct (_ || _); [|apply jt_refl].
    unfold restart_remote_inactivity_timer.
    destruct (ss_segs (v_segs (set_rto_retransmissions s1 0))); [destruct (our_fin_if_unacked _)|];
      unfold jt_frame; vsimpl; repeat split. }
  pose proof (joint_frame _ _ _ Hj1 H2) as Hj2. clearbody s2.
  assert (Hb : jt_frame s2 (acked_counts_as_sent s2)).
  { unfold acked_counts_as_sent. destruct (seq_gt _ _ && seq_lt _ _); unfold jt_frame; vsimpl; repeat split. }
  assert (Hfin : forall s3 : vsock, joint_rel 0 s3 ->
    match (match rv_phase (v_recovery s3) with
           | Recovering rc =>
               match calc_pipe (v_segs s3) (rc_high_rxt rc) (v_last_sent_seq_nr s3)
                               (roundtrip_time (v_rtte s3)) (v_now s3) with
               | None => SPanic
               | Some (segs', pipe, recalc) =>
                   SOk (set_recovering (VSockRec.set_segs s3 segs')
                          {| rc_recovery_point := rc_recovery_point rc; rc_high_rxt := rc_high_rxt rc;
                             rc_total_retx := rc_total_retx rc; rc_pipe := pipe; rc_recalc := recalc;
                             rc_cwnd := rc_cwnd rc |}) tt
               end
           | _ => SOk s3 tt
           end) with
    | SOk s' _ => joint_rel 0 s'
    | SErr _ _ => False
    | SPanic => True
    end).
  { intros s3 (I3 & J3 & B3). destruct (rv_phase (v_recovery s3)); try (unfold joint_rel; auto; fail).
    destruct (calc_pipe _ _ _ _ _) as [[[segs' pipe] recalc]|] eqn:Ec; [|exact I].
    destruct (calc_pipe_fields _ _ _ _ _ _ _ _ Ec) as (A & B).
    unfold joint_rel, set_recovering. vsimpl. rewrite A, B.
    split; [eapply calc_pipe_inv; eauto|auto]. }
  destruct (Z.ltb_spec 0 (ar_acked_segments r)) as [Hpos|Hneg].
  - pose proof (joint_frame _ _ _ Hj2 Hb) as Hj2b. clear Hj2 Hb. revert Hj2b.
    generalize (acked_counts_as_sent s2). clear s2 H2. intros s2 Hj2.
    destruct Hj2 as (I2 & J2 & B2).
    assert (Hle : ar_acked_bytes r <= Z.of_nat (length (ring (v_tx s2)))).
    { destruct I2 as (L1 & L2 & L3 & _). pose proof (tiled_sizes_nonneg _ _ L3). lia. }
    unfold truncate_front. cbv zeta. rewrite (Z.min_l _ _ Hle), Z.eqb_refl.
    unfold wake_writer. cbn [sbind]. apply Hfin.
    unfold joint_rel, add_wakes. vsimpl. cbn [upd ring g_removed].
    split; [exact I2|]. rewrite skipn_length. split; lia.
  - destruct Hj2 as (I2 & J2 & B2).
    cbn [sbind]. apply Hfin. unfold joint_rel. split; [exact I2|]. split; lia.
Qed.

End Joint.
