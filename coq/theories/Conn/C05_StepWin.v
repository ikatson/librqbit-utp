(* C05, window clause at step level (polls that end open, with the retransmission timer not expired at
   the start): the payload of the ST_DATA datagrams of a poll fits into min(cwnd, rwnd) minus the
   undelivered payload before the first segment sent - across the restarts of the poll loop. *)
From Utp Require Import Base.Prelude Wire.SeqNr Wire.SeqNr_Proofs Wire.Header Rtt.Rtte Rtt.Rtte_Proofs Mtu.SegSizes
  Rx.Rx Tx.Ring Tx.Segments Tx.Segments_Proofs Conn.Recovery Conn.Msg Conn.VSockRec Conn.VSock Conn.VSockRun
  Conn.VObs Conn.VSock_Lemmas Conn.VSock_LemmasTx Conn.VSock_LemmasIn Conn.VSock_LemmasStep Conn.VSock_LemmasReach
  Conn.VSock_LemmasTimers Conn.VSock_LemmasPipe Conn.C17_StepLemmas Conn.C05_Pred Conn.C05_Proofs
  Conn.C05_Flight Conn.C05_StepLemmas Conn.C05_Segs Conn.C05_Walk Conn.C05_StepZw.

(* last_sent_seq_nr after a run of send_data calls *)
Fixpoint ls_after (ls : Z) (sent : list for_sending) : Z :=
  match sent with
  | [] => ls
  | f :: r => ls_after (if seq_gt (fs_seq f) ls then fs_seq f else ls) r
  end.

Definition seq_at (u : Z) (i : nat) : Z := wadd16 u (Z.of_nat i mod M16).

Lemma seq_at_range u i : 0 <= seq_at u i < M16.
Proof. apply wadd16_range. Qed.

Lemma seq_sub_seq_at u i j :
  0 <= u < M16 -> (i < 1024)%nat -> (j < 1024)%nat -> seq_sub (seq_at u i) (seq_at u j) = Z.of_nat i - Z.of_nat j.
Proof.
  intros Hu Hi Hj. apply seq_sub_mod; try apply seq_at_range; [lia|].
  unfold seq_at, wadd16, M16 in *. lia.
Qed.

Lemma seq_sub_seq_at_u u i : 0 <= u < M16 -> (i <= 1024)%nat -> seq_sub (seq_at u i) u = Z.of_nat i.
Proof.
  intros Hu Hi. apply seq_sub_mod; try apply seq_at_range; auto; [lia|].
  unfold seq_at, wadd16, M16 in *. lia.
Qed.

Lemma seq_at_succ u i : wadd16 (seq_at u i) 1 = seq_at u (S i).
Proof. unfold seq_at, wadd16, M16. lia. Qed.

Lemma last_cons {A} (a d : A) l : last (a :: l) d = last l a.
Proof. destruct l as [|x xs]; [reflexivity|]. cbn [last]. apply last_default'. Qed.

(* with increasing indices below the tolerance, last_sent_seq_nr ends at the last one sent *)
Lemma ls_after_from u : forall sent f0,
  0 <= u < M16 ->
  Forall (fun f => fs_seq f = seq_at u (fs_idx f) /\ (fs_idx f < 1024)%nat) (f0 :: sent) ->
  sinc (map fs_idx (f0 :: sent)) ->
  ls_after (fs_seq f0) sent = fs_seq (last sent f0).
Proof.
  induction sent as [|f1 r IH]; intros f0 Hu Hall Hs; [reflexivity|].
  cbn [ls_after]. inversion Hall as [|? ? [E0 B0] Hall']; subst. inversion Hall' as [|? ? [E1 B1] _]; subst.
  cbn [map] in Hs. apply sinc_cons in Hs. destruct Hs as [Hlt Hs].
  assert (G : seq_gt (fs_seq f1) (fs_seq f0) = true).
  { unfold seq_gt. rewrite E0, E1, seq_sub_seq_at by assumption. apply Z.gtb_lt. lia. }
  rewrite G, last_cons. apply IH; assumption.
Qed.

Lemma ls_after_last u sent ls f0 :
  0 <= u < M16 ->
  Forall (fun f => fs_seq f = seq_at u (fs_idx f) /\ (fs_idx f < 1024)%nat) (f0 :: sent) ->
  sinc (map fs_idx (f0 :: sent)) ->
  seq_gt (fs_seq f0) ls = true ->
  ls_after ls (f0 :: sent) = fs_seq (last sent f0).
Proof. intros Hu Hall Hs Hgt. cbn [ls_after]. rewrite Hgt. apply (ls_after_from u); assumption. Qed.

(* where last_sent_seq_nr stands relative to u, and what the iterator started after it reaches:
   last_sent_seq_nr is the one of the start, or snd_una - 1, or the last one sent in this poll *)
Lemma ls_reach ls0 u ls (idxs : list nat) :
  0 <= ls0 < M16 -> 0 <= u < M16 -> 0 <= seq_sub (wadd16 ls0 1) u <= 1024 ->
  Forall (fun i => (i < 1024)%nat) idxs ->
  match idxs with
  | [] => ls = ls0 \/ ls = wsub16 u 1
  | i1 :: _ => ls = seq_at u (last idxs i1)
  end ->
  0 <= ls < M16 /\
  exists o : nat, seq_sub (wadd16 ls 1) u = Z.of_nat o /\ (o <= 1024)%nat /\
    match idxs with [] => True | i1 :: _ => o = S (last idxs i1) end /\
    (forall a : nat, (o <= a)%nat -> (a < 1024)%nat -> seq_gt (seq_at u a) ls = true).
Proof.
  intros Hls0 Hu Hd0 Fi Hm. destruct idxs as [|i1 r].
  - destruct Hm as [E|E].
    + split; [rewrite E; exact Hls0|]. exists (Z.to_nat (seq_sub (wadd16 ls0 1) u)).
      rewrite E. split; [lia|]. split; [lia|]. split; [exact I|].
      intros a Ha1 Ha2. unfold seq_gt. apply Z.gtb_lt.
      pose proof (seq_sub_congr (wadd16 ls0 1) u (wadd16_range _ _) Hu) as Hc'.
      rewrite (seq_sub_mod (seq_at u a) ls0 (Z.of_nat a - seq_sub (wadd16 ls0 1) u + 1)); try apply seq_at_range; try lia.
      unfold seq_at, wadd16, M16 in *. lia.
    + split; [rewrite E; apply wsub16_range|]. exists 0%nat.
      assert (E1 : wadd16 ls 1 = u) by (rewrite E; unfold wadd16, wsub16, M16 in *; lia).
      rewrite E1, seq_sub_refl. split; [reflexivity|]. split; [lia|]. split; [exact I|].
      intros a _ Ha2. unfold seq_gt. apply Z.gtb_lt.
      rewrite (seq_sub_mod (seq_at u a) ls (Z.of_nat a + 1)); try apply seq_at_range; try lia.
      * rewrite E. apply wsub16_range.
      * rewrite E. unfold seq_at, wadd16, wsub16, M16 in *. lia.
  - assert (HiL : (last (i1 :: r) i1 < 1024)%nat) by (rewrite Forall_forall in Fi; apply Fi, last_in).
    split; [rewrite Hm; apply seq_at_range|]. exists (S (last (i1 :: r) i1)).
    rewrite Hm, seq_at_succ, seq_sub_seq_at_u by (auto; lia).
    split; [reflexivity|]. split; [lia|]. split; [reflexivity|].
    intros a Ha1 Ha2. unfold seq_gt. apply Z.gtb_lt. rewrite seq_sub_seq_at by (auto; lia). lia.
Qed.

Section WithCC.
Context {CC : Type} (cci : cc_iface CC).
Notation vsock := (vsock CC).

(* ------------------------------------------------------------------ the new-data loop, in full *)
Lemma new_data_loop_full : forall items (s : vsock) h rem s1 tl,
  0 <= rem -> new_data_loop items s h rem = SOk s1 tl ->
  exists sent rest, items = sent ++ rest /\ emitted s s1 h sent /\ fs_bytes sent <= rem /\
    v_last_sent_seq_nr s1 = ls_after (v_last_sent_seq_nr s) sent /\
    (tl = None \/ exists f r', rest = f :: r' /\ tl = Some (fs_seq f, sg_size (fs_seg f))).
Proof.
  induction items as [|f rest IH]; intros s h rem s1 tl Hrem; cbn [new_data_loop].
  - intro H; injection H as <- <-. exists [], []. split; [reflexivity|].
    split; [apply emitted_nil; unfold sd_unchanged; repeat split; apply sd_frame_refl|].
    cbn [fs_bytes ls_after]. split; [lia|]. split; [reflexivity|left; reflexivity].
  - destruct (Z.ltb_spec rem (sg_size (fs_seg f))) as [Hlt|Hge].
    { intro H; injection H as <- <-. exists [], (f :: rest). split; [reflexivity|].
      split; [apply emitted_nil; unfold sd_unchanged; repeat split; apply sd_frame_refl|].
      cbn [fs_bytes ls_after]. split; [lia|]. split; [reflexivity|left; reflexivity]. }
    pose proof (send_data_spec s h f) as Hsd.
    destruct (send_data s h f) as [s2 [| |]|s2 e|] eqn:Esd; try discriminate.
    + destruct Hsd as (Hf & Ho & Hs & Hl & Ht & Htp & Hne & Hoff & Hb).
      intro H. destruct (IH s2 h (rem - sg_size (fs_seg f)) s1 tl ltac:(lia) H)
        as (sent & rest' & -> & Hem & Hb' & Hls & Htl).
      exists (f :: sent), rest'. split; [reflexivity|].
      split; [eapply emitted_cons; eauto; unfold sent_ok; auto|].
      split; [cbn [fs_bytes]; lia|]. split; [cbn [ls_after]; rewrite Hls, Hl; reflexivity|exact Htl].
    + intro H; injection H as <- <-. exists [], (f :: rest). split; [reflexivity|].
      split; [apply emitted_nil; tauto|]. cbn [fs_bytes ls_after]. split; [lia|].
      split; [destruct Hsd as ((_ & _ & _ & Hl & _) & _); exact Hl|left; reflexivity].
    + intro H; injection H as <- <-. exists [], (f :: rest). split; [reflexivity|].
      split; [apply emitted_nil; tauto|]. cbn [fs_bytes ls_after]. split; [lia|].
      split; [destruct Hsd as ((_ & _ & _ & Hl & _) & _); exact Hl|right; eauto].
Qed.

(* ------------------------------------------------------------------ the quantities of the clause *)
Definition una (s : vsock) : Z := ss_snd_una (v_segs s).
Definition sgs (s : vsock) : list seg := ss_segs (v_segs s).
Definition Wn (s : vsock) : Z := Z.min (cc_window cci (v_cc s)) (v_last_remote_window s).
Definition dby (s : vsock) : Z := data_bytes (dout s).
Definition seqs_of (s : vsock) : list Z := map (fun p => ch_seq (p_hdr p)) (rev (dout s)).

Lemma dout_app_data (s s1 : vsock) h sent :
  v_out s1 = rev (map (data_pkt s h) sent) ++ v_out s ->
  dout s1 = rev (map (data_pkt s h) sent) ++ dout s.
Proof.
  unfold dout. intros ->. rewrite filter_app. f_equal.
  induction sent as [|f r IH]; [reflexivity|]. cbn [map rev]. rewrite filter_app, IH. reflexivity.
Qed.

Lemma seqs_of_app (s s1 : vsock) h sent :
  v_out s1 = rev (map (data_pkt s h) sent) ++ v_out s ->
  seqs_of s1 = seqs_of s ++ map fs_seq sent.
Proof.
  intro H. unfold seqs_of. rewrite (dout_app_data _ _ _ _ H), rev_app_distr, rev_involutive, map_app.
  f_equal. rewrite map_map. reflexivity.
Qed.

Lemma data_bytes_dout (l : list packet) : data_bytes (filter is_data l) = data_bytes l.
Proof.
  induction l as [|p r IH]; [reflexivity|]. cbn [filter data_bytes]. unfold is_data at 1.
  destruct (ch_type (p_hdr p)) eqn:E; cbn [data_bytes]; rewrite ?E, IH; reflexivity.
Qed.

Lemma dby_app (s s1 : vsock) h sent :
  v_out s1 = rev (map (data_pkt s h) sent) ++ v_out s ->
  Forall (sent_ok s) sent -> Forall (fun f => 0 <= sg_size (fs_seg f)) sent ->
  dby s1 = dby s + fs_bytes sent.
Proof.
  intros H Hok Hsz. unfold dby. rewrite (dout_app_data _ _ _ _ H), data_bytes_app.
  rewrite (data_bytes_sent s h sent Hok Hsz). lia.
Qed.

Lemma item_facts t st f :
  In f (iter_for_sending t st) ->
  fs_seq f = seq_at (ss_snd_una t) (fs_idx f) /\ und_at (ss_segs t) (fs_idx f).
Proof.
  intro H. destruct (iter_item_ok _ _ _ H) as (Hn & _ & Hs & _). split; [exact Hs|].
  rewrite nth_error_map in Hn. destruct (nth_error (ss_segs t) (fs_idx f)) as [g|] eqn:Eg; [|discriminate].
  cbn [option_map] in Hn. unfold dview in Hn. injection Hn as _ _ Hd. exists g. auto.
Qed.

Lemma dshape_parts t t' : dshape t' = dshape t ->
  ss_snd_una t' = ss_snd_una t /\ map dview (ss_segs t') = map dview (ss_segs t) /\
  length (ss_segs t') = length (ss_segs t).
Proof.
  unfold dshape. intro H; injection H as H1 H2 H3. split; [exact H1|]. split; [exact H3|].
  rewrite <- (map_length dview (ss_segs t')), H3, map_length. reflexivity.
Qed.

Lemma seqs_nil_dby (s : vsock) : seqs_of s = [] -> dby s = 0.
Proof.
  unfold seqs_of, dby. intro H. apply map_eq_nil in H.
  assert (E : dout s = []) by (rewrite <- (rev_involutive (dout s)), H; reflexivity).
  rewrite E. reflexivity.
Qed.

(* ---- what the incoming path does to last_sent_seq_nr ---- *)
Lemma recv_loop_ls : forall fuel (s : vsock) acc,
  stk (fun s s1 => v_last_sent_seq_nr s1 = v_last_sent_seq_nr s \/ SC s1) s (recv_loop cci fuel s acc).
Proof.
  assert (Hbase : forall (s : vsock) (acc : on_ack_result),
    stk (fun s s1 => v_last_sent_seq_nr s1 = v_last_sent_seq_nr s \/ SC s1) s
      (if v_inbox_closed s
       then sbind (maybe_send_fin (transition_to_fin_wait_1 s))
                  (fun s2 _ => SOk (set_state s2 Closed) (acc, true))
       else SOk (set_inbox_waker s true) (acc, false))).
  { intros s acc. destruct (v_inbox_closed s); [|cbn [stk]; left; reflexivity].
    destruct (maybe_send_fin _) as [s2 b|s2 e|]; cbn [sbind stk]; auto. right. reflexivity. }
  induction fuel as [|m0 fuel IH]; intros s acc; cbn [recv_loop];
    destruct (v_inbox s) as [|m rest] eqn:Ei; try apply Hbase; try exact I.
  pose proof (process_incoming_message_MQ cci (set_inbox s rest) m) as HM.
  pose proof (process_incoming_message_G cci (set_inbox s rest) m) as HG.
  destruct (process_incoming_message cci (set_inbox s rest) m) as [s1 r|s1 e|]; cbn [sbind stk sGr] in *; auto.
  destruct HM as (_ & _ & _ & _ & M5). cbn [v_last_sent_seq_nr set_inbox] in M5.
  destruct (_ || _); [cbn [stk]; left; exact M5|].
  specialize (IH s1 (result_update acc r)).
  destruct (recv_loop cci fuel s1 (result_update acc r)) as [s2 x|s2 e|]; cbn [stk] in *; auto.
  destruct IH as [IH|IH]; [left; congruence|right; exact IH].
Qed.

Lemma pa_tail_ls (s1 : vsock) res :
  stk (fun s1 s' => (v_last_sent_seq_nr s' = v_last_sent_seq_nr s1 \/
                     v_last_sent_seq_nr s' = wsub16 (ss_snd_una (v_segs s')) 1) /\
                    v_state s' = v_state s1 /\ v_opts s' = v_opts s1) s1 (pa_tail s1 res).
Proof.
  destruct res as [r early]. rewrite pa_tail_eq.
  assert (H0 : v_last_sent_seq_nr (pa_reset r s1) = v_last_sent_seq_nr s1 /\
               v_segs (pa_reset r s1) = v_segs s1 /\ v_state (pa_reset r s1) = v_state s1 /\
               v_opts (pa_reset r s1) = v_opts s1).
  { unfold pa_reset. destruct (_ || _); [|auto].
    destruct (ss_segs _); [destruct (our_fin_if_unacked _)|]; unfold restart_remote_inactivity_timer; vsimpl_goal; auto. }
  destruct H0 as (L0 & S0 & T0 & O0).
  assert (H1 : stk (fun _ s3 => (v_last_sent_seq_nr s3 = v_last_sent_seq_nr s1 \/
                                 v_last_sent_seq_nr s3 = wsub16 (ss_snd_una (v_segs s3)) 1) /\
                                v_segs s3 = v_segs s1 /\ v_state s3 = v_state s1 /\ v_opts s3 = v_opts s1)
                 (pa_reset r s1) (pa_trunc r (pa_reset r s1))).
  { unfold pa_trunc. destruct (0 <? _); [|cbn [stk]; auto]. cbv zeta.
    set (s2 := pa_reset r s1) in *.
    assert (Ha : (v_last_sent_seq_nr (acked_counts_as_sent s2) = v_last_sent_seq_nr s1 \/
                  v_last_sent_seq_nr (acked_counts_as_sent s2) = wsub16 (ss_snd_una (v_segs (acked_counts_as_sent s2))) 1) /\
                 v_segs (acked_counts_as_sent s2) = v_segs s1 /\ v_state (acked_counts_as_sent s2) = v_state s1 /\
                 v_opts (acked_counts_as_sent s2) = v_opts s1).
    { unfold acked_counts_as_sent. destruct (seq_gt _ _ && seq_lt _ _); vsimpl_goal; auto. }
    revert Ha. generalize (acked_counts_as_sent s2). intros s2' Ha.
    destruct (truncate_front _ _) as [tx1 tr]. destruct tr; [|exact I].
    destruct (wake_writer tx1) as [tx2 w]. cbn [stk]. unfold add_wakes. vsimpl_goal. exact Ha. }
  destruct (pa_trunc r (pa_reset r s1)) as [s3 u3|s3 e|]; cbn [sbind stk] in *; auto.
  destruct H1 as (L3 & S3 & T3 & O3).
  unfold pa_pipe. destruct (rv_phase (v_recovery s3)); cbn [stk]; auto.
  destruct (calc_pipe _ _ _ _ _) as [[[segs' pipe] recalc]|] eqn:Ec; [|exact I].
  cbn [stk]. unfold set_recovering. vsimpl_goal.
  destruct (VSock_PollAux.calc_pipe_ev _ _ _ _ _ _ _ _ Ec) as (_ & Eu & _).
  rewrite Eu. auto.
Qed.

Lemma process_all_ls (s : vsock) :
  stk (fun s s' => v_last_sent_seq_nr s' = v_last_sent_seq_nr s \/
                   v_last_sent_seq_nr s' = wsub16 (ss_snd_una (v_segs s')) 1 \/ SC s')
      s (process_all_incoming_messages cci s).
Proof.
  rewrite process_all_eq.
  pose proof (recv_loop_ls (v_inbox s ++ [ {| m_hdr := outgoing_header s; m_payload := [] |} ]) s on_ack_result_default) as H1.
  destruct (recv_loop cci _ s on_ack_result_default) as [s1 res|s1 e|]; cbn [sbind stk] in *; auto.
  pose proof (pa_tail_ls s1 res) as H2.
  destruct (pa_tail s1 res) as [s' u'|s' e|]; cbn [stk] in *; auto.
  destruct H2 as (L & T & O). destruct H1 as [H1|H1].
  - destruct L as [L|L]; [left; congruence|right; left; exact L].
  - right; right. unfold SC in *. rewrite T, O. exact H1.
Qed.

(* ---- segmentation appends ---- *)
Lemma segment_loop_app : forall fuel nagle ss segs rm rwr ss' segs' rm',
  segment_loop fuel nagle ss segs rm rwr = Some (ss', segs', rm') ->
  exists new, ss_segs segs' = ss_segs segs ++ new /\ ss_snd_una segs' = ss_snd_una segs.
Proof.
  induction fuel as [|b fuel IH]; intros nagle ss segs rm rwr ss' segs' rm'; cbn [segment_loop].
  - intro H; injection H as _ <- _. exists []. rewrite app_nil_r. auto.
  - destruct (_ && _); [|intro H; injection H as _ <- _; exists []; rewrite app_nil_r; auto].
    destruct (next_segment_size ss) as [[ss1 sz]|]; [|discriminate].
    destruct (nagle && _ && _); [intro H; injection H as _ <- _; exists []; rewrite app_nil_r; auto|].
    destruct (mss ss1 <? _).
    + intro H; injection H as _ <- _. eexists. split; reflexivity.
    + intro H. destruct (IH _ _ _ _ _ _ _ _ H) as (new & E1 & E2). rewrite E1, E2.
      unfold enqueue, Segments.set_segs. cbn [ss_segs ss_snd_una]. rewrite <- app_assoc. eexists. split; reflexivity.
Qed.

Section Ghost.
Variables (ls0 u : Z).
Hypothesis Hls0 : 0 <= ls0 < M16.
Hypothesis Hu : 0 <= u < M16.
Hypothesis Hd0 : 0 <= seq_sub (wadd16 ls0 1) u <= 1024.

Definition LS0 (s : vsock) : Prop :=
  v_last_sent_seq_nr s = ls0 \/ v_last_sent_seq_nr s = wsub16 (una s) 1.

(* wl: the clause about last_sent_seq_nr is wanted (before send_tx_queue) *)
Definition facts (wl : bool) (idxs : list nat) (s : vsock) : Prop :=
  sinc idxs /\ Forall (und_at (sgs s)) idxs /\
  match idxs with
  | [] => wl = true -> LS0 s
  | i1 :: _ =>
      (wl = true -> v_last_sent_seq_nr s = seq_at u (last idxs i1)) /\
      dby s <= FLp (sgs s) (S (last idxs i1)) - FLp (sgs s) i1 /\ FLp (sgs s) i1 + dby s <= Wn s
  end.

Definition XW (wl : bool) (k : nat) (s : vsock) : Prop :=
  exists idxs c, (c <= k)%nat /\ seqs_of s = map (seq_at (una s)) idxs /\
    Forall (fun i => (i < length (sgs s) + c)%nat) idxs /\
    (una s = u -> Forall (fun i => (i < 1024)%nat) idxs -> facts wl idxs s).

Lemma XW_mono wl k k' s : (k <= k')%nat -> XW wl k s -> XW wl k' s.
Proof. intros Hk (idxs & c & Hc & H). exists idxs, c. split; [lia|exact H]. Qed.

Lemma facts_weaken idxs s : facts true idxs s -> facts false idxs s.
Proof.
  intros (A & B0 & C0). split; [exact A|]. split; [exact B0|].
  destruct idxs; [discriminate|]. destruct C0 as (_ & C1). split; [discriminate|exact C1].
Qed.

Lemma XW_weaken k s : XW true k s -> XW false k s.
Proof.
  intros (idxs & c & Hc & H1 & H2 & H3). exists idxs, c.
  split; [exact Hc|]. split; [exact H1|]. split; [exact H2|].
  intros E F. apply facts_weaken. auto.
Qed.

(* the fields XW reads, kept *)
Lemma XW_keep wl k (s s' : vsock) :
  dout s' = dout s -> v_segs s' = v_segs s -> v_cc s' = v_cc s ->
  v_last_remote_window s' = v_last_remote_window s ->
  (wl = true -> v_last_sent_seq_nr s' = v_last_sent_seq_nr s) -> XW wl k s -> XW wl k s'.
Proof.
  intros E1 E2 E3 E4 E5 (idxs & c & Hc & H1 & H2 & H3). exists idxs, c.
  unfold facts, LS0, seqs_of, dby, Wn, una, sgs in *. rewrite E1, E2, E3, E4.
  split; [exact Hc|]. split; [exact H1|]. split; [exact H2|].
  intros Eu Fi. specialize (H3 Eu Fi). destruct H3 as (A & B0 & C0). split; [exact A|]. split; [exact B0|].
  destruct idxs as [|i1 r].
  - intro W. rewrite (E5 W). auto.
  - destruct C0 as (C1 & C2). split; [intro W; rewrite (E5 W); auto|exact C2].
Qed.

Lemma SQ_XW wl k (s s' : vsock) : SQ s s' -> XW wl k s -> XW wl k s'.
Proof.
  intros (A1&A2&A3&A4&A5&A6&A7&A8&A9&A10&A11). apply XW_keep; auto.
Qed.

(* ------------------------------------------------------------------ one run of the new-data loop *)
Lemma new_loop_XW k (s s1 : vsock) h sent rest :
  sp s -> RECb s = false ->
  new_items s = sent ++ rest -> emitted s s1 h sent -> fs_bytes sent <= new_remaining cci s ->
  v_last_sent_seq_nr s1 = ls_after (v_last_sent_seq_nr s) sent ->
  XW true k s ->
  exists idxs1 c, (c <= k)%nat /\ seqs_of s1 = map (seq_at (una s1)) idxs1 /\
    Forall (fun i => (i < length (sgs s1) + c)%nat) idxs1 /\
    (una s1 = u -> Forall (fun i => (i < 1024)%nat) idxs1 ->
       facts true idxs1 s1 /\
       forall f r', rest = f :: r' -> Forall (fun i => (i < fs_idx f)%nat) idxs1).
Proof.
  intros Hsp Hrec Hit Hem Hbud Hls (idxs & c & Hc & H1 & H2 & H3).
  destruct Hem as (Hf & Ho & Hsg & Hok & _).
  assert (Hd : dshape (v_segs s1) = dshape (v_segs s)) by (rewrite Hsg; apply on_sent_all_dshape).
  destruct (dshape_parts _ _ Hd) as (Du & Dv & Dl).
  unfold sd_frame in Hf. destruct Hf as (F1 & F2 & F3 & F4 & F5 & F6 & F7 & F8 & _).
  assert (Hin : forall f, In f sent -> In f (new_items s)) by (intros f Hf'; rewrite Hit; apply in_or_app; left; exact Hf').
  assert (Hseq : forall f, In f sent -> fs_seq f = seq_at (una s) (fs_idx f) /\ und_at (sgs s) (fs_idx f)).
  { intros f Hf'. apply (item_facts (v_segs s) (Some (wadd16 (v_last_sent_seq_nr s) 1))). apply Hin. exact Hf'. }
  assert (Hpos : Forall (fun f => 1 <= sg_size (fs_seg f)) sent).
  { destruct Hsp as (_ & Hp & _). apply (new_items_sizes_pos s sent rest Hp Hit). }
  assert (Hnn : Forall (fun f => 0 <= sg_size (fs_seg f)) sent) by (eapply Forall_impl; [|exact Hpos]; intros; cbn in *; lia).
  assert (Hdby : dby s1 = dby s + fs_bytes sent) by (apply (dby_app s s1 h sent Ho Hok Hnn)).
  exists (idxs ++ map fs_idx sent), c. split; [exact Hc|].
  split.
  { rewrite (seqs_of_app s s1 h sent Ho), H1, map_app. unfold una. rewrite Du. f_equal.
    rewrite map_map. apply map_ext_in. intros f Hf'. apply (Hseq f Hf'). }
  split.
  { apply Forall_app. split.
    - unfold sgs. rewrite Dl. exact H2.
    - apply Forall_forall. intros i Hi. apply in_map_iff in Hi. destruct Hi as (f & <- & Hf').
      destruct (Hseq f Hf') as [_ Hu']. apply und_at_lt in Hu'. unfold sgs in *. rewrite Dl. lia. }
  intros Eu1 Fi1.
  assert (Eu : una s = u) by (unfold una in *; congruence).
  apply Forall_app in Fi1. destruct Fi1 as [Fi Fn].
  specialize (H3 Eu Fi). destruct H3 as (A & B0 & C0).
  assert (Hlnn : lnn (sgs s)).
  { destruct Hsp as (_ & Hp & _). unfold segs_pos in Hp. eapply Forall_impl; [|exact Hp]. intros; cbn in *; lia. }
  (* the offset of the iterator and the reach of the flight computation *)
  set (ls := v_last_sent_seq_nr s) in *.
  assert (Hm : match idxs with
               | [] => ls = ls0 \/ ls = wsub16 u 1
               | i1 :: _ => ls = seq_at u (last idxs i1)
               end).
  { destruct idxs as [|i1 r]; [rewrite <- Eu; exact (C0 eq_refl)|exact (proj1 C0 eq_refl)]. }
  destruct (ls_reach ls0 u ls idxs Hls0 Hu Hd0 Fi Hm) as (Hlsr & o & Ho1 & Ho2 & Ho3 & Hgt).
  assert (Eoff : iter_off (v_segs s) (Some (wadd16 ls 1)) = o).
  { unfold iter_off. fold (una s). rewrite Eu, Ho1. lia. }
  pose proof (seq_sub_succ_le ls u Hlsr Hu) as Hsl.
  set (take := Z.to_nat (Z.max (seq_sub ls u + 1) 0)).
  assert (Htake : (o <= take)%nat) by (unfold take; lia).
  assert (Hcf : calc_flight_size (v_segs s) ls = FLp (sgs s) take).
  { unfold calc_flight_size, FLp, sgs, take. fold (una s). rewrite Eu. reflexivity. }
  assert (Hrem : new_remaining cci s = sat_sub (Wn s) (FLp (sgs s) take)).
  { rewrite (new_remaining_not_recovering cci s Hrec). unfold window_budget, Wn. fold ls. rewrite Hcf. reflexivity. }
  (* the prefix of the iterator that went out *)
  unfold new_items in Hit. fold ls in Hit. rewrite iter_for_sending_eq, Eoff in Hit.
  destruct (iter_prefix (v_segs s) _ _ _ _ Hit) as (n & Hn & Hb & Hnil & Hlast & Hhd & Hsi & Hrest).
  fold (sgs s) in Hb, Hhd, Hrest, Hn. rewrite FLp_skipn in Hb.
  assert (Tr : forall m, FLp (sgs s1) m = FLp (sgs s) m) by (intro m; apply FLp_dview; exact Dv).
  assert (Tu : forall i, und_at (sgs s) i -> und_at (sgs s1) i) by (intros i Hi; eapply und_at_dview; [symmetry; exact Dv|exact Hi]).
  assert (TW : Wn s1 = Wn s) by (unfold Wn; rewrite F2, F3; reflexivity).
  destruct sent as [|f1 sent'].
  - (* nothing went out *)
    cbn [map] in *. rewrite app_nil_r. cbn [fs_bytes ls_after] in *.
    split.
    + split; [exact A|]. split; [eapply Forall_impl; [|exact B0]; exact Tu|].
      destruct idxs as [|i1 r].
      * intros _. unfold LS0. fold ls in Hls. rewrite Hls. unfold una. rewrite Du. fold (una s).
        destruct (C0 eq_refl) as [E|E]; [left; exact E|right; exact E].
      * destruct C0 as (C1 & C2 & C3). rewrite !Tr, TW, Hdby. fold ls in Hls. rewrite Hls.
        split; [intros _; apply C1; reflexivity|]. split; lia.
    + intros f r' Er. destruct (Hrest f r' Er) as [R1 _]. rewrite (Hnil eq_refl) in R1.
      destruct idxs as [|i1 r]; [constructor|]. subst o.
      eapply Forall_impl; [|apply (sinc_le_last (i1 :: r) i1 A)]. intros i Hi. cbn beta in Hi. lia.
  - (* f1 .. went out *)
    destruct (Hhd f1 sent' eq_refl) as [Ha1 Ha0].
    set (a := fs_idx f1) in *. set (fL := last sent' f1). set (b := fs_idx fL).
    assert (Hb1 : (b + 1 = o + n)%nat).
    { assert (Hne : f1 :: sent' <> []) by discriminate.
      destruct (exists_last Hne) as (pre & z & El). specialize (Hlast pre z El).
      assert (z = fL). { unfold fL. rewrite <- (last_cons f1 f1 sent'), El, last_app_cons. reflexivity. }
      subst z. exact Hlast. }
    rewrite FLp_skipn in Ha0. replace (o + (a - o))%nat with a in Ha0 by lia.
    assert (Fa : (a < 1024)%nat) by (inversion Fn; assumption).
    assert (Hall : Forall (fun f => fs_seq f = seq_at u (fs_idx f) /\ (fs_idx f < 1024)%nat) (f1 :: sent')).
    { apply Forall_forall. intros f Hf'. destruct (Hseq f Hf') as [E _]. rewrite Eu in E. split; [exact E|].
      rewrite Forall_forall in Fn. apply Fn. apply in_map. exact Hf'. }
    assert (Hg1 : seq_gt (fs_seq f1) ls = true).
    { destruct (Hseq f1 (or_introl eq_refl)) as [E _]. rewrite E, Eu. apply Hgt; assumption. }
    assert (Hls1 : v_last_sent_seq_nr s1 = seq_at u b).
    { rewrite Hls. fold ls. rewrite (ls_after_last u sent' ls f1 Hu Hall Hsi Hg1). fold fL.
      assert (HfL : In fL (f1 :: sent')) by (unfold fL; rewrite <- (last_cons f1 f1 sent'); apply last_in).
      rewrite Forall_forall in Hall. apply (Hall fL HfL). }
    assert (HlastI : forall d, last (idxs ++ map fs_idx (f1 :: sent')) d = b).
    { intro d. cbn [map]. rewrite last_app_cons.
      rewrite (last_default' (map fs_idx sent') (fs_idx f1) d (fs_idx f1)).
      etransitivity; [exact (last_map fs_idx (f1 :: sent') f1)|]. rewrite last_cons. reflexivity. }
    assert (Hbytes1 : 1 <= fs_bytes (f1 :: sent')) by (apply fs_bytes_pos; [exact Hpos|discriminate]).
    rewrite Hrem in Hbud. unfold sat_sub in Hbud.
    assert (Hbud' : fs_bytes (f1 :: sent') <= Wn s - FLp (sgs s) take) by lia.
    assert (Hmono : FLp (sgs s) o <= FLp (sgs s) take) by (apply FLp_mono; assumption).
    replace (o + n)%nat with (S b) in Hb by lia.
    assert (Hsall : sinc (idxs ++ map fs_idx (f1 :: sent'))).
    { apply (sinc_app_intro idxs (map fs_idx (f1 :: sent')) 0%nat A Hsi).
      destruct idxs as [|i1 r]; [left; reflexivity|right]. cbn [map]. fold a. subst o.
      rewrite (last_default' r i1 0%nat i1). lia. }
    split.
    + split; [exact Hsall|].
      split.
      { apply Forall_app. split; [eapply Forall_impl; [|exact B0]; exact Tu|].
        apply Forall_forall. intros i Hi. apply in_map_iff in Hi. destruct Hi as (f & <- & Hf').
        apply Tu. apply (Hseq f Hf'). }
      destruct idxs as [|i1 r].
      * cbn [app map]. pose proof (HlastI (fs_idx f1)) as HL. cbn [app map] in HL. rewrite HL. fold a.
        rewrite !Tr, TW, Hdby.
        rewrite (seqs_nil_dby s) by (rewrite H1; reflexivity).
        split; [intros _; exact Hls1|]. split; lia.
      * cbn [app]. pose proof (HlastI i1) as HL. cbn [app] in HL. rewrite HL.
        destruct C0 as (C1 & C2 & C3). subst o.
        rewrite !Tr, TW, Hdby.
        assert (Hm2 : FLp (sgs s) (S (last (i1 :: r) i1)) <= FLp (sgs s) take) by exact Hmono.
        split; [intros _; exact Hls1|]. split; lia.
    + intros f r' Er. destruct (Hrest f r' Er) as [R1 _].
      eapply Forall_impl; [|apply (sinc_le_last _ 0%nat Hsall)]. intros i Hi. cbn beta in Hi.
      rewrite (HlastI 0%nat) in Hi. lia.
Qed.

(* ------------------------------------------------------------------ the whole new-data part *)
Definition WB (wl : bool) (k : nat) (s : vsock) : Prop := RECb s = true \/ XW wl k s.

Lemma new_branch_XW k (s : vsock) h :
  sp s -> RECb s = false -> XW true k s ->
  stk (fun s s' => (v_restart s' = v_restart s /\ XW true k s') \/ (v_restart s' = true /\ XW true (S k) s'))
      s (new_branch cci s h).
Proof.
  intros Hsp Hrec HX. unfold new_branch.
  destruct (new_data_loop (new_items s) s h (new_remaining cci s)) as [s1 tl|s1 e|] eqn:El; cbn [sbind stk]; auto.
  destruct (new_data_loop_full _ _ _ _ _ _ (new_remaining_nonneg cci s) El) as (sent & rest & Hit & Hem & Hb & Hls & Htl).
  destruct (new_loop_XW k s s1 h sent rest Hsp Hrec Hit Hem Hb Hls HX) as (idxs1 & c & Hc & G1 & G2 & G3).
  assert (Hr1 : v_restart s1 = v_restart s).
  { destruct Hem as (Hf & _). unfold sd_frame in Hf. destruct Hf as (_&_&_&_&_&_&_&_&_&_&F11&_). exact F11. }
  unfold new_after. destruct Htl as [->|(f & r' & Er & ->)].
  - cbn [stk]. left. split; [exact Hr1|]. exists idxs1, c.
    split; [exact Hc|]. split; [exact G1|]. split; [exact G2|]. intros E F. apply (G3 E F).
  - destruct (pop_mtu_probe (v_segs s1) (fs_seq f)) as [segs' popped] eqn:Ep. destruct popped; cbn [stk]; [|exact I].
    right. split; [reflexivity|].
    (* the shape of the table after the pop *)
    unfold pop_mtu_probe in Ep. destruct (last_and_init (ss_segs (v_segs s1))) as [[init g]|] eqn:Eli; [|discriminate].
    destruct (_ && _); [|discriminate]. injection Ep as <-.
    apply Segments_ProofsOut.last_and_init_app in Eli.
    assert (Hf_lt : (fs_idx f < length (sgs s1))%nat).
    { assert (Hin : In f (new_items s)) by (rewrite Hit, Er; apply in_or_app; right; left; reflexivity).
      unfold new_items in Hin. destruct (item_facts _ _ _ Hin) as [_ Hu']. apply und_at_lt in Hu'.
      destruct Hem as (_ & _ & Hsg & _).
      assert (Hd : dshape (v_segs s1) = dshape (v_segs s)) by (rewrite Hsg; apply on_sent_all_dshape).
      destruct (dshape_parts _ _ Hd) as (_ & _ & Dl). unfold sgs. rewrite Dl. exact Hu'. }
    unfold sgs in Hf_lt. rewrite Eli, app_length in Hf_lt. cbn [length] in Hf_lt.
    exists idxs1, (S c). split; [lia|].
    split; [exact G1|].
    split.
    { unfold sgs, Segments.set_segs. vsimpl_goal. cbn [ss_segs].
      eapply Forall_impl; [|exact G2]. intros i Hi. cbn beta in Hi. unfold sgs in Hi. rewrite Eli, app_length in Hi.
      cbn [length] in Hi. lia. }
    intros Eu Fi. assert (Eu1 : una s1 = u) by exact Eu.
    destruct (G3 Eu1 Fi) as [(A & B0 & C0) Hlt]. specialize (Hlt f r' Er).
    assert (Hlt' : Forall (fun i => (i < length init)%nat) idxs1).
    { eapply Forall_impl; [|exact Hlt]. intros i Hi. cbn beta in Hi. lia. }
    assert (Tr : forall m, (m <= length init)%nat -> FLp (sgs s1) m = FLp init m).
    { intros m Hm. unfold sgs. rewrite Eli. apply FLp_app. exact Hm. }
    split; [exact A|]. split.
    { unfold sgs, Segments.set_segs. vsimpl_goal. cbn [ss_segs].
      rewrite Forall_forall in *. intros i Hi. apply (und_at_init init g i (Hlt' i Hi)).
      rewrite <- Eli. apply B0. exact Hi. }
    destruct idxs1 as [|i1 r].
    + intros _. unfold LS0, una, Segments.set_segs in *. vsimpl_goal. cbn [ss_snd_una]. apply C0. reflexivity.
    + destruct C0 as (C1 & C2 & C3).
      assert (HiL : (S (last (i1 :: r) i1) <= length init)%nat).
      { rewrite Forall_forall in Hlt'.
        specialize (Hlt' _ (last_in i1 r)). lia. }
      assert (Hi1 : (i1 <= length init)%nat) by (inversion Hlt'; subst; lia).
      unfold dby, Wn, sgs, Segments.set_segs in *. vsimpl_goal. cbn [ss_segs].
      rewrite <- !Tr by assumption. unfold sgs. split; [exact C1|]. split; assumption.
Qed.

Lemma send_tx_queue_XW now r0 k (s : vsock) :
  B now s -> J r0 false now s -> sp s -> v_restart s = false -> WB true k s ->
  stk (fun s s' => (v_restart s' = false /\ WB true k s') \/ (v_restart s' = true /\ WB true (S k) s'))
      s (send_tx_queue cci s).
Proof.
  intros HB HJ Hsp Hr0 HW. rewrite send_tx_queue_eq.
  destruct (v_transport_pending s); [cbn [stk]; left; auto|].
  pose proof (J_not_expired now r0 s HB HJ) as Hne.
  unfold rto_branch. rewrite Hne. cbn [sbind].
  destruct (after_rto_k_cases cci (outgoing_header s) s false) as [->|(_ & _ & _ & ->)]; [cbn [stk]; left; auto|].
  destruct (RECb s) eqn:Erec.
  - pose proof (rec_new_keeps cci s (outgoing_header s)) as Hk.
    destruct (rec_new cci s (outgoing_header s)) as [s' u'|s' e|]; cbn [stk] in *; auto.
    destruct Hk as (_ & K2 & _).
    destruct (v_restart s') eqn:Er; [right|left]; (split; [reflexivity|left; apply K2; exact Erec]).
  - destruct HW as [HW|HX]; [congruence|].
    unfold rec_new.
    assert (Hrb : rec_branch s (outgoing_header s) = SOk s false).
    { unfold rec_branch. unfold RECb, is_recovering in Erec. destruct (rv_phase (v_recovery s)); [reflexivity|reflexivity|discriminate]. }
    rewrite Hrb. cbn [sbind].
    pose proof (new_branch_XW k s (outgoing_header s) Hsp Erec HX) as Hn.
    pose proof (rec_new_keeps cci s (outgoing_header s)) as Hk. unfold rec_new in Hk. rewrite Hrb in Hk. cbn [sbind] in Hk.
    destruct (new_branch cci s (outgoing_header s)) as [s' u'|s' e|]; cbn [stk] in *; auto.
    destruct Hn as [[R X]|[R X]]; [left; split; [congruence|right; exact X]|right; split; [exact R|right; exact X]].
Qed.

(* ------------------------------------------------------------------ the other functions *)
Lemma XW_app wl k (s s' : vsock) new :
  dout s' = dout s -> ss_segs (v_segs s') = ss_segs (v_segs s) ++ new ->
  ss_snd_una (v_segs s') = ss_snd_una (v_segs s) -> v_cc s' = v_cc s ->
  v_last_remote_window s' = v_last_remote_window s -> v_last_sent_seq_nr s' = v_last_sent_seq_nr s ->
  XW wl k s -> XW wl k s'.
Proof.
  intros E1 E2 E3 E4 E5 E6 (idxs & c & Hc & H1 & H2 & H3). exists idxs, c.
  split; [exact Hc|]. split; [unfold seqs_of, una in *; rewrite E1, E3; exact H1|].
  split.
  { unfold sgs in *. rewrite E2, app_length. eapply Forall_impl; [|exact H2]. intros; cbn in *; lia. }
  intros Eu Fi. assert (Eu' : una s = u) by (unfold una in *; congruence).
  destruct (H3 Eu' Fi) as (A & B0 & C0).
  split; [exact A|]. split; [unfold sgs in *; rewrite E2; eapply Forall_impl; [|exact B0]; intros i; apply und_at_app|].
  assert (Tr : forall m, und_at (sgs s) m -> FLp (sgs s') (S m) = FLp (sgs s) (S m) /\ FLp (sgs s') m = FLp (sgs s) m).
  { intros m Hm. apply und_at_lt in Hm. unfold sgs in *. rewrite E2. split; apply FLp_app; lia. }
  destruct idxs as [|i1 r].
  - intro W. unfold LS0, una in *. rewrite E6, E3. apply C0. exact W.
  - destruct C0 as (C1 & C2 & C3).
    assert (Hi1 : und_at (sgs s) i1) by (inversion B0; assumption).
    assert (HiL : und_at (sgs s) (last (i1 :: r) i1)).
    { rewrite Forall_forall in B0. apply B0, last_in. }
    destruct (Tr _ Hi1) as [_ T1]. destruct (Tr _ HiL) as [T2 _].
    unfold dby, Wn in *. rewrite E1, E4, E5, E6, T1, T2. auto.
Qed.

Lemma split_XW now r0 wl k (s : vsock) :
  B now s -> J r0 false now s -> WB wl k s ->
  stk (fun _ s' => WB wl k s') s (split_tx_queue_into_segments cci s).
Proof.
  intros HB HJ HW. pose proof (J_not_expired now r0 s HB HJ) as Hne.
  pose proof (split_tx_spec cci s) as Sp.
  destruct (split_tx_queue_into_segments cci s) as [s' x|s' e|]; cbn [stk split_post] in *; auto.
  destruct Sp as ((F1&F2&F3&F4&F5&_) & t2 & ss2 & [(-> & -> & K1 & K2 & K3)|(rw & ps & Ep & _)] & L).
  2:{ (* the timer has not expired: the probe is not given up *)
      destruct (pop_expired_expired _ _ _ _ _ _ Ep) as [Fl _]. rewrite Hne in Fl. discriminate. }
  destruct HW as [HW|HW]; [left; unfold RECb in *; rewrite F5; exact HW|right].
  destruct L as [[Et _]|(fuel & nagle & rm & rwr & El)].
  - eapply XW_keep; [apply dout_eq; exact F1|exact Et|exact F3|exact F4|intros _; exact K3|exact HW].
  - destruct (segment_loop_app _ _ _ _ _ _ _ _ _ El) as (new & N1 & N2).
    eapply (XW_app wl k s s' new); [apply dout_eq; exact F1|exact N1|exact N2|exact F3|exact F4|exact K3|exact HW].
Qed.

Lemma maybe_send_fin_XWf k (s : vsock) : WB false k s -> stk (fun _ s' => WB false k s') s (maybe_send_fin s).
Proof.
  intro HW. pose proof (maybe_send_fin_spec s) as H.
  destruct (maybe_send_fin s) as [s' [|]|s' e|]; cbn [stk]; auto.
  - destruct H as (seq & _ & _ & Hf & Ho & Hsg & _).
    unfold sd_frame in Hf. destruct Hf as (F1 & F2 & F3 & F4 & _).
    destruct HW as [HW|HW]; [left; unfold RECb in *; rewrite F4; exact HW|right].
    eapply XW_keep; [| | | | |exact HW]; auto; [|discriminate].
    eapply dout_cons_ctrl; [exact Ho|]. apply is_data_ctrl. cbn [hdr_with ch_type]. discriminate.
  - pose proof (sd_unchanged_SQ s s' H) as HS.
    destruct HW as [HW|HW]; [left|right; eapply SQ_XW; eauto].
    destruct HS as (_&_&_&_&_&_&_&_&A9&_). unfold RECb in *. rewrite A9. exact HW.
Qed.

Lemma SQ_WB wl k (s s' : vsock) : SQ s s' -> WB wl k s -> WB wl k s'.
Proof.
  intros HS [HW|HW]; [left|right; eapply SQ_XW; eauto].
  destruct HS as (_&_&_&_&_&_&_&_&A9&_). unfold RECb in *. rewrite A9. exact HW.
Qed.

Lemma WB_weaken k s : WB true k s -> WB false k s.
Proof. intros [H|H]; [left; exact H|right; apply XW_weaken; exact H]. Qed.

Lemma WB_mono wl k k' s : (k <= k')%nat -> WB wl k s -> WB wl k' s.
Proof. intros Hk [H|H]; [left; exact H|right; eapply XW_mono; eauto]. Qed.

Lemma XW_first wl k (s : vsock) :
  dout s = [] -> (wl = true -> LS0 s) -> XW wl k s.
Proof.
  intros Hd Hl. exists [], 0%nat. split; [lia|]. split; [unfold seqs_of; rewrite Hd; reflexivity|].
  split; [constructor|]. intros _ _. split; [exact I|]. split; [constructor|exact Hl].
Qed.

(* ------------------------------------------------------------------ the walk *)
Section WalkW.
Variables (now r0 : Z).
Hypothesis H0 : 0 <= r0.

Let XA (k : nat) (s : vsock) : Prop :=
  SC s \/ (dout s = [] /\ v_last_sent_seq_nr s = ls0) \/ (IBE s /\ WB true k s).
Let XB (k : nat) (s : vsock) : Prop := SC s \/ (WB true k s /\ (v_transport_pending s = true \/ IBE s)).
Let XC (k : nat) (s : vsock) : Prop := SC s \/ WB false k s.

(* a function that leaves the sender and the inbox alone *)
Lemma PA_SQ k (s s' : vsock) : SQ s s' -> qb s s' -> XA k s -> XA k s'.
Proof.
  intros HS HQ [H|[[H1 H2]|[H1 H2]]]; [left; eapply qb_SC; eauto| |].
  - right; left. destruct HS as (A1&_&_&_&A5&_). split; congruence.
  - right; right. split; [eapply qb_IBE; eauto|eapply SQ_WB; eauto].
Qed.

Lemma PB_SQ k (s s' : vsock) : SQ s s' -> qb s s' -> XB k s -> XB k s'.
Proof.
  intros HS HQ [H|[H1 H2]]; [left; eapply qb_SC; eauto|right].
  split; [eapply SQ_WB; eauto|]. destruct H2 as [H2|H2]; [left; eapply qb_tp; eauto|right; eapply qb_IBE; eauto].
Qed.

Lemma PC_SQ k (s s' : vsock) : SQ s s' -> qb s s' -> XC k s -> XC k s'.
Proof. intros HS HQ [H|H]; [left; eapply qb_SC; eauto|right; eapply SQ_WB; eauto]. Qed.

Theorem poll_loop_xw : forall fuel (s s' : vsock),
  GG now r0 false s -> XA 0 s -> poll_loop cci fuel s = (s', PollPending) ->
  exists k', (k' < 0 + fuel)%nat /\ GO now r0 false (v_opts s) s' /\ XC k' s'.
Proof.
  intros fuel s s' HG HA H.
  apply (poll_loop_WG cci now r0 false (v_opts s) H0 XA XA XB XB XB XC XC XC) with (s := s);
    [..|split; [exact HG|reflexivity]|exact HA|exact H].
  - (* poll_start *)
    intros k a [HW|[HW|[HW1 HW2]]]; [left; exact HW|right; left; exact HW|right; right].
    split; [exact HW1|eapply SQ_WB; [apply poll_start_SQ|exact HW2]].
  - exact PA_SQ.
  - exact PB_SQ.
  - exact PC_SQ.
  - exact PC_SQ.
  - (* the timer tail *)
    intros k a HW.
    destruct (poll_tail_fields a) as (_ & _ & _ & St & _ & _ & _ & _ & _ & _ & _ & _ & _ & _ & Op & _).
    destruct HW as [HW|HW]; [left; unfold SC in *; rewrite St, Op; exact HW|right].
    eapply SQ_WB; [apply poll_tail_SQ|exact HW].
  - (* process_all_incoming_messages *)
    intros k a ((HB & _) & _) HW.
    pose proof (process_all_incoming_messages_pimr cci a) as P'.
    pose proof (process_all_incoming_messages_post cci a) as Post.
    pose proof (pim_idle cci a) as Idle.
    pose proof (process_all_ls a) as Ls.
    pose proof (process_all_KQ cci now a) as KQ'.
    destruct (process_all_incoming_messages cci a) as [b x|b e|]; cbn [stW stR stk] in *; auto.
    specialize (Post b x eq_refl). specialize (Idle b x).
    destruct HW as [HW|[[HW1 HW2]|[HW1 HW2]]]; [left; apply P'; exact HW| |].
    + destruct Post as [Po|Po]; [left; exact Po|].
      destruct Ls as [Ls|[Ls|Ls]]; [| |left; exact Ls];
        (right; split; [|destruct Po as [Po|Po]; [left; exact Po|right; exact Po]]);
        right; (apply XW_first; [destruct (KQ' HB) as [_ (D1 & _)]; congruence|intros _]).
      * left. congruence.
      * right. exact Ls.
    + destruct (Idle HW1 eq_refl) as (I1 & I2 & I3 & I4 & I5 & I6 & I7 & I8 & I9 & I10 & I11 & I12).
      right. split; [|right; split; assumption].
      destruct HW2 as [HW2|HW2]; [left; unfold RECb in *; rewrite I9; exact HW2|].
      destruct (RECb a) eqn:Er; [left; unfold RECb in *; rewrite I9; exact Er|right].
      eapply XW_keep; [apply dout_eq; exact I1|apply I12; exact Er|exact I4|exact I3|intros _; exact I6|exact HW2].
  - (* split *)
    intros k a ((HB & HJ & _) & _) HW T0.
    pose proof (split_XW now r0 true k a HB HJ) as HX'.
    pose proof (split_tx_queue_into_segments_qb cci a) as HQ.
    destruct (split_tx_queue_into_segments cci a) as [b x|b e|]; cbn [stW stR stk] in *; auto.
    destruct HW as [HW|[HW1 HW2]]; [left; eapply qb_SC; eauto|right].
    split; [apply HX'; exact HW1|]. destruct HW2 as [HW2|HW2]; [congruence|right; eapply qb_IBE; eauto].
  - (* send_tx_queue *)
    intros k a ((HB & HJ & HP) & _) HW [T0 R0].
    pose proof (send_tx_queue_XW now r0 k a HB HJ HP R0) as HX'.
    pose proof (send_tx_queue_txf cci a) as X'.
    pose proof (send_tx_queue_frame cci a) as F'.
    destruct (send_tx_queue cci a) as [b x|b e|]; cbn [stW stR stk step_frame] in *; auto.
    destruct X' as (X1 & X2 & X3 & X4 & X5 & X6 & X7 & X8). destruct F' as (F1 & _).
    destruct HW as [HW|[HW1 HW2]].
    + assert (Sb : SC b) by (unfold SC in *; rewrite X7, F1; exact HW).
      split; [|split]; intros; left; exact Sb.
    + destruct HW2 as [HW2|HW2]; [congruence|].
      assert (Ib : IBE b) by (unfold IBE in *; rewrite X5, X6; exact HW2).
      destruct (HX' HW1) as [[R1 W1]|[R1 W1]].
      * split; [intro; congruence|]. split; intros; right; apply WB_weaken; exact W1.
      * split; [intros _; right; right; split; [exact Ib|exact W1]|].
        split; [intro; congruence|]. intros [_ R]. congruence.
  - (* maybe_send_fin *)
    intros k a _ HW.
    pose proof (maybe_send_fin_qb a) as HQ.
    pose proof (maybe_send_fin_XWf k a) as HX'.
    destruct (maybe_send_fin a) as [b x|b e|]; cbn [stW stR stk] in *; auto.
    destruct HW as [HW|HW]; [left; eapply qb_SC; eauto|right; apply HX'; exact HW].
  - (* early returns *)
    intros k a [HW|[[HW1 HW2]|[HW1 HW2]]]; [left; exact HW| |right; apply WB_weaken; exact HW2].
    right; right. apply XW_first; [exact HW1|discriminate].
  - intros k a [HW|[HW1 HW2]]; [left; exact HW|right; apply WB_weaken; exact HW1].
  - intros k a HW. exact HW.
  - intros k a HW. exact HW.
Qed.

End WalkW.

End Ghost.
(* what a Pending poll leaves behind when the retransmission timer had not expired at its start *)
Theorem poll_pending_xw (s : vsock) sc s' u :
  ti s -> sp s -> timer_expired (v_t_retransmit s) (v_env_now s) = false ->
  0 <= v_last_sent_seq_nr s < M16 -> 0 <= u < M16 ->
  0 <= seq_sub (wadd16 (v_last_sent_seq_nr s) 1) u <= 1024 ->
  poll cci (VSockRec.set_sends s sc) = (s', PollPending) ->
  sp s' /\ J (v_rto_retransmissions s) false (v_env_now s) s' /\
  (SC s' \/ exists k', (k' < 64)%nat /\ WB (v_last_sent_seq_nr s) u false k' s').
Proof.
  intros Hti Hsp He Hls Hu Hd H. rewrite poll_unfold in H. apply poll_loop_start in H.
  assert (Hr0 : 0 <= v_rto_retransmissions s) by apply Hti.
  apply (poll_loop_xw (v_last_sent_seq_nr s) u Hls Hu Hd (v_env_now s) (v_rto_retransmissions s) Hr0) in H.
  - destruct H as (k' & Hk & ((HB & HJ & HP) & _) & HW). split; [exact HP|]. split; [exact HJ|].
    destruct HW as [HW|HW]; [left; exact HW|right]. exists k'. split; [lia|exact HW].
  - split; [|split].
    + split; [exact Hti|]. split; reflexivity.
    + apply JA; [reflexivity|reflexivity|]. unfold texp. cbn. rewrite He. auto.
    + exact Hsp.
  - right; left. split; reflexivity.
Qed.

End WithCC.
