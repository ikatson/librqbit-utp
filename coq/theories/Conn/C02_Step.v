(* C02 — the step predicates of Conn/C02_Pred.v as THEOREMS about every step of the model
   (forall state satisfying a proved invariant, forall event) and about every trace from vsock_new. *)
From Utp Require Import Base.Prelude Wire.SeqNr Wire.Header Rtt.Rtte Mtu.SegSizes Rx.Rx Rx.Rx_Proofs
  Tx.Ring Tx.Segments Conn.Recovery Conn.Msg Conn.VSockRec Conn.VSock Conn.VSockRun Conn.VObs
  Conn.C10_Pred Conn.C02_Pred Conn.VSock_Inv Conn.C10_Proofs Conn.C02_Proofs
  Conn.VSock_Lemmas Conn.VSock_LemmasStep Conn.VSock_LemmasReach
  Conn.VSock_LemmasPark Tx.Segments_ProofsOut Conn.VSock_LemmasTimers Conn.VSock_LemmasPipe
  Conn.VSock_LemmasEof Conn.C07_Pred Conn.C07_Proofs Conn.VSock_LemmasZw Mtu.SegSizes_Proofs.

Section WithCC.
Context {CC : Type} (cci : cc_iface CC).
Notation vsock := (vsock CC).

(* ================================================================== c02_parked_ok *)
(* after EVERY event: a registered reader waker implies an empty user queue and a read half that is
   not marked closed; a registered writer waker implies a write half that is not marked closed *)
Lemma pk_parked_fp : forall cfg (st : fstep) (s' : vsock),
  fs_post st = fp_of_vsock cci s' -> pk s' -> c02_parked_ok cfg st = true.
Proof.
  intros cfg st s' E [[Hq Hr] Ht]. unfold c02_parked_ok. rewrite E.
  cbn [fp_of_vsock f_rx_reader_waker f_rx_qbytes f_rx_closed f_tx_writer_waker f_tx_closed].
  apply andb_true_intro. split.
  - destruct (reader_waker (v_rx s')) eqn:Erw; [|reflexivity].
    destruct (Hr eq_refl) as [K1 K2]. rewrite Hq, K1, K2. reflexivity.
  - destruct (writer_waker (v_tx s')) eqn:Eww; [|reflexivity]. rewrite (Ht Eww). reflexivity.
Qed.

Theorem c02_parked_ok_step : forall cfg (s : vsock) o,
  pk s -> pk (vstep_state cci s o) /\ c02_parked_ok cfg (fstep_of cci s o) = true.
Proof.
  intros cfg s o Hp. pose proof (pk_vstep cci s o Hp) as Hp'. split; [exact Hp'|].
  eapply pk_parked_fp; [apply fstep_of_post | exact Hp'].
Qed.

Theorem c02_parked_ok_trace : forall cfg mk c (s0 : vsock) ops,
  vsock_new cci mk c = Some s0 -> forallb (c02_parked_ok cfg) (ftrace cci s0 ops) = true.
Proof.
  intros cfg mk c s0 ops H0.
  apply (ftrace_forallb cci pk).
  - intros s o Hp. apply c02_parked_ok_step; exact Hp.
  - intros s o Hp. apply pk_vstep; exact Hp.
  - eapply pk_vsock_new; exact H0.
Qed.

(* ================================================================== application events *)
(* the component theorems of C02_Proofs.v, for every event of the alphabet *)
Theorem c02_write_wakes_step : forall cfg (s : vsock) o, c02_write_wakes cfg (fstep_of cci s o) = true.
Proof.
  intros cfg s o. destruct o; try (unfold c02_write_wakes; rewrite fstep_of_event; reflexivity).
  exact (C02_Proofs.write_wakes_ok cci cfg s buf).
Qed.

Theorem c02_drop_writer_wakes_step : forall cfg (s : vsock) o,
  c02_drop_writer_wakes cfg (fstep_of cci s o) = true.
Proof.
  intros cfg s o. destruct o; try (unfold c02_drop_writer_wakes; rewrite fstep_of_event; reflexivity).
  exact (C02_Proofs.drop_writer_wakes_ok cci cfg s).
Qed.

Theorem c02_shutdown_wakes_step : forall cfg (s : vsock) o,
  c02_shutdown_wakes cfg (fstep_of cci s o) = true.
Proof.
  intros cfg s o.
  destruct o; try (unfold c02_shutdown_wakes, shutdown_idle_guard; rewrite fstep_of_event; reflexivity).
  exact (C02_Proofs.shutdown_wakes_ok cci cfg s).
Qed.

Theorem c02_read_wakes_step : forall cfg (s : vsock) o, c02_read_wakes cfg (fstep_of cci s o) = true.
Proof.
  intros cfg s o. destruct o; try (unfold c02_read_wakes; rewrite fstep_of_event; reflexivity).
  - apply (C02_Proofs.read_wakes_ok cci cfg s (VoRead n)). left. eexists; reflexivity.
  - apply (C02_Proofs.read_wakes_ok cci cfg s VoDropReader). right. reflexivity.
Qed.

Lemma forallb_ftrace_all : forall (P : fstep -> bool),
  (forall (s : vsock) o, P (fstep_of cci s o) = true) ->
  forall ops (s : vsock), forallb P (ftrace cci s ops) = true.
Proof.
  intros P H ops s. apply (ftrace_forallb cci (fun _ => True)); auto.
Qed.

Theorem c02_write_wakes_trace : forall cfg ops (s : vsock),
  forallb (c02_write_wakes cfg) (ftrace cci s ops) = true.
Proof. intros cfg. apply forallb_ftrace_all. apply c02_write_wakes_step. Qed.

Theorem c02_drop_writer_wakes_trace : forall cfg ops (s : vsock),
  forallb (c02_drop_writer_wakes cfg) (ftrace cci s ops) = true.
Proof. intros cfg. apply forallb_ftrace_all. apply c02_drop_writer_wakes_step. Qed.

Theorem c02_shutdown_wakes_trace : forall cfg ops (s : vsock),
  forallb (c02_shutdown_wakes cfg) (ftrace cci s ops) = true.
Proof. intros cfg. apply forallb_ftrace_all. apply c02_shutdown_wakes_step. Qed.

Theorem c02_read_wakes_trace : forall cfg ops (s : vsock),
  forallb (c02_read_wakes cfg) (ftrace cci s ops) = true.
Proof. intros cfg. apply forallb_ftrace_all. apply c02_read_wakes_step. Qed.

(* ================================================================== c02_eof_wakes *)
(* the poll that accepts the peer's in-sequence FIN and leaves the reassembly queue empty has moved
   the EOF marker to the user queue; a reader that was parked has been woken *)
Theorem c02_eof_wakes_step : forall cfg (s : vsock) o,
  pk s -> rxi s -> c02_eof_wakes cfg (fstep_of cci s o) = true.
Proof.
  intros cfg s o Hpk Hrx. unfold c02_eof_wakes.
  destruct (eof_flush_guard (fstep_of cci s o)) eqn:G; [|reflexivity].
  unfold eof_flush_guard in G.
  destruct o; try (rewrite fstep_of_event in G; discriminate G).
  destruct (poll cci (VSockRec.set_sends s script)) as [s' r] eqn:E.
  rewrite (fstep_of_poll cci s script s' r E) in *.
  cbn [fs_event fs_result fs_pre fs_post] in *.
  destruct r; try discriminate G.
  cbn [fp_of_vsock f_rx_reader_waker f_rx_reader_dropped f_state f_rx_ff f_rx_len] in G.
  repeat (apply andb_true_iff in G; destruct G as [G ?]).
  rename H into Glen, H0 into Gff, H1 into Gla, H2 into Gfin, H3 into Gdrop.
  (* the EOF is in the user queue *)
  assert (Hh : hh (VSockRec.set_sends s script)).
  { split; [exact Hrx|]. intro K. change (v_state (VSockRec.set_sends s script)) with (v_state s) in K.
    apply negb_true_iff in Gfin. destruct (v_state s); discriminate. }
  apply (poll_hh cci _ _ Hh) in E as Hh'. destruct Hh' as [_ Hq].
  assert (Hla : isLA (v_state s') = true) by (destruct (v_state s'); try discriminate; reflexivity).
  specialize (Hq Hla).
  assert (Hqn : q (v_rx s') <> []) by (destruct Hq as [Hq|Hq]; [lia | exact Hq]).
  pose proof (poll_reach cci _ _ _ E) as R.
  assert (Hpk' : pk s') by (eapply pk_reach; [exact R | exact Hpk]).
  assert (Hrw : reader_waker (v_rx s') = false).
  { destruct (reader_waker (v_rx s')) eqn:K; [|reflexivity].
    destruct Hpk' as [[_ Hp] _]. destruct (Hp K) as [Hp1 _]. contradiction. }
  assert (W : wr (poll_init (VSockRec.set_sends s script))) by (left; exact G).
  apply (wr_reach _ _ _ _ R) in W. destruct W as [W|W]; [congruence|].
  unfold woke_reader. apply existsb_exists. exists VwReader. split; [rewrite <- in_rev; exact W | reflexivity].
Qed.

Theorem c02_eof_wakes_trace : forall cfg mk c (s0 : vsock) ops,
  0 < vc_rx_buf c -> vsock_new cci mk c = Some s0 ->
  forallb (c02_eof_wakes cfg) (ftrace cci s0 ops) = true.
Proof.
  intros cfg mk c s0 ops Hb H0.
  apply (ftrace_forallb cci (fun s => pk s /\ rxi s)).
  - intros s o [H1 H2]. apply c02_eof_wakes_step; assumption.
  - intros s o [H1 H2]. split; [apply pk_vstep; exact H1 | apply rxi_vstep; exact H2].
  - split; [eapply pk_vsock_new; exact H0 | eapply rxi_vsock_new; [exact Hb | exact H0]].
Qed.

(* ================================================================== c02_zero_window_waker *)
(* FALSE of the model as it stands (known finding D9, witness in C02_Proofs.v); true of every step
   outside the D9 class "the segment size grew after the receive half was built" *)
Definition c02_zero_window_waker_or_d9 (c : vconfig) (st : fstep) : bool :=
  c02_zero_window_waker c st || c02_d9_class c st.

Theorem c02_zero_window_waker_step : forall c (s : vsock) o,
  rxi s -> mss_pos s -> rxconst (vc_rx_buf c) (floor_of (ss_config_of c)) s -> vc_rx_buf c < M32 ->
  c02_zero_window_waker_or_d9 c (fstep_of cci s o) = true.
Proof.
  intros c s o Hrx Hm Hc Hq. unfold c02_zero_window_waker_or_d9, c02_zero_window_waker, c02_d9_class.
  destruct (zero_window_guard (fstep_of cci s o)) eqn:G; [|reflexivity].
  cbn [andb]. destruct (f_rx_disp_waker (fs_post (fstep_of cci s o))) eqn:Ew; [reflexivity|].
  cbn [negb orb andb].
  destruct (Z.ltb_spec (floor_of (ss_config_of c)) (f_mss (fs_post (fstep_of cci s o)))) as [Hlt|Hge];
    [reflexivity|exfalso].
  unfold zero_window_guard in G.
  destruct o; try (rewrite fstep_of_event in G; discriminate G).
  destruct (poll cci (VSockRec.set_sends s script)) as [s' r] eqn:E.
  rewrite (fstep_of_poll cci s script s' r E) in *.
  cbn [fs_event fs_result fs_post] in *.
  destruct r; try discriminate G.
  cbn [fp_of_vsock f_transport_pending f_last_sent_window f_state f_rx_len f_rx_qbytes
       f_rx_reader_dropped f_rx_closed f_rx_disp_waker f_mss] in *.
  repeat (apply andb_true_iff in G; destruct G as [G ?]).
  apply negb_true_iff in G.
  assert (Hd : disp_waker (v_rx s') = true).
  { apply (zero_window_registered cci (vc_rx_buf c) (floor_of (ss_config_of c)) (VSockRec.set_sends s script) s').
    - split; assumption.
    - exact Hc.
    - exact Hq.
    - exact E.
    - exact G.
    - apply Z.eqb_eq. assumption.
    - apply negb_true_iff. assumption.
    - apply Z.eqb_eq. assumption.
    - apply negb_true_iff. assumption.
    - exact Hge. }
  congruence.
Qed.

Theorem c02_zero_window_waker_trace : forall mk c (s0 : vsock) ops,
  0 < vc_rx_buf c < M32 -> vsock_new cci mk c = Some s0 ->
  forallb (c02_zero_window_waker_or_d9 c) (ftrace cci s0 ops) = true.
Proof.
  intros mk c s0 ops Hb H0.
  apply (ftrace_forallb cci (fun s => rxi s /\ mss_pos s /\
                                      rxconst (vc_rx_buf c) (floor_of (ss_config_of c)) s)).
  - intros s o (H1 & H2 & H3). apply c02_zero_window_waker_step; try assumption. lia.
  - intros s o (H1 & H2 & H3). split; [apply rxi_vstep; exact H1|].
    split; [apply mss_pos_vstep; exact H2 | apply rxconst_vstep; exact H3].
  - split; [apply (rxi_vsock_new cci mk c s0); [lia | exact H0]|].
    split; [eapply mss_pos_vsock_new; exact H0|].
    pose proof (rxconst_vsock_new cci mk c s0 H0) as K.
    destruct (new_shape (ss_config_of c)) as (Hs & _). unfold mss in K.
    unfold ss_config_of in *. rewrite Hs in K. exact K.
Qed.

(* ================================================================== c02_rto_armed *)
(* the two disjuncts of [outstanding] *)
Definition data_outstanding (f : vfp) : bool :=
  existsb (fun g => (0 <? fg_sent_kind g) && negb (fg_delivered g)) (f_segs f).

Definition fin_outstanding (f : vfp) : bool :=
  match our_fin_if_unacked (f_state f) with
  | Some fin => f_last_sent_seq_nr f =? fin
  | None => false
  end.

Lemma outstanding_split : forall f, outstanding f = data_outstanding f || fin_outstanding f.
Proof. reflexivity. Qed.

(* the data half of c02_rto_armed: a sent, undelivered segment keeps the retransmission timer armed *)
Definition c02_rto_armed_data (c : vconfig) (st : fstep) : bool :=
  match fs_event st, fs_result st with
  | FePoll _, FrPoll PollPending _ _ _ =>
      let f := fs_post st in
      if negb (f_transport_pending f) && data_outstanding f
      then match f_t_retransmit f with Some _ => true | None => false end
      else true
  | _, _ => true
  end.

Lemma data_outstanding_fp : forall (s : vsock),
  data_outstanding (fp_of_vsock cci s) = segs_out (ss_segs (v_segs s)).
Proof.
  intros s. unfold data_outstanding. cbn [fp_of_vsock f_segs].
  apply segs_out_existsb. intros g. unfold fseg_of, seg_out, seg_sent_b. cbn [fg_sent_kind fg_delivered].
  destruct (sg_sent g); reflexivity.
Qed.

Lemma ti_timer_fp : forall (s : vsock),
  ti s -> data_outstanding (fp_of_vsock cci s) = true ->
  match f_t_retransmit (fp_of_vsock cci s) with Some _ => true | None => false end = true.
Proof.
  intros s (_ & _ & Hrd) H. rewrite data_outstanding_fp in H. specialize (Hrd H).
  cbn [fp_of_vsock f_t_retransmit]. destruct (v_t_retransmit s); [reflexivity|congruence].
Qed.

Lemma ti_armed_fp : forall (s' : vsock) e r, ti s' ->
  match e, r with
  | FePoll _, FrPoll PollPending _ _ _ =>
      if negb (f_transport_pending (fp_of_vsock cci s')) && data_outstanding (fp_of_vsock cci s')
      then match f_t_retransmit (fp_of_vsock cci s') with Some _ => true | None => false end
      else true
  | _, _ => true
  end = true.
Proof.
  intros s' e r T. destruct e; try reflexivity. destruct r; try reflexivity. destruct r; try reflexivity.
  destruct (negb _ && data_outstanding _) eqn:G; [|reflexivity].
  apply andb_true_iff in G. destruct G as [_ G]. apply ti_timer_fp; assumption.
Qed.

(* after EVERY poll (whatever its result, transport pending or not) *)
Theorem c02_rto_armed_data_step : forall cfg (s : vsock) o,
  ti s -> ti (vstep_state cci s o) /\ c02_rto_armed_data cfg (fstep_of cci s o) = true.
Proof.
  intros cfg s o Hti. pose proof (ti_vstep cci s o Hti) as Hti'. split; [exact Hti'|].
  unfold c02_rto_armed_data. rewrite fstep_of_event, fstep_of_result, fstep_of_post.
  apply ti_armed_fp. exact Hti'.
Qed.

(* the predicate of Conn/C02_Pred.v itself, whenever our FIN is not the outstanding thing *)
Theorem c02_rto_armed_step_nofin : forall cfg (s : vsock) o,
  ti s -> fin_outstanding (fs_post (fstep_of cci s o)) = false ->
  c02_rto_armed cfg (fstep_of cci s o) = true.
Proof.
  intros cfg s o Hti Hf. pose proof (ti_vstep cci s o Hti) as Hti'.
  unfold c02_rto_armed. rewrite outstanding_split, Hf, orb_false_r.
  rewrite fstep_of_event, fstep_of_result, fstep_of_post.
  apply ti_armed_fp. exact Hti'.
Qed.

Theorem c02_rto_armed_data_trace : forall cfg mk c (s0 : vsock) ops,
  vsock_new cci mk c = Some s0 -> forallb (c02_rto_armed_data cfg) (ftrace cci s0 ops) = true.
Proof.
  intros cfg mk c s0 ops H0.
  apply (ftrace_forallb cci ti).
  - intros s o Hp. apply c02_rto_armed_data_step; exact Hp.
  - intros s o Hp. apply ti_vstep; exact Hp.
  - eapply ti_vsock_new; exact H0.
Qed.

(* ================================================================== c02_timer_ok *)
Definition is_self (w : vwake) : bool := match w with VwSelf => true | _ => false end.

(* c02_timer_ok, as a function of the state a Pending poll leaves behind *)
Definition timer_post_ok (s' : vsock) : bool :=
  let f := fp_of_vsock cci s' in
  let now := v_env_now s' in
  match opt_min4 f, v_arm_in s' with
  | Some e, Some d =>
      (0 <=? d) && (d <=? sat_sub e now) &&
      (match f_recovery f with Recovering _ => true | _ => d =? sat_sub e now end) &&
      (if d =? 0 then existsb is_self (rev (v_wakes s')) else true)
  | Some _, None => false
  | None, Some d => match f_recovery f with Recovering _ => (0 <=? d) | _ => false end
  | None, None => true
  end.

Lemma timer_ok_poll : forall cfg (s : vsock) sc s',
  poll cci (VSockRec.set_sends s sc) = (s', PollPending) ->
  c02_timer_ok cfg (fstep_of cci s (VoPoll sc)) =
  if v_transport_pending s' then true else timer_post_ok s'.
Proof.
  intros cfg s sc s' E. rewrite (fstep_of_poll cci s sc s' _ E). unfold c02_timer_ok, timer_post_ok.
  cbn [fs_event fs_result fs_post fs_now]. reflexivity.
Qed.

(* pure arithmetic of the timer tail: P is the recovery-pipe timer, rec = phase is Recovering *)
Lemma tail_arith : forall (A R I P Sy : option Z) (now : Z) (rec : bool),
  (P = None \/ rec = true) ->
  match opt_min A (opt_min R (opt_min I (opt_min P Sy))), opt_min A (opt_min R (opt_min I Sy)) with
  | Some inst, Some e =>
      sat_sub inst now <= sat_sub e now /\ (rec = true \/ sat_sub inst now = sat_sub e now)
  | Some inst, None => rec = true
  | None, Some _ => False
  | None, None => True
  end.
Proof.
  intros A R I P Sy now rec H. unfold opt_min, sat_sub.
  destruct A, R, I, P, Sy; destruct H as [H|H]; try discriminate; try (subst rec); auto; try lia;
    destruct rec; try (split; [lia|]; first [left; reflexivity | right; lia]); auto.
Qed.

Lemma existsb_self_cons : forall l, existsb is_self (rev (VwSelf :: l)) = true.
Proof.
  intros l. cbn [rev]. rewrite existsb_app. cbn [existsb is_self]. apply orb_true_r.
Qed.

Lemma timer_tail_ok : forall (sb : vsock),
  v_transport_pending sb = false -> v_arm_in sb = None -> v_now sb = v_env_now sb ->
  (PN sb \/ REC sb) -> timer_post_ok (poll_tail sb) = true.
Proof.
  intros sb Tp Arm Now K. unfold poll_tail.
  match goal with |- context [next_timer_to_poll ?x] => set (s1 := x) end.
  assert (H1 : v_transport_pending s1 = false /\ v_arm_in s1 = None /\ v_now s1 = v_env_now s1 /\
               v_t_recovery_pipe s1 = v_t_recovery_pipe sb /\ v_recovery s1 = v_recovery sb).
  { subst s1. destruct (is_local_fin_or_later _); vsimpl_goal; auto. }
  clearbody s1. destruct H1 as (Tp1 & Arm1 & Now1 & Pp1 & Rc1).
  assert (K1 : v_t_recovery_pipe s1 = None \/ is_recovering (v_recovery s1) = true).
  { unfold PN, REC in K. rewrite Pp1, Rc1. exact K. }
  clear K Pp1 Rc1 Tp Arm Now sb.
  unfold next_timer_to_poll. rewrite Tp1.
  pose proof (tail_arith (v_t_ack_delay s1) (v_t_retransmit s1) (v_t_inactivity s1)
                (v_t_recovery_pipe s1) (v_t_syn_ack_resend s1) (v_now s1)
                (is_recovering (v_recovery s1)) K1) as Ar.
  destruct (opt_min (v_t_ack_delay s1) (opt_min (v_t_retransmit s1) (opt_min (v_t_inactivity s1)
              (opt_min (v_t_recovery_pipe s1) (v_t_syn_ack_resend s1))))) as [inst|] eqn:Et.
  - unfold arm_in, add_wakes. vsimpl_goal.
    assert (Hd : 0 <= sat_sub inst (v_now s1)) by (unfold sat_sub; lia).
    destruct (sat_sub inst (v_now s1) <=? 0) eqn:Ez; unfold timer_post_ok, opt_min4;
      cbn [fp_of_vsock f_t_ack_delay f_t_retransmit f_t_inactivity f_t_syn_ack_resend f_recovery];
      vsimpl_goal;
      destruct (opt_min (v_t_ack_delay s1) (opt_min (v_t_retransmit s1) (opt_min (v_t_inactivity s1)
                  (v_t_syn_ack_resend s1)))) as [e|];
      unfold is_recovering in Ar; rewrite <- ?Now1;
      destruct (rv_phase (v_recovery s1)); cbn [rev app];
      try (destruct Ar as [Ar1 Ar2]; destruct Ar2 as [Ar2|Ar2]; try discriminate);
      try discriminate;
      rewrite ?existsb_self_cons;
      repeat (apply andb_true_intro; split); try lia; try reflexivity;
      try (cbn [Z.eqb]; rewrite existsb_app; cbn [existsb is_self]; apply orb_true_r);
      try (destruct (Z.eqb_spec (sat_sub inst (v_now s1)) 0); [lia|reflexivity]).
  - unfold timer_post_ok, opt_min4.
    cbn [fp_of_vsock f_t_ack_delay f_t_retransmit f_t_inactivity f_t_syn_ack_resend f_recovery].
    vsimpl_goal. rewrite Arm1.
    destruct (opt_min (v_t_ack_delay s1) (opt_min (v_t_retransmit s1) (opt_min (v_t_inactivity s1)
                (v_t_syn_ack_resend s1)))); [contradiction|reflexivity].
Qed.

(* the predicate, for every poll that starts with the recovery-pipe timer idle *)
(* pipe_idle, c02_timer_ok_g: Conn/C02_Pred.v *)

Theorem c02_timer_ok_step : forall cfg (s : vsock) o,
  ti s -> pipe_idle (fp_of_vsock cci s) = true -> c02_timer_ok cfg (fstep_of cci s o) = true.
Proof.
  intros cfg s o Hti Hpi.
  destruct o; try (unfold c02_timer_ok; rewrite fstep_of_event; reflexivity).
  destruct (poll cci (VSockRec.set_sends s script)) as [s' r] eqn:E.
  destruct r; try (rewrite (fstep_of_poll cci s script s' _ E); reflexivity).
  rewrite (timer_ok_poll cfg s script s' E).
  destruct (v_transport_pending s') eqn:Tp; [reflexivity|].
  assert (Hpn : PN (VSockRec.set_sends s script)).
  { unfold PN, pipe_idle in *. cbn [fp_of_vsock f_t_recovery_pipe] in Hpi.
    change (v_t_recovery_pipe (VSockRec.set_sends s script)) with (v_t_recovery_pipe s).
    destruct (v_t_recovery_pipe s); [discriminate|reflexivity]. }
  destruct (poll_pipe_tail cci (VSockRec.set_sends s script) s' Hti Hpn E Tp) as (sb & _ & A & W & K & Tb & ->).
  apply timer_tail_ok; assumption.
Qed.

Theorem c02_timer_ok_g_step : forall cfg (s : vsock) o,
  ti s -> c02_timer_ok_g cfg (fstep_of cci s o) = true.
Proof.
  intros cfg s o Hti. unfold c02_timer_ok_g. rewrite fstep_of_pre.
  destruct (pipe_idle (fp_of_vsock cci s)) eqn:Hpi; [|reflexivity].
  apply c02_timer_ok_step; assumption.
Qed.

Theorem c02_timer_ok_g_trace : forall cfg mk c (s0 : vsock) ops,
  vsock_new cci mk c = Some s0 -> forallb (c02_timer_ok_g cfg) (ftrace cci s0 ops) = true.
Proof.
  intros cfg mk c s0 ops H0.
  apply (ftrace_forallb cci ti).
  - intros s o Hp. apply c02_timer_ok_g_step; exact Hp.
  - intros s o Hp. apply ti_vstep; exact Hp.
  - eapply ti_vsock_new; exact H0.
Qed.

(* between polls: a writable transport at the end of the last poll means an idle pipe timer, so the
   guard can also be read off the transport flag *)
Definition pq (s : vsock) : Prop := v_transport_pending s = false -> v_t_recovery_pipe s = None.

Lemma poll_tail_pipe : forall (sb : vsock),
  v_transport_pending sb = false -> v_t_recovery_pipe (poll_tail sb) = None.
Proof.
  intros sb Tp. unfold poll_tail, next_timer_to_poll.
  match goal with |- context [v_transport_pending ?x] =>
    assert (E : v_transport_pending x = false) by (destruct (is_local_fin_or_later _); exact Tp);
    rewrite E end.
  unfold arm_in, add_wakes. repeat break_match; reflexivity.
Qed.

(* what the application events and the clock leave alone *)
Lemma vstep_nonpoll_same : forall (s : vsock) o,
  match o with VoPoll _ => True | _ =>
    v_transport_pending (vstep_state cci s o) = v_transport_pending s /\
    v_t_recovery_pipe (vstep_state cci s o) = v_t_recovery_pipe s /\
    v_rto_retransmissions (vstep_state cci s o) = v_rto_retransmissions s /\
    v_t_retransmit (vstep_state cci s o) = v_t_retransmit s /\ v_segs (vstep_state cci s o) = v_segs s /\
    v_emsg_limit (vstep_state cci s o) = match o with VoSetLimit m => m | _ => v_emsg_limit s end
  end.
Proof.
  intros s o. unfold vstep_state.
  destruct o; try exact I; cbn [vstep]; repeat break_match; cbn [fst]; repeat split; exact eq_refl.
Qed.

Lemma pq_vstep_live : forall (s : vsock) o,
  pq s -> poll_finished (vstep_out cci s o) = false -> pq (vstep_state cci s o).
Proof.
  intros s o Hp Hl. pose proof (vstep_nonpoll_same s o) as K.
  destruct o; try (destruct K as (K1 & K2 & _); unfold pq; rewrite K1, K2; exact Hp).
  destruct (poll cci (VSockRec.set_sends s script)) as [s' r] eqn:E.
  destruct (vstep_poll cci s script s' r E) as [V1 V2]. rewrite V1. rewrite V2 in Hl.
  destruct r; try discriminate. intro Tp.
  apply poll_pending_inv in E; [|exact Tp].
  destruct E as (sa & sb & b & _ & _ & _ & _ & _ & _ & Tb & ->). apply poll_tail_pipe. exact Tb.
Qed.

Lemma pq_vsock_new : forall mk c s, vsock_new cci mk c = Some s -> pq s.
Proof.
  intros mk c s H. unfold vsock_new in H.
  destruct (match (if vc_incoming c then None else _) with Some r => _ | None => _ end); [|discriminate].
  inversion H; subst. intros _. reflexivity.
Qed.

Definition c02_timer_ok_p (c : vconfig) (st : fstep) : bool :=
  if negb (f_transport_pending (fs_pre st)) then c02_timer_ok c st else true.

Theorem c02_timer_ok_p_step : forall cfg (s : vsock) o,
  ti s -> pq s -> c02_timer_ok_p cfg (fstep_of cci s o) = true.
Proof.
  intros cfg s o Hti Hpq. unfold c02_timer_ok_p. rewrite fstep_of_pre.
  cbn [fp_of_vsock f_transport_pending]. destruct (v_transport_pending s) eqn:Tp; [reflexivity|].
  cbn [negb]. apply c02_timer_ok_step; [exact Hti|].
  unfold pipe_idle. cbn [fp_of_vsock f_t_recovery_pipe]. rewrite (Hpq Tp). reflexivity.
Qed.

Theorem c02_timer_ok_p_trace : forall cfg mk c (s0 : vsock) ops,
  vsock_new cci mk c = Some s0 -> forallb (c02_timer_ok_p cfg) (ftrace cci s0 ops) = true.
Proof.
  intros cfg mk c s0 ops H0.
  apply (ftrace_forallb_live cci (fun s => ti s /\ pq s)).
  - intros s o [H1 H2]. apply c02_timer_ok_p_step; assumption.
  - intros s o [H1 H2] Hl. split; [apply ti_vstep; exact H1 | apply pq_vstep_live; assumption].
  - split; [eapply ti_vsock_new; exact H0 | eapply pq_vsock_new; exact H0].
Qed.

End WithCC.

(* ------------------------------------------------------------------ c02_timer_ok without the guard
   is FALSE of the model: a poll that ends with the transport blocked keeps the recovery-pipe timer
   it armed (next_timer_to_poll clears it only when the transport is writable); when the next poll
   leaves recovery, the stale timer is still the one the sleep is armed for, although the
   connection is no longer Recovering.
   Scenario (constant window 1000, nagle off): write 528 bytes, poll (segment 101 sent), four
   duplicate ACKs, both halves dropped, poll [Sent; Pending] (fast retransmission, pipe timer armed,
   the FIN blocks), the ACK of 101, poll: sleep armed for 750 us = the stale pipe timer; the
   earliest of the four visible timers is 200 ms away. *)
Definition timer_dup : msg := wmsg ST_STATE 1 100 0.

Definition timer_ops : list vop :=
  [VoWrite (repeat 0 (Z.to_nat 528)); VoPoll [];
   VoDeliver timer_dup; VoDeliver timer_dup; VoDeliver timer_dup; VoDeliver timer_dup;
   VoDropReader; VoDropWriter;
   VoPoll [TSent; TPending]; VoDeliver (wmsg ST_STATE 1 101 0); VoPoll []].

Lemma timer_ok_stale_pipe_refuted :
  exists w cfg ops,
    vconfig_ok cfg = true /\ Forall op_msg_ok ops /\
    forallb (c02_timer_ok cfg) (wtrace w cfg ops) = false /\
    (* the failing step starts with the pipe timer armed and the transport flag set *)
    forallb (c02_timer_ok_g cfg) (wtrace w cfg ops) = true /\
    forallb (c02_timer_ok_p cfg) (wtrace w cfg ops) = true /\
    (* and the guards are met by the other polls of the scenario *)
    existsb (fun st => pipe_idle (fs_pre st) &&
                       match fs_result st with FrPoll PollPending _ _ _ => true | _ => false end)
            (wtrace w cfg ops) = true.
Proof.
  exists 1000, timer_cfg, timer_ops.
  split; [vm_compute; reflexivity|]. split; [repeat constructor|].
  set (tr := wtrace _ _ _). pattern tr. subst tr. vm_compute. repeat split.
Qed.

(* ------------------------------------------------------------------ the guards are met by
   reachable states (the theorems above are not vacuous) *)
Definition zw_ops : list vop :=
  [VoPoll []; VoDeliver (wmsg ST_DATA 1 100 528); VoDeliver (wmsg ST_DATA 2 100 528); VoPoll [];
   VoRead 3000; VoPoll []].

(* receive buffer of two segments, two full segments delivered: the window advertised is zero, the
   MSS is the creation-time one, the dispatcher waker IS registered *)
Lemma zero_window_guard_nonvacuous :
  exists w cfg ops,
    vconfig_ok cfg = true /\ Forall op_msg_ok ops /\
    existsb (fun st => zero_window_guard st && negb (c02_d9_class cfg st)) (wtrace w cfg ops) = true /\
    forallb (c02_zero_window_waker cfg) (wtrace w cfg ops) = true.
Proof.
  exists 1056, (wcfg 1056), zw_ops.
  split; [vm_compute; reflexivity|]. split.
  { repeat constructor; cbv [op_msg_ok msg_ok wmsg m_hdr ch_type m_payload]; vm_compute; discriminate. }
  set (tr := wtrace _ _ _). pattern tr. subst tr. vm_compute. repeat split.
Qed.

(* data outstanding, our FIN not: the case c02_rto_armed_step_nofin covers (witness of D14) *)
Lemma rto_armed_nofin_nonvacuous :
  exists w cfg ops,
    vconfig_ok cfg = true /\ Forall op_msg_ok ops /\
    existsb (fun st => data_outstanding (fs_post st) && negb (fin_outstanding (fs_post st)) &&
                       negb (f_transport_pending (fs_post st)) &&
                       match fs_result st with FrPoll PollPending _ _ _ => true | _ => false end)
            (wtrace w cfg ops) = true /\
    forallb (c02_rto_armed cfg) (wtrace w cfg ops) = true.
Proof.
  exists 1056, d14_cfg, d14_ops.
  split; [vm_compute; reflexivity|]. split; [repeat constructor|].
  set (tr := wtrace _ _ _). pattern tr. subst tr. vm_compute. repeat split.
Qed.
