(* C06, step level: lemmas for the back-off and fast-retransmit predicates.
   - an RTT sample is taken only from a message that acknowledged something (cumulatively or
     selectively): a poll whose messages made no progress leaves the estimator alone;
   - [pim_mode], [split_mode], [stq_mode]: what a poll does to the RTO counter, the estimator and the
     retransmission timer, function by function. *)
From Utp Require Conn.VSock_Inv.
From Utp Require Import Base.Prelude Wire.SeqNr Wire.SeqNr_Proofs Wire.Header Rtt.Rtte Rtt.Rtte_Proofs
  Mtu.SegSizes Rx.Rx Tx.Ring Tx.Ring_Proofs Tx.Segments Tx.Segments_Proofs Tx.Segments_ProofsOut
  Conn.Recovery Conn.Msg Conn.VSockRec Conn.VSock Conn.VSockRun Conn.VObs
  Conn.VSock_Lemmas Conn.VSock_LemmasStep Conn.VSock_LemmasReach Conn.VSock_LemmasTx
  Conn.VSock_LemmasIn Conn.VSock_LemmasFin Conn.VSock_LemmasTimers Conn.VSock_LemmasPipe
  Conn.C17_StepLemmas Conn.C06_RecProofs Conn.C06_StepLemmas.

(* ================================================================== a sample needs an acknowledgement *)
Lemma update_rtt_none : forall g now r, update_rtt g now r = None -> r = None.
Proof.
  intros g now r. unfold update_rtt. destruct (sg_sent g); auto.
  destruct r; cbn [rtt_min]; [discriminate | discriminate].
Qed.

Lemma drain_acc_rtt : forall l now a,
  ac_rtt (drain_acc l now a) = ac_rtt a \/ (0 < length l)%nat.
Proof.
  induction l as [|g r IH]; intros now a; cbn [drain_acc length]; [left; reflexivity | right; lia].
Qed.

Lemma apply_sack_rtt : forall l bits now a l' a',
  apply_sack l bits now a = (l', a') ->
  ac_cnt a <= ac_cnt a' /\ (ac_rtt a' = ac_rtt a \/ ac_cnt a < ac_cnt a').
Proof.
  induction l as [|x r IH]; intros bits now a l' a'; cbn [apply_sack].
  - intro H; injection H as _ <-. split; [lia | left; reflexivity].
  - destruct bits as [|b bs]; [intro H; injection H as _ <-; split; [lia | left; reflexivity]|].
    destruct (negb (sg_delivered x) && b).
    + destruct (apply_sack r bs now _) as [r' a''] eqn:E. intro H; injection H as _ <-.
      destruct (IH _ _ _ _ _ E) as [K1 K2]. cbn [ac_cnt ac_rtt] in *. split; [lia | right; lia].
    + destruct (apply_sack r bs now a) as [r' a''] eqn:E. intro H; injection H as _ <-.
      exact (IH _ _ _ _ _ E).
Qed.

Lemma sack_phase_rtt : forall t rest a1 su now ack sk l' a' dp lse,
  sack_phase t rest a1 su now ack sk = (l', a', dp, lse) ->
  0 <= ac_cnt a' /\ (ac_rtt a' = ac_rtt a1 \/ 0 < ac_cnt a').
Proof.
  intros t rest a1 su now ack sk l' a' dp lse. unfold sack_phase.
  set (a0 := {| ac_rtt := ac_rtt a1; ac_maxp := ac_maxp a1; ac_cnt := 0; ac_bytes := 0 |}).
  assert (Hid : forall (x : list seg * ack_acc * Z * bool), x = (rest, a0, ss_sack_depth t, ss_last_sack_empty t) ->
                  x = (l', a', dp, lse) -> 0 <= ac_cnt a' /\ (ac_rtt a' = ac_rtt a1 \/ 0 < ac_cnt a')).
  { intros x -> H. injection H as _ <- _ _. cbn [ac_cnt ac_rtt a0]. split; [lia | left; reflexivity]. }
  destruct rest as [|x xs]; [apply Hid; reflexivity|].
  destruct sk as [k|]; [|apply Hid; reflexivity].
  destruct (seq_gt su ack); [|apply Hid; reflexivity].
  set (rest := x :: xs). set (so := seq_sub (wadd16 ack 2) su).
  destruct (0 <=? so).
  - destruct (apply_sack (skipn (Z.to_nat so) rest) _ now _) as [tl' a''] eqn:E.
    intro H; injection H as _ <- _ _. destruct (apply_sack_rtt _ _ _ _ _ _ E) as [K1 K2].
    cbn [ac_cnt ac_rtt a0] in *. split; [lia|]. destruct K2; [left; assumption | right; lia].
  - destruct (apply_sack rest _ now _) as [l2 a''] eqn:E.
    intro H; injection H as _ <- _ _. destruct (apply_sack_rtt _ _ _ _ _ _ E) as [K1 K2].
    cbn [ac_cnt ac_rtt a0] in *. split; [lia|]. destruct K2; [left; assumption | right; lia].
Qed.

(* progress = the message acknowledged a segment, cumulatively or selectively *)
Definition prog (r : on_ack_result) : Prop := 0 < ar_acked_segments r \/ 0 < ar_newly_sacked_segments r.
Definition cnt_ok (r : on_ack_result) : Prop := 0 <= ar_acked_segments r /\ 0 <= ar_newly_sacked_segments r.

Lemma remove_up_to_ack_rtt : forall t now ack sk t' r,
  remove_up_to_ack t now ack sk = (t', r) -> cnt_ok r /\ (ar_new_rtt r = None \/ prog r).
Proof.
  intros t now ack sk t' r. unfold remove_up_to_ack.
  set (dc := if 0 <=? seq_sub ack (ss_snd_una t) then _ else 0%nat).
  set (a1 := drain_acc (firstn dc (ss_segs t)) now {| ac_rtt := None; ac_maxp := 0; ac_cnt := 0; ac_bytes := 0 |}).
  destruct (drain_acc_spec (firstn dc (ss_segs t)) now {| ac_rtt := None; ac_maxp := 0; ac_cnt := 0; ac_bytes := 0 |})
    as [Hc1 _]. fold a1 in Hc1. cbn [ac_cnt] in Hc1.
  pose proof (drain_acc_rtt (firstn dc (ss_segs t)) now {| ac_rtt := None; ac_maxp := 0; ac_cnt := 0; ac_bytes := 0 |}) as Hr1.
  fold a1 in Hr1. cbn [ac_rtt] in Hr1.
  destruct (sack_phase t _ a1 _ now ack sk) as [[[rest2 a2] depth] lse] eqn:E2.
  destruct (sack_phase_rtt _ _ _ _ _ _ _ _ _ _ _ E2) as [Hc2 Hr2].
  destruct (strip_delivered rest2 0 0) as [[rest3 cnt3] bytes3] eqn:E3.
  destruct (strip_delivered_spec _ _ _ _ _ _ E3) as (dropped & Hd & Hc3 & _).
  intro H; injection H as _ <-. unfold cnt_ok, prog. cbn [ar_acked_segments ar_newly_sacked_segments ar_new_rtt].
  split; [lia|].
  destruct Hr2 as [Hr2|Hr2]; [|right; right; exact Hr2].
  destruct Hr1 as [Hr1|Hr1]; [left; congruence | right; left; lia].
Qed.

(* ================================================================== delivered stays delivered:
   how the table a poll ends with relates to the table it started from.  DMl d l0 l: the segment at
   index d + i of l0, if delivered, is at index i of l, delivered. *)
Definition dlv (g g' : seg) : Prop := sg_delivered g = true -> sg_delivered g' = true.
Definition DMl (d : nat) (l0 l : list seg) : Prop :=
  forall i g, nth_error l0 (d + i) = Some g -> sg_delivered g = true ->
              exists g', nth_error l i = Some g' /\ sg_delivered g' = true.

Lemma DMl_refl : forall l, DMl 0 l l.
Proof. intros l i g H Hd. exists g. auto. Qed.

Lemma Forall2_nth : forall A B (R : A -> B -> Prop) l l' i x,
  Forall2 R l l' -> nth_error l i = Some x -> exists y, nth_error l' i = Some y /\ R x y.
Proof.
  intros A B R l l' i x H. revert i. induction H as [|a b l l' Hab H IH]; intros [|i] Hn; cbn [nth_error] in *;
    try discriminate.
  - injection Hn as <-. exists b. auto.
  - apply IH. exact Hn.
Qed.

Lemma DMl_mono : forall d l0 l l', DMl d l0 l -> Forall2 dlv l l' -> DMl d l0 l'.
Proof.
  intros d l0 l l' H F i g Hn Hd. destruct (H i g Hn Hd) as (g1 & H1 & H2).
  destruct (Forall2_nth _ _ _ _ _ _ _ F H1) as (g2 & H3 & H4). exists g2. split; [exact H3 | apply H4; exact H2].
Qed.

Lemma DMl_drop : forall d l0 dropped l, DMl d l0 (dropped ++ l) -> DMl (d + length dropped) l0 l.
Proof.
  intros d l0 dropped l H i g Hn Hd.
  replace (d + length dropped + i)%nat with (d + (length dropped + i))%nat in Hn by lia.
  destruct (H _ g Hn Hd) as (g' & H1 & H2). exists g'. split; [|exact H2].
  rewrite nth_error_app2 in H1 by lia. replace (length dropped + i - length dropped)%nat with i in H1 by lia.
  exact H1.
Qed.

Lemma DMl_app : forall d l0 l x, DMl d l0 l -> DMl d l0 (l ++ x).
Proof.
  intros d l0 l x H i g Hn Hd. destruct (H i g Hn Hd) as (g' & H1 & H2). exists g'. split; [|exact H2].
  rewrite nth_error_app1; [exact H1|]. apply nth_error_Some. congruence.
Qed.

(* dropping an undelivered last element *)
Lemma DMl_pop : forall d l0 init x, sg_delivered x = false -> DMl d l0 (init ++ [x]) -> DMl d l0 init.
Proof.
  intros d l0 init x Hx H i g Hn Hd. destruct (H i g Hn Hd) as (g' & H1 & H2). exists g'. split; [|exact H2].
  destruct (Nat.lt_ge_cases i (length init)) as [Hlt|Hge]; [rewrite nth_error_app1 in H1 by exact Hlt; exact H1|].
  exfalso. rewrite nth_error_app2 in H1 by exact Hge.
  destruct (i - length init)%nat as [|k]; cbn [nth_error] in H1; [injection H1 as <-; congruence|].
  destruct k; discriminate.
Qed.

Lemma Forall2_len : forall A B (R : A -> B -> Prop) l l', Forall2 R l l' -> length l = length l'.
Proof. intros A B R l l' H. induction H; cbn [length]; congruence. Qed.

Lemma Forall2_dlv_refl : forall l, Forall2 dlv l l.
Proof. induction l; constructor; [intro H; exact H | assumption]. Qed.

Lemma apply_sack_dlv : forall l bits now a l' a', apply_sack l bits now a = (l', a') -> Forall2 dlv l l'.
Proof.
  induction l as [|x r IH]; intros bits now a l' a'; cbn [apply_sack].
  - intro H; injection H as <- _. constructor.
  - destruct bits as [|b bs]; [intro H; injection H as <- _; apply Forall2_dlv_refl|].
    destruct (negb (sg_delivered x) && b).
    + destruct (apply_sack r bs now _) as [r' a''] eqn:E. intro H; injection H as <- _.
      constructor; [intros _; reflexivity | eapply IH; exact E].
    + destruct (apply_sack r bs now a) as [r' a''] eqn:E. intro H; injection H as <- _.
      constructor; [intro K; exact K | eapply IH; exact E].
Qed.

Lemma Forall2_app_inv_parts : forall A B (R : A -> B -> Prop) a b a' b',
  Forall2 R a a' -> Forall2 R b b' -> Forall2 R (a ++ b) (a' ++ b').
Proof. intros. apply Forall2_app; assumption. Qed.

Lemma sack_phase_dlv : forall t rest a1 su now ack sk l' a' dp lse,
  sack_phase t rest a1 su now ack sk = (l', a', dp, lse) -> Forall2 dlv rest l'.
Proof.
  intros t rest a1 su now ack sk l' a' dp lse. unfold sack_phase.
  destruct rest as [|x xs]; [intro H; injection H as <- _ _ _; constructor|].
  destruct sk as [k|]; [|intro H; injection H as <- _ _ _; apply Forall2_dlv_refl].
  destruct (seq_gt su ack); [|intro H; injection H as <- _ _ _; apply Forall2_dlv_refl].
  set (rest := x :: xs). set (so := seq_sub (wadd16 ack 2) su).
  destruct (0 <=? so).
  - destruct (apply_sack (skipn (Z.to_nat so) rest) _ now _) as [tl' a''] eqn:E.
    intro H; injection H as <- _ _ _. rewrite <- (firstn_skipn (Z.to_nat so) rest) at 1.
    apply Forall2_app; [apply Forall2_dlv_refl | eapply apply_sack_dlv; exact E].
  - destruct (apply_sack rest _ now _) as [l2 a''] eqn:E.
    intro H; injection H as <- _ _ _. eapply apply_sack_dlv; exact E.
Qed.

Lemma pipe_loop_dlv : forall l t hr th now a l' a',
  pipe_loop l t hr th now a = (l', a') -> Forall2 dlv (map snd l) l'.
Proof.
  induction l as [|[off x] r IH]; intros t hr th now a l' a'; cbn [pipe_loop].
  - intro H; injection H as <- _. constructor.
  - cbn [map snd]. destruct (seg_last_sent x).
    + destruct (sg_delivered x) eqn:Ed.
      * destruct (pipe_loop r t hr th now _) as [r' a''] eqn:E. intro H; injection H as <- _.
        constructor; [intro K; exact K | eapply IH; exact E].
      * destruct (pipe_loop r t hr th now _) as [r' a''] eqn:E. intro H; injection H as <- _.
        constructor; [intro K; congruence | eapply IH; exact E].
    + destruct (pipe_loop r t hr th now a) as [r' a''] eqn:E. intro H; injection H as <- _.
      constructor; [intro K; exact K | eapply IH; exact E].
Qed.

Lemma Forall2_rev : forall A B (R : A -> B -> Prop) l l', Forall2 R l l' -> Forall2 R (rev l) (rev l').
Proof.
  intros A B R l l' H. induction H; cbn [rev]; [constructor|].
  apply Forall2_app; [assumption | constructor; [assumption | constructor]].
Qed.

Lemma calc_pipe_dlv : forall t hr hd rtt now t' p rc,
  calc_pipe t hr hd rtt now = Some (t', p, rc) ->
  Forall2 dlv (ss_segs t) (ss_segs t') /\ ss_snd_una t' = ss_snd_una t.
Proof.
  intros t hr hd rtt now t' p rc. unfold calc_pipe. destruct (_ <? _); [discriminate|].
  set (n := Z.to_nat _).
  destruct (pipe_loop _ t hr _ now _) as [upd a] eqn:E. intro H; injection H as <- _ _.
  cbn [Segments.set_segs ss_segs ss_snd_una]. split; [|reflexivity].
  apply pipe_loop_dlv in E. rewrite map_rev, enum_from_snd in E. apply Forall2_rev in E.
  rewrite rev_involutive in E. rewrite <- (firstn_skipn n (ss_segs t)) at 1.
  apply Forall2_app; [exact E | apply Forall2_dlv_refl].
Qed.

Lemma update_nth_dlv : forall (f : seg -> seg) l i, (forall x, dlv x (f x)) -> Forall2 dlv l (update_nth l i f).
Proof.
  intros f. induction l as [|y ys IH]; intros [|i] H; cbn [update_nth]; try constructor;
    try apply H; try apply Forall2_dlv_refl; try (intro K; exact K). apply IH. exact H.
Qed.

Lemma wadd16_wadd16 : forall u a b, 0 <= a -> 0 <= b ->
  wadd16 (wadd16 u (a mod M16)) (b mod M16) = wadd16 u ((a + b) mod M16).
Proof. intros u a b Ha Hb. unfold wadd16, M16. lia. Qed.

(* the relation between two tables *)
Definition DM (t0 t : segments) : Prop :=
  exists d, (d <= length (ss_segs t0))%nat /\
    ss_snd_una t = wadd16 (ss_snd_una t0) (Z.of_nat d mod M16) /\ DMl d (ss_segs t0) (ss_segs t).
(* ... while nothing has been appended yet *)
Definition DM1 (t0 t : segments) : Prop :=
  exists d, (d + length (ss_segs t) <= length (ss_segs t0))%nat /\
    ss_snd_una t = wadd16 (ss_snd_una t0) (Z.of_nat d mod M16) /\ DMl d (ss_segs t0) (ss_segs t).

Lemma DM1_refl : forall t, 0 <= ss_snd_una t < M16 -> DM1 t t.
Proof.
  intros t Hu. exists 0%nat. split; [cbn; lia|]. split; [|apply DMl_refl].
  unfold wadd16. cbn. rewrite Z.mod_small; unfold M16 in *; lia.
Qed.

Lemma DM1_DM : forall t0 t, DM1 t0 t -> DM t0 t.
Proof. intros t0 t (d & H1 & H2 & H3). exists d. split; [lia | auto]. Qed.

Lemma DM_eq : forall t0 t t', ss_snd_una t' = ss_snd_una t -> Forall2 dlv (ss_segs t) (ss_segs t') -> DM t0 t -> DM t0 t'.
Proof.
  intros t0 t t' E F (d & H1 & H2 & H3). exists d. split; [exact H1|]. split; [congruence|].
  eapply DMl_mono; eauto.
Qed.

Lemma DM1_eq : forall t0 t t', ss_snd_una t' = ss_snd_una t -> Forall2 dlv (ss_segs t) (ss_segs t') -> DM1 t0 t -> DM1 t0 t'.
Proof.
  intros t0 t t' E F (d & H1 & H2 & H3). exists d.
  rewrite <- (Forall2_len _ _ _ _ _ F). split; [exact H1|]. split; [congruence|].
  eapply DMl_mono; eauto.
Qed.

Lemma remove_up_to_ack_DM1 : forall t0 t now ack sk t' r,
  remove_up_to_ack t now ack sk = (t', r) -> DM1 t0 t -> DM1 t0 t'.
Proof.
  intros t0 t now ack sk t' r. unfold remove_up_to_ack.
  set (dc := if 0 <=? seq_sub ack (ss_snd_una t) then _ else 0%nat).
  destruct (sack_phase t (skipn dc (ss_segs t)) _ _ now ack sk) as [[[rest2 a2] dp] lse] eqn:E2.
  destruct (strip_delivered rest2 0 0) as [[rest3 cnt3] bytes3] eqn:E3.
  intro H; injection H as <- _. intros (d & H1 & H2 & H3).
  apply sack_phase_dlv in E2.
  destruct (strip_delivered_spec _ _ _ _ _ _ E3) as (dropped & Hd & Hc3 & _).
  assert (Hdc : (dc <= length (ss_segs t))%nat).
  { subst dc. destruct (0 <=? _); [|lia]. unfold len_z. lia. }
  assert (Hl2 : length rest2 = (length (ss_segs t) - dc)%nat).
  { rewrite <- (Forall2_len _ _ _ _ _ E2), skipn_length. reflexivity. }
  assert (Hl3 : (length dropped + length rest3 = length rest2)%nat) by (rewrite Hd, app_length; reflexivity).
  exists (d + dc + length dropped)%nat. cbn [ss_segs ss_snd_una].
  split; [lia|]. split.
  - rewrite H2, Hc3. rewrite !wadd16_wadd16 by lia. f_equal. f_equal. lia.
  - apply DMl_drop. rewrite <- Hd. eapply DMl_mono; [|exact E2].
    (* skipn dc *)
    intros i g Hn Hg. replace (d + dc + i)%nat with (d + (dc + i))%nat in Hn by lia.
    destruct (H3 _ g Hn Hg) as (g' & K1 & K2). exists g'. split; [|exact K2].
    rewrite nth_error_skipn. exact K1.
Qed.

Ltac skr_leaf := unfold skr; repeat split; reflexivity.
Ltac fpr_leaf := apply fpr_same; reflexivity.

Section WithCC.
Context {CC : Type} (cci : cc_iface CC).
Notation vsock := (vsock CC).

(* the ACK part of one message: the estimator moves only on progress *)
Lemma pim_ack_rtte : forall (s1 s2 : vsock) h res,
  pim_ack cci s1 h = Some (s2, res) ->
  cnt_ok res /\ (v_rtte s2 = v_rtte s1 \/ prog res) /\ (RB s1 -> RB s2).
Proof.
  intros s1 s2 h res. unfold pim_ack.
  destruct (remove_up_to_ack _ _ _ _) as [segs1 res0] eqn:Er.
  destruct (remove_up_to_ack_rtt _ _ _ _ _ _ Er) as [Hc Hp].
  destruct (is_recovering (v_recovery s1)).
  - destruct (cc_on_ack cci _ _ _ _) as [cc3|]; [|discriminate].
    destruct (recovery_on_ack cci _ _ _ _ _ _ _) as [[[rec1 segs2] cc4]|]; [|discriminate].
    intro H; injection H as <- <-. split; [exact Hc|]. split; [left; reflexivity | intro K; exact K].
  - destruct (ar_new_rtt res0) as [rtt|] eqn:En.
    + destruct (sample (v_rtte s1) rtt) as [rtte1|] eqn:Es; [|discriminate].
      destruct (cc_on_ack cci _ _ _ _) as [cc3|]; [|discriminate].
      destruct (recovery_on_ack cci _ _ _ _ _ _ _) as [[[rec1 segs2] cc4]|]; [|discriminate].
      intro H; injection H as <- <-. split; [exact Hc|]. split.
      * right. destruct Hp as [Hp|Hp]; [congruence | exact Hp].
      * intros _. unfold RB. vsimpl_goal. eapply sample_in_bounds; exact Es.
    + destruct (cc_on_ack cci _ _ _ _) as [cc3|]; [|discriminate].
      destruct (recovery_on_ack cci _ _ _ _ _ _ _) as [[[rec1 segs2] cc4]|]; [|discriminate].
      intro H; injection H as <- <-. split; [exact Hc|]. split; [left; reflexivity | intro K; exact K].
Qed.

Lemma cnt_ok_default : cnt_ok on_ack_result_default.
Proof. unfold cnt_ok, on_ack_result_default. cbn. lia. Qed.

Lemma cnt_ok_update : forall a b, cnt_ok a -> cnt_ok b -> cnt_ok (result_update a b).
Proof. unfold cnt_ok, result_update. cbn [ar_acked_segments ar_newly_sacked_segments]. lia. Qed.

Lemma prog_update : forall a b, cnt_ok a -> cnt_ok b -> prog a \/ prog b -> prog (result_update a b).
Proof. unfold cnt_ok, prog, result_update. cbn [ar_acked_segments ar_newly_sacked_segments]. lia. Qed.

(* one message *)
Lemma pim_msg_rtte : forall (s s' : vsock) m r,
  process_incoming_message cci s m = SOk s' r ->
  cnt_ok r /\ (v_rtte s' = v_rtte s \/ prog r) /\ (RB s -> RB s').
Proof.
  intros s s' m r. rewrite process_incoming_message_eq.
  destruct (state_table_fpr s (m_hdr m)) as [Ht _].
  destruct (state_table s (m_hdr m)) as [s1|s1 e|s1]; cbn [tbl_state] in Ht; [|discriminate|].
  - intro H; injection H as <- <-. destruct Ht as (_ & _ & _ & _ & _ & _ & _ & _ & T9 & _).
    split; [apply cnt_ok_default|]. split; [left; exact T9 | unfold RB; rewrite T9; auto].
  - destruct Ht as (_ & _ & _ & _ & _ & _ & _ & _ & T9 & _).
    unfold pim_cont. destruct (pim_ack cci s1 (m_hdr m)) as [[s2 res]|] eqn:Ea; [|discriminate].
    destruct (pim_ack_rtte _ _ _ _ Ea) as (Hc & Hp & Hb). cbv zeta.
    assert (Hfin : forall s3 : vsock, v_rtte s3 = v_rtte s2 ->
              cnt_ok res /\ (v_rtte s3 = v_rtte s \/ prog res) /\ (RB s -> RB s3)).
    { intros s3 E3. split; [exact Hc|]. split.
      - destruct Hp as [Hp|Hp]; [left; congruence | right; exact Hp].
      - unfold RB in *. rewrite E3, T9 in *. exact Hb. }
    destruct (ch_type (m_hdr m)).
    + intro H. pose proof (pim_data_fpr cci s2 m res (seq_sub (ch_seq (m_hdr m)) (wadd16 (v_last_consumed s2) 1))) as F.
      rewrite H in F. cbn [sfp] in F. destruct F as (_ & _ & _ & _ & _ & _ & _ & _ & F9 & _).
      pose proof (pim_data_jt cci _ _ _ _ _ _ H) as [_ ->]. apply Hfin. exact F9.
    + intro H. pose proof (pim_fin_fpr s2 m res (seq_sub (ch_seq (m_hdr m)) (wadd16 (v_last_consumed s2) 1))
                             (is_remote_fin_or_later (v_state s))) as F.
      rewrite H in F. cbn [sfp] in F. destruct F as (_ & _ & _ & _ & _ & _ & _ & _ & F9 & _).
      pose proof (pim_fin_jt _ _ _ _ _ _ _ H) as [_ ->]. apply Hfin. exact F9.
    + intro H; injection H as <- <-. apply Hfin. reflexivity.
    + intro H; injection H as <- <-. apply Hfin. reflexivity.
    + intro H; injection H as <- <-. apply Hfin. reflexivity.
Qed.

(* the receive loop *)
Lemma recv_loop_mode : forall fuel (s : vsock) acc s' r early,
  recv_loop cci fuel s acc = SOk s' (r, early) -> cnt_ok acc -> RB s ->
  cnt_ok r /\ RB s' /\ (NE s -> NE s') /\ (v_rtte s' = v_rtte s \/ prog r) /\ (prog acc -> prog r).
Proof.
  assert (Hbase : forall (s : vsock) (acc : on_ack_result) s' r early,
    (if v_inbox_closed s
     then sbind (maybe_send_fin (transition_to_fin_wait_1 s))
                (fun s2 _ => SOk (set_state s2 Closed) (acc, true))
     else SOk (set_inbox_waker s true) (acc, false)) = SOk s' (r, early) ->
    cnt_ok acc -> RB s ->
    cnt_ok r /\ RB s' /\ (NE s -> NE s') /\ (v_rtte s' = v_rtte s \/ prog r) /\ (prog acc -> prog r)).
  { intros s acc s' r early H Hc Hb. destruct (v_inbox_closed s).
    - pose proof (maybe_send_fin_qb (transition_to_fin_wait_1 s)) as Q.
      destruct (maybe_send_fin (transition_to_fin_wait_1 s)) as [s2 b|s2 e|]; cbn [sbind stR] in *; try discriminate.
      injection H as <- <- _.
      destruct Q as (_ & _ & _ & Q4 & _ & _ & _ & Q8 & _ & _ & _ & Q12).
      assert (E1 : v_rtte (transition_to_fin_wait_1 s) = v_rtte s)
        by (unfold transition_to_fin_wait_1; destruct (v_state s); reflexivity).
      assert (E2 : NE s -> NE (transition_to_fin_wait_1 s))
        by (unfold NE, transition_to_fin_wait_1; destruct (v_state s); auto).
      split; [exact Hc|]. split; [unfold RB in *; vsimpl_goal; rewrite Q8, E1; exact Hb|].
      split; [intro K; unfold NE; vsimpl_goal; apply Q12; [rewrite E1; exact Hb | apply E2; exact K]|].
      split; [left; vsimpl_goal; congruence | auto].
    - injection H as <- <- _. split; [exact Hc|]. split; [exact Hb|]. split; [auto|]. split; [left; reflexivity | auto]. }
  induction fuel as [|m0 fuel IH]; intros s acc s' r early; cbn [recv_loop];
    destruct (v_inbox s) as [|m rest] eqn:Ei; try (apply Hbase); try discriminate.
  destruct (process_incoming_message cci (set_inbox s rest) m) as [s1 r0|s1 e|] eqn:Ep; cbn [sbind]; try discriminate.
  intros H Hc Hb.
  destruct (pim_msg_rtte _ _ _ _ Ep) as (Hc0 & Hp0 & Hb0).
  pose proof (process_incoming_message_in_frame cci (set_inbox s rest) m s1 ltac:(rewrite Ep; reflexivity)) as Hf.
  destruct Hf as (_ & _ & F3 & _ & F5 & _).
  assert (Hne1 : NE s -> NE s1) by (unfold NE; rewrite F5, F3; auto).
  assert (Hc1 : cnt_ok (result_update acc r0)) by (apply cnt_ok_update; assumption).
  assert (Hb1 : RB s1) by (apply Hb0; exact Hb).
  assert (Hfin : forall (s2 : vsock) r2, cnt_ok r2 /\ RB s2 /\ (NE s1 -> NE s2) /\ (v_rtte s2 = v_rtte s1 \/ prog r2) /\
                               (prog (result_update acc r0) -> prog r2) ->
            cnt_ok r2 /\ RB s2 /\ (NE s -> NE s2) /\ (v_rtte s2 = v_rtte s \/ prog r2) /\ (prog acc -> prog r2)).
  { intros s2 r2 (K1 & K2 & K3 & K4 & K5). split; [exact K1|]. split; [exact K2|]. split; [auto|].
    split.
    - destruct K4 as [K4|K4]; [|right; exact K4].
      destruct Hp0 as [Hp0|Hp0]; [left; change (v_rtte (set_inbox s rest)) with (v_rtte s) in Hp0; congruence|].
      right. apply K5. apply prog_update; auto.
    - intro Ka. apply K5. apply prog_update; auto. }
  destruct (_ || _).
  - injection H as <- <- _. apply Hfin. split; [exact Hc1|]. split; [exact Hb1|]. split; [auto|].
    split; [left; reflexivity | auto].
  - apply Hfin. eapply IH; eauto.
Qed.

Lemma progb_prog : forall r, cnt_ok r ->
  ((0 <? ar_acked_segments r) || (0 <? ar_newly_sacked_segments r) = true <-> prog r).
Proof.
  intros r _. unfold prog. rewrite orb_true_iff, !Z.ltb_lt. tauto.
Qed.

(* the bookkeeping after the loop *)
Lemma paim_rest_mode : forall (s1 : vsock) r s' u,
  paim_rest s1 r = SOk s' u -> RB s1 ->
  v_rtte s' = v_rtte s1 /\ v_now s' = v_now s1 /\
  (if (0 <? ar_acked_segments r) || (0 <? ar_newly_sacked_segments r)
   then v_rto_retransmissions s' = 0 /\ NE s'
   else v_rto_retransmissions s' = v_rto_retransmissions s1 /\ v_t_retransmit s' = v_t_retransmit s1).
Proof.
  intros s1 r s' u H Hb. unfold paim_rest in H.
  match type of H with sbind ?m _ = _ =>
    match m with context [acked_counts_as_sent ?x] => set (s2 := x) in * end end.
  assert (F2 : v_rtte s2 = v_rtte s1 /\ v_now s2 = v_now s1 /\
    (if (0 <? ar_acked_segments r) || (0 <? ar_newly_sacked_segments r)
     then v_rto_retransmissions s2 = 0 /\ NE s2
     else v_rto_retransmissions s2 = v_rto_retransmissions s1 /\ v_t_retransmit s2 = v_t_retransmit s1)).
  { subst s2. destruct (_ || _); [|auto].
    pose proof (rto_pos _ Hb) as Hp.
    unfold restart_remote_inactivity_timer, NE.
    destruct (ss_segs _); [destruct (our_fin_if_unacked _)|]; vsimpl_goal;
      (split; [reflexivity|]; split; [reflexivity|]; split; [reflexivity|]);
      unfold timer_arm, timer_expired; try reflexivity;
      destruct (v_t_retransmit s1); lia. }
  clearbody s2.
  assert (Hfin : forall s3 : vsock,
    v_rtte s3 = v_rtte s2 -> v_now s3 = v_now s2 -> v_rto_retransmissions s3 = v_rto_retransmissions s2 ->
    v_t_retransmit s3 = v_t_retransmit s2 ->
    (match rv_phase (v_recovery s3) with
     | Recovering rc =>
         match calc_pipe (v_segs s3) (rc_high_rxt rc) (v_last_sent_seq_nr s3)
                         (roundtrip_time (v_rtte s3)) (v_now s3) with
         | None => SPanic
         | Some (segs', pipe, recalc) =>
             SOk (set_recovering (VSockRec.set_segs s3 segs')
                    {| rc_recovery_point := rc_recovery_point rc; rc_high_rxt := rc_high_rxt rc;
                       rc_total_retx := rc_total_retx rc; rc_pipe := pipe; rc_recalc := recalc;
                       rc_cwnd := rc_cwnd rc |}) tt
         end
     | _ => SOk s3 tt
     end) = SOk s' u ->
    v_rtte s' = v_rtte s1 /\ v_now s' = v_now s1 /\
    (if (0 <? ar_acked_segments r) || (0 <? ar_newly_sacked_segments r)
     then v_rto_retransmissions s' = 0 /\ NE s'
     else v_rto_retransmissions s' = v_rto_retransmissions s1 /\ v_t_retransmit s' = v_t_retransmit s1)).
  { intros s3 E1 E2 E3 E4 K. destruct F2 as (G1 & G2 & G3).
    assert (Hs3 : v_rtte s3 = v_rtte s1 /\ v_now s3 = v_now s1 /\
      (if (0 <? ar_acked_segments r) || (0 <? ar_newly_sacked_segments r)
       then v_rto_retransmissions s3 = 0 /\ NE s3
       else v_rto_retransmissions s3 = v_rto_retransmissions s1 /\ v_t_retransmit s3 = v_t_retransmit s1)).
    { split; [congruence|]. split; [congruence|]. destruct (_ || _).
      - destruct G3 as [G3 G4]. split; [congruence|]. unfold NE in *. rewrite E4, E2. exact G4.
      - destruct G3 as [G3 G4]. split; congruence. }
    destruct (rv_phase (v_recovery s3)); try (inversion K; subst; exact Hs3).
    destruct (calc_pipe _ _ _ _ _) as [[[sg pp] rcl]|]; [|discriminate].
    inversion K; subst. exact Hs3. }
  destruct (0 <? ar_acked_segments r).
  - assert (F2' : forall x : vsock, x = acked_counts_as_sent s2 ->
        v_rtte x = v_rtte s2 /\ v_now x = v_now s2 /\ v_rto_retransmissions x = v_rto_retransmissions s2 /\
        v_t_retransmit x = v_t_retransmit s2).
    { intros x ->. unfold acked_counts_as_sent. destruct (seq_gt _ _ && seq_lt _ _); repeat split; reflexivity. }
    specialize (F2' _ eq_refl). revert F2' H. generalize (acked_counts_as_sent s2). intros s2' (A1 & A2 & A3 & A4) H.
    destruct (truncate_front _ _) as [tx1 tr]. destruct tr; [|discriminate].
    destruct (wake_writer tx1) as [tx2 w]. cbn [sbind] in H. eapply Hfin; [| | | |exact H]; assumption.
  - cbn [sbind] in H. eapply Hfin; [| | | |exact H]; reflexivity.
Qed.

(* the whole incoming path: either nothing was acknowledged -- counter, estimator, timer untouched -- or
   the counter is back to zero and the retransmission timer is not expired *)
Theorem pim_mode : forall (s s' : vsock) u,
  process_all_incoming_messages cci s = SOk s' u -> RB s ->
  RB s' /\ v_now s' = v_now s /\
  ((v_rto_retransmissions s' = v_rto_retransmissions s /\ v_rtte s' = v_rtte s /\ (NE s -> NE s')) \/
   (v_rto_retransmissions s' = 0 /\ NE s')).
Proof.
  intros s s' u H Hb. rewrite paim_eq in H.
  destruct (recv_loop cci _ s on_ack_result_default) as [s1 [r early]|s1 e|] eqn:El; cbn [sbind fst] in H; try discriminate.
  destruct (recv_loop_mode _ _ _ _ _ _ El cnt_ok_default Hb) as (Hc & Hb1 & Hne & Hrt & _).
  assert (Hl : step_st (recv_loop cci (v_inbox s ++ [ {| m_hdr := outgoing_header s; m_payload := [] |} ]) s
              on_ack_result_default) = Some s1) by (rewrite El; reflexivity).
  apply VSock_LemmasIn.recv_loop_frame in Hl. destruct Hl as (L1 & _ & L3 & _).
  destruct (paim_rest_mode _ _ _ _ H Hb1) as (P1 & P2 & P3).
  split; [unfold RB in *; rewrite P1; exact Hb1|]. split; [congruence|].
  destruct ((0 <? ar_acked_segments r) || (0 <? ar_newly_sacked_segments r)) eqn:Eb.
  - right. exact P3.
  - left. destruct P3 as [P3 P4]. split; [congruence|]. split.
    + destruct Hrt as [Hrt|Hrt]; [congruence|]. apply (progb_prog r Hc) in Hrt. congruence.
    + intro K. unfold NE in *. rewrite P4, P2. apply Hne. exact K.
Qed.

(* ================================================================== segmentation *)
(* from a state with the estimator in bounds: estimator and clock are kept, and either counter and timer
   are too, or the counter is 0 and the timer (re-armed for the table that is left, or switched off) has not
   expired *)
Definition smR (a b : vsock) : Prop :=
  RB a -> v_rtte b = v_rtte a /\ v_now b = v_now a /\
          ((v_rto_retransmissions b = v_rto_retransmissions a /\ v_t_retransmit b = v_t_retransmit a) \/
           (v_rto_retransmissions b = 0 /\ NE b)).

Lemma smR_same : forall a b : vsock,
  v_rtte b = v_rtte a -> v_now b = v_now a -> v_rto_retransmissions b = v_rto_retransmissions a ->
  v_t_retransmit b = v_t_retransmit a -> smR a b.
Proof. intros a b E1 E2 E3 E4 _. auto. Qed.

Lemma smR_trans : forall a b c, smR a b -> smR b c -> smR a c.
Proof.
  intros a b c H1 H2 Ha. destruct (H1 Ha) as (A1 & A2 & A3).
  assert (Hb : RB b) by (unfold RB; rewrite A1; exact Ha).
  destruct (H2 Hb) as (B1 & B2 & B3). split; [congruence|]. split; [congruence|].
  destruct B3 as [(B3 & B4)|B3]; [|right; exact B3].
  destruct A3 as [(A3 & A4)|(A3 & A4)]; [left; split; congruence|].
  right. split; [congruence|]. unfold NE in *. rewrite B4, B2. exact A4.
Qed.

Lemma split_mode : forall s : vsock, stR smR s (split_tx_queue_into_segments cci s).
Proof.
  apply (split_tx_queue_into_segments_R cci smR (fun a => smR_same a a eq_refl eq_refl eq_refl eq_refl) smR_trans);
    try (intros; apply smR_same; reflexivity).
  intros s segs1 rw ps _ Hb. pose proof (rto_pos _ Hb) as Hp.
  unfold probe_given_up, NE. destruct (seq_gt _ _); vsimpl_goal;
    (split; [reflexivity|]; split; [reflexivity|]; right; split; [reflexivity|]);
    destruct (ss_segs segs1); try reflexivity; unfold timer_arm, timer_expired;
    destruct (v_t_retransmit s); lia.
Qed.

(* ================================================================== send_tx_queue *)
Definition W (s : vsock) : Prop := NE s \/ ITN s.

Lemma rec_branch_w : forall (s : vsock) h,
  RB s -> W s ->
  match rec_branch s h with
  | SOk s1 ret => RB s1 /\ v_restart s1 = v_restart s /\ W s1 /\ (NE s -> NE s1)
  | _ => True
  end.
Proof.
  intros s h Hrb Hni. unfold rec_branch.
  destruct (rv_phase (v_recovery s)) as [rp|dup|rc] eqn:Ep.
  1,2: (split; [exact Hrb|]; split; [reflexivity|]; split; [exact Hni | auto]).
  (* what rec_after writes is read neither by W nor by NE *)
  assert (Hafter : forall (s1 : vsock) res,
     RB s1 -> v_restart s1 = v_restart s -> W s1 /\ (NE s -> NE s1) ->
     match rec_after rc h (mss (v_ss s)) s1 res with
     | SOk s2 ret => RB s2 /\ v_restart s2 = v_restart s /\ W s2 /\ (NE s -> NE s2)
     | _ => True
     end).
  { intros s1 [st early] B1 R1 N1. unfold rec_after.
    destruct early.
    { split; [exact B1|]. split; [exact R1 | exact N1]. }
    match goal with |- match (match our_fin_if_unacked (v_state ?y) with _ => _ end) with _ => _ end =>
      assert (F3 : RB y /\ v_restart y = v_restart s /\ W y /\ (NE s -> NE y));
      [|revert F3; generalize y; intros sy F3] end.
    { destruct (_ <? _); [|split; [exact B1|]; split; [exact R1 | exact N1]].
      destruct (rc_recalc rc); [split; [exact B1|]; split; [exact R1 | exact N1]|].
      destruct (0 <? _); (split; [exact B1|]; split; [exact R1 | exact N1]). }
    destruct F3 as (G1 & G2 & G4).
    destruct (our_fin_if_unacked _); [destruct (_ =? _)|];
      (split; [exact G1|]; split; [exact G2 | exact G4]). }
  destruct Hni as [Hne|Hit].
  - pose proof (recovery_loop_qb (rec_items s rc) s h (mss (v_ss s)) (rec_st0 rc)) as Q.
    destruct (recovery_loop _ s h _ _) as [s1 res| |]; cbn [sbind stR] in *; auto.
    destruct Q as (Q1 & Q2 & Q3 & Q4 & Q5 & Q6 & Q7 & Q8 & Q9 & Q10 & Q11 & Q12).
    apply Hafter; [unfold RB; rewrite Q8; exact Hrb | exact Q9|].
    split; [left|intros _]; apply Q12; assumption.
  - assert (Ei : rec_items s rc = []).
    { unfold rec_items. unfold ITN in Hit. rewrite Hit. rewrite firstn_nil. reflexivity. }
    rewrite Ei. cbn [recovery_loop sbind]. apply Hafter; auto. split; [right; exact Hit | auto].
Qed.

Lemma new_branch_w : forall (s : vsock) h,
  RB s -> W s ->
  match new_branch cci s h with
  | SOk s1 _ => RB s1 /\ (v_restart s1 = v_restart s \/ (v_restart s1 = true /\ NE s1)) /\ (NE s -> NE s1)
  | _ => True
  end.
Proof.
  intros s h Hrb Hni. unfold new_branch.
  destruct Hni as [Hne|Hit].
  - pose proof (new_data_loop_qb (new_items s) s h (new_remaining cci s)) as Q.
    destruct (new_data_loop _ s h _) as [s1 tl| |]; cbn [sbind stR] in *; auto.
    destruct Q as (Q1 & Q2 & Q3 & Q4 & Q5 & Q6 & Q7 & Q8 & Q9 & Q10 & Q11 & Q12).
    assert (Hne1 : NE s1) by (apply Q12; assumption).
    assert (Hb1 : RB s1) by (unfold RB; rewrite Q8; exact Hrb).
    unfold new_after. destruct tl as [[sq sz]|]; [|split; [exact Hb1|]; split; [left; exact Q9 | intros _; exact Hne1]].
    destruct (pop_mtu_probe _ _) as [segs' popped]. destruct popped; [|exact I].
    split; [exact Hb1|]. split; [right; split; [reflexivity | exact Hne1] | intros _; exact Hne1].
  - unfold new_items, ITN in *. rewrite (iter_some_nil _ _ Hit). cbn [new_data_loop sbind new_after].
    split; [exact Hrb|]. split; [left; reflexivity | auto].
Qed.

(* what a send_tx_queue call does to the RTO counter: the RTO branch retransmitted the first undelivered
   segment (and the call stopped there), or the counter is where it was and a restart comes with an
   unexpired retransmission timer *)
Inductive stq_out (s s' : vsock) : Prop :=
| StqFired (f : for_sending) (rest : list for_sending) :
    timer_expired (v_t_retransmit s) (v_now s) = true ->
    iter_for_sending (v_segs s) None = f :: rest ->
    v_out s' = data_pkt s (outgoing_header s) f :: v_out s ->
    v_segs s' = on_sent (v_segs s) (fs_idx f) (v_now s) ->
    v_rto_retransmissions s' = v_rto_retransmissions s + 1 ->
    (if sg_probe (fs_seg f) then v_rtte s' = v_rtte s
     else on_rto_timeout (v_rtte s) = Some (v_rtte s')) ->
    v_t_retransmit s' = Some (v_now s + retransmission_timeout (v_rtte s')) ->
    v_restart s' = v_restart s ->
    stq_out s s'
| StqQuiet :
    v_rto_retransmissions s' = v_rto_retransmissions s ->
    (v_restart s' = v_restart s \/ (v_restart s' = true /\ NE s')) ->
    (NE s -> v_restart s' = v_restart s -> NE s') ->
    stq_out s s'.

Theorem stq_mode : forall (s s' : vsock) u,
  send_tx_queue cci s = SOk s' u -> ti s -> stq_out s s'.
Proof.
  intros s s' u H Hti. rewrite send_tx_queue_eq in H.
  destruct (v_transport_pending s).
  { inversion H; subst. apply StqQuiet; auto. }
  set (h := outgoing_header s) in *.
  destruct (rto_branch cci s h) as [s1 ret|s1 e|] eqn:Er; cbn [sbind] in H; try discriminate.
  assert (Hs : step_st (rto_branch cci s h) = Some s1) by (rewrite Er; reflexivity).
  pose proof (rto_branch_spec cci _ _ _ Hs) as Ho. rewrite Er in Ho.
  assert (Hb : RB s) by apply Hti.
  (* the parts after the RTO branch, from a state with the same counter *)
  assert (Hlater : v_rto_retransmissions s1 = v_rto_retransmissions s -> RB s1 ->
            v_restart s1 = v_restart s -> (ret = false -> W s1) -> (NE s -> NE s1) ->
            stq_out s s').
  { intros Hc Hb1 Hr1 Hw Hne1. unfold after_rto_k in H.
    assert (Hstop : SOk (A:=unit) s1 tt = SOk s' u -> stq_out s s').
    { intro K; inversion K; subst. apply StqQuiet; auto. }
    destruct ret; [exact (Hstop H)|].
    destruct (0 <? v_rto_retransmissions s1); [exact (Hstop H)|].
    destruct (ss_segs (v_segs s1)); [exact (Hstop H)|].
    specialize (Hw eq_refl).
    pose proof (rec_branch_w s1 h Hb1 Hw) as R2.
    destruct (rec_branch s1 h) as [s2 ret2|s2 e2|] eqn:E2; cbn [sbind] in H; try discriminate.
    destruct R2 as (B2 & R2 & W2 & N2).
    assert (Hs2 : step_st (rec_branch s1 h) = Some s2) by (rewrite E2; reflexivity).
    assert (C2 : v_rto_retransmissions s2 = v_rto_retransmissions s1).
    { destruct (rec_branch_spec _ _ _ Hs2) as [(_ & _ & ->)|(rc & sent & s1' & _ & _ & (Hf & _) & _ & _ & _ & _ & _ & A5 & _)];
        [reflexivity|]. destruct Hf as (_ & _ & _ & _ & F5 & _). congruence. }
    destruct ret2.
    { inversion H; subst. apply StqQuiet; [congruence | left; congruence | intros K _; apply N2, Hne1, K]. }
    pose proof (new_branch_w s2 h B2 W2) as R3.
    destruct (new_branch cci s2 h) as [s3 u3|s3 e3|] eqn:E3; try discriminate.
    inversion H; subst s3. destruct R3 as (B3 & R3 & N3).
    assert (Hs3 : step_st (new_branch cci s2 h) = Some s') by (rewrite E3; reflexivity).
    destruct (new_branch_spec _ _ _ _ Hs3) as (sent & rest & s2' & _ & (Hf & _) & _ & _ & _ & _ & _ & A4 & _ & A6 & _).
    destruct Hf as (_ & _ & _ & _ & F5 & _ & F7 & _).
    apply StqQuiet.
    - congruence.
    - destruct R3 as [R3|R3]; [left; congruence | right; exact R3].
    - intros K _. apply N3, N2, Hne1, K. }
  destruct Ho as [Ho Hf Hsg Hls Hne Hnq
                 | f rest Hexp Hit Hr Ho Hok Hsg Hrto Hls Htx Hop Hnow Hrw Hst Hpr Htr P
                 | fin Hexp Hit Hfin Hls Hr Ho Hsg Hrto Hls' Htx Hop Hnow Hrt Htr P].
  - (* quiet *)
    assert (Hf' := Hf). destruct Hf' as (_ & _ & _ & _ & F5 & _ & F7 & F8 & _ & _ & F11 & _).
    apply Hlater; try assumption.
    + unfold RB. rewrite F8. exact Hb.
    + intros ->. destruct (timer_expired (v_t_retransmit s) (v_now s)) eqn:Ex.
      * right. unfold ITN. rewrite Hsg.
        destruct (iter_for_sending (v_segs s) None) as [|f0 r0] eqn:Ei; [reflexivity|].
        exfalso. exact (Hnq f0 r0 eq_refl eq_refl eq_refl).
      * specialize (Hne eq_refl). inversion Hne; subst. left. exact Ex.
    + intro K. specialize (Hne K). inversion Hne; subst. exact K.
  - (* fired *)
    injection Hr as ->. unfold after_rto_k in H.
    assert (Hpos : 0 <? v_rto_retransmissions s1 = true).
    { apply Z.ltb_lt. destruct Hti as (_ & Hc & _). lia. }
    rewrite Hpos in H. inversion H; subst.
    eapply (StqFired s s' f rest); eauto.
    + destruct (sg_probe (fs_seg f)); [apply Hpr | apply Hpr].
    + exact (rto_branch_restart cci s h _ Hs).
  - (* the FIN was retransmitted *)
    injection Hr as ->. apply Hlater; try assumption.
    + eapply timeout_in_bounds; exact Hrt.
    + exact (rto_branch_restart cci s h _ Hs).
    + intros _. right. unfold ITN. rewrite Hsg. exact Hit.
    + intro K. unfold NE in K. congruence.
Qed.

(* ================================================================== delivered stays delivered, through a poll *)
Lemma recovery_on_ack_dlv : forall r h segs ls cc now rtt r' segs' cc',
  recovery_on_ack cci r h segs ls cc now rtt = Some (r', segs', cc') ->
  Forall2 dlv (ss_segs segs) (ss_segs segs') /\ ss_snd_una segs' = ss_snd_una segs.
Proof.
  intros r h segs ls cc now rtt r' segs' cc'. unfold recovery_on_ack. cbv zeta.
  cbn [rv_phase rv_supports_sack rv_last_ack]. intros H.
  assert (Hid : Forall2 dlv (ss_segs segs) (ss_segs segs) /\ ss_snd_una segs = ss_snd_una segs)
    by (split; [apply Forall2_dlv_refl | reflexivity]).
  destruct (rv_phase r).
  - destruct (seq_ge _ _); injection H as _ <- _; exact Hid.
  - destruct (ss_segs segs) eqn:Es; [injection H as _ <- _; rewrite Es; split; [constructor | reflexivity]|].
    rewrite <- Es in *.
    match type of H with (match ?c with _ => _ end) = _ => destruct c as [[dup' la']|] end; [|discriminate].
    destruct (dup' <? SACK_DUP_THRESH); [injection H as _ <- _; exact Hid|].
    destruct (calc_pipe _ _ _ _ _) as [[[sg pipe] recalc]|] eqn:Ec; [|discriminate].
    injection H as _ <- _. eapply calc_pipe_dlv; eauto.
  - destruct (seq_ge _ _); injection H as _ <- _; exact Hid.
Qed.

Lemma pim_ack_DM1 : forall t0 (s1 s2 : vsock) h res,
  pim_ack cci s1 h = Some (s2, res) -> DM1 t0 (v_segs s1) -> DM1 t0 (v_segs s2).
Proof.
  intros t0 s1 s2 h res H K. destruct (pim_ack_shape cci _ _ _ _ H) as (segs1 & rtte1 & cc3 & rec1 & segs2 & cc4 & Er & Ero & ->).
  vsimpl_goal.
  destruct (recovery_on_ack_dlv _ _ _ _ _ _ _ _ _ _ Ero) as [F E].
  eapply DM1_eq; [exact E | exact F|]. eapply remove_up_to_ack_DM1; eauto.
Qed.

Lemma enqueue_DM : forall t0 t len p, DM t0 t -> DM t0 (enqueue t len p).
Proof.
  intros t0 t len p (d & H1 & H2 & H3). exists d. unfold enqueue. cbn [Segments.set_segs ss_segs ss_snd_una].
  split; [exact H1|]. split; [exact H2 | apply DMl_app; exact H3].
Qed.

Lemma popped_DM : forall t0 t t', popped t t' -> DM t0 t -> DM t0 t'.
Proof.
  intros t0 t t' [->|(init & x & E & Ed & ->)]; [auto|].
  intros (d & H1 & H2 & H3). exists d.
  cbn [Segments.set_segs ss_segs ss_snd_una]. split; [exact H1|]. split; [exact H2|].
  rewrite E in H3. eapply DMl_pop; eauto.
Qed.

Lemma split_DM : forall t0 (s : vsock),
  stR (fun a b : vsock => DM t0 (v_segs a) -> DM t0 (v_segs b)) s (split_tx_queue_into_segments cci s).
Proof.
  intro t0. apply split_stR; auto.
  - intros s segs1 E. apply popped_DM; exact E.
  - intros s rem ss' segs' rem' E. eapply (segment_loop_kept (DM t0)); [apply enqueue_DM | exact E].
Qed.

Lemma on_sent_DM : forall t0 t i now, DM t0 t -> DM t0 (on_sent t i now).
Proof.
  intros t0 t i now K. eapply DM_eq; [| |exact K]; [reflexivity|].
  unfold on_sent, Segments.set_segs. cbn [ss_segs]. apply update_nth_dlv. intros x H. exact H.
Qed.

(* the strict regime again, with the relation to the table the poll started from *)
Definition IAD (t0 : segments) (s : vsock) : Prop := IA s /\ DM1 t0 (v_segs s).
Definition IOD (t0 : segments) (s : vsock) : Prop := IO s /\ DM t0 (v_segs s).

Lemma pim_IAD : forall t0 (s : vsock), IAD t0 s -> spI (IAD t0) (process_all_incoming_messages cci s).
Proof.
  intros t0 s Hi. apply pim_rule; try exact Hi.
  - intros a b F [K1 K2]. split; [eapply IA_fpr; eauto|]. destruct F as (E1 & _). rewrite E1. exact K2.
  - intros a l [K1 K2]. split; [eapply IA_skr; [|exact K1]; skr_leaf | exact K2].
  - intros a c tr ti [K1 K2]. split; [eapply IA_skr; [|exact K1]; skr_leaf | exact K2].
  - intros s1 s2 h res [K1 K2] E. split; [eapply IA_skr; [eapply pim_ack_skr; exact E | exact K1]|].
    eapply pim_ack_DM1; eauto.
  - intros s3 rc hd rtt now segs' p recalc [K1 K2] _ E.
    split; [eapply IA_skr; [|exact K1]; unfold set_recovering; skr_leaf|].
    unfold set_recovering. vsimpl_goal. destruct (calc_pipe_dlv _ _ _ _ _ _ _ _ E) as [F Eu].
    eapply DM1_eq; eauto.
Qed.

Lemma stq_IOD : forall t0 (s : vsock), IOD t0 s -> stI (IOD t0) (fun a _ => IOD t0 a) (send_tx_queue cci s).
Proof.
  intros t0 s Hi. apply (send_tx_queue_rule cci (IOD t0) (fun _ => False) (fun a _ => IOD t0 a)); try exact Hi; auto.
  - intros a b F [K1 K2]. split; [eapply IO_fpr; eauto|]. destruct F as (E1 & _). rewrite E1. exact K2.
  - intros a h f a1 ((K & _) & _) E. exact (proj2 (EF_send a h f a1 _ K E) eq_refl).
  - intros a e [].
  - intros a h f a1 n rest [K1 K2] Hs E. split; [eapply IO_sent; eauto|].
    pose proof (send_data_spec a h f) as Hd. rewrite E in Hd. destruct Hd as (_ & _ & Hsg & _).
    rewrite Hsg. apply on_sent_DM. exact K2.
  - intros a segs' q ss' [].
Qed.

Lemma jbd_Cc : forall t0 (s : vsock) e,
  NW s /\ OUT s /\ DM t0 (v_segs s) ->
  NW (just_before_death s e) /\ OUT (just_before_death s e) /\ DM t0 (v_segs (just_before_death s e)).
Proof.
  intros t0 s e (K1 & K2 & K3). pose proof (jbd_spec s e) as J. cbv zeta in J.
  destruct J as (_ & J2 & _ & _ & _ & _ & J7).
  destruct (VSock_Lemmas.just_before_death_frame s e) as (_ & F2 & F3 & _).
  split; [unfold NW in *; congruence|]. split; [|rewrite J2; exact K3].
  unfold OUT in *. destruct J7 as [J7|(_ & _ & p & J7 & Jp & _)]; rewrite J7.
  - eapply Forall_impl; [|exact K2]. intros q Hq. unfold live_pkt. rewrite J2, F3. exact Hq.
  - constructor; [apply nodata_live; unfold nodata; rewrite Jp; discriminate|].
    eapply Forall_impl; [|exact K2]. intros q Hq. unfold live_pkt. rewrite J2, F3. exact Hq.
Qed.

Theorem poll_OUT_DM_strict_all : forall (s s' : vsock) r,
  LB 0 s -> EF s -> poll cci s = (s', r) ->
  match r with
  | PollPanic => v_out s' = []
  | _ => NW s' /\ OUT s' /\ DM (v_segs s) (v_segs s')
  end.
Proof.
  intros s s' r HL HE H. set (t0 := v_segs s).
  set (A0 := fun a : vsock => LB 0 a /\ EF a /\ v_out a = [] /\ v_segs a = t0).
  set (A := fun a : vsock => LB 0 a /\ IAD t0 a).
  set (Cc := fun a : vsock => NW a /\ OUT a /\ DM t0 (v_segs a)).
  set (B2 := fun a : vsock => LB 0 a /\ IA a /\ DM t0 (v_segs a)).
  set (QE := fun (a : vsock) (_ : verror) => Cc a).
  assert (HA_Cc : forall a, IAD t0 a -> Cc a).
  { intros a ((_ & _ & K3 & K4) & K5). split; [exact K3|]. split; [apply nodata_OUT; exact K4 | apply DM1_DM; exact K5]. }
  assert (HB_Cc : forall a, B2 a -> Cc a).
  { intros a (_ & (_ & _ & K3 & K4) & K5). split; [exact K3|]. split; [apply nodata_OUT; exact K4 | exact K5]. }
  assert (Hsfp : forall X (a : vsock) (m : step X), A a -> sfp a m -> skp a m -> stH Cc QE A m).
  { intros X a m [L [K K5]] F S.
    assert (Hk : forall a' : vsock, fpr a a' -> IAD t0 a').
    { intros a' F'. split; [eapply IA_fpr; eauto|]. destruct F' as (E1 & _). rewrite E1. exact K5. }
    destruct m as [a' x|a' e|]; cbn [sfp skp stH] in *;
      [split; intros _; [apply HA_Cc, Hk, F | split; [eapply LB_kp; eauto | apply Hk, F]]
      | apply HA_Cc, Hk; apply F | exact I]. }
  assert (Hcfp : forall X (a : vsock) (m : step X), Cc a -> sfp a m -> stH Cc QE Cc m).
  { intros X a m (K1 & K2 & K3) F.
    assert (Hk : forall a' : vsock, fpr a a' -> Cc a').
    { intros a' F'. pose proof F' as (E1 & _ & E3 & E4 & _). split; [unfold NW in *; congruence|].
      split; [eapply OUT_fpr; [apply fpr_fpw; exact F' | exact K2] | rewrite E1; exact K3]. }
    destruct m as [a' x|a' e|]; cbn [sfp stH] in *;
      [split; intros _; apply Hk; exact F | apply Hk; apply F | exact I]. }
  assert (HR : resH A0 Cc Cc QE s' r).
  { apply (poll_H cci A0 A A B2 Cc Cc Cc QE) with (s := s); try exact H.
    - intros a (L & E & O & Sg). split; [eapply LB_kp; [exact L|]; unfold kp; auto|].
      split.
      + split; [exact E|]. split; [reflexivity|]. split; [reflexivity|].
        change (v_out (poll_start a)) with (v_out a). rewrite O. constructor.
      + change (v_segs (poll_start a)) with (v_segs a). rewrite Sg. apply DM1_refl. subst t0. apply HL.
    - intros a K _. apply (Hsfp _ a); [exact K | apply maybe_send_syn_ack_fpr | apply maybe_send_syn_ack_kp].
    - intros a K _. apply (Hsfp _ a); [exact K | apply send_ack_fpr | apply send_ack_kp].
    - intros a [L K] _. pose proof (process_all_LB cci a L) as PL. pose proof (pim_IAD t0 a K) as PI.
      destruct (process_all_incoming_messages cci a) as [a' x|a' e|]; cbn [sLB spI stH] in *; auto.
      + split; intros _; [apply HA_Cc; exact PI | split; assumption].
      + apply HA_Cc. apply PI.
    - intros a rx1 fb w [L [K K5]] _ _. split; [eapply LB_kp; [exact L|]; unfold kp, add_wakes; auto|].
      split; [eapply IA_fpr; [|exact K]; unfold add_wakes; fpr_leaf | apply DM1_DM; exact K5].
    - intros a K. apply HB_Cc. exact K.
    - intros a (L & K & K5) _. pose proof (split_LB cci a L) as PL. pose proof (split_skr cci a) as PS.
      pose proof (split_DM t0 a) as PD.
      destruct (split_tx_queue_into_segments cci a) as [a' x|a' e|]; cbn [sLB stR stB] in *; auto.
      + exact (conj PL (conj (IA_skr _ _ PS K) (PD K5))).
      + apply HB_Cc. exact (conj PL (conj (IA_skr _ _ PS K) (PD K5))).
    - intros a (L & (K1 & K2 & K3 & K4) & K5) _ _.
      assert (Hio : IOD t0 a).
      { split; [|exact K5]. split; [exact K1|]. split; [exact K2|]. split; [exact K3|].
        split; [apply nodata_OUT; exact K4 | apply seg_inv_SZ; apply L]. }
      pose proof (stq_IOD t0 a Hio) as S.
      destruct (send_tx_queue cci a) as [a' x|a' e|]; cbn [stI stQ] in *; auto.
      + destruct S as ((S1 & S2 & S3 & S4 & S5) & S6).
        split; [intro R; congruence|]. split; intros _ _; (split; [assumption|]; split; assumption).
      + destruct S as ((S1 & S2 & S3 & S4 & S5) & S6). split; [assumption|]. split; assumption.
    - intros a (K1 & K2 & K3) _. pose proof (transition_fpr a) as F. pose proof F as (E1 & _ & E3 & E4 & _).
      split; [unfold NW in *; congruence|].
      split; [eapply OUT_fpr; [apply fpr_fpw; exact F | exact K2] | rewrite E1; exact K3].
    - intros a K _. apply (Hcfp _ a); [exact K | apply maybe_send_fin_fpr].
    - intros a K _. apply (Hcfp _ a); [exact K | apply maybe_send_ack_fpr].
    - split; [eapply LB_kp; [exact HL|]; unfold kp; auto|]. split; [exact HE|]. split; reflexivity. }
  destruct r; cbn [resH] in HR.
  - destruct HR as [[_ K]|(sb & (K1 & K2 & K3) & _ & _ & _ & ->)]; [exact K|].
    pose proof (poll_tail_fpr sb) as F. pose proof F as (E1 & _ & E3 & E4 & _).
    split; [unfold NW in *; congruence|].
    split; [eapply OUT_fpr; [apply fpr_fpw; exact F | exact K2] | rewrite E1; exact K3].
  - destruct HR as (sb & K & _ & ->). apply jbd_Cc. exact K.
  - destruct HR as (sb & K & ->). apply jbd_Cc. exact K.
  - apply HR.
Qed.

Theorem poll_OUT_DM_strict : forall (s s' : vsock),
  LB 0 s -> EF s -> poll cci s = (s', PollPending) ->
  NW s' /\ OUT s' /\ DM (v_segs s) (v_segs s').
Proof. intros s s' HL HE H. exact (poll_OUT_DM_strict_all s s' PollPending HL HE H). Qed.

(* ================================================================== the back-off, over a whole poll *)
Lemma pim_nodata : forall s : vsock,
  Forall nodata (v_out s) -> spI (fun a : vsock => Forall nodata (v_out a)) (process_all_incoming_messages cci s).
Proof.
  intros s Hi. apply pim_rule; try exact Hi.
  - intros a b (_ & _ & _ & _ & _ & _ & _ & (l & E & Hl) & _) K. rewrite E. apply Forall_app. split; assumption.
  - intros a l K. exact K.
  - intros a c tr ti K. exact K.
  - intros s1 s2 h res K E. destruct (pim_ack_skr cci _ _ _ _ E) as (E1 & _). rewrite E1. exact K.
  - intros s3 rc hd rtt now segs' p recalc K _ _. exact K.
Qed.

Lemma maybe_send_ack_tr : forall (s s' : vsock) b,
  maybe_send_ack s = SOk s' b -> v_t_retransmit s' = v_t_retransmit s.
Proof.
  intros s s' b. unfold maybe_send_ack, send_ack.
  assert (G : forall h, send_control_packet s h = SOk s' b -> v_t_retransmit s' = v_t_retransmit s).
  { intros h E. pose proof (send_control_packet_spec s h) as Hc. rewrite E in Hc.
    destruct b; [apply Hc | destruct Hc as (_ & _ & _ & _ & Ht & _); exact Ht]. }
  destruct (immediate_ack_to_transmit s); [apply G|].
  destruct (should_send_window_update s); [apply G|].
  destruct (timer_expired _ _).
  - destruct (ack_to_transmit s); [apply G | intro H; inversion H; reflexivity].
  - destruct (0 <? _); intro H; inversion H; reflexivity.
Qed.

Lemma poll_tail_tr : forall s : vsock, v_t_retransmit (poll_tail s) = v_t_retransmit s.
Proof.
  intro s. unfold poll_tail, next_timer_to_poll, arm_in, add_wakes.
  repeat break_match; try (inversion Heqp; subst); reflexivity.
Qed.

Section Backoff.
Variable r0 : Z.
Variable rt0 : rtt_state.

Definition MU (s : vsock) : Prop :=
  v_rto_retransmissions s = r0 /\ v_rtte s = rt0 /\ Forall nodata (v_out s).
Definition MQ (s : vsock) : Prop := v_rto_retransmissions s <= r0 /\ NE s.
(* the RTO branch fired in this poll: one ST_DATA, the estimator backed off (unless the segment is an MTU
   probe), the timer restarted for one RTO *)
Definition MF (s : vsock) : Prop :=
  exists p l1 l2 j g,
    v_out s = l2 ++ p :: l1 /\ Forall nodata l1 /\ Forall nodata l2 /\ ch_type (p_hdr p) = ST_DATA /\
    nth_error (ss_segs (v_segs s)) j = Some g /\
    ch_seq (p_hdr p) = wadd16 (ss_snd_una (v_segs s)) (Z.of_nat j mod M16) /\
    (if sg_probe g then v_rtte s = rt0 else on_rto_timeout rt0 = Some (v_rtte s)) /\
    v_t_retransmit s = Some (v_now s + retransmission_timeout (v_rtte s)) /\
    v_rto_retransmissions s = r0 + 1.

Definition BA0 (s : vsock) : Prop :=
  ti s /\ ((NW s /\ MQ s) \/ (v_rto_retransmissions s = r0 /\ v_rtte s = rt0 /\ v_out s = [])).
Definition BA (s : vsock) : Prop := ti s /\ NW s /\ (MU s \/ MQ s).
Definition BC (s : vsock) : Prop := ti s /\ NW s /\ (MF s \/ v_rto_retransmissions s <= r0).

Lemma NW_fpr : forall s s' : vsock, fpr s s' -> NW s -> NW s'.
Proof. intros s s' (_ & _ & E3 & E4 & _) H. unfold NW in *. congruence. Qed.

(* a control stage before send_tx_queue *)
Lemma BA_ctl : forall X (s : vsock) (m : step X),
  BA s -> sfp s m -> stR qb s m -> stR tiR s m -> stH BC (fun _ _ => True) BA m.
Proof.
  intros X s m (T & N & M) F Q Tt. destruct m as [s' a|s' e|]; cbn [sfp stR stH] in *; auto.
  assert (K : BA s').
  { split; [exact (Tt T)|]. split; [eapply NW_fpr; eauto|].
    pose proof F as (_ & _ & _ & _ & _ & _ & _ & (l & E8 & E9) & E10 & E11 & _).
    destruct M as [(M1 & M2 & M3)|(M1 & M2)].
    - left. split; [congruence|]. split; [congruence|]. rewrite E8. apply Forall_app. split; assumption.
    - right. split; [lia|]. destruct Q as (_ & _ & _ & _ & _ & _ & _ & _ & _ & _ & _ & Q12).
      apply Q12; [apply T | exact M2]. }
  split; intros _; [|exact K].
  destruct K as (K1 & K2 & K3). split; [exact K1|]. split; [exact K2|]. right.
  destruct K3 as [(K3 & _)|(K3 & _)]; lia.
Qed.

(* a control stage after it *)
Lemma MF_fpr : forall s s' : vsock, fpr s s' -> v_t_retransmit s' = v_t_retransmit s -> MF s -> MF s'.
Proof.
  intros s s' (E1 & _ & E3 & _ & _ & _ & _ & (l & E8 & E9) & E10 & E11 & _) Et
    (p & l1 & l2 & j & g & A1 & A2 & A3 & A4 & A5 & A6 & A7 & A8 & A9).
  exists p, l1, (l ++ l2), j, g. rewrite E1, E3, E10, E11, Et.
  split; [rewrite E8, A1, app_assoc; reflexivity|]. split; [exact A2|].
  split; [apply Forall_app; split; assumption|]. auto 10.
Qed.

Lemma BC_ctl : forall X (s : vsock) (m : step X),
  BC s -> sfp s m -> stR tiR s m ->
  (forall s' a, m = SOk s' a -> MF s -> v_t_retransmit s' = v_t_retransmit s) ->
  stH BC (fun _ _ => True) BC m.
Proof.
  intros X s m (T & N & M) F Tt Htr. destruct m as [s' a|s' e|]; cbn [sfp stR stH] in *; auto.
  assert (K : BC s').
  { split; [exact (Tt T)|]. split; [eapply NW_fpr; eauto|].
    destruct M as [M|M].
    - left. eapply MF_fpr; eauto.
    - right. destruct F as (_ & _ & _ & _ & _ & _ & _ & _ & _ & E11 & _). lia. }
  split; intros _; exact K.
Qed.

Lemma timer_arm_same : forall now d, timer_arm (Some (now + d)) now d false = Some (now + d).
Proof. intros now d. unfold timer_arm. rewrite Z.min_id. reflexivity. Qed.

Theorem poll_backoff : forall (s s' : vsock),
  ti s -> v_rto_retransmissions s = r0 -> v_rtte s = rt0 ->
  poll cci s = (s', PollPending) -> BC s'.
Proof.
  intros s s' Hti Hr Hrt H.
  assert (HR : resH BA0 BC BC (fun _ _ => True) s' PollPending).
  { apply (poll_H cci BA0 BA BA BA BC BC BC (fun _ _ => True)) with (s := s); try exact H.
    - (* poll_start *)
      intros a (T & M). split; [apply (poll_start_ti a T)|]. split; [reflexivity|].
      destruct M as [(N & M1 & M2)|(M1 & M2 & M3)].
      + right. split; [exact M1|]. unfold NE, NW in *. unfold poll_start. vsimpl_goal. rewrite <- N. exact M2.
      + left. split; [exact M1|]. split; [exact M2|]. change (v_out (poll_start a)) with (v_out a).
        rewrite M3. constructor.
    - intros a K _. apply (BA_ctl _ a); [exact K | apply maybe_send_syn_ack_fpr | apply maybe_send_syn_ack_qb
                                         | apply maybe_send_syn_ack_ti].
    - intros a K _. apply (BA_ctl _ a); [exact K | apply send_ack_fpr | apply send_ack_qb | apply send_ack_ti].
    - (* the incoming messages *)
      intros a (T & N & M) _.
      pose proof (process_all_incoming_messages_ti cci a) as T'.
      pose proof (process_all_incoming_messages_frame cci a) as Fr.
      pose proof (pim_mode a) as PM.
      pose proof (pim_nodata a) as PN0.
      destruct (process_all_incoming_messages cci a) as [b u|b e|]; cbn [stR stH step_frame spI] in *; auto.
      specialize (T' T). destruct (PM b u eq_refl (proj1 T)) as (Hb & Hnow & Hm).
      destruct Fr as (_ & Fe & _).
      assert (Nb : NW b) by (unfold NW in *; congruence).
      assert (K : BA b).
      { split; [exact T'|]. split; [exact Nb|].
        destruct M as [(M1 & M2 & M3)|(M1 & M2)].
        - destruct Hm as [(C1 & C2 & C3)|(C1 & C2)].
          + left. split; [congruence|]. split; [congruence | apply PN0; exact M3].
          + right. split; [|exact C2]. destruct T as (_ & T2 & _). lia.
        - right. destruct Hm as [(C1 & C2 & C3)|(C1 & C2)].
          + split; [lia | apply C3; exact M2].
          + split; [|exact C2]. destruct T as (_ & T2 & _). lia. }
      split; intros _; [|exact K].
      destruct K as (K1 & K2 & K3). split; [exact K1|]. split; [exact K2|]. right.
      destruct K3 as [(K3 & _)|(K3 & _)]; lia.
    - (* flush *)
      intros a rx1 fb w (T & N & M) _ _. split; [apply (rx_flush_ti a rx1 (rx_wakes w) T)|].
      split; [exact N|]. exact M.
    - auto.
    - (* segmentation *)
      intros a (T & N & M) _.
      pose proof (split_tx_queue_into_segments_ti cci a) as T'.
      pose proof (split_mode a) as SM. pose proof (split_skr cci a) as SK.
      destruct (split_tx_queue_into_segments cci a) as [b u|b e|]; cbn [stR stB] in *; auto.
      specialize (T' T). destruct (SM (proj1 T)) as (S1 & S2 & S3).
      destruct SK as (K1 & _ & _ & K4 & _).
      split; [exact T'|]. split; [unfold NW in *; congruence|].
      destruct M as [(M1 & M2 & M3)|(M1 & M2)].
      + destruct S3 as [(C1 & C2)|(C1 & C2)].
        * left. split; [congruence|]. split; [congruence|]. rewrite K1. exact M3.
        * right. split; [|exact C2]. destruct T as (_ & T2 & _). lia.
      + right. destruct S3 as [(C1 & C2)|(C1 & C2)].
        * split; [lia|]. unfold NE in *. rewrite C2, S2. exact M2.
        * split; [|exact C2]. destruct T as (_ & T2 & _). lia.
    - (* send_tx_queue *)
      intros a (T & N & M) _ Ra.
      pose proof (send_tx_queue_ti cci a) as T'.
      pose proof (VSock_Lemmas.send_tx_queue_frame cci a) as Fr.
      pose proof (stq_mode a) as SM.
      destruct (send_tx_queue cci a) as [b u|b e|]; cbn [stR stQ step_frame] in *; auto.
      specialize (T' T). specialize (SM b u eq_refl T).
      destruct Fr as (_ & Fe & Fn & _).
      assert (Nb : NW b) by (unfold NW in *; congruence).
      assert (Hr0 : 0 <= r0).
      { destruct T as (_ & T2 & _). destruct M as [(M1 & _)|(M1 & _)]; lia. }
      destruct SM as [f rest Hexp Hit Ho Hsg Hc Hrtte Htr Hrs | Hc Hrs Hne].
      + (* fired: only from the untouched mode *)
        destruct M as [(M1 & M2 & M3)|(M1 & M2)]; [|unfold NE in M2; congruence].
        assert (KF : BC b).
        { split; [exact T'|]. split; [exact Nb|]. left.
          pose proof (synced_iter (v_segs a) None) as Hsy. rewrite Hit in Hsy.
          destruct Hsy as (_ & Hn & [_ Hsq] & _).
          exists (data_pkt a (outgoing_header a) f), (v_out a), [], (fs_idx f), (seg_on_sent (fs_seg f) (v_now a)).
          rewrite Hsg. unfold on_sent, Segments.set_segs. cbn [ss_segs ss_snd_una].
          split; [exact Ho|]. split; [exact M3|]. split; [constructor|]. split; [reflexivity|].
          split; [rewrite nth_error_update_nth, Nat.eqb_refl, Hn; reflexivity|].
          split; [exact Hsq|].
          split; [unfold seg_on_sent; cbn [sg_probe]; rewrite <- M2; exact Hrtte|].
          split; [rewrite Fn; exact Htr | lia]. }
        split; [intro Rb; congruence|]. split; intros _ _; exact KF.
      + assert (KQ : BC b).
        { split; [exact T'|]. split; [exact Nb|]. right. destruct M as [(M1 & _)|(M1 & _)]; lia. }
        split.
        * intro Rb. split; [exact T'|]. left. split; [exact Nb|].
          destruct Hrs as [Hrs|[_ Hrs]]; [congruence|]. split; [|exact Hrs].
          destruct M as [(M1 & _)|(M1 & _)]; lia.
        * split; intros _ _; exact KQ.
    - (* transition_to_fin_wait_1 *)
      intros a (T & N & M) _. pose proof (transition_fpr a) as F.
      split; [apply (transition_to_fin_wait_1_ti a T)|]. split; [eapply NW_fpr; eauto|].
      destruct M as [M|M].
      + left. eapply MF_fpr; [exact F | | exact M]. unfold transition_to_fin_wait_1. destruct (v_state a); reflexivity.
      + right. destruct F as (_ & _ & _ & _ & _ & _ & _ & _ & _ & E11 & _). lia.
    - (* maybe_send_fin *)
      intros a K _. apply (BC_ctl _ a); [exact K | apply maybe_send_fin_fpr | apply maybe_send_fin_ti|].
      intros b x E (p & l1 & l2 & j & g & _ & _ & _ & _ & _ & _ & _ & A8 & _).
      pose proof (maybe_send_fin_spec a) as Hm. rewrite E in Hm. destruct x.
      * destruct Hm as (seq & _ & _ & _ & _ & _ & _ & Ht & _). rewrite Ht, A8. apply timer_arm_same.
      * destruct Hm as (_ & _ & _ & _ & Ht & _). exact Ht.
    - (* maybe_send_ack *)
      intros a K _. apply (BC_ctl _ a); [exact K | apply maybe_send_ack_fpr | apply maybe_send_ack_ti|].
      intros b x E _. eapply maybe_send_ack_tr; exact E.
    - split; [exact (poll_start_ti _ (poll_start_ti _ Hti)) || exact Hti|].
      right. split; [exact Hr|]. split; [exact Hrt | reflexivity]. }
  cbn [resH] in HR. destruct HR as [[_ K]|(sb & (T & N & M) & _ & _ & _ & ->)]; [exact K|].
  pose proof (poll_tail_fpr sb) as F.
  split; [apply (poll_tail_ti sb T)|]. split; [eapply NW_fpr; eauto|].
  destruct M as [M|M].
  - left. eapply MF_fpr; [exact F | apply poll_tail_tr | exact M].
  - right. destruct F as (_ & _ & _ & _ & _ & _ & _ & _ & _ & E11 & _). lia.
Qed.

End Backoff.

End WithCC.
