(* C05, leaving single-segment mode (c05_rto_exit_ok2): the RTO counter goes from positive to zero in a
   Pending poll only if bytes were removed from the table (cumulative progress), or a segment of the table as
   it was before the poll became delivered (selective progress), or the expired MTU probe was popped
   (boundary B6, as the state before the poll shows it).
   - [TM]: the table only moves forward (removed bytes, delivered flags of the first n segments);
   - what one ACK does when it acknowledges nothing / something ([ack_facts]);
   - the staged walk through a Pending poll. *)
From Utp Require Import Base.Prelude Wire.SeqNr Wire.Header Rtt.Rtte Rtt.Rtte_Proofs Mtu.SegSizes Rx.Rx Tx.Ring
  Tx.Segments Tx.Segments_Proofs Conn.Recovery Conn.Msg Conn.VSockRec Conn.VSock Conn.VSockRun Conn.VObs
  Conn.VSock_Lemmas Conn.VSock_LemmasTx Conn.VSock_LemmasIn Conn.VSock_LemmasStep Conn.VSock_LemmasReach
  Conn.VSock_LemmasTimers Conn.VSock_LemmasPipe Conn.VSock_PollAux Conn.C17_StepLemmas Conn.C05_Pred
  Conn.C18_StepLemmas Conn.C05_Proofs Conn.C05_Flight Conn.C05_StepLemmas Conn.C05_Segs Conn.C05_Walk Conn.C05_StepZw.

(* ------------------------------------------------------------------ delivered counts *)
Fixpoint cds (l : list seg) : Z :=
  match l with [] => 0 | g :: r => (if sg_delivered g then 1 else 0) + cds r end.

Definition cdn (n : nat) (l : list seg) : Z := cds (firstn n l).

Lemma cds_app a b : cds (a ++ b) = cds a + cds b.
Proof. induction a as [|x xs IH]; cbn [app cds]; lia. Qed.

Lemma cds_nn l : 0 <= cds l.
Proof. induction l as [|x xs IH]; cbn [cds]; [lia|]. destruct (sg_delivered x); lia. Qed.

(* a segment that stays in the table: everything but the loss flags kept, delivered monotone *)
Definition sev1 (g g' : seg) : Prop :=
  sg_size g' = sg_size g /\ sg_sent g' = sg_sent g /\ sg_probe g' = sg_probe g /\
  (sg_delivered g = true -> sg_delivered g' = true).

(* ... and the delivered flag kept too *)
Definition sev0 (g g' : seg) : Prop :=
  sg_size g' = sg_size g /\ sg_sent g' = sg_sent g /\ sg_probe g' = sg_probe g /\
  sg_delivered g' = sg_delivered g.

Lemma sev0_sev1 g g' : sev0 g g' -> sev1 g g'.
Proof. intros (A & B & C & D). repeat split; auto. intro H. congruence. Qed.

Lemma sev1_refl g : sev1 g g.
Proof. unfold sev1. auto. Qed.
Lemma sev0_refl g : sev0 g g.
Proof. unfold sev0. auto. Qed.

Lemma sev1_trans a b c : sev1 a b -> sev1 b c -> sev1 a c.
Proof. unfold sev1. intros (A1&A2&A3&A4) (B1&B2&B3&B4). repeat split; try congruence. auto. Qed.
Lemma sev0_trans a b c : sev0 a b -> sev0 b c -> sev0 a c.
Proof. unfold sev0. intros (A1&A2&A3&A4) (B1&B2&B3&B4). repeat split; congruence. Qed.

Lemma sev1_cds l l' : Forall2 sev1 l l' -> cds l <= cds l'.
Proof.
  induction 1 as [|x y xs ys (_&_&_&Hd) _ IH]; cbn [cds]; [lia|].
  destruct (sg_delivered x); [rewrite (Hd eq_refl); lia|]. destruct (sg_delivered y); lia.
Qed.

Lemma sev0_cds l l' : Forall2 sev0 l l' -> cds l' = cds l.
Proof. induction 1 as [|x y xs ys (_&_&_&Hd) _ IH]; cbn [cds]; [reflexivity|]. rewrite Hd, IH. reflexivity. Qed.

Lemma sev1_cdn n l l' : Forall2 sev1 l l' -> cdn n l <= cdn n l'.
Proof. intro H. unfold cdn. apply sev1_cds. apply F2_firstn. exact H. Qed.

Lemma cdn_app n l x : cdn n l <= cdn n (l ++ x).
Proof.
  unfold cdn. rewrite firstn_app, cds_app. pose proof (cds_nn (firstn (n - length l) x)). lia.
Qed.

Lemma cdn_init n l g : sg_delivered g = false -> cdn n (l ++ [g]) = cdn n l.
Proof.
  intro Hg. unfold cdn. rewrite firstn_app, cds_app.
  destruct (n - length l)%nat; cbn [firstn cds]; [lia|]. rewrite Hg. destruct n0; cbn [firstn cds]; lia.
Qed.

Lemma sev1_lpos l l' : Forall2 sev1 l l' -> lpos l -> lpos l'.
Proof.
  unfold lpos. induction 1 as [|x y xs ys (Hs&_) _ IH]; intro H; [constructor|].
  inversion H; subst. constructor; [lia|auto].
Qed.

(* ------------------------------------------------------------------ the table moves forward *)
Definition TM (t t' : segments) : Prop :=
  ss_removed t <= ss_removed t' /\
  (ss_removed t' = ss_removed t -> forall n, cdn n (ss_segs t) <= cdn n (ss_segs t')).

Lemma TM_refl t : TM t t.
Proof. split; [lia|]. intros _ n. lia. Qed.

Lemma TM_trans a b c : TM a b -> TM b c -> TM a c.
Proof.
  intros (A1 & A2) (B1 & B2). split; [lia|]. intros E n.
  assert (E1 : ss_removed b = ss_removed a) by lia. assert (E2 : ss_removed c = ss_removed b) by lia.
  specialize (A2 E1 n). specialize (B2 E2 n). lia.
Qed.

Lemma TM_ev t t' : ss_removed t' = ss_removed t -> Forall2 sev1 (ss_segs t) (ss_segs t') -> TM t t'.
Proof. intros E H. split; [lia|]. intros _ n. apply sev1_cdn. exact H. Qed.

(* ------------------------------------------------------------------ one ACK *)
Lemma apply_sack_facts : forall l bits now a l' a',
  apply_sack l bits now a = (l', a') ->
  ac_cnt a <= ac_cnt a' /\ Forall2 sev1 l l' /\ cds l' = cds l + (ac_cnt a' - ac_cnt a) /\
  (ac_cnt a' = ac_cnt a -> l' = l).
Proof.
  induction l as [|s r IH]; intros bits now a l' a'; cbn [apply_sack].
  - intro H; injection H as <- <-. repeat split; try lia; constructor.
  - destruct bits as [|b bs].
    { intro H; injection H as <- <-. repeat split; try lia. apply F2_refl, sev1_refl. }
    destruct (negb (sg_delivered s) && b) eqn:Ec.
    + destruct (apply_sack r bs now _) as [r' a''] eqn:E. intro H; injection H as <- <-.
      destruct (IH _ _ _ _ _ E) as (I1 & I2 & I3 & I4). cbn [ac_cnt] in *.
      apply andb_true_iff in Ec. destruct Ec as [Ec _]. apply negb_true_iff in Ec.
      split; [lia|]. split.
      { constructor; [|exact I2]. unfold sev1, mark_delivered; cbn. repeat split; auto. }
      split; [cbn [cds mark_delivered sg_delivered]; rewrite Ec; lia|]. intro X. lia.
    + destruct (apply_sack r bs now a) as [r' a''] eqn:E. intro H; injection H as <- <-.
      destruct (IH _ _ _ _ _ E) as (I1 & I2 & I3 & I4).
      split; [exact I1|]. split; [constructor; [apply sev1_refl|exact I2]|].
      split; [cbn [cds]; lia|]. intro X. rewrite (I4 X). reflexivity.
Qed.

Lemma sack_phase_facts t rest a1 su now ack sk l' a' dp lse :
  sack_phase t rest a1 su now ack sk = (l', a', dp, lse) ->
  0 <= ac_cnt a' /\ Forall2 sev1 rest l' /\ cds l' = cds rest + ac_cnt a' /\ (ac_cnt a' = 0 -> l' = rest).
Proof.
  unfold sack_phase.
  assert (Hid : forall a0 : ack_acc, ac_cnt a0 = 0 ->
            0 <= ac_cnt a0 /\ Forall2 sev1 rest rest /\ cds rest = cds rest + ac_cnt a0 /\ (ac_cnt a0 = 0 -> rest = rest)).
  { intros a0 E. rewrite E. repeat split; try lia. apply F2_refl, sev1_refl. }
  destruct rest as [|s0 r0]; [intro H; injection H as <- <- _ _; apply Hid; reflexivity|].
  destruct sk as [k|]; [|intro H; injection H as <- <- _ _; apply Hid; reflexivity].
  destruct (seq_gt su ack); [|intro H; injection H as <- <- _ _; apply Hid; reflexivity].
  destruct (0 <=? seq_sub (wadd16 ack 2) su).
  - destruct (apply_sack (skipn _ (s0 :: r0)) (sk_bits k) now _) as [tl' a''] eqn:Ea.
    intro H; injection H as <- <- _ _.
    destruct (apply_sack_facts _ _ _ _ _ _ Ea) as (I1 & I2 & I3 & I4). cbn [ac_cnt] in *.
    split; [lia|]. split.
    { rewrite <- (firstn_skipn (Z.to_nat (seq_sub (wadd16 ack 2) su)) (s0 :: r0)) at 1.
      apply Forall2_app; [apply F2_refl, sev1_refl|exact I2]. }
    split.
    { rewrite cds_app, I3. rewrite <- (firstn_skipn (Z.to_nat (seq_sub (wadd16 ack 2) su)) (s0 :: r0)) at 3.
      rewrite cds_app. lia. }
    intro X. rewrite (I4 ltac:(lia)). apply firstn_skipn.
  - destruct (apply_sack (s0 :: r0) _ now _) as [l'' a''] eqn:Ea.
    intro H; injection H as <- <- _ _.
    destruct (apply_sack_facts _ _ _ _ _ _ Ea) as (I1 & I2 & I3 & I4). cbn [ac_cnt] in *.
    split; [lia|]. split; [exact I2|]. split; [lia|]. intro X. apply I4. lia.
Qed.

Lemma sum_sizes_lpos l : lpos l -> Z.of_nat (length l) <= sum_sizes l.
Proof. unfold lpos. induction 1 as [|g r Hg _ IH]; cbn [length sum_sizes]; lia. Qed.

Lemma ack_facts t now ack sk t' r :
  remove_up_to_ack t now ack sk = (t', r) -> lpos (ss_segs t) ->
  0 <= ar_acked_segments r /\ 0 <= ar_newly_sacked_segments r /\
  ss_removed t <= ss_removed t' /\
  (0 < ar_acked_segments r -> ss_removed t < ss_removed t') /\
  (ar_acked_segments r = 0 ->
     ss_removed t' = ss_removed t /\ Forall2 sev1 (ss_segs t) (ss_segs t') /\
     cds (ss_segs t') = cds (ss_segs t) + ar_newly_sacked_segments r /\
     (ar_newly_sacked_segments r = 0 -> ss_segs t' = ss_segs t)).
Proof.
  unfold remove_up_to_ack. intros H Hp.
  set (dc := if 0 <=? seq_sub ack (ss_snd_una t)
             then Z.to_nat (Z.min (seq_sub ack (ss_snd_una t) + 1) (len_z (ss_segs t))) else 0%nat) in *.
  set (a1 := drain_acc (firstn dc (ss_segs t)) now {| ac_rtt := None; ac_maxp := 0; ac_cnt := 0; ac_bytes := 0 |}) in *.
  destruct (drain_acc_spec (firstn dc (ss_segs t)) now {| ac_rtt := None; ac_maxp := 0; ac_cnt := 0; ac_bytes := 0 |})
    as [Hc1 Hb1]. fold a1 in Hc1, Hb1. cbn [ac_cnt ac_bytes] in Hc1, Hb1.
  destruct (sack_phase t (skipn dc (ss_segs t)) a1 _ now ack sk) as [[[rest2 a2] depth] lse] eqn:E2.
  destruct (sack_phase_facts _ _ _ _ _ _ _ _ _ _ _ E2) as (S1 & S2 & S3 & S4).
  destruct (strip_delivered rest2 0 0) as [[rest3 cnt3] bytes3] eqn:E3.
  destruct (strip_delivered_spec _ _ _ _ _ _ E3) as (dropped & Hd & Hc3 & Hb3 & _).
  injection H as <- <-. cbn [ss_segs ss_removed ar_acked_segments ar_newly_sacked_segments].
  assert (Hp1 : lpos (firstn dc (ss_segs t)) /\ lpos (skipn dc (ss_segs t))).
  { rewrite <- (firstn_skipn dc (ss_segs t)) in Hp. apply lpos_app in Hp. exact Hp. }
  destruct Hp1 as [Hpd Hpr].
  assert (Hp2 : lpos rest2) by (eapply sev1_lpos; eauto).
  rewrite Hd in Hp2. apply lpos_app in Hp2. destruct Hp2 as [Hpdrop _].
  pose proof (sum_sizes_lpos _ Hpd). pose proof (sum_sizes_lpos _ Hpdrop).
  split; [lia|]. split; [exact S1|]. split; [lia|]. split; [lia|].
  intro Hz.
  assert (Hl1 : length (firstn dc (ss_segs t)) = 0%nat) by lia.
  assert (Hl2 : length dropped = 0%nat) by lia.
  apply length_zero_iff_nil in Hl1, Hl2. subst dropped. cbn [app] in Hd. subst rest3.
  rewrite Hl1 in Hb1. cbn [sum_sizes] in Hb1, Hb3.
  assert (Hsk : skipn dc (ss_segs t) = ss_segs t).
  { rewrite <- (firstn_skipn dc (ss_segs t)) at 2. rewrite Hl1. reflexivity. }
  rewrite Hsk in *.
  split; [lia|]. split; [exact S2|]. split; [exact S3|exact S4].
Qed.

(* ------------------------------------------------------------------ the other table operations *)
Lemma calc_pipe_sev0 t hr hd rtt now t' p rc :
  calc_pipe t hr hd rtt now = Some (t', p, rc) ->
  Forall2 sev0 (ss_segs t) (ss_segs t') /\ ss_removed t' = ss_removed t.
Proof.
  unfold calc_pipe. destruct (_ <? _); [discriminate|].
  destruct (pipe_loop _ t hr _ now _) as [upd a] eqn:E. intro H; injection H as <- _ _.
  unfold Segments.set_segs; cbn [ss_segs ss_removed]. split; [|reflexivity].
  assert (Hl : forall l a0 l' a', pipe_loop l t hr (calc_pipe_expiry rtt) now a0 = (l', a') -> Forall2 sev0 (map snd l) l').
  { clear. induction l as [|[off s] r IH]; intros a0 l' a'; cbn [pipe_loop].
    - intro H; injection H as <- _. constructor.
    - destruct (seg_last_sent s) eqn:Els.
      + destruct (sg_delivered s) eqn:Ed.
        * destruct (pipe_loop r t hr _ now _) as [r' a''] eqn:E. intro H; injection H as <- _.
          cbn [map snd]. constructor; [apply sev0_refl|exact (IH _ _ _ E)].
        * destruct (pipe_loop r t hr _ now _) as [r' a''] eqn:E. intro H; injection H as <- _.
          cbn [map snd]. constructor; [|exact (IH _ _ _ E)]. unfold sev0; cbn. auto.
      + destruct (pipe_loop r t hr _ now a0) as [r' a''] eqn:E. intro H; injection H as <- _.
        cbn [map snd]. constructor; [apply sev0_refl|exact (IH _ _ _ E)]. }
  apply Hl in E. rewrite map_rev, enum_from_snd in E.
  apply Forall2_rev in E. rewrite rev_involutive in E.
  rewrite <- (firstn_skipn (Z.to_nat (Z.min (Z.max (seq_sub hd (ss_snd_una t)) 0) (len_z (ss_segs t)))) (ss_segs t)) at 1.
  apply Forall2_app; [exact E|apply F2_refl, sev0_refl].
Qed.

Lemma TM_dl t t' :
  ss_removed t' = ss_removed t ->
  Forall2 (fun g g' => sg_delivered g = true -> sg_delivered g' = true) (ss_segs t) (ss_segs t') -> TM t t'.
Proof.
  intros E H. split; [lia|]. intros _ n. unfold cdn.
  assert (G : forall l l', Forall2 (fun g g' => sg_delivered g = true -> sg_delivered g' = true) l l' -> cds l <= cds l').
  { induction 1 as [|x y xs ys Hd _ IH]; cbn [cds]; [lia|].
    destruct (sg_delivered x); [rewrite (Hd eq_refl); lia|]. destruct (sg_delivered y); lia. }
  apply G. apply F2_firstn. exact H.
Qed.

Lemma TM_ack t now ack sk t' r : remove_up_to_ack t now ack sk = (t', r) -> lpos (ss_segs t) -> TM t t'.
Proof.
  intros H Hp. destruct (ack_facts _ _ _ _ _ _ H Hp) as (A1 & A2 & A3 & A4 & A5).
  split; [exact A3|]. intros E n.
  destruct (Z.eq_dec (ar_acked_segments r) 0) as [Hz|Hz]; [|specialize (A4 ltac:(lia)); lia].
  destruct (A5 Hz) as (_ & Hev & _). apply sev1_cdn. exact Hev.
Qed.

Lemma TM_pipe t hr hd rtt now t' p rc : calc_pipe t hr hd rtt now = Some (t', p, rc) -> TM t t'.
Proof.
  intro H. destruct (calc_pipe_sev0 _ _ _ _ _ _ _ _ H) as [Hev Hr].
  apply TM_ev; [exact Hr|]. eapply F2_impl; [|exact Hev]. apply sev0_sev1.
Qed.

Lemma TM_on_sent t i now : TM t (on_sent t i now).
Proof.
  apply TM_dl; [reflexivity|]. unfold on_sent, Segments.set_segs; cbn [ss_segs].
  generalize (ss_segs t) as l. intro l. revert i. induction l as [|x xs IH]; intros [|i]; cbn [update_nth]; constructor;
    auto; try (apply F2_refl; auto).
Qed.

Lemma TM_on_sent_all now : forall sent t, TM t (on_sent_all t now sent).
Proof.
  induction sent as [|f r IH]; intro t; cbn [on_sent_all fold_left]; [apply TM_refl|].
  fold (on_sent_all (on_sent t (fs_idx f) now) now r). eapply TM_trans; [apply TM_on_sent|apply IH].
Qed.

Lemma TM_app t t' new : ss_removed t' = ss_removed t -> ss_segs t' = ss_segs t ++ new -> TM t t'.
Proof. intros E H. split; [lia|]. intros _ n. rewrite H. apply cdn_app. Qed.

Lemma TM_init t t' init g :
  ss_removed t' = ss_removed t -> ss_segs t = init ++ [g] -> ss_segs t' = init -> sg_delivered g = false -> TM t t'.
Proof. intros E H1 H2 Hg. split; [lia|]. intros _ n. rewrite H1, H2, cdn_init by exact Hg. lia. Qed.

Lemma TM_pop_mtu t q t' b : pop_mtu_probe t q = (t', b) -> TM t t'.
Proof.
  unfold pop_mtu_probe. destruct (last_and_init (ss_segs t)) as [[init g]|] eqn:E.
  - destruct (_ && sg_probe g && negb (sg_delivered g)) eqn:Ec; intro H; injection H as <- _; [|apply TM_refl].
    apply andb_true_iff in Ec. destruct Ec as [_ Ec]. apply negb_true_iff in Ec.
    apply Segments_ProofsOut.last_and_init_app in E.
    eapply TM_init; [reflexivity|exact E|reflexivity|exact Ec].
  - intro H; injection H as <- _. apply TM_refl.
Qed.

Lemma TM_pop_expired t to mr t' pe : pop_expired_mtu_probe t to mr = (t', pe) -> TM t t'.
Proof.
  unfold pop_expired_mtu_probe. destruct (last_and_init (ss_segs t)) as [[init g]|] eqn:E.
  - destruct (sg_delivered g) eqn:Ed; [intro H; injection H as <- _; apply TM_refl|].
    destruct (to && sg_probe g && (mr <=? seg_retransmit_count g));
      [|destruct (sg_probe g); intro H; injection H as <- _; apply TM_refl].
    intro H; injection H as <- _. apply Segments_ProofsOut.last_and_init_app in E.
    eapply TM_init; [reflexivity|exact E|reflexivity|exact Ed].
  - intro H; injection H as <- _. apply TM_refl.
Qed.

Lemma segment_loop_removed : forall fuel nagle ss segs rm rwr ss' segs' rm',
  segment_loop fuel nagle ss segs rm rwr = Some (ss', segs', rm') ->
  exists new, ss_segs segs' = ss_segs segs ++ new /\ ss_removed segs' = ss_removed segs.
Proof.
  induction fuel as [|b fuel IH]; intros nagle ss segs rm rwr ss' segs' rm'; cbn [segment_loop].
  - intro H; injection H as _ <- _. exists []. rewrite app_nil_r. auto.
  - destruct (_ && _); [|intro H; injection H as _ <- _; exists []; rewrite app_nil_r; auto].
    destruct (next_segment_size ss) as [[ss1 sz]|]; [|discriminate].
    destruct (nagle && _ && _); [intro H; injection H as _ <- _; exists []; rewrite app_nil_r; auto|].
    destruct (mss ss1 <? _).
    + intro H; injection H as _ <- _. eexists. split; reflexivity.
    + intro H. destruct (IH _ _ _ _ _ _ _ _ H) as (new & E1 & E2). rewrite E1, E2.
      unfold enqueue, Segments.set_segs. cbn [ss_segs ss_removed]. rewrite <- app_assoc. eexists. split; reflexivity.
Qed.

Section WithCC.
Context {CC : Type} (cci : cc_iface CC).
Notation vsock := (vsock CC).

(* ------------------------------------------------------------------ TS: sp kept, the table moves forward *)
Definition TS (s s' : vsock) : Prop := sp s -> sp s' /\ TM (v_segs s) (v_segs s').

Lemma TS_refl s : TS s s.
Proof. intro H. split; [exact H|apply TM_refl]. Qed.

Lemma TS_trans a b c : TS a b -> TS b c -> TS a c.
Proof.
  intros F G H. destruct (F H) as [H1 T1]. destruct (G H1) as [H2 T2]. split; [exact H2|eapply TM_trans; eauto].
Qed.

Lemma TS_same (s s' : vsock) : spR s s' -> v_segs s' = v_segs s -> TS s s'.
Proof. intros HS E H. split; [apply HS; exact H|rewrite E; apply TM_refl]. Qed.

Lemma TS_of (s s' : vsock) : spR s s' -> TM (v_segs s) (v_segs s') -> TS s s'.
Proof. intros HS HT H. split; [apply HS; exact H|exact HT]. Qed.

Lemma SQ_TS (s s' : vsock) : SQ s s' -> TS s s'.
Proof. intro H. apply TS_same; [apply SQ_spR; exact H|]. destruct H as (_&_&_&_&_&A6&_). exact A6. Qed.

Lemma stk_SQ_TS {A} (s : vsock) (m : step A) : stk SQ s m -> stRk TS s m.
Proof. destruct m; cbn [stk stRk]; auto using SQ_TS. Qed.

Ltac ts_same := apply TS_same; [apply spR_same; exact eq_refl|exact eq_refl].

Lemma recovery_on_ack_TM r h segs ls cc now rtt r' segs' cc' :
  recovery_on_ack cci r h segs ls cc now rtt = Some (r', segs', cc') -> TM segs segs'.
Proof.
  intros H. unfold recovery_on_ack in H. cbn [rv_phase] in H. destruct (rv_phase r).
  - destruct (seq_ge _ _); inversion H; subst; apply TM_refl.
  - destruct (ss_segs segs) eqn:Es; [inversion H; subst; apply TM_refl|].
    match type of H with match ?c with _ => _ end = _ => destruct c as [[dup' la']|] end; [|discriminate].
    destruct (_ <? _); [inversion H; subst; apply TM_refl|].
    destruct (calc_pipe _ _ _ _ _) as [[[sg pipe] recalc]|] eqn:Ec; [|discriminate].
    inversion H; subst. eapply TM_pipe; eauto.
  - destruct (seq_ge _ _); inversion H; subst; apply TM_refl.
Qed.

Lemma pim_ack_TS s1 h s2 res : pim_ack cci s1 h = Some (s2, res) -> TS s1 s2.
Proof.
  intros H Hsp. split; [eapply pim_ack_spR; eauto|]. revert H.
  unfold pim_ack. destruct (remove_up_to_ack _ _ _ _) as [segs1 res0] eqn:Er.
  destruct (match is_recovering (v_recovery s1) with true => _ | false => _ end) as [rtte1|]; [|discriminate].
  destruct (cc_on_ack cci _ _ _ _) as [cc3|]; [|discriminate].
  destruct (recovery_on_ack cci _ _ _ _ _ _ _) as [[[rec1 segs2] cc4]|] eqn:Eo; [|discriminate].
  intro H; injection H as <- _. vsimpl_goal.
  eapply TM_trans; [eapply TM_ack; [exact Er|apply Hsp]|eapply recovery_on_ack_TM; exact Eo].
Qed.

Lemma state_table_segs (s : vsock) h : v_segs (tbl_state (state_table s h)) = v_segs s.
Proof.
  unfold state_table, restart_remote_inactivity_timer.
  destruct (ch_type h); destruct (v_state s); cbn [tbl_state negb];
    repeat (match goal with |- context [if ?c then _ else _] => destruct c end);
    cbn [tbl_state]; reflexivity.
Qed.

(* the payload part of a message leaves the table and the result of the ACK part alone *)
Lemma pim_data_keeps s2 m res offset :
  match pim_data cci s2 m res offset with SOk s3 r3 => v_segs s3 = v_segs s2 /\ r3 = res | _ => True end.
Proof.
  unfold pim_data. destruct (offset <? 0); [split; reflexivity|]. cbv zeta.
  destruct (rx_add_remove _ KData (m_payload m) offset) as [[rx1 ar] w].
  destruct ar as [r0|]; [|exact I]. destruct (add_err r0); [exact I|].
  match goal with |- context [send_ack (force_immediate_ack ?x)] => set (s5 := x) end.
  assert (E5 : v_segs s5 = v_segs s2) by (subst s5; unfold restart_remote_inactivity_timer, add_wakes; destruct r0; reflexivity).
  clearbody s5. destruct (_ || _); [|split; [exact E5|reflexivity]].
  pose proof (send_ack_SQ (force_immediate_ack s5)) as Ha.
  destruct (send_ack (force_immediate_ack s5)) as [s6 b|s6 e|]; cbn [sbind stk] in *; auto.
  destruct Ha as (_&_&_&_&_&A6&_). split; [rewrite A6; exact E5|reflexivity].
Qed.

Lemma pim_fin_keeps (s2 : vsock) m res offset seen :
  match pim_fin s2 m res offset seen with SOk s3 r3 => v_segs s3 = v_segs s2 /\ r3 = res | _ => True end.
Proof.
  unfold pim_fin. cbv zeta. destruct (_ && _); [|split; reflexivity].
  destruct (rx_add_remove _ KFin _ _) as [[rx1 ar] w]. destruct ar as [r0|]; [|exact I].
  destruct (add_err r0); [exact I|]. destruct (mark_vsock_closed _) as [tx1 w2]. split; reflexivity.
Qed.

Lemma process_incoming_message_TS s m : stRk TS s (process_incoming_message cci s m).
Proof.
  rewrite process_incoming_message_eq.
  assert (Ht : TS s (tbl_state (state_table s (m_hdr m))))
    by (apply TS_same; [apply state_table_spR|apply state_table_segs]).
  destruct (state_table s (m_hdr m)) as [s1|s1 e|s1]; cbn [tbl_state] in Ht; [exact Ht|exact I|].
  eapply (stRk_weaken TS TS_trans); [exact Ht|].
  unfold pim_cont. destruct (pim_ack cci s1 (m_hdr m)) as [[s2 res]|] eqn:Ea; [|exact I].
  pose proof (pim_ack_TS _ _ _ _ Ea) as H2. cbv zeta.
  destruct (ch_type (m_hdr m)); try exact H2.
  - eapply (stRk_weaken TS TS_trans); [exact H2|].
    pose proof (pim_data_spR cci s2 m res (seq_sub (ch_seq (m_hdr m)) (wadd16 (v_last_consumed s2) 1))) as HS.
    pose proof (pim_data_keeps s2 m res (seq_sub (ch_seq (m_hdr m)) (wadd16 (v_last_consumed s2) 1))) as HK.
    destruct (pim_data cci s2 m res _) as [s3 r3|s3 e3|]; cbn [stRk] in *; auto.
    apply TS_same; [exact HS|apply HK].
  - eapply (stRk_weaken TS TS_trans); [exact H2|].
    pose proof (pim_fin_spR s2 m res (seq_sub (ch_seq (m_hdr m)) (wadd16 (v_last_consumed s2) 1))
                  (is_remote_fin_or_later (v_state s))) as HS.
    pose proof (pim_fin_keeps s2 m res (seq_sub (ch_seq (m_hdr m)) (wadd16 (v_last_consumed s2) 1))
                  (is_remote_fin_or_later (v_state s))) as HK.
    destruct (pim_fin s2 m res _ _) as [s3 r3|s3 e3|]; cbn [stRk] in *; auto.
    apply TS_same; [exact HS|apply HK].
Qed.

Lemma maybe_send_fin_TS (s : vsock) : stRk TS s (maybe_send_fin s).
Proof.
  pose proof (maybe_send_fin_spR s) as HS. pose proof (maybe_send_fin_spec s) as H.
  destruct (maybe_send_fin s) as [s' [|]|s' e|]; cbn [stRk] in *; auto.
  - destruct H as (seq & _ & _ & _ & _ & Hsg & _). apply TS_same; assumption.
  - destruct H as (_ & _ & Hsg & _). apply TS_same; assumption.
Qed.

Lemma recv_loop_TS : forall fuel (s : vsock) acc, stRk TS s (recv_loop cci fuel s acc).
Proof.
  assert (Hbase : forall (s : vsock) (acc : on_ack_result),
    stRk TS s
      (if v_inbox_closed s
       then sbind (maybe_send_fin (transition_to_fin_wait_1 s))
                  (fun s2 _ => SOk (set_state s2 Closed) (acc, true))
       else SOk (set_inbox_waker s true) (acc, false))).
  { intros s acc. destruct (v_inbox_closed s); [|cbn [stRk]; ts_same].
    eapply (stRk_weaken TS TS_trans); [apply SQ_TS, transition_to_fin_wait_1_SQ|].
    apply (stRk_bind TS TS_trans); [apply maybe_send_fin_TS|]. intros s2 _. cbn [stRk]. ts_same. }
  induction fuel as [|m0 fuel IH]; intros s acc; cbn [recv_loop];
    destruct (v_inbox s) as [|m rest] eqn:Ei; try apply Hbase; try exact I.
  eapply (stRk_weaken TS TS_trans) with (s := set_inbox s rest); [ts_same|].
  apply (stRk_bind TS TS_trans); [apply process_incoming_message_TS|].
  intros s1 r. destruct (_ || _); [apply TS_refl|apply IH].
Qed.

Lemma pa_tail_TS (s1 : vsock) res : stRk TS s1 (pa_tail s1 res).
Proof.
  destruct res as [r early]. rewrite pa_tail_eq.
  apply (stRk_bind TS TS_trans).
  - unfold pa_trunc.
    assert (F2 : TS s1 (pa_reset r s1)).
    { unfold pa_reset. destruct (_ || _); [|apply TS_refl].
      destruct (ss_segs _); [destruct (our_fin_if_unacked _)|]; unfold restart_remote_inactivity_timer; ts_same. }
    eapply (stRk_weaken TS TS_trans); [exact F2|].
    destruct (0 <? _); [|apply TS_refl]. cbv zeta.
    assert (Ha : TS (pa_reset r s1) (acked_counts_as_sent (pa_reset r s1))).
    { unfold acked_counts_as_sent. destruct (seq_gt _ _ && seq_lt _ _); [ts_same|apply TS_refl]. }
    revert Ha. generalize (acked_counts_as_sent (pa_reset r s1)). intros s2' Ha.
    destruct (truncate_front _ _) as [tx1 tr]. destruct tr; [|exact I].
    destruct (wake_writer tx1) as [tx2 w]. cbn [stRk]. eapply TS_trans; [exact Ha|]. unfold add_wakes. ts_same.
  - intros s3 _. unfold pa_pipe. destruct (rv_phase _); try apply TS_refl.
    destruct (calc_pipe _ _ _ _ _) as [[[segs' pipe] recalc]|] eqn:Ec; [|exact I].
    cbn [stRk]. intros [H1 H2]. split.
    + unfold sp, set_recovering. vsimpl_goal. split; [exact H1|]. eapply calc_pipe_tpos; eauto.
    + unfold set_recovering. vsimpl_goal. eapply TM_pipe; eauto.
Qed.

Lemma process_all_TS (s : vsock) : stRk TS s (process_all_incoming_messages cci s).
Proof.
  rewrite process_all_eq. apply (stRk_bind TS TS_trans); [apply recv_loop_TS|]. intros s1 res. apply pa_tail_TS.
Qed.

Lemma split_TS (s : vsock) : stRk TS s (split_tx_queue_into_segments cci s).
Proof.
  pose proof (split_spR cci s) as HS. pose proof (split_tx_spec cci s) as Sp.
  destruct (split_tx_queue_into_segments cci s) as [s' u|s' e|]; cbn [stRk split_post] in *; auto.
  intro Hsp. split; [apply HS; exact Hsp|]. destruct Sp as (_ & t2 & ss2 & P & L).
  assert (T1 : TM (v_segs s) t2).
  { destruct P as [(-> & _)|(rw & ps & Ep & _)]; [apply TM_refl|eapply TM_pop_expired; exact Ep]. }
  eapply TM_trans; [exact T1|].
  destruct L as [[Et _]|(fuel & nagle & rm & rwr & El)]; [rewrite Et; apply TM_refl|].
  destruct (segment_loop_removed _ _ _ _ _ _ _ _ _ El) as (new & N1 & N2). eapply TM_app; eauto.
Qed.

Lemma send_tx_queue_TS (s : vsock) : stRk TS s (send_tx_queue cci s).
Proof.
  pose proof (send_tx_queue_spR cci s) as HS.
  destruct (send_tx_queue cci s) as [s' u|s' e|] eqn:E; cbn [stRk] in *; auto.
  intro Hsp. split; [apply HS; exact Hsp|].
  assert (Hst : step_st (send_tx_queue cci s) = Some s') by (rewrite E; reflexivity).
  (* the table changes by on_sent and by the pop of the failing probe only *)
  revert E. rewrite send_tx_queue_eq. destruct (v_transport_pending s); [intro E; injection E as <-; apply TM_refl|].
  set (h := outgoing_header s).
  destruct (rto_branch cci s h) as [s1 ret|s1 e|] eqn:Er; cbn [sbind]; try discriminate.
  assert (Hs1 : step_st (rto_branch cci s h) = Some s1) by (rewrite Er; reflexivity).
  pose proof (rto_branch_spec cci _ _ _ Hs1) as Ho. rewrite Er in Ho.
  assert (T1 : TM (v_segs s) (v_segs s1)).
  { destruct Ho as [_ _ Hsg _ _ _| f rest _ _ _ _ _ Hsg _ _ _ _ _ _ _ _ _ _| fin _ _ _ _ _ _ Hsg _ _ _ _ _ _ _ _].
    - rewrite Hsg. apply TM_refl.
    - rewrite Hsg. apply TM_on_sent.
    - rewrite Hsg. apply TM_refl. }
  destruct (after_rto_k_cases cci h s1 ret) as [->|(_ & _ & _ & ->)]; [intro E; injection E as <-; exact T1|].
  unfold rec_new.
  destruct (rec_branch s1 h) as [s2 ret2|s2 e2|] eqn:Erb; cbn [sbind]; try discriminate.
  assert (Hs2 : step_st (rec_branch s1 h) = Some s2) by (rewrite Erb; reflexivity).
  assert (T2 : TM (v_segs s1) (v_segs s2)).
  { destruct (rec_branch_spec _ _ _ Hs2) as [(_ & _ & ->)|(rc & sent & s1' & _ & _ & (_ & _ & Hsg & _) & _ & _ & A2 & _)];
      [apply TM_refl|]. rewrite A2, Hsg. apply TM_on_sent_all. }
  destruct ret2; [intro E; injection E as <-; eapply TM_trans; eauto|].
  unfold new_branch.
  destruct (new_data_loop (new_items s2) s2 h (new_remaining cci s2)) as [s3 tl|s3 e3|] eqn:El; cbn [sbind]; try discriminate.
  assert (Hl : step_st (new_data_loop (new_items s2) s2 h (new_remaining cci s2)) = Some s3) by (rewrite El; reflexivity).
  destruct (new_data_loop_spec _ _ _ _ _ (new_remaining_nonneg cci s2) Hl) as (sent & rest & _ & (_ & _ & Hsg3 & _) & _).
  assert (T3 : TM (v_segs s2) (v_segs s3)) by (rewrite Hsg3; apply TM_on_sent_all).
  unfold new_after. destruct tl as [[sq sz]|]; [|intro E; injection E as <-; eapply TM_trans; [exact T1|eapply TM_trans; eauto]].
  destruct (pop_mtu_probe (v_segs s3) sq) as [segs' popped] eqn:Ep. destruct popped; [|discriminate].
  intro E; injection E as <-. vsimpl_goal.
  eapply TM_trans; [exact T1|]. eapply TM_trans; [exact T2|]. eapply TM_trans; [exact T3|]. eapply TM_pop_mtu; eauto.
Qed.

(* ------------------------------------------------------------------ what one message acknowledges *)
Definition sgs (s : vsock) : list seg := ss_segs (v_segs s).
Definition rmv (s : vsock) : Z := ss_removed (v_segs s).

(* what the messages processed between s and s1 acknowledged, r being their accumulated result *)
Definition ack_track (s s1 : vsock) (r : on_ack_result) : Prop :=
  0 <= ar_acked_segments r /\ 0 <= ar_newly_sacked_segments r /\ rmv s <= rmv s1 /\
  (ar_acked_segments r = 0 ->
     rmv s1 = rmv s /\ Forall2 sev1 (sgs s) (sgs s1) /\
     cds (sgs s1) = cds (sgs s) + ar_newly_sacked_segments r /\
     (ar_newly_sacked_segments r = 0 -> Forall2 sev0 (sgs s) (sgs s1))) /\
  (0 < ar_acked_segments r -> rmv s < rmv s1).

Lemma ack_track_same base r (s s' : vsock) : v_segs s' = v_segs s -> ack_track base s r -> ack_track base s' r.
Proof. unfold ack_track, sgs, rmv. intros ->. auto. Qed.

Lemma ack_track_refl (s : vsock) : ack_track s s on_ack_result_default.
Proof.
  unfold ack_track. cbn [on_ack_result_default ar_acked_segments ar_newly_sacked_segments].
  repeat split; try lia; auto using F2_refl, sev1_refl, sev0_refl.
Qed.

Lemma recovery_on_ack_sev0 r h segs ls cc now rtt r' segs' cc' :
  recovery_on_ack cci r h segs ls cc now rtt = Some (r', segs', cc') ->
  Forall2 sev0 (ss_segs segs) (ss_segs segs') /\ ss_removed segs' = ss_removed segs.
Proof.
  intros H. unfold recovery_on_ack in H. cbn [rv_phase] in H.
  assert (Hid : Forall2 sev0 (ss_segs segs) (ss_segs segs) /\ ss_removed segs = ss_removed segs)
    by (split; [apply F2_refl, sev0_refl|reflexivity]).
  destruct (rv_phase r).
  - destruct (seq_ge _ _); inversion H; subst; exact Hid.
  - destruct (ss_segs segs) eqn:Es; [inversion H; subst; rewrite Es; split; [constructor|reflexivity]|].
    rewrite <- Es in *.
    match type of H with match ?c with _ => _ end = _ => destruct c as [[dup' la']|] end; [|discriminate].
    destruct (_ <? _); [inversion H; subst; exact Hid|].
    destruct (calc_pipe _ _ _ _ _) as [[[sg pipe] recalc]|] eqn:Ec; [|discriminate].
    inversion H; subst. eapply calc_pipe_sev0; eauto.
  - destruct (seq_ge _ _); inversion H; subst; exact Hid.
Qed.

(* one message from a state s with sp: the step result r and the table *)
Lemma msg_track (s : vsock) m :
  sp s -> match process_incoming_message cci s m with SOk s1 r => ack_track s s1 r | _ => True end.
Proof.
  intro Hsp. rewrite process_incoming_message_eq.
  pose proof (state_table_segs s (m_hdr m)) as Ht.
  destruct (state_table s (m_hdr m)) as [s1|s1 e|s1]; cbn [tbl_state] in Ht;
    [exact (ack_track_same _ _ _ _ Ht (ack_track_refl s))|exact I|].
  unfold pim_cont. destruct (pim_ack cci s1 (m_hdr m)) as [[s2 res]|] eqn:Ea; [|exact I].
  (* the ACK part *)
  assert (H2 : ack_track s s2 res).
  { revert Ea. unfold pim_ack. destruct (remove_up_to_ack _ _ _ _) as [segs1 res0] eqn:Er.
    destruct (match is_recovering (v_recovery s1) with true => _ | false => _ end) as [rtte1|]; [|discriminate].
    destruct (cc_on_ack cci _ _ _ _) as [cc3|]; [|discriminate].
    destruct (recovery_on_ack cci _ _ _ _ _ _ _) as [[[rec1 segs2] cc4]|] eqn:Eo; [|discriminate].
    intro H; injection H as <- <-. unfold ack_track, rmv, sgs. vsimpl_goal.
    rewrite Ht in Er.
    assert (Hp : lpos (ss_segs (v_segs s))) by apply Hsp.
    destruct (ack_facts _ _ _ _ _ _ Er Hp) as (A1 & A2 & A3 & A4 & A5).
    destruct (recovery_on_ack_sev0 _ _ _ _ _ _ _ _ _ _ Eo) as (R1 & R2).
    rewrite R2. split; [exact A1|]. split; [exact A2|]. split; [exact A3|]. split; [|exact A4].
    intro Hz. destruct (A5 Hz) as (B1 & B2 & B3 & B4).
    split; [exact B1|]. split.
    { eapply (F2_trans sev1 sev1_trans); [exact B2|]. eapply F2_impl; [|exact R1]. apply sev0_sev1. }
    split; [rewrite (sev0_cds _ _ R1); exact B3|].
    intro Hs. rewrite (B4 Hs) in R1. exact R1. }
  cbv zeta.
  destruct (ch_type (m_hdr m)); try exact H2.
  - pose proof (pim_data_keeps s2 m res (seq_sub (ch_seq (m_hdr m)) (wadd16 (v_last_consumed s2) 1))) as HK.
    destruct (pim_data cci s2 m res _) as [s3 r3|s3 e3|]; auto.
    destruct HK as [HK ->]. exact (ack_track_same _ _ _ _ HK H2).
  - pose proof (pim_fin_keeps s2 m res (seq_sub (ch_seq (m_hdr m)) (wadd16 (v_last_consumed s2) 1))
                  (is_remote_fin_or_later (v_state s))) as HK.
    destruct (pim_fin s2 m res _ _) as [s3 r3|s3 e3|]; auto.
    destruct HK as [HK ->]. exact (ack_track_same _ _ _ _ HK H2).
Qed.

End WithCC.

Section WithCC2.
Context {CC : Type} (cci : cc_iface CC).
Notation vsock := (vsock CC).

Lemma ack_track_step (base s s1 : vsock) acc r :
  ack_track base s acc -> ack_track s s1 r -> ack_track base s1 (result_update acc r).
Proof.
  intros (A1 & A2 & A0 & A3 & A4) (B1 & B2 & B3 & B4 & B5).
  unfold ack_track, result_update. cbn [ar_acked_segments ar_newly_sacked_segments].
  split; [lia|]. split; [lia|]. split; [lia|]. split.
  - intro Hz. assert (Ha : ar_acked_segments acc = 0) by lia. assert (Hr : ar_acked_segments r = 0) by lia.
    destruct (A3 Ha) as (C1 & C2 & C3 & C4). destruct (B4 Hr) as (D1 & D2 & D3 & D4).
    split; [lia|]. split; [eapply (F2_trans sev1 sev1_trans); eauto|]. split; [lia|].
    intro Hs. eapply (F2_trans sev0 sev0_trans); [apply C4; lia|apply D4; lia].
  - intro Hp. destruct (Z.eq_dec (ar_acked_segments acc) 0) as [Ha|Ha].
    + destruct (A3 Ha) as (C1 & _). specialize (B5 ltac:(lia)). lia.
    + specialize (A4 ltac:(lia)). lia.
Qed.

Lemma recv_loop_track (base : vsock) : forall fuel (s : vsock) acc,
  sp s -> ack_track base s acc ->
  match recv_loop cci fuel s acc with
  | SOk s1 (accf, _) => ack_track base s1 accf /\ v_rto_retransmissions s1 = v_rto_retransmissions s
  | _ => True
  end.
Proof.
  assert (Hbase : forall (s : vsock) (acc : on_ack_result), ack_track base s acc ->
    match (if v_inbox_closed s
           then sbind (maybe_send_fin (transition_to_fin_wait_1 s))
                      (fun s2 _ => SOk (set_state s2 Closed) (acc, true))
           else SOk (set_inbox_waker s true) (acc, false)) with
    | SOk s1 (accf, _) => ack_track base s1 accf /\ v_rto_retransmissions s1 = v_rto_retransmissions s
    | _ => True
    end).
  { intros s acc HI. destruct (v_inbox_closed s); [|split; [eapply ack_track_same; [|exact HI]|]; reflexivity].
    pose proof (maybe_send_fin_spec (transition_to_fin_wait_1 s)) as Hm.
    assert (E0 : v_segs (transition_to_fin_wait_1 s) = v_segs s /\
                 v_rto_retransmissions (transition_to_fin_wait_1 s) = v_rto_retransmissions s)
      by (unfold transition_to_fin_wait_1; destruct (v_state s); split; reflexivity).
    destruct E0 as [E0 E1].
    destruct (maybe_send_fin (transition_to_fin_wait_1 s)) as [s2 [|]|s2 e|]; cbn [sbind]; auto.
    - destruct Hm as (seq & _ & _ & Hf & _ & Hsg & _). unfold sd_frame in Hf. destruct Hf as (_&_&_&_&F5&_).
      split; [eapply ack_track_same; [|exact HI]; vsimpl_goal; congruence|vsimpl_goal; congruence].
    - destruct Hm as (Hf & _ & Hsg & _). unfold sd_frame in Hf. destruct Hf as (_&_&_&_&F5&_).
      split; [eapply ack_track_same; [|exact HI]; vsimpl_goal; congruence|vsimpl_goal; congruence]. }
  induction fuel as [|m0 fuel IH]; intros s acc Hsp HI; cbn [recv_loop];
    destruct (v_inbox s) as [|m rest] eqn:Ei; try (apply Hbase; exact HI); try exact I.
  assert (Hsp0 : sp (set_inbox s rest)) by exact Hsp.
  pose proof (msg_track cci (set_inbox s rest) m Hsp0) as Hm.
  pose proof (process_incoming_message_spR cci (set_inbox s rest) m) as HS.
  pose proof (process_incoming_message_MQ cci (set_inbox s rest) m) as HQ.
  destruct (process_incoming_message cci (set_inbox s rest) m) as [s1 r|s1 e|]; cbn [sbind stRk stk] in *; auto.
  assert (Hsp1 : sp s1) by (apply HS; exact Hsp0).
  pose proof (ack_track_step base (set_inbox s rest) s1 acc r HI Hm) as HI1.
  destruct HQ as (_ & _ & Q3 & _). cbn [v_rto_retransmissions set_inbox] in Q3.
  destruct (_ || _); [split; [exact HI1|exact Q3]|].
  specialize (IH s1 (result_update acc r) Hsp1 HI1).
  destruct (recv_loop cci fuel s1 (result_update acc r)) as [s2 [accf e2]|s2 e2|]; auto.
  destruct IH as [IH1 IH2]. split; [exact IH1|congruence].
Qed.

(* ------------------------------------------------------------------ the ghost state of the exit clause *)
Section GhostE.
Variables (l0 : list seg) (rem0 : Z) (e0 : bool) (maxr : Z).

Definition PEDm : Prop :=
  e0 = true /\ exists init g, l0 = init ++ [g] /\ sg_probe g = true /\ sg_delivered g = false /\
                              maxr <= seg_retransmit_count g.

Definition EVp (s : vsock) : Prop :=
  rem0 < rmv s \/ (rmv s = rem0 /\ cds l0 < cdn (length l0) (sgs s)) \/ PEDm.

Definition NR (s : vsock) : Prop :=
  0 < v_rto_retransmissions s /\ rmv s = rem0 /\ Forall2 sev0 l0 (sgs s).

Lemma EV_TM (s s' : vsock) : TM (v_segs s) (v_segs s') -> EVp s -> EVp s'.
Proof.
  unfold EVp. intros (T1 & T2) [H|[[H1 H2]|H]]; [left; unfold rmv in *; lia| |right; right; exact H].
  unfold rmv, sgs in *. destruct (Z.eq_dec (ss_removed (v_segs s')) (ss_removed (v_segs s))) as [E|E].
  - right; left. split; [lia|]. specialize (T2 E (length l0)). lia.
  - left. lia.
Qed.

Lemma EV_TS (s s' : vsock) : TS s s' -> sp s -> EVp s -> EVp s'.
Proof. intros H Hsp. apply EV_TM. apply (H Hsp). Qed.

Lemma NR_same (s s' : vsock) :
  v_segs s' = v_segs s -> v_rto_retransmissions s' = v_rto_retransmissions s -> NR s -> NR s'.
Proof. unfold NR, rmv, sgs. intros -> ->. auto. Qed.

(* ---- the incoming messages: no progress keeps NR, progress gives the evidence ---- *)
Lemma process_all_NR (s : vsock) :
  sp s -> NR s -> stk (fun _ s' => NR s' \/ EVp s') s (process_all_incoming_messages cci s).
Proof.
  intros Hsp (N1 & N2 & N3). rewrite process_all_eq.
  pose proof (recv_loop_track s (v_inbox s ++ [ {| m_hdr := outgoing_header s; m_payload := [] |} ]) s
                on_ack_result_default Hsp (ack_track_refl s)) as Hl.
  pose proof (recv_loop_spR cci (v_inbox s ++ [ {| m_hdr := outgoing_header s; m_payload := [] |} ]) s on_ack_result_default) as HS.
  destruct (recv_loop cci _ s on_ack_result_default) as [s1 [r early]|s1 e|]; cbn [sbind stk stRk] in *; auto.
  destruct Hl as [(A1 & A2 & _ & A3 & A4) Hr1].
  assert (Hsp1 : sp s1) by (apply HS; exact Hsp).
  pose proof (pa_tail_TS s1 (r, early)) as HT.
  rewrite pa_tail_eq in *.
  (* the evidence, if any, right after the receive loop *)
  assert (Hev : (0 < ar_acked_segments r \/ 0 < ar_newly_sacked_segments r) -> EVp s1).
  { intros [Hp|Hp].
    - left. specialize (A4 Hp). unfold rmv in *. lia.
    - destruct (Z.eq_dec (ar_acked_segments r) 0) as [Hz|Hz]; [|left; specialize (A4 ltac:(lia)); unfold rmv in *; lia].
      destruct (A3 Hz) as (B1 & B2 & B3 & _). right; left. split; [congruence|].
      unfold cdn. rewrite (F2_length _ _ _ N3) at 1.
      rewrite (F2_length _ _ _ B2). rewrite firstn_all.
      rewrite B3, (sev0_cds _ _ N3). lia. }
  destruct ((0 <? ar_acked_segments r) || (0 <? ar_newly_sacked_segments r)) eqn:Eprog.
  - (* progress *)
    assert (Hev1 : EVp s1) by (apply Hev; apply orb_true_iff in Eprog; destruct Eprog as [E|E]; apply Z.ltb_lt in E; auto).
    destruct (sbind (pa_trunc r (pa_reset r s1)) (fun s3 _ => pa_pipe s3)) as [s' u'|s' e'|]; cbn [stk stRk] in *; auto.
    right. eapply EV_TS; eauto.
  - (* no progress: the counter and the table stay *)
    apply orb_false_iff in Eprog. destruct Eprog as [Ea Es]. apply Z.ltb_ge in Ea, Es.
    destruct (A3 ltac:(lia)) as (B1 & B2 & B3 & B4). specialize (B4 ltac:(lia)).
    assert (HN1 : NR s1).
    { split; [congruence|]. split; [congruence|]. eapply (F2_trans sev0 sev0_trans); eauto. }
    unfold pa_reset, pa_trunc.
    replace ((0 <? ar_acked_segments r) || (0 <? ar_newly_sacked_segments r)) with false
      by (symmetry; apply orb_false_iff; split; apply Z.ltb_ge; lia).
    replace (0 <? ar_acked_segments r) with false by (symmetry; apply Z.ltb_ge; lia).
    cbn [sbind]. unfold pa_pipe. destruct (rv_phase (v_recovery s1)); cbn [stk]; auto.
    destruct (calc_pipe _ _ _ _ _) as [[[segs' pipe] recalc]|] eqn:Ec; [|exact I].
    cbn [stk]. left. destruct (calc_pipe_sev0 _ _ _ _ _ _ _ _ Ec) as (P1 & P2).
    destruct HN1 as (M1 & M2 & M3). unfold NR, rmv, sgs, set_recovering in *. vsimpl_goal.
    split; [exact M1|]. split; [congruence|]. eapply (F2_trans sev0 sev0_trans); eauto.
Qed.

(* ---- segmentation: the expired probe is the last segment of the table as it was ---- *)
Lemma split_NR now r0 (s : vsock) :
  B now s -> J r0 e0 now s -> o_mtu_probe_max_retx (v_opts s) = maxr -> NR s ->
  stk (fun _ s' => 0 < v_rto_retransmissions s' \/ PEDm) s (split_tx_queue_into_segments cci s).
Proof.
  intros HB HJ Hm (N1 & N2 & N3). pose proof (split_tx_spec cci s) as Sp.
  destruct (split_tx_queue_into_segments cci s) as [s' u|s' e|]; cbn [stk split_post] in *; auto.
  destruct Sp as (_ & t2 & ss2 & [(_ & _ & K1 & _)|(rw & ps & Ep & _)] & _); [left; lia|right].
  (* the expired probe *)
  rewrite Hm in Ep. destruct (pop_expired_expired _ _ _ _ _ _ Ep) as (Fl & init & g & El & _ & Ed & Epr & Ec).
  apply andb_prop in Fl. destruct Fl as [Fl _].   (* (repair of D6) the flag is `expired && not local-fin` *)
  split.
  + destruct HB as (_ & Hn & _). rewrite Hn in Fl. apply (J_A_of_expired _ _ _ _ HJ Fl).
  + apply Segments_ProofsOut.last_and_init_app in El. unfold sgs in N3. rewrite El in N3.
    apply Forall2_app_inv_r in N3. destruct N3 as (init0 & l1 & N31 & N32 & ->).
    inversion N32 as [|g0 ? l1' ? Hg Hnil]; subst. inversion Hnil; subst.
    destruct Hg as (G1 & G2 & G3 & G4).
    exists init0, g0. split; [reflexivity|]. split; [congruence|]. split; [congruence|].
    unfold seg_retransmit_count in *. rewrite <- G2. exact Ec.
Qed.

Lemma send_tx_queue_NR1 (s : vsock) :
  0 < v_rto_retransmissions s -> v_restart s = false ->
  stk (fun _ s' => 0 < v_rto_retransmissions s' /\ v_restart s' = false) s (send_tx_queue cci s).
Proof.
  intros Hr R0. rewrite send_tx_queue_eq.
  destruct (v_transport_pending s); [cbn [stk]; auto|].
  set (h := outgoing_header s).
  destruct (rto_branch cci s h) as [s1 ret|s1 e|] eqn:Er; cbn [sbind stk]; auto.
  assert (Hs1 : step_st (rto_branch cci s h) = Some s1) by (rewrite Er; reflexivity).
  pose proof (rto_branch_restart cci s h s1 Hs1) as Hrs.
  pose proof (rto_branch_spec cci _ _ _ Hs1) as Ho.
  assert (H1 : 0 < v_rto_retransmissions s1).
  { destruct Ho as [_ Hf _ _ _ _| f rest _ _ _ _ _ _ Hrto _ _ _ _ _ _ _ _ _| fin _ _ _ _ _ _ _ Hrto _ _ _ _ _ _ _].
    - unfold sd_frame in Hf. destruct Hf as (_&_&_&_&F5&_). lia.
    - lia.
    - lia. }
  destruct (after_rto_k_cases cci h s1 ret) as [->|(_ & Hz & _)]; [cbn [stk]; split; [exact H1|congruence]|lia].
Qed.

(* ------------------------------------------------------------------ the walk *)
Section WalkE.
Variables (now r0 : Z) (o : vopts).
Hypothesis H0 : 0 <= r0.
Hypothesis Ho : o_mtu_probe_max_retx o = maxr.

Let XA (k : nat) (s : vsock) : Prop := NR s \/ EVp s.
Let XB (k : nat) (s : vsock) : Prop := 0 < v_rto_retransmissions s \/ EVp s.

Lemma PA_SQ_e k (s s' : vsock) : SQ s s' -> XA k s -> XA k s'.
Proof.
  intros HS [H|H]; [left|right].
  - destruct HS as (_&_&A3&_&_&A6&_). eapply NR_same; eauto.
  - destruct HS as (_&_&_&_&_&A6&_). eapply EV_TM; [|exact H]. rewrite A6. apply TM_refl.
Qed.

Lemma PB_SQ_e k (s s' : vsock) : SQ s s' -> XB k s -> XB k s'.
Proof.
  intros HS [H|H]; [left|right].
  - destruct HS as (_&_&A3&_). lia.
  - destruct HS as (_&_&_&_&_&A6&_). eapply EV_TM; [|exact H]. rewrite A6. apply TM_refl.
Qed.

Theorem poll_loop_exit : forall fuel (s s' : vsock),
  GO now r0 e0 o s -> XA 0%nat s -> poll_loop cci fuel s = (s', PollPending) ->
  exists k', (k' < 0 + fuel)%nat /\ GO now r0 e0 o s' /\ XB k' s'.
Proof.
  intros fuel s s' HG HA H.
  apply (poll_loop_WG cci now r0 e0 o H0 XA XA XA XA XB XB XB XB) with (s := s); try assumption.
  - intros k a. apply PA_SQ_e, poll_start_SQ.
  - intros k a b HS _. apply PA_SQ_e, HS.
  - intros k a b HS _. apply PA_SQ_e, HS.
  - intros k a b HS _. apply PB_SQ_e, HS.
  - intros k a b HS _. apply PB_SQ_e, HS.
  - intros k a. apply PB_SQ_e, poll_tail_SQ.
  - (* process_all_incoming_messages *)
    intros k a ((HB & HJ & HP) & Hm) HW.
    pose proof (process_all_NR a HP) as HN. pose proof (process_all_TS cci a) as HT.
    destruct (process_all_incoming_messages cci a) as [b x|b e|]; cbn [stW stk stRk] in *; auto.
    destruct HW as [HW|HW]; [apply HN; exact HW|right; eapply EV_TS; eauto].
  - (* split *)
    intros k a ((HB & HJ & HP) & Hm) HW _.
    assert (Hm' : o_mtu_probe_max_retx (v_opts a) = maxr) by (rewrite Hm; exact Ho).
    pose proof (split_NR now r0 a HB HJ Hm') as HN. pose proof (split_TS cci a) as HT.
    destruct (split_tx_queue_into_segments cci a) as [b x|b e|]; cbn [stW stk stRk] in *; auto.
    destruct HW as [HW|HW]; [|right; eapply EV_TS; eauto].
    destruct (HN HW) as [X|X]; [left; exact X|right; right; right; exact X].
  - (* send_tx_queue *)
    intros k a ((HB & HJ & HP) & Hm) HW [T0 R0].
    pose proof (send_tx_queue_NR1 a) as HN. pose proof (send_tx_queue_TS cci a) as HT.
    destruct (send_tx_queue cci a) as [b x|b e|]; cbn [stW stk stRk] in *; auto.
    destruct HW as [HW|HW].
    + destruct (HN HW R0) as [N1 N2].
      split; [intro; congruence|]. split; intros; left; exact N1.
    + assert (Hev : EVp b) by (eapply EV_TS; eauto).
      split; [|split]; intros; right; exact Hev.
  - (* maybe_send_fin *)
    intros k a ((HB & HJ & HP) & Hm) HW.
    pose proof (maybe_send_fin_TS a) as HT. pose proof (maybe_send_fin_spec a) as Hs.
    destruct (maybe_send_fin a) as [b [|]|b e|]; cbn [stW stk stRk] in *; auto.
    + destruct HW as [HW|HW]; [left|right; eapply EV_TS; eauto].
      destruct Hs as (seq & _ & _ & Hf & _). unfold sd_frame in Hf. destruct Hf as (_&_&_&_&F5&_). lia.
    + destruct HW as [HW|HW]; [left|right; eapply EV_TS; eauto].
      destruct Hs as (Hf & _). unfold sd_frame in Hf. destruct Hf as (_&_&_&_&F5&_). lia.
  - (* early returns *)
    intros k a [(N1 & _)|HW]; [left; exact N1|right; exact HW].
  - intros k a [(N1 & _)|HW]; [left; exact N1|right; exact HW].
  - intros k a HW. exact HW.
  - intros k a HW. exact HW.
Qed.

End WalkE.
End GhostE.
(* what a Pending poll leaves behind when it began in single-segment mode *)
Theorem poll_pending_exit (s : vsock) sc s' :
  ti s -> sp s -> 0 < v_rto_retransmissions s ->
  poll cci (VSockRec.set_sends s sc) = (s', PollPending) ->
  0 < v_rto_retransmissions s' \/
  EVp (sgs s) (rmv s) (timer_expired (v_t_retransmit s) (v_env_now s)) (o_mtu_probe_max_retx (v_opts s)) s'.
Proof.
  intros Hti Hsp Hr H. rewrite poll_unfold in H. apply poll_loop_start in H.
  assert (Hr0 : 0 <= v_rto_retransmissions s) by lia.
  apply (poll_loop_exit (sgs s) (rmv s) (timer_expired (v_t_retransmit s) (v_env_now s))
           (o_mtu_probe_max_retx (v_opts s)) (v_env_now s) (v_rto_retransmissions s) (v_opts s) Hr0 eq_refl) in H.
  - destruct H as (k' & _ & _ & HW). exact HW.
  - split; [split; [|split]|reflexivity].
    + split; [exact Hti|]. split; reflexivity.
    + apply JA; [reflexivity|reflexivity|]. unfold texp. cbn. auto.
    + exact Hsp.
  - left. split; [exact Hr|]. split; [reflexivity|]. apply F2_refl, sev0_refl.
Qed.

End WithCC2.
