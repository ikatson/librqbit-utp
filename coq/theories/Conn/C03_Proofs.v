(* C03 (connection-level half) — proofs. *)
From Utp Require Import Base.Prelude Wire.SeqNr Wire.Header Rtt.Rtte Mtu.SegSizes Rx.Rx Rx.Rx_Proofs
  Tx.Ring Tx.Ring_Proofs Tx.Segments Conn.Recovery Conn.Msg Conn.VSockRec Conn.VSock Conn.VSockRun
  Conn.VObs Conn.VSock_LemmasFin Conn.C17_Proofs Conn.C03_Pred.
From Utp Require Conn.VSock_Lemmas.

(* ================================================================== the reader after death *)
Lemma read_loop_grows : forall fuel s room out s' out' dead err,
  read_loop fuel s room out = (s', out', dead, err) -> out <> [] -> out' <> [].
Proof.
  induction fuel as [|fuel IH]; intros s room out s' out' dead err; cbn [read_loop].
  { intro H; injection H as <- <- <- <-. auto. }
  destruct (room <=? 0); [intro H; injection H as <- <- <- <-; auto|].
  destruct (current s) as [|c cs] eqn:Ec.
  - destruct (is_eof s); [intro H; injection H as <- <- <- <-; auto|].
    destruct (q s) as [|item qrest].
    + destruct (vsock_closed s); intro H; injection H as <- <- <- <-; auto.
    + destruct item; try (intro H; injection H as <- <- <- <-; auto).
      intros H Hn. eapply IH; eauto.
  - intros H Hn. eapply IH; [exact H|]. destruct out; [congruence|discriminate].
Qed.

(* with the dispatcher gone the read loop always reaches a verdict *)
Lemma read_loop_closed : forall fuel s room out s' out' dead err,
  vsock_closed s = true -> 0 < room ->
  (2 * length (q s) + (match current s with [] => 0 | _ => 1 end) + 1 <= fuel)%nat ->
  read_loop fuel s room out = (s', out', dead, err) ->
  out' <> [] \/ is_eof s' = true \/ dead = true \/ err = true.
Proof.
  induction fuel as [|fuel IH]; intros s room out s' out' dead err Hc Hr Hf; [lia|].
  cbn [read_loop]. destruct (Z.leb_spec room 0) as [Hle|Hgt]; [lia|].
  destruct (current s) as [|c cs] eqn:Ec.
  - destruct (is_eof s) eqn:Ee; [intro H; injection H as <- <- <- <-; auto|].
    destruct (q s) as [|item qrest] eqn:Eq.
    + rewrite Hc. intro H; injection H as <- <- <- <-; auto.
    + destruct item as [bs| |].
      * intro H. eapply IH in H; eauto. cbn [q current length] in *. destruct bs; lia.
      * intro H; injection H as <- <- <- <-. cbn [is_eof]. auto.
      * intro H; injection H as <- <- <- <-. auto.
  - intro H. left. eapply read_loop_grows; [exact H|].
    assert (Hn : (0 < Z.to_nat (Z.min room (Z.of_nat (length (c :: cs)))))%nat) by (cbn [length]; lia).
    destruct (Z.to_nat _); [lia|]. cbn [firstn]. destruct out; discriminate.
Qed.

Theorem read_after_close_never_pending : forall s n s' r w,
  vsock_closed s = true -> 0 < n -> rx_read s n = (s', r, w) -> r <> RdPending.
Proof.
  intros s n s' r w Hc Hn. unfold rx_read.
  destruct (read_loop _ s n []) as [[[s1 out] dead] err] eqn:E.
  apply read_loop_closed in E; [|exact Hc|exact Hn|destruct (current s); lia].
  destruct err; [intro H; injection H as <- <- <-; discriminate|].
  destruct out; [|intro H; injection H as <- <- <-; discriminate].
  destruct (is_eof s1); [intro H; injection H as <- <- <-; discriminate|].
  destruct dead; [intro H; injection H as <- <- <-; discriminate|].
  destruct E as [E|[E|[E|E]]]; congruence.
Qed.

(* reading keeps the half closed, so every later read resolves as well *)
Theorem read_keeps_closed : forall s n s' r w,
  rx_inv s -> rx_read s n = (s', r, w) -> vsock_closed s' = vsock_closed s.
Proof. intros s n s' r w Hi H. apply (rx_read_spec _ _ _ _ _ Hi H). Qed.

(* ================================================================== the writer after death *)
Theorem write_after_close : forall s buf,
  t_vsock_closed s = true ->
  poll_write s buf = (s, WrErrClosed, []) \/
  (exists s', poll_write s buf = (s', WrPending, [TwSelf]) /\ t_vsock_closed s' = true /\
              forall buf', poll_write s' buf' = (s', WrErrClosed, [])).
Proof.
  intros s buf Hc. unfold poll_write.
  destruct (YIELD_EVERY <? written_without_yield s) eqn:Ey.
  - right. eexists. split; [reflexivity|]. cbn [t_vsock_closed upd]. split; [exact Hc|].
    intro buf'. unfold poll_write. cbn [written_without_yield upd t_vsock_closed]. rewrite Hc.
    reflexivity.
  - left. rewrite Hc. reflexivity.
Qed.

Theorem flush_after_close : forall s,
  t_vsock_closed s = true ->
  poll_flush s = (s, (match ring s with [] => UrOk | _ => UrErr end), []).
Proof. intros s Hc. unfold poll_flush. destruct (ring s); [reflexivity|]. rewrite Hc. reflexivity. Qed.

Theorem shutdown_after_close : forall s,
  t_vsock_closed s = true ->
  poll_shutdown s = (s, (match ring s with [] => UrOk | _ => UrErr end), []).
Proof. intros s Hc. unfold poll_shutdown. destruct (ring s); rewrite Hc; reflexivity. Qed.

(* ================================================================== (f) death resolves *)
Section WithCC.
Context {CC : Type} (cci : cc_iface CC).
Notation vsock := (vsock CC).

(* error death: the state just_before_death leaves behind, in terms of the component models *)
Theorem death_resolves : forall (s : vsock) e,
  vsock_closed (v_rx s) = false ->
  let s' := just_before_death s (Some e) in
  vsock_closed (v_rx s') = true /\ t_vsock_closed (v_tx s') = true /\
  q (v_rx s') = q (v_rx s) ++ [QError] /\
  reader_waker (v_rx s') = false /\ writer_waker (v_tx s') = false /\
  (reader_waker (v_rx s) = true -> In VwReader (v_wakes s')) /\
  (writer_waker (v_tx s) = true -> In VwWriter (v_wakes s')) /\
  (forall n, 0 < n -> snd (fst (rx_read (v_rx s') n)) <> RdPending) /\
  (forall buf, snd (fst (poll_write (v_tx s') buf)) = WrErrClosed \/
               (snd (fst (poll_write (v_tx s') buf)) = WrPending /\ snd (poll_write (v_tx s') buf) = [TwSelf])) /\
  snd (fst (poll_flush (v_tx s'))) = (match ring (v_tx s) with [] => UrOk | _ => UrErr end) /\
  snd (fst (poll_shutdown (v_tx s'))) = (match ring (v_tx s) with [] => UrOk | _ => UrErr end) /\
  drop_vsock s' = add_wakes s' [].
Proof.
  intros s e Hlive. pose proof (just_before_death_spec s (Some e) Hlive) as H. cbv zeta in *.
  destruct H as ((B1 & B2 & B3) & Hrw & Hst & Hring & _ & _ & Hq & HwR & HwW & _).
  repeat split; auto.
  - intros n Hn. destruct (rx_read _ n) as [[s1 r] w] eqn:E. cbn [fst snd].
    eapply read_after_close_never_pending; eauto.
  - intro buf. destruct (write_after_close (v_tx (just_before_death s (Some e))) buf B2) as [->|(s1 & -> & _)];
      cbn [fst snd]; auto.
  - rewrite (flush_after_close _ B2). cbn [fst snd]. rewrite Hring. reflexivity.
  - rewrite (shutdown_after_close _ B2). cbn [fst snd]. rewrite Hring. reflexivity.
  - unfold drop_vsock, mark_both_closed, rx_mark_vsock_closed, mark_vsock_closed. rewrite B1.
    set (s' := just_before_death s (Some e)) in *.
    assert (Ht : upd (v_tx s') (ring (v_tx s')) (cap (v_tx s')) true (writer_dropped (v_tx s'))
                   (writer_shutdown (v_tx s')) (t_disp_waker (v_tx s')) false
                   (written_without_yield (v_tx s')) (g_written (v_tx s')) (g_removed (v_tx s')) = v_tx s').
    { destruct (v_tx s'). cbn in *. subst. reflexivity. }
    rewrite Ht, B3. cbn [rx_wakes tx_wakes flat_map app]. destruct s'. reflexivity.
Qed.

(* clean death (both FINs exchanged): same, without a queued error *)
Theorem ok_death_resolves : forall (s : vsock),
  vsock_closed (v_rx s) = false ->
  let s' := just_before_death s None in
  vsock_closed (v_rx s') = true /\ t_vsock_closed (v_tx s') = true /\ q (v_rx s') = q (v_rx s) /\
  reader_waker (v_rx s') = false /\ writer_waker (v_tx s') = false /\
  (reader_waker (v_rx s) = true -> In VwReader (v_wakes s')) /\
  (writer_waker (v_tx s) = true -> In VwWriter (v_wakes s')) /\
  v_out s' = v_out s /\
  (forall n, 0 < n -> snd (fst (rx_read (v_rx s') n)) <> RdPending).
Proof.
  intros s Hlive. pose proof (just_before_death_spec s None Hlive) as H. cbv zeta in *.
  destruct H as ((B1 & B2 & B3) & Hrw & Hst & Hring & _ & _ & Hq & HwR & HwW & Hout).
  repeat split; auto.
  intros n Hn. destruct (rx_read _ n) as [[s1 r] w] eqn:E. cbn [fst snd].
  eapply read_after_close_never_pending; eauto.
Qed.

(* cancellation (the future is dropped without a Ready result): Drop marks both halves closed *)
Theorem drop_resolves : forall (s : vsock),
  let s' := drop_vsock s in
  vsock_closed (v_rx s') = true /\ t_vsock_closed (v_tx s') = true /\ writer_waker (v_tx s') = false /\
  (vsock_closed (v_rx s) = false -> reader_waker (v_rx s') = false) /\
  (forall n, 0 < n -> snd (fst (rx_read (v_rx s') n)) <> RdPending).
Proof.
  intro s. pose proof (mark_both_closed_spec s) as H. cbv zeta in *. unfold drop_vsock.
  destruct H as ((B1 & B2 & B3) & _ & _ & _ & _ & _ & _ & _ & B9 & _).
  repeat split; auto.
  intros n Hn. destruct (rx_read _ n) as [[s1 r] w] eqn:E. cbn [fst snd].
  eapply read_after_close_never_pending; eauto.
Qed.

(* ---- the poll that returns Ready went through just_before_death ---- *)
Definition died (s : vsock) (r : poll_result) : Prop :=
  exists s0 eo, s = just_before_death s0 eo /\
    match eo with Some e => r = PollReadyErr e | None => r = PollReadyOk end.

Lemma die_died (s1 s : vsock) e r : die s1 e = BrReturn s r -> died s r.
Proof. unfold die. intro H. injection H as <- <-. exists s1, (Some e). auto. Qed.

Definition ready_died (b : body_res (CC := CC)) : Prop :=
  forall s r, b = BrReturn s r -> r <> PollPending -> died s r.

(* a call of the chain either goes on or leaves the poll in a way that satisfies the claim *)
Lemma ready_stage chk X (m : step X) : VSock_Lemmas.stage ready_died chk (fun _ => True) m.
Proof.
  destruct m as [s1 a|s1 e|]; cbn [VSock_Lemmas.stage].
  - destruct (v_restart s1); [intros s r H; discriminate|].
    destruct (chk && _); [|exact I]. intros s r H Hr. injection H as <- <-. congruence.
  - intros s r H _. exact (die_died _ _ _ _ H).
  - intros s r H; discriminate.
Qed.

Theorem poll_body_ready_died : forall s0 s r,
  poll_body cci s0 = BrReturn s r -> r <> PollPending -> died s r.
Proof.
  intros s0.
  apply (VSock_Lemmas.poll_body_walk cci ready_died (fun _ => True) (fun _ => True) (fun _ => True)
           (fun _ => True) (fun _ => True) (fun _ => True)).
  - intros s r H; discriminate.
  - intros; apply ready_stage.
  - intros; apply ready_stage.
  - intros; apply ready_stage.
  - intros; exact I.
  - intros s1 _ _ _ s r H _. exact (die_died _ _ _ _ H).
  - intros; apply ready_stage.
  - intros; apply ready_stage.
  - intros; exact I.
  - intros; apply ready_stage.
  - intros; apply ready_stage.
  - intros s1 _ _ _ s r H _. injection H as <- <-. eexists _, None. split; reflexivity.
  - intros s1 _ _ _ s r H Hr. injection H as _ <-. congruence.
  - exact I.
Qed.

Theorem poll_ready_died : forall fuel s0 s r,
  poll_loop cci fuel s0 = (s, r) -> r = PollReadyOk \/ (exists e, r = PollReadyErr e) -> died s r.
Proof.
  induction fuel as [|fuel IH]; intros s0 s r; cbn [poll_loop].
  { intros H [->|[e ->]]; discriminate. }
  destruct (poll_body cci s0) as [s1 r1|s1|] eqn:E.
  - intros H Hr. injection H as <- <-. eapply poll_body_ready_died; [exact E|].
    destruct Hr as [->|[e ->]]; discriminate.
  - apply IH.
  - intros H [->|[e ->]]; discriminate.
Qed.

(* ================================================================== (h) bounded failure *)
Theorem max_retransmissions_error : forall (s : vsock) h f,
  seg_retransmit_count (fs_seg f) = o_max_retx (v_opts s) ->
  send_data s h f = SErr s ErrMaxRetransmissionsReached.
Proof. intros s h f H. unfold send_data. rewrite H, Z.eqb_refl. reflexivity. Qed.

(* an RTO expiry on a segment already retransmitted max_retx times fails the connection *)
Theorem rto_exhausted_error : forall (s : vsock) f l,
  v_transport_pending s = false -> timer_expired (v_t_retransmit s) (v_now s) = true ->
  iter_for_sending (v_segs s) None = f :: l ->
  seg_retransmit_count (fs_seg f) = o_max_retx (v_opts s) ->
  send_tx_queue cci s = SErr s ErrMaxRetransmissionsReached.
Proof.
  intros s f l Hp Ht Hi Hc. unfold send_tx_queue. rewrite Hp, Ht, Hi.
  rewrite (max_retransmissions_error s (outgoing_header s) f Hc). reflexivity.
Qed.

(* each successful RTO retransmission raises the count by one (so the (max_retx+1)-th expiry fails) *)
Theorem seg_on_sent_counts : forall g now,
  seg_retransmit_count (seg_on_sent g now) =
  match sg_sent g with NotSent => 0 | SentTime _ => 1 | Retransmitted c _ => c + 1 end.
Proof. intros g now. unfold seg_on_sent, seg_retransmit_count. cbn [sg_sent]. destruct (sg_sent g); reflexivity. Qed.

(* ================================================================== (g) EOF only after everything *)
(* a FIN is stored for the reader only when the table lets it through: in the data states - and, since
   the repair of D19, while our SYN-ACK is unanswered - only the in-sequence FIN (every earlier
   sequence number consumed); otherwise the message changes nothing *)
Theorem fin_stored_only_in_sequence : forall (s : vsock) m s' r,
  ch_type (m_hdr m) = ST_FIN ->
  ((exists k, v_state s = SynAckSent k) \/
   v_state s = Established \/ (exists f, v_state s = FinWait1 f) \/ v_state s = FinWait2) ->
  process_incoming_message cci s m = SOk s' r -> v_rx s' <> v_rx s ->
  ch_seq (m_hdr m) = wadd16 (v_last_consumed s) 1.
Proof.
  intros s m s' r Ht Hs H Hne.
  destruct (Z.eq_dec (ch_seq (m_hdr m)) (wadd16 (v_last_consumed s) 1)) as [E|E]; [exact E|].
  rewrite (peer_fin_out_of_sequence cci s m Ht Hs E) in H. injection H as <- _. congruence.
Qed.

End WithCC.
