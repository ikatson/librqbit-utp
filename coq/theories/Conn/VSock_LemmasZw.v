(* Behind c02_zero_window_waker: every flush leaves the RX dispatcher waker registered unless at
   least one creation-time MSS of window remains ([zw]); the configured constants of the receive
   half never change ([rxk]).  D9 is the gap between the creation-time MSS and the current one. *)
From Utp Require Import Base.Prelude Wire.SeqNr Wire.Header Rtt.Rtte Mtu.SegSizes Rx.Rx Rx.Rx_Proofs
  Tx.Ring Tx.Segments Conn.Recovery Conn.Msg Conn.VSockRec Conn.VSock Conn.VSockRun Conn.VObs
  Conn.VSock_LemmasTx Conn.VSock_Lemmas Conn.VSock_LemmasStep Conn.VSock_LemmasReach Conn.VSock_LemmasPark
  Conn.VSock_LemmasTimers Conn.VSock_LemmasPipe Conn.VSock_LemmasEof Conn.C07_Pred Conn.C07_Proofs.

(* ------------------------------------------------------------------ Rx: the flush and the waker *)
Definition zw (r : rx) : Prop :=
  disp_waker r = true \/ max_incoming_payload r <= last_remaining_rx_window r.

Lemma sum_firstn_app_default : forall n l,
  sum_slot_bytes (firstn n (l ++ [slot_default])) = sum_slot_bytes (firstn n l).
Proof.
  induction n as [|n IH]; intros l; [reflexivity|].
  destruct l as [|x xs]; cbn [app firstn sum_slot_bytes].
  - rewrite firstn_nil. reflexivity.
  - rewrite IH. reflexivity.
Qed.

Lemma flush_loop_window : forall fuel s w fb fp s1 w1 fb1 fp1,
  0 <= filled_front s -> 0 <= w ->
  flush_loop fuel s w fb fp = Some (s1, w1, fb1, fp1) ->
  0 <= w1 /\ w - w1 = filled_front_bytes s - filled_front_bytes s1 /\
  max_incoming_payload s1 = max_incoming_payload s /\ disp_waker s1 = disp_waker s.
Proof.
  induction fuel as [|fuel IH]; intros s w fb fp s1 w1 fb1 fp1 Hff Hw; cbn [flush_loop].
  - intro H; injection H as <- <- _ _. repeat split; lia.
  - destruct (Z.eqb_spec (filled_front s) 0) as [Hz|Hnz]; [intro H; injection H as <- <- _ _; repeat split; lia|].
    destruct (ooq_data s) as [|m rest] eqn:Ed; [discriminate|].
    destruct (Z.ltb_spec w (slot_len_bytes m)) as [Hlt|Hge]; [intro H; injection H as <- <- _ _; repeat split; lia|].
    destruct (reader_dropped s); [intro H; injection H as <- <- _ _; repeat split; lia|].
    destruct (_ <? _); [discriminate|].
    intro H. apply IH in H; [|rxs; lia|lia].
    destruct H as (H1 & H2 & H3 & H4). rxs.
    assert (Hb : filled_front_bytes (pop_front_state s m rest) = filled_front_bytes s - slot_len_bytes m).
    { unfold filled_front_bytes. rxs. rewrite Ed, sum_firstn_app_default.
      replace (Z.to_nat (filled_front s)) with (S (Z.to_nat (filled_front s - 1))) by lia.
      cbn [firstn sum_slot_bytes]. lia. }
    rewrite Hb in H2. repeat split; try assumption; lia.
Qed.

Lemma filled_front_bytes_nonneg r : 0 <= filled_front_bytes r.
Proof. unfold filled_front_bytes. apply sum_slot_bytes_nonneg. Qed.

Lemma rx_flush_zw r r' fb w : 0 <= filled_front r -> rx_flush r = (r', FlOk fb, w) -> zw r'.
Proof.
  unfold rx_flush. intros Hff H.
  set (dw := if sat_sub (q_window r) (filled_front_bytes r) <? max_incoming_payload r
             then true else disp_waker r) in *.
  set (s0 := set_wakers r dw (reader_waker r) (last_remaining_rx_window r)) in *.
  destruct (flush_loop _ s0 (q_window r) 0 0) as [[[[s1 w1] fb'] fp]|] eqn:E; [|discriminate].
  apply flush_loop_window in E; [|exact Hff|unfold q_window, sat_sub; lia].
  destruct E as (E1 & E2 & E3 & E4).
  assert (Hr' : disp_waker r' = dw /\ max_incoming_payload r' = max_incoming_payload r /\
                last_remaining_rx_window r' = w1).
  { destruct (0 <? fp); injection H as <- _ _; rxs; rewrite E3, E4; subst s0; rxs; auto. }
  destruct Hr' as (D1 & D2 & D3). unfold zw. rewrite D1, D2, D3. subst dw.
  destruct (Z.ltb_spec (sat_sub (q_window r) (filled_front_bytes r)) (max_incoming_payload r)) as [Hlt|Hge];
    [left; reflexivity|right].
  pose proof (filled_front_bytes_nonneg s1).
  change (filled_front_bytes s0) with (filled_front_bytes r) in E2.
  unfold sat_sub in Hge. lia.
Qed.

(* ------------------------------------------------------------------ Rx: configured constants *)
Definition rxk (r r' : rx) : Prop :=
  q_capacity r' = q_capacity r /\ max_incoming_payload r' = max_incoming_payload r.

Lemma rxk_refl r : rxk r r. Proof. split; reflexivity. Qed.
Lemma rxk_trans a b c : rxk a b -> rxk b c -> rxk a c.
Proof. intros [A1 A2] [B1 B2]. split; congruence. Qed.

Lemma flush_loop_rxk : forall fuel s w fb fp s1 w1 fb1 fp1,
  flush_loop fuel s w fb fp = Some (s1, w1, fb1, fp1) -> rxk s s1.
Proof.
  induction fuel as [|fuel IH]; intros s w fb fp s1 w1 fb1 fp1; cbn [flush_loop].
  - intro H; injection H as <- _ _ _. apply rxk_refl.
  - destruct (filled_front s =? 0); [intro H; injection H as <- _ _ _; apply rxk_refl|].
    destruct (ooq_data s) as [|m rest]; [discriminate|].
    destruct (w <? _); [intro H; injection H as <- _ _ _; apply rxk_refl|].
    destruct (reader_dropped s); [intro H; injection H as <- _ _ _; apply rxk_refl|].
    destruct (_ <? _); [discriminate|].
    intro H. apply IH in H. eapply rxk_trans; [|exact H]. split; reflexivity.
Qed.

Lemma rx_flush_rxk r r' fr w : rx_flush r = (r', fr, w) -> rxk r r'.
Proof.
  unfold rx_flush. intro H.
  set (s0 := set_wakers r _ (reader_waker r) (last_remaining_rx_window r)) in *.
  destruct (flush_loop _ s0 _ 0 0) as [[[[s1 w1] fb] fp]|] eqn:E.
  - apply flush_loop_rxk in E. destruct E as [E1 E2].
    destruct (0 <? fp); injection H as <- _ _; split; rxs; assumption.
  - injection H as <- _ _. split; reflexivity.
Qed.

Lemma rx_add_remove_rxk r k p off r' ar w : rx_add_remove r k p off = (r', ar, w) -> rxk r r'.
Proof.
  unfold rx_add_remove. destruct (ooq_add_remove r k p off) as [s1 a] eqn:E.
  assert (K : rxk r s1).
  { destruct (ooq_add_remove_cases _ _ _ _ _ _ E) as [[-> _]|(m & old & _ & _ & _ & _ & _ & Hs')];
      [apply rxk_refl|]. cbv zeta in Hs'. destruct Hs' as [-> _]. split; reflexivity. }
  intro H. destruct a; try (injection H as <- _ _; exact K).
  destruct (_ && _); [|injection H as <- _ _; exact K].
  destruct (rx_flush s1) as [[s2 fr] w2] eqn:Ef. apply rx_flush_rxk in Ef.
  destruct fr; injection H as <- _ _; eapply rxk_trans; eassumption.
Qed.

Lemma rx_dop_rxk d r r' w : rx_dop d r r' w -> rxk r r'.
Proof.
  intros H. destruct H.
  - eapply rx_flush_rxk; eassumption.
  - eapply rx_add_remove_rxk; eassumption.
  - unfold rx_mark_vsock_closed in H0. destruct (vsock_closed r); injection H0 as <- _; split; reflexivity.
  - unfold rx_enqueue_error in H0. injection H0 as <- _. split; reflexivity.
Qed.

Lemma read_loop_rxk : forall fuel r room out r' out' d e,
  read_loop fuel r room out = (r', out', d, e) -> rxk r r'.
Proof.
  induction fuel as [|fuel IH]; intros r0 room out0 r' out' d e; cbn [read_loop].
  - intro H; injection H as <- _ _ _; apply rxk_refl.
  - destruct (room <=? 0); [intro H; injection H as <- _ _ _; apply rxk_refl|].
    destruct (current r0).
    + destruct (is_eof r0); [intro H; injection H as <- _ _ _; apply rxk_refl|].
      destruct (q r0) as [|item qr].
      * destruct (vsock_closed r0); intro H; injection H as <- _ _ _; split; reflexivity.
      * destruct item; [intro H; apply IH in H; eapply rxk_trans; [|exact H]; split; reflexivity|..];
          intro H; injection H as <- _ _ _; split; reflexivity.
    + intro H; apply IH in H. eapply rxk_trans; [|exact H]. split; reflexivity.
Qed.

Lemma rx_read_rxk r n r' res w : rx_read r n = (r', res, w) -> rxk r r'.
Proof.
  unfold rx_read. destruct (read_loop _ r n []) as [[[s1 out] dead] err] eqn:E.
  apply read_loop_rxk in E. intro H.
  destruct err; [injection H as <- _ _; exact E|].
  destruct out; [destruct (is_eof s1); [|destruct dead]|]; injection H as <- _ _;
    first [exact E | eapply rxk_trans; [exact E | split; reflexivity]].
Qed.

Lemma count0_sum0 : forall l, count_nondefault l = 0 -> sum_slot_bytes l = 0.
Proof.
  induction l as [|x xs IH]; [reflexivity|]. cbn [count_nondefault sum_slot_bytes].
  pose proof (count_nondefault_bounds xs) as Hb. destruct (slot_is_default x) eqn:E.
  - intro K. rewrite (default_len_zero _ E). rewrite IH; lia.
  - intro K. lia.
Qed.

Section WithCC.
Context {CC : Type} (cci : cc_iface CC).
Notation vsock := (vsock CC).

(* the configured constants of the receive half: an invariant of every state *)
Definition rxconst (qc mi : Z) (s : vsock) : Prop :=
  q_capacity (v_rx s) = qc /\ max_incoming_payload (v_rx s) = mi.

Lemma rxconst_reach : forall qc mi d t (s s' : vsock), reach d t s s' -> rxconst qc mi s -> rxconst qc mi s'.
Proof.
  intros qc mi d t s s' H. induction H; unfold rxconst in *; intro K.
  - exact K.
  - auto.
  - rewrite H. exact K.
  - destruct (rx_dop_rxk _ _ _ _ H) as [E1 E2]. rewrite E1, E2. exact K.
  - rewrite H0. exact K.
  - rewrite H0. exact K.
Qed.

Theorem rxconst_vstep : forall qc mi (s : vsock) o, rxconst qc mi s -> rxconst qc mi (vstep_state cci s o).
Proof.
  intros qc mi s o Hp. unfold vstep_state. destruct o; cbn [vstep];
    try (repeat match goal with |- context [if ?c then _ else _] => destruct c end;
         repeat match goal with |- context [let '(_, _) := ?t in _] => destruct t end;
         cbn [fst]; exact Hp).
  - destruct (poll cci (VSockRec.set_sends s script)) as [s' r] eqn:E. cbn [fst].
    apply poll_reach in E. eapply rxconst_reach; [exact E|]. exact Hp.
  - destruct (reader_dropped (v_rx s)); [exact Hp|].
    destruct (rx_read (v_rx s) n) as [[rx1 r] w] eqn:E. cbn [fst].
    destruct (rx_read_rxk _ _ _ _ _ E) as [E1 E2]. unfold rxconst in *. cbn [v_rx set_rx].
    rewrite E1, E2. exact Hp.
  - destruct (reader_dropped (v_rx s)); [exact Hp|]. unfold rx_drop_reader. cbn [fst]. exact Hp.
Qed.

Lemma rxconst_vsock_new : forall mk c s, vsock_new cci mk c = Some s ->
  rxconst (vc_rx_buf c)
    (mss (ss_new {| cfg_ipv4 := vc_ipv4 c; cfg_link_mtu := vc_link_mtu c; cfg_cooldown := 3 |})) s.
Proof.
  intros mk c s H. unfold vsock_new in H.
  destruct (match (if vc_incoming c then None else _) with Some r => _ | None => _ end); [|discriminate].
  inversion H; subst. split; reflexivity.
Qed.

(* ------------------------------------------------------------------ the stages of a poll *)
Definition zI (s : vsock) : Prop := rxi s /\ mss_pos s.
Definition zB (s : vsock) : Prop := zI s /\ zw (v_rx s).
Definition zD (s : vsock) : Prop := zB s /\ should_send_window_update s = false.

(* a step within reach that never lowers mss keeps zI *)
Lemma stage_zI : forall X (s : vsock) (m : step X),
  stR (reach false false) s m -> step_frame s m -> zI s -> stU zI m.
Proof.
  intros X s m R F [H1 H2]. destruct m as [s' a|s' e|]; cbn [stR stU step_frame] in *; auto.
  split; [eapply rxi_reach; eassumption|].
  destruct F as (_ & _ & _ & _ & F5 & _). unfold mss_pos in *. lia.
Qed.

(* ... and zB when it does not touch the receive half *)
Lemma stage_zB : forall X (s : vsock) (m : step X),
  stR (reach false false) s m -> step_frame s m ->
  stU (fun s' => v_rx s' = v_rx s) m -> zB s -> stU zB m.
Proof.
  intros X s m R F E [H1 H2]. pose proof (stage_zI X s m R F H1) as K.
  destruct m as [s' a|s' e|]; cbn [stU] in *; auto. split; [exact K|]. rewrite E. exact H2.
Qed.

Lemma txf_rx_same : forall X (s : vsock) (m : step X), stR txf s m -> stU (fun s' => v_rx s' = v_rx s) m.
Proof. intros X s m H. destruct m; cbn [stR stU] in *; auto. apply H. Qed.

Theorem poll_zw_tail : forall (s s' : vsock),
  zI s -> poll cci s = (s', PollPending) -> v_transport_pending s' = false ->
  exists sb, zD sb /\ v_transport_pending sb = false /\ s' = poll_tail sb.
Proof.
  intros s s' Hz H Hnp.
  assert (HS : tail_shape zD s').
  { apply (poll_S_nr cci zI zI zI zB zB zD) with (s := s); try exact H.
    - intros a K. exact K.
    - intros a K. apply stU_stC.
      apply (stage_zI _ a); [apply maybe_send_syn_ack_reach | apply maybe_send_syn_ack_frame | exact K].
    - intros a K. apply stU_stC.
      apply (stage_zI _ a); [apply stf_strch, send_ack_txf | apply send_ack_frame | exact K].
    - intros a K. apply stU_stC.
      apply (stage_zI _ a); [apply process_all_incoming_messages_reach
                            | apply process_all_incoming_messages_frame | exact K].
    - intros a rx1 fb w [K1 K2] E. split; [split|].
      + exact (proj1 (rx_flush_spec _ _ _ _ K1 E)).
      + exact K2.
      + eapply rx_flush_zw; [|exact E]. pose proof (inv_ff_bounds _ K1). lia.
    - intros a K.
      apply (stage_zB _ a); [apply split_tx_queue_into_segments_reach
                            | apply split_tx_queue_into_segments_frame | | exact K].
      pose proof (split_srx cci a) as P.
      destruct (split_tx_queue_into_segments cci a); cbn [stR stU] in *; auto. apply P.
    - intros a K Ra.
      pose proof (stage_zB _ a (send_tx_queue cci a)
                    (stf_strch _ _ _ _ _ (send_tx_queue_txf cci a)) (send_tx_queue_frame cci a)
                    (txf_rx_same _ _ _ (send_tx_queue_txf cci a)) K) as P.
      destruct (send_tx_queue cci a); cbn [stU] in *; auto. split; [intros _; apply P | intros _ _; exact P].
    - intros a [[K1 K2] K3].
      assert (Erx : v_rx (transition_to_fin_wait_1 a) = v_rx a).
      { unfold transition_to_fin_wait_1. destruct (v_state a); reflexivity. }
      split; [split|].
      + unfold rxi. rewrite Erx. exact K1.
      + pose proof (transition_to_fin_wait_1_frame a) as (_ & _ & _ & _ & F5 & _). unfold mss_pos in *. lia.
      + rewrite Erx. exact K3.
    - intros a K. apply stU_stC.
      apply (stage_zB _ a); [apply stf_strch, maybe_send_fin_txf | apply maybe_send_fin_frame
                            | apply txf_rx_same, maybe_send_fin_txf | exact K].
    - intros a K.
      pose proof (maybe_send_ack_txf a) as X. pose proof (maybe_send_ack_frame0 a) as F0.
      destruct (maybe_send_ack a) as [b u| |] eqn:E; cbn [stC stU stR] in *; auto.
      intro Tp. destruct K as [[K1 K2] K3].
      destruct (maybe_send_ack_no_immediate a b u K2 E Tp) as [_ W].
      destruct X as (X1 & _). destruct F0 as (_ & _ & _ & _ & F5 & _).
      split; [split; [split|]|]; [unfold rxi; rewrite X1; exact K1
                                 | unfold mss_pos in *; lia | rewrite X1; exact K3 | exact W].
    - exact Hz. }
  destruct HS as [HS|(sb & K & Tp & _ & _ & ->)]; [congruence|].
  exists sb. auto.
Qed.

(* the observable consequence: zero window advertised, nothing held for reassembly, current MSS not
   above the creation-time one, receive buffer below 2^32: the RX dispatcher waker is registered *)
Theorem zero_window_registered : forall qc mi (s s' : vsock),
  zI s -> rxconst qc mi s -> qc < M32 ->
  poll cci s = (s', PollPending) -> v_transport_pending s' = false ->
  v_last_sent_window s' = 0 -> is_remote_fin_or_later (v_state s') = false ->
  ooq_len (v_rx s') = 0 -> reader_dropped (v_rx s') = false ->
  mss (v_ss s') <= mi ->
  disp_waker (v_rx s') = true.
Proof.
  intros qc mi s s' Hz Hc Hq H Tp Hw Hf Hl Hd Hm.
  pose proof (poll_reach cci _ _ _ H) as R.
  assert (Hc' : rxconst qc mi s') by (eapply rxconst_reach; [exact R | exact Hc]).
  destruct (poll_zw_tail s s' Hz H Tp) as (sb & [[[K1 K2] K3] K4] & _ & ->).
  destruct (poll_tail_fields sb) as (_ & F2 & F3 & F4 & F5 & _).
  destruct Hc' as [C1 C2].
  rewrite F3 in *. rewrite F2 in Hm. rewrite F4 in Hf. rewrite F5 in Hw.
  destruct K3 as [K3|K3]; [exact K3|exfalso].
  (* maybe_send_ack left no window update owed: the window it would advertise is zero *)
  unfold should_send_window_update in K4. rewrite Hf, Hw in K4. cbn [Z.eqb] in K4.
  assert (Hrw : rx_window sb = 0).
  { destruct (Z.eqb_spec (rx_window sb) 0) as [E|E]; [exact E|discriminate]. }
  unfold rx_window, remaining_rx_window in Hrw. rewrite Hd in Hrw.
  assert (Hob : ooq_len_bytes (v_rx sb) = 0).
  { destruct K1 as (_ & _ & _ & I4 & I5 & _). rewrite I5. apply count0_sum0. rewrite <- I4. exact Hl. }
  rewrite Hob in Hrw.
  destruct K1 as (_ & _ & _ & _ & _ & I6 & I7 & I8 & _).
  pose proof (sum_q_bytes_nonneg (q (v_rx sb))) as Hqn.
  assert (Hlr : sat_sub (last_remaining_rx_window (v_rx sb)) 0 = last_remaining_rx_window (v_rx sb))
    by (unfold sat_sub; lia).
  rewrite Hlr in Hrw.
  assert (Hmod : last_remaining_rx_window (v_rx sb) mod M32 = last_remaining_rx_window (v_rx sb)).
  { apply Z.mod_small. lia. }
  rewrite Hmod in Hrw. unfold mss_pos in K2.
  destruct (Z.ltb_spec (last_remaining_rx_window (v_rx sb)) (mss (v_ss sb))) as [Hlt|Hge]; [lia|].
  (* wnd >= mss: the advertised window would be at least one mss *)
  assert (0 < mss (v_ss sb)) by lia.
  pose proof (Z.mod_pos_bound (last_remaining_rx_window (v_rx sb)) (mss (v_ss sb)) H0). lia.
Qed.

End WithCC.
