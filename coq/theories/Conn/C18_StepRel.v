(* C18 at the level of a whole poll — what each function of poll_body does to
   (segs, last_remote_window, ss, inbox, opts, unsegmented):
   [keepr] nothing (control packets, timers, transitions), [stx] the send path (re-flag, or pop the
   probe that was too long and restart), [pimrel] incoming messages (remove, re-flag),
   [kfl] flags only.
   [CtlWalk] packs the leaf hypotheses of VSock_LemmasReach.StepRel into three (same fields / a control
   packet emitted / an ACK processed) for the control functions and process_incoming_message; [keepr] and
   [pimrel] here, and the relations of Conn/C14_Step.v, are instances. *)
From Utp Require Import Base.Prelude Wire.SeqNr Wire.Header Rtt.Rtte Mtu.SegSizes
  Rx.Rx Tx.Ring Tx.Segments Tx.Segments_Proofs Conn.Recovery Conn.Msg Conn.VSockRec Conn.VSock
  Conn.VSockRun Conn.VObs Conn.VSock_LemmasTx Conn.VSock_LemmasIn Conn.VSock_Lemmas Conn.VSock_LemmasStep Conn.VSock_LemmasReach
  Conn.C18_Pred Conn.C18_Proofs Conn.C18_StepLemmas.

(* ================================================================== the functions of poll_body *)
Section WithCC.
Context {CC : Type} (cci : cc_iface CC).
Notation vsock := (vsock CC).

(* what the send path never touches *)
Definition kx (s s' : vsock) : Prop :=
  v_last_remote_window s' = v_last_remote_window s /\ v_inbox s' = v_inbox s /\
  v_opts s' = v_opts s /\ v_unsegmented s' = v_unsegmented s.

Lemma kx_refl s : kx s s.
Proof. repeat split. Qed.
Lemma kx_trans a b c : kx a b -> kx b c -> kx a c.
Proof. intros (A1 & A2 & A3 & A4) (B1 & B2 & B3 & B4). repeat split; congruence. Qed.

(* nothing of the segmentation state changes (control packets, timers, state transitions) *)
Definition keep (s s' : vsock) : Prop :=
  kx s s' /\ v_ss s' = v_ss s /\ v_segs s' = v_segs s.
Definition keepr (s s' : vsock) : Prop := keep s s' /\ v_restart s' = v_restart s.

Lemma keep_refl s : keep s s.
Proof. repeat split. Qed.
Lemma keep_trans a b c : keep a b -> keep b c -> keep a c.
Proof. intros (A1 & A2 & A3) (B1 & B2 & B3). split; [eapply kx_trans; eauto|]. split; congruence. Qed.
Lemma keepr_refl s : keepr s s.
Proof. split; [apply keep_refl|reflexivity]. Qed.
Lemma keepr_trans a b c : keepr a b -> keepr b c -> keepr a c.
Proof. intros (A1 & A2) (B1 & B2). split; [eapply keep_trans; eauto|congruence]. Qed.

(* only flags of segments change *)
Definition kfl (s s' : vsock) : Prop :=
  kx s s' /\ v_ss s' = v_ss s /\ tfl seg_eq (v_segs s) (v_segs s').

Lemma kfl_refl s : kfl s s.
Proof. split; [apply kx_refl|]. split; [reflexivity|apply tfl_refl, seg_eq_refl]. Qed.
Lemma kfl_trans a b c : kfl a b -> kfl b c -> kfl a c.
Proof.
  intros (A1 & A2 & A3) (B1 & B2 & B3). split; [eapply kx_trans; eauto|]. split; [congruence|].
  eapply tfl_trans; eauto using seg_eq_trans.
Qed.
Lemma keep_kfl s s' : keep s s' -> kfl s s'.
Proof. intros (A1 & A2 & A3). split; [exact A1|]. split; [exact A2|]. rewrite A3. apply tfl_refl, seg_eq_refl. Qed.

(* the send path: flags change, or the probe that was too long is popped and the poll restarts *)
Inductive stx : vsock -> vsock -> Prop :=
| stx_refl : forall s, stx s s
| stx_trans : forall a b c, stx a b -> stx b c -> stx a c
| stx_flag : forall s s', kfl s s' -> v_restart s' = v_restart s -> stx s s'
| stx_pop : forall s s', kx s s' -> mss (v_ss s') = mss (v_ss s) -> v_restart s' = true ->
    tpop (v_segs s) (v_segs s') -> stx s s'.

Lemma keepr_stx s s' : keepr s s' -> stx s s'.
Proof. intros (A & B). apply stx_flag; [apply keep_kfl; exact A | exact B]. Qed.

Lemma stx_restart s s' : stx s s' ->
  (v_restart s = true -> v_restart s' = true) /\ (v_restart s' = false -> kfl s s').
Proof.
  intro H. induction H as [s|a b c _ [IH1 IH1'] _ [IH2 IH2']|s s' K R|s s' K M R P].
  - split; [auto|]. intros _. apply kfl_refl.
  - split; [auto|]. intros Rc.
    assert (Rb : v_restart b = false).
    { destruct (v_restart b) eqn:E; [|reflexivity]. rewrite (IH2 eq_refl) in Rc. discriminate. }
    eapply kfl_trans; eauto.
  - split; [congruence|]. intros _. exact K.
  - split; [auto|]. congruence.
Qed.

Notation stk := (stR keepr).
Notation sts := (stR stx).

Ltac keepr_leaf := unfold keepr, keep, kx; repeat split; exact eq_refl.

(* ------------------------------------------------------------------ the control functions, once
   for every relation R that is reflexive, transitive, holds between states that agree on the
   fields below and on the datagrams emitted, and admits the emission of a control packet *)
Definition fsame (s s' : vsock) : Prop :=
  v_ss s' = v_ss s /\ v_segs s' = v_segs s /\ v_inbox s' = v_inbox s /\ v_opts s' = v_opts s /\
  v_last_remote_window s' = v_last_remote_window s /\ v_unsegmented s' = v_unsegmented s /\
  v_restart s' = v_restart s.

Section CtlWalk.
Variable R : vsock -> vsock -> Prop.
Hypothesis R_refl : forall s, R s s.
Hypothesis R_trans : forall a b c, R a b -> R b c -> R a c.
Hypothesis R_same : forall s s', fsame s s' -> v_out s' = v_out s -> R s s'.
Hypothesis R_ctl : forall (s s' : vsock) h t q sk, fsame s s' ->
  v_out s' = {| p_hdr := hdr_with h t q (fit_sack s sk); p_payload := [] |} :: v_out s -> R s s'.
Local Set Default Proof Using "R_refl R_trans R_same R_ctl".

Ltac same_leaf := apply R_same; [unfold fsame; repeat split; exact eq_refl | exact eq_refl].

(* the leaf hypotheses of the walks of Conn/VSock_LemmasReach.v (StepRel) follow from R_same / R_ctl *)
Lemma ctl_sent : forall (s s0 : vsock) h0 t q sk h, v_opts s0 = v_opts s ->
  R s (on_packet_sent (emit s {| p_hdr := hdr_with h0 t q (fit_sack s0 sk); p_payload := [] |}) h).
Proof.
  intros s s0 h0 t q sk h E. eapply R_ctl with (h := h0) (t := t) (q := q) (sk := sk);
    [unfold fsame; repeat split; exact eq_refl | unfold fit_sack; rewrite E; exact eq_refl].
Qed.

Ltac ctl_leaf := first [same_leaf | unfold add_wakes; same_leaf | apply ctl_sent; assumption].

Lemma next_send_R : forall (s : vsock) n s1 o, next_send s n = (s1, o) -> R s s1.
Proof. apply (VSock_LemmasReach.next_send_R R R_refl); intros; ctl_leaf. Qed.

Lemma send_control_packet_R : forall (s : vsock) h, stR R s (send_control_packet s h).
Proof. apply (VSock_LemmasReach.send_control_packet_R R R_refl R_trans); intros; ctl_leaf. Qed.

Lemma send_ack_R : forall (s : vsock), stR R s (send_ack s).
Proof. intros s. unfold send_ack. apply send_control_packet_R. Qed.

Lemma maybe_send_fin_R : forall (s : vsock), stR R s (maybe_send_fin s).
Proof. apply (VSock_LemmasReach.maybe_send_fin_R R R_refl R_trans); intros; ctl_leaf. Qed.

Lemma maybe_send_ack_R : forall (s : vsock), stR R s (maybe_send_ack s).
Proof. apply (VSock_LemmasReach.maybe_send_ack_R R R_refl R_trans); intros; ctl_leaf. Qed.

Lemma maybe_send_syn_ack_R : forall (s : vsock), stR R s (maybe_send_syn_ack s).
Proof. apply (VSock_LemmasReach.maybe_send_syn_ack_R R R_refl R_trans); intros; ctl_leaf. Qed.

Lemma transition_to_fin_wait_1_R : forall (s : vsock), R s (transition_to_fin_wait_1 s).
Proof. apply (VSock_LemmasReach.transition_to_fin_wait_1_R R R_refl R_trans); intros; ctl_leaf. Qed.

Lemma rx_flush_R : forall (s : vsock) rx1 w, R s (add_wakes (set_rx s rx1) w).
Proof. intros. unfold add_wakes. same_leaf. Qed.

Lemma set_recovering_R : forall (s : vsock) rc, R s (set_recovering s rc).
Proof. intros. unfold set_recovering. same_leaf. Qed.

Lemma on_rto_reactions_R : forall (s s1 : vsock), on_rto_reactions cci s = Some s1 -> R s s1.
Proof.
  intros s s1 H. unfold on_rto_reactions in H.
  destruct (Rtte.on_rto_timeout _); inversion H; subst. same_leaf.
Qed.

Lemma mark_both_closed_R : forall (s : vsock), R s (mark_both_closed s).
Proof.
  intros s. unfold mark_both_closed.
  destruct (rx_mark_vsock_closed (v_rx s)) as [rx1 w1]. destruct (mark_vsock_closed (v_tx s)) as [tx1 w2].
  unfold add_wakes. same_leaf.
Qed.

Lemma just_before_death_R : forall (s : vsock) e, R s (just_before_death s e).
Proof.
  apply (VSock_LemmasReach.just_before_death_R R R_refl R_trans); try (intros; ctl_leaf).
  apply mark_both_closed_R.
Qed.

Lemma poll_tail_R : forall (s : vsock), R s (poll_tail s).
Proof.
  apply (VSock_LemmasReach.poll_tail_R R R_refl R_trans); try (intros; ctl_leaf).
  intros s d. unfold arm_in, add_wakes. destruct (_ <=? 0); same_leaf.
Qed.

Lemma state_table_R : forall (s : vsock) h,
  match state_table s h with TblDrop s1 | TblErr s1 _ | TblContinue s1 => R s s1 end.
Proof. apply (VSock_LemmasReach.state_table_R R R_refl R_trans); intros; ctl_leaf. Qed.

(* the arm of the receive loop that runs when the inbox is empty *)
Lemma recv_base_R : forall (s : vsock) (acc : on_ack_result),
  stR R s (if v_inbox_closed s
           then sbind (maybe_send_fin (transition_to_fin_wait_1 s))
                      (fun s2 _ => SOk (set_state s2 Closed) (acc, true))
           else SOk (set_inbox_waker s true) (acc, false)).
Proof.
  intros s acc. destruct (v_inbox_closed s); [|cbn [stR]; same_leaf].
  apply (stR_weaken R R_trans) with (s := transition_to_fin_wait_1 s);
    [apply transition_to_fin_wait_1_R|].
  apply (stR_sbind R R_trans); [apply maybe_send_fin_R|].
  intros s2 _. cbn [stR]. same_leaf.
Qed.

(* one incoming message: besides the above, R admits the processing of an acknowledgement
   (segments removed from the front and re-flagged, a payload size confirmed; the remote
   window and the timers are not among the fields R may read) *)
Hypothesis R_ack : forall (s s' : vsock) n, trm (v_segs s) (v_segs s') ->
  v_ss s' = on_payload_delivered (v_ss s) n -> v_inbox s' = v_inbox s -> v_out s' = v_out s ->
  v_opts s' = v_opts s -> v_unsegmented s' = v_unsegmented s -> R s s'.

Lemma process_incoming_message_R : forall (s : vsock) m, stR R s (process_incoming_message cci s m).
Proof using R_refl R_trans R_same R_ctl R_ack.
  apply (VSock_LemmasReach.process_incoming_message_R cci R R_refl R_trans); try (intros; ctl_leaf).
  - apply state_table_R.
  - intros s1 h s2 res. unfold pim_ack.
    destruct (remove_up_to_ack _ _ _ _) as [segs1 res0] eqn:Er. apply remove_up_to_ack_trm in Er.
    destruct (match is_recovering (v_recovery s1) with true => _ | false => _ end) as [rtte1|]; [|discriminate].
    destruct (cc_on_ack _ _ _ _ _) as [cc3|]; [|discriminate].
    destruct (recovery_on_ack _ _ _ _ _ _ _ _) as [[[rec1 segs2] cc4]|] eqn:Ea; [|discriminate].
    apply recovery_on_ack_tfl in Ea. intro E. injection E as <- _.
    eapply R_ack; [|exact eq_refl ..].
    exact (trm_trans _ _ _ Er (tfl_trm _ _ (tfl_eq_le _ _ Ea))).
  - intros s n. eapply R_ack; [apply trm_refl|exact eq_refl ..].
Qed.

End CtlWalk.

(* ---- keepr ---- *)
Lemma keepr_fsame : forall s s', fsame s s' -> keepr s s'.
Proof. intros s s' (A1 & A2 & A3 & A4 & A5 & A6 & A7). unfold keepr, keep, kx. auto 10. Qed.
Lemma keepr_same : forall s s', fsame s s' -> v_out s' = v_out s -> keepr s s'.
Proof. intros s s' F _. apply keepr_fsame, F. Qed.
Lemma keepr_ctl : forall (s s' : vsock) h t q sk, fsame s s' ->
  v_out s' = {| p_hdr := hdr_with h t q (fit_sack s sk); p_payload := [] |} :: v_out s -> keepr s s'.
Proof. intros s s' h t q sk F _. apply keepr_fsame, F. Qed.

Lemma send_ack_keepr : forall (s : vsock), stk s (send_ack s).
Proof. exact (send_ack_R keepr keepr_refl keepr_trans keepr_same keepr_ctl). Qed.

Lemma maybe_send_fin_keepr : forall (s : vsock), stk s (maybe_send_fin s).
Proof. exact (maybe_send_fin_R keepr keepr_refl keepr_trans keepr_same keepr_ctl). Qed.

Lemma maybe_send_ack_keepr : forall (s : vsock), stk s (maybe_send_ack s).
Proof. exact (maybe_send_ack_R keepr keepr_refl keepr_trans keepr_same keepr_ctl). Qed.

Lemma maybe_send_syn_ack_keepr : forall (s : vsock), stk s (maybe_send_syn_ack s).
Proof. exact (maybe_send_syn_ack_R keepr keepr_refl keepr_trans keepr_same keepr_ctl). Qed.

Lemma transition_to_fin_wait_1_keepr : forall (s : vsock), keepr s (transition_to_fin_wait_1 s).
Proof. exact (transition_to_fin_wait_1_R keepr keepr_refl keepr_trans keepr_same keepr_ctl). Qed.

Lemma rx_flush_keepr : forall (s : vsock) rx1 w, keepr s (add_wakes (set_rx s rx1) w).
Proof. exact (rx_flush_R keepr keepr_refl keepr_trans keepr_same keepr_ctl). Qed.

Lemma poll_start_keep : forall (s : vsock), keep s (poll_start s).
Proof. intros s. unfold poll_start, keep, kx. repeat split; exact eq_refl. Qed.

Lemma just_before_death_keepr : forall (s : vsock) e, keepr s (just_before_death s e).
Proof. exact (just_before_death_R keepr keepr_refl keepr_trans keepr_same keepr_ctl). Qed.

Lemma poll_tail_keepr : forall (s : vsock), keepr s (poll_tail s).
Proof. exact (poll_tail_R keepr keepr_refl keepr_trans keepr_same keepr_ctl). Qed.

(* ------------------------------------------------------------------ the data path *)
Ltac stx_leaf := apply keepr_stx; keepr_leaf.

Lemma stx_data_sent : forall (s : vsock) p f, stx s (sent_state s p f).
Proof.
  intros s1 p f.
  assert (K : forall sx : vsock, v_segs sx = on_sent (v_segs s1) (fs_idx f) (v_now s1) ->
              kx s1 sx -> v_ss sx = v_ss s1 -> v_restart sx = v_restart s1 -> stx s1 sx).
  { intros sx E1 E2 E3 E4. apply stx_flag; [|exact E4]. split; [exact E2|]. split; [exact E3|].
    rewrite E1. apply on_sent_tfl. }
  unfold sent_state, on_packet_sent, emit.
  destruct (seq_gt _ _); try destruct (seq_gt _ _); apply K; try exact eq_refl; unfold kx; repeat split; exact eq_refl.
Qed.

Lemma on_rto_reactions_keepr : forall (s s1 : vsock), on_rto_reactions cci s = Some s1 -> keepr s s1.
Proof. exact (on_rto_reactions_R keepr keepr_refl keepr_trans keepr_same keepr_ctl). Qed.

Ltac stx_walk_leaf :=
  first [ stx_leaf | apply stx_data_sent
        | apply keepr_stx; eapply on_rto_reactions_keepr; eassumption ].

Lemma send_tx_queue_stx : forall (s : vsock), sts s (send_tx_queue cci s).
Proof.
  apply (VSock_LemmasReach.send_tx_queue_R cci stx stx_refl stx_trans); try (intros; stx_walk_leaf).
  (* the probe that was too long is popped and the poll restarts *)
  intros s q size segs' Ep.
  destruct (pop_mtu_probe_spec _ _ _ _ Ep) as [[_ P]|[K _]]; [|discriminate K].
  apply stx_pop.
  - unfold kx. repeat split; exact eq_refl.
  - cbn [v_ss set_restart set_ss]. rewrite mss_disarm_cooldown, mss_on_probe_failed. reflexivity.
  - exact eq_refl.
  - exact P.
Qed.

(* ------------------------------------------------------------------ incoming messages *)
Definition pimrel (s s' : vsock) : Prop :=
  v_opts s' = v_opts s /\ mss (v_ss s) <= mss (v_ss s') /\ trm (v_segs s) (v_segs s') /\
  v_unsegmented s' = v_unsegmented s.

Lemma pimrel_refl s : pimrel s s.
Proof. split; [reflexivity|]. split; [lia|]. split; [apply trm_refl|reflexivity]. Qed.
Lemma pimrel_trans a b c : pimrel a b -> pimrel b c -> pimrel a c.
Proof.
  intros (A1 & A2 & A3 & A4) (B1 & B2 & B3 & B4). split; [congruence|]. split; [lia|].
  split; [eapply trm_trans; eauto|congruence].
Qed.
Lemma kfl_pimrel s s' : kfl s s' -> pimrel s s'.
Proof.
  intros ((_ & _ & O & U) & S & T). split; [exact O|]. split; [rewrite S; lia|].
  split; [apply tfl_trm, tfl_eq_le; exact T|exact U].
Qed.
Lemma keepr_pimrel s s' : keepr s s' -> pimrel s s'.
Proof. intros [K _]. apply kfl_pimrel, keep_kfl. exact K. Qed.

Notation stp := (stR pimrel).
Notation stf := (stR kfl).

Lemma stk_stp : forall A (s : vsock) (m : step A), stk s m -> stp s m.
Proof. intros A s m H. destruct m; cbn [stR] in *; auto using keepr_pimrel. Qed.
Lemma stk_stf : forall A (s : vsock) (m : step A), stk s m -> stf s m.
Proof. intros A s m H. destruct m; cbn [stR] in *; auto. destruct H as [K _]; apply keep_kfl; exact K. destruct H as [K _]; apply keep_kfl; exact K. Qed.
Lemma stf_stp : forall A (s : vsock) (m : step A), stf s m -> stp s m.
Proof. intros A s m H. destruct m; cbn [stR] in *; auto using kfl_pimrel. Qed.

(* same opts/unsegmented, mss not lower, table as given *)
Lemma pimrel_mk : forall (s s' : vsock), v_opts s' = v_opts s -> mss (v_ss s) <= mss (v_ss s') ->
  trm (v_segs s) (v_segs s') -> v_unsegmented s' = v_unsegmented s -> pimrel s s'.
Proof. intros. unfold pimrel. auto. Qed.

Lemma process_incoming_message_pimrel : forall (s : vsock) m,
  stp s (process_incoming_message cci s m).
Proof.
  apply (process_incoming_message_R pimrel pimrel_refl pimrel_trans).
  - intros s s' F _. apply keepr_pimrel, keepr_fsame, F.
  - intros s s' h t q sk F _. apply keepr_pimrel, keepr_fsame, F.
  - intros s s' n T E _ _ O U. apply pimrel_mk; [exact O| |exact T|exact U].
    rewrite E. apply mss_on_payload_delivered.
Qed.

Lemma recv_base_keepr : forall (s : vsock) (acc : on_ack_result),
  stk s (if v_inbox_closed s
         then sbind (maybe_send_fin (transition_to_fin_wait_1 s))
                    (fun s2 _ => SOk (set_state s2 Closed) (acc, true))
         else SOk (set_inbox_waker s true) (acc, false)).
Proof. exact (recv_base_R keepr keepr_refl keepr_trans keepr_same keepr_ctl). Qed.

Lemma recv_loop_pimrel : forall fuel (s : vsock) acc, stp s (recv_loop cci fuel s acc).
Proof.
  induction fuel as [|x fuel IH]; intros s acc.
  - cbn [recv_loop]. destruct (v_inbox s); [apply stk_stp, recv_base_keepr | exact I].
  - cbn [recv_loop]. destruct (v_inbox s) as [|m rest]; [apply stk_stp, recv_base_keepr|].
    apply (stR_weaken pimrel pimrel_trans) with (s := set_inbox s rest); [apply pimrel_mk; try exact eq_refl; [apply Z.le_refl|apply trm_refl]|].
    apply (stR_sbind pimrel pimrel_trans).
    + apply process_incoming_message_pimrel.
    + intros s1 r. destruct (_ || _); [apply pimrel_refl|]. apply IH.
Qed.

Lemma recv_loop_idle : forall fuel (s : vsock) acc, v_inbox s = [] -> stk s (recv_loop cci fuel s acc).
Proof.
  intros fuel s acc E. destruct fuel; cbn [recv_loop]; rewrite E; apply recv_base_keepr.
Qed.

(* the bookkeeping after the receive loop: flags only *)
Lemma pa_tail_kfl : forall (s1 : vsock) (res : on_ack_result * bool),
  stf s1
    (let '(r, _) := res in
      let s2 :=
        if (0 <? ar_acked_segments r) || (0 <? ar_newly_sacked_segments r) then
          let s' := set_rto_retransmissions s1 0 in
          match ss_segs (v_segs s'), our_fin_if_unacked (v_state s') with
          | [], None => set_t_inactivity (set_t_retransmit s' None) None
          | _, _ =>
              restart_remote_inactivity_timer
                (set_t_retransmit s' (timer_arm (v_t_retransmit s') (v_now s')
                                        (retransmission_timeout (v_rtte s')) true))
          end
        else s1 in
      let s3o : step unit :=
        if 0 <? ar_acked_segments r then
          let s2 := acked_counts_as_sent s2 in
          let '(tx1, tr) := truncate_front (v_tx s2) (ar_acked_bytes r) in
          match tr with
          | TrBug _ _ => SErr (set_tx s2 tx1) (ErrBug BugTruncateFront)
          | TrOk => let '(tx2, w) := wake_writer tx1 in
                    SOk (add_wakes (set_tx s2 tx2) (tx_wakes w)) tt
          end
        else SOk s2 tt in
      sbind s3o (fun s3 _ =>
        match rv_phase (v_recovery s3) with
        | Recovering rc =>
            match calc_pipe (v_segs s3) (rc_high_rxt rc) (v_last_sent_seq_nr s3)
                            (roundtrip_time (v_rtte s3)) (v_now s3) with
            | None => SPanic
            | Some (segs', pipe, recalc) =>
                SOk (set_recovering (set_segs s3 segs')
                       {| rc_recovery_point := rc_recovery_point rc; rc_high_rxt := rc_high_rxt rc;
                          rc_total_retx := rc_total_retx rc; rc_pipe := pipe; rc_recalc := recalc;
                          rc_cwnd := rc_cwnd rc |}) tt
            end
        | _ => SOk s3 tt
        end)).
Proof.
  intros s1 [r early]. cbv beta iota zeta.
  match goal with |- context [acked_counts_as_sent ?x] =>
    assert (F2 : keepr s1 x); [|revert F2; generalize x; intros s2 F2] end.
  { unfold restart_remote_inactivity_timer.
    repeat break_match; first [apply keepr_refl | keepr_leaf]. }
  apply (stR_weaken kfl kfl_trans) with (s := s2); [apply keep_kfl; exact (proj1 F2)|].
  apply (stR_sbind kfl kfl_trans).
  - destruct (0 <? _); [|apply kfl_refl].
    assert (F2' : keepr s2 (acked_counts_as_sent s2)).
    { unfold acked_counts_as_sent. destruct (seq_gt _ _ && seq_lt _ _); [keepr_leaf | apply keepr_refl]. }
    apply (stR_weaken kfl kfl_trans) with (s := acked_counts_as_sent s2); [apply keep_kfl; exact (proj1 F2')|].
    generalize (acked_counts_as_sent s2). intro s2'.
    destruct (truncate_front _ _) as [tx1 tr].
    destruct tr; [|cbn [stR]; apply keep_kfl; unfold keep, kx; repeat split; exact eq_refl].
    destruct (wake_writer tx1) as [tx2 w]. cbn [stR].
    apply keep_kfl. unfold add_wakes, keep, kx. repeat split; exact eq_refl.
  - intros s3 _. destruct (rv_phase _); try apply kfl_refl.
    destruct (calc_pipe _ _ _ _ _) as [[[segs' pipe] recalc]|] eqn:Ec; [|exact I].
    apply calc_pipe_tfl in Ec. cbn [stR]. unfold set_recovering.
    split; [unfold kx; repeat split; exact eq_refl|]. split; [exact eq_refl|]. exact Ec.
Qed.

Lemma process_all_incoming_messages_pimrel : forall (s : vsock),
  stp s (process_all_incoming_messages cci s).
Proof.
  intros s. unfold process_all_incoming_messages.
  apply (stR_sbind pimrel pimrel_trans); [apply recv_loop_pimrel|].
  intros s1 res. apply stf_stp. apply (pa_tail_kfl s1 res).
Qed.

(* no message: nothing but flags changes *)
Lemma process_all_incoming_messages_idle : forall (s : vsock),
  v_inbox s = [] -> stf s (process_all_incoming_messages cci s).
Proof.
  intros s E. unfold process_all_incoming_messages.
  apply (stR_sbind kfl kfl_trans); [apply stk_stf, recv_loop_idle; exact E|].
  intros s1 res. apply (pa_tail_kfl s1 res).
Qed.

End WithCC.
