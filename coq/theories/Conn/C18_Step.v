(* C18 — Nagle, at the level of a whole poll and of every trace.
   1. [PollInv]: a predicate A kept by every function of poll_body (the segmentation being
      allowed to use what the receive loop leaves behind, Bx) holds after the poll, whatever
      its result, and at the start of every iteration of the restart loop;
   2. [TI]: positively tiled table, len_bytes = sum of the sizes, mss >= 1 — an invariant of every
      reachable state; it implies the monitored guard c18_pre of Conn/C18_Pred.v;
   3. [Core1 off0 m0]: the poll-local invariant behind c18_nagle_ok; the step and trace theorems;
   4. the completed polls: c18_off_all_segmented_ok, c18_drain_sends_ok (Conn/C18_Pred2.v);
   5. split_tx_queue_into_segments alone, from its specification in Conn/C18_StepSplit.v. *)
From Utp Require Import Base.Prelude Wire.SeqNr Wire.Header Rtt.Rtte Mtu.SegSizes
  Rx.Rx Tx.Ring Tx.Segments Tx.Segments_Proofs Conn.Recovery Conn.Msg Conn.VSockRec Conn.VSock
  Conn.VSockRun Conn.VObs Conn.VSock_Lemmas Conn.VSock_LemmasStep Conn.VSock_LemmasReach
  Conn.C17_Step
  Conn.C18_Pred Conn.C18_Pred2 Conn.C18_Proofs Conn.C18_StepLemmas Conn.C18_StepRel Conn.C18_StepSplit.

Section WithCC.
Context {CC : Type} (cci : cc_iface CC).
Notation vsock := (vsock CC).

(* ================================================================== 1. invariants through a poll *)
Section PollInv.
Variables A Bx : vsock -> Prop.

Definition stA {X} (m : step X) : Prop :=
  match m with SOk s' _ | SErr s' _ => A s' | SPanic => True end.

Hypothesis H_start : forall s, A s -> A (poll_start s).
Hypothesis H_syn_ack : forall s, A s -> stA (maybe_send_syn_ack s).
Hypothesis H_send_ack : forall s, A s -> stA (send_ack s).
Hypothesis H_pim : forall s, A s -> stA (process_all_incoming_messages cci s).
Hypothesis H_pimB : forall s s' u, A s -> process_all_incoming_messages cci s = SOk s' u ->
  v_transport_pending s' = false -> Bx s'.
Hypothesis H_flush : forall s rx1 w, A s -> A (add_wakes (set_rx s rx1) (rx_wakes w)).
Hypothesis H_flushB : forall s rx1 w, Bx s -> Bx (add_wakes (set_rx s rx1) (rx_wakes w)).
Hypothesis H_split : forall s, A s -> Bx s -> stA (split_tx_queue_into_segments cci s).
Hypothesis H_stq : forall s, A s -> stA (send_tx_queue cci s).
Hypothesis H_fw1 : forall s, A s -> A (transition_to_fin_wait_1 s).
Hypothesis H_fin : forall s, A s -> stA (maybe_send_fin s).
Hypothesis H_msa : forall s, A s -> stA (maybe_send_ack s).
Hypothesis H_jbd : forall s e, A s -> A (just_before_death s e).
Hypothesis H_tail : forall s, A s -> A (poll_tail s).

Definition brA (r : body_res) : Prop :=
  match r with BrReturn s' _ | BrRestart s' => A s' | BrPanic => True end.

Lemma stA_stage : forall chk X (m : step X), stA m -> stage brA chk A m.
Proof.
  intros chk X m Fm. destruct m as [s1 a|s1 e|]; cbn [stage stA] in *.
  - destruct (v_restart s1); [exact Fm|]. destruct (chk && _); exact Fm.
  - apply H_jbd. exact Fm.
  - exact I.
Qed.

Theorem poll_body_A : forall s0, A s0 -> brA (poll_body cci s0).
Proof.
  intros s0 A0.
  apply (poll_body_walk cci brA A (fun s => A s /\ Bx s) (fun s => A s /\ Bx s) A A A).
  - exact I.
  - intros s H _. apply stA_stage, H_syn_ack, H.
  - intros s H _ _. apply stA_stage, H_send_ack, H.
  - (* the receive loop: its result is needed for Bx *)
    intros s H _. pose proof (H_pim s H) as A3. pose proof (H_pimB s) as B3.
    destruct (process_all_incoming_messages cci s) as [s3 a3|s3 e3|];
      [|exact (stA_stage true _ (SErr s3 e3) A3)|exact I].
    cbn [stage stA andb] in *. destruct (v_restart s3); [exact A3|].
    destruct (v_transport_pending s3) eqn:T3; [exact A3|]. split; [exact A3 | exact (B3 s3 a3 H eq_refl T3)].
  - intros s rx1 fb w [H HB] _ _. split; [apply H_flush | apply H_flushB]; assumption.
  - intros s [H _] _ _. apply H_jbd. exact H.
  - intros s [H HB] _ _. apply stA_stage, H_split; assumption.
  - intros s H _. apply stA_stage, H_stq, H.
  - intros s H _ _. apply H_fw1, H.
  - intros s H _. apply stA_stage, H_fin, H.
  - intros s H _. apply stA_stage, H_msa, H.
  - intros s H _ _. apply H_jbd. exact H.
  - intros s H _ _. apply H_tail. exact H.
  - apply H_start. exact A0.
Qed.

Theorem poll_loop_A : forall fuel s s' r, A s -> poll_loop cci fuel s = (s', r) -> A s'.
Proof.
  induction fuel as [|fuel IH]; intros s s' r A0 H; cbn [poll_loop] in H.
  - inversion H; subst. exact A0.
  - pose proof (poll_body_A s A0) as F.
    destruct (poll_body cci s) as [s1 r1|s1|]; cbn [brA] in *.
    + inversion H; subst. exact F.
    + eapply IH; [exact F | exact H].
    + inversion H; subst. exact A0.
Qed.

Theorem poll_A : forall s s' r, A (poll_init s) -> poll cci s = (s', r) -> A s'.
Proof. intros s s' r A0 H. rewrite poll_unfold in H. eapply poll_loop_A; eauto. Qed.

(* the last iteration of a poll that returns Pending starts from a state satisfying A *)
Theorem poll_loop_last : forall fuel s s', A s -> poll_loop cci fuel s = (s', PollPending) ->
  exists s0, A s0 /\ poll_body cci s0 = BrReturn s' PollPending.
Proof.
  induction fuel as [|fuel IH]; intros s s' A0 H; cbn [poll_loop] in H; [discriminate|].
  pose proof (poll_body_A s A0) as F.
  destruct (poll_body cci s) as [s1 r1|s1|] eqn:E; cbn [brA] in *.
  - inversion H; subst. exists s. auto.
  - eapply IH; [exact F | exact H].
  - discriminate.
Qed.

Theorem poll_last : forall s s', A (poll_init s) -> poll cci s = (s', PollPending) ->
  exists s0, A s0 /\ poll_body cci s0 = BrReturn s' PollPending.
Proof. intros s s' A0 H. rewrite poll_unfold in H. eapply poll_loop_last; eauto. Qed.

Theorem poll_A_last : forall s s' r, A (poll_init s) -> poll cci s = (s', r) ->
  A s' /\ (r = PollPending -> exists s0, A s0 /\ poll_body cci s0 = BrReturn s' PollPending).
Proof. intros s s' r A0 H. split; [eapply poll_A; eauto|]. intros ->. eapply poll_last; eauto. Qed.

End PollInv.

(* what the receive loop leaves behind when the poll goes on to segment *)
Definition Bx (s : vsock) : Prop := v_inbox s = [] \/ is_remote_fin_or_later (v_state s) = true.

Lemma closed_remote_fin : forall st w, state_is_closed st w = true -> is_remote_fin_or_later st = true.
Proof. intros st w H. destruct st; cbn [state_is_closed is_remote_fin_or_later] in *; congruence. Qed.

Lemma pim_Bx : forall (s s' : vsock) u, process_all_incoming_messages cci s = SOk s' u ->
  v_transport_pending s' = false -> Bx s'.
Proof.
  intros s s' u H T. apply process_all_D in H. destruct H as [H|[H|H]].
  - left. exact H.
  - right. eapply closed_remote_fin. exact H.
  - congruence.
Qed.

Lemma flush_Bx : forall (s : vsock) rx1 w, Bx s -> Bx (add_wakes (set_rx s rx1) (rx_wakes w)).
Proof. intros s rx1 w H. exact H. Qed.

Lemma stR_inv : forall (R : vsock -> vsock -> Prop) (P : vsock -> Prop) X (s : vsock) (m : step X),
  (forall a b, R a b -> P a -> P b) -> stR R s m -> P s -> stA P m.
Proof. intros R P X s m HR H Ps. destruct m; cbn [stR stA] in *; eauto. Qed.

(* an invariant closed under the three relations, kept by the receive loop and the segmentation *)
Theorem poll_inv_gen : forall (P : vsock -> Prop),
  (forall a b, keep a b -> P a -> P b) ->
  (forall a b, stx a b -> P a -> P b) ->
  (forall s, P s -> stA P (process_all_incoming_messages cci s)) ->
  (forall s, P s -> Bx s -> stA P (split_tx_queue_into_segments cci s)) ->
  forall s s' r, P (poll_init s) -> poll cci s = (s', r) ->
  P s' /\ (r = PollPending -> exists s0, P s0 /\ poll_body cci s0 = BrReturn s' PollPending).
Proof.
  intros P Hk Hs Hp Hsp.
  assert (Hkr : forall a b, keepr a b -> P a -> P b) by (intros a b K; apply Hs, keepr_stx; exact K).
  apply (poll_A_last P Bx).
  - intros s0 H0. eapply Hk; [apply poll_start_keep | exact H0].
  - intros s0 H0. eapply (stR_inv keepr); [exact Hkr | apply maybe_send_syn_ack_keepr | exact H0].
  - intros s0 H0. eapply (stR_inv keepr); [exact Hkr | apply send_ack_keepr | exact H0].
  - exact Hp.
  - intros s0 s1 u _. apply pim_Bx.
  - intros s0 rx1 w H0. eapply Hkr; [apply (rx_flush_keepr s0 rx1 (rx_wakes w)) | exact H0].
  - intros s0 rx1 w H0. exact H0.
  - exact Hsp.
  - intros s0 H0. eapply (stR_inv stx); [exact Hs | apply send_tx_queue_stx | exact H0].
  - intros s0 H0. eapply Hkr; [apply transition_to_fin_wait_1_keepr | exact H0].
  - intros s0 H0. eapply (stR_inv keepr); [exact Hkr | apply maybe_send_fin_keepr | exact H0].
  - intros s0 H0. eapply (stR_inv keepr); [exact Hkr | apply maybe_send_ack_keepr | exact H0].
  - intros s0 e H0. eapply Hkr; [apply just_before_death_keepr | exact H0].
  - intros s0 H0. eapply Hkr; [apply poll_tail_keepr | exact H0].
Qed.

(* ================================================================== 2. the table invariant *)
Definition TI (s : vsock) : Prop := 1 <= mss (v_ss s) /\ TIt (v_segs s).

Lemma TI_meaning : forall s : vsock,
  TI s <->
  1 <= mss (v_ss s) /\
  ss_len_bytes (v_segs s) = sum_sizes (ss_segs (v_segs s)) /\
  exists base, tiled base (ss_segs (v_segs s)) /\
               Forall (fun g => 0 < sg_size g) (ss_segs (v_segs s)) /\
               ss_offset (v_segs s) = base + sum_sizes (ss_segs (v_segs s)).
Proof. intros s. unfold TI, TIt, PT. tauto. Qed.

Lemma TI_keep : forall s s', keep s s' -> TI s -> TI s'.
Proof. intros s s' (_ & E1 & E2) H. unfold TI. rewrite E1, E2. exact H. Qed.

Lemma TI_kfl : forall s s', kfl s s' -> TI s -> TI s'.
Proof.
  intros s s' (_ & E1 & T) [M H]. split; [rewrite E1; exact M|].
  eapply TIt_trm; [apply tfl_trm, tfl_eq_le; exact T | exact H].
Qed.

Lemma TI_stx : forall s s', stx s s' -> TI s -> TI s'.
Proof.
  intros s s' H. induction H as [s|a b c _ IH1 _ IH2|s s' K R|s s' K M R P]; auto.
  - apply TI_kfl; exact K.
  - intros [M0 H]. split; [lia|]. eapply TIt_tpop; eauto.
Qed.

Lemma TI_pimrel : forall s s', pimrel s s' -> TI s -> TI s'.
Proof. intros s s' (_ & M & T & _) [M0 H]. split; [lia|]. eapply TIt_trm; eauto. Qed.

Lemma pre2_TIt : forall t ss t2 ss2, pre2 t ss t2 ss2 -> TIt t -> TIt t2.
Proof. intros t ss t2 ss2 (_ & [[-> _]|[P _]]) H; [exact H | eapply TIt_tpop; eauto]. Qed.

Lemma TI_split : forall s, TI s -> stA TI (split_tx_queue_into_segments cci s).
Proof.
  intros s [M H]. pose proof (split_spec cci s) as Sp.
  destruct (split_tx_queue_into_segments cci s) as [s' u|s' e|]; cbn [stA]; [| |exact I].
  - destruct Sp as (_ & [(E1 & E2 & _)|[(E1 & E2 & _)|(t2 & ss2 & P & _ & _ & _ & L)]]).
    + unfold TI. rewrite E1, E2. auto.
    + unfold TI. rewrite E1, E2. auto.
    + pose proof (segment_loop_mss _ _ _ _ _ _ _ _ _ L) as M1. destruct P as [M2 P'].
      split; [lia|]. eapply segment_loop_TIt; [exact L | lia |].
      eapply pre2_TIt; [split; [exact M2|exact P'] | exact H].
  - destruct Sp as (_ & _ & P & _). pose proof P as [M2 _]. split; [lia|]. eapply pre2_TIt; eauto.
Qed.

Lemma TI_closed :
  (forall a b, keep a b -> TI a -> TI b) /\
  (forall a b, stx a b -> TI a -> TI b) /\
  (forall s, TI s -> stA TI (process_all_incoming_messages cci s)) /\
  (forall s, TI s -> Bx s -> stA TI (split_tx_queue_into_segments cci s)).
Proof.
  split; [apply TI_keep|]. split; [apply TI_stx|]. split.
  - intros s X. eapply (stR_inv pimrel); [apply TI_pimrel | apply process_all_incoming_messages_pimrel | exact X].
  - intros s X _. apply TI_split. exact X.
Qed.

Theorem TI_poll : forall s s' r, TI s -> poll cci s = (s', r) -> TI s'.
Proof.
  intros s s' r H E. destruct TI_closed as (C1 & C2 & C3 & C4).
  exact (proj1 (poll_inv_gen TI C1 C2 C3 C4 s s' r H E)).
Qed.

(* the other events do not touch the table *)
Lemma vstep_nonpoll_segs : forall (s : vsock) o,
  match o with VoPoll _ => True | _ => v_segs (vstep_state cci s o) = v_segs s end.
Proof.
  intros s o. unfold vstep_state. destruct o; try exact I.
  - reflexivity.
  - reflexivity.
  - cbn [vstep]. destruct (v_inbox_closed s); reflexivity.
  - reflexivity.
  - cbn [vstep]. destruct (writer_dropped _); [|destruct (poll_write _ _) as [[tx1 r] w]]; reflexivity.
  - cbn [vstep]. destruct (writer_dropped _); [|destruct (poll_flush _) as [[tx1 r] w]]; reflexivity.
  - cbn [vstep]. destruct (writer_dropped _); [|destruct (poll_shutdown _) as [[tx1 r] w]]; reflexivity.
  - cbn [vstep]. destruct (reader_dropped _); [|destruct (rx_read _ _) as [[rx1 r] w]]; reflexivity.
  - cbn [vstep]. destruct (reader_dropped _); [|destruct (rx_drop_reader _) as [rx1 w]]; reflexivity.
  - cbn [vstep]. destruct (drop_writer _) as [tx1 w]; reflexivity.
Qed.

Theorem TI_vstep : forall (s : vsock) o, TI s -> TI (vstep_state cci s o).
Proof.
  intros s o H. pose proof (vstep_nonpoll_segs s o) as Sg. pose proof (vstep_nonpoll_keeps cci s o) as K.
  destruct o; try (destruct K as (_ & _ & K3); unfold TI; rewrite K3, Sg; exact H).
  unfold vstep_state. cbn [vstep].
  destruct (poll cci (VSockRec.set_sends s script)) as [s' r] eqn:E. cbn [fst].
  eapply TI_poll; [|exact E]. exact H.
Qed.

Theorem TI_vsock_new : forall mk c (s : vsock), vsock_new cci mk c = Some s -> TI s.
Proof.
  intros mk c s H. unfold vsock_new in H.
  destruct (match (if vc_incoming c then None else _) with Some r => _ | None => _ end); [|discriminate].
  inversion H; subst. unfold TI. cbn [v_ss v_segs]. split; [apply mss_ss_new_pos|].
  unfold TIt, segments_new; cbn [ss_segs ss_len_bytes ss_offset sum_sizes]. split; [reflexivity|].
  exists 0. apply PT_nil. reflexivity.
Qed.

(* the monitored guard of c18_nagle_ok is implied *)
Lemma TI_c18_pre : forall s : vsock, TI s -> c18_pre (fp_of_vsock cci s) = true.
Proof.
  intros s [_ H]. apply TIt_pre in H. unfold c18_pre. cbn [fp_of_vsock f_segs f_seg_offset].
  apply forallb_forall. intros g In. apply in_map_iff in In. destruct In as (g0 & <- & In).
  rewrite Forall_forall in H. specialize (H g0 In). cbn [fseg_of fg_abs]. lia.
Qed.


(* ================================================================== 3. the invariants of one poll *)
Section Core.
Variables (off0 m0 : Z).

Definition CoreT (s : vsock) : Prop :=
  1 <= mss (v_ss s) /\ Tab off0 (v_segs s) /\ (off0 < ss_offset (v_segs s) -> v_inbox s = []).

Definition CoreW (s : vsock) : Prop :=
  m0 <= mss (v_ss s) /\ o_nagle (v_opts s) = true /\
  c18_walk off0 m0 (v_last_remote_window s) false (map fseg_of (ss_segs (v_segs s))) = true.

Definition Core1 (s : vsock) : Prop := CoreT s /\ CoreW s.

(* ---- CoreT ---- *)
Lemma CoreT_keep : forall a b, keep a b -> CoreT a -> CoreT b.
Proof. intros a b ((_ & I & _) & E1 & E2) H. unfold CoreT. rewrite E1, E2, I. exact H. Qed.

Lemma CoreT_kfl : forall a b, kfl a b -> CoreT a -> CoreT b.
Proof.
  intros a b ((_ & I & _) & E1 & T) (M & Tb & Ib). pose proof T as (_ & O & _).
  split; [rewrite E1; exact M|]. split; [eapply Tab_tfl; [apply tfl_eq_le; exact T | exact Tb]|].
  rewrite O, I. exact Ib.
Qed.

Lemma CoreT_stx : forall a b, stx a b -> CoreT a -> CoreT b.
Proof.
  intros a b H. induction H as [s|a b c _ IH1 _ IH2|s s' K R|s s' K M R P]; auto.
  - apply CoreT_kfl; exact K.
  - intros (M0 & Tb & Ib). destruct K as (_ & I & _).
    destruct (Tab_tpop off0 _ _ P Tb) as [Tb' Lt].
    split; [lia|]. split; [exact Tb'|]. intro L. rewrite I. apply Ib. lia.
Qed.

Lemma CoreT_offset : forall s, CoreT s -> v_inbox s <> [] -> ss_offset (v_segs s) = off0.
Proof.
  intros s (_ & Tb & Ib) N. pose proof (Tab_ge _ _ Tb).
  destruct (Z.ltb_spec off0 (ss_offset (v_segs s))) as [L|L]; [|lia]. specialize (Ib L). congruence.
Qed.

(* incoming messages: only while nothing new has been segmented *)
Lemma CoreT_pimrel : forall a b, pimrel a b -> ss_offset (v_segs a) = off0 -> CoreT a -> CoreT b.
Proof.
  intros a b (_ & Mb & T & _) O (M & Tb & _). pose proof T as (n & _ & O' & _).
  split; [lia|]. split; [eapply Tab_trm; eauto|]. intro L. lia.
Qed.

Lemma CoreT_pim : forall s, CoreT s -> stA CoreT (process_all_incoming_messages cci s).
Proof.
  intros s H. destruct (v_inbox s) as [|m rest] eqn:Ei.
  - eapply (stR_inv kfl); [apply CoreT_kfl | apply process_all_incoming_messages_idle; exact Ei | exact H].
  - assert (O : ss_offset (v_segs s) = off0) by (apply CoreT_offset; [exact H | congruence]).
    pose proof (process_all_incoming_messages_pimrel cci s) as R.
    destruct (process_all_incoming_messages cci s); cbn [stR stA] in *; try exact I;
      eapply CoreT_pimrel; eauto.
Qed.

Lemma pre2_Tab : forall t ss t2 ss2, pre2 t ss t2 ss2 -> Tab off0 t ->
  Tab off0 t2 /\ ss_offset t2 <= ss_offset t.
Proof.
  intros t ss t2 ss2 (_ & [[-> _]|[P _]]) H; [split; [exact H|lia]|].
  destruct (Tab_tpop off0 _ _ P H) as [H' Lt]. split; [exact H'|lia].
Qed.

Lemma CoreT_split : forall s, CoreT s -> Bx s -> stA CoreT (split_tx_queue_into_segments cci s).
Proof.
  intros s (M & Tb & Ib) B. pose proof (split_spec cci s) as Sp.
  destruct (split_tx_queue_into_segments cci s) as [s' u|s' e|]; cbn [stA]; [| |exact I].
  - destruct Sp as ((_ & I & _) & [(E1 & E2 & _)|[(E1 & E2 & _)|(t2 & ss2 & P & _ & Fin & _ & L)]]).
    + unfold CoreT. rewrite E1, E2, I. auto.
    + unfold CoreT. rewrite E1, E2, I. auto.
    + pose proof (segment_loop_mss _ _ _ _ _ _ _ _ _ L) as M1. pose proof P as [M2 _].
      destruct (pre2_Tab _ _ _ _ P Tb) as [Tb2 _].
      split; [lia|]. split; [eapply segment_loop_Tab; [exact L | lia | exact Tb2]|].
      intros _. rewrite I. destruct B as [B|B]; [exact B|congruence].
  - destruct Sp as ((_ & I & _) & _ & P & _). pose proof P as [M2 _].
    destruct (pre2_Tab _ _ _ _ P Tb) as [Tb2 Le].
    split; [lia|]. split; [exact Tb2|]. intro Lt. rewrite I. apply Ib. lia.
Qed.

(* ---- CoreW ---- *)
Lemma CoreW_keep : forall a b, keep a b -> CoreW a -> CoreW b.
Proof. intros a b ((W & _ & O & _) & E1 & E2) H. unfold CoreW. rewrite E1, E2, W, O. exact H. Qed.

Lemma CoreW_kfl : forall a b, kfl a b -> CoreW a -> CoreW b.
Proof.
  intros a b ((W & _ & O & _) & E1 & T) (M & N & Wk). destruct T as (F & _ & _).
  unfold CoreW. rewrite E1, O, W. split; [exact M|]. split; [exact N|].
  rewrite (F2_walk off0 m0 _ _ _ false (F2_impl _ _ seg_eq_le _ _ F)). exact Wk.
Qed.

Lemma CoreW_stx : forall a b, stx a b -> CoreW a -> CoreW b.
Proof.
  intros a b H. induction H as [s|a b c _ IH1 _ IH2|s s' K R|s s' K M R P]; auto.
  - apply CoreW_kfl; exact K.
  - intros (M0 & N & Wk). destruct K as (W & _ & O & _). destruct P as (g & S & _).
    unfold CoreW. rewrite O, W. split; [lia|]. split; [exact N|].
    rewrite S in Wk. eapply walk_prefix; eauto.
Qed.

Lemma Core1_pim : forall s, Core1 s -> stA Core1 (process_all_incoming_messages cci s).
Proof.
  intros s [HT HW]. destruct (v_inbox s) as [|m rest] eqn:Ei.
  - eapply (stR_inv kfl); [| apply process_all_incoming_messages_idle; exact Ei | split; [exact HT|exact HW]].
    intros a b K [X Y]. split; [eapply CoreT_kfl | eapply CoreW_kfl]; eauto.
  - assert (O : ss_offset (v_segs s) = off0) by (apply CoreT_offset; [exact HT | congruence]).
    pose proof (process_all_incoming_messages_pimrel cci s) as R.
    assert (G : forall b, pimrel s b -> Core1 b).
    { intros b Rb. pose proof (CoreT_pimrel _ _ Rb O HT) as HT'. split; [exact HT'|].
      destruct Rb as (Ob & Mb & (n & _ & O' & _) & _). destruct HW as (M0 & N & _).
      unfold CoreW. rewrite Ob. split; [lia|]. split; [exact N|].
      apply Tab_walk_old; [lia | exact (proj1 (proj2 HT'))]. }
    destruct (process_all_incoming_messages cci s); cbn [stR stA] in *; auto.
Qed.

Lemma Core1_split : forall s, Core1 s -> Bx s -> stA Core1 (split_tx_queue_into_segments cci s).
Proof.
  intros s [HT HW] B. pose proof (CoreT_split s HT B) as HT'.
  pose proof (split_spec cci s) as Sp. destruct HW as (M0 & N & Wk). destruct HT as (M & Tb & _).
  destruct (split_tx_queue_into_segments cci s) as [s' u|s' e|]; cbn [stA] in *; [| |exact I].
  - split; [exact HT'|].
    destruct Sp as ((W & _ & O & _) & [(E1 & E2 & _)|[(E1 & E2 & _)|(t2 & ss2 & P & _ & _ & _ & L)]]).
    + unfold CoreW. rewrite E1, E2, W, O. auto.
    + unfold CoreW. rewrite E1, E2, W, O. auto.
    + pose proof (segment_loop_mss _ _ _ _ _ _ _ _ _ L) as M1. pose proof P as [M2 P'].
      destruct (pre2_Tab _ _ _ _ P Tb) as [Tb2 _]. pose proof (Tab_ge _ _ Tb2) as Ge.
      unfold CoreW. rewrite O, W. split; [lia|]. split; [exact N|].
      rewrite N in L. eapply segment_loop_walk; [exact L | lia | exact Ge |].
      destruct P' as [[-> _]|[(g & S & _) _]]; [exact Wk|]. rewrite S in Wk. eapply walk_prefix; eauto.
  - split; [exact HT'|]. destruct Sp as ((W & _ & O & _) & _ & P & _). pose proof P as [M2 P'].
    unfold CoreW. rewrite O, W. split; [lia|]. split; [exact N|].
    destruct P' as [[-> _]|[(g & S & _) _]]; [exact Wk|]. rewrite S in Wk. eapply walk_prefix; eauto.
Qed.

Theorem Core1_poll : forall s s' r, Core1 (poll_init s) -> poll cci s = (s', r) -> Core1 s'.
Proof.
  intros s s' r H E.
  apply (poll_inv_gen Core1) with (s := s) (r := r); try assumption.
  - intros a b K [X Y]. split; [eapply CoreT_keep | eapply CoreW_keep]; eauto.
  - intros a b K [X Y]. split; [eapply CoreT_stx | eapply CoreW_stx]; eauto.
  - apply Core1_pim.
  - apply Core1_split.
Qed.

End Core.

(* the poll-local invariant holds at the start of a poll *)
Lemma lastok_fp : forall s : vsock, c18_no_probe_last (fp_of_vsock cci s) = true -> lastok (ss_segs (v_segs s)).
Proof.
  intros s H. unfold c18_no_probe_last in H. cbn [fp_of_vsock f_segs] in H. unfold lastok.
  rewrite <- map_rev in H. destruct (rev (ss_segs (v_segs s))) as [|g r]; [exact I|].
  cbn [map fseg_of fg_probe fg_delivered] in H. unfold upr. destruct (sg_probe g && negb (sg_delivered g)); [discriminate|reflexivity].
Qed.

Lemma CoreT_init : forall (s : vsock) sc, TI s -> lastok (ss_segs (v_segs s)) ->
  CoreT (ss_offset (v_segs s)) (poll_init (VSockRec.set_sends s sc)).
Proof.
  intros s sc [M H] L. unfold CoreT, poll_init. cbn [v_ss v_segs v_inbox set_arm_in set_wakes set_out VSockRec.set_sends].
  split; [exact M|]. split; [apply Tab_init; assumption|]. intro C. lia.
Qed.

(* ---- c18_nagle_ok ---- *)
Theorem c18_nagle_ok_step : forall cfg (s : vsock) o,
  TI s -> (vc_nagle cfg = true -> o_nagle (v_opts s) = true) ->
  c18_nagle_ok cfg (fstep_of cci s o) = true.
Proof.
  intros cfg s o HT HN. unfold c18_nagle_ok, c18_is_poll. rewrite fstep_of_event.
  destruct o; cbn [fevent_of]; try reflexivity.
  destruct (poll cci (VSockRec.set_sends s script)) as [s' r] eqn:E.
  rewrite (fstep_of_poll cci s script s' r E). cbn [fs_pre fs_post].
  unfold c18_nagle_fp.
  destruct (vc_nagle cfg) eqn:Ng; [|reflexivity]. specialize (HN eq_refl).
  destruct (c18_pre _); [|reflexivity].
  destruct (c18_no_probe_last (fp_of_vsock cci s)) eqn:NP; [|reflexivity]. cbn [andb].
  apply lastok_fp in NP.
  assert (C0 : Core1 (ss_offset (v_segs s)) (mss (v_ss s)) (poll_init (VSockRec.set_sends s script))).
  { split; [apply CoreT_init; assumption|].
    unfold CoreW, poll_init. cbn [v_ss v_segs v_opts v_last_remote_window set_arm_in set_wakes set_out VSockRec.set_sends].
    split; [lia|]. split; [exact HN|].
    apply Tab_walk_old; [reflexivity|]. apply Tab_init; [exact (proj2 HT) | exact NP]. }
  pose proof (Core1_poll _ _ _ _ _ C0 E) as [_ (_ & _ & Wk)].
  cbn [fp_of_vsock f_seg_offset f_mss f_last_remote_window f_segs]. exact Wk.
Qed.

Definition NG (c : vconfig) (s : vsock) : Prop := o_nagle (v_opts s) = vc_nagle c.

Lemma NG_vstep : forall c (s : vsock) o, NG c s -> NG c (vstep_state cci s o).
Proof. intros c s o H. unfold NG in *. destruct (vstep_keeps cci s o) as (K & _). rewrite K. exact H. Qed.

Lemma NG_vsock_new : forall mk c (s : vsock), vsock_new cci mk c = Some s -> NG c s.
Proof.
  intros mk c s H. unfold vsock_new in H.
  destruct (match (if vc_incoming c then None else _) with Some r => _ | None => _ end); [|discriminate].
  inversion H; subst. reflexivity.
Qed.

(* TI, and the Nagle option as configured, hold along every trace *)
Lemma TI_NG_trace : forall c (f : fstep -> bool),
  (forall (s : vsock) o, TI s -> NG c s -> f (fstep_of cci s o) = true) ->
  forall mk (s0 : vsock) ops, vsock_new cci mk c = Some s0 -> forallb f (ftrace cci s0 ops) = true.
Proof.
  intros c f Hf mk s0 ops H. apply (ftrace_forallb cci (fun s => TI s /\ NG c s)).
  - intros s o [H1 H2]. apply Hf; assumption.
  - intros s o [H1 H2]. split; [apply TI_vstep; exact H1 | apply NG_vstep; exact H2].
  - split; [eapply TI_vsock_new; eauto | eapply NG_vsock_new; eauto].
Qed.

Theorem c18_nagle_ok_trace : forall mk c (s0 : vsock) ops,
  vsock_new cci mk c = Some s0 -> forallb (c18_nagle_ok c) (ftrace cci s0 ops) = true.
Proof.
  intros mk c. apply TI_NG_trace. intros s o H1 H2.
  apply c18_nagle_ok_step; [exact H1|]. intro N. rewrite H2. exact N.
Qed.

(* the guard c18_pre holds before and after every event *)
Theorem c18_pre_ok_step : forall cfg (s : vsock) o, TI s -> c18_pre_ok cfg (fstep_of cci s o) = true.
Proof.
  intros cfg s o H. unfold c18_pre_ok. rewrite fstep_of_pre, fstep_of_post.
  rewrite (TI_c18_pre s H), (TI_c18_pre _ (TI_vstep s o H)). reflexivity.
Qed.

Theorem c18_pre_ok_trace : forall cfg mk c (s0 : vsock) ops,
  vsock_new cci mk c = Some s0 -> forallb (c18_pre_ok cfg) (ftrace cci s0 ops) = true.
Proof. intros cfg mk c. apply TI_NG_trace. intros s o T _. apply c18_pre_ok_step, T. Qed.

Theorem c18_pre_monitor_trace : forall cfg mk c (s0 : vsock) ops,
  vsock_new cci mk c = Some s0 -> forallb (c18_pre_monitor cfg) (ftrace cci s0 ops) = true.
Proof.
  intros cfg mk c. apply TI_NG_trace. intros s o T _.
  unfold c18_pre_monitor. rewrite fstep_of_post. apply TI_c18_pre, TI_vstep, T.
Qed.


(* ================================================================== 4. completed polls *)
(* from the state the segmentation left to the state the poll leaves, when no restart is
   requested: flags of segments only; the ring and "peer FIN seen" are unchanged *)
Definition aft (s s' : vsock) : Prop :=
  kfl s s' /\ ring (v_tx s') = ring (v_tx s) /\
  is_remote_fin_or_later (v_state s') = is_remote_fin_or_later (v_state s).

Lemma aft_refl s : aft s s.
Proof. split; [apply kfl_refl|]. split; reflexivity. Qed.
Lemma aft_trans a b c : aft a b -> aft b c -> aft a c.
Proof. intros (A1 & A2 & A3) (B1 & B2 & B3). split; [eapply kfl_trans; eauto|]. split; congruence. Qed.

Lemma aft_ctl : forall X (s s' : vsock) (m : step X) a,
  stR keepr s m -> stR (txf (CC := CC)) s m -> m = SOk s' a -> aft s s'.
Proof.
  intros X s s' m a K T ->. cbn [stR] in *. destruct T as (_ & T2 & _ & _ & _ & _ & T7 & _).
  split; [apply keep_kfl; exact (proj1 K)|]. rewrite T2, T7. split; reflexivity.
Qed.

Lemma aft_fw1 : forall s : vsock, aft s (transition_to_fin_wait_1 s).
Proof.
  intros s. split; [apply keep_kfl; exact (proj1 (transition_to_fin_wait_1_keepr s))|].
  unfold transition_to_fin_wait_1. destruct (v_state s) eqn:E; cbn [v_tx v_state set_seq_nr set_state]; rewrite ?E; split; reflexivity.
Qed.

Lemma aft_tail : forall s : vsock, aft s (poll_tail s).
Proof.
  intros s. split; [apply keep_kfl; exact (proj1 (poll_tail_keepr s))|].
  destruct (poll_tail_fields s) as (_ & _ & _ & St & _ & _ & _ & _ & _ & _ & _ & _ & _ & _ & _ & Tx & _).
  rewrite St, Tx. split; reflexivity.
Qed.

Theorem poll_body_chain : forall (P : vsock -> Prop),
  (forall a b, keep a b -> P a -> P b) ->
  (forall a b, stx a b -> P a -> P b) ->
  (forall s, P s -> stA P (process_all_incoming_messages cci s)) ->
  forall s0 s', P s0 -> poll_body cci s0 = BrReturn s' PollPending -> v_transport_pending s' = false ->
  exists s4 s5 u, P s4 /\ Bx s4 /\ split_tx_queue_into_segments cci s4 = SOk s5 u /\ aft s5 s'.
Proof.
  intros P Hk Hs Hp s0 s' P0 H T.
  assert (Hkr : forall a b, keepr a b -> P a -> P b) by (intros a b K; apply Hs, keepr_stx; exact K).
  unfold poll_body in H. fold (poll_start s0) in H.
  assert (Ps : P (poll_start s0)) by (eapply Hk; [apply poll_start_keep | exact P0]).
  revert Ps H. generalize (poll_start s0). clear s0 P0. intros s0 P0 H.
  apply pend_pending_inv in H; [|exact T]. destruct H as (s1 & a1 & E1 & R1 & T1 & H).
  assert (P1 : P s1).
  { pose proof (maybe_send_syn_ack_keepr s0) as K. rewrite E1 in K. cbn [stR] in K. eapply Hkr; eauto. }
  apply pend_pending_inv in H; [|exact T]. destruct H as (s2 & a2 & E2 & R2 & T2 & H).
  assert (P2 : P s2).
  { destruct (immediate_ack_to_transmit s1).
    - pose proof (send_ack_keepr s1) as K. rewrite E2 in K. cbn [stR] in K. eapply Hkr; eauto.
    - inversion E2; subst. exact P1. }
  apply pend_pending_inv in H; [|exact T]. destruct H as (s3 & a3 & E3 & R3 & T3 & H).
  assert (P3 : P s3) by (pose proof (Hp s2 P2) as K; rewrite E3 in K; exact K).
  pose proof (pim_Bx _ _ _ E3 T3) as B3.
  destruct (rx_flush (v_rx s3)) as [[rx1 fr] w]. destruct fr; [|discriminate].
  assert (P4 : P (add_wakes (set_rx s3 rx1) (rx_wakes w))).
  { eapply Hkr; [apply (rx_flush_keepr s3 rx1 (rx_wakes w)) | exact P3]. }
  assert (B4 : Bx (add_wakes (set_rx s3 rx1) (rx_wakes w))) by exact B3.
  revert P4 B4 H. generalize (add_wakes (set_rx s3 rx1) (rx_wakes w)). intros s4 P4 B4 H.
  destruct (timer_expired _ _); [exfalso; eapply die_not_pending; eauto|].
  apply bail_pending_inv in H. destruct H as (s5 & a5 & E5 & R5 & H).
  exists s4, s5, a5. split; [exact P4|]. split; [exact B4|]. split; [exact E5|].
  apply pend_pending_inv in H; [|exact T]. destruct H as (s6 & a6 & E6 & R6 & T6 & H).
  assert (F6 : aft s5 s6).
  { pose proof (send_tx_queue_stx cci s5) as K. pose proof (send_tx_queue_txf cci s5) as Tf.
    rewrite E6 in K, Tf. cbn [stR] in K, Tf. apply stx_restart in K. destruct K as [_ K].
    destruct Tf as (_ & T2' & _ & _ & _ & _ & T7 & _).
    split; [apply K; exact R6|]. rewrite T2', T7. split; reflexivity. }
  assert (F7 : aft s5 (if should_close_on_own_initiative s6 then transition_to_fin_wait_1 s6 else s6)).
  { destruct (should_close_on_own_initiative s6); [|exact F6]. eapply aft_trans; [exact F6 | apply aft_fw1]. }
  revert F7 H. generalize (if should_close_on_own_initiative s6 then transition_to_fin_wait_1 s6 else s6).
  intros s7 F7 H.
  apply pend_pending_inv in H; [|exact T]. destruct H as (s8 & a8 & E8 & R8 & T8 & H).
  pose proof (aft_ctl _ s7 s8 _ a8 (maybe_send_fin_keepr s7) (maybe_send_fin_txf s7) E8) as F8.
  apply pend_pending_inv in H; [|exact T]. destruct H as (s9 & a9 & E9 & R9 & T9 & H).
  pose proof (aft_ctl _ s8 s9 _ a9 (maybe_send_ack_keepr s8) (maybe_send_ack_txf s8) E9) as F9.
  assert (Hs' : s' = poll_tail s9).
  { destruct (state_is_closed _ _); [discriminate|]. unfold poll_tail.
    destruct (next_timer_to_poll _) as [sx t]. destruct t; inversion H; reflexivity. }
  rewrite Hs'.
  eapply aft_trans; [exact F7|]. eapply aft_trans; [exact F8|]. eapply aft_trans; [exact F9|]. apply aft_tail.
Qed.

(* a completed poll: the last iteration segmented from a state satisfying the invariant *)
Theorem poll_completed : forall (P : vsock -> Prop),
  (forall a b, keep a b -> P a -> P b) ->
  (forall a b, stx a b -> P a -> P b) ->
  (forall s, P s -> stA P (process_all_incoming_messages cci s)) ->
  (forall s, P s -> Bx s -> stA P (split_tx_queue_into_segments cci s)) ->
  forall s s', P (poll_init s) -> poll cci s = (s', PollPending) -> v_transport_pending s' = false ->
  P s' /\ exists s4 s5 u, P s4 /\ Bx s4 /\ split_tx_queue_into_segments cci s4 = SOk s5 u /\ aft s5 s'.
Proof.
  intros P Hk Hs Hp Hsp s s' P0 E T.
  destruct (poll_inv_gen P Hk Hs Hp Hsp s s' _ P0 E) as [Ps' L]. split; [exact Ps'|].
  destruct (L eq_refl) as (s0 & Q0 & Eb).
  eapply poll_body_chain; eauto.
Qed.

(* ---- the observable guards ---- *)
Lemma completed_eq : forall (s : vsock) sc s' r, poll cci (VSockRec.set_sends s sc) = (s', r) ->
  c18_completed (fstep_of cci s (VoPoll sc)) =
  match r with PollPending => negb (v_transport_pending s') | _ => false end.
Proof. intros s sc s' r E. rewrite (fstep_of_poll cci s sc s' r E). destruct r; reflexivity. Qed.

Lemma completed_poll : forall (s : vsock) o,
  c18_completed (fstep_of cci s o) = true ->
  exists sc s', o = VoPoll sc /\ poll cci (VSockRec.set_sends s sc) = (s', PollPending) /\
                v_transport_pending s' = false /\
                fs_pre (fstep_of cci s o) = fp_of_vsock cci s /\ fs_post (fstep_of cci s o) = fp_of_vsock cci s'.
Proof.
  intros s o.
  destruct o; try (unfold c18_completed; rewrite fstep_of_event; cbn [fevent_of]; discriminate).
  destruct (poll cci (VSockRec.set_sends s script)) as [s' r] eqn:E.
  rewrite (completed_eq s script s' r E). intro H.
  exists script, s'. split; [reflexivity|].
  destruct r; try discriminate.
  split; [exact E|]. split; [destruct (v_transport_pending s'); [discriminate|reflexivity]|].
  rewrite (fstep_of_poll cci s script s' _ E). split; reflexivity.
Qed.

Definition TC (off0 : Z) (s : vsock) : Prop := TI s /\ CoreT off0 s.

Lemma TC_closed : forall off0,
  (forall a b, keep a b -> TC off0 a -> TC off0 b) /\
  (forall a b, stx a b -> TC off0 a -> TC off0 b) /\
  (forall s, TC off0 s -> stA (TC off0) (process_all_incoming_messages cci s)) /\
  (forall s, TC off0 s -> Bx s -> stA (TC off0) (split_tx_queue_into_segments cci s)).
Proof.
  intros off0. split; [|split; [|split]].
  - intros a b K [X Y]. split; [eapply TI_keep | eapply CoreT_keep]; eauto.
  - intros a b K [X Y]. split; [eapply TI_stx | eapply CoreT_stx]; eauto.
  - intros s [X Y]. pose proof (CoreT_pim off0 s Y) as C.
    pose proof (process_all_incoming_messages_pimrel cci s) as R.
    destruct (process_all_incoming_messages cci s); cbn [stA stR] in *; try exact I;
      (split; [eapply TI_pimrel; eauto | exact C]).
  - intros s [X Y] B. pose proof (CoreT_split off0 s Y B) as C. pose proof (TI_split s X) as D.
    destruct (split_tx_queue_into_segments cci s); cbn [stA] in *; try exact I; split; assumption.
Qed.

(* ---- c18_off_all_segmented ---- *)
Theorem c18_off_all_segmented_ok_step : forall cfg (s : vsock) o,
  TI s -> (vc_nagle cfg = false -> o_nagle (v_opts s) = false) ->
  c18_off_all_segmented_ok cfg (fstep_of cci s o) = true.
Proof.
  intros cfg s o HT HN. unfold c18_off_all_segmented_ok.
  destruct (c18_completed _) eqn:Cm; [|reflexivity].
  destruct (completed_poll s o Cm) as (sc & s' & -> & E & T & -> & ->). clear Cm.
  destruct (vc_nagle cfg) eqn:Ng; [reflexivity|]. specialize (HN eq_refl). cbn [negb andb].
  destruct (c18_no_probe_last (fp_of_vsock cci s)) eqn:NP; [|reflexivity].
  destruct (c18_no_probe_last (fp_of_vsock cci s')) eqn:NP'; [|reflexivity].
  cbn [fp_of_vsock f_state f_tx_len f_unsegmented f_last_remote_window f_seg_offset andb].
  destruct (is_remote_fin_or_later (v_state s')) eqn:Fin; [reflexivity|].
  destruct (0 <? Z.of_nat (length (ring (v_tx s')))) eqn:Tx; [|reflexivity]. cbn [negb andb].
  apply lastok_fp in NP. apply lastok_fp in NP'.
  set (off0 := ss_offset (v_segs s)).
  destruct (TC_closed off0) as (C1 & C2 & C3 & C4).
  assert (P0 : TC off0 (poll_init (VSockRec.set_sends s sc))).
  { split; [exact HT | apply CoreT_init; assumption]. }
  destruct (poll_completed (TC off0) C1 C2 C3 C4 _ _ P0 E T) as (_ & s4 & s5 & u & [T4 C4'] & _ & Es & Af).
  destruct Af as (((W & _ & O & U) & _ & (F & Of & _)) & Rg & Fn).
  pose proof (split_spec cci s4) as Sp. rewrite Es in Sp.
  destruct Sp as ((W5 & _ & O5 & _ & Rg5 & St5 & _) & Sp).
  destruct C4' as (M4 & Tb4 & _). destruct T4 as [_ Ti4].
  assert (G : v_unsegmented s5 = 0 \/ v_last_remote_window s5 <= ss_offset (v_segs s5) - off0).
  { destruct Sp as [(_ & _ & _ & [Rn|Rf])|[(E1 & _ & NL)|(t2 & ss2 & P & _ & _ & Lb & L)]].
    - exfalso. rewrite Rg, Rg5, Rn in Tx. cbn [length] in Tx. lia.
    - exfalso. rewrite Fn, St5, Rf in Fin. discriminate.
    - exfalso. apply NL. rewrite <- E1. apply (lastok_F2_eq _ _ F). exact NP'.
    - assert (Eo : v_opts s4 = v_opts s).
      { destruct (poll_pframe0 cci _ _ _ E) as (P1 & _). rewrite <- O5, <- O. exact P1. }
      rewrite Eo, HN in L. pose proof P as [M2 _].
      destruct (pre2_Tab off0 _ _ _ _ P Tb4) as [Tb2 _]. pose proof (Tab_ge _ _ Tb2) as Ge.
      pose proof (TIt_len_nonneg _ (pre2_TIt _ _ _ _ P Ti4)) as Ln.
      apply segment_loop_off in L; [|lia|lia].
      destruct L as (L1 & L2 & [L3|[L3|L3]]).
      + left. exact L3.
      + right. rewrite W5. lia.
      + exfalso. apply L3. apply (lastok_F2_eq _ _ F). exact NP'. }
  rewrite U, W, Of. fold off0. destruct G as [G|G]; [rewrite G; reflexivity|].
  apply orb_true_iff. right. lia.
Qed.

Theorem c18_off_all_segmented_ok_trace : forall mk c (s0 : vsock) ops,
  vsock_new cci mk c = Some s0 -> forallb (c18_off_all_segmented_ok c) (ftrace cci s0 ops) = true.
Proof.
  intros mk c. apply TI_NG_trace. intros s o H1 H2.
  apply c18_off_all_segmented_ok_step; [exact H1|]. intro N. rewrite H2. exact N.
Qed.

(* ---- c18_drain_sends ---- *)
Theorem c18_drain_sends_ok_step : forall cfg (s : vsock) o,
  TI s -> c18_drain_sends_ok cfg (fstep_of cci s o) = true.
Proof.
  intros cfg s o HT. unfold c18_drain_sends_ok.
  destruct (c18_completed _) eqn:Cm; [|reflexivity].
  destruct (completed_poll s o Cm) as (sc & s' & -> & E & T & _ & ->). clear Cm.
  cbn [fp_of_vsock f_state f_tx_len f_last_remote_window f_seg_len_bytes f_segs andb].
  destruct (is_remote_fin_or_later (v_state s')) eqn:Fin; [reflexivity|].
  destruct (0 <? v_last_remote_window s') eqn:Wp; [|reflexivity].
  destruct (ss_len_bytes (v_segs s') <? Z.of_nat (length (ring (v_tx s')))) eqn:Lt; [|reflexivity].
  cbn [negb andb]. rewrite nonempty_map.
  destruct TI_closed as (C1 & C2 & C3 & C4).
  destruct (poll_completed TI C1 C2 C3 C4 (VSockRec.set_sends s sc) s' HT E T) as ([_ Ti'] & s4 & s5 & u & [M4 Ti4] & _ & Es & Af).
  destruct Af as (((W & _ & O & U) & _ & (F & Of & Lbf)) & Rg & Fn).
  pose proof (split_spec cci s4) as Sp. rewrite Es in Sp.
  destruct Sp as ((W5 & _ & O5 & _ & Rg5 & St5 & _) & Sp).
  assert (G : ss_segs (v_segs s5) <> []).
  { destruct Sp as [(_ & _ & _ & [Rn|Rf])|[(E1 & _ & NL)|(t2 & ss2 & P & Rne & _ & Lb & L)]].
    - exfalso. pose proof (TIt_len_nonneg _ Ti'). rewrite Rg, Rg5, Rn in Lt. cbn [length] in Lt. lia.
    - exfalso. rewrite Fn, St5, Rf in Fin. discriminate.
    - intro En. apply NL. rewrite <- E1, En. exact I.
    - intro En. apply segment_loop_first in L; [|exact Rne|exact En].
      destruct L as [L Et]. rewrite Lbf, Et, Rg, Rg5 in Lt. rewrite W, W5 in Wp. lia. }
  apply F2_length in F. destruct (ss_segs (v_segs s5)); [congruence|].
  destruct (ss_segs (v_segs s')); [discriminate|reflexivity].
Qed.

Theorem c18_drain_sends_ok_trace : forall cfg mk c (s0 : vsock) ops,
  vsock_new cci mk c = Some s0 -> forallb (c18_drain_sends_ok cfg) (ftrace cci s0 ops) = true.
Proof. intros cfg mk c. apply TI_NG_trace. intros s o T _. apply c18_drain_sends_ok_step, T. Qed.


(* data buffered => the table is not empty *)
Theorem c18_buffered_segmented_ok_step : forall cfg (s : vsock) o,
  TI s -> c18_buffered_segmented_ok cfg (fstep_of cci s o) = true.
Proof.
  intros cfg s o HT. pose proof (c18_drain_sends_ok_step cfg s o HT) as D.
  unfold c18_buffered_segmented_ok, c18_drain_sends_ok in *.
  destruct (c18_completed _); [|reflexivity].
  destruct (negb _); [|reflexivity].
  destruct (0 <? f_last_remote_window _); [|reflexivity]. cbn [andb] in *.
  destruct (0 <? f_tx_len _) eqn:Tx; [|reflexivity].
  destruct (f_seg_len_bytes _ <? f_tx_len _) eqn:Lt; [exact D|].
  rewrite fstep_of_post in *. pose proof (TI_vstep s o HT) as [_ (B & _)].
  cbn [fp_of_vsock f_segs f_tx_len f_seg_len_bytes] in *. rewrite nonempty_map.
  destruct (ss_segs (v_segs (vstep_state cci s o))); [|reflexivity].
  cbn [sum_sizes] in B. lia.
Qed.

Theorem c18_buffered_segmented_ok_trace : forall cfg mk c (s0 : vsock) ops,
  vsock_new cci mk c = Some s0 -> forallb (c18_buffered_segmented_ok cfg) (ftrace cci s0 ops) = true.
Proof. intros cfg mk c. apply TI_NG_trace. intros s o T _. apply c18_buffered_segmented_ok_step, T. Qed.

(* ================================================================== 5. the segmentation alone *)
(* (a) for split_tx_queue_into_segments, in the observable form of the predicate *)
Theorem c18_split_nagle_walk : forall (s s' : vsock) u,
  split_tx_queue_into_segments cci s = SOk s' u ->
  o_nagle (v_opts s) = true ->
  Forall (fun g => sg_abs g < ss_offset (v_segs s)) (ss_segs (v_segs s)) ->
  lastok (ss_segs (v_segs s)) ->
  c18_walk (ss_offset (v_segs s)) (mss (v_ss s)) (v_last_remote_window s) false
           (map fseg_of (ss_segs (v_segs s'))) = true.
Proof.
  intros s s' u H Ng F NP. pose proof (split_spec cci s) as Sp. rewrite H in Sp.
  assert (W0 : c18_walk (ss_offset (v_segs s)) (mss (v_ss s)) (v_last_remote_window s) false
                 (map fseg_of (ss_segs (v_segs s))) = true).
  { rewrite <- (app_nil_r (map fseg_of _)). rewrite walk_old by exact F. reflexivity. }
  destruct Sp as (_ & [(E & _)|[(E & _)|(t2 & ss2 & [_ P] & _ & _ & _ & L)]]); [rewrite E; exact W0 ..|].
  destruct P as [(-> & -> & _)|[(g & S & U & _) _]].
  - rewrite Ng in L. eapply segment_loop_walk; [exact L|lia|lia|exact W0].
  - (* no probe to pop *) rewrite S in NP. apply lastok_app_last in NP. congruence.
Qed.

Theorem c18_nagle_fp_split : forall (s s' : vsock) u,
  split_tx_queue_into_segments cci s = SOk s' u ->
  v_last_remote_window s' = v_last_remote_window s /\
  c18_nagle_fp (o_nagle (v_opts s)) (fp_of_vsock cci s) (fp_of_vsock cci s') = true.
Proof.
  intros s s' u H.
  assert (W : v_last_remote_window s' = v_last_remote_window s).
  { pose proof (split_spec cci s) as Sp. rewrite H in Sp. exact (proj1 (proj1 Sp)). }
  split; [exact W|].
  unfold c18_nagle_fp.
  destruct (o_nagle (v_opts s)) eqn:Ng; [|reflexivity].
  destruct (c18_pre (fp_of_vsock cci s)) eqn:P; [|reflexivity].
  destruct (c18_no_probe_last (fp_of_vsock cci s)) eqn:NP; [|reflexivity]. cbn [andb].
  cbn [fp_of_vsock f_seg_offset f_mss f_segs f_last_remote_window]. rewrite W.
  apply (c18_split_nagle_walk s s' u H Ng); [|apply lastok_fp; exact NP].
  unfold c18_pre in P. cbn [fp_of_vsock f_segs f_seg_offset] in P.
  rewrite forallb_forall in P. apply Forall_forall. intros g In.
  specialize (P (fseg_of g) (in_map fseg_of _ _ In)). cbn [fseg_of fg_abs] in P. lia.
Qed.

(* (b) when the pipe has drained, whatever is buffered is segmented at once *)
Theorem c18_drain_sends_lemma : forall (s s' : vsock) u,
  split_tx_queue_into_segments cci s = SOk s' u ->
  ss_segs (v_segs s) = [] ->
  0 <= ss_len_bytes (v_segs s) < Z.of_nat (length (ring (v_tx s))) ->
  0 < v_last_remote_window s ->
  is_remote_fin_or_later (v_state s) = false ->
  ss_segs (v_segs s') <> [].
Proof.
  intros s s' u H E L W Fin. pose proof (split_spec cci s) as Sp. rewrite H in Sp.
  destruct Sp as (_ & [(_ & _ & _ & [Rn|Rf])|[(_ & _ & NL)|(t2 & ss2 & [_ P] & Rne & _ & _ & Lp)]]).
  - rewrite Rn in L. cbn [length] in L. lia.
  - congruence.
  - exfalso. apply NL. rewrite E. exact I.
  - destruct P as [(-> & -> & _)|[(g & S & _) _]]; [|rewrite E in S; destruct (ss_segs t2); discriminate].
    intro En. destruct (segment_loop_first _ _ _ _ _ _ _ _ _ Lp Rne En) as [[C|C] _]; lia.
Qed.

End WithCC.
