From Utp Require Import Base.Prelude Tx.Ring.

Definition tx_inv (initial mx : Z) (s : tx) : Prop :=
  Z.of_nat (length (ring s)) <= cap s /\
  initial <= cap s <= Z.max initial mx /\
  0 <= g_removed s /\
  g_written s = firstn (Z.to_nat (g_removed s)) (g_written s) ++ ring s /\
  Z.of_nat (length (g_written s)) = g_removed s + Z.of_nat (length (ring s)).

Definition tx_op_ok (mx : Z) (o : tx_op) : Prop :=
  match o with ToGrow m => m = mx | ToTruncate n => 0 <= n | _ => True end.

Ltac tsimpl := cbn [ring cap t_vsock_closed writer_dropped writer_shutdown t_disp_waker writer_waker
  written_without_yield g_written g_removed upd] in *.

Lemma new_inv initial mx : 0 < initial -> tx_inv initial mx (tx_new initial).
Proof. intro H. unfold tx_inv, tx_new; tsimpl. cbn. repeat split; lia. Qed.

Lemma firstn_app_exact {A} (a b : list A) n : n = length a -> firstn n (a ++ b) = a.
Proof. intros ->. rewrite firstn_app, Nat.sub_diag, firstn_all. cbn. apply app_nil_r. Qed.

Lemma poll_write_spec initial mx s buf s' r w :
  tx_inv initial mx s -> poll_write s buf = (s', r, w) ->
  tx_inv initial mx s' /\ cap s' = cap s /\ g_removed s' = g_removed s /\
  match r with
  | WrOk n => 0 < n <= Z.of_nat (length buf) /\
              ring s' = ring s ++ firstn (Z.to_nat n) buf /\
              g_written s' = g_written s ++ firstn (Z.to_nat n) buf
  | _ => ring s' = ring s /\ g_written s' = g_written s
  end /\
  (* back-pressure: a full ring on a live connection stores nothing and parks the writer *)
  (Z.of_nat (length (ring s)) = cap s -> t_vsock_closed s = false -> writer_shutdown s = false ->
   writer_dropped s = false ->
   r = WrPending /\ (w = [TwSelf] \/ writer_waker s' = true)).
Proof.
  intros (H1 & H2 & H3 & H4 & H5). unfold poll_write.
  destruct (YIELD_EVERY <? written_without_yield s).
  { intro H; injection H as <- <- <-. tsimpl. unfold tx_inv; tsimpl.
    repeat split; try assumption; try lia; auto. }
  (* an error result leaves the state alone, and its cause contradicts a live connection *)
  destruct (t_vsock_closed s) eqn:Evc;
    [|destruct (writer_shutdown s) eqn:Ews; [|destruct (writer_dropped s) eqn:Ewd]].
  1-3: intro H; injection H as <- <- <-; unfold tx_inv.
  1-3: repeat split; try assumption; try lia; intros; discriminate.
  set (count := Z.min (Z.of_nat (length buf)) (Z.max (cap s - Z.of_nat (length (ring s))) 0)).
  destruct (Z.eqb_spec count 0) as [Hz|Hnz].
  { intro H; injection H as <- <- <-. tsimpl. unfold tx_inv; tsimpl.
    repeat split; try assumption; try lia; auto. }
  assert (Hc : 0 < count) by (unfold count in *; lia).
  assert (Hlen : length (firstn (Z.to_nat count) buf) = Z.to_nat count).
  { apply firstn_length_le. unfold count. lia. }
  intro H; injection H as <- <- <-. tsimpl. unfold tx_inv; tsimpl.
  rewrite !app_length, Hlen.
  split.
  { split; [unfold count; lia|]. split; [lia|]. split; [lia|]. split; [|lia].
    assert (Hr : (Z.to_nat (g_removed s) <= length (g_written s))%nat) by lia.
    rewrite firstn_app.
    replace (Z.to_nat (g_removed s) - length (g_written s))%nat with 0%nat by lia.
    cbn [firstn]. rewrite app_nil_r, app_assoc, <- H4. reflexivity. }
  split; [reflexivity|]. split; [reflexivity|].
  split; [split; [unfold count; lia|split; reflexivity]|].
  intros Hfull _ _ _. exfalso. unfold count in Hnz, Hc. lia.
Qed.

Lemma truncate_spec initial mx s n s' r :
  tx_inv initial mx s -> 0 <= n -> truncate_front s n = (s', r) ->
  tx_inv initial mx s' /\ cap s' = cap s /\ g_written s' = g_written s /\
  ring s' = skipn (Z.to_nat (Z.min n (Z.of_nat (length (ring s))))) (ring s) /\
  g_removed s' = g_removed s + Z.min n (Z.of_nat (length (ring s))) /\
  (r = TrOk <-> n <= Z.of_nat (length (ring s))).
Proof.
  intros (H1 & H2 & H3 & H4 & H5) Hn. unfold truncate_front.
  set (sk := Z.min n (Z.of_nat (length (ring s)))).
  (* both answers come with the same new state u *)
  set (u := upd s _ _ _ _ _ _ _ _ _ _). intro H.
  assert (Hs' : s' = u) by (destruct (sk =? n); injection H as <- _; reflexivity).
  assert (Hr : r = TrOk <-> n <= Z.of_nat (length (ring s))).
  { revert H. destruct (Z.eqb_spec sk n) as [He|Hne]; intro H; injection H as _ <-.
    - split; intros _; [unfold sk in He; lia | reflexivity].
    - split; [discriminate | intro Hle; unfold sk in Hne; lia]. }
  clear H. subst s' u. tsimpl.
  refine (conj _ (conj eq_refl (conj eq_refl (conj eq_refl (conj eq_refl Hr))))).
  unfold tx_inv; tsimpl. rewrite skipn_length.
  split; [lia|]. split; [lia|]. split; [unfold sk; lia|]. split; [|unfold sk; lia].
  replace (Z.to_nat (g_removed s + sk)) with (Z.to_nat (g_removed s) + Z.to_nat sk)%nat by (unfold sk; lia).
  set (P := firstn (Z.to_nat (g_removed s)) (g_written s)) in *.
  assert (HP : length P = Z.to_nat (g_removed s)) by (unfold P; apply firstn_length_le; lia).
  rewrite H4. rewrite firstn_app, HP.
  clearbody P.
  assert (Hfa : firstn (Z.to_nat (g_removed s) + Z.to_nat sk) P = P) by (apply firstn_all2; lia).
  rewrite Hfa.
  replace (Z.to_nat (g_removed s) + Z.to_nat sk - Z.to_nat (g_removed s))%nat with (Z.to_nat sk) by lia.
  rewrite <- app_assoc, firstn_skipn. reflexivity.
Qed.

Lemma grow_spec initial mx s s' r :
  tx_inv initial mx s -> grow s mx = (s', r) ->
  tx_inv initial mx s' /\ ring s' = ring s /\ g_written s' = g_written s /\ g_removed s' = g_removed s /\
  match r with
  | Some c => cap s < mx /\ c = Z.min (2 * cap s) mx /\ cap s' = c
  | None => mx <= cap s /\ cap s' = cap s
  end.
Proof.
  intros (H1 & H2 & H3 & H4 & H5). unfold grow.
  destruct (Z.leb_spec mx (cap s)) as [Hle|Hgt]; intro Hg; injection Hg as <- <-; tsimpl.
  - unfold tx_inv. repeat split; try assumption; lia.
  - unfold tx_inv; tsimpl. repeat split; try assumption; lia.
Qed.

(* generic: an op that only changes flags/wakers keeps the invariant *)
Lemma flags_only_inv initial mx s vc wd ws dw ww wwy :
  tx_inv initial mx s ->
  tx_inv initial mx (upd s (ring s) (cap s) vc wd ws dw ww wwy (g_written s) (g_removed s)).
Proof. unfold tx_inv; tsimpl. tauto. Qed.

Lemma tx_step_inv initial mx s o s' out w :
  tx_inv initial mx s -> tx_op_ok mx o -> tx_step s o = (s', out, w) -> tx_inv initial mx s'.
Proof.
  intros Hinv Hok. destruct o; cbn [tx_step tx_op_ok] in *.
  1-3: destruct (writer_dropped s); [intro H; injection H as <- _ _; exact Hinv|].
  - destruct (poll_write s buf) as [[s1 r] w1] eqn:E. intro H; injection H as <- _ _.
    exact (proj1 (poll_write_spec _ _ _ _ _ _ _ Hinv E)).
  - unfold poll_flush. destruct (ring s) eqn:Er; [intro H; injection H as <- _ _; exact Hinv|].
    destruct (t_vsock_closed s); intro H; injection H as <- _ _; [exact Hinv|].
    rewrite <- Er. apply flags_only_inv. exact Hinv.
  - unfold poll_shutdown. destruct (ring s) eqn:Er.
    + destruct (t_vsock_closed s); [intro H; injection H as <- _ _; exact Hinv|].
      destruct (writer_shutdown s); intro H; injection H as <- _ _;
        rewrite <- Er; apply flags_only_inv; exact Hinv.
    + destruct (t_vsock_closed s); intro H; injection H as <- _ _; [exact Hinv|].
      rewrite <- Er; apply flags_only_inv; exact Hinv.
  - unfold drop_writer. destruct (writer_dropped s); intro H; injection H as <- _ _; [exact Hinv|].
    apply flags_only_inv; exact Hinv.
  - unfold mark_vsock_closed. intro H; injection H as <- _ _. apply flags_only_inv; exact Hinv.
  - destruct (truncate_front s count) as [s1 r] eqn:E. intro H; injection H as <- _ _.
    exact (proj1 (truncate_spec _ _ _ _ _ _ Hinv Hok E)).
  - subst max_size. destruct (grow s mx) as [s1 r] eqn:E. intro H; injection H as <- _ _.
    exact (proj1 (grow_spec _ _ _ _ _ Hinv E)).
  - unfold register_dispatcher_if_empty. destruct (ring s) eqn:Er; intro H; injection H as <- _ _; [|exact Hinv].
    rewrite <- Er. apply flags_only_inv; exact Hinv.
  - unfold wake_writer. intro H; injection H as <- _ _. apply flags_only_inv; exact Hinv.
Qed.

Lemma tx_run_inv initial mx : forall ops s,
  tx_inv initial mx s -> Forall (tx_op_ok mx) ops -> tx_inv initial mx (tx_run s ops).
Proof.
  induction ops as [|o ops IH]; intros s Hinv Hok; cbn [tx_run]; [exact Hinv|].
  inversion Hok as [|? ? Ho Hrest]; subst.
  destruct (tx_step s o) as [[s1 out] w] eqn:E.
  apply IH; [|exact Hrest]. exact (tx_step_inv _ _ _ _ _ _ _ Hinv Ho E).
Qed.

(* C19 bound for every reachable state *)
Lemma c19_bound_reachable initial mx ops :
  0 < initial -> Forall (tx_op_ok mx) ops ->
  let s := tx_run (tx_new initial) ops in
  Z.of_nat (length (ring s)) <= cap s <= Z.max initial mx /\
  Z.of_nat (length (g_written s)) - g_removed s = Z.of_nat (length (ring s)) /\
  g_written s = firstn (Z.to_nat (g_removed s)) (g_written s) ++ ring s.
Proof.
  intros Hi Hok. cbv zeta.
  destruct (tx_run_inv initial mx ops (tx_new initial) (new_inv initial mx Hi) Hok) as (H1 & H2 & H3 & H4 & H5).
  repeat split; try lia; assumption.
Qed.

(* honest completion at this tier: Ok from flush/shutdown means the ring is empty *)
Lemma flush_ok_ring_empty s s' w : poll_flush s = (s', UrOk, w) -> ring s = [] /\ s' = s.
Proof.
  unfold poll_flush. destruct (ring s); [intro H; injection H as <- _; auto|].
  destruct (t_vsock_closed s); discriminate.
Qed.

Lemma shutdown_ok_ring_empty s s' w :
  poll_shutdown s = (s', UrOk, w) -> ring s = [] /\ t_vsock_closed s = true /\ s' = s.
Proof.
  unfold poll_shutdown. destruct (ring s).
  - destruct (t_vsock_closed s); [intro H; injection H as <- _; auto|].
    destruct (writer_shutdown s); discriminate.
  - destruct (t_vsock_closed s); discriminate.
Qed.

(* wake-ups owed to a parked writer *)
Lemma wake_writer_fires s s' w :
  wake_writer s = (s', w) -> writer_waker s = true -> w = [TwWriter] /\ writer_waker s' = false.
Proof. unfold wake_writer. intros H Hw. rewrite Hw in H. injection H as <- <-. auto. Qed.

Lemma mark_closed_fires s s' w :
  mark_vsock_closed s = (s', w) -> writer_waker s = true ->
  w = [TwWriter] /\ writer_waker s' = false /\ t_vsock_closed s' = true.
Proof. unfold mark_vsock_closed. intros H Hw. rewrite Hw in H. injection H as <- <-. auto. Qed.

Lemma write_wakes_dispatcher s buf s' n w :
  poll_write s buf = (s', WrOk n, w) -> t_disp_waker s = true -> w = [TwDispatcher] /\ t_disp_waker s' = false.
Proof.
  unfold poll_write. destruct (_ <? _); [discriminate|].
  destruct (t_vsock_closed s); [discriminate|]. destruct (writer_shutdown s); [discriminate|].
  destruct (writer_dropped s); [discriminate|]. destruct (_ =? 0); [discriminate|].
  intros H Hd. rewrite Hd in H. injection H as <- _ <-. auto.
Qed.

(* D2 repaired (fix: in /repo): the first poll_shutdown on an empty ring takes the dispatcher's waker
   and fires it, exactly as mark_writer_dropped does; later calls only re-register the writer *)
Lemma shutdown_idle_wakes_dispatcher s s' r w :
  ring s = [] -> t_vsock_closed s = false -> writer_shutdown s = false -> t_disp_waker s = true ->
  poll_shutdown s = (s', r, w) ->
  r = UrPending /\ w = [TwDispatcher] /\ writer_shutdown s' = true /\ t_disp_waker s' = false.
Proof.
  unfold poll_shutdown. intros -> -> -> Hd H. rewrite Hd in H. injection H as <- <- <-. tsimpl. auto.
Qed.

Example shutdown_idle_example :
  let s := register_dispatcher_if_empty (tx_new 8) in
  ring s = [] /\ t_disp_waker s = true /\
  let '(s', r, w) := poll_shutdown s in r = UrPending /\ w = [TwDispatcher] /\ writer_shutdown s' = true.
Proof. vm_compute. repeat split. Qed.

(* the boolean predicate holds of every model trace *)
Lemma c19_ob_ok_model initial mx s o s' out w :
  tx_inv initial mx s -> tx_op_ok mx o -> tx_step s o = (s', out, w) ->
  c19_ob_ok initial mx {| to_out := out; to_wakes := w; to_ring := ring s'; to_cap := cap s';
     to_flags := [t_vsock_closed s'; writer_dropped s'; writer_shutdown s'; t_disp_waker s'; writer_waker s'] |} = true.
Proof.
  intros Hinv Hok E. pose proof (tx_step_inv _ _ _ _ _ _ _ Hinv Hok E) as (H1 & H2 & _).
  unfold c19_ob_ok; cbn [to_ring to_cap to_out to_wakes to_flags nth].
  replace (Z.of_nat (length (ring s')) <=? cap s') with true by lia.
  replace (cap s' <=? Z.max initial mx) with true by lia.
  replace (initial <=? cap s') with true by lia. cbn [andb].
  destruct o; cbn [tx_step] in E.
  1-3: destruct (writer_dropped s) eqn:Ewd0; [injection E as _ <- _; reflexivity|].
  - destruct (poll_write s buf) as [[s1 r] w1] eqn:E1. injection E as <- <- <-.
    unfold poll_write in E1. destruct (_ <? _); [injection E1 as <- <- <-; reflexivity|].
    destruct (t_vsock_closed s); [injection E1 as <- <- <-; reflexivity|].
    destruct (writer_shutdown s); [injection E1 as <- <- <-; reflexivity|].
    rewrite Ewd0 in E1.
    destruct (Z.eqb_spec (Z.min (Z.of_nat (length buf)) (Z.max (cap s - Z.of_nat (length (ring s))) 0)) 0) as [Hz|Hnz];
      injection E1 as <- <- <-; tsimpl.
    + reflexivity.
    + destruct Hinv as (I1 & _). apply Z.ltb_lt. lia.
  - destruct (poll_flush s) as [[s1 r] w1]. injection E as _ <- _. reflexivity.
  - destruct (poll_shutdown s) as [[s1 r] w1]. injection E as _ <- _. reflexivity.
  - destruct (drop_writer s) as [s1 w1]. injection E as _ <- _. reflexivity.
  - destruct (mark_vsock_closed s) as [s1 w1]. injection E as _ <- _. reflexivity.
  - destruct (truncate_front s count) as [s1 r]. injection E as _ <- _. reflexivity.
  - destruct (grow s max_size) as [s1 r]. injection E as _ <- _. reflexivity.
  - injection E as _ <- _. reflexivity.
  - destruct (wake_writer s) as [s1 w1]. injection E as _ <- _. reflexivity.
Qed.

Lemma model_trace_c19_ok initial mx : forall ops s,
  tx_inv initial mx s -> Forall (tx_op_ok mx) ops -> c19_ok initial mx (tx_trace s ops) = true.
Proof.
  induction ops as [|o ops IH]; intros s Hinv Hok; cbn [tx_trace]; [reflexivity|].
  inversion Hok as [|? ? Ho Hrest]; subst.
  destruct (tx_step s o) as [[s1 out] w] eqn:E.
  unfold c19_ok in *. cbn [forallb]. rewrite (c19_ob_ok_model _ _ _ _ _ _ _ Hinv Ho E). cbn [andb].
  apply IH; [|exact Hrest]. exact (tx_step_inv _ _ _ _ _ _ _ Hinv Ho E).
Qed.

Example tx_example :
  let s := tx_run (tx_new 4) [ToWrite [1;2;3]; ToWrite [4;5;6]; ToTruncate 2; ToGrow 16; ToWrite [7;8]] in
  ring s = [3;4;7;8] /\ cap s = 8 /\ g_removed s = 2 /\ g_written s = [1;2;3;4;7;8].
Proof. vm_compute. repeat split. Qed.

(* only a grow op answers TxGrow, and grow keeps the ring *)
Lemma tx_step_grow_ring s o s' r w : tx_step s o = (s', TxGrow r, w) -> ring s' = ring s.
Proof.
  destruct o; cbn [tx_step].
  1-3: destruct (writer_dropped s); [discriminate|].
  - destruct (poll_write s buf) as [[? ?] ?]; discriminate.
  - destruct (poll_flush s) as [[? ?] ?]; discriminate.
  - destruct (poll_shutdown s) as [[? ?] ?]; discriminate.
  - destruct (drop_writer s); discriminate.
  - destruct (mark_vsock_closed s); discriminate.
  - destruct (truncate_front s count); discriminate.
  - destruct (grow s max_size) as [s2 r2] eqn:G. intro H; injection H as <- _ _.
    unfold grow in G. destruct (max_size <=? cap s); injection G as <- _; reflexivity.
  - discriminate.
  - destruct (wake_writer s); discriminate.
Qed.

(* growth keeps the content: the predicate holds of every model trace *)
Lemma grow_scan_model : forall ops s,
  c19_grow_scan (Z.of_nat (length (ring s))) (ring_hashZ (ring s)) (grow_view (tx_trace s ops)) = true.
Proof.
  induction ops as [|o ops IH]; intro s; [reflexivity|].
  cbn [tx_trace]. destruct (tx_step s o) as [[s1 out] w] eqn:E.
  cbn [grow_view map to_out to_ring c19_grow_scan]. fold (grow_view (tx_trace s1 ops)).
  rewrite IH, andb_true_r.
  destruct out; try reflexivity.
  rewrite (tx_step_grow_ring _ _ _ _ _ E), !Z.eqb_refl. reflexivity.
Qed.

Lemma model_trace_c19_grow_ok initial ops : c19_grow_ok (grow_view (tx_trace (tx_new initial) ops)) = true.
Proof. unfold c19_grow_ok. exact (grow_scan_model ops (tx_new initial)). Qed.
