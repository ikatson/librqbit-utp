From Utp Require Import Base.Prelude Wire.SeqNr Tx.Segments.

Fixpoint sum_sizes (l : list seg) : Z :=
  match l with [] => 0 | s :: r => sg_size s + sum_sizes r end.

(* segments tile the byte range [base, base + sum_sizes) in order, without gaps *)
Fixpoint tiled (base : Z) (l : list seg) : Prop :=
  match l with
  | [] => True
  | s :: r => sg_abs s = base /\ 0 <= sg_size s /\ tiled (base + sg_size s) r
  end.

Definition seg_inv (t : segments) : Prop :=
  ss_len_bytes t = sum_sizes (ss_segs t) /\
  ss_offset t = ss_removed t + ss_len_bytes t /\
  tiled (ss_removed t) (ss_segs t) /\
  0 <= ss_removed t /\
  0 <= ss_snd_una t < M16.

Definition shape (l : list seg) : list (Z * Z) := map (fun s => (sg_size s, sg_abs s)) l.

Lemma sum_sizes_app a b : sum_sizes (a ++ b) = sum_sizes a + sum_sizes b.
Proof. induction a as [|x xs IH]; cbn [app sum_sizes]; lia. Qed.

Lemma tiled_app base a b : tiled base (a ++ b) <-> tiled base a /\ tiled (base + sum_sizes a) b.
Proof.
  revert base; induction a as [|x xs IH]; intro base; cbn [app tiled sum_sizes].
  - rewrite Z.add_0_r. tauto.
  - rewrite IH. replace (base + (sg_size x + sum_sizes xs)) with (base + sg_size x + sum_sizes xs) by lia. tauto.
Qed.

Lemma tiled_sizes_nonneg base l : tiled base l -> 0 <= sum_sizes l.
Proof.
  revert base; induction l as [|x xs IH]; intro base; cbn [tiled sum_sizes]; [lia|].
  intros (_ & H0 & Ht). specialize (IH _ Ht). lia.
Qed.

Lemma tiled_shape base l l' : shape l = shape l' -> tiled base l -> tiled base l'.
Proof.
  revert base l'; induction l as [|x xs IH]; intros base [|y ys] Hs; cbn [shape map] in Hs; try discriminate.
  - auto.
  - injection Hs as H1 H2 H3. cbn [tiled]. rewrite <- H1, <- H2. intros (A & B & C).
    repeat split; auto; apply (IH _ ys); auto.
Qed.

Lemma sum_sizes_shape l l' : shape l = shape l' -> sum_sizes l = sum_sizes l'.
Proof.
  revert l'; induction l as [|x xs IH]; intros [|y ys] Hs; cbn [shape map] in Hs; try discriminate; auto.
  injection Hs as H1 H2 H3. cbn [sum_sizes]. rewrite H1. f_equal. apply IH. exact H3.
Qed.

Lemma firstn_skipn_sum (n : nat) (l : list seg) :
  sum_sizes l = sum_sizes (firstn n l) + sum_sizes (skipn n l).
Proof. rewrite <- sum_sizes_app, firstn_skipn. reflexivity. Qed.

(* ---- enqueue ---- *)
Lemma enqueue_inv t len p : seg_inv t -> 0 <= len -> seg_inv (enqueue t len p).
Proof.
  intros (Hlb & Hoff & Ht & Hr & Hu) Hlen. unfold seg_inv, enqueue, set_segs; cbn [ss_segs ss_len_bytes
    ss_offset ss_removed ss_snd_una].
  rewrite sum_sizes_app. cbn [sum_sizes sg_size].
  split; [lia|]. split; [lia|]. split; [|split; assumption].
  apply tiled_app. split; [exact Ht|]. cbn [tiled sg_abs sg_size]. repeat split; lia.
Qed.

(* ---- pops ---- *)
Lemma last_and_init_spec {A} (l init : list A) x :
  last_and_init l = Some (init, x) -> l = init ++ [x].
Proof.
  unfold last_and_init. destruct (rev l) as [|y r] eqn:E; [discriminate|].
  intro H; injection H as <- <-.
  rewrite <- (rev_involutive l), E. reflexivity.
Qed.

Lemma pop_back_inv t init s :
  seg_inv t -> ss_segs t = init ++ [s] ->
  seg_inv (set_segs t init (ss_len_bytes t - sg_size s) (ss_offset t - sg_size s)).
Proof.
  intros (Hlb & Hoff & Ht & Hr & Hu) E. unfold seg_inv, set_segs; cbn [ss_segs ss_len_bytes
    ss_offset ss_removed ss_snd_una].
  rewrite E in *. rewrite sum_sizes_app in Hlb. cbn [sum_sizes] in Hlb.
  apply tiled_app in Ht. destruct Ht as [Ht1 _].
  repeat split; try lia; assumption.
Qed.

Lemma pop_mtu_probe_inv t q t' b : seg_inv t -> pop_mtu_probe t q = (t', b) -> seg_inv t'.
Proof.
  intros Hinv. unfold pop_mtu_probe.
  destruct (last_and_init (ss_segs t)) as [[init s]|] eqn:E.
  - destruct (_ && _); intro H; injection H as <- _; [|exact Hinv].
    exact (pop_back_inv _ _ _ Hinv (last_and_init_spec _ _ _ E)).
  - intro H; injection H as <- _. exact Hinv.
Qed.

Lemma pop_expired_inv t to mr t' p : seg_inv t -> pop_expired_mtu_probe t to mr = (t', p) -> seg_inv t'.
Proof.
  intros Hinv. unfold pop_expired_mtu_probe.
  destruct (last_and_init (ss_segs t)) as [[init s]|] eqn:E.
  - destruct (sg_delivered s); [intro H; injection H as <- _; exact Hinv|].
    destruct (_ && _); [|destruct (sg_probe s); intro H; injection H as <- _; exact Hinv].
    intro H; injection H as <- _. exact (pop_back_inv _ _ _ Hinv (last_and_init_spec _ _ _ E)).
  - intro H; injection H as <- _. exact Hinv.
Qed.

(* ---- remove_up_to_ack ---- *)
Lemma drain_acc_spec : forall l now a,
  ac_cnt (drain_acc l now a) = ac_cnt a + Z.of_nat (length l) /\
  ac_bytes (drain_acc l now a) = ac_bytes a + sum_sizes l.
Proof.
  induction l as [|s r IH]; intros now a; cbn [drain_acc length sum_sizes]; [lia|].
  destruct (IH now {| ac_rtt := update_rtt s now (ac_rtt a); ac_maxp := Z.max (ac_maxp a) (sg_size s);
                      ac_cnt := ac_cnt a + 1; ac_bytes := ac_bytes a + sg_size s |}) as [H1 H2].
  cbn [ac_cnt ac_bytes] in *. lia.
Qed.

Lemma apply_sack_shape : forall l bits now a l' a',
  apply_sack l bits now a = (l', a') -> shape l' = shape l.
Proof.
  induction l as [|s r IH]; intros bits now a l' a'; cbn [apply_sack].
  - intro H; injection H as <- _. reflexivity.
  - destruct bits as [|b bs]; [intro H; injection H as <- _; reflexivity|].
    (* marked delivered or not, the head keeps its size and offset *)
    destruct (negb (sg_delivered s) && b).
    all: destruct (apply_sack r bs now _) as [r' a''] eqn:E; intro H; injection H as <- _.
    all: cbn [shape map mark_delivered sg_size sg_abs]; f_equal; exact (IH _ _ _ _ _ E).
Qed.

Lemma shape_app a b : shape (a ++ b) = shape a ++ shape b.
Proof. unfold shape. apply map_app. Qed.

Lemma strip_delivered_spec : forall l cnt bytes l' cnt' bytes',
  strip_delivered l cnt bytes = (l', cnt', bytes') ->
  exists dropped, l = dropped ++ l' /\ cnt' = cnt + Z.of_nat (length dropped) /\
                  bytes' = bytes + sum_sizes dropped /\
                  Forall (fun s => sg_delivered s = true) dropped.
Proof.
  induction l as [|s r IH]; intros cnt bytes l' cnt' bytes'; cbn [strip_delivered].
  - intro H; injection H as <- <- <-. exists []. cbn. repeat split; try lia; constructor.
  - destruct (sg_delivered s) eqn:Ed.
    + intro H. destruct (IH _ _ _ _ _ H) as (d & -> & Hc & Hb & Hf).
      exists (s :: d). cbn [app length sum_sizes]. repeat split; try lia. constructor; assumption.
    + intro H; injection H as <- <- <-. exists []. cbn. repeat split; try lia; constructor.
Qed.

Lemma wadd16_range a b : 0 <= wadd16 a b < M16.
Proof. unfold wadd16, M16. lia. Qed.

Lemma shape_length l l' : shape l = shape l' -> length l = length l'.
Proof. intro H. apply (f_equal (@length _)) in H. unfold shape in H. rewrite !map_length in H. exact H. Qed.

(* phase 2 only marks segments delivered *)
Lemma sack_phase_shape t rest a1 su now ack sk l' a' dp lse :
  sack_phase t rest a1 su now ack sk = (l', a', dp, lse) -> shape l' = shape rest.
Proof.
  unfold sack_phase. destruct rest as [|x xs]; [intro H; injection H as <- _ _ _; reflexivity|].
  destruct sk as [k|]; [|intro H; injection H as <- _ _ _; reflexivity].
  destruct (seq_gt su ack); [|intro H; injection H as <- _ _ _; reflexivity].
  set (rest := x :: xs). set (so := seq_sub (wadd16 ack 2) su).
  destruct (0 <=? so).
  - destruct (apply_sack (skipn (Z.to_nat so) rest) _ now _) as [tl' a''] eqn:E.
    intro H; injection H as <- _ _ _.
    rewrite shape_app, (apply_sack_shape _ _ _ _ _ _ E), <- shape_app, firstn_skipn. reflexivity.
  - destruct (apply_sack rest _ now _) as [l2 a''] eqn:E.
    intro H; injection H as <- _ _ _. exact (apply_sack_shape _ _ _ _ _ _ E).
Qed.

Lemma remove_up_to_ack_inv t now ack sk t' r :
  seg_inv t -> remove_up_to_ack t now ack sk = (t', r) ->
  seg_inv t' /\
  ar_acked_bytes r = ss_removed t' - ss_removed t /\ 0 <= ar_acked_bytes r /\
  ss_offset t' = ss_offset t /\
  Z.of_nat (length (ss_segs t')) = Z.of_nat (length (ss_segs t)) - ar_acked_segments r /\
  0 <= ar_acked_segments r.
Proof.
  intros (Hlb & Hoff & Ht & Hr & Hu). unfold remove_up_to_ack.
  set (dc := if 0 <=? seq_sub ack (ss_snd_una t)
             then Z.to_nat (Z.min (seq_sub ack (ss_snd_una t) + 1) (len_z (ss_segs t))) else 0%nat).
  set (drained := firstn dc (ss_segs t)).
  destruct (drain_acc_spec drained now {| ac_rtt := None; ac_maxp := 0; ac_cnt := 0; ac_bytes := 0 |})
    as [Hc1 Hb1].
  set (a1 := drain_acc drained now _) in *. cbn [ac_cnt ac_bytes] in Hc1, Hb1.
  destruct (sack_phase t (skipn dc (ss_segs t)) a1 _ now ack sk) as [[[rest2 a2] depth] lse] eqn:E2.
  apply sack_phase_shape in E2.
  destruct (strip_delivered rest2 0 0) as [[rest3 cnt3] bytes3] eqn:E3.
  destruct (strip_delivered_spec _ _ _ _ _ _ E3) as (dropped & -> & Hc3 & Hb3 & _).
  intro H; injection H as <- <-.
  cbn [ss_segs ss_len_bytes ss_offset ss_removed ss_snd_una ar_acked_bytes ar_acked_segments].
  (* up to the delivered flags the table was drained ++ dropped ++ rest3 *)
  assert (Hs : shape (ss_segs t) = shape ((drained ++ dropped) ++ rest3)).
  { rewrite <- (firstn_skipn dc (ss_segs t)) at 1.
    rewrite <- app_assoc, shape_app, <- E2, <- shape_app. reflexivity. }
  apply (tiled_shape _ _ _ Hs) in Ht. apply tiled_app in Ht. destruct Ht as [Htd Ht3].
  apply tiled_sizes_nonneg in Htd.
  pose proof (sum_sizes_shape _ _ Hs) as Hsum. rewrite !sum_sizes_app in Hsum.
  rewrite sum_sizes_app in Htd, Ht3.
  apply shape_length in Hs. rewrite !app_length in Hs.
  split.
  { unfold seg_inv; cbn [ss_segs ss_len_bytes ss_offset ss_removed ss_snd_una].
    split; [lia|]. split; [lia|].
    split; [replace (ac_bytes a1 + bytes3) with (sum_sizes drained + sum_sizes dropped) by lia; exact Ht3|].
    split; [lia|]. apply wadd16_range. }
  repeat split; lia.
Qed.

(* ---- on_sent / calc_pipe keep the shape ---- *)
Lemma update_nth_shape (f : seg -> seg) :
  (forall s, sg_size (f s) = sg_size s /\ sg_abs (f s) = sg_abs s) ->
  forall l n, shape (update_nth l n f) = shape l.
Proof.
  intros Hf. induction l as [|x xs IH]; intros [|n]; cbn [update_nth shape map]; try reflexivity.
  - destruct (Hf x) as [-> ->]. reflexivity.
  - f_equal. apply IH.
Qed.

Lemma inv_of_shape t l :
  seg_inv t -> shape l = shape (ss_segs t) -> seg_inv (set_segs t l (ss_len_bytes t) (ss_offset t)).
Proof.
  intros (Hlb & Hoff & Ht & Hr & Hu) Hs. unfold seg_inv, set_segs; cbn [ss_segs ss_len_bytes
    ss_offset ss_removed ss_snd_una].
  rewrite (sum_sizes_shape _ _ Hs).
  repeat split; try assumption; try lia. eapply tiled_shape; [symmetry; exact Hs|exact Ht].
Qed.

Lemma on_sent_inv t idx now : seg_inv t -> seg_inv (on_sent t idx now).
Proof.
  intro H. unfold on_sent. apply inv_of_shape; [exact H|].
  apply update_nth_shape. intro s. split; reflexivity.
Qed.

(* pipe_loop only rewrites the lost / expired / sacks_after flags: whatever is computed from the
   other fields of a segment is the same before and after *)
Lemma pipe_loop_map {B} (f : seg -> B) :
  (forall s s', sg_size s' = sg_size s -> sg_abs s' = sg_abs s -> sg_sent s' = sg_sent s ->
                sg_delivered s' = sg_delivered s -> f s' = f s) ->
  forall l t hr th now a l' a',
  pipe_loop l t hr th now a = (l', a') -> map f l' = map f (map snd l).
Proof.
  intro Hf. induction l as [|[off s] r IH]; intros t hr th now a l' a'; cbn [pipe_loop].
  - intro H; injection H as <- _. reflexivity.
  - destruct (seg_last_sent s); [destruct (sg_delivered s) eqn:Ed|].
    all: destruct (pipe_loop r t hr th now _) as [r' a''] eqn:E; intro H; injection H as <- _.
    all: cbn [map snd]; f_equal; [apply Hf; auto ..|exact (IH _ _ _ _ _ _ _ E)].
Qed.

Lemma pipe_loop_shape : forall l t hr th now a l' a',
  pipe_loop l t hr th now a = (l', a') -> shape l' = shape (map snd l).
Proof. apply pipe_loop_map. intros s s' -> -> _ _. reflexivity. Qed.

Lemma enum_from_snd {A} : forall (l : list A) i, map snd (enum_from i l) = l.
Proof. induction l as [|x xs IH]; intro i; cbn [enum_from map snd]; [reflexivity|]. f_equal. apply IH. Qed.

Lemma shape_rev l : shape (rev l) = rev (shape l).
Proof. unfold shape. apply map_rev. Qed.

Lemma calc_pipe_inv t hr hd rtt now t' p rc :
  seg_inv t -> calc_pipe t hr hd rtt now = Some (t', p, rc) -> seg_inv t'.
Proof.
  intro Hinv. unfold calc_pipe. destruct (_ <? _); [discriminate|].
  destruct (pipe_loop _ t hr _ now _) as [upd a] eqn:E. intro H; injection H as <- _ _.
  apply inv_of_shape; [exact Hinv|].
  apply pipe_loop_shape in E. rewrite map_rev, enum_from_snd in E.
  rewrite shape_app, shape_rev, E, shape_rev, rev_involutive, <- shape_app, firstn_skipn. reflexivity.
Qed.

(* ---- iter_for_sending: payload offsets ---- *)
Lemma tiled_abs_ge base l : tiled base l -> Forall (fun s => base <= sg_abs s) l.
Proof.
  revert base; induction l as [|x xs IH]; intro base; cbn [tiled]; [constructor|].
  intros (Ha & H0 & Ht). constructor; [lia|].
  specialize (IH _ Ht). eapply Forall_impl; [|exact IH]. cbn. intros; lia.
Qed.

Lemma Forall_skipn {A} (P : A -> Prop) n l : Forall P l -> Forall P (skipn n l).
Proof.
  revert l; induction n as [|n IH]; intros [|x xs] H; cbn [skipn]; auto.
  inversion H; subst. apply IH; assumption.
Qed.

Lemma enum_from_In {A} : forall (l : list A) i j x, In (j, x) (enum_from i l) -> In x l.
Proof.
  induction l as [|y ys IH]; intros i j x; cbn [enum_from In]; [tauto|].
  intros [H|H]; [injection H as _ <-; left; reflexivity|right; eapply IH; exact H].
Qed.

Lemma iter_offsets_nonneg t st :
  seg_inv t -> Forall (fun f => 0 <= fs_payload_offset f /\ sg_delivered (fs_seg f) = false)
                      (iter_for_sending t st).
Proof.
  intros (_ & _ & Ht & _). unfold iter_for_sending. apply Forall_forall. intros f Hf.
  apply filter_In in Hf. destruct Hf as [Hin Hnd]. apply negb_true_iff in Hnd.
  apply in_map_iff in Hin. destruct Hin as ([i s] & <- & Hin). cbn [fs_payload_offset fs_seg] in *.
  split; [|exact Hnd].
  apply enum_from_In in Hin.
  pose proof (tiled_abs_ge _ _ Ht) as Hge.
  eapply Forall_skipn in Hge.
  rewrite Forall_forall in Hge. specialize (Hge _ Hin). lia.
Qed.

(* since the repair of D21 calc_pipe never panics, whatever high_data is *)
Lemma calc_pipe_total t high_rxt high_data rtt now : calc_pipe t high_rxt high_data rtt now <> None.
Proof.
  unfold calc_pipe.
  destruct (Z.ltb_spec (len_z (ss_segs t))
              (Z.min (Z.max (seq_sub high_data (ss_snd_una t)) 0) (len_z (ss_segs t)))); [lia|].
  destruct (pipe_loop _ _ _ _ _ _); discriminate.
Qed.

(* ---- the whole step ---- *)
Definition seg_op_ok (o : seg_op) : Prop :=
  match o with SoEnqueue len _ => 0 <= len | _ => True end.

(* a calc_pipe argument the dispatcher can produce: high_data not past the end of the table *)
Definition pipe_arg_ok (t : segments) (o : seg_op) : Prop :=
  match o with
  | SoPipe _ hd _ _ => Z.max (seq_sub hd (ss_snd_una t)) 0 <= len_z (ss_segs t)
  | _ => True
  end.

Lemma seg_step_inv t o t' out :
  seg_inv t -> seg_op_ok o -> seg_step t o = (t', out) ->
  seg_inv t' /\ (pipe_arg_ok t o -> out <> SrPanic).
Proof.
  intros Hinv Hok. destruct o; cbn [seg_step seg_op_ok pipe_arg_ok] in *.
  - intro H; injection H as <- <-. split; [apply enqueue_inv; assumption|discriminate].
  - destruct (pop_mtu_probe t seq_nr) as [t1 b] eqn:E. intro H; injection H as <- <-.
    split; [eapply pop_mtu_probe_inv; eauto|discriminate].
  - destruct (pop_expired_mtu_probe t timed_out max_retx) as [t1 p] eqn:E. intro H; injection H as <- <-.
    split; [eapply pop_expired_inv; eauto|discriminate].
  - destruct (remove_up_to_ack t now ack_nr sk) as [t1 r] eqn:E. intro H; injection H as <- <-.
    split; [exact (proj1 (remove_up_to_ack_inv _ _ _ _ _ _ Hinv E))|discriminate].
  - intro H; injection H as <- <-. split; [exact Hinv|discriminate].
  - pose proof (iter_offsets_nonneg t start Hinv) as Hf.
    destruct (existsb _ _) eqn:Ee.
    + exfalso. apply existsb_exists in Ee. destruct Ee as (f & Hin & Hneg).
      rewrite Forall_forall in Hf. specialize (Hf _ Hin). lia.
    + intro H; injection H as <- <-. split; [exact Hinv|discriminate].
  - destruct (nth_error _ k); intro H; injection H as <- <-;
      (split; [try apply on_sent_inv; exact Hinv|discriminate]).
  - destruct (calc_pipe t high_rxt high_data rtt now) as [[[t1 p] rc]|] eqn:E.
    + intro H; injection H as <- <-. split; [eapply calc_pipe_inv; eauto|discriminate].
    + intro H; injection H as <- <-. split; [exact Hinv|]. exfalso. exact (calc_pipe_total _ _ _ _ _ E).
Qed.

Lemma new_inv snd_una : 0 <= snd_una < M16 -> seg_inv (segments_new snd_una).
Proof. intro H. unfold seg_inv, segments_new; cbn. repeat split; lia. Qed.

Lemma seg_run_inv : forall ops t, seg_inv t -> Forall seg_op_ok ops -> seg_inv (seg_run t ops).
Proof.
  induction ops as [|o ops IH]; intros t Hinv Hok; cbn [seg_run]; [exact Hinv|].
  inversion Hok as [|? ? Ho Hrest]; subst.
  destruct (seg_step t o) as [t1 out] eqn:E. cbn [fst].
  apply IH; [|exact Hrest]. exact (proj1 (seg_step_inv _ _ _ _ Hinv Ho E)).
Qed.

(* ---- C06 pieces at this tier ---- *)
(* never resend acknowledged: the sending iterator only yields undelivered segments *)
Lemma iter_only_undelivered t st f :
  In f (iter_for_sending t st) -> sg_delivered (fs_seg f) = false.
Proof.
  unfold iter_for_sending. intro H. apply filter_In in H. destruct H as [_ H].
  apply negb_true_iff in H. exact H.
Qed.

(* Karn: a retransmitted (or never sent) segment never changes the RTT sample *)
Lemma karn s now rtt : (forall ts, sg_sent s <> SentTime ts) -> update_rtt s now rtt = rtt.
Proof. unfold update_rtt. destruct (sg_sent s); intro H; try reflexivity. exfalso. exact (H t eq_refl). Qed.

(* flight size is the exact sum of sent-range, not-yet-delivered payloads *)
Lemma flight_size_def t ls :
  calc_flight_size t ls =
  flight_sum (firstn (Z.to_nat (Z.max (seq_sub ls (ss_snd_una t) + 1) 0)) (ss_segs t)).
Proof. reflexivity. Qed.

Lemma flight_sum_le l : (forall s, In s l -> 0 <= sg_size s) -> 0 <= flight_sum l <= sum_sizes l.
Proof.
  induction l as [|x xs IH]; intro H; cbn [flight_sum sum_sizes]; [lia|].
  assert (0 <= sg_size x) by (apply H; left; reflexivity).
  assert (0 <= flight_sum xs <= sum_sizes xs) by (apply IH; intros; apply H; right; assumption).
  destruct (sg_delivered x); lia.
Qed.

Example segs_example :
  let t := seg_run (segments_new 65535)
    [SoEnqueue 10 false; SoEnqueue 20 false; SoEnqueue 5 true; SoOnSent None 0 100;
     SoAck 1000 65535 None; SoPopProbe 1] in
  ss_snd_una t = 0 /\ ss_len_bytes t = 20 /\ ss_offset t = 30 /\ ss_removed t = 10 /\
  length (ss_segs t) = 1%nat.
Proof. vm_compute. repeat split. Qed.
