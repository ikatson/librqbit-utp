(* "A sent, undelivered segment exists" ([segs_out]) through the operations of Tx/Segments.v:
   only on_sent can make it true; acknowledging, popping, re-flagging (calc_pipe) never do, and
   enqueueing adds segments that were never sent. Used by the retransmission-timer invariant. *)
From Utp Require Import Base.Prelude Wire.SeqNr Tx.Segments Tx.Segments_Proofs.

Definition seg_sent_b (g : seg) : bool := match sg_sent g with NotSent => false | _ => true end.
Definition seg_out (g : seg) : bool := seg_sent_b g && negb (sg_delivered g).
Definition segs_out (l : list seg) : bool := existsb seg_out l.

(* every outstanding element of l' comes with an outstanding element of l *)
Definition out_sub (l' l : list seg) : Prop := segs_out l' = true -> segs_out l = true.

Lemma out_sub_refl l : out_sub l l.
Proof. intro K; exact K. Qed.

Lemma out_sub_trans a b c : out_sub a b -> out_sub b c -> out_sub a c.
Proof. intros H1 H2 K. exact (H2 (H1 K)). Qed.

Lemma segs_out_app a b : segs_out (a ++ b) = segs_out a || segs_out b.
Proof. apply existsb_app. Qed.

Lemma segs_out_In l : segs_out l = true <-> exists g, In g l /\ seg_out g = true.
Proof. apply existsb_exists. Qed.

Lemma out_sub_app_l a b : out_sub a (a ++ b).
Proof. intro K. rewrite segs_out_app, K. reflexivity. Qed.

Lemma out_sub_app_r a b : out_sub b (a ++ b).
Proof. intro K. rewrite segs_out_app, K. apply orb_true_r. Qed.

(* a head that is not outstanding can be dropped; equal heads can be kept *)
Lemma out_sub_cons g g' l' l :
  (seg_out g' = true -> seg_out g = true) -> out_sub l' l -> out_sub (g' :: l') (g :: l).
Proof.
  intros Hg H. unfold out_sub, segs_out. cbn [existsb]. rewrite !orb_true_iff.
  intros [K|K]; [left; exact (Hg K) | right; exact (H K)].
Qed.

Lemma segs_out_skipn n l : out_sub (skipn n l) l.
Proof. rewrite <- (firstn_skipn n l) at 2. apply out_sub_app_r. Qed.

Lemma seg_out_mark_delivered g : seg_out (mark_delivered g) = false.
Proof. unfold seg_out, mark_delivered. cbn [sg_delivered]. apply andb_false_r. Qed.

(* apply_sack only marks segments delivered *)
Lemma apply_sack_out : forall l bits now a l' a',
  apply_sack l bits now a = (l', a') -> out_sub l' l.
Proof.
  induction l as [|s r IH]; intros bits now a l' a'; cbn [apply_sack].
  - intro H; injection H as <- _. apply out_sub_refl.
  - destruct bits as [|b bs]; [intro H; injection H as <- _; apply out_sub_refl|].
    destruct (negb (sg_delivered s) && b).
    all: destruct (apply_sack r bs now _) as [r' a''] eqn:E; intro H; injection H as <- _.
    all: apply out_sub_cons; [|exact (IH _ _ _ _ _ E)].
    + rewrite seg_out_mark_delivered. discriminate.
    + intro K; exact K.
Qed.

Lemma strip_delivered_out : forall l cnt bytes l' cnt' bytes',
  strip_delivered l cnt bytes = (l', cnt', bytes') -> out_sub l' l.
Proof.
  induction l as [|s r IH]; intros cnt bytes l' cnt' bytes'; cbn [strip_delivered].
  - intro H; injection H as <- _ _. apply out_sub_refl.
  - destruct (sg_delivered s).
    + intro H. exact (out_sub_trans _ _ _ (IH _ _ _ _ _ H) (out_sub_app_r [s] r)).
    + intro H; injection H as <- _ _. apply out_sub_refl.
Qed.

Lemma sack_phase_out t rest a1 su now ack sk l' a' dp lse :
  sack_phase t rest a1 su now ack sk = (l', a', dp, lse) -> out_sub l' rest.
Proof.
  unfold sack_phase. destruct rest as [|x xs]; [intro H; injection H as <- _ _ _; apply out_sub_refl|].
  destruct sk as [k|]; [|intro H; injection H as <- _ _ _; apply out_sub_refl].
  destruct (seq_gt su ack); [|intro H; injection H as <- _ _ _; apply out_sub_refl].
  set (rest := x :: xs). set (so := seq_sub (wadd16 ack 2) su).
  destruct (0 <=? so).
  - destruct (apply_sack (skipn (Z.to_nat so) rest) _ now _) as [tl' a''] eqn:E.
    intro H; injection H as <- _ _ _. apply apply_sack_out in E.
    intro K. rewrite segs_out_app in K. rewrite <- (firstn_skipn (Z.to_nat so) rest), segs_out_app.
    apply orb_true_iff in K. apply orb_true_iff.
    destruct K as [K|K]; [left; exact K | right; exact (E K)].
  - destruct (apply_sack rest _ now _) as [l2 a''] eqn:E.
    intro H; injection H as <- _ _ _. exact (apply_sack_out _ _ _ _ _ _ E).
Qed.

Lemma remove_up_to_ack_out t now ack sk t' r :
  remove_up_to_ack t now ack sk = (t', r) -> out_sub (ss_segs t') (ss_segs t).
Proof.
  unfold remove_up_to_ack.
  set (dc := if 0 <=? seq_sub ack (ss_snd_una t) then _ else 0%nat).
  destruct (sack_phase t (skipn dc (ss_segs t)) _ _ now ack sk) as [[[rest2 a2] dp] lse] eqn:E2.
  destruct (strip_delivered rest2 0 0) as [[rest3 cnt3] bytes3] eqn:E3.
  intro H; injection H as <- _. cbn [ss_segs].
  apply (out_sub_trans _ _ _ (strip_delivered_out _ _ _ _ _ _ E3)).
  apply (out_sub_trans _ _ _ (sack_phase_out _ _ _ _ _ _ _ _ _ _ _ E2)).
  apply segs_out_skipn.
Qed.

(* segs_out read off any image of the table that determines seg_out (used on the fingerprint side) *)
Lemma segs_out_existsb {B} (f : seg -> B) (p : B -> bool) l :
  (forall g, p (f g) = seg_out g) -> existsb p (map f l) = segs_out l.
Proof.
  intro H. induction l as [|x xs IH]; [reflexivity|]. cbn [map existsb]. unfold segs_out. cbn [existsb].
  rewrite H. f_equal. exact IH.
Qed.

Lemma segs_out_map l l' : map seg_out l' = map seg_out l -> segs_out l' = segs_out l.
Proof.
  intro H. rewrite <- (segs_out_existsb seg_out (fun b => b) l'), H by reflexivity.
  apply segs_out_existsb. reflexivity.
Qed.

(* calc_pipe rewrites the lost / expired / sacks_after flags only *)
Lemma calc_pipe_out t hr hd rtt now t' p rc :
  calc_pipe t hr hd rtt now = Some (t', p, rc) -> segs_out (ss_segs t') = segs_out (ss_segs t).
Proof.
  unfold calc_pipe. destruct (_ <? _); [discriminate|].
  set (n := Z.to_nat _).
  destruct (pipe_loop _ t hr _ now _) as [upd a] eqn:E. intro H; injection H as <- _ _.
  cbn [set_segs ss_segs]. apply (pipe_loop_map seg_out) in E.
  (* the re-flagged segments copy sg_sent and sg_delivered *)
  2: { intros s s' _ _ Hs Hd. unfold seg_out, seg_sent_b. rewrite Hs, Hd. reflexivity. }
  apply segs_out_map. rewrite map_app, map_rev, E, map_rev, enum_from_snd, <- !map_rev, rev_involutive.
  rewrite <- map_app, firstn_skipn. reflexivity.
Qed.

(* popping a probe *)
Lemma last_and_init_app {A} (l init : list A) x : last_and_init l = Some (init, x) -> l = init ++ [x].
Proof. exact (last_and_init_spec l init x). Qed.

Lemma pop_mtu_probe_out t q t' b : pop_mtu_probe t q = (t', b) -> out_sub (ss_segs t') (ss_segs t).
Proof.
  unfold pop_mtu_probe. destruct (last_and_init (ss_segs t)) as [[init x]|] eqn:E.
  - destruct (_ && _ && _); intro H; injection H as <- _; [|apply out_sub_refl].
    cbn [set_segs ss_segs]. rewrite (last_and_init_app _ _ _ E). apply out_sub_app_l.
  - intro H; injection H as <- _. apply out_sub_refl.
Qed.

Lemma pop_expired_out t to mr t' pe :
  pop_expired_mtu_probe t to mr = (t', pe) -> out_sub (ss_segs t') (ss_segs t).
Proof.
  unfold pop_expired_mtu_probe. destruct (last_and_init (ss_segs t)) as [[init x]|] eqn:E.
  - destruct (sg_delivered x); [intro H; injection H as <- _; apply out_sub_refl|].
    destruct (_ && _ && _); [|destruct (sg_probe x); intro H; injection H as <- _; apply out_sub_refl].
    intro H; injection H as <- _. cbn [set_segs ss_segs].
    rewrite (last_and_init_app _ _ _ E). apply out_sub_app_l.
  - intro H; injection H as <- _. apply out_sub_refl.
Qed.

(* new segments were never sent *)
Lemma enqueue_out t len p : segs_out (ss_segs (enqueue t len p)) = segs_out (ss_segs t).
Proof.
  unfold enqueue. cbn [set_segs ss_segs]. rewrite segs_out_app. unfold segs_out at 2. cbn [existsb].
  unfold seg_out, seg_sent_b. cbn [sg_sent andb orb]. apply orb_false_r.
Qed.

(* nothing left to (re)send: nothing outstanding *)
Lemma filter_nil_forall {A} (p : A -> bool) l : filter p l = [] -> forall x, In x l -> p x = false.
Proof.
  induction l as [|y ys IH]; cbn [filter]; [intros _ x []|].
  destruct (p y) eqn:E; [discriminate|]. intros H x [<-|Hx]; [exact E | apply IH; assumption].
Qed.

Lemma iter_nil_no_out t : iter_for_sending t None = [] -> segs_out (ss_segs t) = false.
Proof.
  unfold iter_for_sending. cbn [skipn]. intro H.
  destruct (segs_out (ss_segs t)) eqn:K; [|reflexivity]. exfalso.
  apply segs_out_In in K. destruct K as (g & G1 & G2).
  assert (Hex : exists i, In (i, g) (enum_from 0 (ss_segs t))).
  { generalize 0%nat. revert G1. generalize (ss_segs t). induction l as [|y ys IH]; intros [] i.
    - subst. exists i. left; reflexivity.
    - destruct (IH H0 (S i)) as (j & J). exists j. right; exact J. }
  destruct Hex as (i & Hi).
  pose proof (filter_nil_forall _ _ H) as F.
  match type of F with forall x, In x (map ?mk ?items) -> _ => specialize (F (mk (i, g)) (in_map mk _ _ Hi)) end.
  cbn [fs_seg] in F. unfold seg_out in G2. apply andb_true_iff in G2. destruct G2 as [_ G2].
  rewrite G2 in F. discriminate.
Qed.
