(* Proofs about the Cubic model (Cubic.v) over Flocq binary64.
   Library axioms (Coq Reals / Flocq): ClassicalDedekindReals.sig_forall_dec, sig_not_dec,
   FunctionalExtensionality.functional_extensionality_dep, Classical_Prop.classic.
   cbrt / powf3 are Section variables without hypotheses wherever they occur. *)
From Coq Require Import Reals Lra Lia ZArith Psatz.
From Coq Require Import Floats.SpecFloat.
From Flocq Require Import Core BinarySingleNaN Relative.
From Utp Require Import Base.Prelude Cubic.F64 Cubic.Cubic.
Open Scope R_scope.

Definition rnd (x : R) : R := round radix2 (SpecFloat.fexp 53 1024) (round_mode mode_NE) x.
Notation fexp64 := (FLT_exp (-1074) 53).

Lemma rnd_FLT : forall x, rnd x = round radix2 fexp64 ZnearestE x.
Proof. reflexivity. Qed.

Global Instance f64_prec : Prec_gt_0 53 := f64_prec_gt_0.

Lemma rnd_le : forall x y, x <= y -> rnd x <= rnd y.
Proof. intros x y H. rewrite !rnd_FLT. apply round_le; auto with typeclass_instances. Qed.

Lemma rnd_generic : forall x, generic_format radix2 fexp64 x -> rnd x = x.
Proof. intros x H. rewrite rnd_FLT. apply round_generic; auto with typeclass_instances. Qed.

Lemma rnd_0 : rnd 0 = 0.
Proof. rewrite rnd_FLT. apply round_0; auto with typeclass_instances. Qed.

Lemma rnd_ge_0 : forall x, 0 <= x -> 0 <= rnd x.
Proof. intros x H. rewrite <- rnd_0. apply rnd_le. exact H. Qed.

Lemma rnd_le_fmt : forall x y, generic_format radix2 fexp64 y -> x <= y -> rnd x <= y.
Proof. intros x y Hy H. rewrite <- (rnd_generic y Hy). apply rnd_le. exact H. Qed.

Lemma rnd_ge_fmt : forall x y, generic_format radix2 fexp64 y -> y <= x -> y <= rnd x.
Proof. intros x y Hy H. rewrite <- (rnd_generic y Hy). apply rnd_le. exact H. Qed.

Lemma rnd_range : forall x y, generic_format radix2 fexp64 y -> 0 <= x <= y -> 0 <= rnd x <= y.
Proof. intros x y Hy H. split; [apply rnd_ge_0 | apply rnd_le_fmt; [exact Hy|]]; apply H. Qed.

Lemma fmt_Z : forall z, (Z.abs z <= 2 ^ 53)%Z -> generic_format radix2 fexp64 (IZR z).
Proof.
  intros z Hz.
  destruct (Z.eq_dec (Z.abs z) (2 ^ 53)) as [E|NE].
  - assert (Hp : generic_format radix2 fexp64 (bpow radix2 53)).
    { apply generic_format_FLT_bpow; [auto with typeclass_instances | lia]. }
    destruct (Z.abs_eq_or_opp z) as [A|A]; rewrite A in E.
    + rewrite E. exact Hp.
    + assert (z = - 2 ^ 53)%Z as -> by lia. rewrite opp_IZR. apply generic_format_opp. exact Hp.
  - apply generic_format_FLT. apply (FLT_spec radix2 (-1074) 53 (IZR z) (Float radix2 z 0)).
    + unfold F2R. cbn [Fnum Fexp bpow]. lra.
    + cbn [Fnum]. change (Zpower radix2 53) with (2 ^ 53)%Z. lia.
    + cbn [Fexp]. lia.
Qed.

Lemma fmt_B2R : forall x : f64, generic_format radix2 fexp64 (B2R x).
Proof. intros x. apply (generic_format_B2R 53 1024). Qed.

Lemma rnd_abs_le : forall x y, generic_format radix2 fexp64 y -> Rabs x <= y -> Rabs (rnd x) <= y.
Proof. intros x y Hy H. rewrite rnd_FLT. apply abs_round_le_generic; auto with typeclass_instances. Qed.

(* what Flocq's Bmult_correct, Bdiv_correct and Bplus_correct have in common: an exact value z
   below 2^1000 does not overflow, and the result r is z rounded *)
Lemma op_correct : forall z (r : f64) (b : bool) (P Q : Prop), Rabs z <= bpow radix2 1000 ->
  (if Rlt_bool (Rabs (rnd z)) (bpow radix2 1024)
   then B2R r = rnd z /\ is_finite r = b /\ P else Q) ->
  is_finite r = b /\ B2R r = rnd z.
Proof.
  intros z r b P Q Hb H. rewrite Rlt_bool_true in H.
  - destruct H as (H1 & H2 & _). split; assumption.
  - apply Rle_lt_trans with (bpow radix2 1000); [|apply bpow_lt; lia].
    apply rnd_abs_le; [|exact Hb]. apply generic_format_FLT_bpow; [auto with typeclass_instances | lia].
Qed.

Lemma f64_of_Z_correct : forall z, (0 <= z <= 2 ^ 53)%Z ->
  is_finite (f64_of_Z z) = true /\ B2R (f64_of_Z z) = IZR z.
Proof.
  intros z Hz. unfold f64_of_Z.
  pose proof (binary_normalize_correct 53 1024 f64_prec_gt_0 f64_prec_lt_emax mode_NE z 0 false) as H.
  cbv zeta in H. fold (rnd (F2R (Float radix2 z 0))) in H.
  assert (E : F2R (Float radix2 z 0) = IZR z) by (unfold F2R; cbn [Fnum Fexp bpow]; lra).
  rewrite E in H. rewrite (rnd_generic (IZR z)) in H by (apply fmt_Z; lia).
  rewrite Rlt_bool_true in H.
  - destruct H as (H1 & H2 & _). split; assumption.
  - rewrite Rabs_pos_eq by (apply IZR_le; lia).
    apply Rle_lt_trans with (bpow radix2 53); [|apply bpow_lt; lia].
    change (bpow radix2 53) with (IZR (2 ^ 53)). apply IZR_le. lia.
Qed.

Lemma fmul_correct : forall x y : f64, is_finite x = true -> is_finite y = true ->
  Rabs (B2R x * B2R y) <= bpow radix2 1000 ->
  is_finite (fmul x y) = true /\ B2R (fmul x y) = rnd (B2R x * B2R y).
Proof.
  intros x y Fx Fy Hb.
  pose proof (op_correct _ _ _ _ _ Hb (Bmult_correct 53 1024 f64_prec_gt_0 f64_prec_lt_emax mode_NE x y)) as H.
  rewrite Fx, Fy in H. exact H.
Qed.

Lemma fdiv_correct : forall x y : f64, is_finite x = true -> B2R y <> 0 ->
  Rabs (B2R x / B2R y) <= bpow radix2 1000 ->
  is_finite (fdiv x y) = true /\ B2R (fdiv x y) = rnd (B2R x / B2R y).
Proof.
  intros x y Fx Hy Hb.
  pose proof (op_correct _ _ _ _ _ Hb (Bdiv_correct 53 1024 f64_prec_gt_0 f64_prec_lt_emax mode_NE x y Hy)) as H.
  rewrite Fx in H. exact H.
Qed.

Lemma rnd_rel : forall x, bpow radix2 (-1022) <= Rabs x ->
  exists eps, Rabs eps <= bpow radix2 (-53) /\ rnd x = x * (1 + eps).
Proof.
  intros x Hx.
  destruct (relative_error_N_FLT_ex radix2 (-1074) 53 f64_prec_gt_0 (fun n => negb (Z.even n)) x Hx)
    as (eps & He & Hr).
  exists eps. split; [|exact Hr].
  replace (bpow radix2 (-53)) with (/ 2 * bpow radix2 (- (53) + 1)); [exact He|].
  change (- (53) + 1)%Z with (-53 + 1)%Z. rewrite bpow_plus. change (bpow radix2 1) with 2. field.
Qed.

Lemma usize_of_finite : forall x : f64, is_finite x = true ->
  usize_of_f64 x = Z.min USIZE_MAX (Z.max 0 (Ztrunc (B2R x))).
Proof.
  intros x Fx.
  assert (T : IZR (Btrunc x) = IZR (Ztrunc (B2R x))).
  { rewrite (Btrunc_correct 53 1024 f64_prec_lt_emax). apply round_FIX_IZR. }
  apply eq_IZR in T.
  destruct x as [s|s| |s m e B]; try discriminate Fx.
  - cbn [usize_of_f64 B2R]. rewrite Ztrunc_IZR. reflexivity.
  - unfold usize_of_f64. rewrite T. reflexivity.
Qed.
Lemma f64_2_correct : is_finite f64_2 = true /\ B2R f64_2 = 2.
Proof. apply (f64_of_Z_correct 2). lia. Qed.
Lemma f64_1_correct : is_finite f64_1 = true /\ B2R f64_1 = 1.
Proof. apply (f64_of_Z_correct 1). lia. Qed.

Lemma Bltb_finite : forall a b : f64, is_finite a = true -> is_finite b = true ->
  Bltb a b = Rlt_bool (B2R a) (B2R b).
Proof. intros. apply (Bltb_correct 53 1024); assumption. Qed.

Lemma rust_max_finite : forall a b : f64, is_finite a = true -> is_finite b = true ->
  is_finite (rust_max a b) = true /\ B2R (rust_max a b) = Rmax (B2R a) (B2R b).
Proof.
  intros a b Fa Fb.
  assert (E : rust_max a b = if Bltb a b then b else a).
  { destruct a; try discriminate Fa; destruct b; try discriminate Fb; reflexivity. }
  rewrite E, (Bltb_finite a b Fa Fb).
  destruct (Rlt_bool_spec (B2R a) (B2R b)) as [H|H].
  - split; [exact Fb|]. rewrite Rmax_right; lra.
  - split; [exact Fa|]. rewrite Rmax_left; lra.
Qed.

Lemma rust_min_finite : forall a b : f64, is_finite a = true -> is_finite b = true ->
  is_finite (rust_min a b) = true /\ B2R (rust_min a b) = Rmin (B2R a) (B2R b).
Proof.
  intros a b Fa Fb.
  assert (E : rust_min a b = if Bltb b a then b else a).
  { destruct a; try discriminate Fa; destruct b; try discriminate Fb; reflexivity. }
  rewrite E, (Bltb_finite b a Fb Fa).
  destruct (Rlt_bool_spec (B2R b) (B2R a)) as [H|H].
  - split; [exact Fb|]. rewrite Rmin_right; lra.
  - split; [exact Fa|]. rewrite Rmin_left; lra.
Qed.

Lemma rust_max_nan_l : forall b : f64, rust_max B754_nan b = b.
Proof. intros b. destruct b; reflexivity. Qed.
Lemma rust_max_pinf_l : forall b : f64, is_finite b = true -> rust_max (B754_infinity false) b = B754_infinity false.
Proof. intros b Fb. destruct b; try discriminate Fb; reflexivity. Qed.
Lemma rust_max_ninf_l : forall b : f64, is_finite b = true -> rust_max (B754_infinity true) b = b.
Proof. intros b Fb. destruct b; try discriminate Fb; reflexivity. Qed.
Lemma rust_min_pinf_l : forall b : f64, is_finite b = true -> rust_min (B754_infinity false) b = b.
Proof. intros b Fb. destruct b; try discriminate Fb; reflexivity. Qed.

(* The clamp of window() in MSS units, as a real number, for EVERY float cwnd. *)
Definition clampR (c : f64) (rho : R) : R :=
  match c with
  | B754_nan => Rmin 2 rho
  | B754_infinity false => rho
  | B754_infinity true => Rmin 2 rho
  | _ => Rmin (Rmax (B2R c) 2) rho
  end.

Lemma clampR_finite : forall c rho, is_finite c = true -> clampR c rho = Rmin (Rmax (B2R c) 2) rho.
Proof. intros c rho F. destruct c; try discriminate F; reflexivity. Qed.

Lemma eff_exact : forall c rw : f64, is_finite rw = true ->
  is_finite (rust_min (rust_max c f64_2) rw) = true /\
  B2R (rust_min (rust_max c f64_2) rw) = clampR c (B2R rw).
Proof.
  intros c rw Frw. destruct f64_2_correct as [F2 V2].
  destruct (is_finite c) eqn:Fc.
  - destruct (rust_max_finite c f64_2 Fc F2) as [F V].
    destruct (rust_min_finite _ rw F Frw) as [F' V']. split; [exact F'|].
    rewrite V', V, V2, (clampR_finite _ _ Fc). reflexivity.
  - destruct (rust_min_finite f64_2 rw F2 Frw) as [F' V']. rewrite V2 in V'.
    destruct c as [|[|]| |]; try discriminate Fc.
    + rewrite (rust_max_ninf_l _ F2). split; assumption.
    + rewrite (rust_max_pinf_l _ F2), (rust_min_pinf_l _ Frw). split; [exact Frw|reflexivity].
    + rewrite rust_max_nan_l. split; assumption.
Qed.

Lemma clampR_bounds : forall c rho, 0 <= rho -> Rmin 2 rho <= clampR c rho <= rho.
Proof.
  intros c rho Hr. unfold clampR.
  destruct c as [s|[|]| |s m e B]; try generalize (B2R (B754_finite s m e B)); try intros x;
    cbn [B2R]; unfold Rmin, Rmax; repeat destruct (Rle_dec _ _); lra.
Qed.

(* the nonlinear facts the bounds below need: products and quotients of ranges, spelled out
   so that the rest is linear arithmetic *)
Lemma mult_range : forall x y X Y B, 0 <= x <= X -> 0 <= y <= Y -> X * Y <= B -> 0 <= x * y <= B.
Proof.
  intros x y X Y B Hx Hy HB. split; [apply Rmult_le_pos; lra|].
  apply Rle_trans with (2 := HB). apply Rmult_le_compat; lra.
Qed.

Lemma mult_err_range : forall x d X e, 0 <= x <= X -> - e <= d <= e -> - (X * e) <= x * d <= X * e.
Proof.
  intros x d X e Hx Hd. apply Rabs_le_inv. rewrite Rabs_mult, (Rabs_pos_eq x) by lra.
  apply Rmult_le_compat; [lra | apply Rabs_pos | lra | apply Rabs_le; exact Hd].
Qed.

(* (1 + a) (1 + b) = 1 + (a + b + a b) *)
Lemma rel_err_compose : forall a b A B, Rabs a <= A -> Rabs b <= B ->
  Rabs (a + b + a * b) <= A + B + A * B.
Proof.
  intros a b A B Ha Hb.
  apply Rle_trans with (1 := Rabs_triang _ _). apply Rplus_le_compat.
  - apply Rle_trans with (1 := Rabs_triang _ _). apply Rplus_le_compat; assumption.
  - rewrite Rabs_mult. apply Rmult_le_compat; try apply Rabs_pos; assumption.
Qed.

Lemma inv_mss_R : forall M, 1 <= M <= 65536 -> / 65536 <= / M <= 1.
Proof.
  intros M H. split; [apply Rinv_le_contravar; lra|]. rewrite <- Rinv_1. apply Rinv_le_contravar; lra.
Qed.

Lemma div_mss_range : forall x M B, 0 <= x <= B -> 1 <= M <= 65536 -> 0 <= x / M <= B.
Proof.
  intros x M B Hx HM. pose proof (inv_mss_R M HM) as Hi. apply (mult_range x (/ M) B 1); lra.
Qed.

Lemma div_mss_ge : forall x M, 1 <= x -> 1 <= M <= 65536 -> / 65536 <= x / M.
Proof.
  intros x M Hx HM. pose proof (inv_mss_R M HM) as Hi.
  rewrite <- (Rmult_1_l (/ 65536)). apply Rmult_le_compat; lra.
Qed.

Definition mss_ok (m : Z) : Prop := (1 <= m < 65536)%Z.
Definition rwnd_ok (rw : f64) : Prop := is_finite rw = true /\ 0 <= B2R rw <= 4294967296.

Lemma mss_R : forall m, mss_ok m -> 1 <= IZR m <= 65535.
Proof. intros m H. unfold mss_ok in H. split; apply IZR_le; lia. Qed.

Lemma Ztrunc_ge_Z : forall x n, IZR n <= x -> (n <= Ztrunc x)%Z.
Proof. intros x n H. rewrite <- (Ztrunc_IZR n). apply Ztrunc_le. exact H. Qed.

Lemma Ztrunc_le_Z : forall x n, x <= IZR n -> (Ztrunc x <= n)%Z.
Proof. intros x n H. rewrite <- (Ztrunc_IZR n). apply Ztrunc_le. exact H. Qed.

Lemma pow48_fmt : generic_format radix2 fexp64 281474976710656.
Proof. apply (fmt_Z 281474976710656). lia. Qed.

Lemma mss_correct : forall m, mss_ok m -> is_finite (f64_of_Z m) = true /\ B2R (f64_of_Z m) = IZR m.
Proof. intros m Hm. apply f64_of_Z_correct. unfold mss_ok in Hm. lia. Qed.

Lemma le_bpow_1000 : forall x, x <= 18446744073709551616 -> x <= bpow radix2 1000.
Proof.
  intros x H. apply Rle_trans with (bpow radix2 64); [|apply bpow_le; lia].
  change (bpow radix2 64) with (IZR (2 ^ 64)). exact H.
Qed.

Lemma window_val : forall s, mss_ok (mss s) -> rwnd_ok (rwnd s) ->
  cubic_window s = Ztrunc (rnd (clampR (cwnd s) (B2R (rwnd s)) * IZR (mss s))) /\
  0 <= rnd (clampR (cwnd s) (B2R (rwnd s)) * IZR (mss s)) <= 281474976710656.
Proof.
  intros s Hm [Frw Hrw]. unfold cubic_window, cubic_eff.
  destruct (eff_exact (cwnd s) (rwnd s) Frw) as [Fe Ve].
  destruct (mss_correct _ Hm) as [Fm Vm].
  pose proof (clampR_bounds (cwnd s) (B2R (rwnd s)) (proj1 Hrw)) as Hc.
  set (v := clampR (cwnd s) (B2R (rwnd s))) in *.
  pose proof (mss_R _ Hm) as Hm'.
  assert (Hv0 : 0 <= v).
  { apply Rle_trans with (Rmin 2 (B2R (rwnd s))); [|apply Hc]. apply Rmin_glb; lra. }
  assert (Hp : 0 <= v * IZR (mss s) <= 281474976710656)
    by (apply (mult_range _ _ 4294967296 65535); lra).
  destruct (fmul_correct _ _ Fe Fm) as [Fp Vp].
  { rewrite Ve, Vm. fold v. rewrite Rabs_pos_eq by lra. apply le_bpow_1000. lra. }
  rewrite Ve, Vm in Vp. fold v in Vp.
  pose proof (rnd_range _ _ pow48_fmt Hp) as Hr.
  split; [|exact Hr].
  rewrite (usize_of_finite _ Fp), Vp.
  pose proof (Ztrunc_ge_Z _ 0 (proj1 Hr)). pose proof (Ztrunc_le_Z _ 281474976710656 (proj2 Hr)).
  unfold USIZE_MAX, M64. lia.
Qed.
Lemma eps_val : bpow radix2 (-53) = / 9007199254740992.
Proof. reflexivity. Qed.

Lemma tiny_le : forall x, / 65536 <= x -> bpow radix2 (-1022) <= Rabs x.
Proof.
  intros x H. rewrite Rabs_pos_eq by lra.
  apply Rle_trans with (bpow radix2 (-16)); [apply bpow_le; lia|].
  replace (bpow radix2 (-16)) with (/ 65536) by reflexivity. exact H.
Qed.

Lemma pow32_fmt : generic_format radix2 fexp64 4294967296.
Proof. apply (fmt_Z 4294967296). lia. Qed.

Lemma set_rw_ok : forall m win, mss_ok m -> (0 <= win < 2 ^ 32)%Z ->
  rwnd_ok (fdiv (f64_of_Z win) (f64_of_Z m)) /\
  B2R (fdiv (f64_of_Z win) (f64_of_Z m)) = rnd (IZR win / IZR m).
Proof.
  intros m win Hm Hw.
  destruct (mss_correct _ Hm) as [Fm Vm].
  destruct (f64_of_Z_correct win) as [Fw Vw]; [lia|].
  pose proof (mss_R _ Hm) as Hm'.
  assert (Hw' : 0 <= IZR win <= 4294967296) by (split; apply IZR_le; lia).
  assert (Hq : 0 <= IZR win / IZR m <= 4294967296) by (apply div_mss_range; lra).
  destruct (fdiv_correct (f64_of_Z win) (f64_of_Z m) Fw) as [Fd Vd].
  - rewrite Vm. lra.
  - rewrite Vw, Vm, Rabs_pos_eq by lra. apply le_bpow_1000. lra.
  - rewrite Vw, Vm in Vd. split; [|exact Vd]. split; [exact Fd|]. rewrite Vd.
    exact (rnd_range _ _ pow32_fmt Hq).
Qed.

Lemma roundtrip : forall m win, mss_ok m -> (0 <= win < 2 ^ 32)%Z ->
  IZR win - 1 < rnd (rnd (IZR win / IZR m) * IZR m) < IZR win + 1.
Proof.
  intros m win Hm Hw.
  pose proof (mss_R _ Hm) as Hm'.
  destruct (Z.eq_dec win 0) as [->|Hnz].
  - unfold Rdiv. rewrite Rmult_0_l, rnd_0, Rmult_0_l, rnd_0. lra.
  - assert (Hw' : 1 <= IZR win <= 4294967296) by (split; apply IZR_le; lia).
    destruct (rnd_rel (IZR win / IZR m)) as (e1 & He1 & E1).
    { apply tiny_le, div_mss_ge; lra. }
    rewrite E1.
    replace (IZR win / IZR m * (1 + e1) * IZR m) with (IZR win * (1 + e1)) by (field; lra).
    rewrite eps_val in He1. apply Rabs_le_inv in He1.
    destruct (mult_err_range (IZR win) e1 4294967296 (/ 9007199254740992)) as [Ha0 Ha1];
      [lra | exact He1 |].
    destruct (rnd_rel (IZR win * (1 + e1))) as (e2 & He2 & E2); [apply tiny_le; lra|].
    rewrite E2. rewrite eps_val in He2. apply Rabs_le_inv in He2.
    destruct (mult_err_range (IZR win * (1 + e1)) e2 8589934592 (/ 9007199254740992)) as [Hb0 Hb1];
      [lra | exact He2 |].
    split; lra.
Qed.

Lemma Ztrunc_lt_succ : forall x n, 0 <= x -> x < IZR n + 1 -> (Ztrunc x <= n)%Z.
Proof.
  intros x n H0 H. rewrite Ztrunc_floor by exact H0.
  assert (Zfloor x < n + 1)%Z; [|lia].
  apply lt_IZR. rewrite plus_IZR. apply Rle_lt_trans with x; [apply Zfloor_lb|exact H].
Qed.

Lemma Ztrunc_ge_pred : forall x n, 0 <= x -> IZR n - 1 < x -> (n - 1 <= Ztrunc x)%Z.
Proof.
  intros x n H0 H. rewrite Ztrunc_floor by exact H0.
  apply Zfloor_lub. rewrite minus_IZR. lra.
Qed.

(* window bounds for every state whose stored peer window is fl(win/mss) *)
Lemma window_bounds_sem : forall (s : cubic) (win : Z),
  mss_ok (mss s) -> (0 <= win < 2 ^ 32)%Z ->
  is_finite (rwnd s) = true -> B2R (rwnd s) = rnd (IZR win / IZR (mss s)) ->
  (cubic_window s <= win)%Z /\ (Z.min (2 * mss s) win - 1 <= cubic_window s)%Z /\
  (0 <= cubic_window s)%Z.
Proof.
  intros s win Hm Hw Frw Vrw.
  assert (Hok : rwnd_ok (rwnd s)).
  { split; [exact Frw|]. rewrite Vrw. destruct (set_rw_ok _ _ Hm Hw) as [[_ H] V].
    rewrite V in H. exact H. }
  destruct (window_val s Hm Hok) as [Ew Hr]. rewrite Ew.
  rewrite Vrw in *.
  set (rho := rnd (IZR win / IZR (mss s))) in *.
  assert (Hrho : 0 <= rho <= 4294967296) by (destruct Hok as [_ H]; try rewrite Vrw in H; exact H).
  pose proof (clampR_bounds (cwnd s) rho (proj1 Hrho)) as Hc.
  set (v := clampR (cwnd s) rho) in *.
  pose proof (roundtrip _ _ Hm Hw) as RT. fold rho in RT.
  pose proof (mss_R _ Hm) as Hm'.
  assert (Hup : rnd (v * IZR (mss s)) <= rnd (rho * IZR (mss s)))
    by (apply rnd_le, Rmult_le_compat_r; lra).
  split; [|split].
  - apply Ztrunc_lt_succ; lra.
  - destruct (Rle_dec 2 rho) as [H2|H2].
    + assert (2 <= v) by (rewrite Rmin_left in Hc by exact H2; lra).
      assert (2 * mss s <= Ztrunc (rnd (v * IZR (mss s))))%Z; [|lia].
      apply Ztrunc_ge_Z, rnd_ge_fmt; [apply fmt_Z; unfold mss_ok in Hm; lia|].
      rewrite mult_IZR. apply Rmult_le_compat_r; lra.
    + assert (v = rho) by (rewrite Rmin_right in Hc by lra; lra).
      rewrite H. assert (win - 1 <= Ztrunc (rnd (rho * IZR (mss s))))%Z.
      { apply Ztrunc_ge_pred; [rewrite <- H; lra | lra]. }
      lia.
  - apply Ztrunc_ge_Z. lra.
Qed.

(* c15_window_bounds: EVERY float state (NaN, +-inf included in cwnd and all other fields) *)
Lemma window_bounds : forall (s : cubic) (win : Z),
  mss_ok (mss s) -> (0 <= win < 2 ^ 32)%Z ->
  let w := cubic_window (cubic_set_remote_window s win) in
  (w <= win)%Z /\ (Z.min (2 * mss s) win - 1 <= w)%Z /\ (0 <= w)%Z.
Proof.
  intros s win Hm Hw. cbv zeta.
  destruct (set_rw_ok _ _ Hm Hw) as [[Frw _] Vrw].
  exact (window_bounds_sem (cubic_set_remote_window s win) win Hm Hw Frw Vrw).
Qed.
(* ---- constants *)
Lemma BETA_finite : is_finite BETA_CUBIC = true.
Proof. vm_compute. reflexivity. Qed.

Lemma BETA_val : B2R BETA_CUBIC = 6305039478318694 / 9007199254740992.
Proof.
  rewrite <- (SF2R_B2SF 53 1024).
  replace (B2SF BETA_CUBIC) with (S754_finite false 6305039478318694 (-53)) by (vm_compute; reflexivity).
  unfold SF2R, F2R. cbn [cond_Zopp Fnum Fexp]. rewrite eps_val. reflexivity.
Qed.

Lemma BETA_range : 0 < B2R BETA_CUBIC < 1.
Proof. rewrite BETA_val. lra. Qed.

Lemma finite_sign : forall x : f64, is_finite x = true -> 0 < B2R x ->
  exists m e B, x = B754_finite false m e B.
Proof.
  intros x Fx Hx. destruct x as [s|s| |s m e B]; try discriminate Fx.
  - cbn [B2R] in Hx. lra.
  - destruct s.
    + exfalso. cbn [B2R cond_Zopp] in Hx.
      assert (F2R (Float radix2 (Z.neg m) e) < 0) by (apply F2R_lt_0; cbn [Fnum]; lia). 
      change (- Z.pos m)%Z with (Z.neg m) in Hx. lra.
    + exists m, e, B. reflexivity.
Qed.

Lemma BETA_shape : exists m e B, BETA_CUBIC = B754_finite false m e B.
Proof. apply finite_sign; [exact BETA_finite | apply BETA_range]. Qed.

Lemma fmul_correct_le : forall x y z : f64, is_finite x = true -> is_finite y = true ->
  Rabs (B2R x * B2R y) <= Rabs (B2R z) ->
  is_finite (fmul x y) = true /\ B2R (fmul x y) = rnd (B2R x * B2R y).
Proof.
  intros x y z Fx Fy Hb. unfold fmul.
  pose proof (Bmult_correct 53 1024 f64_prec_gt_0 f64_prec_lt_emax mode_NE x y) as H.
  fold (rnd (B2R x * B2R y)) in H. rewrite Rlt_bool_true in H.
  - destruct H as (H1 & H2 & _). rewrite Fx, Fy in H2. split; assumption.
  - apply Rle_lt_trans with (Rabs (B2R z)); [|apply (abs_B2R_lt_emax 53 1024)].
    apply rnd_abs_le; [|exact Hb]. apply generic_format_abs. apply fmt_B2R.
Qed.

Lemma mult_beta_range : forall x, 0 <= x -> 0 <= x * B2R BETA_CUBIC <= x.
Proof.
  intros x H. pose proof BETA_range as Hb. split; [apply Rmult_le_pos; lra|].
  rewrite <- (Rmult_1_r x) at 2. apply Rmult_le_compat_l; lra.
Qed.

(* cwnd * BETA_CUBIC never overflows, and neither does the ssthresh computed from it *)
Lemma fmul_beta_correct : forall c : f64, is_finite c = true ->
  is_finite (fmul c BETA_CUBIC) = true /\ B2R (fmul c BETA_CUBIC) = rnd (B2R c * B2R BETA_CUBIC).
Proof.
  intros c Fc. apply (fmul_correct_le c BETA_CUBIC c Fc BETA_finite).
  pose proof BETA_range as Hb. rewrite Rabs_mult, (Rabs_pos_eq (B2R BETA_CUBIC)) by lra.
  rewrite <- (Rmult_1_r (Rabs (B2R c))) at 2. apply Rmult_le_compat_l; [apply Rabs_pos | lra].
Qed.

Lemma beta_max_correct : forall c : f64, is_finite c = true ->
  is_finite (rust_max (fmul c BETA_CUBIC) f64_2) = true /\
  B2R (rust_max (fmul c BETA_CUBIC) f64_2) = Rmax (rnd (B2R c * B2R BETA_CUBIC)) 2.
Proof.
  intros c Fc. destruct (fmul_beta_correct c Fc) as [Fp Vp].
  destruct (rust_max_finite _ f64_2 Fp (proj1 f64_2_correct)) as [F V].
  split; [exact F|]. rewrite V, Vp, (proj2 f64_2_correct). reflexivity.
Qed.

Lemma Rmin_Rmax_mono : forall x y rho, x <= y -> Rmin (Rmax x 2) rho <= Rmin (Rmax y 2) rho.
Proof. intros. unfold Rmin, Rmax. repeat destruct (Rle_dec _ _); lra. Qed.

(* on_enter_recovery: cwnd *= BETA_CUBIC never increases the clamped cwnd, for EVERY float cwnd *)
Lemma beta_clamp_le : forall (c : f64) rho, 0 <= rho ->
  clampR (fmul c BETA_CUBIC) rho <= clampR c rho.
Proof.
  intros c rho Hr. destruct BETA_shape as (mb & eb & Bb & EB).
  pose proof BETA_range as Hbeta.
  assert (Fin : forall x : f64, is_finite x = true ->
            clampR (fmul x BETA_CUBIC) rho <= clampR x rho).
  { intros x Fx. destruct (fmul_beta_correct x Fx) as [Fp Vp].
    rewrite (clampR_finite _ _ Fp), (clampR_finite _ _ Fx), Vp.
    destruct (Rle_dec 0 (B2R x)) as [Hx|Hx].
    - apply Rmin_Rmax_mono. rewrite <- (rnd_generic (B2R x)) at 2 by apply fmt_B2R.
      apply rnd_le, mult_beta_range, Hx.
    - assert (rnd (B2R x * B2R BETA_CUBIC) <= 0).
      { rewrite <- rnd_0. apply rnd_le. rewrite <- (Rmult_0_l (B2R BETA_CUBIC)).
        apply Rmult_le_compat_r; lra. }
      rewrite !Rmax_right by lra. lra. }
  destruct c as [s|[|]| |s m e B].
  - apply Fin. reflexivity.
  - rewrite EB. cbn. lra.
  - rewrite EB. cbn. lra.
  - cbn. lra.
  - apply Fin. reflexivity.
Qed.

Lemma one_clamp_le : forall (c : f64) rho, 0 <= rho -> clampR f64_1 rho <= clampR c rho.
Proof.
  intros c rho Hr. destruct f64_1_correct as [F1 V1].
  rewrite (clampR_finite _ _ F1), V1, Rmax_right by lra. apply clampR_bounds. exact Hr.
Qed.

Lemma window_mono : forall s s', mss s' = mss s -> rwnd s' = rwnd s ->
  mss_ok (mss s) -> rwnd_ok (rwnd s) ->
  clampR (cwnd s') (B2R (rwnd s)) <= clampR (cwnd s) (B2R (rwnd s)) ->
  (cubic_window s' <= cubic_window s)%Z.
Proof.
  intros s s' Em Er Hm Hok Hc.
  destruct (window_val s Hm Hok) as [E _].
  assert (Hm' : mss_ok (mss s')) by (rewrite Em; exact Hm).
  assert (Hok' : rwnd_ok (rwnd s')) by (rewrite Er; exact Hok).
  destruct (window_val s' Hm' Hok') as [E' _].
  rewrite E, E', Em, Er. apply Ztrunc_le, rnd_le.
  pose proof (mss_R _ Hm). apply Rmult_le_compat_r; lra.
Qed.

(* c15_loss_never_increases, byte windows *)
Lemma rto_window_le : forall s, mss_ok (mss s) -> rwnd_ok (rwnd s) ->
  (cubic_window (cubic_on_retransmission_timeout s) <= cubic_window s)%Z.
Proof.
  intros s Hm Hok. apply window_mono; try reflexivity; try assumption.
  apply one_clamp_le. apply Hok.
Qed.
Section WithLibm.
Variable cbrt : f64 -> f64.
Variable powf3 : f64 -> f64.

Lemma enter_recovery_window_le : forall s now, mss_ok (mss s) -> rwnd_ok (rwnd s) ->
  (cubic_window (cubic_on_enter_recovery cbrt s now) <= cubic_window s)%Z.
Proof.
  intros s now Hm Hok. apply window_mono; try reflexivity; try assumption.
  cbn [cubic_on_enter_recovery cwnd]. apply beta_clamp_le. apply Hok.
Qed.

(* cwnd itself (MSS units, finite cwnd >= 0): on_enter_recovery does not increase it *)
Lemma enter_recovery_cwnd_le : forall s now, is_finite (cwnd s) = true -> 0 <= B2R (cwnd s) ->
  let s' := cubic_on_enter_recovery cbrt s now in
  is_finite (cwnd s') = true /\
  B2R (cwnd s') = rnd (B2R (cwnd s) * B2R BETA_CUBIC) /\
  0 <= B2R (cwnd s') <= B2R (cwnd s) /\
  ssthresh s' = rust_max (cwnd s') f64_2 /\
  B2R (ssthresh s') = Rmax (rnd (B2R (cwnd s) * B2R BETA_CUBIC)) 2.
Proof.
  intros s now Fc Hc. cbv zeta. cbn [cubic_on_enter_recovery cwnd ssthresh].
  destruct (fmul_beta_correct (cwnd s) Fc) as [Fp Vp]. destruct (mult_beta_range _ Hc) as [H0 H1].
  split; [exact Fp|]. split; [exact Vp|]. split; [|split; [reflexivity|]].
  - rewrite Vp. split.
    + rewrite <- rnd_0. apply rnd_le. exact H0.
    + rewrite <- (rnd_generic (B2R (cwnd s))) at 2 by apply fmt_B2R. apply rnd_le. exact H1.
  - apply beta_max_correct. exact Fc.
Qed.
End WithLibm.

(* on_retransmission_timeout: cwnd = 1; the clamped cwnd max(cwnd,2) never increases for any
   state; cwnd itself does not increase when cwnd >= 1 (cwnd < 1 is reachable only through
   set_mss rescaling and is invisible in window(), which clamps at 2). *)
Lemma rto_cwnd : forall s, is_finite (cwnd s) = true -> 0 <= B2R (cwnd s) ->
  let s' := cubic_on_retransmission_timeout s in
  cwnd s' = f64_1 /\
  Rmax (B2R (cwnd s')) 2 <= Rmax (B2R (cwnd s)) 2 /\
  (1 <= B2R (cwnd s) -> B2R (cwnd s') <= B2R (cwnd s)) /\
  ssthresh s' = rust_max (fmul (cwnd s) BETA_CUBIC) f64_2 /\
  B2R (ssthresh s') = Rmax (rnd (B2R (cwnd s) * B2R BETA_CUBIC)) 2.
Proof.
  intros s Fc Hc. cbv zeta. cbn [cubic_on_retransmission_timeout cwnd ssthresh].
  destruct f64_1_correct as [F1 V1].
  split; [reflexivity|]. rewrite V1. split; [|split; [|split; [reflexivity|]]].
  - rewrite (Rmax_right 1 2) by lra. apply Rmax_r.
  - intros H. exact H.
  - apply beta_max_correct. exact Fc.
Qed.

Lemma mss_shape : forall m, mss_ok m -> exists mm e B, f64_of_Z m = B754_finite false mm e B.
Proof.
  intros m Hm. destruct (mss_correct m Hm) as [F V]. apply finite_sign; [exact F|].
  rewrite V. apply IZR_lt. unfold mss_ok in Hm. lia.
Qed.

Lemma usize_ge_of_real : forall (x : f64) n, is_finite x = true -> (0 <= n <= USIZE_MAX)%Z ->
  IZR n <= B2R x -> (n <= usize_of_f64 x)%Z.
Proof.
  intros x n Fx Hn H. rewrite (usize_of_finite x Fx).
  pose proof (Ztrunc_ge_Z _ n H).
  lia.
Qed.

(* the product of two positive finite floats is the rounded product, or +inf on overflow *)
Lemma fmul_pos_cases : forall x y : f64, is_finite x = true -> is_finite y = true ->
  0 < B2R x -> 0 < B2R y ->
  is_finite (fmul x y) = true /\ B2R (fmul x y) = rnd (B2R x * B2R y) \/
  fmul x y = B754_infinity false.
Proof.
  intros x y Fx Fy Hx Hy.
  destruct (finite_sign x Fx Hx) as (mx & ex & Bx & Ex).
  destruct (finite_sign y Fy Hy) as (my & ey & By & Ey).
  pose proof (Bmult_correct 53 1024 f64_prec_gt_0 f64_prec_lt_emax mode_NE x y) as H.
  fold (rnd (B2R x * B2R y)) in H. fold (fmul x y) in H.
  destruct (Rlt_bool (Rabs (rnd (B2R x * B2R y))) (bpow radix2 1024)).
  - destruct H as (V & F & _). rewrite Fx, Fy in F. left. split; assumption.
  - right. set (P := fmul x y) in *.
    assert (Sx : Bsign x = false) by (rewrite Ex; reflexivity).
    assert (Sy : Bsign y = false) by (rewrite Ey; reflexivity).
    rewrite Sx, Sy in H. cbn in H.
    destruct P as [s|s| |s m' e' B']; try discriminate H.
    cbn in H. injection H as ->. reflexivity.
Qed.

(* lower bound on usize(X * mss) that survives overflow of the product to +inf *)
Lemma usize_fmul_ge : forall (X : f64) m n, mss_ok m -> is_finite X = true -> 0 < B2R X ->
  (0 <= n <= USIZE_MAX)%Z -> IZR n <= rnd (B2R X * IZR m) ->
  (n <= usize_of_f64 (fmul X (f64_of_Z m)))%Z.
Proof.
  intros X m n Hm FX HX Hn H.
  destruct (mss_correct m Hm) as [Fm Vm]. pose proof (mss_R _ Hm) as HM.
  destruct (fmul_pos_cases X (f64_of_Z m) FX Fm HX) as [[F V]|E]; [rewrite Vm; lra | |].
  - apply usize_ge_of_real; [exact F | exact Hn |]. rewrite V, Vm. exact H.
  - rewrite E. exact (proj2 Hn).
Qed.

(* ssthresh = max(x, 2.) for ANY float x gives sshthresh() >= 2 mss *)
Lemma sshthresh_ge_2mss : forall (x : f64) m, mss_ok m ->
  (2 * m <= usize_of_f64 (fmul (rust_max x f64_2) (f64_of_Z m)))%Z.
Proof.
  intros x m Hm. destruct f64_2_correct as [F2 V2]. pose proof (mss_R _ Hm) as Hm'.
  assert (Hn : (0 <= 2 * m <= USIZE_MAX)%Z) by (unfold mss_ok in Hm; unfold USIZE_MAX, M64; lia).
  assert (Fin : forall X : f64, is_finite X = true -> 2 <= B2R X ->
            (2 * m <= usize_of_f64 (fmul X (f64_of_Z m)))%Z).
  { intros X FX HX. apply usize_fmul_ge; [exact Hm | exact FX | lra | exact Hn |].
    apply rnd_ge_fmt; [apply fmt_Z; unfold mss_ok in Hm; lia|].
    rewrite mult_IZR. apply Rmult_le_compat_r; lra. }
  destruct (is_finite x) eqn:Fx.
  - destruct (rust_max_finite x f64_2 Fx F2) as [F V].
    apply Fin; [exact F|]. rewrite V, V2. apply Rmax_r.
  - destruct x as [|[|]| |]; try discriminate Fx.
    + rewrite (rust_max_ninf_l _ F2). apply Fin; [exact F2 | lra].
    + destruct (mss_shape m Hm) as (mm & em & Bm & Em).
      rewrite (rust_max_pinf_l _ F2), Em. cbn. exact (proj2 Hn).
    + rewrite rust_max_nan_l. apply Fin; [exact F2 | lra].
Qed.
(* ---- the observable predicate (rounding-independent clauses) holds on every model trace *)
Definition inv (s : cubic) (a : c15_acc) : Prop :=
  mss s = a_mss a /\ mss_ok (mss s) /\ rwnd_ok (rwnd s) /\ (0 <= last_congestion_event s)%Z /\
  (a_fresh a = true ->
     (0 <= a_win a < 2 ^ 32)%Z /\ B2R (rwnd s) = rnd (IZR (a_win a) / IZR (mss s))) /\
  a_w a = cubic_window s /\ a_ss a = cubic_sshthresh s.

Lemma bounds_ok_true : forall m win w, (w <= win)%Z -> (Z.min (2 * m) win - 1 <= w)%Z -> (0 <= w)%Z ->
  c15_bounds_ok m win w = true.
Proof. intros. unfold c15_bounds_ok. lia. Qed.

Lemma fresh_bounds : forall s a, inv s a ->
  (if a_fresh a then c15_bounds_ok (a_mss a) (a_win a) (cubic_window s) else true) = true.
Proof.
  intros s a (Em & Hm & Hok & _ & Hf & _). destruct (a_fresh a); [|reflexivity].
  destruct (Hf eq_refl) as [Hw Vrw].
  destruct (window_bounds_sem s (a_win a) Hm Hw (proj1 Hok) Vrw) as (B1 & B2 & B3).
  rewrite <- Em. apply bounds_ok_true; assumption.
Qed.

Lemma mss_ok_b : forall m, c15_mss_ok m = true -> mss_ok m.
Proof. intros m H. unfold c15_mss_ok in H. unfold mss_ok. lia. Qed.

Section Trace.
Variable cbrt : f64 -> f64.
Variable powf3 : f64 -> f64.

Lemma on_ack_shape : forall s now len rtt,
  (0 <= last_congestion_event s)%Z -> (0 <= now < M64)%Z -> (0 <= rtt <= C15_RTT_MAX)%Z ->
  exists s', cubic_on_ack powf3 s now len rtt = Some s' /\
    mss s' = mss s /\ rwnd s' = rwnd s /\ ssthresh s' = ssthresh s /\
    last_congestion_event s' = last_congestion_event s /\ (len = 0%Z -> s' = s).
Proof.
  intros s now len rtt Hl Hn Hr. unfold cubic_on_ack.
  destruct (len =? 0)%Z eqn:El.
  { exists s. repeat split; reflexivity. }
  destruct (fge (cwnd s) (rwnd s)).
  { exists s. repeat split; reflexivity. }
  assert (Hadd : exists t2, cu_dur_add (sat_sub now (last_congestion_event s)) rtt = Some t2).
  { unfold cu_dur_add, sat_sub, CU_DUR_MAX, CU_NS_PER_SEC, C15_RTT_MAX, CU_NS_PER_SEC, M64 in *.
    match goal with |- context [if ?c then _ else _] => destruct c eqn:Ec end.
    - eexists. reflexivity.
    - exfalso. lia. }
  destruct Hadd as [t2 Ht2]. rewrite Ht2. cbn [bind].
  destruct (flt (cwnd s) (ssthresh s)); [|destruct (flt _ _)];
    (eexists; split; [reflexivity|]; repeat split; try reflexivity; intros ->; discriminate El).
Qed.

Lemma step_ok : forall s a o, inv s a -> c15_op_dom o = true ->
  exists s', cubic_step cbrt powf3 s o = Some s' /\
    c15_check false a o (cubic_window s') (cubic_sshthresh s') (cubic_smss s') = true /\
    inv s' (c15_next a o (cubic_window s') (cubic_sshthresh s') (cubic_smss s')).
Proof.
  intros s a o Hinv Hd. pose proof Hinv as (Em & Hm & Hok & Hl & Hf & Ew & Es).
  destruct o as [win|now len rtt| |now|cb sb|m']; unfold c15_op_dom in Hd.
  - (* SetRemoteWindow *)
    eexists. split; [reflexivity|].
    assert (Hw : (0 <= win < 2 ^ 32)%Z) by (unfold c15_u32, M32 in Hd; lia).
    destruct (set_rw_ok _ _ Hm Hw) as [Hok' Vrw'].
    destruct (window_bounds s win Hm Hw) as (B1 & B2 & B3). cbv zeta in B1, B2, B3.
    split.
    + unfold c15_check. cbv iota beta. rewrite <- Em.
      rewrite (bounds_ok_true _ _ _ B1 B2 B3).
      change (cubic_smss (cubic_set_remote_window s win)) with (mss s).
      change (cubic_sshthresh (cubic_set_remote_window s win)) with (cubic_sshthresh s).
      rewrite Es. rewrite !Z.eqb_refl. reflexivity.
    + unfold c15_next, inv. cbn [a_mss a_win a_fresh a_w a_ss].
      refine (conj Em (conj Hm (conj Hok' (conj Hl (conj _ (conj eq_refl eq_refl)))))).
      intros _. split; [exact Hw | exact Vrw'].
  - (* OnAck *)
    assert (Hn : (0 <= now < M64)%Z) by lia.
    assert (Hr : (0 <= rtt <= C15_RTT_MAX)%Z) by lia.
    destruct (on_ack_shape s now len rtt Hl Hn Hr) as (s' & E & Em' & Er' & Et' & El' & Hz).
    exists s'. split; [exact E|].
    assert (Ess : cubic_sshthresh s' = cubic_sshthresh s)
      by (unfold cubic_sshthresh; rewrite Et', Em'; reflexivity).
    assert (Hinv' : inv s' (c15_next a (OnAck now len rtt) (cubic_window s') (cubic_sshthresh s') (cubic_smss s'))).
    { unfold c15_next, inv. cbn [a_mss a_win a_fresh a_w a_ss]. rewrite Em', Er', El'.
      exact (conj Em (conj Hm (conj Hok (conj Hl (conj Hf (conj eq_refl eq_refl)))))). }
    split; [|exact Hinv'].
    unfold c15_check. cbv iota beta. cbn [andb].
    pose proof (fresh_bounds s' _ Hinv') as FB. unfold c15_next in FB. cbn [a_mss a_win a_fresh] in FB.
    rewrite FB. unfold cubic_smss. rewrite Em', Em, Ess, Es, !Z.eqb_refl. cbn [andb].
    destruct (len =? 0)%Z eqn:El0; [|reflexivity].
    rewrite (Hz (proj1 (Z.eqb_eq _ _) El0)), Ew, Z.eqb_refl. reflexivity.
  - (* OnRto *)
    eexists. split; [reflexivity|]. set (s' := cubic_on_retransmission_timeout s).
    assert (Hinv' : inv s' (c15_next a OnRto (cubic_window s') (cubic_sshthresh s') (cubic_smss s'))).
    { unfold c15_next, inv. cbn [a_mss a_win a_fresh a_w a_ss].
      exact (conj Em (conj Hm (conj Hok (conj Hl (conj Hf (conj eq_refl eq_refl)))))). }
    split; [|exact Hinv'].
    unfold c15_check. cbv iota beta. cbn [andb].
    pose proof (fresh_bounds s' _ Hinv') as FB. unfold c15_next in FB. cbn [a_mss a_win a_fresh] in FB.
    rewrite FB. change (cubic_smss s') with (mss s). rewrite Em, Z.eqb_refl. cbn [andb].
    pose proof (rto_window_le s Hm Hok) as WL. fold s' in WL.
    pose proof (sshthresh_ge_2mss (fmul (cwnd s) BETA_CUBIC) (mss s) Hm) as SG.
    change (usize_of_f64 _) with (cubic_sshthresh s') in SG.
    rewrite Ew, <- Em. lia.
  - (* OnEnterRecovery *)
    eexists. split; [reflexivity|]. set (s' := cubic_on_enter_recovery cbrt s now).
    assert (Hinv' : inv s' (c15_next a (OnEnterRecovery now) (cubic_window s') (cubic_sshthresh s') (cubic_smss s'))).
    { unfold c15_next, inv. cbn [a_mss a_win a_fresh a_w a_ss].
      refine (conj Em (conj Hm (conj Hok (conj _ (conj Hf (conj eq_refl eq_refl)))))).
      cbn [s' cubic_on_enter_recovery last_congestion_event]. lia. }
    split; [|exact Hinv'].
    unfold c15_check. cbv iota beta. cbn [andb].
    pose proof (fresh_bounds s' _ Hinv') as FB. unfold c15_next in FB. cbn [a_mss a_win a_fresh] in FB.
    rewrite FB. change (cubic_smss s') with (mss s). rewrite Em, Z.eqb_refl. cbn [andb].
    pose proof (enter_recovery_window_le cbrt s now Hm Hok) as WL. fold s' in WL.
    pose proof (sshthresh_ge_2mss (fmul (cwnd s) BETA_CUBIC) (mss s) Hm) as SG.
    change (usize_of_f64 _) with (cubic_sshthresh s') in SG.
    rewrite Ew, <- Em. lia.
  - (* OnRecovered *)
    eexists. split; [reflexivity|]. set (s' := cubic_on_recovered s cb sb).
    assert (Hinv' : inv s' (c15_next a (OnRecovered cb sb) (cubic_window s') (cubic_sshthresh s') (cubic_smss s'))).
    { unfold c15_next, inv. cbn [a_mss a_win a_fresh a_w a_ss].
      exact (conj Em (conj Hm (conj Hok (conj Hl (conj Hf (conj eq_refl eq_refl)))))). }
    split; [|exact Hinv'].
    unfold c15_check. cbv iota beta.
    pose proof (fresh_bounds s' _ Hinv') as FB. unfold c15_next in FB. cbn [a_mss a_win a_fresh] in FB.
    rewrite FB. change (cubic_smss s') with (mss s). rewrite Em, Z.eqb_refl. reflexivity.
  - (* SetMss *)
    eexists. split; [reflexivity|]. unfold cubic_set_mss. rewrite Em.
    unfold c15_check, c15_next. cbv iota beta. rewrite (Z.eqb_sym m' (a_mss a)).
    destruct (a_mss a =? m')%Z eqn:Eq.
    + apply Z.eqb_eq in Eq. unfold cubic_smss. rewrite Em, Eq, Ew, Es, !Z.eqb_refl.
      split; [reflexivity|]. unfold inv. cbn [a_mss a_win a_fresh a_w a_ss].
      rewrite <- Eq.
      exact (conj Em (conj Hm (conj Hok (conj Hl (conj Hf (conj eq_refl eq_refl)))))).
    + cbn [cubic_smss mss]. rewrite Z.eqb_refl. split; [reflexivity|].
      unfold inv. cbn [a_mss a_win a_fresh a_w a_ss mss rwnd last_congestion_event].
      refine (conj eq_refl (conj (mss_ok_b _ Hd) (conj Hok (conj Hl (conj _ (conj eq_refl eq_refl)))))).
      intros F. discriminate F.
Qed.

Lemma trace_core_go : forall ops s a, inv s a ->
  c15_obs_go false a ops (cubic_trace cbrt powf3 s ops) = true.
Proof.
  induction ops as [|o ops IH]; intros s a Hinv; [reflexivity|].
  cbn [cubic_trace].
  destruct (a_dom a && c15_op_dom o) eqn:Ed.
  - pose proof Ed as Ed'. apply andb_true_iff in Ed'. destruct Ed' as [_ Ed'].
    destruct (step_ok s a o Hinv Ed') as (s' & E & Hc & Hi). rewrite E.
    unfold cubic_obs. cbn [c15_obs_go]. rewrite Ed, Hc. apply IH. exact Hi.
  - destruct (cubic_step cbrt powf3 s o) as [s'|]; unfold cubic_obs; cbn [c15_obs_go];
      rewrite Ed; reflexivity.
Qed.
End Trace.
Lemma window_new : forall mss0, mss_ok mss0 -> cubic_window (cubic_new 0 mss0) = 0%Z.
Proof.
  intros m Hm.
  assert (Hok : rwnd_ok (rwnd (cubic_new 0 m))).
  { split; [reflexivity|]. cbn [cubic_new rwnd f64_zero B2R]. lra. }
  destruct (window_val (cubic_new 0 m) Hm Hok) as [E _]. rewrite E.
  cbn [cubic_new cwnd rwnd mss f64_zero B2R].
  rewrite (clampR_finite _ _ (proj1 f64_2_correct)), (proj2 f64_2_correct).
  rewrite Rmin_right by (rewrite Rmax_left; lra). rewrite Rmult_0_l, rnd_0. apply (Ztrunc_IZR 0).
Qed.

Lemma sshthresh_new : forall mss0, mss_ok mss0 -> cubic_sshthresh (cubic_new 0 mss0) = USIZE_MAX.
Proof.
  intros m Hm. destruct (mss_shape m Hm) as (mm & e & B & E).
  unfold cubic_sshthresh. cbn [cubic_new ssthresh mss]. rewrite E. reflexivity.
Qed.

Lemma inv_init : forall mss0, c15_mss_ok mss0 = true -> inv (cubic_new 0 mss0) (c15_acc0 mss0).
Proof.
  intros m Hb. pose proof (mss_ok_b m Hb) as Hm. unfold inv, c15_acc0.
  cbn [a_mss a_win a_fresh a_w a_ss].
  refine (conj eq_refl (conj Hm (conj _ (conj _ (conj _ (conj _ _)))))).
  - split; [reflexivity|]. cbn [cubic_new rwnd f64_zero B2R]. lra.
  - cbn [cubic_new last_congestion_event]. lia.
  - intros _. split; [lia|]. cbn [cubic_new rwnd mss f64_zero B2R].
    unfold Rdiv. rewrite Rmult_0_l, rnd_0. reflexivity.
  - symmetry. apply window_new. exact Hm.
  - symmetry. apply sshthresh_new. exact Hm.
Qed.

Lemma obs_go_out_of_dom : forall cbrt powf3 fine a ops s, a_dom a = false ->
  c15_obs_go fine a ops (cubic_trace cbrt powf3 s ops) = true.
Proof.
  intros cbrt powf3 fine a ops s Hd. destruct ops as [|o ops]; [reflexivity|].
  cbn [cubic_trace]. destruct (cubic_step cbrt powf3 s o); unfold cubic_obs; cbn [c15_obs_go];
    rewrite Hd; reflexivity.
Qed.

Lemma model_trace_core_ok : forall (cbrt powf3 : f64 -> f64) mss0 ops,
  c15_obs_core mss0 ops (cubic_trace cbrt powf3 (cubic_new 0 mss0) ops) = true.
Proof.
  intros cbrt powf3 mss0 ops. unfold c15_obs_core.
  destruct (c15_mss_ok mss0) eqn:Hb.
  - apply trace_core_go. apply inv_init. exact Hb.
  - apply obs_go_out_of_dom. unfold c15_acc0. cbn [a_dom]. exact Hb.
Qed.

(* ---- set_mss *)
Lemma tiny_le' : forall x, / 2417851639229258349412352 <= x -> bpow radix2 (-1022) <= Rabs x.
Proof.
  intros x H. assert (0 < / 2417851639229258349412352) by (apply Rinv_0_lt_compat; lra).
  rewrite Rabs_pos_eq by lra.
  apply Rle_trans with (bpow radix2 (-81)); [apply bpow_le; lia|].
  replace (bpow radix2 (-81)) with (/ 2417851639229258349412352) by reflexivity. exact H.
Qed.

Lemma set_mss_rescales : forall s m', mss_ok (mss s) -> mss_ok m' -> mss s <> m' ->
  is_finite (cwnd s) = true ->
  / 18446744073709551616 <= B2R (cwnd s) <= 18446744073709551616 ->
  let s' := cubic_set_mss s m' in
  cwnd s' = fmul (cwnd s) (fdiv (f64_of_Z (mss s)) (f64_of_Z m')) /\ mss s' = m' /\
  rwnd s' = rwnd s /\ is_finite (cwnd s') = true /\
  exists d, Rabs d <= 3 * bpow radix2 (-53) /\
    B2R (cwnd s') * IZR m' = B2R (cwnd s) * IZR (mss s) * (1 + d).
Proof.
  intros s m' Hm Hm' Hne Fc Hc. cbv zeta. unfold cubic_set_mss.
  destruct (Z.eqb_spec (mss s) m') as [E|_]; [contradiction|]. cbn [cwnd mss rwnd].
  split; [reflexivity|]. split; [reflexivity|]. split; [reflexivity|].
  destruct (mss_correct _ Hm) as [F1 V1]. destruct (mss_correct _ Hm') as [F2 V2].
  assert (H1 : 1 <= IZR (mss s) <= 65536) by (unfold mss_ok in Hm; split; apply IZR_le; lia).
  assert (H2 : 1 <= IZR m' <= 65536) by (unfold mss_ok in Hm'; split; apply IZR_le; lia).
  assert (Hq : / 65536 <= IZR (mss s) / IZR m' <= 65536)
    by (split; [apply div_mss_ge | apply div_mss_range]; lra).
  destruct (fdiv_correct (f64_of_Z (mss s)) (f64_of_Z m') F1) as [Fr Vr].
  { rewrite V2. lra. }
  { rewrite V1, V2, Rabs_pos_eq by lra. apply le_bpow_1000. lra. }
  rewrite V1, V2 in Vr.
  destruct (rnd_rel (IZR (mss s) / IZR m')) as (e1 & He1 & E1); [apply tiny_le; lra|].
  rewrite eps_val in He1.
  set (r := fdiv (f64_of_Z (mss s)) (f64_of_Z m')) in *.
  assert (Hr : / 131072 <= B2R r <= 131072).
  { rewrite Vr, E1.
    destruct (mult_err_range (IZR (mss s) / IZR m') e1 65536 (/ 9007199254740992));
      [lra | apply Rabs_le_inv; exact He1 | lra]. }
  assert (H64 : 0 < / 18446744073709551616) by (apply Rinv_0_lt_compat; lra).
  assert (Hp : / 2417851639229258349412352 <= B2R (cwnd s) * B2R r <= 2417851639229258349412352).
  { replace (/ 2417851639229258349412352) with (/ 18446744073709551616 * / 131072) by (field_simplify; lra).
    replace 2417851639229258349412352 with (18446744073709551616 * 131072) by lra.
    split; apply Rmult_le_compat; lra. }
  destruct (fmul_correct (cwnd s) r Fc Fr) as [Fp Vp].
  { rewrite Rabs_pos_eq by lra. apply Rle_trans with (bpow radix2 81); [|apply bpow_le; lia].
    change (bpow radix2 81) with (IZR (2 ^ 81)). apply Hp. }
  split; [exact Fp|].
  destruct (rnd_rel (B2R (cwnd s) * B2R r)) as (e2 & He2 & E2); [apply tiny_le'; lra|].
  exists (e1 + e2 + e1 * e2). split.
  - rewrite eps_val in *. apply Rle_trans with (1 := rel_err_compose _ _ _ _ He1 He2). lra.
  - rewrite Vp, E2, Vr, E1. field. lra.
Qed.
(* ---- slow start *)
Lemma fadd_correct : forall x y : f64, is_finite x = true -> is_finite y = true ->
  Rabs (B2R x + B2R y) <= bpow radix2 1000 ->
  is_finite (fadd x y) = true /\ B2R (fadd x y) = rnd (B2R x + B2R y).
Proof.
  intros x y Fx Fy Hb.
  exact (op_correct _ _ _ _ _ Hb (Bplus_correct 53 1024 f64_prec_gt_0 f64_prec_lt_emax mode_NE x y Fx Fy)).
Qed.

Section SlowStart.
Variable powf3 : f64 -> f64.

(* one ACK in slow start, in MSS units: cwnd' = max(min(fl(cwnd + fl(len/mss)), rwnd), 2) *)
Lemma slow_start_mss_units : forall s now len rtt,
  mss_ok (mss s) -> rwnd_ok (rwnd s) -> (0 < len < 2 ^ 32)%Z ->
  is_finite (cwnd s) = true -> 0 <= B2R (cwnd s) ->
  fge (cwnd s) (rwnd s) = false -> flt (cwnd s) (ssthresh s) = true ->
  exists s', cubic_on_ack powf3 s now len rtt = Some s' /\
    cwnd s' = rust_max (rust_min (fadd (cwnd s) (fdiv (f64_of_Z len) (f64_of_Z (mss s)))) (rwnd s)) f64_2 /\
    is_finite (cwnd s') = true /\
    B2R (cwnd s') =
      Rmax (Rmin (rnd (B2R (cwnd s) + rnd (IZR len / IZR (mss s)))) (B2R (rwnd s))) 2 /\
    B2R (cwnd s') <= Rmax 2 (rnd (B2R (cwnd s) + rnd (IZR len / IZR (mss s)))) /\
    ssthresh s' = ssthresh s /\ mss s' = mss s /\ rwnd s' = rwnd s.
Proof.
  intros s now len rtt Hm [Frw Hrw] Hl Fc Hc Hge Hlt.
  unfold cubic_on_ack. destruct (Z.eqb_spec len 0) as [E|_]; [lia|]. rewrite Hge, Hlt.
  eexists. split; [reflexivity|]. cbn [cubic_with_cwnd cwnd ssthresh mss rwnd].
  split; [reflexivity|].
  assert (Hlen : (0 <= len < 2 ^ 32)%Z) by lia.
  destruct (set_rw_ok _ _ Hm Hlen) as [[Fd Hd] Vd].
  assert (Hcr : B2R (cwnd s) < B2R (rwnd s)).
  { unfold fge in Hge. rewrite (Bleb_correct 53 1024 _ _ Frw Fc) in Hge.
    destruct (Rle_bool_spec (B2R (rwnd s)) (B2R (cwnd s))); [discriminate|assumption]. }
  destruct (fadd_correct (cwnd s) _ Fc Fd) as [Fa Va].
  { rewrite Rabs_pos_eq by lra. apply le_bpow_1000. lra. }
  destruct (rust_min_finite _ (rwnd s) Fa Frw) as [Fmn Vmn].
  destruct (rust_max_finite _ f64_2 Fmn (proj1 f64_2_correct)) as [Fmx Vmx].
  rewrite Vmx, Vmn, Va, Vd, (proj2 f64_2_correct).
  split; [exact Fmx|]. split; [reflexivity|]. split; [|repeat split].
  unfold Rmax, Rmin. repeat destruct (Rle_dec _ _); lra.
Qed.
End SlowStart.

(* ---- non-vacuity and tightness, by computation on concrete states *)
Definition ex_state (c : f64) (m : Z) : cubic :=
  {| cwnd := c; ssthresh := f64_inf; k := f64_zero; w_max := f64_zero; w_max_last := f64_zero;
     mss := m; last_congestion_event := 0; rwnd := f64_nan |}.

(* the -1 of the lower bound is tight: win 5, mss 1232 -> window 4 *)
Example window_bounds_tight :
  cubic_window (cubic_set_remote_window (ex_state f64_2 1232) 5) = 4%Z.
Proof. vm_compute. reflexivity. Qed.
Example window_bounds_61_7 :
  cubic_window (cubic_set_remote_window (ex_state (f64_of_Z 100) 7) 61) = 60%Z.
Proof. vm_compute. reflexivity. Qed.
(* NaN / infinite cwnd states still give a window within the bounds *)
Example window_bounds_nan :
  cubic_window (cubic_set_remote_window (ex_state f64_nan 1500) 1000000) = 3000%Z /\
  cubic_window (cubic_set_remote_window (ex_state f64_inf 1500) 1000000) = 1000000%Z /\
  cubic_window (cubic_set_remote_window (ex_state (B754_infinity true) 1500) 1000000) = 3000%Z.
Proof. vm_compute. repeat split; reflexivity. Qed.

Definition ex_run (ops : list cubic_op) : list (option (Z * Z * Z)) :=
  cubic_trace (fun x => x) (fun x => x) (cubic_new 0 1500) ops.

(* loss: 10 segments -> RTO: window 2 segments, ssthresh 7 segments; enter recovery: 7 and 7 *)
Example loss_example :
  ex_run [SetRemoteWindow 1000000; OnRecovered 15000 1000000; OnRto] =
    [Some (3000, 18446744073709551615, 1500); Some (15000, 1000000, 1500); Some (3000, 10500, 1500)]%Z /\
  ex_run [SetRemoteWindow 1000000; OnRecovered 15000 1000000; OnEnterRecovery 5] =
    [Some (3000, 18446744073709551615, 1500); Some (15000, 1000000, 1500); Some (10500, 10500, 1500)]%Z.
Proof. vm_compute. split; reflexivity. Qed.

(* slow start: +len bytes per ACK; set_mss keeps the bytes (15000) instead of resetting to 2 segments *)
Example slow_start_and_mss_example :
  ex_run [SetRemoteWindow 1000000; OnAck 1 1500 1000; OnAck 2 700 1000; SetMss 1000; SetRemoteWindow 1000000] =
    [Some (3000, 18446744073709551615, 1500); Some (4500, 18446744073709551615, 1500);
     Some (5200, 18446744073709551615, 1500); Some (5200, 18446744073709551615, 1000);
     Some (5200, 18446744073709551615, 1000)]%Z.
Proof. vm_compute. reflexivity. Qed.

(* Observation: between set_mss and the next set_remote_window the stored peer window (MSS units) is
   stale, and after an MSS increase window() exceeds the peer window (10000): model and code agree. *)
Example stale_rwnd_after_mss_increase :
  ex_run [SetRemoteWindow 10000; SetMss 9000; SetRemoteWindow 10000] =
    [Some (3000, 18446744073709551615, 1500); Some (18000, 18446744073709551615, 9000);
     Some (10000, 18446744073709551615, 9000)]%Z.
Proof. vm_compute. reflexivity. Qed.

(* Observation (model = real code, see tools/check): on byte windows one slow-start ACK can show a
   growth of len + 1 (here 100664 -> 139257 for len 38592) because the PREVIOUS window() was
   truncated down (77184 + 23481 = 100665 was observed as 100664).  The cumulative bound
   (initial + sum of len) is met exactly; in MSS units growth is exactly fl(len/mss).  This is why
   c15_obs_ok allows len + 1 and why the byte-level statement is kept `_partial`. *)
Example slow_start_bytes_len_plus_one :
  cubic_trace (fun x => x) (fun x => x) (cubic_new 0 38592)
    [SetRemoteWindow 3384378025; OnAck 1 23481 1000; OnAck 2 38592 1000] =
    [Some (77184, 18446744073709551615, 38592); Some (100664, 18446744073709551615, 38592);
     Some (139257, 18446744073709551615, 38592)]%Z.
Proof. vm_compute. reflexivity. Qed.

(* Observation: on_retransmission_timeout sets cwnd = 1, which is larger than a cwnd < 1 (reachable
   through set_mss rescaling); invisible in window(), which clamps at 2. *)
Example rto_raw_cwnd_can_increase :
  let s := cubic_set_mss (cubic_new 0 100) 1000 in
  Bltb (cwnd s) (cwnd (cubic_on_retransmission_timeout s)) = true.
Proof. vm_compute. reflexivity. Qed.

Example obs_pred_nonvacuous :
  c15_obs_ok 1500 [SetRemoteWindow 1000000; OnAck 1 1500 1000; OnRto]
    [Some (3000, 18446744073709551615, 1500); Some (4500, 18446744073709551615, 1500);
     Some (3000, 3150, 1500)]%Z = true /\
  (* a window growing on RTO, or an ssthresh of 1.7 x window, is rejected *)
  c15_obs_ok 1500 [SetRemoteWindow 1000000; OnAck 1 1500 1000; OnRto]
    [Some (3000, 18446744073709551615, 1500); Some (4500, 18446744073709551615, 1500);
     Some (4501, 3150, 1500)]%Z = false /\
  c15_obs_ok 1500 [SetRemoteWindow 1000000; OnAck 1 1500 1000; OnRto]
    [Some (3000, 18446744073709551615, 1500); Some (4500, 18446744073709551615, 1500);
     Some (3000, 7650, 1500)]%Z = false.
Proof. vm_compute. repeat split; reflexivity. Qed.


(* ---- statements in the shape used by Props/C15.v *)
Lemma loss_never_increases : forall (cbrt : f64 -> f64) s now,
  mss_ok (mss s) -> rwnd_ok (rwnd s) ->
  let s1 := cubic_on_retransmission_timeout s in
  let s2 := cubic_on_enter_recovery cbrt s now in
  (cubic_window s1 <= cubic_window s)%Z /\ (cubic_window s2 <= cubic_window s)%Z /\
  ssthresh s1 = rust_max (fmul (cwnd s) BETA_CUBIC) f64_2 /\
  ssthresh s2 = rust_max (fmul (cwnd s) BETA_CUBIC) f64_2 /\
  (2 * mss s <= cubic_sshthresh s1)%Z /\ (2 * mss s <= cubic_sshthresh s2)%Z /\
  clampR (cwnd s1) (B2R (rwnd s)) <= clampR (cwnd s) (B2R (rwnd s)) /\
  clampR (cwnd s2) (B2R (rwnd s)) <= clampR (cwnd s) (B2R (rwnd s)).
Proof.
  intros cbrt s now Hm Hok. cbv zeta.
  split; [apply rto_window_le; assumption|].
  split; [apply enter_recovery_window_le; assumption|].
  split; [reflexivity|]. split; [reflexivity|].
  split; [exact (sshthresh_ge_2mss (fmul (cwnd s) BETA_CUBIC) (mss s) Hm)|].
  split; [exact (sshthresh_ge_2mss (fmul (cwnd s) BETA_CUBIC) (mss s) Hm)|].
  split; [apply one_clamp_le; apply Hok|].
  cbn [cubic_on_enter_recovery cwnd]. apply beta_clamp_le. apply Hok.
Qed.

Lemma loss_cwnd_mss_units : forall (cbrt : f64 -> f64) s now,
  is_finite (cwnd s) = true -> 0 <= B2R (cwnd s) ->
  let s1 := cubic_on_retransmission_timeout s in
  let s2 := cubic_on_enter_recovery cbrt s now in
  cwnd s1 = f64_1 /\ (1 <= B2R (cwnd s) -> B2R (cwnd s1) <= B2R (cwnd s)) /\
  Rmax (B2R (cwnd s1)) 2 <= Rmax (B2R (cwnd s)) 2 /\
  B2R (ssthresh s1) = Rmax (rnd (B2R (cwnd s) * B2R BETA_CUBIC)) 2 /\
  is_finite (cwnd s2) = true /\ B2R (cwnd s2) = rnd (B2R (cwnd s) * B2R BETA_CUBIC) /\
  0 <= B2R (cwnd s2) <= B2R (cwnd s) /\
  B2R (ssthresh s2) = Rmax (rnd (B2R (cwnd s) * B2R BETA_CUBIC)) 2 /\
  B2R BETA_CUBIC = 6305039478318694 / 9007199254740992.
Proof.
  intros cbrt s now Fc Hc. cbv zeta.
  destruct (rto_cwnd s Fc Hc) as (A1 & A2 & A3 & _ & A5).
  destruct (enter_recovery_cwnd_le cbrt s now Fc Hc) as (B1 & B2 & B3 & _ & B5).
  repeat split; try assumption; try apply B3.
Qed.
