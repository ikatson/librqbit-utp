(* Byte-level proofs about the Cubic model (Cubic.v) over Flocq binary64: the slow-start bound on
   window() in bytes, the rounding-sensitive clauses of c15_obs_ok on every model trace, and the
   byte-level form of set_mss rescaling.
   Library axioms (Coq Reals / Flocq) as in Cubic_Proofs.v.  cbrt / powf3 are Section variables
   without hypotheses wherever they occur. *)
From Coq Require Import Reals Lra Lia ZArith Psatz.
From Coq Require Import Floats.SpecFloat.
From Flocq Require Import Core BinarySingleNaN Relative.
From Utp Require Import Base.Prelude Cubic.F64 Cubic.Cubic Cubic.C15_Pred2 Cubic.Cubic_Proofs.
Open Scope R_scope.

(* ---- absolute rounding error: |x| <= 2^e  ->  |fl(x) - x| <= 2^(e-54)  (half an ulp) *)
Lemma abs_err : forall x e, (-1021 <= e)%Z -> Rabs x <= bpow radix2 e ->
  Rabs (rnd x - x) <= bpow radix2 (e - 54).
Proof.
  intros x e He Hx.
  destruct (Req_dec x 0) as [->|Nz].
  { rewrite rnd_0, Rminus_0_r, Rabs_R0. apply bpow_ge_0. }
  destruct Hx as [Hlt|Heq].
  - rewrite rnd_FLT. eapply Rle_trans; [apply error_le_half_ulp; auto with typeclass_instances|].
    rewrite ulp_neq_0 by exact Nz. unfold cexp.
    assert (Hm : (mag radix2 x <= e)%Z) by (apply mag_le_bpow; assumption).
    replace (bpow radix2 (e - 54)) with (/ 2 * bpow radix2 (e - 53)).
    + apply Rmult_le_compat_l; [lra|]. apply bpow_le. unfold FLT_exp. lia.
    + replace (e - 53)%Z with (1 + (e - 54))%Z by lia. rewrite bpow_plus.
      change (bpow radix2 1) with 2. field.
  - rewrite rnd_generic.
    + unfold Rminus. rewrite Rplus_opp_r, Rabs_R0. apply bpow_ge_0.
    + apply generic_format_abs_inv. rewrite Heq.
      apply generic_format_FLT_bpow; [auto with typeclass_instances | lia].
Qed.

Lemma err_2_48 : forall x, 0 <= x <= 281474976710656 -> Rabs (rnd x - x) <= / 64.
Proof.
  intros x H. replace (/ 64) with (bpow radix2 (48 - 54)) by reflexivity.
  apply abs_err; [lia|]. rewrite Rabs_pos_eq by lra.
  change (bpow radix2 48) with (IZR (2 ^ 48)). apply H.
Qed.

Lemma err_2_33 : forall x, 0 <= x <= 8589934592 -> Rabs (rnd x - x) <= / 2097152.
Proof.
  intros x H. replace (/ 2097152) with (bpow radix2 (33 - 54)) by reflexivity.
  apply abs_err; [lia|]. rewrite Rabs_pos_eq by lra.
  change (bpow radix2 33) with (IZR (2 ^ 33)). apply H.
Qed.

Lemma err_2_32 : forall x, 0 <= x <= 4294967296 -> Rabs (rnd x - x) <= / 4194304.
Proof.
  intros x H. replace (/ 4194304) with (bpow radix2 (32 - 54)) by reflexivity.
  apply abs_err; [lia|]. rewrite Rabs_pos_eq by lra.
  change (bpow radix2 32) with (IZR (2 ^ 32)). apply H.
Qed.

(* the clamp of window() on reals: monotone and 1-Lipschitz *)
Definition clamp (c rho : R) : R := Rmin (Rmax c 2) rho.

Lemma clamp_mono_lip : forall c a rho, c <= a ->
  clamp c rho <= clamp a rho <= clamp c rho + (a - c).
Proof. unfold clamp, Rmin, Rmax; intros; repeat destruct (Rle_dec _ _); lra. Qed.

Lemma clamp_idem : forall a rho, clamp (Rmax (Rmin a rho) 2) rho = clamp a rho.
Proof. unfold clamp, Rmin, Rmax; intros; repeat destruct (Rle_dec _ _); lra. Qed.

Lemma clamp_range : forall c rho, 0 <= rho -> 0 <= clamp c rho <= rho.
Proof. unfold clamp, Rmin, Rmax; intros; repeat destruct (Rle_dec _ _); lra. Qed.

Lemma clamp_small_rho : forall c rho, rho <= 2 -> clamp c rho = rho.
Proof. unfold clamp, Rmin, Rmax; intros; repeat destruct (Rle_dec _ _); lra. Qed.

Lemma Ztrunc_add_le : forall P P' n, 0 <= P -> 0 <= P' -> P' <= P + IZR n + / 2 ->
  (Ztrunc P' <= Ztrunc P + n + 1)%Z.
Proof.
  intros P P' n H0 H0' H. apply Ztrunc_lt_succ; [exact H0'|].
  rewrite (Ztrunc_floor P H0). rewrite !plus_IZR.
  pose proof (Zfloor_ub P). lra.
Qed.

Lemma div_mult_mss : forall x M, 1 <= M -> x / M * M = x.
Proof. intros x M H. field. lra. Qed.

(* an error e in MSS units is an error of at most 65536 e in bytes *)
Lemma mss_scale_err : forall x y e M, 1 <= M <= 65535 -> - e <= x - y <= e ->
  - (e * 65536) <= x * M - y * M <= e * 65536.
Proof.
  intros x y e M HM H.
  assert (H1 : (x - y) * M <= e * M) by (apply Rmult_le_compat_r; lra).
  assert (H2 : - e * M <= (x - y) * M) by (apply Rmult_le_compat_r; lra).
  assert (H3 : e * M <= e * 65536) by (apply Rmult_le_compat_l; lra).
  lra.
Qed.

(* a byte count of at least one byte, back in MSS units *)
Lemma units_of_bytes : forall c M B, 1 <= M <= 65535 -> 1 <= c * M <= B -> / 65536 <= c <= B.
Proof.
  intros c M B HM H. replace c with (c * M / M) by (field; lra).
  split; [apply div_mss_ge | apply div_mss_range]; lra.
Qed.

Lemma mult_Rmax_le : forall v a b M, 0 <= M -> v <= Rmax a b -> v * M <= Rmax (a * M) (b * M).
Proof.
  intros v a b M HM H. rewrite (Rmult_comm a), (Rmult_comm b), RmaxRmult by exact HM.
  rewrite Rmult_comm. apply Rmult_le_compat_l; assumption.
Qed.

Lemma inv65536_fmt : generic_format radix2 fexp64 (/ 65536).
Proof.
  replace (/ 65536) with (bpow radix2 (-16)) by reflexivity.
  apply generic_format_FLT_bpow; [auto with typeclass_instances | lia].
Qed.

Lemma window_val_fin : forall s, mss_ok (mss s) -> rwnd_ok (rwnd s) -> is_finite (cwnd s) = true ->
  cubic_window s = Ztrunc (rnd (clamp (B2R (cwnd s)) (B2R (rwnd s)) * IZR (mss s))).
Proof.
  intros s Hm Hok Fc. destruct (window_val s Hm Hok) as [E _]. rewrite E, (clampR_finite _ _ Fc).
  reflexivity.
Qed.

(* ---- (1) slow start, bytes: one on_ack changes window() by at least 0 and at most len + 1 *)
Section SlowStartBytes.
Variable powf3 : f64 -> f64.

Lemma slow_start_bytes : forall s now len rtt,
  mss_ok (mss s) -> rwnd_ok (rwnd s) -> (0 <= len < 2 ^ 32)%Z ->
  is_finite (cwnd s) = true -> 0 <= B2R (cwnd s) ->
  flt (cwnd s) (ssthresh s) = true ->
  exists s', cubic_on_ack powf3 s now len rtt = Some s' /\
    mss s' = mss s /\ rwnd s' = rwnd s /\ ssthresh s' = ssthresh s /\
    last_congestion_event s' = last_congestion_event s /\
    (cubic_window s <= cubic_window s' <= cubic_window s + len + 1)%Z.
Proof.
  intros s now len rtt Hm Hok Hl Fc Hc Hlt.
  destruct (Z.eq_dec len 0) as [->|Hnz].
  { exists s. unfold cubic_on_ack. cbn [Z.eqb]. repeat split; try reflexivity; lia. }
  destruct (fge (cwnd s) (rwnd s)) eqn:Hge.
  { exists s. unfold cubic_on_ack. destruct (Z.eqb_spec len 0) as [E|_]; [contradiction|].
    rewrite Hge. repeat split; try reflexivity; lia. }
  assert (Hl' : (0 < len < 2 ^ 32)%Z) by lia.
  destruct (slow_start_mss_units powf3 s now len rtt Hm Hok Hl' Fc Hc Hge Hlt)
    as (s' & E & Ec' & Fc' & Vc' & _ & Es & Em & Er).
  exists s'. split; [exact E|]. split; [exact Em|]. split; [exact Er|]. split; [exact Es|].
  split. { clear Ec' Vc' Fc'. unfold cubic_on_ack in E.
           destruct (Z.eqb_spec len 0) as [E0|_]; [contradiction|]. rewrite Hge, Hlt in E.
           injection E as <-. reflexivity. }
  assert (Hm' : mss_ok (mss s')) by (rewrite Em; exact Hm).
  assert (Hok' : rwnd_ok (rwnd s')) by (rewrite Er; exact Hok).
  rewrite (window_val_fin s Hm Hok Fc), (window_val_fin s' Hm' Hok' Fc'), Em, Er, Vc'.
  destruct Hok as [Frw Hrw].
  assert (Hcr : B2R (cwnd s) < B2R (rwnd s)).
  { unfold fge in Hge. rewrite (Bleb_correct 53 1024 _ _ Frw Fc) in Hge.
    destruct (Rle_bool_spec (B2R (rwnd s)) (B2R (cwnd s))); [discriminate|assumption]. }
  pose proof (mss_R _ Hm) as HM.
  set (rho := B2R (rwnd s)) in *. set (c := B2R (cwnd s)) in *. set (M := IZR (mss s)) in *.
  set (L := IZR len).
  assert (HL : 1 <= L <= 4294967296) by (unfold L; split; apply IZR_le; lia).
  assert (HLM : 0 <= L / M <= 4294967296) by (apply div_mss_range; lra).
  set (q := rnd (L / M)).
  assert (Hq : Rabs (q - L / M) <= / 4194304) by (apply err_2_32; exact HLM).
  apply Rabs_le_inv in Hq.
  assert (Hq0 : 0 <= q) by (apply rnd_ge_0; lra).
  assert (Hq1 : q <= 4294967296) by (apply rnd_le_fmt; [exact pow32_fmt | lra]).
  set (a := rnd (c + q)).
  assert (Ha : Rabs (a - (c + q)) <= / 2097152) by (apply err_2_33; lra).
  apply Rabs_le_inv in Ha.
  assert (Hac : c <= a) by (apply rnd_ge_fmt; [apply fmt_B2R | lra]).
  rewrite clamp_idem.
  destruct (clamp_mono_lip c a rho Hac) as [V1 V2].
  destruct (clamp_range c rho (proj1 Hrw)) as [V3 V4].
  destruct (clamp_range a rho (proj1 Hrw)) as [V5 V6].
  set (v := clamp c rho) in *. set (v' := clamp a rho) in *.
  assert (Hx : 0 <= v * M <= 281474976710656) by (apply (mult_range _ _ 4294967296 65535); lra).
  assert (Hx' : 0 <= v' * M <= 281474976710656) by (apply (mult_range _ _ 4294967296 65535); lra).
  (* in bytes the window moves by (a - c) * M, and a - c is len / mss up to two roundings *)
  assert (Hd : (a - c) * M <= L + 3 / 64).
  { destruct (mss_scale_err (a - c) (L / M) (3 / 4194304) M HM) as [_ Hd]; [lra|].
    rewrite div_mult_mss in Hd by lra. lra. }
  assert (Hxx : v' * M <= v * M + L + 3 / 64).
  { apply Rle_trans with ((v + (a - c)) * M); [apply Rmult_le_compat_r; lra|].
    rewrite Rmult_plus_distr_r. lra. }
  pose proof (err_2_48 _ Hx) as HP. apply Rabs_le_inv in HP.
  pose proof (err_2_48 _ Hx') as HP'. apply Rabs_le_inv in HP'.
  split.
  - apply Ztrunc_le, rnd_le, Rmult_le_compat_r; lra.
  - apply Ztrunc_add_le; [apply rnd_ge_0; lra | apply rnd_ge_0; lra | fold L; lra].
Qed.
End SlowStartBytes.

(* ---- (2) invariants of every reachable state that the rounding-sensitive clauses need *)

(* cwnd (and ssthresh) are never NaN, never negative, never -inf: +inf or finite >= 0 *)
Definition cwnd_ok (c : f64) : Prop :=
  c = B754_infinity false \/ (is_finite c = true /\ 0 <= B2R c).

Lemma rust_min_ninf_l : forall b : f64, is_finite b = true ->
  rust_min (B754_infinity true) b = B754_infinity true.
Proof. intros b Fb. destruct b as [s|s| |s m e B]; try discriminate Fb; reflexivity. Qed.

(* the common tail of on_ack / on_recovered: max(min(X, rwnd), 2.) for ANY float X *)
Lemma finish_ok : forall X rw : f64, is_finite rw = true ->
  is_finite (rust_max (rust_min X rw) f64_2) = true /\
  2 <= B2R (rust_max (rust_min X rw) f64_2) <= Rmax (B2R rw) 2.
Proof.
  intros X rw Frw. destruct f64_2_correct as [F2 V2].
  assert (Fin : forall Y : f64, is_finite Y = true -> B2R Y <= B2R rw ->
            is_finite (rust_max Y f64_2) = true /\
            2 <= B2R (rust_max Y f64_2) <= Rmax (B2R rw) 2).
  { intros Y FY HY. destruct (rust_max_finite Y f64_2 FY F2) as [F V]. split; [exact F|].
    rewrite V, V2. unfold Rmax. repeat destruct (Rle_dec _ _); lra. }
  destruct (is_finite X) eqn:FX.
  - destruct (rust_min_finite X rw FX Frw) as [F V]. apply Fin; [exact F|]. rewrite V. apply Rmin_r.
  - destruct X as [|[|]| |]; try discriminate FX.
    + rewrite (rust_min_ninf_l _ Frw), (rust_max_ninf_l _ F2). split; [exact F2|].
      rewrite V2. split; [lra|apply Rmax_r].
    + rewrite (rust_min_pinf_l _ Frw). apply Fin; [exact Frw | lra].
    + change (rust_min B754_nan rw) with rw. apply Fin; [exact Frw | lra].
Qed.

Lemma finish_cwnd_ok : forall X rw : f64, is_finite rw = true ->
  cwnd_ok (rust_max (rust_min X rw) f64_2).
Proof. intros X rw Frw. destruct (finish_ok X rw Frw) as [F [H _]]. right. split; [exact F | lra]. Qed.

(* multiplication by a positive finite float keeps cwnd_ok, overflow included *)
Lemma fmul_pos_ok : forall c r : f64, cwnd_ok c -> is_finite r = true -> 0 < B2R r ->
  cwnd_ok (fmul c r).
Proof.
  intros c r Hc Fr Hr. destruct Hc as [->|[Fc Hc]].
  { left. destruct (finite_sign r Fr Hr) as (mr & er & Br & ->). reflexivity. }
  destruct (Req_dec (B2R c) 0) as [Z|NZ].
  - destruct (fmul_correct c r Fc Fr) as [F V].
    { rewrite Z, Rmult_0_l, Rabs_R0. apply bpow_ge_0. }
    right. split; [exact F|]. rewrite V, Z, Rmult_0_l, rnd_0. lra.
  - destruct (fmul_pos_cases c r Fc Fr) as [[F V]|E]; [lra | exact Hr | | left; exact E].
    right. split; [exact F|]. rewrite V. apply rnd_ge_0, Rmult_le_pos; lra.
Qed.

Lemma BETA_pos : 0 < B2R BETA_CUBIC.
Proof. apply BETA_range. Qed.

Lemma rescale_ok : forall m m', mss_ok m -> mss_ok m' ->
  is_finite (fdiv (f64_of_Z m) (f64_of_Z m')) = true /\
  0 < B2R (fdiv (f64_of_Z m) (f64_of_Z m')).
Proof.
  intros m m' Hm Hm'. destruct (mss_correct _ Hm) as [F1 V1]. destruct (mss_correct _ Hm') as [F2 V2].
  pose proof (mss_R _ Hm) as H1. pose proof (mss_R _ Hm') as H2.
  assert (Hq : / 65536 <= IZR m / IZR m' <= 65536)
    by (split; [apply div_mss_ge | apply div_mss_range]; lra).
  destruct (fdiv_correct (f64_of_Z m) (f64_of_Z m') F1) as [Fr Vr].
  { rewrite V2. lra. }
  { rewrite V1, V2, Rabs_pos_eq by lra. apply le_bpow_1000. lra. }
  split; [exact Fr|]. rewrite Vr, V1, V2.
  apply Rlt_le_trans with (/ 65536); [apply Rinv_0_lt_compat; lra|].
  apply rnd_ge_fmt; [exact inv65536_fmt | lra].
Qed.

Lemma f64_1_ok : cwnd_ok f64_1.
Proof. right. destruct f64_1_correct as [F V]. split; [exact F|]. rewrite V. lra. Qed.

Lemma rust_max_2_ok : forall x : f64, cwnd_ok x -> cwnd_ok (rust_max x f64_2).
Proof.
  intros x [->|[F H]]; destruct f64_2_correct as [F2 V2].
  - left. apply rust_max_pinf_l. exact F2.
  - destruct (rust_max_finite x f64_2 F F2) as [F' V']. right. split; [exact F'|].
    rewrite V', V2. apply Rle_trans with 2; [lra | apply Rmax_r].
Qed.

Section Steps.
Variable cbrt : f64 -> f64.
Variable powf3 : f64 -> f64.

(* on_ack either leaves the state alone or, with len <> 0 and cwnd < rwnd, stores
   max(min(X, rwnd), 2.) for some X *)
Lemma on_ack_cases : forall s now len rtt s', cubic_on_ack powf3 s now len rtt = Some s' ->
  s' = s \/ len <> 0%Z /\ fge (cwnd s) (rwnd s) = false /\
            exists X, s' = cubic_with_cwnd s (rust_max (rust_min X (rwnd s)) f64_2).
Proof.
  intros s now len rtt s' E. unfold cubic_on_ack in E.
  destruct (Z.eqb_spec len 0) as [_|Hnz]; [injection E as <-; left; reflexivity|].
  destruct (fge (cwnd s) (rwnd s)); [injection E as <-; left; reflexivity|].
  right. split; [exact Hnz|]. split; [reflexivity|].
  (* injectivity of Some on a variable X: on the cubic-phase term itself it is very slow *)
  assert (Fin : forall X, Some (cubic_with_cwnd s (rust_max (rust_min X (rwnd s)) f64_2)) = Some s' ->
                exists X, s' = cubic_with_cwnd s (rust_max (rust_min X (rwnd s)) f64_2)).
  { intros X H. injection H as <-. exists X. reflexivity. }
  destruct (flt (cwnd s) (ssthresh s)); [exact (Fin _ E)|].
  destruct (flt _ _); [exact (Fin _ E)|].
  destruct (cu_dur_add _ _); cbn [bind] in E; [exact (Fin _ E) | discriminate E].
Qed.

(* cwnd and ssthresh stay +inf-or-finite-nonnegative under every operation *)
Lemma step_cwnd_ok : forall s o s', mss_ok (mss s) -> is_finite (rwnd s) = true ->
  c15_op_dom o = true -> cwnd_ok (cwnd s) -> cwnd_ok (ssthresh s) ->
  cubic_step cbrt powf3 s o = Some s' -> cwnd_ok (cwnd s') /\ cwnd_ok (ssthresh s').
Proof.
  intros s o s' Hm Frw Hd Hc Hs E.
  destruct o as [win|now len rtt| |now|cb sb|m']; cbn [cubic_step] in E.
  - injection E as <-. split; assumption.
  - destruct (on_ack_cases _ _ _ _ _ E) as [->|(_ & _ & X & ->)]; [split; assumption|].
    cbn [cubic_with_cwnd cwnd ssthresh]. split; [apply finish_cwnd_ok; exact Frw | exact Hs].
  - injection E as <-. cbn [cubic_on_retransmission_timeout cwnd ssthresh].
    split; [exact f64_1_ok|]. apply rust_max_2_ok, fmul_pos_ok; [exact Hc | exact BETA_finite | exact BETA_pos].
  - injection E as <-. cbn [cubic_on_enter_recovery cwnd ssthresh].
    assert (cwnd_ok (fmul (cwnd s) BETA_CUBIC))
      by (apply fmul_pos_ok; [exact Hc | exact BETA_finite | exact BETA_pos]).
    split; [assumption | apply rust_max_2_ok; assumption].
  - injection E as <-. cbn [cubic_on_recovered cwnd ssthresh].
    split; [apply finish_cwnd_ok; exact Frw|].
    unfold c15_op_dom in Hd. apply andb_true_iff in Hd. destruct Hd as [_ Hd].
    assert (Hsb : (0 <= sb < 2 ^ 32)%Z) by (unfold c15_u32, M32 in Hd; lia).
    destruct (set_rw_ok _ _ Hm Hsb) as [[F H] _]. right. split; [exact F | apply H].
  - injection E as <-. unfold cubic_set_mss. destruct (mss s =? m')%Z; [split; assumption|].
    cbn [cwnd ssthresh]. unfold c15_op_dom in Hd. apply mss_ok_b in Hd.
    destruct (rescale_ok _ _ Hm Hd) as [Fr Hr].
    split; apply fmul_pos_ok; assumption.
Qed.
End Steps.

(* ---- sshthresh() as a real number *)
Lemma sshthresh_val : forall (S : f64) m, mss_ok m -> is_finite S = true ->
  0 <= B2R S <= 8589934592 ->
  usize_of_f64 (fmul S (f64_of_Z m)) = Ztrunc (rnd (B2R S * IZR m)).
Proof.
  intros S m Hm FS HS. destruct (mss_correct _ Hm) as [Fm Vm]. pose proof (mss_R _ Hm) as HM.
  assert (Hp : 0 <= B2R S * IZR m <= 562949953421312) by (apply (mult_range _ _ 8589934592 65535); lra).
  destruct (fmul_correct S (f64_of_Z m) FS Fm) as [Fp Vp].
  { rewrite Vm, Rabs_pos_eq by lra. apply le_bpow_1000. lra. }
  rewrite (usize_of_finite _ Fp), Vp, Vm.
  assert (Hf : generic_format radix2 fexp64 562949953421312) by (apply (fmt_Z 562949953421312); lia).
  destruct (rnd_range _ _ Hf Hp) as [R0 R1].
  pose proof (Ztrunc_ge_Z _ 0 R0). pose proof (Ztrunc_le_Z _ 562949953421312 R1).
  unfold USIZE_MAX, M64. lia.
Qed.

Lemma BETA_exact : B2R BETA_CUBIC = 7 / 10 - 4 / 10 * / 9007199254740992.
Proof. rewrite BETA_val. field. Qed.

Lemma window_range : forall s, mss_ok (mss s) -> rwnd_ok (rwnd s) ->
  (0 <= cubic_window s <= 281474976710656)%Z.
Proof.
  intros s Hm Hok. destruct (window_val s Hm Hok) as [E [H0 H1]]. rewrite E. split.
  - apply Ztrunc_ge_Z. exact H0.
  - apply Ztrunc_le_Z. exact H1.
Qed.

Lemma Ztrunc_le_self : forall x, 0 <= x -> IZR (Ztrunc x) <= x.
Proof. intros x H. rewrite Ztrunc_floor by exact H. apply Zfloor_lb. Qed.

Lemma Ztrunc_gt_pred : forall x, 0 <= x -> x < IZR (Ztrunc x) + 1.
Proof. intros x H. rewrite Ztrunc_floor by exact H. apply Zfloor_ub. Qed.

(* the real-number core of the lower ssthresh clause: 0.7 * window <= sshthresh + 1 *)
Lemma ss_lower_real : forall v M, 0 <= v <= 4294967296 -> 1 <= M <= 65535 ->
  let R0 := rnd (rnd (v * B2R BETA_CUBIC) * M) in
  0 <= R0 <= 281474976710656 /\ (7 * Ztrunc (rnd (v * M)) <= 10 * (Ztrunc R0 + 1))%Z.
Proof.
  intros v M Hv HM R0. pose proof BETA_exact as Eb.
  destruct (mult_beta_range v (proj1 Hv)) as [Hb0 Hb1].
  assert (Hb : 0 <= v * B2R BETA_CUBIC <= 4294967296) by lra.
  pose proof (err_2_32 _ Hb) as E1. apply Rabs_le_inv in E1.
  set (S0 := rnd (v * B2R BETA_CUBIC)) in *.
  assert (HS0 : 0 <= S0 <= 4294967296)
    by (split; [apply rnd_ge_0 | apply rnd_le_fmt; [exact pow32_fmt|]]; lra).
  assert (Hx : 0 <= v * M <= 281474976710656) by (apply (mult_range _ _ 4294967296 65535); lra).
  assert (HSM : 0 <= S0 * M <= 281474976710656) by (apply (mult_range _ _ 4294967296 65535); lra).
  pose proof (err_2_48 _ HSM) as E2. apply Rabs_le_inv in E2. fold R0 in E2.
  pose proof (err_2_48 _ Hx) as E3. apply Rabs_le_inv in E3.
  assert (HR0 : 0 <= R0 <= 281474976710656)
    by (split; [apply rnd_ge_0 | apply rnd_le_fmt; [exact pow48_fmt|]]; lra).
  split; [exact HR0|].
  set (W := rnd (v * M)) in *.
  assert (HW : 0 <= W) by (apply rnd_ge_0; lra).
  pose proof (Ztrunc_le_self W HW) as Hw. pose proof (Ztrunc_gt_pred R0 (proj1 HR0)) as Hn.
  set (w := Ztrunc W) in *. set (n := Ztrunc R0) in *.
  (* R0 >= S0 M - 1/64 >= v beta M - 1/32, and v beta M is 7/10 v M less 4/10 2^-53 v M <= 1/80 *)
  destruct (mss_scale_err S0 (v * B2R BETA_CUBIC) (/ 4194304) M HM) as [Hlow _]; [lra|].
  rewrite Eb in Hlow.
  assert (Hfin : IZR (7 * w - 1) < IZR (10 * (n + 1))).
  { rewrite minus_IZR, !mult_IZR, plus_IZR. lra. }
  apply lt_IZR in Hfin. lia.
Qed.

(* RTO / enter-recovery: 7 * window_before <= 10 * (sshthresh_after + 1), every reachable state *)
Lemma ss_lower : forall s, mss_ok (mss s) -> rwnd_ok (rwnd s) -> cwnd_ok (cwnd s) ->
  (7 * cubic_window s <=
   10 * (usize_of_f64 (fmul (rust_max (fmul (cwnd s) BETA_CUBIC) f64_2) (f64_of_Z (mss s))) + 1))%Z.
Proof.
  intros s Hm Hok Hc. destruct f64_2_correct as [F2 V2].
  pose proof (window_range s Hm Hok) as Hwr.
  destruct Hc as [Ec|[Fc Hc]].
  - rewrite Ec. destruct BETA_shape as (mb & eb & Bb & EB). rewrite EB.
    change (fmul (B754_infinity false) (B754_finite false mb eb Bb)) with f64_inf.
    unfold f64_inf.
    rewrite (rust_max_pinf_l _ F2). destruct (mss_shape _ Hm) as (mm & em & Bm & Em). rewrite Em.
    assert (EU : usize_of_f64 (fmul f64_inf (B754_finite false mm em Bm)) = USIZE_MAX) by reflexivity.
    unfold f64_inf in EU. rewrite EU.
    unfold USIZE_MAX, M64. lia.
  - pose proof BETA_range as Hbeta. destruct (beta_max_correct _ Fc) as [FS VS].
    set (S := rust_max (fmul (cwnd s) BETA_CUBIC) f64_2) in *.
    rewrite (window_val_fin s Hm Hok Fc). destruct Hok as [Frw Hrw].
    destruct (clamp_range (B2R (cwnd s)) (B2R (rwnd s)) (proj1 Hrw)) as [V0 V1].
    set (c := B2R (cwnd s)) in *. set (rho := B2R (rwnd s)) in *. set (v := clamp c rho) in *.
    pose proof (mss_R _ Hm) as HM.
    assert (Hv : 0 <= v <= 4294967296) by lra.
    destruct (ss_lower_real v (IZR (mss s)) Hv HM) as [HR0 Hmain]. cbv zeta in HR0, Hmain.
    set (R0 := rnd (rnd (v * B2R BETA_CUBIC) * IZR (mss s))) in *.
    (* the clamped window is below cwnd, or it is the floor 2 *)
    assert (HS0 : rnd (v * B2R BETA_CUBIC) <= B2R S).
    { rewrite VS. destruct (Rle_dec v c) as [L|L].
      - apply Rle_trans with (rnd (c * B2R BETA_CUBIC)); [|apply Rmax_l].
        apply rnd_le, Rmult_le_compat_r; lra.
      - assert (v <= 2) by (unfold v, clamp, Rmin, Rmax in *; repeat destruct (Rle_dec _ _); lra).
        apply Rle_trans with 2; [|apply Rmax_r].
        apply rnd_le_fmt; [apply (fmt_Z 2); lia|]. pose proof (mult_beta_range v V0). lra. }
    assert (HSpos : 0 < B2R S) by (rewrite VS; apply Rlt_le_trans with 2; [lra | apply Rmax_r]).
    assert (Hn : (0 <= Ztrunc R0 <= USIZE_MAX)%Z).
    { split; [apply Ztrunc_ge_Z, HR0|].
      assert (Ztrunc R0 <= 281474976710656)%Z by apply Ztrunc_le_Z, HR0.
      unfold USIZE_MAX, M64. lia. }
    assert (Hge : (Ztrunc R0 <= usize_of_f64 (fmul S (f64_of_Z (mss s))))%Z).
    { apply usize_fmul_ge; [exact Hm | exact FS | exact HSpos | exact Hn |].
      apply Rle_trans with R0; [apply Ztrunc_le_self, HR0|].
      unfold R0. apply rnd_le, Rmult_le_compat_r; lra. }
    lia.
Qed.

(* the stored peer window fl(win/mss), back in bytes *)
Lemma rho_bytes : forall m win, mss_ok m -> (0 <= win < 2 ^ 32)%Z ->
  let rho := rnd (IZR win / IZR m) in
  0 <= rho <= 4294967296 /\ IZR win - / 64 <= rho * IZR m <= IZR win + / 64.
Proof.
  intros m win Hm Hw rho. pose proof (mss_R _ Hm) as HM.
  assert (Hw' : 0 <= IZR win <= 4294967295) by (split; apply IZR_le; lia).
  assert (Hq : 0 <= IZR win / IZR m <= 4294967296) by (apply div_mss_range; lra).
  pose proof (err_2_32 _ Hq) as E. apply Rabs_le_inv in E. fold rho in E.
  split.
  - split; [apply rnd_ge_0; lra | apply rnd_le_fmt; [exact pow32_fmt | lra]].
  - pose proof (mss_scale_err rho _ _ _ HM E) as EM. rewrite div_mult_mss in EM by lra. lra.
Qed.

(* RTO / enter-recovery, upper clause: with the peer window in force and cwnd <= max(rwnd, 2) *)
Lemma ss_upper : forall s win, mss_ok (mss s) -> (0 <= win < 2 ^ 32)%Z ->
  is_finite (rwnd s) = true -> B2R (rwnd s) = rnd (IZR win / IZR (mss s)) ->
  is_finite (cwnd s) = true -> 0 <= B2R (cwnd s) <= Rmax (B2R (rwnd s)) 2 ->
  (usize_of_f64 (fmul (rust_max (fmul (cwnd s) BETA_CUBIC) f64_2) (f64_of_Z (mss s)))
   <= Z.max (2 * mss s) ((7 * (cubic_window s + 1)) / 10 + 1))%Z.
Proof.
  intros s win Hm Hw Frw Vrw Fc Hc.
  destruct (rho_bytes _ _ Hm Hw) as [Hrho HrM]. cbv zeta in Hrho, HrM. rewrite <- Vrw in Hrho, HrM.
  assert (Hok : rwnd_ok (rwnd s)) by (split; assumption).
  pose proof BETA_exact as Eb. pose proof (mss_R _ Hm) as HM.
  destruct (beta_max_correct _ Fc) as [FS VS].
  set (S := rust_max (fmul (cwnd s) BETA_CUBIC) f64_2) in *.
  rewrite (window_val_fin s Hm Hok Fc).
  set (c := B2R (cwnd s)) in *. set (rho := B2R (rwnd s)) in *. set (M := IZR (mss s)) in *.
  set (t := rnd (c * B2R BETA_CUBIC)) in *.
  destruct (mult_beta_range c (proj1 Hc)) as [Hcb0 Hcb1].
  assert (Ht0 : 0 <= t) by (apply rnd_ge_0; exact Hcb0).
  assert (Htc : t <= c) by (apply rnd_le_fmt; [apply fmt_B2R | exact Hcb1]).
  assert (Hcmax : c <= 4294967296) by (destruct Hc as [_ Hc]; unfold Rmax in Hc; destruct (Rle_dec _ _); lra).
  assert (HS : 0 <= B2R S <= 8589934592).
  { rewrite VS. unfold Rmax. destruct (Rle_dec _ _); lra. }
  rewrite (sshthresh_val S _ Hm FS HS), VS. fold M.
  destruct (Rle_dec t 2) as [L|L].
  - rewrite Rmax_right by exact L.
    replace (2 * M) with (IZR (2 * mss s)) by (rewrite mult_IZR; reflexivity).
    rewrite rnd_generic by (apply fmt_Z; unfold mss_ok in Hm; lia).
    rewrite Ztrunc_IZR. lia.
  - rewrite Rmax_left by lra.
    assert (Hc2 : 2 < c) by lra.
    assert (Hcr : c <= rho) by (destruct Hc as [_ Hc]; unfold Rmax in Hc; destruct (Rle_dec _ _); lra).
    assert (Ev : clamp c rho = c) by (unfold clamp, Rmin, Rmax; repeat destruct (Rle_dec _ _); lra).
    rewrite Ev.
    assert (HcM : t * M <= c * M <= rho * M) by (split; apply Rmult_le_compat_r; lra).
    assert (HtM0 : 0 <= t * M) by (apply Rmult_le_pos; lra).
    assert (Hwin : IZR win <= 4294967295) by (apply IZR_le; lia).
    pose proof (err_2_32 (c * B2R BETA_CUBIC)) as E1. apply Rabs_le_inv in E1; [|lra]. fold t in E1.
    pose proof (err_2_33 (t * M)) as E2. apply Rabs_le_inv in E2; [|lra].
    pose proof (err_2_33 (c * M)) as E3. apply Rabs_le_inv in E3; [|lra].
    set (R := rnd (t * M)) in *. set (W := rnd (c * M)) in *.
    assert (HR : 0 <= R) by (apply rnd_ge_0; lra).
    assert (HW : 0 <= W) by (apply rnd_ge_0; lra).
    pose proof (Ztrunc_le_self R HR) as Hss. pose proof (Ztrunc_gt_pred W HW) as Hw1.
    set (ss := Ztrunc R) in *. set (w := Ztrunc W) in *.
    (* t M <= c beta M + 1/64 and c beta M <= 7/10 c M *)
    destruct (mss_scale_err t (c * B2R BETA_CUBIC) (/ 4194304) M HM) as [_ HtM']; [lra|].
    rewrite Eb in HtM'.
    assert (Hfin : IZR (10 * ss) < IZR (7 * (w + 1) + 1)).
    { rewrite plus_IZR, !mult_IZR, plus_IZR. lra. }
    apply lt_IZR in Hfin. lia.
Qed.

Lemma clampR_small : forall (c : f64) rho, 0 <= rho <= 2 -> clampR c rho = rho.
Proof.
  intros c rho H. unfold clampR.
  destruct c as [s|[|]| |s m e B]; try generalize (B2R (B754_finite s m e B)); try intros x;
    cbn [B2R]; unfold Rmin, Rmax; repeat destruct (Rle_dec _ _); lra.
Qed.

Section AckFine.
Variable powf3 : f64 -> f64.

(* on_ack outside slow start (cwnd >= ssthresh as floats): either the byte window cannot move
   (peer window below two segments) or sshthresh() <= window(), so the guard of the clause is off *)
Lemma ack_tail_fine : forall s (X : f64) len,
  mss_ok (mss s) -> rwnd_ok (rwnd s) -> is_finite (cwnd s) = true -> 0 <= B2R (cwnd s) ->
  cwnd_ok (ssthresh s) -> (0 <= len)%Z ->
  fge (cwnd s) (rwnd s) = false -> flt (cwnd s) (ssthresh s) = false ->
  (cubic_window s < cubic_sshthresh s)%Z ->
  (cubic_window (cubic_with_cwnd s (rust_max (rust_min X (rwnd s)) f64_2))
   <= cubic_window s + len + 1)%Z.
Proof.
  intros s X len Hm Hok Fc Hc0 Hs Hl Hge Hlt Hguard.
  set (s' := cubic_with_cwnd s (rust_max (rust_min X (rwnd s)) f64_2)).
  pose proof Hok as [Frw Hrw].
  assert (Hcr : B2R (cwnd s) < B2R (rwnd s)).
  { unfold fge in Hge. rewrite (Bleb_correct 53 1024 _ _ Frw Fc) in Hge.
    destruct (Rle_bool_spec (B2R (rwnd s)) (B2R (cwnd s))); [discriminate|assumption]. }
  destruct (Rle_dec (B2R (rwnd s)) 2) as [Small|Big].
  - destruct (window_val s Hm Hok) as [E _].
    destruct (window_val s' Hm Hok) as [E' _].
    rewrite E, E'. change (rwnd s') with (rwnd s). change (mss s') with (mss s).
    rewrite !clampR_small by lra. lia.
  - exfalso. destruct Hs as [Es|[Fs Hs0]].
    + unfold flt in Hlt. rewrite Es in Hlt. destruct (cwnd s); try discriminate Fc; discriminate Hlt.
    + unfold flt in Hlt. rewrite (Bltb_finite _ _ Fc Fs) in Hlt.
      destruct (Rlt_bool_spec (B2R (cwnd s)) (B2R (ssthresh s))) as [|Hts]; [discriminate|].
      unfold cubic_sshthresh in Hguard.
      rewrite (sshthresh_val (ssthresh s) _ Hm Fs) in Hguard by lra.
      rewrite (window_val_fin s Hm Hok Fc) in Hguard.
      pose proof (mss_R _ Hm) as HM.
      assert (Hv : B2R (cwnd s) <= clamp (B2R (cwnd s)) (B2R (rwnd s)))
        by (unfold clamp, Rmin, Rmax; repeat destruct (Rle_dec _ _); lra).
      assert (Ztrunc (rnd (B2R (ssthresh s) * IZR (mss s)))
              <= Ztrunc (rnd (clamp (B2R (cwnd s)) (B2R (rwnd s)) * IZR (mss s))))%Z
        by (apply Ztrunc_le, rnd_le; nra).
      lia.
Qed.

Lemma on_ack_fine : forall s now len rtt s',
  mss_ok (mss s) -> rwnd_ok (rwnd s) -> cwnd_ok (cwnd s) -> cwnd_ok (ssthresh s) ->
  (0 <= len < 2 ^ 32)%Z -> cubic_on_ack powf3 s now len rtt = Some s' ->
  (cubic_window s < cubic_sshthresh s)%Z ->
  (cubic_window s' <= cubic_window s + len + 1)%Z.
Proof.
  intros s now len rtt s' Hm Hok Hc Hs Hl E Hguard.
  destruct (on_ack_cases _ _ _ _ _ _ E) as [->|(_ & Hge & X & Es')]; [lia|].
  destruct Hc as [Ec|[Fc Hc0]].
  - rewrite Ec in Hge. destruct Hok as [Frw _]. destruct (rwnd s); discriminate.
  - destruct (flt (cwnd s) (ssthresh s)) eqn:Hlt.
    + destruct (slow_start_bytes powf3 s now len rtt Hm Hok Hl Fc Hc0 Hlt) as (s'' & E' & _ & _ & _ & _ & Hb).
      rewrite E in E'. injection E' as <-. lia.
    + rewrite Es'. apply ack_tail_fine; try assumption; lia.
Qed.
End AckFine.

(* ---- a_tight: cwnd <= max(rwnd, 2) is known *)
Definition tight_inv (s : cubic) (a : c15_acc) : Prop :=
  a_tight a = true -> is_finite (cwnd s) = true /\ B2R (cwnd s) <= Rmax (B2R (rwnd s)) 2.

Lemma cwnd_ok_fin : forall c : f64, cwnd_ok c -> is_finite c = true -> 0 <= B2R c.
Proof. intros c [->|[_ H]] F; [discriminate F | exact H]. Qed.

Section Tight.
Variable cbrt : f64 -> f64.
Variable powf3 : f64 -> f64.

Lemma step_tight : forall s a o s' w ss m, inv s a -> cwnd_ok (cwnd s) -> tight_inv s a ->
  c15_op_dom o = true -> cubic_step cbrt powf3 s o = Some s' ->
  tight_inv s' (c15_next a o w ss m).
Proof.
  intros s a o s' w ss m (Em & Hm & Hok & Hl & Hf & Ew & Es) Hc Ht Hd E.
  pose proof Hok as [Frw Hrw]. destruct f64_2_correct as [F2 V2].
  destruct o as [win|now len rtt| |now|cb sb|m']; cbn [cubic_step] in E; unfold tight_inv, c15_next.
  - injection E as <-. cbn [a_tight cubic_set_remote_window cwnd rwnd]. intros T.
    apply andb_true_iff in T. destruct T as [T T3]. apply andb_true_iff in T. destruct T as [T1 T2].
    destruct (Ht T1) as [Fc Hle]. split; [exact Fc|].
    destruct (Hf T2) as [Hw Vrw].
    unfold c15_op_dom in Hd. assert (Hwin : (0 <= win < 2 ^ 32)%Z) by (unfold c15_u32, M32 in Hd; lia).
    destruct (set_rw_ok _ _ Hm Hwin) as [_ V']. rewrite V'.
    apply Rle_trans with (1 := Hle). apply Rle_max_compat_r. rewrite Vrw. apply rnd_le.
    pose proof (mss_R _ Hm) as HM. apply Z.leb_le in T3.
    apply Rmult_le_compat_r; [left; apply Rinv_0_lt_compat; lra | apply IZR_le; exact T3].
  - cbn [a_tight]. destruct (on_ack_cases _ _ _ _ _ _ E) as [->|(_ & _ & X & ->)]; [exact Ht|].
    intros _. cbn [cubic_with_cwnd cwnd rwnd]. destruct (finish_ok X (rwnd s) Frw) as [F [_ H]].
    split; assumption.
  - injection E as <-. cbn [a_tight cubic_on_retransmission_timeout cwnd rwnd]. intros _.
    destruct f64_1_correct as [F1 V1]. split; [exact F1|]. rewrite V1.
    apply Rle_trans with 2; [lra | apply Rmax_r].
  - injection E as <-. cbn [a_tight]. intros T. destruct (Ht T) as [Fc Hle].
    destruct (enter_recovery_cwnd_le cbrt s now Fc (cwnd_ok_fin _ Hc Fc)) as (F' & _ & [_ H'] & _).
    split; [exact F'|]. cbn [cubic_on_enter_recovery rwnd] in *. lra.
  - injection E as <-. cbn [a_tight cubic_on_recovered cwnd rwnd]. intros _.
    destruct (finish_ok (fdiv (f64_of_Z cb) (f64_of_Z (mss s))) (rwnd s) Frw) as [F [_ H]].
    split; assumption.
  - injection E as <-. unfold cubic_set_mss. rewrite Em, (Z.eqb_sym (a_mss a) m').
    destruct (m' =? a_mss a)%Z; cbn [a_tight]; [exact Ht | intros T; discriminate T].
Qed.
End Tight.

(* ---- a_pend: the byte window recorded before a run of set_mss calls *)
Definition u53 : R := / 9007199254740992.

(* cwnd * mss is x0 up to k accumulated rescaling errors; x0 is the unclamped real window
   whose truncation was recorded as wb *)
Definition pend_facts (k : Z) (wb : Z) (s : cubic) (x0 D : R) : Prop :=
  2 <= x0 /\ IZR wb - / 1024 <= x0 <= IZR wb + 1 + / 1024 /\
  is_finite (cwnd s) = true /\
  B2R (cwnd s) * IZR (mss s) = x0 * (1 + D) /\ Rabs D <= IZR k * (4 * u53).

(* Why a bound on the number of consecutive set_mss calls (PEND_MAX, C15_Pred2.v): every effective
   set_mss multiplies cwnd * mss by (1 + d), |d| <= 3 * 2^-53, and the errors can add up in one
   direction.  NOT machine-checked (the chain is too long to evaluate inside Coq; observed on the
   real code through harness `cubic` and in an IEEE-double simulation of the model):
     cubic 17555 w4294967295 r4000000000,4294967295 (m40744 m17555) x 1687000 w4294967295
   gives window() 4000000000 before the 3374000 MSS changes and 3999999998 after the same peer
   window is re-applied (sshthresh() 4294967295 -> 4294967293): two bytes lost, so the +-1 byte
   clause of c15_obs_ok fails there and `forall ops, c15_obs_ok ... = true` is false without the
   bound.  With at most 65536 consecutive calls the drift is below 1/4 byte (pend_check). *)
Definition pend_inv (n : Z) (s : cubic) (a : c15_acc) : Prop :=
  forall wb mb, a_pend a = Some (wb, mb) ->
    (2 * mb + 1 < wb)%Z -> (wb + 1 < a_win a)%Z -> (a_win a < 2 ^ 32)%Z ->
    exists (k : Z) (x0 D : R), (0 <= k <= n)%Z /\ pend_facts k wb s x0 D.

(* creation: peer window in force, cwnd <= max(rwnd,2), recorded window strictly above 2 mss *)
Lemma pend_init : forall s win, mss_ok (mss s) -> (0 <= win < 2 ^ 32)%Z ->
  is_finite (rwnd s) = true -> B2R (rwnd s) = rnd (IZR win / IZR (mss s)) ->
  is_finite (cwnd s) = true -> 0 <= B2R (cwnd s) <= Rmax (B2R (rwnd s)) 2 ->
  (2 * mss s + 1 < cubic_window s)%Z ->
  pend_facts 0 (cubic_window s) s (B2R (cwnd s) * IZR (mss s)) 0.
Proof.
  intros s win Hm Hw Frw Vrw Fc Hc Hgt.
  destruct (rho_bytes _ _ Hm Hw) as [Hrho HrM]. cbv zeta in Hrho, HrM. rewrite <- Vrw in Hrho, HrM.
  assert (Hok : rwnd_ok (rwnd s)) by (split; assumption).
  pose proof (mss_R _ Hm) as HM.
  rewrite (window_val_fin s Hm Hok Fc) in *.
  set (c := B2R (cwnd s)) in *. set (rho := B2R (rwnd s)) in *. set (M := IZR (mss s)) in *.
  destruct (clamp_range c rho (proj1 Hrho)) as [V0 V1].
  assert (HvM : 0 <= clamp c rho * M) by (apply Rmult_le_pos; lra).
  assert (HP : 0 <= rnd (clamp c rho * M)) by (apply rnd_ge_0; exact HvM).
  pose proof (Ztrunc_le_self _ HP) as Hlo. pose proof (Ztrunc_gt_pred _ HP) as Hhi.
  set (wb := Ztrunc (rnd (clamp c rho * M))) in *.
  assert (Hwb : IZR (2 * mss s) + 2 <= IZR wb).
  { replace 2 with (IZR 2) at 2 by reflexivity. rewrite <- plus_IZR. apply IZR_le. lia. }
  rewrite mult_IZR in Hwb. fold M in Hwb.
  assert (Hv2 : 2 < clamp c rho).
  { destruct (Rlt_dec 2 (clamp c rho)) as [|N]; [assumption|]. exfalso.
    assert (rnd (clamp c rho * M) <= IZR (2 * mss s)).
    { apply rnd_le_fmt; [apply fmt_Z; unfold mss_ok in Hm; lia|]. rewrite mult_IZR. fold M.
      apply Rmult_le_compat_r; lra. }
    rewrite mult_IZR in H. fold M in H. lra. }
  assert (Hc2 : 2 < c) by (unfold clamp, Rmin, Rmax in Hv2; repeat destruct (Rle_dec _ _); lra).
  assert (Hcr : c <= rho) by (destruct Hc as [_ Hc]; unfold Rmax in Hc; destruct (Rle_dec _ _); lra).
  assert (Ev : clamp c rho = c) by (unfold clamp, Rmin, Rmax; repeat destruct (Rle_dec _ _); lra).
  rewrite Ev in *.
  assert (HcM : 2 * M <= c * M <= rho * M) by (split; apply Rmult_le_compat_r; lra).
  assert (Hx : 0 <= c * M <= 8589934592).
  { assert (IZR win <= 4294967295) by (apply IZR_le; lia). lra. }
  pose proof (err_2_33 _ Hx) as E. apply Rabs_le_inv in E.
  unfold pend_facts. split; [lra|]. split; [split; lra|]. split; [exact Fc|]. split; [unfold c, M; ring|].
  rewrite Rabs_R0. unfold u53. lra.
Qed.

(* one effective set_mss: one more rescaling error *)
Lemma pend_step : forall s m' k wb x0 D, mss_ok (mss s) -> mss_ok m' -> mss s <> m' ->
  (0 <= k < PEND_MAX)%Z -> (wb < 2 ^ 32)%Z ->
  pend_facts k wb s x0 D ->
  exists D', pend_facts (k + 1) wb (cubic_set_mss s m') x0 D'.
Proof.
  intros s m' k wb x0 D Hm Hm' Hne Hk Hwb (H2 & Hx0 & Fc & Eq & HD).
  pose proof (mss_R _ Hm) as HM.
  assert (Hk' : 0 <= IZR k <= 65535) by (unfold PEND_MAX in Hk; split; apply IZR_le; lia).
  assert (Hwb' : IZR wb <= 4294967295) by (apply IZR_le; lia).
  unfold u53 in *. pose proof (Rabs_le_inv _ _ HD) as HD'.
  (* the accumulated drift of x0 stays below a quarter byte *)
  destruct (mult_err_range x0 D 8589934592 (/ 34359738368)) as [Hd0 Hd1]; [lra | lra |].
  assert (Hy : 1 <= B2R (cwnd s) * IZR (mss s) <= 8589934592) by (rewrite Eq; lra).
  pose proof (units_of_bytes _ _ _ HM Hy) as Hc.
  destruct (set_mss_rescales s m' Hm Hm' Hne Fc) as (_ & Em' & _ & Fc' & d & Hd & Eq'); [lra|].
  cbv zeta in Em', Fc', Eq'. rewrite eps_val in Hd.
  exists (D + d + D * d). unfold pend_facts, u53.
  split; [exact H2|]. split; [exact Hx0|]. split; [exact Fc'|]. split.
  - rewrite Em', Eq', Eq. ring.
  - apply Rle_trans with (1 := rel_err_compose _ _ _ _ HD Hd). rewrite plus_IZR. lra.
Qed.

(* the peer window is re-applied after at most PEND_MAX effective MSS changes *)
Lemma pend_check : forall s win k wb x0 D, mss_ok (mss s) -> (0 <= win < 2 ^ 32)%Z ->
  (0 <= k <= PEND_MAX)%Z -> (wb + 1 < win)%Z ->
  pend_facts k wb s x0 D ->
  let w := cubic_window (cubic_set_remote_window s win) in
  let expect := Z.max wb (Z.min (2 * mss s) win) in
  (expect - 1 <= w <= expect + 1)%Z.
Proof.
  intros s win k wb x0 D Hm Hw Hk Hlt (H2 & Hx0 & Fc & Eq & HD). cbv zeta.
  pose proof (mss_R _ Hm) as HM.
  assert (Hk' : 0 <= IZR k <= 65536) by (unfold PEND_MAX in Hk; split; apply IZR_le; lia).
  assert (Hwin : IZR wb + 2 <= IZR win).
  { replace 2 with (IZR 2) by reflexivity. rewrite <- plus_IZR. apply IZR_le. lia. }
  assert (Hwin' : IZR win <= 4294967295) by (apply IZR_le; lia).
  unfold u53 in HD. apply Rabs_le_inv in HD.
  destruct (window_bounds s win Hm Hw) as (B1 & B2 & B3). cbv zeta in B1, B2, B3.
  set (s1 := cubic_set_remote_window s win) in *.
  destruct (set_rw_ok _ _ Hm Hw) as [Hok1 V1].
  destruct (rho_bytes _ _ Hm Hw) as [Hrho HrM]. cbv zeta in Hrho, HrM. rewrite <- V1 in Hrho, HrM.
  change (fdiv (f64_of_Z win) (f64_of_Z (mss s))) with (rwnd s1) in Hok1, V1, Hrho, HrM.
  assert (E1 : cubic_window s1 = Ztrunc (rnd (clamp (B2R (cwnd s)) (B2R (rwnd s1)) * IZR (mss s))))
    by (apply (window_val_fin s1 Hm Hok1 Fc)).
  set (c := B2R (cwnd s)) in *. set (rho := B2R (rwnd s1)) in *. set (M := IZR (mss s)) in *.
  (* the accumulated drift of x0 stays below a quarter byte *)
  destruct (mult_err_range x0 D 8589934592 (/ 34359738368)) as [Hd0 Hd1]; [lra | lra |].
  assert (Hy : IZR wb - 1 / 4 - / 1024 <= c * M <= IZR wb + 1 + 1 / 4 + / 1024) by (rewrite Eq; lra).
  assert (Hy0 : 1 <= c * M <= 8589934592) by (rewrite Eq; lra).
  pose proof (units_of_bytes _ _ _ HM Hy0) as Hc0.
  destruct (Rle_dec 2 c) as [C2|C2].
  - assert (H2M : 2 * M <= c * M) by (apply Rmult_le_compat_r; lra).
    assert (Hcr : c < rho).
    { apply Rnot_le_lt. intros N. apply (Rmult_le_compat_r M) in N; lra. }
    assert (Ev : clamp c rho = c) by (unfold clamp, Rmin, Rmax; repeat destruct (Rle_dec _ _); lra).
    rewrite Ev in E1.
    pose proof (err_2_33 (c * M)) as E. apply Rabs_le_inv in E; [|lra].
    set (P := rnd (c * M)) in *.
    assert (HP : 0 <= P) by (apply rnd_ge_0; lra).
    assert (L1 : (wb - 1 <= Ztrunc P)%Z) by (apply Ztrunc_ge_pred; lra).
    assert (L2 : (Ztrunc P <= wb + 1)%Z) by (apply Ztrunc_lt_succ; [exact HP | rewrite plus_IZR; lra]).
    assert (L3 : (2 * mss s <= wb + 1)%Z).
    { assert (IZR (2 * mss s) < IZR (wb + 2)); [|apply lt_IZR in H; lia].
      rewrite mult_IZR, plus_IZR. fold M. lra. }
    assert (L4 : (2 * mss s <= Ztrunc P)%Z).
    { apply Ztrunc_ge_Z, rnd_ge_fmt; [apply fmt_Z; unfold mss_ok in Hm; lia|].
      rewrite mult_IZR. exact H2M. }
    rewrite E1. lia.
  - assert (Hv2 : clamp c rho <= 2) by (unfold clamp, Rmin, Rmax; repeat destruct (Rle_dec _ _); lra).
    assert (HvM : clamp c rho * M <= 2 * M) by (apply Rmult_le_compat_r; lra).
    assert (HcM : c * M <= 2 * M) by (apply Rmult_le_compat_r; lra).
    assert (L4 : (cubic_window s1 <= 2 * mss s)%Z).
    { rewrite E1. apply Ztrunc_le_Z, rnd_le_fmt; [apply fmt_Z; unfold mss_ok in Hm; lia|].
      rewrite mult_IZR. exact HvM. }
    assert (L3 : (wb <= 2 * mss s)%Z).
    { assert (IZR wb < IZR (2 * mss s + 1)); [|apply lt_IZR in H; lia].
      rewrite plus_IZR, mult_IZR. fold M. lra. }
    lia.
Qed.

(* ---- assembling: c15_check true = c15_check false + the extra clauses *)
Lemma check_fine_split : forall a o w ss m,
  c15_check true a o w ss m = c15_check false a o w ss m && c15_fine_extra a o w ss m.
Proof.
  intros a o w ss m. destruct o; unfold c15_check, c15_fine_extra; cbn [andb];
    rewrite ?andb_true_r, ?andb_assoc; reflexivity.
Qed.

Definition next_n (n : Z) (o : cubic_op) : Z := match o with SetMss _ => (n + 1)%Z | _ => 0%Z end.

Definition inv2 (n : Z) (s : cubic) (a : c15_acc) : Prop :=
  inv s a /\ (0 <= n <= PEND_MAX)%Z /\ cwnd_ok (cwnd s) /\ cwnd_ok (ssthresh s) /\
  tight_inv s a /\ pend_inv n s a.

Section FineTrace.
Variable cbrt : f64 -> f64.
Variable powf3 : f64 -> f64.

Lemma step_pend : forall n s a o s', inv2 n s a -> c15_op_dom o = true ->
  (match o with SetMss _ => (n < PEND_MAX)%Z | _ => True end) ->
  cubic_step cbrt powf3 s o = Some s' ->
  pend_inv (next_n n o) s' (c15_next a o (cubic_window s') (cubic_sshthresh s') (cubic_smss s')).
Proof.
  intros n s a o s' (Hinv & Hn & Hc & Hs & Ht & Hp) Hd Hlim E.
  pose proof Hinv as (Em & Hm & Hok & Hl & Hf & Ew & Es).
  destruct o as [win|now len rtt| |now|cb sb|m']; unfold pend_inv, c15_next;
    try (cbn [a_pend]; intros wb mb Ep; discriminate Ep).
  cbn [cubic_step] in E. injection E as <-. cbn [next_n]. unfold c15_op_dom in Hd. apply mss_ok_b in Hd.
  destruct (Z.eqb_spec m' (a_mss a)) as [Eq|Ne].
  - assert (Es' : cubic_set_mss s m' = s)
      by (unfold cubic_set_mss; rewrite Em, Eq, Z.eqb_refl; reflexivity).
    rewrite Es'. cbn [a_pend a_win]. intros wb mb Ep H1 H2 H3.
    destruct (Hp wb mb Ep H1 H2 H3) as (k & x0 & D & Hk & Hfacts).
    exists k, x0, D. split; [lia | exact Hfacts].
  - cbn [a_pend a_win]. intros wb mb Ep H1 H2 H3.
    assert (Hne : mss s <> m') by (rewrite Em; intros C; apply Ne; symmetry; exact C).
    destruct (a_pend a) as [[wb0 mb0]|] eqn:Epa.
    + injection Ep as -> ->.
      destruct (Hp wb mb Epa H1 H2 H3) as (k & x0 & D & Hk & Hfacts).
      destruct (pend_step s m' k wb x0 D Hm Hd Hne) as [D' Hfacts']; [lia | lia | exact Hfacts |].
      exists (k + 1)%Z, x0, D'. split; [lia | exact Hfacts'].
    + destruct (a_fresh a) eqn:Ef; [|discriminate Ep]. destruct (a_tight a) eqn:Et; [|discriminate Ep].
      cbn [andb] in Ep. injection Ep as <- <-.
      destruct (Hf eq_refl) as [Hw Vrw]. destruct (Ht Et) as [Fc Hle].
      rewrite Ew, <- Em in *.
      pose proof (pend_init s (a_win a) Hm Hw (proj1 Hok) Vrw Fc (conj (cwnd_ok_fin _ Hc Fc) Hle) H1) as H0.
      destruct (pend_step s m' 0 (cubic_window s) (B2R (cwnd s) * IZR (mss s)) 0 Hm Hd Hne) as [D' Hfacts'];
        [unfold PEND_MAX; lia | lia | exact H0 |].
      exists 1%Z, (B2R (cwnd s) * IZR (mss s)), D'. split; [lia | exact Hfacts'].
Qed.

(* both loss events set ssthresh = max(cwnd * BETA_CUBIC, 2.): the two ssthresh clauses *)
Lemma loss_extra : forall n s a, inv2 n s a ->
  let ss := usize_of_f64 (fmul (rust_max (fmul (cwnd s) BETA_CUBIC) f64_2) (f64_of_Z (mss s))) in
  c15_ss_lower_ok (a_mss a) (a_w a) ss &&
  (if a_tight a && a_fresh a then c15_ss_upper_ok (a_mss a) (a_w a) ss else true) = true.
Proof.
  intros n s a (Hinv & Hn & Hc & Hs & Ht & Hp). pose proof Hinv as (Em & Hm & Hok & Hl & Hf & Ew & Es).
  cbv zeta. rewrite Ew, <- Em. apply andb_true_iff. split.
  - unfold c15_ss_lower_ok. apply Z.leb_le. exact (ss_lower s Hm Hok Hc).
  - destruct (a_tight a) eqn:Et; [|reflexivity]. destruct (a_fresh a) eqn:Ef; [|reflexivity].
    cbn [andb]. destruct (Hf eq_refl) as [Hw Vrw]. destruct (Ht Et) as [Fc Hle].
    unfold c15_ss_upper_ok. apply Z.leb_le.
    exact (ss_upper s (a_win a) Hm Hw (proj1 Hok) Vrw Fc (conj (cwnd_ok_fin _ Hc Fc) Hle)).
Qed.

Lemma step_extra : forall n s a o s', inv2 n s a -> c15_op_dom o = true ->
  cubic_step cbrt powf3 s o = Some s' ->
  c15_fine_extra a o (cubic_window s') (cubic_sshthresh s') (cubic_smss s') = true.
Proof.
  intros n s a o s' Hinv2 Hd E. pose proof Hinv2 as (Hinv & Hn & Hc & Hs & Ht & Hp).
  pose proof Hinv as (Em & Hm & Hok & Hl & Hf & Ew & Es).
  destruct o as [win|now len rtt| |now|cb sb|m']; cbn [cubic_step] in E; unfold c15_fine_extra;
    try reflexivity.
  - (* SetRemoteWindow: the pend clause *)
    injection E as <-.
    destruct (a_pend a) as [[wb mb]|] eqn:Ep; [|reflexivity].
    destruct ((win =? a_win a)%Z && (2 * mb + 1 <? wb)%Z && (wb + 1 <? win)%Z) eqn:G; [|reflexivity].
    apply andb_true_iff in G. destruct G as [G G3]. apply andb_true_iff in G. destruct G as [G1 G2].
    apply Z.eqb_eq in G1. apply Z.ltb_lt in G2. apply Z.ltb_lt in G3.
    unfold c15_op_dom in Hd. assert (Hw : (0 <= win < 2 ^ 32)%Z) by (unfold c15_u32, M32 in Hd; lia).
    destruct (Hp wb mb Ep G2) as (k & x0 & D & Hk & Hfacts); [lia | lia |].
    pose proof (pend_check s win k wb x0 D Hm Hw) as PC. cbv zeta in PC. rewrite <- Em.
    assert (Hk' : (0 <= k <= PEND_MAX)%Z) by lia.
    specialize (PC Hk' G3 Hfacts). cbv zeta.
    apply andb_true_iff. split; apply Z.leb_le; lia.
  - (* OnAck *)
    destruct (a_w a <? a_ss a)%Z eqn:G; [|reflexivity]. apply Z.ltb_lt in G. rewrite Ew, Es in G.
    unfold c15_op_dom in Hd. assert (Hlen : (0 <= len < 2 ^ 32)%Z) by (unfold c15_u32, M32 in Hd; lia).
    apply Z.leb_le. rewrite Ew.
    exact (on_ack_fine powf3 s now len rtt s' Hm Hok Hc Hs Hlen E G).
  - (* OnRto *)
    injection E as <-. exact (loss_extra n s a Hinv2).
  - (* OnEnterRecovery *)
    injection E as <-. exact (loss_extra n s a Hinv2).
Qed.

Lemma step_fine : forall n s a o, inv2 n s a -> c15_op_dom o = true ->
  (match o with SetMss _ => (n < PEND_MAX)%Z | _ => True end) ->
  exists s', cubic_step cbrt powf3 s o = Some s' /\
    c15_check true a o (cubic_window s') (cubic_sshthresh s') (cubic_smss s') = true /\
    inv2 (next_n n o) s' (c15_next a o (cubic_window s') (cubic_sshthresh s') (cubic_smss s')).
Proof.
  intros n s a o Hinv2 Hd Hlim. pose proof Hinv2 as (Hinv & Hn & Hc & Hs & Ht & Hp).
  destruct (step_ok cbrt powf3 s a o Hinv Hd) as (s' & E & Hchk & Hinv').
  exists s'. split; [exact E|]. split.
  - rewrite check_fine_split, Hchk. cbn [andb]. exact (step_extra n s a o s' Hinv2 Hd E).
  - pose proof Hinv as (Em & Hm & Hok & _).
    destruct (step_cwnd_ok cbrt powf3 s o s' Hm (proj1 Hok) Hd Hc Hs E) as [Hc' Hs'].
    refine (conj Hinv' (conj _ (conj Hc' (conj Hs' (conj _ _))))).
    + destruct o; cbn [next_n]; unfold PEND_MAX in *; lia.
    + exact (step_tight cbrt powf3 s a o s' _ _ _ Hinv Hc Ht Hd E).
    + exact (step_pend n s a o s' Hinv2 Hd Hlim E).
Qed.

Lemma run_go_step : forall n o r, setmss_run_go n (o :: r) = true ->
  (match o with SetMss _ => (n < PEND_MAX)%Z | _ => True end) /\ setmss_run_go (next_n n o) r = true.
Proof.
  intros n o r H. destruct o; cbn [setmss_run_go next_n] in *; try (split; [exact I | exact H]).
  apply andb_true_iff in H. destruct H as [H1 H2]. apply Z.ltb_lt in H1. split; assumption.
Qed.

Lemma trace_fine_go : forall ops s a n, inv2 n s a -> setmss_run_go n ops = true ->
  c15_obs_go true a ops (cubic_trace cbrt powf3 s ops) = true.
Proof.
  induction ops as [|o ops IH]; intros s a n Hinv Hrun; [reflexivity|].
  cbn [cubic_trace]. destruct (run_go_step n o ops Hrun) as [Hlim Hrun'].
  destruct (a_dom a && c15_op_dom o) eqn:Ed.
  - pose proof Ed as Ed'. apply andb_true_iff in Ed'. destruct Ed' as [_ Ed'].
    destruct (step_fine n s a o Hinv Ed' Hlim) as (s' & E & Hc & Hi). rewrite E.
    unfold cubic_obs. cbn [c15_obs_go]. rewrite Ed, Hc. exact (IH _ _ _ Hi Hrun').
  - destruct (cubic_step cbrt powf3 s o) as [s'|]; unfold cubic_obs; cbn [c15_obs_go];
      rewrite Ed; reflexivity.
Qed.
End FineTrace.

Lemma inv2_init : forall mss0, c15_mss_ok mss0 = true -> inv2 0 (cubic_new 0 mss0) (c15_acc0 mss0).
Proof.
  intros m Hb. destruct f64_2_correct as [F2 V2].
  refine (conj (inv_init m Hb) (conj _ (conj _ (conj _ (conj _ _))))).
  - unfold PEND_MAX. lia.
  - right. cbn [cubic_new cwnd]. split; [exact F2 | rewrite V2; lra].
  - left. reflexivity.
  - intros _. cbn [cubic_new cwnd rwnd]. split; [exact F2|]. rewrite V2. apply Rmax_r.
  - intros wb mb Ep. discriminate Ep.
Qed.

(* (2) every clause of c15_obs_ok, rounding-sensitive ones included, on every model trace in which
   at most PEND_MAX = 65536 set_mss calls are consecutive; for every cbrt / powf3 *)
Lemma model_trace_fine_ok : forall (cbrt powf3 : f64 -> f64) mss0 ops,
  setmss_runs_ok ops = true ->
  c15_obs_ok mss0 ops (cubic_trace cbrt powf3 (cubic_new 0 mss0) ops) = true.
Proof.
  intros cbrt powf3 mss0 ops Hrun. unfold c15_obs_ok.
  destruct (c15_mss_ok mss0) eqn:Hb.
  - apply (trace_fine_go cbrt powf3 ops _ _ 0%Z); [apply inv2_init; exact Hb | exact Hrun].
  - apply obs_go_out_of_dom. unfold c15_acc0. cbn [a_dom]. exact Hb.
Qed.

(* unconditional form, on the predicate of C15_Pred2.v *)
Lemma model_trace_ok_b : forall (cbrt powf3 : f64 -> f64) mss0 ops,
  c15_obs_ok_b mss0 ops (cubic_trace cbrt powf3 (cubic_new 0 mss0) ops) = true.
Proof.
  intros cbrt powf3 mss0 ops. unfold c15_obs_ok_b.
  destruct (setmss_runs_ok ops) eqn:Hrun.
  - apply model_trace_fine_ok. exact Hrun.
  - apply model_trace_core_ok.
Qed.

(* ---- the float-state invariant of every reachable state, without the predicate accumulator *)
Definition reach_inv (s : cubic) : Prop :=
  mss_ok (mss s) /\ rwnd_ok (rwnd s) /\ cwnd_ok (cwnd s) /\ cwnd_ok (ssthresh s).

Lemma reach_new : forall now mss0, mss_ok mss0 -> reach_inv (cubic_new now mss0).
Proof.
  intros now m Hm. destruct f64_2_correct as [F2 V2]. split; [exact Hm|]. split; [|split].
  - split; [reflexivity|]. cbn [cubic_new rwnd f64_zero B2R]. lra.
  - right. cbn [cubic_new cwnd]. split; [exact F2 | rewrite V2; lra].
  - left. reflexivity.
Qed.

Section Reach.
Variable cbrt : f64 -> f64.
Variable powf3 : f64 -> f64.

Lemma reach_step : forall s o s', reach_inv s -> c15_op_dom o = true ->
  cubic_step cbrt powf3 s o = Some s' -> reach_inv s'.
Proof.
  intros s o s' (Hm & Hok & Hc & Hs) Hd E.
  destruct (step_cwnd_ok cbrt powf3 s o s' Hm (proj1 Hok) Hd Hc Hs E) as [Hc' Hs'].
  assert (Hmr : mss_ok (mss s') /\ rwnd_ok (rwnd s')); [|destruct Hmr as [A B]; exact (conj A (conj B (conj Hc' Hs')))].
  destruct o as [win|now len rtt| |now|cb sb|m']; cbn [cubic_step] in E.
  - injection E as <-. cbn [cubic_set_remote_window mss rwnd]. split; [exact Hm|].
    unfold c15_op_dom in Hd. apply set_rw_ok; [exact Hm | unfold c15_u32, M32 in Hd; lia].
  - destruct (on_ack_cases _ _ _ _ _ _ E) as [->|(_ & _ & X & ->)]; split; assumption.
  - injection E as <-. split; assumption.
  - injection E as <-. split; assumption.
  - injection E as <-. split; assumption.
  - injection E as <-. unfold cubic_set_mss. destruct (Z.eqb_spec (mss s) m'); [split; assumption|].
    cbn [mss rwnd]. split; [apply mss_ok_b; exact Hd | exact Hok].
Qed.

Lemma reach_run : forall ops s s', reach_inv s -> forallb c15_op_dom ops = true ->
  cubic_run cbrt powf3 s ops = Some s' -> reach_inv s'.
Proof.
  induction ops as [|o ops IH]; intros s s' Hr Hd E; cbn [cubic_run] in E.
  - injection E as <-. exact Hr.
  - cbn [forallb] in Hd. apply andb_true_iff in Hd. destruct Hd as [Hd1 Hd2].
    destruct (cubic_step cbrt powf3 s o) as [s1|] eqn:E1; cbn [bind] in E; [|discriminate E].
    exact (IH s1 s' (reach_step s o s1 Hr Hd1 E1) Hd2 E).
Qed.

(* (1) on every reachable state: while window() < sshthresh() one ACK of len bytes raises
   window() by at most len + 1 (and in slow start proper it never lowers it: slow_start_bytes) *)
Lemma slow_start_bytes_reachable : forall mss0 ops s now len rtt s',
  mss_ok mss0 -> forallb c15_op_dom ops = true ->
  cubic_run cbrt powf3 (cubic_new 0 mss0) ops = Some s ->
  (0 <= len < 2 ^ 32)%Z -> cubic_on_ack powf3 s now len rtt = Some s' ->
  (cubic_window s < cubic_sshthresh s)%Z ->
  (cubic_window s' <= cubic_window s + len + 1)%Z.
Proof.
  intros mss0 ops s now len rtt s' Hm Hd E Hl Ea Hg.
  destruct (reach_run ops _ s (reach_new 0 mss0 Hm) Hd E) as (Hm' & Hok & Hc & Hs).
  exact (on_ack_fine powf3 s now len rtt s' Hm' Hok Hc Hs Hl Ea Hg).
Qed.
End Reach.

Lemma reachable_state_invariant : forall (cbrt powf3 : f64 -> f64) mss0 ops s,
  mss_ok mss0 -> forallb c15_op_dom ops = true ->
  cubic_run cbrt powf3 (cubic_new 0 mss0) ops = Some s -> reach_inv s.
Proof.
  intros cbrt powf3 mss0 ops s Hm Hd E.
  exact (reach_run cbrt powf3 ops _ s (reach_new 0 mss0 Hm) Hd E).
Qed.

(* ---- (3) set_mss in bytes: a run of MSS changes, then the same peer window re-applied *)
Lemma set_mss_mss : forall s m', mss (cubic_set_mss s m') = m'.
Proof.
  intros s m'. unfold cubic_set_mss. destruct (Z.eqb_spec (mss s) m') as [E|_]; [exact E | reflexivity].
Qed.

Lemma pend_chain : forall ms s k wb x0 D, mss_ok (mss s) -> forallb c15_mss_ok ms = true ->
  (0 <= k)%Z -> (k + Z.of_nat (length ms) <= PEND_MAX)%Z -> (wb < 2 ^ 32)%Z ->
  pend_facts k wb s x0 D ->
  exists k' D', (k <= k' <= k + Z.of_nat (length ms))%Z /\
    mss_ok (mss (fold_left cubic_set_mss ms s)) /\
    pend_facts k' wb (fold_left cubic_set_mss ms s) x0 D'.
Proof.
  induction ms as [|m' ms IH]; intros s k wb x0 D Hm Hall Hk Hlen Hwb Hf.
  - exists k, D. cbn [fold_left length Z.of_nat]. split; [lia|]. split; assumption.
  - cbn [forallb] in Hall. apply andb_true_iff in Hall. destruct Hall as [Hm1 Hall].
    apply mss_ok_b in Hm1. cbn [fold_left]. cbn [length] in *. rewrite Nat2Z.inj_succ in *.
    assert (Hm' : mss_ok (mss (cubic_set_mss s m'))) by (rewrite set_mss_mss; exact Hm1).
    destruct (Z.eq_dec (mss s) m') as [Eq|Ne].
    + assert (Es : cubic_set_mss s m' = s) by (unfold cubic_set_mss; rewrite Eq, Z.eqb_refl; reflexivity).
      rewrite Es in *.
      destruct (IH s k wb x0 D Hm Hall Hk) as (k' & D' & Hk' & R); [lia | exact Hwb | exact Hf |].
      exists k', D'. split; [lia | exact R].
    + destruct (pend_step s m' k wb x0 D Hm Hm1 Ne) as [D1 Hf1]; [unfold PEND_MAX in *; lia | exact Hwb | exact Hf |].
      destruct (IH (cubic_set_mss s m') (k + 1)%Z wb x0 D1 Hm' Hall) as (k' & D' & Hk' & R);
        [lia | lia | exact Hwb | exact Hf1 |].
      exists k', D'. split; [lia | exact R].
Qed.

(* peer window win in force, cwnd <= max(rwnd, 2), byte window strictly between 2 mss + 1 and
   win - 1; then up to 65536 set_mss calls and set_remote_window win again: the byte window is the
   old one (or the new two-segment floor), up to one byte: set_mss rescales, it never resets *)
Lemma set_mss_chain_bytes : forall s win ms,
  mss_ok (mss s) -> (0 <= win < 2 ^ 32)%Z ->
  is_finite (rwnd s) = true -> B2R (rwnd s) = rnd (IZR win / IZR (mss s)) ->
  is_finite (cwnd s) = true -> 0 <= B2R (cwnd s) <= Rmax (B2R (rwnd s)) 2 ->
  (2 * mss s + 1 < cubic_window s)%Z -> (cubic_window s + 1 < win)%Z ->
  forallb c15_mss_ok ms = true -> (Z.of_nat (length ms) <= PEND_MAX)%Z ->
  let s1 := fold_left cubic_set_mss ms s in
  let w := cubic_window (cubic_set_remote_window s1 win) in
  let expect := Z.max (cubic_window s) (Z.min (2 * mss s1) win) in
  (expect - 1 <= w <= expect + 1)%Z.
Proof.
  intros s win ms Hm Hw Frw Vrw Fc Hc H1 H2 Hall Hlen. cbv zeta.
  pose proof (pend_init s win Hm Hw Frw Vrw Fc Hc H1) as H0.
  destruct (pend_chain ms s 0 (cubic_window s) (B2R (cwnd s) * IZR (mss s)) 0 Hm Hall)
    as (k' & D' & Hk' & Hm1 & Hf1);
    [lia | lia | lia | exact H0 |].
  apply (pend_check _ win k' (cubic_window s) (B2R (cwnd s) * IZR (mss s)) D' Hm1 Hw);
    [lia | exact H2 | exact Hf1].
Qed.

(* ---- non-vacuity of the hypotheses, by computation on reachable states *)
Definition ex_reach (ops : list cubic_op) : option cubic :=
  cubic_run (fun x => x) (fun x => x) (cubic_new 0 1500) ops.

(* slow_start_bytes: a reachable slow-start state (finite cwnd, below ssthresh and below rwnd) *)
Example slow_start_bytes_hyps_sat :
  match ex_reach [SetRemoteWindow 1000000; OnAck 1 1500 1000] with
  | Some s => is_finite (cwnd s) = true /\ flt (cwnd s) (ssthresh s) = true /\
              fge (cwnd s) (rwnd s) = false /\ is_finite (rwnd s) = true /\
              (cubic_window s < cubic_sshthresh s)%Z
  | None => False
  end.
Proof. vm_compute. repeat split; reflexivity. Qed.

(* set_mss_chain_bytes: 15000 bytes at mss 1500 under a 1000000-byte peer window; two MSS changes;
   same peer window again: still 15000 bytes *)
Example set_mss_chain_example :
  match ex_reach [SetRemoteWindow 1000000; OnRecovered 15000 1000000] with
  | Some s =>
      (2 * mss s + 1 <? cubic_window s)%Z = true /\ (cubic_window s + 1 <? 1000000)%Z = true /\
      Bleb (cwnd s) (rwnd s) = true /\
      cubic_window (cubic_set_remote_window (fold_left cubic_set_mss [1000; 1234]%Z s) 1000000) = 15000%Z
  | None => False
  end.
Proof. vm_compute. repeat split; reflexivity. Qed.

Example setmss_runs_ok_sat :
  setmss_runs_ok [SetRemoteWindow 1000000; SetMss 1000; SetMss 1234; SetRemoteWindow 1000000] = true.
Proof. vm_compute. reflexivity. Qed.

(* ---- cumulative slow-start bound: window() <= 2 * mss_max + acked bytes before any loss *)
Definition ss_J (n : Z) (s : cubic) (mm acked : Z) : Prop :=
  mss_ok (mss s) /\ (mss s <= mm)%Z /\ rwnd_ok (rwnd s) /\ ssthresh s = B754_infinity false /\
  is_finite (cwnd s) = true /\
  2 - IZR n * / 524288 <= B2R (cwnd s) * IZR (mss s) <= IZR (2 * mm + acked) + IZR n * / 524288.

Lemma flt_fin_inf : forall c : f64, is_finite c = true -> flt c (B754_infinity false) = true.
Proof. intros c F. destruct c as [s|s| |s m e B]; try discriminate F; destruct s; reflexivity. Qed.

Lemma ss_acc_mono : forall ops mm acked, forallb c15_op_dom ops = true ->
  (mm <= fst (ss_acc mm acked ops) /\ acked <= snd (ss_acc mm acked ops))%Z.
Proof.
  induction ops as [|o ops IH]; intros mm acked Hd; [cbn; lia|].
  cbn [forallb] in Hd. apply andb_true_iff in Hd. destruct Hd as [Hd1 Hd2].
  destruct o as [win|now len rtt| |now|cb sb|m']; cbn [ss_acc].
  - apply IH; exact Hd2.
  - destruct (IH mm (acked + len)%Z Hd2) as [H1 H2]. unfold c15_op_dom, c15_u32 in Hd1. split; lia.
  - apply IH; exact Hd2.
  - apply IH; exact Hd2.
  - apply IH; exact Hd2.
  - destruct (IH (Z.max mm m') acked Hd2) as [H1 H2]. split; lia.
Qed.

Section Cumulative.
Variable cbrt : f64 -> f64.
Variable powf3 : f64 -> f64.

(* one effective slow-start ack, as a real inequality on cwnd * mss *)
Lemma ss_ack_real : forall B L e1 e2, 0 <= B <= 4294967297 -> 0 <= L <= 4294967296 ->
  Rabs e1 <= / 9007199254740992 -> Rabs e2 <= / 9007199254740992 ->
  (B + L * (1 + e1)) * (1 + e2) <= B + L + / 524288.
Proof.
  intros B L e1 e2 HB HL H1 H2. apply Rabs_le_inv in H1. apply Rabs_le_inv in H2.
  destruct (mult_err_range L e1 4294967296 _ HL H1) as [T0 T1].
  assert (T : 0 <= L * (1 + e1)) by (apply Rmult_le_pos; lra).
  destruct (mult_err_range (B + L * (1 + e1)) e2 8589934594 (/ 9007199254740992)) as [_ T2]; [lra | exact H2 |].
  lra.
Qed.

Lemma ss_step : forall n s mm acked o s', ss_J n s mm acked ->
  ss_only o = true -> c15_op_dom o = true ->
  (0 <= n < SS_OPS_MAX)%Z -> (0 <= acked)%Z ->
  (2 * fst (ss_acc mm acked [o]) + snd (ss_acc mm acked [o]) <= 4294967295)%Z ->
  cubic_step cbrt powf3 s o = Some s' ->
  ss_J (n + 1) s' (fst (ss_acc mm acked [o])) (snd (ss_acc mm acked [o])).
Proof.
  intros n s mm acked o s' (Hm & Hmm & Hok & Es & Fc & HB) Hss Hd Hn Ha Htot E.
  pose proof (mss_R _ Hm) as HM.
  assert (Hn' : 0 <= IZR n <= 262143) by (unfold SS_OPS_MAX in Hn; split; apply IZR_le; lia).
  assert (Hn1 : IZR (n + 1) = IZR n + 1) by (rewrite plus_IZR; reflexivity).
  destruct o as [win|now len rtt| |now|cb sb|m']; try discriminate Hss;
    cbn [cubic_step] in E; cbn [ss_acc fst snd] in *.
  - (* SetRemoteWindow *)
    injection E as <-. unfold ss_J. cbn [cubic_set_remote_window mss rwnd ssthresh cwnd].
    unfold c15_op_dom in Hd.
    refine (conj Hm (conj Hmm (conj _ (conj Es (conj Fc _))))).
    + apply set_rw_ok; [exact Hm | unfold c15_u32, M32 in Hd; lia].
    + rewrite Hn1. split; lra.
  - (* OnAck *)
    unfold c15_op_dom in Hd. assert (Hlen : (0 <= len < 2 ^ 32)%Z) by (unfold c15_u32, M32 in Hd; lia).
    assert (HL : 0 <= IZR len <= 4294967296) by (split; apply IZR_le; lia).
    assert (Htot' : IZR (2 * mm + acked) + IZR len <= 4294967295) by (rewrite <- plus_IZR; apply IZR_le; lia).
    unfold ss_J. replace (2 * mm + (acked + len))%Z with ((2 * mm + acked) + len)%Z by ring.
    rewrite (plus_IZR (2 * mm + acked)), Hn1.
    destruct (on_ack_cases powf3 _ _ _ _ _ E) as [->|(Hnz & Hge & _)].
    { refine (conj Hm (conj Hmm (conj Hok (conj Es (conj Fc _))))). split; lra. }
    assert (Hc0 : / 65536 <= B2R (cwnd s) <= 4294967297) by (apply (units_of_bytes _ _ _ HM); lra).
    assert (Hlt : flt (cwnd s) (ssthresh s) = true) by (rewrite Es; apply flt_fin_inf; exact Fc).
    assert (Hl' : (0 < len < 2 ^ 32)%Z) by lia.
    destruct (slow_start_mss_units powf3 s now len rtt Hm Hok Hl' Fc) as (s'' & E' & _ & Fc' & Vc' & _ & Es' & Em' & Er');
      [lra | exact Hge | exact Hlt |].
    rewrite E in E'. injection E' as <-. rewrite Em', Er', Es'.
    refine (conj Hm (conj Hmm (conj Hok (conj Es (conj Fc' _))))).
    rewrite Vc'.
    set (c := B2R (cwnd s)) in *. set (M := IZR (mss s)) in *. set (L := IZR len) in *.
    assert (HL1 : 1 <= L) by (unfold L; apply IZR_le; lia).
    assert (HLM : / 65536 <= L / M) by (apply div_mss_ge; lra).
    destruct (rnd_rel (L / M)) as (e1 & He1 & E1); [apply tiny_le; exact HLM|].
    assert (Hq : / 65536 <= rnd (L / M)) by (apply rnd_ge_fmt; [exact inv65536_fmt | exact HLM]).
    destruct (rnd_rel (c + rnd (L / M))) as (e2 & He2 & E2); [apply tiny_le; lra|].
    rewrite eps_val in He1, He2.
    set (a := rnd (c + rnd (L / M))) in *.
    assert (HaM : a * M = (c * M + L * (1 + e1)) * (1 + e2)).
    { rewrite E2, E1. field. lra. }
    assert (HBup : 0 <= c * M <= 4294967297) by lra.
    pose proof (ss_ack_real (c * M) L e1 e2 HBup (conj (proj1 HL) (proj2 HL)) He1 He2) as Hack.
    rewrite <- HaM in Hack.
    assert (Hmm' : 2 * M <= IZR (2 * mm + acked)).
    { rewrite plus_IZR, mult_IZR. assert (M <= IZR mm) by (apply IZR_le; exact Hmm).
      assert (0 <= IZR acked) by (apply IZR_le; exact Ha). lra. }
    assert (Hcw : 2 <= Rmax (Rmin a (B2R (rwnd s))) 2 <= Rmax a 2)
      by (unfold Rmax, Rmin; repeat destruct (Rle_dec _ _); lra).
    set (c' := Rmax (Rmin a (B2R (rwnd s))) 2) in *.
    assert (c' * M <= Rmax (a * M) (2 * M)) by (apply mult_Rmax_le; lra).
    assert (Rmax (a * M) (2 * M) <= IZR (2 * mm + acked) + L + (IZR n + 1) * / 524288)
      by (apply Rmax_lub; lra).
    assert (2 * 1 <= c' * M) by (apply Rmult_le_compat; lra).
    split; lra.
  - (* SetMss *)
    injection E as <-. unfold c15_op_dom in Hd. apply mss_ok_b in Hd.
    assert (Hmax : IZR (2 * mm + acked) <= IZR (2 * Z.max mm m' + acked)) by (apply IZR_le; lia).
    destruct (Z.eq_dec (mss s) m') as [Eq|Ne].
    + assert (Es' : cubic_set_mss s m' = s) by (unfold cubic_set_mss; rewrite Eq, Z.eqb_refl; reflexivity).
      rewrite Es'. unfold ss_J. refine (conj Hm (conj _ (conj Hok (conj Es (conj Fc _))))); [lia|].
      rewrite Hn1. split; lra.
    + assert (Htot' : IZR (2 * Z.max mm m' + acked) <= 4294967295) by (apply IZR_le; lia).
      assert (HBr : 1 <= B2R (cwnd s) * IZR (mss s) <= 4294967296) by (split; lra).
      pose proof (units_of_bytes _ _ _ HM HBr) as Hc.
      destruct (set_mss_rescales s m' Hm Hd Ne Fc) as (_ & Em' & Er' & Fc' & d & Hdd & Eq'); [lra|].
      cbv zeta in Em', Er', Fc', Eq'. rewrite eps_val in Hdd. apply Rabs_le_inv in Hdd.
      assert (Ess : ssthresh (cubic_set_mss s m') = B754_infinity false).
      { unfold cubic_set_mss. destruct (Z.eqb_spec (mss s) m') as [C|_]; [contradiction|].
        cbn [ssthresh]. rewrite Es. destruct (rescale_ok _ _ Hm Hd) as [Fr Hr].
        destruct (finite_sign _ Fr Hr) as (mr & er & Br & Er). rewrite Er. reflexivity. }
      unfold ss_J. rewrite Em', Er'.
      refine (conj Hd (conj _ (conj Hok (conj Ess (conj Fc' _))))); [lia|].
      rewrite Eq', Hn1.
      set (B := B2R (cwnd s) * IZR (mss s)) in *.
      pose proof (mult_err_range B d 4294967296 _ (conj (Rle_trans _ _ _ Rle_0_1 (proj1 HBr)) (proj2 HBr)) Hdd).
      split; lra.
Qed.

Lemma ss_run : forall ops n s mm acked s', ss_J n s mm acked ->
  forallb ss_only ops = true -> forallb c15_op_dom ops = true ->
  (0 <= n)%Z -> (n + Z.of_nat (length ops) <= SS_OPS_MAX)%Z -> (0 <= acked)%Z ->
  (2 * fst (ss_acc mm acked ops) + snd (ss_acc mm acked ops) <= 4294967295)%Z ->
  cubic_run cbrt powf3 s ops = Some s' ->
  ss_J (n + Z.of_nat (length ops)) s' (fst (ss_acc mm acked ops)) (snd (ss_acc mm acked ops)).
Proof.
  induction ops as [|o ops IH]; intros n s mm acked s' HJ Hss Hd Hn Hlen Ha Htot E.
  - cbn [cubic_run] in E. injection E as <-. cbn [length Z.of_nat ss_acc fst snd].
    rewrite Z.add_0_r. exact HJ.
  - cbn [forallb] in Hss, Hd. apply andb_true_iff in Hss. destruct Hss as [Hss1 Hss2].
    apply andb_true_iff in Hd. destruct Hd as [Hd1 Hd2].
    cbn [length] in *. rewrite Nat2Z.inj_succ in *.
    cbn [cubic_run] in E.
    destruct (cubic_step cbrt powf3 s o) as [s1|] eqn:E1; cbn [bind] in E; [|discriminate E].
    assert (Hsplit : ss_acc mm acked (o :: ops) =
                     ss_acc (fst (ss_acc mm acked [o])) (snd (ss_acc mm acked [o])) ops)
      by (destruct o; reflexivity).
    rewrite Hsplit in *.
    set (mm1 := fst (ss_acc mm acked [o])) in *. set (a1 := snd (ss_acc mm acked [o])) in *.
    destruct (ss_acc_mono ops mm1 a1 Hd2) as [Hmono1 Hmono2].
    assert (Ha1 : (0 <= a1)%Z).
    { unfold a1. destruct o; cbn [ss_acc snd]; try lia.
      unfold c15_op_dom, c15_u32 in Hd1. lia. }
    assert (HJ1 : ss_J (n + 1) s1 mm1 a1).
    { apply (ss_step n s mm acked o s1 HJ Hss1 Hd1); [unfold SS_OPS_MAX in *; lia | exact Ha | | exact E1].
      fold mm1 a1. lia. }
    replace (n + Z.succ (Z.of_nat (length ops)))%Z with ((n + 1) + Z.of_nat (length ops))%Z by lia.
    apply (IH (n + 1)%Z s1 mm1 a1 s' HJ1 Hss2 Hd2); [lia | lia | exact Ha1 | exact Htot | exact E].
Qed.

Lemma ss_J_window : forall n s mm acked, ss_J n s mm acked -> (0 <= n <= SS_OPS_MAX)%Z ->
  (0 <= acked)%Z -> (2 * mm + acked <= 4294967295)%Z ->
  (cubic_window s <= 2 * mm + acked)%Z.
Proof.
  intros n s mm acked (Hm & Hmm & Hok & Es & Fc & HB) Hn Ha Htot.
  pose proof (mss_R _ Hm) as HM.
  assert (Hn' : 0 <= IZR n <= 262144) by (unfold SS_OPS_MAX in Hn; split; apply IZR_le; lia).
  assert (Htot' : IZR (2 * mm + acked) <= 4294967295) by (apply IZR_le; exact Htot).
  rewrite (window_val_fin s Hm Hok Fc).
  destruct (clamp_range (B2R (cwnd s)) (B2R (rwnd s)) (proj1 (proj2 Hok))) as [V0 V1].
  assert (Hv : clamp (B2R (cwnd s)) (B2R (rwnd s)) <= Rmax (B2R (cwnd s)) 2)
    by (unfold clamp; apply Rmin_l).
  set (v := clamp (B2R (cwnd s)) (B2R (rwnd s))) in *.
  set (c := B2R (cwnd s)) in *. set (M := IZR (mss s)) in *.
  assert (Hmm' : 2 * M <= IZR (2 * mm + acked)).
  { rewrite plus_IZR, mult_IZR. assert (M <= IZR mm) by (apply IZR_le; exact Hmm).
    assert (0 <= IZR acked) by (apply IZR_le; exact Ha). lra. }
  assert (HvM : v * M <= IZR (2 * mm + acked) + / 2).
  { assert (v * M <= Rmax (c * M) (2 * M)) by (apply mult_Rmax_le; lra).
    assert (Rmax (c * M) (2 * M) <= IZR (2 * mm + acked) + / 2) by (apply Rmax_lub; lra).
    lra. }
  assert (Hx : 0 <= v * M <= 4294967296) by (split; [apply Rmult_le_pos|]; lra).
  pose proof (err_2_32 _ Hx) as Er. apply Rabs_le_inv in Er.
  apply Ztrunc_lt_succ; [apply rnd_ge_0; lra | lra].
Qed.

(* C05 slow-start clause at the congestion controller: from Cubic::new, any sequence of at most 2^18
   set_remote_window / on_ack / set_mss operations (no loss event) whose bound 2 mss_max + acked is
   below 2^32: window() <= 2 * mss_max + acked bytes, EXACTLY (all float error absorbed). *)
Lemma slow_start_cumulative : forall now0 mss0 ops s,
  mss_ok mss0 -> forallb ss_only ops = true -> forallb c15_op_dom ops = true ->
  (Z.of_nat (length ops) <= SS_OPS_MAX)%Z ->
  (2 * fst (ss_acc mss0 0 ops) + snd (ss_acc mss0 0 ops) <= 4294967295)%Z ->
  cubic_run cbrt powf3 (cubic_new now0 mss0) ops = Some s ->
  (cubic_window s <= 2 * fst (ss_acc mss0 0 ops) + snd (ss_acc mss0 0 ops))%Z.
Proof.
  intros now0 mss0 ops s Hm Hss Hd Hlen Htot E.
  destruct f64_2_correct as [F2 V2]. pose proof (mss_R _ Hm) as HM.
  assert (HJ0 : ss_J 0 (cubic_new now0 mss0) mss0 0).
  { unfold ss_J. cbn [cubic_new mss rwnd ssthresh cwnd].
    refine (conj Hm (conj (Z.le_refl _) (conj _ (conj eq_refl (conj F2 _))))).
    - split; [reflexivity|]. cbn [f64_zero B2R]. lra.
    - rewrite V2, Z.add_0_r, mult_IZR. lra. }
  destruct (ss_acc_mono ops mss0 0 Hd) as [M1 M2].
  pose proof (ss_run ops 0 _ mss0 0 s HJ0 Hss Hd (Z.le_refl 0)) as HJ.
  cbn [Z.add] in HJ. specialize (HJ Hlen (Z.le_refl 0) Htot E).
  apply (ss_J_window _ s _ _ HJ); [lia | lia | exact Htot].
Qed.
End Cumulative.

Example slow_start_cumulative_sat :
  let ops := [SetRemoteWindow 1000000; OnAck 1 1500 1000; SetMss 1400; OnAck 2 700 1000] in
  forallb ss_only ops = true /\ forallb c15_op_dom ops = true /\
  ss_acc 1500 0 ops = (1500, 2200)%Z /\
  option_map cubic_window (ex_reach ops) = Some 5200%Z.
Proof. vm_compute. repeat split; reflexivity. Qed.
