(* C10, socket half: arbitrary datagrams into the dispatcher never crash it, never touch another
   connection's table entry, and never drive its own state beyond its static bounds.
   The composition "UtpMessage::deserialize, then on_recv" is Sock/DispHostile.v.  Proofs only. *)
From Utp Require Import Base.Prelude Wire.SeqNr Wire.Header Wire.Header_Proofs Sock.Dispatcher
  Sock.Dispatcher_Proofs Sock.DispObs Sock.DispObs_Proofs Sock.DispFresh_Proofs Sock.DispSlots_Proofs
  Sock.DispPending_Proofs Sock.DispWiring_Proofs Sock.DispRelease_Proofs Sock.DispHostile.

(* ================================================================== 1. parsing is total *)
Lemma parse_raw_no_panic bs : parse_raw bs <> RpPanic.
Proof.
  unfold parse_raw. pose proof (no_panic bs) as H.
  destruct (msg_deserialize bs); [congruence|discriminate|discriminate].
Qed.

Lemma parse_raw_cases bs :
  (parse_raw bs = RpGarbage /\ msg_deserialize bs = MsgNone) \/
  (exists h p, msg_deserialize bs = MsgSome h p /\ parse_raw bs = RpMsg (dmsg_of_header h)).
Proof.
  unfold parse_raw. pose proof (no_panic bs) as H.
  destruct (msg_deserialize bs) as [| |h p]; [congruence|left; auto|right; eauto].
Qed.

Lemma parse_raw_garbage_iff bs : parse_raw bs = RpGarbage <-> msg_deserialize bs = MsgNone.
Proof.
  unfold parse_raw. destruct (msg_deserialize bs); split; intro H; congruence || discriminate || reflexivity.
Qed.

(* which datagrams are garbage: exactly those the C11 wire theorems reject *)
Lemma parse_raw_garbage_spec bs : bytes_okb bs = true ->
  (parse_raw bs = RpGarbage <->
   match deserialize bs with
   | None => True
   | Some (h, n) => ~ (skipn (Z.to_nat n) bs <> [] <-> h_type h = ST_DATA)
   end).
Proof. intro Hb. rewrite parse_raw_garbage_iff. apply msg_rejects_iff. exact Hb. Qed.

Lemma short_is_garbage bs : Zlength bs < 20 -> parse_raw bs = RpGarbage.
Proof.
  intro H. apply parse_raw_garbage_iff. unfold msg_deserialize, deserialize.
  destruct (Z.ltb_spec (Zlength bs) UTP_HEADER) as [_|Hge]; [reflexivity|]. unfold UTP_HEADER in Hge. lia.
Qed.

Lemma bad_version_is_garbage bs : nth 0 bs 0 mod 16 <> 1 -> parse_raw bs = RpGarbage.
Proof.
  intro H. apply parse_raw_garbage_iff. unfold msg_deserialize, deserialize.
  destruct (Zlength bs <? UTP_HEADER); [reflexivity|].
  destruct (Z.eqb_spec (nth 0 bs 0 mod 16) 1) as [E|_]; [contradiction|reflexivity].
Qed.

(* what a parsed datagram carries is what the header says, in range *)
Lemma parse_raw_msg_fields bs m : bytes_okb bs = true -> parse_raw bs = RpMsg m ->
  20 <= Zlength bs /\
  dm_conn m = of_be16 (nth 2 bs 0) (nth 3 bs 0) /\ 0 <= dm_conn m < 65536 /\
  dm_seq m = of_be16 (nth 16 bs 0) (nth 17 bs 0) /\
  dm_ack m = of_be16 (nth 18 bs 0) (nth 19 bs 0) /\
  type_to_number (dm_type m) = nth 0 bs 0 / 16.
Proof.
  intros Hb H. destruct (parse_raw_cases bs) as [[Hg _]|(h & p & Hm & Hp)]; [congruence|].
  rewrite Hp in H. injection H as <-.
  apply (msg_payload_rule bs h p Hb) in Hm. destruct Hm as (n & Hd & _ & _).
  apply (accepts_iff bs h n Hb) in Hd. destruct Hd as (exts & W1 & W2 & W3 & W4 & W5 & W6 & W7 & W8 & W9 & W10 & W11 & W12 & W13).
  unfold dmsg_of_header; cbn [dm_conn dm_seq dm_ack dm_type].
  split; [exact W1|]. split; [exact W7|]. split.
  { rewrite W7. apply of_be16_range; apply bytes_okb_nth; exact Hb. }
  auto.
Qed.

(* ------------------------------------------------------------------ the recv arm on raw bytes *)
(* never a panic; the invariant is kept; garbage changes nothing at all *)
Lemma disp_total s addr bs :
  d_inv s ->
  exists s' e, handle_recv_raw s addr bs = RoOk s' e /\
    d_inv s' /\ d_max_streams s' = d_max_streams s /\
    (parse_raw bs = RpGarbage -> s' = s /\ e = [EvDropped]) /\
    (forall m, parse_raw bs = RpMsg m -> on_recv s addr m = (s', e)).
Proof.
  intro Hinv. unfold handle_recv_raw. pose proof (parse_raw_no_panic bs) as Hnp.
  destruct (parse_raw bs) as [| |m] eqn:Ep; [congruence| |].
  - exists s, [EvDropped]. split; [reflexivity|]. split; [exact Hinv|]. split; [reflexivity|].
    split; [auto|]. intros m H; discriminate H.
  - destruct (on_recv s addr m) as [s' e] eqn:Er.
    destruct (on_recv_spec _ _ _ _ _ Hinv Er) as (A & B & _).
    exists s', e. split; [reflexivity|]. split; [exact A|]. split; [exact B|].
    split; [discriminate|]. intros m0 H0. injection H0 as <-. exact Er.
Qed.

(* the whole run_once *)
Lemma disp_total_run_once s pushes addr bs :
  d_inv s ->
  exists d s' e,
    rop_dop (RopRaw pushes addr bs) = Some d /\ rstep s (RopRaw pushes addr bs) = Some (s', e) /\
    dstep s d = (s', e) /\ d_inv s' /\ d_max_streams s' = d_max_streams s /\
    (parse_raw bs = RpGarbage ->
       d = DoRunOnce pushes (ArmRecv addr None) /\
       (* exactly cleanup_accept_queue and the parked pushes, which run whatever arm fires *)
       let '(s1, e1) := cleanup_accept_queue s in
       s' = fold_left push_acceptor pushes s1 /\ e = e1 ++ [EvDropped]).
Proof.
  intro Hinv. unfold rstep. cbn [rop_dop]. pose proof (parse_raw_no_panic bs) as Hnp.
  destruct (parse_raw bs) as [| |m] eqn:Ep; [congruence| |].
  - destruct (dstep s (DoRunOnce pushes (ArmRecv addr None))) as [s' e] eqn:Ed.
    destruct (dstep_inv _ _ _ _ Hinv Ed) as [A B].
    exists (DoRunOnce pushes (ArmRecv addr None)), s', e.
    split; [reflexivity|]. split; [reflexivity|]. split; [exact Ed|]. split; [exact A|]. split; [exact B|].
    intros _. split; [reflexivity|]. cbn [dstep] in Ed.
    destruct (cleanup_accept_queue s) as [s1 e1]. injection Ed as <- <-. auto.
  - destruct (dstep s (DoRunOnce pushes (ArmRecv addr (Some m)))) as [s' e] eqn:Ed.
    destruct (dstep_inv _ _ _ _ Hinv Ed) as [A B].
    exists (DoRunOnce pushes (ArmRecv addr (Some m))), s', e.
    split; [reflexivity|]. split; [reflexivity|]. split; [exact Ed|]. split; [exact A|]. split; [exact B|].
    intro H; discriminate H.
Qed.

(* ================================================================== 2. isolation: exact effects *)
Lemma hk_syn_key_eq y : hk_syn_key y = syn_key y.
Proof. reflexivity. Qed.
Lemma hk_syn_of_eq addr m : hk_syn_of addr m = syn_of addr m.
Proof. reflexivity. Qed.

(* ---- a SYN that no connection claimed ---- *)
(* exactly one of: a new connection for a waiting acceptor / ignored (its key is in use) /
   queued / refused with one reset; whatever happens, acceptors found abandoned are swept *)
Definition syn_effect (s : dstate) (y : syn) (s' : dstate) (e : list devent) : Prop :=
  keeps s s' /\ (length (d_chan s') <= length (d_chan s))%nat /\
  ((exists a, e = [EvAccepted a (syn_key y)] /\
      d_streams s' = d_streams s ++ [live_entry (syn_key y) (d_next_sid s)] /\
      d_handed s' = d_handed s ++ [(a, (syn_key y, d_next_sid s))] /\
      d_syns s' = d_syns s /\ d_syns s = [] /\
      ~ In (syn_key y) (keys (d_streams s)) /\ ~ In a (d_dead_acceptors s)) \/
   (e = [] /\ d_streams s' = d_streams s /\ d_handed s' = d_handed s /\ d_syns s' = d_syns s /\
      d_syns s = [] /\ In (syn_key y) (keys (d_streams s))) \/
   (e = [] /\ d_streams s' = d_streams s /\ d_handed s' = d_handed s /\ d_syns s' = d_syns s ++ [y] /\
      Z.of_nat (length (d_syns s)) < ACCEPT_QUEUE_MAX_SYNS) \/
   (e = [EvSentRst (sy_addr y) (sy_conn y) (sy_seq y)] /\
      d_streams s' = d_streams s /\ d_handed s' = d_handed s /\ d_syns s' = d_syns s /\
      ACCEPT_QUEUE_MAX_SYNS <= Z.of_nat (length (d_syns s)))).

Inductive loop_res (s : dstate) (y : syn) (s' : dstate) (done : bool) (e : list devent) : Prop :=
| LrAccepted a :
    done = true -> e = [EvAccepted a (syn_key y)] ->
    d_streams s' = d_streams s ++ [live_entry (syn_key y) (d_next_sid s)] ->
    d_handed s' = d_handed s ++ [(a, (syn_key y, d_next_sid s))] ->
    ~ In (syn_key y) (keys (d_streams s)) -> ~ In a (d_dead_acceptors s) -> loop_res s y s' done e
| LrClash :
    done = true -> e = [] -> same_tabs s s' -> In (syn_key y) (keys (d_streams s)) -> loop_res s y s' done e
| LrNone :
    done = false -> e = [] -> same_tabs s s' -> loop_res s y s' done e.

Lemma match_syn_invalid_clash s y a s' e :
  match_syn_with_accept s y a = (s', MrSynInvalid, e) -> In (syn_key y) (keys (d_streams s)).
Proof.
  unfold match_syn_with_accept. fold (syn_key y).
  destruct (streams_full s); [discriminate|].
  destruct (has_stream s (syn_key y)) eqn:Eh; [intros _; apply has_stream_in; exact Eh|].
  destruct (next_random s) as [s1 x]. destruct (mem_z a _); discriminate.
Qed.

Lemma on_syn_loop_exact : forall fuel s y s' done e,
  on_syn_loop fuel s y = (s', done, e) -> loop_res s y s' done e.
Proof.
  induction fuel as [|fuel IH]; intros s y s' done e; cbn [on_syn_loop].
  { intro H; injection H as <- <- <-. apply LrNone; auto using same_tabs_refl. }
  destruct (try_next_acceptor s) as [s1 oa] eqn:Et.
  destruct (try_next_same_tabs _ _ _ Et) as [T1 T2].
  destruct oa as [a|]; [|intro H; injection H as <- <- <-; apply LrNone; auto].
  destruct (match_syn_with_accept s1 y a) as [[s2 r] e2] eqn:Em.
  destruct (match_syn_exact _ _ _ _ _ _ Em) as (D & M).
  destruct T1 as (U1 & U2 & U3 & U4).
  destruct r; intro H.
  - injection H as <- <- <-. destruct M as (-> & M1 & M2 & M3 & M4 & _).
    apply (LrAccepted _ _ _ _ _ a); auto; congruence.
  - injection H as <- <- <-. destruct M as (-> & M1 & M2 & M3). dsimpl.
    apply LrNone; auto. unfold same_tabs; dsimpl. repeat split; congruence.
  - injection H as <- <- <-. destruct M as (-> & M1 & M2 & M3). dsimpl.
    apply LrClash; auto.
    + unfold same_tabs; dsimpl. repeat split; congruence.
    + rewrite <- U1. eapply match_syn_invalid_clash; exact Em.
  - destruct M as (-> & M1 & M2 & M3).
    assert (Hst : same_tabs s s2) by (unfold same_tabs; repeat split; congruence).
    pose proof Hst as (V1 & V2 & V3 & V4).
    destruct (IH _ _ _ _ _ H) as [a0 L1 L2 L3 L4 L5 L6|L1 L2 L3 L4|L1 L2 L3].
    + apply (LrAccepted _ _ _ _ _ a0); auto; congruence.
    + apply LrClash; auto; [eapply same_tabs_trans; eauto|congruence].
    + apply LrNone; auto. eapply same_tabs_trans; eauto.
Qed.

Lemma on_syn_exact s y s' e : st_inv s -> on_syn s y = (s', e) -> syn_effect s y s' e.
Proof.
  intros Hst H. pose proof (on_syn_keeps _ _ _ _ H) as K. unfold syn_effect. split; [exact K|].
  unfold on_syn in H.
  destruct (d_syns s) as [|y0 r0] eqn:Es.
  - destruct (on_syn_loop (length (d_chan s) + 2) s y) as [[s1 done] e1] eqn:El.
    pose proof (on_syn_loop_exact _ _ _ _ _ _ El) as L.
    destruct (on_syn_loop_rule _ _ st_rel_kept _ _ _ _ _ _ I El) as [A0 S1].
    destruct (A0 Hst) as (_ & _ & [_ _ _ _ S2]). rewrite Es in S1.
    destruct L as [a L1 L2 L3 L4 L5 L6|L1 L2 L3 L4|L1 L2 L3]; subst done e1.
    + injection H as <- <-. split; [exact S2|]. left. exists a. repeat split; auto.
    + injection H as <- <-. split; [exact S2|]. right; left.
      destruct L3 as (V1 & V2 & _). repeat split; auto.
    + destruct L3 as (V1 & V2 & _). rewrite S1 in H. cbn [length app] in H.
      destruct (Z.ltb_spec (Z.of_nat 0) ACCEPT_QUEUE_MAX_SYNS) as [Hlt|Hge].
      * injection H as <- <-. dsimpl. split; [exact S2|]. right; right; left.
        repeat split; auto.
      * exfalso. unfold ACCEPT_QUEUE_MAX_SYNS in Hge. cbn in Hge. lia.
  - cbv beta iota in H. rewrite !Es in H.
    destruct (Z.ltb_spec (Z.of_nat (length (y0 :: r0))) ACCEPT_QUEUE_MAX_SYNS) as [Hlt|Hge];
      injection H as <- <-; dsimpl; (split; [lia|]).
    + right; right; left. repeat split; auto.
    + right; right; right. repeat split; auto.
Qed.

(* ---- a ST_STATE that no connection claimed ---- *)
(* nothing, or the completion of exactly the first pending connect to this address whose SYN
   carried the acknowledged sequence number *)
Definition ack_effect (s : dstate) (addr : Z) (m : dmsg) (s' : dstate) (e : list devent) : Prop :=
  let k := {| k_addr := addr; k_conn := dm_conn m |} in
  (s' = s /\ e = [EvDropped]) \/
  (exists c m1 m2,
     streams_full s = false /\
     pending s addr = m1 ++ c :: m2 /\ cn_seq c = dm_ack m /\
     (forall x, In x m1 -> cn_seq x <> dm_ack m) /\
     pending s' addr = m1 ++ m2 /\ (forall a, a <> addr -> pending s' a = pending s a) /\
     d_next_conn_id s' = d_next_conn_id s /\ d_control s' = d_control s /\ d_syns s' = d_syns s /\
     d_chan s' = d_chan s /\ d_next_acc s' = d_next_acc s /\
     d_dead_connectors s' = d_dead_connectors s /\ d_handed s' = d_handed s /\
     ((In (cn_token c) (d_dead_connectors s) /\ e = [EvDropped] /\
       d_streams s' = d_streams s /\ d_results s' = d_results s) \/
      (~ In (cn_token c) (d_dead_connectors s) /\ e = [EvConnected (cn_token c) k] /\
       d_streams s' = d_streams s ++ [live_entry k (d_next_sid s)] /\
       d_results s' = d_results s ++ [(cn_token c, CrOk k)]))).

Lemma on_ack_exact s addr m s' e :
  d_inv s -> find_stream s {| k_addr := addr; k_conn := dm_conn m |} = None ->
  on_maybe_connect_ack s addr m = (s', e) -> ack_effect s addr m s' e.
Proof.
  intros Hinv Hnone H. pose proof (on_maybe_connect_ack_slots _ _ _ _ _ Hinv Hnone H) as Hsl.
  cbv zeta in Hsl. unfold ack_effect.
  destruct (streams_full s) eqn:Ef; [left; exact Hsl|].
  destruct (slots_pop _ (slots_of s addr)) as [[c sl']|] eqn:Ep; [|left; exact Hsl].
  right. destruct Hsl as (S1 & S2 & S3 & S4 & S5 & S6 & S7 & S8 & S9 & S10).
  destruct (slots_pop_somes _ _ _ _ Ep) as (m1 & m2 & Q1 & Q2 & Q3 & Q4 & _).
  exists c, m1, m2. split; [reflexivity|]. split; [exact Q1|]. split; [apply Z.eqb_eq; exact Q3|].
  split; [intros x Hx; apply Z.eqb_neq; apply Q4; exact Hx|].
  split; [unfold pending; rewrite S1; exact Q2|].
  split; [intros a Ha; unfold pending; rewrite (S2 a Ha); reflexivity|].
  repeat (split; [assumption|]).
  destruct (mem_z (cn_token c) (d_dead_connectors s)) eqn:Em.
  - left. split; [apply mem_z_iff; exact Em|exact S10].
  - right. split; [apply mem_z_false; exact Em|exact S10].
Qed.

(* ---- every datagram, exactly ---- *)
Definition recv_effect (s : dstate) (addr : Z) (m : dmsg) (s' : dstate) (e : list devent) : Prop :=
  let k := {| k_addr := addr; k_conn := dm_conn m |} in
  match find_stream s k with
  | Some en =>
      if se_alive en then s' = s /\ e = [EvForward k]
      else s' = upd_streams s (remove_stream (d_streams s) k) /\ e = [EvDropped]
  | None =>
      match dm_type m with
      | ST_SYN => syn_effect s (syn_of addr m) s' e
      | ST_STATE => ack_effect s addr m s' e
      | _ => s' = s /\ e = [EvDropped]
      end
  end.

Lemma on_recv_exact s addr m s' e :
  d_inv s -> on_recv s addr m = (s', e) -> recv_effect s addr m s' e.
Proof.
  intros Hinv H. unfold recv_effect. unfold on_recv in H.
  destruct (find_stream s _) as [en|] eqn:Ef.
  - destruct (se_alive en); injection H as <- <-; auto.
  - destruct (dm_type m); try (injection H as <- <-; auto; fail).
    + apply on_ack_exact; assumption.
    + apply on_syn_exact; [destruct Hinv as (I1 & I2 & _); split; assumption|exact H].
Qed.

(* ------------------------------------------------------------------ isolation, spelled out *)
Definition iso_concl (s : dstate) (addr : Z) (m : dmsg) (s' : dstate) (e : list devent) : Prop :=
  let k := {| k_addr := addr; k_conn := dm_conn m |} in
  (* forwarded to no other connection, and then nothing else happens *)
  (forall k0, In (EvForward k0) e -> k0 = k /\ e = [EvForward k] /\ s' = s) /\
  (* every entry under another key is still there, the very same entry (object, liveness) *)
  (forall en, In en (d_streams s) -> se_key en <> k -> In en (d_streams s')) /\
  (* at most one entry is created: by a SYN under (addr, id + 1), by a ST_STATE under (addr, id),
     only when no connection claimed the datagram, only under a key that was free *)
  (forall en, In en (d_streams s') -> In en (d_streams s) \/
     (find_stream s k = None /\ d_streams s' = d_streams s ++ [en] /\ se_alive en = true /\
      ~ In (se_key en) (keys (d_streams s)) /\
      ((dm_type m = ST_SYN /\ se_key en = syn_key (syn_of addr m)) \/
       (dm_type m = ST_STATE /\ se_key en = k)))) /\
  (* at most this SYN is queued, and then nothing else happens to table or wire *)
  (d_syns s' = d_syns s \/
   (dm_type m = ST_SYN /\ find_stream s k = None /\ d_syns s' = d_syns s ++ [syn_of addr m] /\
    d_streams s' = d_streams s /\ e = [])) /\
  (* at most one reply: the reset refusing this SYN, and then nothing else happens *)
  (forall a c q, In (EvSentRst a c q) e ->
     dm_type m = ST_SYN /\ find_stream s k = None /\ e = [EvSentRst addr (dm_conn m) (dm_seq m)] /\
     d_streams s' = d_streams s /\ d_syns s' = d_syns s) /\
  (forall a c q, ~ In (EvSentSyn a c q) e) /\
  (* pending connects: at most one is completed, of this address, by a ST_STATE acknowledging its SYN *)
  (forall a, pending s' a = pending s a \/
     (a = addr /\ dm_type m = ST_STATE /\ find_stream s k = None /\
      exists c m1 m2, pending s a = m1 ++ c :: m2 /\ cn_seq c = dm_ack m /\ pending s' a = m1 ++ m2)) /\
  d_control s' = d_control s /\ d_next_conn_id s' = d_next_conn_id s /\
  d_max_streams s' = d_max_streams s /\ d_dead_connectors s' = d_dead_connectors s /\
  d_dead_acceptors s' = d_dead_acceptors s.

Ltac iso_single :=
  match goal with
  | |- forall k0, In (EvForward k0) [EvForward _] -> _ =>
      let H := fresh in intros ? [H|[]]; injection H as <-; auto
  | |- forall k0, In _ [_] -> _ => let H := fresh in intros ? [H|[]]; discriminate H
  | |- forall k0, In _ [] -> _ => intros ? []
  | |- forall a c q, In _ [_] -> _ => let H := fresh in intros ? ? ? [H|[]]; discriminate H
  | |- forall a c q, In _ [] -> _ => intros ? ? ? []
  | |- forall a c q, ~ In _ [_] => let H := fresh in intros ? ? ? [H|[]]; discriminate H
  | |- forall a c q, ~ In _ [] => intros ? ? ? []
  end.

Lemma in_app_single {A} (l : list A) x y : In y (l ++ [x]) -> In y l \/ y = x.
Proof. intro H. apply in_app_or in H. destruct H as [H|[H|[]]]; auto. Qed.

(* a datagram that changes nothing and reports one event *)
Lemma iso_quiet s addr m x :
  (forall k0, x = EvForward k0 -> k0 = {| k_addr := addr; k_conn := dm_conn m |}) ->
  (forall a c q, x <> EvSentRst a c q) -> (forall a c q, x <> EvSentSyn a c q) ->
  iso_concl s addr m s [x].
Proof.
  intros Hf Hr Hsy. unfold iso_concl. cbv zeta.
  split; [intros k0 [Hx|[]]; pose proof (Hf k0 Hx) as ->; subst x; auto|].
  split; [auto|]. split; [auto|]. split; [auto|].
  split; [intros a c q [Hx|[]]; exfalso; exact (Hr a c q Hx)|].
  split; [intros a c q [Hx|[]]; exact (Hsy a c q Hx)|].
  split; [auto|]. repeat split.
Qed.

Theorem disp_isolation s addr m s' e :
  d_inv s -> on_recv s addr m = (s', e) -> iso_concl s addr m s' e.
Proof.
  intros Hinv H. pose proof (on_recv_exact _ _ _ _ _ Hinv H) as Heff.
  unfold recv_effect in Heff. cbv zeta in Heff.
  assert (Hdrop : s' = s /\ e = [EvDropped] -> iso_concl s addr m s' e)
    by (intros [-> ->]; apply iso_quiet; intros; congruence).
  set (k := {| k_addr := addr; k_conn := dm_conn m |}) in Heff.
  destruct (find_stream s k) as [en0|] eqn:Ef.
  - destruct (se_alive en0) eqn:Ea; destruct Heff as [Hs He].
    + subst s' e. apply iso_quiet; [intros k0 Hx; injection Hx as <-; reflexivity|discriminate..].
    + subst s' e. unfold iso_concl; cbv zeta; fold k; rewrite Ef. dsimpl.
      split; [iso_single|].
      split; [intros en Hin Hne; apply remove_stream_keeps_others; assumption|].
      split; [intros en Hin; left; eapply remove_stream_incl; exact Hin|].
      split; [auto|]. split; [iso_single|]. split; [iso_single|].
      split; [intro a; left; apply pending_same_connecting; reflexivity|]. repeat split.
  - destruct (dm_type m) eqn:Et; try exact (Hdrop Heff).
    + (* ST_STATE *)
      destruct Heff as [Heff|(c & m1 & m2 & _ & P1 & P2 & P3 & P4 & P5 & F1 & F2 & F3 & F4 & F5 & F6 & F7 & Hcase)];
        [exact (Hdrop Heff)|].
      unfold iso_concl; cbv zeta; fold k; rewrite Ef, Et.
      assert (Hpend : forall a, pending s' a = pending s a \/
               (a = addr /\ ST_STATE = ST_STATE /\ @None sentry = None /\
                exists c m1 m2, pending s a = m1 ++ c :: m2 /\ cn_seq c = dm_ack m /\ pending s' a = m1 ++ m2)).
      { intro a. destruct (Z.eq_dec a addr) as [->|Hne]; [|left; apply P5; exact Hne].
        right. split; [reflexivity|]. split; [reflexivity|]. split; [reflexivity|].
        exists c, m1, m2. auto. }
      assert (Hack : on_maybe_connect_ack s addr m = (s', e))
        by (unfold on_recv in H; fold k in H; rewrite Ef, Et in H; exact H).
      destruct (on_maybe_connect_ack_spec _ _ _ _ _ Hinv Ef Hack) as (_ & Hmax & _).
      destruct (on_maybe_connect_ack_frame _ _ _ _ _ Hack) as (_ & _ & _ & Hda & _).
      destruct Hcase as [(Hd & -> & S1 & S2)|(Hd & -> & S1 & S2)].
      * split; [iso_single|]. split; [intros en Hin _; rewrite S1; exact Hin|].
        split; [intros en Hin; left; rewrite <- S1; exact Hin|].
        split; [left; exact F3|]. split; [iso_single|]. split; [iso_single|].
        split; [exact Hpend|]. repeat split; assumption.
      * split; [iso_single|].
        split; [intros en Hin _; rewrite S1; apply in_or_app; left; exact Hin|].
        split.
        { intros en Hin. rewrite S1 in Hin. apply in_app_single in Hin. destruct Hin as [Hin| ->]; [left; exact Hin|].
          right. split; [reflexivity|]. split; [exact S1|]. split; [reflexivity|].
          split; [exact (find_none_not_in _ _ Ef)|]. right. split; reflexivity. }
        split; [left; exact F3|]. split; [iso_single|]. split; [iso_single|].
        split; [exact Hpend|]. repeat split; assumption.
    + (* ST_SYN *)
      destruct Heff as (K & _ & Hcase). destruct K as (K1 & K2 & K3 & K4 & K5 & K6 & K7).
      unfold iso_concl; cbv zeta; fold k; rewrite Ef, Et.
      assert (Hpend : forall a, pending s' a = pending s a \/
               (a = addr /\ ST_SYN = ST_STATE /\ @None sentry = None /\
                exists c m1 m2, pending s a = m1 ++ c :: m2 /\ cn_seq c = dm_ack m /\ pending s' a = m1 ++ m2))
        by (intro a; left; apply pending_same_connecting; exact K5).
      destruct Hcase as [(a & -> & S1 & S2 & S3 & S4 & S5 & S6)|[(-> & S1 & S2 & S3 & S4 & S5)|
                         [(-> & S1 & S2 & S3 & S4)|(-> & S1 & S2 & S3 & S4)]]].
      * split; [iso_single|].
        split; [intros en Hin _; rewrite S1; apply in_or_app; left; exact Hin|].
        split.
        { intros en Hin. rewrite S1 in Hin. apply in_app_single in Hin. destruct Hin as [Hin| ->]; [left; exact Hin|].
          right. split; [reflexivity|]. split; [exact S1|]. split; [reflexivity|].
          split; [exact S5|]. left. split; reflexivity. }
        split; [left; exact S3|]. split; [iso_single|]. split; [iso_single|].
        split; [exact Hpend|]. repeat split; assumption.
      * split; [iso_single|]. split; [intros en Hin _; rewrite S1; exact Hin|].
        split; [intros en Hin; left; rewrite <- S1; exact Hin|].
        split; [left; exact S3|]. split; [iso_single|]. split; [iso_single|].
        split; [exact Hpend|]. repeat split; assumption.
      * split; [iso_single|]. split; [intros en Hin _; rewrite S1; exact Hin|].
        split; [intros en Hin; left; rewrite <- S1; exact Hin|].
        split; [right; auto|]. split; [iso_single|]. split; [iso_single|].
        split; [exact Hpend|]. repeat split; assumption.
      * split; [iso_single|]. split; [intros en Hin _; rewrite S1; exact Hin|].
        split; [intros en Hin; left; rewrite <- S1; exact Hin|].
        split; [left; exact S3|].
        split; [intros a c q [Hx|[]]; injection Hx as <- <- <-; auto|]. split; [iso_single|].
        split; [exact Hpend|]. repeat split; assumption.
Qed.

(* ================================================================== the whole run_once whose recv arm fires *)
(* cleanup_accept_queue creates entries only for SYNs that were waiting in the backlog *)
Definition only_syn_keys (s s' : dstate) (syns : list syn) : Prop :=
  forall en, In en (d_streams s') ->
    In en (d_streams s) \/ exists y, In y syns /\ se_key en = syn_key y.

Lemma only_syn_keys_same s s' syns : d_streams s' = d_streams s -> only_syn_keys s s' syns.
Proof. intros E en Hin. left. rewrite <- E. exact Hin. Qed.

Lemma only_new_kept syns : kept_by_steps (fun s s' _ => only_syn_keys s s' syns) (fun y => In y syns).
Proof.
  unfold kept_by_steps. split; [|split; [|split; [|split; [|split]]]];
    try (intros; apply only_syn_keys_same; reflexivity).
  - intros a b c _ _ H1 H2 en Hin. destruct (H2 en Hin) as [Hb|Hy]; [exact (H1 en Hb)|right; exact Hy].
  - intros s s' oa Et. apply only_syn_keys_same. apply (try_next_acceptor_spec _ _ _ Et).
  - intros s y a s' r e Hy Em. destruct (match_syn_exact _ _ _ _ _ _ Em) as (_ & M).
    destruct r; [|destruct M as (_ & M1 & _); apply only_syn_keys_same; exact M1..].
    destruct M as (_ & _ & _ & M1 & _). intros en Hin. rewrite M1 in Hin. apply in_app_single in Hin.
    destruct Hin as [Hin| ->]; [left; exact Hin|right; exists y; split; [exact Hy|reflexivity]].
Qed.

Lemma cleanup_only_new s s' e : cleanup_accept_queue s = (s', e) -> only_syn_keys s s' (d_syns s).
Proof.
  intro H. destruct (cleanup_rule _ _ (only_new_kept (d_syns s)) s s' e) as [A _]; [apply Forall_forall; auto|exact H|exact A].
Qed.

Lemma fwd_keys_app a b : fwd_keys (a ++ b) = fwd_keys a ++ fwd_keys b.
Proof. unfold fwd_keys. apply flat_map_app. Qed.

Lemma in_fwd_keys k e : In k (fwd_keys e) -> In (EvForward k) e.
Proof.
  unfold fwd_keys. intro H. apply in_flat_map in H. destruct H as (x & Hx & Hk).
  destruct x; cbn in Hk; try contradiction. destruct Hk as [<-|[]]. exact Hx.
Qed.

Lemma all_accepted_fwd e : all_accepted e -> fwd_keys e = [].
Proof.
  intro H. destruct (fwd_keys e) as [|k r] eqn:E; [reflexivity|]. exfalso.
  assert (Hin : In (EvForward k) e) by (apply in_fwd_keys; rewrite E; left; reflexivity).
  unfold all_accepted in H. rewrite Forall_forall in H. exact (H _ Hin).
Qed.

Lemma count_rst_pos_in e : 0 < count_rst e -> exists a c q, In (EvSentRst a c q) e.
Proof.
  unfold count_rst. induction e as [|x l IH]; cbn [filter length]; [cbn; lia|].
  destruct x; try (intro H; destruct (IH H) as (a & c & q & Hin); exists a, c, q; right; exact Hin).
  intros _. eexists _, _, _. left. reflexivity.
Qed.

Lemma count_rst_nonneg e : 0 <= count_rst e.
Proof. unfold count_rst. lia. Qed.

Lemma is_own_key_iff addr om k :
  is_own_key addr om k = true <-> exists m, om = Some m /\ k = {| k_addr := addr; k_conn := dm_conn m |}.
Proof.
  unfold is_own_key. destruct om as [m|].
  - rewrite skey_eqb_eq. split; [intros ->; eauto|intros (m0 & E & ->); injection E as <-; reflexivity].
  - split; [discriminate|intros (m0 & E & _); discriminate].
Qed.

Lemma is_syn_iff om : is_syn om = true <-> exists m, om = Some m /\ dm_type m = ST_SYN.
Proof.
  unfold is_syn. destruct om as [m|].
  - rewrite ptype_eqb_iff. split; [eauto|intros (m0 & E & H); injection E as <-; exact H].
  - split; [discriminate|intros (m0 & E & _); discriminate].
Qed.

(* everything the step predicate looks at, in plain terms *)
Lemma run_once_recv_facts s pushes addr om s' e :
  d_inv s -> dstep s (DoRunOnce pushes (ArmRecv addr om)) = (s', e) ->
  (forall k0, In k0 (fwd_keys e) -> is_own_key addr om k0 = true) /\
  (length (fwd_keys e) <= 1)%nat /\
  (forall en, In en (d_streams s) -> is_own_key addr om (se_key en) = false -> In en (d_streams s')) /\
  (forall en, In en (d_streams s') ->
     In (se_key en) (keys (d_streams s)) \/ (exists y, In y (d_syns s) /\ se_key en = syn_key y) \/
     may_create addr om (se_key en) = true) /\
  (exists n, (n <= length (d_syns s))%nat /\
     (d_syns s' = skipn n (d_syns s) \/
      exists m, om = Some m /\ dm_type m = ST_SYN /\ d_syns s' = skipn n (d_syns s) ++ [syn_of addr m])) /\
  count_rst e <= 1 /\ (0 < count_rst e -> is_syn om = true) /\
  d_control s' = d_control s.
Proof.
  intros Hinv H.
  destruct (run_once_decomp _ _ _ _ _ Hinv H) as (s1 & e1 & e3 & Ec & Ea & -> & Hinv1 & Hacc & Hfr & Hinv2 & Hsame).
  destruct (cleanup_keeps _ _ _ Ec) as (_ & _ & _ & _ & _ & K6 & _).
  pose proof (cleanup_only_new _ _ _ Ec) as Honly.
  destruct (cleanup_front _ _ _ Ec) as (n & Hn & Hn0).
  destruct Hfr as [B1 B2 B3 B4 B5].
  destruct Hsame as (P1 & P2 & P3 & P4 & P5 & _).
  set (s2 := fold_left push_acceptor pushes s1) in *.
  rewrite fwd_keys_app, (all_accepted_fwd _ Hacc), count_rst_app, (all_accepted_rst _ Hacc). cbn [app].
  destruct (arm_step_facts _ _ _ _ Hinv2 Ea) as (_ & _ & Hr1 & _).
  unfold arm_step in Ea. destruct om as [m|].
  2:{ injection Ea as <- <-. cbn [fwd_keys flat_map app In length].
      split; [intros k0 []|]. split; [lia|].
      split; [intros en Hin _; rewrite P1; apply B4; exact Hin|].
      split.
      { intros en Hin. rewrite P1 in Hin. destruct (Honly en Hin) as [Hin0|Hy]; [left; apply in_map; exact Hin0|right; left; exact Hy]. }
      split; [exists n; split; [exact Hn|left; congruence]|].
      split; [cbn; lia|]. split; [cbn; lia|]. congruence. }
  destruct (disp_isolation _ _ _ _ _ Hinv2 Ea) as (J1 & J2 & J3 & J4 & J5 & J6 & J7 & J8 & _).
  set (k := {| k_addr := addr; k_conn := dm_conn m |}) in *.
  split.
  { intros k0 Hin. apply in_fwd_keys in Hin. destruct (J1 _ Hin) as (-> & _). apply is_own_key_iff. eauto. }
  split.
  { destruct (fwd_keys e3) as [|k0 r] eqn:E; [cbn; lia|].
    assert (Hin : In (EvForward k0) e3) by (apply in_fwd_keys; rewrite E; left; reflexivity).
    destruct (J1 _ Hin) as (_ & He3 & _). rewrite He3 in E. cbn in E. injection E as _ <-. cbn. lia. }
  split.
  { intros en Hin Hown. apply J2; [rewrite P1; apply B4; exact Hin|].
    intro Hk. assert (Ht : is_own_key addr (Some m) (se_key en) = true) by (apply is_own_key_iff; eauto). congruence. }
  split.
  { intros en Hin. destruct (J3 en Hin) as [Hin2|(Hnone & _ & _ & _ & Hcase)].
    - rewrite P1 in Hin2. destruct (Honly en Hin2) as [Hin0|Hy]; [left; apply in_map; exact Hin0|right; left; exact Hy].
    - right; right. unfold may_create. destruct Hcase as [[Ht Hk]|[Ht Hk]]; rewrite Ht, Hk; apply skey_eqb_refl. }
  split.
  { exists n. split; [exact Hn|]. destruct J4 as [Hs|(Ht & _ & Hs & _)].
    - left. congruence.
    - right. exists m. split; [reflexivity|]. split; [exact Ht|]. rewrite Hs. congruence. }
  split; [lia|].
  split.
  { intro Hpos. destruct (count_rst_pos_in e3 ltac:(lia)) as (a & c & q & Hin).
    destruct (J5 _ _ _ Hin) as (Ht & _). apply is_syn_iff. eauto. }
  congruence.
Qed.

(* ------------------------------------------------------------------ the extracted predicate holds of every model step *)
Lemma obs_has_in s en : In en (d_streams s) -> obs_has (ob_streams (dobs_of s)) (se_key en, se_alive en) = true.
Proof.
  intro Hin. unfold obs_has, dobs_of; cbn [ob_streams]. apply existsb_exists.
  exists (se_key en, se_alive en). split; [apply in_map_iff; exists en; auto|].
  cbn [fst snd]. rewrite skey_eqb_refl, Bool.eqb_reflx. reflexivity.
Qed.

Lemma backlog_ok_suffix addr om pre n : (n <= length pre)%nat -> backlog_ok addr om pre (skipn n pre) = true.
Proof.
  intro Hn. unfold backlog_ok. apply existsb_exists. exists n. split; [apply in_seq; lia|].
  rewrite syns_eqb_refl. reflexivity.
Qed.

Lemma backlog_ok_plus addr m pre n : (n <= length pre)%nat -> dm_type m = ST_SYN ->
  backlog_ok addr (Some m) pre (skipn n pre ++ [syn_of addr m]) = true.
Proof.
  intros Hn Ht. unfold backlog_ok. apply existsb_exists. exists n. split; [apply in_seq; lia|].
  assert (Hs : is_syn (Some m) = true) by (apply is_syn_iff; eauto). rewrite Hs.
  cbv beta. change (hk_syn_of addr m) with (syn_of addr m). rewrite syns_eqb_refl. cbn [andb]. apply orb_true_r.
Qed.

Theorem c10_disp_step_ok_model s pushes addr om s' e :
  d_inv s -> dstep s (DoRunOnce pushes (ArmRecv addr om)) = (s', e) ->
  c10_disp_step_ok addr om (dstep_obs_of s e s') = true.
Proof.
  intros Hinv H.
  destruct (run_once_recv_facts _ _ _ _ _ _ Hinv H) as (F1 & F2 & F3 & F4 & (n & Hn & F5) & F6 & F7 & F8).
  unfold c10_disp_step_ok, dstep_obs_of; cbn [so_pre so_post so_fwd so_rsts].
  repeat (apply andb_true_iff; split).
  - apply forallb_forall. exact F1.
  - apply Z.leb_le. lia.
  - apply forallb_forall. intros p Hp. unfold dobs_of in Hp; cbn [ob_streams] in Hp.
    apply in_map_iff in Hp. destruct Hp as (en & <- & Hin). cbn [fst].
    destruct (is_own_key addr om (se_key en)) eqn:Eo; [reflexivity|]. cbn [orb].
    apply obs_has_in. apply F3; assumption.
  - apply forallb_forall. intros q Hq. unfold dobs_of in Hq; cbn [ob_streams] in Hq.
    apply in_map_iff in Hq. destruct Hq as (en & <- & Hin). cbn [fst].
    destruct (F4 en Hin) as [Hk|[(y & Hy & Hk)|Hc]].
    + apply orb_true_iff; left. apply orb_true_iff; left. apply existsb_exists.
      unfold keys in Hk. apply in_map_iff in Hk. destruct Hk as (en0 & Hk0 & Hin0).
      exists (se_key en0, se_alive en0). split; [unfold dobs_of; cbn [ob_streams]; apply in_map_iff; exists en0; auto|].
      cbn [fst]. apply skey_eqb_eq. exact Hk0.
    + apply orb_true_iff; left. apply orb_true_iff; right. apply existsb_exists.
      exists y. split; [exact Hy|]. rewrite hk_syn_key_eq. apply skey_eqb_eq. exact Hk.
    + apply orb_true_iff; right. exact Hc.
  - cbn [dobs_of ob_syns]. destruct F5 as [->|(m & -> & Ht & ->)];
      [apply backlog_ok_suffix; exact Hn|apply backlog_ok_plus; assumption].
  - destruct (is_syn om) eqn:Es.
    + apply Z.leb_le. exact F6.
    + apply Z.eqb_eq. pose proof (count_rst_nonneg e).
      destruct (Z.ltb_spec 0 (count_rst e)) as [Hpos|Hle]; [|lia]. apply F7 in Hpos. congruence.
  - cbn [dobs_of ob_ct]. rewrite F8. apply Z.eqb_refl.
Qed.

Lemma c10_disp_bounds_ok_model s : d_inv s ->
  c10_disp_bounds_ok (d_max_streams s) (dobs_of s) = true.
Proof.
  intros (I1 & I2 & I3 & I4 & _). unfold c10_disp_bounds_ok.
  repeat (apply andb_true_iff; split).
  - rewrite keys_obs. apply nodupb_true. exact I1.
  - unfold dobs_of; cbn [ob_streams]. rewrite map_length. apply Z.leb_le. exact I2.
  - cbn [dobs_of ob_syns]. apply Z.leb_le. exact I3.
  - cbn [dobs_of ob_ch]. apply Z.leb_le. exact I4.
Qed.

(* ================================================================== 3. all raw op lists *)
Lemma rop_dop_total o : exists d, rop_dop o = Some d.
Proof.
  destruct o as [pushes addr bs|d]; cbn [rop_dop]; [|eauto].
  pose proof (parse_raw_no_panic bs) as Hnp. destruct (parse_raw bs); [congruence|eauto|eauto].
Qed.

Lemma rstep_total s o : exists s' e, rstep s o = Some (s', e).
Proof.
  unfold rstep. destruct (rop_dop_total o) as [d ->]. destruct (dstep s d) as [s' e]. eauto.
Qed.

(* every raw op list runs to the end (no panic), and is an ordinary op list of the model *)
Lemma rrun_is_drun : forall ops s, exists dops,
  length dops = length ops /\ rrun s ops = Some (drun s dops).
Proof.
  induction ops as [|o r IH]; intros s; cbn [rrun].
  - exists []. auto.
  - unfold rstep. destruct (rop_dop_total o) as [d Hd]. rewrite Hd.
    destruct (dstep s d) as [s1 e] eqn:Ed. destruct (IH s1) as (dops & Hl & Hr).
    exists (d :: dops). split; [cbn [length]; congruence|]. cbn [drun]. rewrite Ed. exact Hr.
Qed.

Lemma rrun_inv : forall ops s, d_inv s ->
  exists s', rrun s ops = Some s' /\ d_inv s' /\ d_max_streams s' = d_max_streams s.
Proof.
  intros ops s Hinv. destruct (rrun_is_drun ops s) as (dops & _ & Hr).
  destruct (drun_inv dops s Hinv) as [A B]. eauto.
Qed.

Lemma accq_length s : (length (accq s) <= S (length (d_chan s)))%nat.
Proof. unfold accq. rewrite app_length. destruct (d_next_acc s); cbn [length]; lia. Qed.

Lemma dstate_new_max max_streams random : d_max_streams (dstate_new max_streams random) = max_streams.
Proof. unfold dstate_new. destruct random; reflexivity. Qed.

(* the static bounds, from any state satisfying the invariant ... *)
Theorem disp_bounded_from s ops :
  d_inv s ->
  exists s', rrun s ops = Some s' /\ d_inv s' /\ d_max_streams s' = d_max_streams s /\
    NoDup (keys (d_streams s')) /\
    Z.of_nat (length (d_streams s')) <= Z.max 0 (d_max_streams s) /\
    Z.of_nat (length (d_syns s')) <= ACCEPT_QUEUE_MAX_SYNS /\
    Z.of_nat (length (d_chan s')) <= ACCEPT_QUEUE_MAX_ACCEPTORS /\
    Z.of_nat (length (accq s')) <= ACCEPT_QUEUE_MAX_ACCEPTORS + 1 /\
    (forall a, (length (pending s' a) <= MAX_CONNECTING_PER_ADDR)%nat) /\
    Forall (fun p => length (snd p) = MAX_CONNECTING_PER_ADDR) (d_connecting s').
Proof.
  intro Hinv. destruct (rrun_inv ops s Hinv) as (s' & Hr & Hinv' & Hmax).
  exists s'. split; [exact Hr|]. split; [exact Hinv'|]. split; [exact Hmax|].
  pose proof Hinv' as (I1 & I2 & I3 & I4 & I5). rewrite Hmax in I2.
  split; [exact I1|]. split; [exact I2|]. split; [exact I3|]. split; [exact I4|].
  split; [pose proof (accq_length s'); lia|].
  split; [intro a; apply (pending_le_4 s' a Hinv')|exact I5].
Qed.

(* ... and from a fresh dispatcher *)
Theorem disp_bounded max_streams random ops :
  exists s, rrun (dstate_new max_streams random) ops = Some s /\ d_inv s /\
    d_max_streams s = max_streams /\
    NoDup (keys (d_streams s)) /\
    Z.of_nat (length (d_streams s)) <= Z.max 0 max_streams /\
    Z.of_nat (length (d_syns s)) <= 32 /\
    Z.of_nat (length (d_chan s)) <= 32 /\
    Z.of_nat (length (accq s)) <= 33 /\
    (forall a, (length (pending s a) <= 4)%nat) /\
    Forall (fun p => length (snd p) = 4%nat) (d_connecting s).
Proof.
  destruct (disp_bounded_from (dstate_new max_streams random) ops (new_inv max_streams random))
    as (s & A & B & C & D). rewrite dstate_new_max in C, D. exists s. auto.
Qed.

Lemma rstep_raw_dstep s pushes addr bs s' e : rstep s (RopRaw pushes addr bs) = Some (s', e) ->
  exists om, dstep s (DoRunOnce pushes (ArmRecv addr om)) = (s', e).
Proof.
  unfold rstep. cbn [rop_dop]. destruct (parse_raw bs) as [| |m]; [discriminate| |];
    intro H; injection H as H; [exists None|exists (Some m)]; exact H.
Qed.

(* a raw datagram never grows what only local calls may grow: the control channel, the pending
   connects, the connection-id counter; and it never makes the dispatcher send a SYN *)
Theorem raw_step_local_state s pushes addr bs s' e :
  d_inv s -> rstep s (RopRaw pushes addr bs) = Some (s', e) ->
  d_control s' = d_control s /\ d_next_conn_id s' = d_next_conn_id s /\
  d_dead_connectors s' = d_dead_connectors s /\
  (forall a, (length (pending s' a) <= length (pending s a))%nat) /\
  (forall a c q, ~ In (EvSentSyn a c q) e) /\ (forall t, ~ In (EvConnectErr t) e).
Proof.
  intros Hinv H.
  destruct (rstep_raw_dstep _ _ _ _ _ _ H) as [om Hd].
  destruct (run_once_decomp _ _ _ _ _ Hinv Hd) as (s1 & e1 & e3 & Ec & Ea & -> & Hinv1 & Hacc & Hfr & Hinv2 & Hsame).
  destruct (cleanup_keeps _ _ _ Ec) as (K1 & K2 & _ & _ & K5 & K6 & _).
  destruct Hsame as (_ & P2 & _ & _ & P5 & P6 & _ & _ & _ & _ & _ & P12 & _).
  set (s2 := fold_left push_acceptor pushes s1) in *.
  assert (Harm : d_control s' = d_control s2 /\ d_next_conn_id s' = d_next_conn_id s2 /\
                 d_dead_connectors s' = d_dead_connectors s2 /\
                 (forall a, (length (pending s' a) <= length (pending s2 a))%nat) /\
                 (forall a c q, ~ In (EvSentSyn a c q) e3) /\ (forall t, ~ In (EvConnectErr t) e3)).
  { unfold arm_step in Ea. destruct om as [m|].
    - destruct (disp_isolation _ _ _ _ _ Hinv2 Ea) as (J1 & _ & _ & _ & J5 & J6 & J7 & J8 & J9 & _ & J11 & _).
      split; [exact J8|]. split; [exact J9|]. split; [exact J11|]. split.
      { intro a. destruct (J7 a) as [->|(_ & _ & _ & c & m1 & m2 & -> & _ & ->)]; [lia|].
        rewrite !app_length. cbn [length]. lia. }
      split; [exact J6|].
      intros t Hin. exact (on_recv_events _ _ _ _ _ Hinv2 Ea _ Hin).
    - injection Ea as <- <-. repeat split; auto.
      + intros a c q [Hx|[]]; discriminate.
      + intros t [Hx|[]]; discriminate. }
  destruct Harm as (A1 & A2 & A3 & A4 & A5 & A6).
  split; [congruence|]. split; [congruence|]. split; [congruence|].
  split.
  { intro a. rewrite <- (pending_same_connecting s s2 a) by congruence. apply A4. }
  split.
  - intros a c q Hin. apply in_app_or in Hin. destruct Hin as [Hin|Hin]; [|exact (A5 a c q Hin)].
    pose proof (all_accepted_no_syn _ Hacc) as Hn. rewrite Forall_forall in Hn. exact (Hn _ Hin).
  - intros t Hin. apply in_app_or in Hin. destruct Hin as [Hin|Hin]; [|exact (A6 t Hin)].
    exact (all_accepted_no_err _ Hacc _ Hin).
Qed.

(* ------------------------------------------------------------------ the extracted predicate, every raw trace *)
Lemma rtrace_ok max_streams : forall ops s,
  d_inv s -> d_max_streams s = max_streams ->
  c10_disp_trace_ok max_streams (rtrace s ops) = true /\ length (rtrace s ops) = length ops.
Proof.
  induction ops as [|o r IH]; intros s Hinv Hmax; cbn [rtrace]; [split; reflexivity|].
  destruct (rop_dop_total o) as [d Hd]. rewrite Hd.
  destruct (dstep s d) as [s1 e] eqn:Ed.
  destruct (dstep_inv _ _ _ _ Hinv Ed) as [Hinv1 Hmax1].
  destruct (IH s1 Hinv1 ltac:(congruence)) as [IH1 IH2].
  split; [|cbn [length]; congruence].
  unfold c10_disp_trace_ok in *. cbn [forallb fst snd]. rewrite IH1, andb_true_r.
  apply andb_true_iff. split.
  - unfold dstep_obs_of; cbn [so_post]. rewrite <- Hmax, <- Hmax1. apply c10_disp_bounds_ok_model. exact Hinv1.
  - destruct d as [pushes [| |addr om]| | | | | | |]; try reflexivity.
    eapply c10_disp_step_ok_model; eauto.
Qed.

Theorem c10_disp_trace_ok_model max_streams random ops :
  c10_disp_trace_ok max_streams (rtrace (dstate_new max_streams random) ops) = true /\
  length (rtrace (dstate_new max_streams random) ops) = length ops.
Proof. apply rtrace_ok; [apply new_inv|apply dstate_new_max]. Qed.

(* ================================================================== cross-contamination, every step of every op list *)
(* whatever the op: a datagram reaches a connection's inbox only if it came from that
   connection's peer address and carries that connection's id *)
Theorem forward_only_own s o s' e k :
  d_inv s -> dstep s o = (s', e) -> In (EvForward k) e ->
  exists pushes m, o = DoRunOnce pushes (ArmRecv (k_addr k) (Some m)) /\ dm_conn m = k_conn k /\
    exists en, In en (d_streams s') /\ se_key en = k /\ se_alive en = true.
Proof.
  intros Hinv H Hin. destruct (dstep_facts _ _ _ _ Hinv H) as (Hf & _).
  destruct (dop_cases o) as [(pushes & ar & ->)|Hne]; [|destruct (other_steps_quiet _ _ _ _ Hne H) as [-> _]; destruct Hin].
  destruct (run_once_decomp _ _ _ _ _ Hinv H) as (s1 & e1 & e3 & Ec & Ea & -> & Hinv1 & Hacc & Hfr & Hinv2 & Hsame).
  apply in_app_or in Hin. destruct Hin as [Hin1|Hin3]; [destruct (all_accepted_only _ _ Hacc Hin1)|].
  destruct (arm_step_cases _ _ _ _ Ea) as [(He & _)|[(send & c & r & _ & _ & Hoc)|(addr & m & -> & Hr)]].
  - discriminate (idle_event _ _ He Hin3).
  - destruct (on_control_events _ _ _ _ _ Hoc _ Hin3).
  - destruct (on_recv_spec _ _ _ _ _ Hinv2 Hr) as (_ & _ & Hfw & _).
    destruct (Hfw _ Hin3) as (-> & _). cbn [k_addr k_conn].
    exists pushes, m. split; [reflexivity|]. split; [reflexivity|].
    apply Hf. apply in_or_app. right. exact Hin3.
Qed.

(* a live connection's table entry (same object, still alive) survives every step except the
   drop of the accept future that still holds it *)
Lemma dstep_keeps_live_entry s o s' e en :
  d_inv s -> dstep s o = (s', e) -> In en (d_streams s) -> se_alive en = true ->
  (forall id, o <> DoDropAcceptor id) -> In en (d_streams s').
Proof.
  intros Hinv H Hin Ha Hne.
  destruct o as [pushes ar|id|id|id|addr token|addr token|addr token|k1];
    [exact (run_once_keeps_live _ _ _ _ _ en Hinv H Hin Ha)| |destruct (Hne id eq_refl)|..];
    cbn [dstep] in H; injection H as <- _; try exact Hin.
  - unfold push_acceptor. destruct (_ <? _); exact Hin.
  - destruct (existsb _ _); exact Hin.
Qed.

Definition no_accept_drop (o : rop) : bool :=
  match o with RopOp (DoDropAcceptor _) => false | _ => true end.

(* ALL RAW OP LISTS: a second, legitimate connection is unaffected by whatever else arrives *)
Theorem live_connection_unaffected : forall ops s en,
  d_inv s -> In en (d_streams s) -> se_alive en = true -> forallb no_accept_drop ops = true ->
  exists s', rrun s ops = Some s' /\ d_inv s' /\ In en (d_streams s').
Proof.
  induction ops as [|o r IH]; intros s en Hinv Hin Ha Hops; cbn [rrun]; [eauto|].
  cbn [forallb] in Hops. apply andb_true_iff in Hops. destruct Hops as [Ho Hr].
  unfold rstep. destruct (rop_dop_total o) as [d Hd]. rewrite Hd.
  destruct (dstep s d) as [s1 e] eqn:Ed.
  destruct (dstep_inv _ _ _ _ Hinv Ed) as [Hinv1 _].
  apply IH; auto. apply (dstep_keeps_live_entry s d s1 e en Hinv Ed Hin Ha).
  intros id ->. destruct o as [pushes addr bs|d0]; cbn [rop_dop] in Hd.
  - destruct (parse_raw bs); discriminate.
  - injection Hd as ->. discriminate.
Qed.

(* ================================================================== never wedged *)
(* after ANY raw op list the dispatcher still serves: the service theorems of C13 need only the
   invariant.  Two of them, instantiated at every state reached by raw datagrams and other ops. *)
Theorem hostile_then_connect_served max_streams random ops :
  exists s, rrun (dstate_new max_streams random) ops = Some s /\
    forall pushes addr token r s' e,
      d_control s = CtlConnect addr token :: r -> (length (pending s addr) < 4)%nat ->
      dstep s (DoRunOnce pushes (ArmControl SynSent)) = (s', e) ->
      (In (EvConnectErr token) e /\ d_results s' = d_results s ++ [(token, CrTooMany)] /\
       forall a, pending s' a = pending s a) \/
      (no_connect_err e /\ d_results s' = d_results s /\
       exists cid q, In (EvSentSyn addr cid q) e /\
         In {| cn_token := token; cn_seq := q |} (pending s' addr) /\
         length (pending s' addr) = S (length (pending s addr)) /\
         forall a, a <> addr -> pending s' a = pending s a).
Proof.
  destruct (rrun_inv ops _ (new_inv max_streams random)) as (s & Hr & Hinv & _).
  exists s. split; [exact Hr|]. intros. eapply connect_not_starved; eauto.
Qed.

Theorem hostile_then_accept_served max_streams random ops :
  exists s, rrun (dstate_new max_streams random) ops = Some s /\
    forall pushes addr m dead a rest s' e,
      d_syns s = [] -> dm_type m = ST_SYN ->
      find_stream s {| k_addr := addr; k_conn := dm_conn m |} = None ->
      serve_cond s (syn_of addr m) dead a rest ->
      dstep s (DoRunOnce pushes (ArmRecv addr (Some m))) = (s', e) ->
      e = [EvAccepted a (syn_key (syn_of addr m))] /\ d_syns s' = [] /\ exists ext, accq s' = rest ++ ext.
Proof.
  destruct (rrun_inv ops _ (new_inv max_streams random)) as (s & Hr & Hinv & _).
  exists s. split; [exact Hr|]. intros. eapply live_acceptor_served_by_next_syn; eauto.
Qed.

(* ================================================================== witnesses *)
Definition syn_bytes (c q : Z) : list Z :=
  [65; 0; c / 256; c mod 256; 0; 0; 0; 0; 0; 0; 0; 0; 0; 0; 0; 0; q / 256; q mod 256; 0; 0].
Definition data_bytes (c q : Z) : list Z :=
  [1; 0; c / 256; c mod 256; 0; 0; 0; 0; 0; 0; 0; 0; 0; 0; 0; 0; q / 256; q mod 256; 0; 0; 170].

Example parse_examples :
  parse_raw (syn_bytes 50 1000) = RpMsg {| dm_type := ST_SYN; dm_conn := 50; dm_seq := 1000; dm_ack := 0 |} /\
  parse_raw (data_bytes 51 1001) = RpMsg {| dm_type := ST_DATA; dm_conn := 51; dm_seq := 1001; dm_ack := 0 |} /\
  parse_raw [] = RpGarbage /\
  parse_raw (removelast (syn_bytes 50 1000)) = RpGarbage /\                     (* 19 bytes *)
  parse_raw (66 :: tl (syn_bytes 50 1000)) = RpGarbage /\                       (* version 2 *)
  parse_raw (81 :: tl (syn_bytes 50 1000)) = RpGarbage /\                       (* type 5 *)
  parse_raw (removelast (data_bytes 51 1001)) = RpGarbage /\                    (* ST_DATA without payload *)
  parse_raw (syn_bytes 50 1000 ++ [7]) = RpGarbage /\                           (* ST_SYN with payload *)
  parse_raw (65 :: 1 :: skipn 2 (syn_bytes 50 1000) ++ [0; 200; 1]) = RpGarbage. (* extension longer than the datagram *)
Proof. vm_compute. repeat split. Qed.

(* the hypotheses are met by reachable states, and every clause of the predicate is exercised:
   accepted, forwarded, foreign address with the same id (dropped), garbage (dropped) *)
Example hostile_trace_example :
  let ops := [RopOp (DoPushAcceptor 1);
              RopRaw [] 5 (syn_bytes 50 1000);
              RopRaw [] 5 (data_bytes 51 1001);
              RopRaw [] 6 (data_bytes 51 1001);
              RopRaw [] 5 [1; 2; 3]] in
  map (fun x => (so_fwd (snd x), ob_streams (so_post (snd x)))) (rtrace (dstate_new 128 [7; 100]) ops) =
  [([], []);
   ([], [({| k_addr := 5; k_conn := 51 |}, true)]);
   ([{| k_addr := 5; k_conn := 51 |}], [({| k_addr := 5; k_conn := 51 |}, true)]);
   ([], [({| k_addr := 5; k_conn := 51 |}, true)]);
   ([], [({| k_addr := 5; k_conn := 51 |}, true)])].
Proof. vm_compute. reflexivity. Qed.

(* BOUNDARY 1.  Read literally, "a datagram from (addr, id) changes no table entry other than the
   one keyed (addr, id)" is false: a SYN with connection id c creates the entry (addr, c + 1)
   (BEP 29: the acceptor receives on the initiator's id + 1).  The theorem disp_isolation states
   the true form: no EXISTING entry under another key is touched, and the one entry a SYN may
   create is keyed (addr, id + 1) and was free. *)
Theorem isolation_literal_refuted :
  exists s addr m s' e en,
    d_inv s /\ on_recv s addr m = (s', e) /\
    In en (d_streams s') /\ ~ In en (d_streams s) /\
    se_key en <> {| k_addr := addr; k_conn := dm_conn m |}.
Proof.
  exists (drun (dstate_new 128 [7; 100; 200]) [DoPushAcceptor 1]), 5,
         {| dm_type := ST_SYN; dm_conn := 50; dm_seq := 1000; dm_ack := 0 |}.
  eexists _, _, {| se_key := {| k_addr := 5; k_conn := 51 |}; se_alive := true; se_id := 0 |}.
  split; [apply reachable_inv|]. split; [vm_compute; reflexivity|].
  split; [left; reflexivity|]. split; [intros []|discriminate].
Qed.

(* BOUNDARY 2.  The SYN backlog is a shared, bounded resource with no expiry: 32 SYNs from one
   (possibly spoofed) address while no accept() call is waiting fill it, and the next SYN of a
   legitimate peer is refused with a reset (state unchanged).  Bounded as C13 states; not
   isolated per peer.  The 32 requests stay queued until accept() calls consume them. *)
Definition hostile_syns : list rop :=
  map (fun i => RopRaw [] 9 (syn_bytes (2 * Z.of_nat i) 7)) (seq 0 32).

Theorem backlog_exhaustion_boundary :
  exists s, rrun (dstate_new 128 [7]) hostile_syns = Some s /\
    length (d_syns s) = 32%nat /\ d_streams s = [] /\
    Forall (fun y => sy_addr y = 9) (d_syns s) /\
    rstep s (RopRaw [] 5 (syn_bytes 50 1000)) = Some (s, [EvSentRst 5 50 1000]).
Proof.
  eexists. split; [vm_compute; reflexivity|]. split; [reflexivity|]. split; [reflexivity|].
  split; [repeat constructor|vm_compute; reflexivity].
Qed.

(* ------------------------------------------------------------------ the connecting map itself never grows by a datagram *)
Lemma filter_len_le {A} (f : A -> bool) l : (length (filter f l) <= length l)%nat.
Proof. induction l as [|x r IH]; cbn [filter length]; [lia|]. destruct (f x); cbn [length]; lia. Qed.

Lemma filter_len_lt {A} (f : A -> bool) l x : In x l -> f x = false -> (length (filter f l) < length l)%nat.
Proof.
  induction l as [|y r IH]; cbn [filter length In]; [tauto|].
  intros [->|Hin] Hf.
  - rewrite Hf. pose proof (filter_len_le f r). lia.
  - specialize (IH Hin Hf). destruct (f y); cbn [length]; lia.
Qed.

Lemma set_slots_length_le s addr sl x : get_slots s addr = Some sl ->
  (length (set_slots (d_connecting s) addr x) <= length (d_connecting s))%nat.
Proof.
  unfold get_slots, set_slots. destruct (find _ (d_connecting s)) as [p|] eqn:Ef; [|discriminate]. intros _.
  apply find_some in Ef. destruct Ef as [Hin Hp].
  assert (Hlt : (length (filter (fun p0 : Z * list (option connecting) => negb (fst p0 =? addr)%Z) (d_connecting s)) < length (d_connecting s))%nat).
  { apply (filter_len_lt _ _ p Hin). cbv beta. rewrite Hp. reflexivity. }
  destruct x; [rewrite app_length; cbn [length]; lia|lia].
Qed.

Lemma on_recv_connecting_size s addr m s' e :
  on_recv s addr m = (s', e) -> (length (d_connecting s') <= length (d_connecting s))%nat.
Proof.
  unfold on_recv. destruct (find_stream s _) as [en|].
  - destruct (se_alive en); intro H; injection H as <- _; dsimpl; lia.
  - destruct (dm_type m); try (intro H; injection H as <- _; lia).
    + unfold on_maybe_connect_ack. destruct (streams_full s); [intro H; injection H as <- _; lia|].
      destruct (get_slots s addr) as [sl|] eqn:Eg; [|intro H; injection H as <- _; lia].
      destruct (slots_pop _ sl) as [[c sl']|]; [|intro H; injection H as <- _; lia].
      destruct (mem_z _ _); intro H; injection H as <- _; dsimpl; eapply set_slots_length_le; exact Eg.
    + intro H. destruct (on_syn_keeps _ _ _ _ H) as (_ & _ & _ & _ & K5 & _). rewrite K5. lia.
Qed.

Theorem raw_step_connecting_size s pushes addr bs s' e :
  d_inv s -> rstep s (RopRaw pushes addr bs) = Some (s', e) ->
  (length (d_connecting s') <= length (d_connecting s))%nat.
Proof.
  intros Hinv H.
  destruct (rstep_raw_dstep _ _ _ _ _ _ H) as [om Hd].
  destruct (run_once_decomp _ _ _ _ _ Hinv Hd) as (s1 & e1 & e3 & Ec & Ea & -> & _ & _ & _ & _ & Hsame).
  destruct (cleanup_keeps _ _ _ Ec) as (_ & _ & _ & _ & K5 & _).
  destruct Hsame as (_ & P2 & _).
  unfold arm_step in Ea. destruct om as [m|].
  - pose proof (on_recv_connecting_size _ _ _ _ _ Ea). rewrite P2, K5 in *. lia.
  - injection Ea as <- _. rewrite P2, K5. lia.
Qed.

(* ------------------------------------------------------------------ the predicate is not vacuous: what it rejects *)
Definition obs0 (streams : list (skey * bool)) (syns : list syn) : dobs :=
  {| ob_streams := streams; ob_syns := syns; ob_na := false; ob_ch := 0; ob_ct := 0 |}.
Definition k551 : skey := {| k_addr := 5; k_conn := 51 |}.
Definition k661 : skey := {| k_addr := 6; k_conn := 61 |}.
Definition m_data51 : dmsg := {| dm_type := ST_DATA; dm_conn := 51; dm_seq := 1; dm_ack := 0 |}.
Definition m_syn50 : dmsg := {| dm_type := ST_SYN; dm_conn := 50; dm_seq := 1000; dm_ack := 0 |}.

Example step_ok_rejects :
  let two := [(k551, true); (k661, true)] in
  let mk pre rsts fwd post := {| so_pre := pre; so_rsts := rsts; so_fwd := fwd; so_post := post |} in
  (* accepted: data for (5,51) forwarded to (5,51) *)
  c10_disp_step_ok 5 (Some m_data51) (mk (obs0 two []) 0 [k551] (obs0 two [])) = true /\
  (* forwarded to another connection *)
  c10_disp_step_ok 5 (Some m_data51) (mk (obs0 two []) 0 [k661] (obs0 two [])) = false /\
  (* garbage forwarded *)
  c10_disp_step_ok 5 None (mk (obs0 two []) 0 [k551] (obs0 two [])) = false /\
  (* another connection's entry evicted *)
  c10_disp_step_ok 5 (Some m_data51) (mk (obs0 two []) 0 [k551] (obs0 [(k551, true)] [])) = false /\
  (* another connection's entry killed *)
  c10_disp_step_ok 5 (Some m_data51) (mk (obs0 two []) 0 [k551] (obs0 [(k551, true); (k661, false)] [])) = false /\
  (* garbage creates an entry *)
  c10_disp_step_ok 5 None (mk (obs0 [] []) 0 [] (obs0 [(k551, true)] [])) = false /\
  (* a SYN creates an entry under a key that is not (addr, id + 1) *)
  c10_disp_step_ok 5 (Some m_syn50) (mk (obs0 [] []) 0 [] (obs0 [(k661, true)] [])) = false /\
  (* ... under (addr, id + 1): accepted *)
  c10_disp_step_ok 5 (Some m_syn50) (mk (obs0 [] []) 0 [] (obs0 [(k551, true)] [])) = true /\
  (* data queued as if it were a SYN *)
  c10_disp_step_ok 5 (Some m_data51) (mk (obs0 [] []) 0 [] (obs0 [] [hk_syn_of 5 m_data51])) = false /\
  (* a SYN queues some other request *)
  c10_disp_step_ok 5 (Some m_syn50) (mk (obs0 [] []) 0 [] (obs0 [] [hk_syn_of 6 m_syn50])) = false /\
  (* a reset for something that is not a SYN *)
  c10_disp_step_ok 5 (Some m_data51) (mk (obs0 [] []) 1 [] (obs0 [] [])) = false /\
  (* two resets for one SYN *)
  c10_disp_step_ok 5 (Some m_syn50) (mk (obs0 [] []) 2 [] (obs0 [] [])) = false.
Proof. vm_compute. repeat split. Qed.
