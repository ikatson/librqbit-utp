From Utp Require Import Base.Prelude Wire.SeqNr Wire.Header Sock.Dispatcher Sock.Dispatcher_Proofs Sock.DispObs.

Lemma nodupb_true l : NoDup l -> nodupb l = true.
Proof.
  induction 1 as [|x l Hn Hd IH]; cbn [nodupb]; [reflexivity|]. rewrite IH, andb_true_r.
  apply negb_true_iff. destruct (existsb (skey_eqb x) l) eqn:E; [|reflexivity].
  apply existsb_exists in E. destruct E as (y & Hy & Hxy). apply skey_eqb_eq in Hxy. subst y. contradiction.
Qed.

Lemma syn_eqb_refl a : syn_eqb a a = true.
Proof. unfold syn_eqb. rewrite !Z.eqb_refl. reflexivity. Qed.
Lemma syns_eqb_refl l : syns_eqb l l = true.
Proof. induction l as [|x r IH]; cbn [syns_eqb]; [reflexivity|]. rewrite syn_eqb_refl, IH. reflexivity. Qed.

Lemma suffix_plus_same n pre : (n <= length pre)%nat -> is_suffix_plus pre (skipn n pre) = true.
Proof.
  intro H. unfold is_suffix_plus. apply existsb_exists. exists n. split; [apply in_seq; lia|].
  rewrite syns_eqb_refl. reflexivity.
Qed.

Lemma suffix_plus_app n pre y : (n <= length pre)%nat -> is_suffix_plus pre (skipn n pre ++ [y]) = true.
Proof.
  intro H. unfold is_suffix_plus. apply existsb_exists. exists n. split; [apply in_seq; lia|].
  rewrite rev_app_distr. cbn [rev app]. rewrite rev_involutive, syns_eqb_refl. apply orb_true_r.
Qed.

Lemma keys_obs s : map fst (ob_streams (dobs_of s)) = keys (d_streams s).
Proof. unfold dobs_of, keys; cbn [ob_streams]. rewrite map_map. reflexivity. Qed.

(* ---- where events can come from ---- *)
Lemma on_control_events s c send s' e : on_control s c send = (s', e) ->
  forall x, In x e -> match x with EvSentSyn _ _ _ | EvConnectErr _ => True | _ => False end.
Proof.
  unfold on_control. destruct c as [a0 t0|a0 t0|k1].
  - destruct (streams_full _); [intro H; injection H as _ <-; intros x [<-|[]]; exact I|].
    destruct (next_random _) as [s4 q]. destruct send.
    + destruct (slots_insert _ _); intro H; injection H as _ <-; intros x Hx; cbn in Hx;
        repeat (destruct Hx as [<-|Hx]; [exact I|]); contradiction.
    + intro H; injection H as _ <-; intros x [<-|[]]; exact I.
    + intro H; injection H as _ <-; intros x [<-|[]]; exact I.
  - destruct (get_slots _ _); [destruct (slots_pop _ _) as [[? ?]|]|]; intro H; injection H as _ <-; intros x [].
  - destruct (find_stream _ _) as [en|]; [destruct (se_alive en)|]; intro H; injection H as _ <-; intros x [].
Qed.

Definition syn_events_only (e : list devent) : Prop :=
  forall x, In x e -> match x with EvAccepted _ _ | EvSentRst _ _ _ => True | _ => False end.

Lemma all_accepted_syn_events e : all_accepted e -> syn_events_only e.
Proof.
  unfold all_accepted, syn_events_only. rewrite Forall_forall. intros H x Hx. specialize (H _ Hx).
  destruct x; auto.
Qed.

Lemma on_syn_events s y s' e : d_inv s -> on_syn s y = (s', e) -> syn_events_only e.
Proof.
  intros (I1 & I2 & I3 & _) H x Hin. destruct (on_syn_spec _ _ _ _ (conj I1 I2) I3 H) as (_ & _ & _ & D & _).
  destruct D as [[Hacc _]|(e0 & Hacc & -> & _)]; [exact (all_accepted_syn_events _ Hacc x Hin)|].
  apply in_app_or in Hin. destruct Hin as [Hin|[<-|[]]]; [exact (all_accepted_syn_events _ Hacc x Hin)|exact I].
Qed.

(* a datagram never makes the dispatcher send a SYN or fail a connect *)
Lemma on_recv_events s addr m s' e : d_inv s -> on_recv s addr m = (s', e) ->
  forall x, In x e -> match x with EvSentSyn _ _ _ | EvConnectErr _ => False | _ => True end.
Proof.
  intros Hinv H x Hin. destruct (on_recv_cases _ _ _ _ _ H) as [He|[(_ & _ & Hack)|(_ & _ & Hsyn)]].
  - destruct He as [-> | ->]; destruct Hin as [<-|[]]; exact I.
  - destruct (on_maybe_connect_ack_frame _ _ _ _ _ Hack) as (_ & _ & _ & _ & _ & _ & [->|(t & k & ->)]);
      destruct Hin as [<-|[]]; exact I.
  - pose proof (on_syn_events _ _ _ _ Hinv Hsyn x Hin) as Hx. destruct x; auto.
Qed.

(* ---- counting resets ---- *)
Lemma count_rst_app a b : count_rst (a ++ b) = count_rst a + count_rst b.
Proof. unfold count_rst. rewrite filter_app, app_length. lia. Qed.

Lemma count_rst_zero e : (forall a c q, ~ In (EvSentRst a c q) e) -> count_rst e = 0.
Proof.
  unfold count_rst. induction e as [|x l IH]; intro H; [reflexivity|]. cbn [filter].
  destruct x; try (apply IH; intros a c q Hin; apply (H a c q); right; exact Hin).
  exfalso. eapply H. left. reflexivity.
Qed.

Lemma all_accepted_rst e : all_accepted e -> count_rst e = 0.
Proof. intro H. apply count_rst_zero. intros a c q Hin. exact (all_accepted_only _ _ H Hin). Qed.

(* ---- one arm: forwarding goes to a live entry of that key; the backlog gains at most one SYN,
   at the back; at most one reset, and only when the backlog is full ---- *)
Definition arm_facts (s s' : dstate) (e : list devent) : Prop :=
  (forall k, In (EvForward k) e -> exists en, In en (d_streams s') /\ se_key en = k /\ se_alive en = true) /\
  (d_syns s' = d_syns s \/ exists y, d_syns s' = d_syns s ++ [y]) /\
  count_rst e <= 1 /\ (0 < count_rst e -> Z.of_nat (length (d_syns s)) = 32).

Lemma arm_facts_quiet s s' e :
  d_syns s' = d_syns s -> (forall x, In x e -> match x with EvForward _ | EvSentRst _ _ _ => False | _ => True end) ->
  arm_facts s s' e.
Proof.
  intros Hs He. split; [intros k Hin; destruct (He _ Hin)|]. split; [left; exact Hs|].
  rewrite count_rst_zero; [lia|]. intros a c q Hin. exact (He _ Hin).
Qed.

Lemma on_recv_facts s addr m s' e : d_inv s -> on_recv s addr m = (s', e) -> arm_facts s s' e.
Proof.
  intros Hinv H. pose proof Hinv as (I1 & I2 & I3 & _).
  destruct (on_recv_spec _ _ _ _ _ Hinv H) as (_ & _ & Hf & _).
  assert (Hfwd : forall k, In (EvForward k) e -> exists en, In en (d_streams s') /\ se_key en = k /\ se_alive en = true).
  { intros k Hin. destruct (Hf k Hin) as (_ & en & Hfi & Hal & -> & _).
    unfold find_stream in Hfi. apply find_some in Hfi. destruct Hfi as [Hi Hk]. apply skey_eqb_eq in Hk. eauto. }
  assert (Hnorst : d_syns s' = d_syns s -> (forall a c q, ~ In (EvSentRst a c q) e) -> arm_facts s s' e).
  { intros Hs Hr. split; [exact Hfwd|]. split; [left; exact Hs|]. rewrite (count_rst_zero _ Hr). lia. }
  unfold on_recv in H. destruct (find_stream s _) as [en|] eqn:Ef.
  - apply Hnorst; destruct (se_alive en); injection H as <- <-; try reflexivity; intros a c q [Hx|[]]; discriminate Hx.
  - destruct (dm_type m).
    1, 2, 4: apply Hnorst; injection H as <- <-; [reflexivity|intros a c q [Hx|[]]; discriminate Hx].
    + destruct (on_maybe_connect_ack_frame _ _ _ _ _ H) as (Hs & _ & _ & _ & _ & _ & He).
      apply Hnorst; [exact Hs|]. intros a c q Hin. destruct He as [->|(t & k & ->)]; destruct Hin as [Hx|[]]; discriminate Hx.
    + destruct (on_syn_spec _ _ _ _ (conj I1 I2) I3 H) as (_ & _ & _ & D & _).
      split; [exact Hfwd|]. destruct D as [[Hacc Hs]|(e0 & Hacc & -> & Hs & Hfull)].
      * rewrite (all_accepted_rst _ Hacc). split; [|lia]. destruct Hs as [Hs|Hs]; eauto.
      * rewrite count_rst_app, (all_accepted_rst _ Hacc). split; [left; exact Hs|]. split; [cbn; lia|]. intros _. exact Hfull.
Qed.

Lemma arm_step_facts s2 a s' e : d_inv s2 -> arm_step s2 a = (s', e) -> arm_facts s2 s' e.
Proof.
  intros Hinv H.
  destruct (arm_step_cases _ _ _ _ H) as [(He & Hs)|[(send & c & r & _ & _ & Hoc)|(addr & m & _ & Hr)]].
  - apply arm_facts_quiet; [destruct Hs as [->|(x & r & _ & ->)]; reflexivity|].
    intros x Hin. destruct He as [-> | ->]; [destruct Hin|destruct Hin as [<-|[]]; exact I].
  - apply arm_facts_quiet; [apply (on_control_frame _ _ _ _ _ Hoc)|].
    intros x Hin. pose proof (on_control_events _ _ _ _ _ Hoc x Hin) as Hx. destruct x; auto.
  - exact (on_recv_facts _ _ _ _ _ Hinv Hr).
Qed.

(* ---- the other tasks' steps emit nothing and leave the SYN queue alone ---- *)
Lemma other_steps_quiet s o s' e :
  (forall pushes a, o <> DoRunOnce pushes a) -> dstep s o = (s', e) -> e = [] /\ d_syns s' = d_syns s.
Proof. intros Hne H. destruct (other_step_frame _ _ _ _ Hne H) as (A & B & _). auto. Qed.

Ltac quiet H Hs :=
  let Hq := fresh "Hq" in
  pose proof (fun Hne => other_steps_quiet _ _ _ _ Hne H) as Hq;
  destruct Hq as [-> Hs]; [intros ? ? Heq; discriminate Heq|].

(* every step, with everything the predicates need *)
Lemma dstep_facts s o s' e :
  d_inv s -> dstep s o = (s', e) ->
  (* forwarding *)
  (forall k, In (EvForward k) e -> exists en, In en (d_streams s') /\ se_key en = k /\ se_alive en = true) /\
  (* cached SYNs *)
  (exists n, (n <= length (d_syns s))%nat /\
     (d_syns s' = skipn n (d_syns s) \/ exists y, d_syns s' = skipn n (d_syns s) ++ [y])) /\
  (* resets *)
  count_rst e <= 1 /\ (0 < count_rst e -> Z.of_nat (length (d_syns s)) = 32).
Proof.
  intros Hinv H. destruct (dop_cases o) as [(pushes & a & ->)|Hne].
  - destruct (run_once_decomp _ _ _ _ _ Hinv H) as (s1 & e1 & e3 & Ec & Ea & -> & _ & Hacc & _ & Hinv2 & _ & _ & P3 & _).
    destruct (cleanup_front _ _ _ Ec) as (n & Hn & Hn0). rewrite <- P3 in Hn0.
    destruct (arm_step_facts _ _ _ _ Hinv2 Ea) as (Hf & Hs & Hr1 & Hr2).
    rewrite count_rst_app, (all_accepted_rst _ Hacc).
    split.
    { intros k Hin. apply in_app_or in Hin.
      destruct Hin as [Hin|Hin]; [destruct (all_accepted_only _ _ Hacc Hin)|exact (Hf k Hin)]. }
    split; [exists n; split; [exact Hn|rewrite <- Hn0; exact Hs]|].
    split; [lia|]. intro Hpos.
    (* the backlog was full after cleanup, cleanup only shrinks it, and it is bounded *)
    specialize (Hr2 ltac:(lia)). rewrite Hn0, skipn_length in Hr2.
    destruct Hinv as (_ & _ & I3 & _). unfold ACCEPT_QUEUE_MAX_SYNS in I3. lia.
  - destruct (other_steps_quiet _ _ _ _ Hne H) as [-> Hs].
    split; [intros k []|]. split; [exists 0%nat; split; [lia|left; exact Hs]|]. cbn. lia.
Qed.

Lemma c12_step_ok_model s o s' e :
  d_inv s -> dstep s o = (s', e) -> c12_step_ok (d_max_streams s) (dstep_obs_of s e s') = true.
Proof.
  intros Hinv H. destruct (dstep_inv _ _ _ _ Hinv H) as [(J1 & J2 & _) Hmax].
  unfold c12_step_ok, dstep_obs_of; cbn [so_pre so_post so_fwd].
  rewrite keys_obs, (nodupb_true _ J1). cbn [andb].
  unfold dobs_of at 1; cbn [ob_streams]. rewrite map_length.
  replace (Z.of_nat (length (d_streams s')) <=? Z.max 0 (d_max_streams s)) with true by (rewrite <- Hmax; lia).
  cbn [andb]. apply andb_true_iff. split.
  - apply forallb_forall. intros k Hk. unfold fwd_keys in Hk. apply in_flat_map in Hk.
    destruct Hk as (ev & Hev & Hk). destruct ev; try contradiction. destruct Hk as [<-|[]].
    destruct (dstep_facts _ _ _ _ Hinv H) as (Hf & _).
    destruct (Hf _ Hev) as (en & Hin & Hk & Ha). apply existsb_exists.
    exists (se_key en, se_alive en). split.
    + unfold dobs_of; cbn [ob_streams]. apply in_map_iff. exists en. auto.
    + cbn [fst snd]. rewrite Hk, Ha, skey_eqb_refl. reflexivity.
  - apply forallb_forall. intros [k al] Hp. cbn [fst snd]. destruct al; [|reflexivity].
    unfold dobs_of in Hp; cbn [ob_streams] in Hp. apply in_map_iff in Hp.
    destruct Hp as (en & Heq & Hin). injection Heq as Hk Ha.
    destruct (live_never_evicted _ _ _ _ _ Hinv H Hin Ha) as (en' & Hin' & Hk' & _).
    apply existsb_exists. exists (se_key en', se_alive en'). split.
    + unfold dobs_of; cbn [ob_streams]. apply in_map_iff. exists en'. auto.
    + cbn [fst]. rewrite Hk', Hk. apply skey_eqb_refl.
Qed.

Lemma c13_step_ok_model s o s' e :
  d_inv s -> dstep s o = (s', e) -> c13_step_ok (dstep_obs_of s e s') = true.
Proof.
  intros Hinv H. destruct (dstep_inv _ _ _ _ Hinv H) as [(_ & _ & J3 & J4 & _) _].
  unfold c13_step_ok, dstep_obs_of; cbn [so_pre so_post so_rsts].
  unfold dobs_of; cbn [ob_syns ob_ch].
  unfold ACCEPT_QUEUE_MAX_SYNS, ACCEPT_QUEUE_MAX_ACCEPTORS in *.
  replace (Z.of_nat (length (d_syns s')) <=? 32) with true by lia.
  replace (Z.of_nat (length (d_chan s')) <=? 32) with true by lia. cbn [andb].
  destruct (dstep_facts _ _ _ _ Hinv H) as (_ & (n & Hn & Hs) & Hr1 & Hr2).
  replace (count_rst e <=? 1) with true by lia. cbn [andb].
  apply andb_true_iff. split.
  - destruct (Z.ltb_spec 0 (count_rst e)); [|reflexivity]. apply Z.eqb_eq. auto.
  - destruct Hs as [->|[y ->]]; [apply suffix_plus_same|apply suffix_plus_app]; exact Hn.
Qed.

(* trace level: every step of every run from a fresh dispatcher *)
Fixpoint dobs_trace (s : dstate) (ops : list dop) : list dstep_obs :=
  match ops with
  | [] => []
  | o :: r => let '(s', e) := dstep s o in dstep_obs_of s e s' :: dobs_trace s' r
  end.

Lemma model_trace_c12_c13_ok max_streams : forall ops s,
  d_inv s -> d_max_streams s = max_streams ->
  forallb (c12_step_ok max_streams) (dobs_trace s ops) = true /\
  forallb c13_step_ok (dobs_trace s ops) = true.
Proof.
  induction ops as [|o r IH]; intros s Hinv Hmax; cbn [dobs_trace forallb]; [auto|].
  destruct (dstep s o) as [s1 e] eqn:E. cbn [forallb].
  destruct (dstep_inv _ _ _ _ Hinv E) as [Hinv1 Hmax1].
  destruct (IH s1 Hinv1 ltac:(congruence)) as [A B].
  rewrite <- Hmax at 1. rewrite (c12_step_ok_model _ _ _ _ Hinv E), (c13_step_ok_model _ _ _ _ Hinv E), A, B. auto.
Qed.

Lemma model_trace_ok max_streams random ops :
  forallb (c12_step_ok max_streams) (dobs_trace (dstate_new max_streams random) ops) = true /\
  forallb c13_step_ok (dobs_trace (dstate_new max_streams random) ops) = true.
Proof.
  apply (model_trace_c12_c13_ok max_streams); [apply new_inv|].
  unfold dstate_new. destruct random; reflexivity.
Qed.
