(* The per-address connecting slots (ConnectingPerAddr) seen through `slots_of`: the four slots of
   an address, an absent HashMap entry being four empty slots.  Exact effect of insert / pop /
   pop_by_token and of the control messages on them.  Proofs only (shared by DispPending_Proofs,
   DispWiring_Proofs, DispRelease_Proofs). *)
From Utp Require Import Base.Prelude Wire.SeqNr Wire.Header Sock.Dispatcher Sock.Dispatcher_Proofs
  Sock.DispObs Sock.DispObs_Proofs Sock.DispFresh_Proofs.

(* ------------------------------------------------------------------ the slots of an address *)
Definition slots_of (s : dstate) (addr : Z) : list (option connecting) :=
  match get_slots s addr with Some x => x | None => empty_slots end.

(* the pending connects of an address, in slot order *)
Definition somes (l : list (option connecting)) : list connecting :=
  flat_map (fun x => match x with Some c => [c] | None => [] end) l.

Definition pending (s : dstate) (addr : Z) : list connecting := somes (slots_of s addr).

Lemma somes_app a b : somes (a ++ b) = somes a ++ somes b.
Proof. unfold somes. apply flat_map_app. Qed.

Lemma somes_length_le l : (length (somes l) <= length l)%nat.
Proof. induction l as [|[c|] r IH]; cbn [somes flat_map app length] in *; unfold somes in *; lia. Qed.

Lemma somes_all_some l : length (somes l) = length l -> Forall (fun x => x <> None) l.
Proof.
  induction l as [|[c|] r IH]; intro H; [constructor| |].
  - constructor; [discriminate|]. apply IH. cbn [somes flat_map app length] in H. unfold somes. lia.
  - exfalso. pose proof (somes_length_le r). cbn [somes flat_map app length] in H. unfold somes in *. lia.
Qed.

(* ---- insert ---- *)
Lemma slots_insert_some l c l' : slots_insert l c = Some l' ->
  exists l1 l2, l = l1 ++ None :: l2 /\ l' = l1 ++ Some c :: l2 /\ Forall (fun x => x <> None) l1.
Proof.
  revert l'. induction l as [|x r IH]; intros l'; cbn [slots_insert]; [discriminate|].
  destruct x as [x|].
  - destruct (slots_insert r c) as [r'|] eqn:E; [|discriminate]. intro H; injection H as <-.
    destruct (IH _ eq_refl) as (l1 & l2 & -> & -> & Hall).
    exists (Some x :: l1), l2. split; [reflexivity|]. split; [reflexivity|]. constructor; [discriminate|exact Hall].
  - intro H; injection H as <-. exists [], r. split; [reflexivity|]. split; [reflexivity|constructor].
Qed.

Lemma slots_insert_none l c : slots_insert l c = None <-> Forall (fun x => x <> None) l.
Proof.
  induction l as [|x r IH]; cbn [slots_insert].
  - split; [constructor|reflexivity].
  - destruct x as [x|].
    + destruct (slots_insert r c) eqn:E.
      * split; [discriminate|]. intro H. inversion H; subst. apply IH in H3. discriminate.
      * split; [|reflexivity]. intros _. constructor; [discriminate|]. apply IH. reflexivity.
    + split; [discriminate|]. intro H. inversion H; subst. congruence.
Qed.

Lemma all_some_somes_length l : Forall (fun x => x <> None) l -> length (somes l) = length l.
Proof.
  induction 1 as [|x r Hx Hr IH]; [reflexivity|]. destruct x as [c|]; [|congruence].
  cbn [somes flat_map app length]. unfold somes in IH. rewrite IH. reflexivity.
Qed.

(* a free slot exists iff fewer connects are pending than there are slots *)
Lemma slots_insert_succeeds l c : (length (somes l) < length l)%nat -> exists l', slots_insert l c = Some l'.
Proof.
  intro H. destruct (slots_insert l c) as [l'|] eqn:E; [eauto|]. exfalso.
  apply slots_insert_none in E. apply all_some_somes_length in E. lia.
Qed.

Lemma slots_insert_fails l c : slots_insert l c = None -> length (somes l) = length l.
Proof. intro E. apply slots_insert_none in E. apply all_some_somes_length. exact E. Qed.

Lemma slots_insert_somes l c l' : slots_insert l c = Some l' ->
  length (somes l') = S (length (somes l)) /\ (forall x, In x (somes l') <-> x = c \/ In x (somes l)).
Proof.
  intro H. destruct (slots_insert_some _ _ _ H) as (l1 & l2 & -> & -> & _).
  rewrite !somes_app. cbn [somes flat_map app]. fold (somes l2). rewrite !app_length. cbn [length].
  split; [lia|]. intro x. rewrite !in_app_iff. cbn [In]. intuition.
Qed.

(* ---- pop ---- *)
Lemma slots_pop_some p l c l' : slots_pop p l = Some (c, l') ->
  exists l1 l2, l = l1 ++ Some c :: l2 /\ l' = l1 ++ None :: l2 /\ p c = true /\
                forall x, In x (somes l1) -> p x = false.
Proof.
  revert c l'. induction l as [|x r IH]; intros c l'; cbn [slots_pop]; [discriminate|].
  destruct x as [x|].
  - destruct (p x) eqn:Ep.
    + intro H; injection H as <- <-. exists [], r. repeat split; auto. intros y [].
    + destruct (slots_pop p r) as [[c0 r']|] eqn:E; [|discriminate]. intro H; injection H as <- <-.
      destruct (IH _ _ eq_refl) as (l1 & l2 & -> & -> & Hp & Hno).
      exists (Some x :: l1), l2. repeat split; auto.
      intros y Hy. cbn [somes flat_map app In] in Hy. destruct Hy as [<-|Hy]; [exact Ep|apply Hno; exact Hy].
  - destruct (slots_pop p r) as [[c0 r']|] eqn:E; [|discriminate]. intro H; injection H as <- <-.
    destruct (IH _ _ eq_refl) as (l1 & l2 & -> & -> & Hp & Hno).
    exists (None :: l1), l2. repeat split; auto.
Qed.

Lemma slots_pop_none p l : slots_pop p l = None <-> forall x, In x (somes l) -> p x = false.
Proof.
  induction l as [|x r IH]; cbn [slots_pop].
  - split; [intros _ y []|reflexivity].
  - destruct x as [x|].
    + destruct (p x) eqn:Ep.
      * split; [discriminate|]. intro H. rewrite (H x) in Ep; [discriminate|]. left; reflexivity.
      * destruct (slots_pop p r) as [[c0 r']|] eqn:E.
        -- split; [discriminate|]. intro H. assert (Hn : Some (c0, r') = None); [|discriminate].
           apply IH. intros y Hy. apply H. right. exact Hy.
        -- split; [|reflexivity]. intros _ y Hy. cbn [somes flat_map app In] in Hy.
           destruct Hy as [<-|Hy]; [exact Ep|]. apply (proj1 IH eq_refl). exact Hy.
    + destruct (slots_pop p r) as [[c0 r']|] eqn:E.
      * split; [discriminate|]. intro H. assert (Hn : Some (c0, r') = None); [|discriminate].
        apply IH. exact H.
      * split; [|reflexivity]. intros _. apply (proj1 IH eq_refl).
Qed.

Lemma slots_pop_somes p l c l' : slots_pop p l = Some (c, l') ->
  exists m1 m2, somes l = m1 ++ c :: m2 /\ somes l' = m1 ++ m2 /\ p c = true /\
                (forall x, In x m1 -> p x = false) /\ S (length (somes l')) = length (somes l).
Proof.
  intro H. destruct (slots_pop_some _ _ _ _ H) as (l1 & l2 & -> & -> & Hp & Hno).
  exists (somes l1), (somes l2). rewrite !somes_app. cbn [somes flat_map app]. fold (somes l2).
  repeat split; auto. rewrite !app_length. cbn [length]. lia.
Qed.

(* ---- an entry with no pending connect is the same as no entry ---- *)
Lemma slots_empty_somes l : slots_empty l = true <-> somes l = [].
Proof.
  unfold slots_empty. induction l as [|[c|] r IH]; cbn [forallb somes flat_map app].
  - tauto.
  - split; discriminate.
  - exact IH.
Qed.

Lemma slots_empty_is_empty l : slots_empty l = true -> length l = MAX_CONNECTING_PER_ADDR -> l = empty_slots.
Proof.
  unfold empty_slots. intros He <-. unfold slots_empty in He.
  induction l as [|x r IH]; [reflexivity|]. cbn [forallb] in He. apply andb_true_iff in He.
  destruct He as [Hx Hr]. destruct x; [discriminate|]. cbn [length repeat]. f_equal. apply IH. exact Hr.
Qed.

Lemma somes_empty_slots : somes empty_slots = [].
Proof. reflexivity. Qed.

(* ---- the map ---- *)
Lemma get_slots_set_same l0 s addr sl : d_connecting s = set_slots l0 addr sl -> get_slots s addr = sl.
Proof.
  intro H. unfold get_slots. rewrite H. unfold set_slots.
  assert (Hnone : find (fun p => fst p =? addr) (filter (fun p => negb (fst p =? addr)) l0) = None).
  { clear. induction l0 as [|x r IH]; [reflexivity|]. cbn [filter]. destruct (fst x =? addr) eqn:E; cbn [negb]; [exact IH|].
    cbn [find]. rewrite E. exact IH. }
  destruct sl as [x|]; [|rewrite Hnone; reflexivity].
  assert (Hf : forall l1, find (fun p : Z * list (option connecting) => fst p =? addr) l1 = None ->
     find (fun p => fst p =? addr) (l1 ++ [(addr, x)]) = Some (addr, x)).
  { induction l1 as [|y r IH]; cbn [find app fst]; [rewrite Z.eqb_refl; reflexivity|].
    destruct (fst y =? addr); [discriminate|]. exact IH. }
  rewrite (Hf _ Hnone). reflexivity.
Qed.

Lemma get_slots_set_other l0 s s0 addr sl a : d_connecting s = set_slots l0 addr sl -> d_connecting s0 = l0 ->
  a <> addr -> get_slots s a = get_slots s0 a.
Proof.
  intros H H0 Hne. unfold get_slots. rewrite H, H0. unfold set_slots.
  assert (Hfil : find (fun p : Z * list (option connecting) => fst p =? a) (filter (fun p => negb (fst p =? addr)) l0)
                 = find (fun p => fst p =? a) l0).
  { clear - Hne. induction l0 as [|x r IH]; [reflexivity|]. cbn [filter find].
    destruct (fst x =? addr) eqn:E; cbn [negb].
    - apply Z.eqb_eq in E. destruct (Z.eqb_spec (fst x) a); [congruence|exact IH].
    - cbn [find]. destruct (fst x =? a); [reflexivity|exact IH]. }
  destruct sl as [x|]; [|rewrite Hfil; reflexivity].
  assert (Happ : forall l1, find (fun p : Z * list (option connecting) => fst p =? a) (l1 ++ [(addr, x)])
                            = find (fun p => fst p =? a) l1).
  { induction l1 as [|y r IH]; cbn [find app fst].
    - destruct (Z.eqb_spec addr a); [congruence|reflexivity].
    - destruct (fst y =? a); [reflexivity|exact IH]. }
  rewrite Happ, Hfil. reflexivity.
Qed.

Lemma slots_of_same_connecting s s' addr : d_connecting s' = d_connecting s -> slots_of s' addr = slots_of s addr.
Proof. intro H. unfold slots_of, get_slots. rewrite H. reflexivity. Qed.

Lemma slots_of_length s addr : d_inv s -> length (slots_of s addr) = MAX_CONNECTING_PER_ADDR.
Proof.
  intros (_ & _ & _ & _ & I5). unfold slots_of. destruct (get_slots s addr) eqn:E; [|reflexivity].
  eapply get_slots_length; eauto.
Qed.

Lemma pending_le_4 s addr : d_inv s -> (length (pending s addr) <= 4)%nat.
Proof.
  intro Hinv. unfold pending. pose proof (somes_length_le (slots_of s addr)) as H.
  rewrite (slots_of_length s addr Hinv) in H. exact H.
Qed.

(* writing back the slots of an address: an all-empty entry is removed, which is the same thing *)
Lemma slots_of_write s0 s addr sl' :
  length sl' = MAX_CONNECTING_PER_ADDR ->
  d_connecting s = set_slots (d_connecting s0) addr (if slots_empty sl' then None else Some sl') ->
  slots_of s addr = sl' /\ forall a, a <> addr -> slots_of s a = slots_of s0 a.
Proof.
  intros Hl H. split.
  - unfold slots_of. rewrite (get_slots_set_same _ _ _ _ H).
    destruct (slots_empty sl') eqn:E; [|reflexivity]. symmetry. apply slots_empty_is_empty; assumption.
  - intros a Hne. unfold slots_of. rewrite (get_slots_set_other _ _ s0 _ _ _ H eq_refl Hne). reflexivity.
Qed.

Lemma slots_of_write_some s0 s addr sl' :
  d_connecting s = set_slots (d_connecting s0) addr (Some sl') ->
  slots_of s addr = sl' /\ forall a, a <> addr -> slots_of s a = slots_of s0 a.
Proof.
  intros H. split.
  - unfold slots_of. rewrite (get_slots_set_same _ _ _ _ H). reflexivity.
  - intros a Hne. unfold slots_of. rewrite (get_slots_set_other _ _ s0 _ _ _ H eq_refl Hne). reflexivity.
Qed.

(* ------------------------------------------------------------------ the control messages, exactly *)
Definition peek_random (s : dstate) : Z := match d_random s with [] => 0 | x :: _ => x end.

(* the fields a control message about connects never touches *)
Definition ctl_frame (s s' : dstate) : Prop :=
  d_streams s' = d_streams s /\ d_syns s' = d_syns s /\ d_next_acc s' = d_next_acc s /\
  d_chan s' = d_chan s /\ d_control s' = d_control s /\ d_max_streams s' = d_max_streams s /\
  d_dead_acceptors s' = d_dead_acceptors s /\ d_handed s' = d_handed s /\
  d_next_sid s' = d_next_sid s /\ d_dead_connectors s' = d_dead_connectors s.

Lemma ctl_frame_refl s : ctl_frame s s.
Proof. unfold ctl_frame. repeat split. Qed.

Lemma slots_pop_empty p : slots_pop p empty_slots = None.
Proof. reflexivity. Qed.

Lemma next_random_peek s s' x : next_random s = (s', x) ->
  x = peek_random s /\ d_connecting s' = d_connecting s /\ d_results s' = d_results s /\
  d_next_conn_id s' = d_next_conn_id s /\ ctl_frame s s'.
Proof.
  unfold next_random, peek_random, ctl_frame.
  destruct (d_random s); intro H; injection H as <- <-; dsimpl; repeat split.
Qed.

Lemma on_control_connect_spec s addr token send s' e :
  d_inv s -> on_control s (CtlConnect addr token) send = (s', e) ->
  let cid := next_free_conn_id (S (length (d_streams s))) s addr (d_next_conn_id s) in
  let q := peek_random s in
  ctl_frame s s' /\
  if streams_full s then
    e = [EvConnectErr token] /\ d_results s' = d_results s ++ [(token, CrTooMany)] /\
    d_connecting s' = d_connecting s /\ d_next_conn_id s' = d_next_conn_id s
  else
    match send with
    | SynShort =>
        e = [EvConnectErr token] /\ d_results s' = d_results s ++ [(token, CrDead)] /\
        d_connecting s' = d_connecting s /\ d_next_conn_id s' = cid
    | SynErr =>
        e = [EvConnectErr token] /\ d_results s' = d_results s ++ [(token, CrSynErr)] /\
        d_connecting s' = d_connecting s /\ d_next_conn_id s' = cid
    | SynSent =>
        (forall a, a <> addr -> slots_of s' a = slots_of s a) /\
        if (length (pending s addr) <? 4)%nat then
          (* a slot is reserved: the request is not refused *)
          e = [EvSentSyn addr cid q] /\ d_results s' = d_results s /\ d_next_conn_id s' = wadd16 cid 2 /\
          exists l1 l2, slots_of s addr = l1 ++ None :: l2 /\
                        slots_of s' addr = l1 ++ Some {| cn_token := token; cn_seq := q |} :: l2 /\
                        Forall (fun x => x <> None) l1
        else
          (* all four slots of this address are taken *)
          e = [EvSentSyn addr cid q; EvConnectErr token] /\ d_results s' = d_results s ++ [(token, CrDead)] /\
          d_next_conn_id s' = cid /\ slots_of s' addr = slots_of s addr
    end.
Proof.
  intros Hinv. cbv zeta. unfold on_control.
  destruct (streams_full s) eqn:Ef.
  { intro H; injection H as <- <-. unfold ctl_frame; dsimpl. repeat split. }
  set (cid := next_free_conn_id _ s addr (d_next_conn_id s)).
  destruct (next_random (upd_conn_id s cid)) as [s2 q0] eqn:Er.
  destruct (next_random_peek _ _ _ Er) as (-> & R1 & R2 & R3 & R4).
  change (peek_random (upd_conn_id s cid)) with (peek_random s).
  assert (F : ctl_frame s s2) by (unfold ctl_frame in *; dsimpl; exact R4).
  dsimpl. clear R4.
  destruct send.
  - assert (Hsl : match get_slots s2 addr with Some x => x | None => empty_slots end = slots_of s addr).
    { unfold slots_of, get_slots. rewrite R1. reflexivity. }
    rewrite Hsl.
    pose proof (slots_of_length s addr Hinv) as Hl4. unfold MAX_CONNECTING_PER_ADDR in Hl4.
    destruct (slots_insert (slots_of s addr) _) as [sl'|] eqn:Ei; intro H; injection H as Hs He; subst e.
    + assert (Hc : d_connecting s' = set_slots (d_connecting s2) addr (Some sl')) by (rewrite <- Hs; reflexivity).
      destruct (slots_of_write_some s2 s' addr sl' Hc) as [W1 W2].
      split; [unfold ctl_frame in *; rewrite <- Hs; dsimpl; exact F|].
      split.
      { intros a Ha. rewrite (W2 a Ha). apply slots_of_same_connecting. exact R1. }
      destruct (slots_insert_somes _ _ _ Ei) as [Hlen _].
      pose proof (somes_length_le sl') as Hle. rewrite (slots_insert_length _ _ _ Ei), Hl4 in Hle.
      unfold pending.
      destruct (Nat.ltb_spec (length (somes (slots_of s addr))) 4) as [Hlt|Hge]; [|lia].
      split; [reflexivity|]. split; [rewrite <- Hs; dsimpl; exact R2|]. split; [rewrite <- Hs; reflexivity|].
      destruct (slots_insert_some _ _ _ Ei) as (l1 & l2 & E1 & E2 & Hall).
      exists l1, l2. rewrite W1. auto.
    + assert (Hc : d_connecting s' = set_slots (d_connecting s2) addr (Some (slots_of s addr))) by (rewrite <- Hs; reflexivity).
      destruct (slots_of_write_some s2 s' addr _ Hc) as [W1 W2].
      split; [unfold ctl_frame in *; rewrite <- Hs; dsimpl; exact F|].
      split.
      { intros a Ha. rewrite (W2 a Ha). apply slots_of_same_connecting. exact R1. }
      pose proof (slots_insert_fails _ _ Ei) as Hfull. rewrite Hl4 in Hfull.
      unfold pending. rewrite Hfull. cbn [Nat.ltb Nat.leb].
      split; [reflexivity|]. split; [rewrite <- Hs; dsimpl; rewrite R2; reflexivity|].
      split; [rewrite <- Hs; dsimpl; exact R3|exact W1].
  - intro H; injection H as <- <-. split; [unfold ctl_frame in *; dsimpl; exact F|]. dsimpl.
    split; [reflexivity|]. split; [rewrite R2; reflexivity|]. split; [exact R1|exact R3].
  - intro H; injection H as <- <-. split; [unfold ctl_frame in *; dsimpl; exact F|]. dsimpl.
    split; [reflexivity|]. split; [rewrite R2; reflexivity|]. split; [exact R1|exact R3].
Qed.

(* ConnectDropped: the first slot of the address holding this token is released; nothing else moves *)
Lemma on_control_dropped_spec s addr token send s' e :
  d_inv s -> on_control s (CtlConnectDropped addr token) send = (s', e) ->
  e = [] /\ ctl_frame s s' /\ d_results s' = d_results s /\ d_next_conn_id s' = d_next_conn_id s /\
  d_random s' = d_random s /\
  (forall a, a <> addr -> slots_of s' a = slots_of s a) /\
  match slots_pop (fun c => cn_token c =? token) (slots_of s addr) with
  | Some (_, sl') => slots_of s' addr = sl'
  | None => s' = s
  end.
Proof.
  intros Hinv. pose proof Hinv as (_ & _ & _ & _ & I5). unfold on_control.
  destruct (get_slots s addr) as [sl|] eqn:Eg.
  - pose proof (get_slots_length s addr sl I5 Eg) as Hl.
    assert (Hso : slots_of s addr = sl) by (unfold slots_of; rewrite Eg; reflexivity). rewrite Hso.
    destruct (slots_pop _ sl) as [[c0 sl']|] eqn:Ep; intro H; injection H as Hs <-.
    + pose proof (slots_pop_length _ _ _ _ Ep) as Hl'. rewrite Hl in Hl'.
      assert (Hc : d_connecting s' = set_slots (d_connecting s) addr (if slots_empty sl' then None else Some sl'))
        by (rewrite <- Hs; reflexivity).
      destruct (slots_of_write s s' addr sl' Hl' Hc) as [W1 W2].
      split; [reflexivity|]. split; [unfold ctl_frame; rewrite <- Hs; dsimpl; repeat split|].
      split; [rewrite <- Hs; reflexivity|]. split; [rewrite <- Hs; reflexivity|].
      split; [rewrite <- Hs; reflexivity|]. split; [exact W2|exact W1].
    + subst s'. split; [reflexivity|]. split; [apply ctl_frame_refl|]. repeat split.
  - assert (Hso : slots_of s addr = empty_slots) by (unfold slots_of; rewrite Eg; reflexivity).
    rewrite Hso, slots_pop_empty. intro H; injection H as <- <-.
    split; [reflexivity|]. split; [apply ctl_frame_refl|]. repeat split.
Qed.

(* the SYN-ACK of one of our connects *)
Lemma on_maybe_connect_ack_slots s addr m s' e :
  d_inv s -> find_stream s {| k_addr := addr; k_conn := dm_conn m |} = None ->
  on_maybe_connect_ack s addr m = (s', e) ->
  let k := {| k_addr := addr; k_conn := dm_conn m |} in
  if streams_full s then s' = s /\ e = [EvDropped]
  else
    match slots_pop (fun c => cn_seq c =? dm_ack m) (slots_of s addr) with
    | None => s' = s /\ e = [EvDropped]
    | Some (c, sl') =>
        slots_of s' addr = sl' /\ (forall a, a <> addr -> slots_of s' a = slots_of s a) /\
        d_next_conn_id s' = d_next_conn_id s /\ d_control s' = d_control s /\
        d_syns s' = d_syns s /\ d_chan s' = d_chan s /\ d_next_acc s' = d_next_acc s /\
        d_dead_connectors s' = d_dead_connectors s /\ d_handed s' = d_handed s /\
        if mem_z (cn_token c) (d_dead_connectors s)
        then e = [EvDropped] /\ d_streams s' = d_streams s /\ d_results s' = d_results s
        else e = [EvConnected (cn_token c) k] /\
             d_streams s' = d_streams s ++ [{| se_key := k; se_alive := true; se_id := d_next_sid s |}] /\
             d_results s' = d_results s ++ [(cn_token c, CrOk k)]
    end.
Proof.
  intros Hinv Hnone. pose proof Hinv as (_ & _ & _ & _ & I5). cbv zeta.
  unfold on_maybe_connect_ack.
  set (k := {| k_addr := addr; k_conn := dm_conn m |}) in *.
  destruct (streams_full s); [intro H; injection H as <- <-; auto|].
  destruct (get_slots s addr) as [sl|] eqn:Eg.
  2:{ assert (Hso : slots_of s addr = empty_slots) by (unfold slots_of; rewrite Eg; reflexivity).
      rewrite Hso, slots_pop_empty. intro H; injection H as <- <-; auto. }
  assert (Hso : slots_of s addr = sl) by (unfold slots_of; rewrite Eg; reflexivity). rewrite Hso.
  pose proof (get_slots_length s addr sl I5 Eg) as Hl.
  destruct (slots_pop _ sl) as [[c sl']|] eqn:Ep; [|intro H; injection H as <- <-; auto].
  pose proof (slots_pop_length _ _ _ _ Ep) as Hl'. rewrite Hl in Hl'.
  pose proof (find_none_not_in _ _ Hnone) as Hnotin. fold k in Hnotin.
  dsimpl.
  destruct (mem_z (cn_token c) (d_dead_connectors s)) eqn:Em; intro H; injection H as Hs <-;
    (assert (Hc : d_connecting s' = set_slots (d_connecting s) addr (if slots_empty sl' then None else Some sl'))
       by (rewrite <- Hs; reflexivity));
    destruct (slots_of_write s s' addr sl' Hl' Hc) as [W1 W2];
    (split; [exact W1|]); (split; [exact W2|]); rewrite <- Hs; dsimpl; repeat (split; [reflexivity|]).
  - split; [apply (remove_inserted _ _ _ Hnotin)|reflexivity].
  - split; [apply (insert_absent _ _ _ Hnotin)|reflexivity].
Qed.
