From Utp Require Import Base.Prelude Wire.SeqNr Wire.Header Sock.Dispatcher.

Definition keys (l : list sentry) : list skey := map se_key l.

Lemma skey_eqb_eq a b : skey_eqb a b = true <-> a = b.
Proof.
  unfold skey_eqb. destruct a as [a1 a2], b as [b1 b2]; cbn [k_addr k_conn].
  rewrite andb_true_iff, !Z.eqb_eq. split; [intros [-> ->]; reflexivity|intro H; injection H; auto].
Qed.

Lemma skey_eqb_refl a : skey_eqb a a = true.
Proof. apply skey_eqb_eq. reflexivity. Qed.

(* ------------------------------------------------------------------ the table invariant *)
Definition d_inv (s : dstate) : Prop :=
  NoDup (keys (d_streams s)) /\
  Z.of_nat (length (d_streams s)) <= Z.max 0 (d_max_streams s) /\
  Z.of_nat (length (d_syns s)) <= ACCEPT_QUEUE_MAX_SYNS /\
  Z.of_nat (length (d_chan s)) <= ACCEPT_QUEUE_MAX_ACCEPTORS /\
  Forall (fun p => length (snd p) = MAX_CONNECTING_PER_ADDR) (d_connecting s).

Lemma remove_stream_keys l k : keys (remove_stream l k) = filter (fun x => negb (skey_eqb x k)) (keys l).
Proof.
  unfold keys, remove_stream. induction l as [|e r IH]; cbn [filter map]; [reflexivity|].
  destruct (skey_eqb (se_key e) k); cbn [negb map]; rewrite IH; reflexivity.
Qed.

Lemma NoDup_filter {A} (f : A -> bool) l : NoDup l -> NoDup (filter f l).
Proof.
  induction 1 as [|x l Hn Hd IH]; cbn [filter]; [constructor|].
  destruct (f x); [constructor; [|exact IH]|exact IH].
  intro Hin. apply filter_In in Hin. tauto.
Qed.

Lemma remove_stream_nodup l k : NoDup (keys l) -> NoDup (keys (remove_stream l k)).
Proof. intro H. rewrite remove_stream_keys. apply NoDup_filter. exact H. Qed.

Lemma remove_stream_not_in l k : ~ In k (keys (remove_stream l k)).
Proof.
  rewrite remove_stream_keys. intro H. apply filter_In in H. destruct H as [_ H].
  rewrite skey_eqb_refl in H. discriminate.
Qed.

Lemma remove_stream_length l k : (length (remove_stream l k) <= length l)%nat.
Proof.
  unfold remove_stream. induction l as [|e r IH]; cbn [filter length]; [lia|].
  destruct (negb _); cbn [length]; lia.
Qed.

Lemma find_none_not_in l k :
  find (fun e => skey_eqb (se_key e) k) l = None -> ~ In k (keys l).
Proof.
  intros Hf Hin. unfold keys in Hin. apply in_map_iff in Hin. destruct Hin as (e & <- & He).
  pose proof (find_none _ _ Hf e He) as H. cbn in H. rewrite skey_eqb_refl in H. discriminate.
Qed.

Lemma remove_absent l k : ~ In k (keys l) -> remove_stream l k = l.
Proof.
  unfold remove_stream, keys. induction l as [|e r IH]; cbn [filter map In]; intro H; [reflexivity|].
  destruct (skey_eqb (se_key e) k) eqn:E.
  - exfalso. apply H. left. apply skey_eqb_eq. exact E.
  - cbn [negb]. f_equal. apply IH. tauto.
Qed.

Lemma insert_absent l k sid : ~ In k (keys l) ->
  insert_stream l k sid = l ++ [{| se_key := k; se_alive := true; se_id := sid |}].
Proof. intro H. unfold insert_stream. rewrite (remove_absent l k H). reflexivity. Qed.

Lemma insert_absent_keys l k sid : ~ In k (keys l) -> keys (insert_stream l k sid) = keys l ++ [k].
Proof. intro H. rewrite (insert_absent l k sid H). unfold keys. rewrite map_app. reflexivity. Qed.

Lemma remove_inserted l k sid : ~ In k (keys l) -> remove_stream (insert_stream l k sid) k = l.
Proof.
  intro H. rewrite (insert_absent l k sid H). unfold remove_stream. rewrite filter_app. cbn [filter se_key].
  rewrite skey_eqb_refl. cbn [negb]. rewrite app_nil_r. apply (remove_absent l k H).
Qed.

Lemma remove_stream_keeps_others l k en : In en l -> se_key en <> k -> In en (remove_stream l k).
Proof.
  intros Hin Hne. unfold remove_stream. apply filter_In. split; [exact Hin|].
  destruct (skey_eqb (se_key en) k) eqn:E; [apply skey_eqb_eq in E; contradiction|reflexivity].
Qed.

Lemma remove_stream_incl l k : incl (remove_stream l k) l.
Proof. intros en H. unfold remove_stream in H. apply filter_In in H. tauto. Qed.

Lemma nodup_keys_same_entry l a b :
  NoDup (keys l) -> In a l -> In b l -> se_key a = se_key b -> a = b.
Proof.
  unfold keys. induction l as [|x r IH]; cbn [map In]; [tauto|].
  intros Hnd [->|Ha] [->|Hb] Hk; auto.
  - inversion Hnd as [|? ? Hnotin _]; subst. exfalso. apply Hnotin. rewrite Hk. apply in_map. exact Hb.
  - inversion Hnd as [|? ? Hnotin _]; subst. exfalso. apply Hnotin. rewrite <- Hk. apply in_map. exact Ha.
  - inversion Hnd; subst. apply IH; assumption.
Qed.

(* removing the dead entry found under k keeps every live entry: keys are unique, so a live
   entry is not the one that was found *)
Lemma remove_dead_keeps_live s k en0 en :
  NoDup (keys (d_streams s)) -> find_stream s k = Some en0 -> se_alive en0 = false ->
  In en (d_streams s) -> se_alive en = true -> In en (remove_stream (d_streams s) k).
Proof.
  intros Hnd Hf Hd Hin Ha. apply remove_stream_keeps_others; [exact Hin|]. intro Hk.
  unfold find_stream in Hf. apply find_some in Hf. destruct Hf as [Hin0 Hk0]. apply skey_eqb_eq in Hk0.
  assert (en = en0) by (apply (nodup_keys_same_entry _ _ _ Hnd Hin Hin0); congruence). congruence.
Qed.

Lemma mem_z_iff x l : mem_z x l = true <-> In x l.
Proof.
  unfold mem_z. rewrite existsb_exists. split.
  - intros (y & Hy & E). apply Z.eqb_eq in E. congruence.
  - intro H. exists x. split; [exact H|apply Z.eqb_refl].
Qed.

Lemma mem_z_false x l : mem_z x l = false <-> ~ In x l.
Proof. rewrite <- mem_z_iff. destruct (mem_z x l); intuition congruence. Qed.

Lemma NoDup_app_single {A} (l : list A) x : NoDup l -> ~ In x l -> NoDup (l ++ [x]).
Proof.
  intros Hn Hx. induction Hn as [|y l Hy Hn IH]; cbn [app]; [constructor; [tauto|constructor]|].
  constructor.
  - intro Hin. apply in_app_or in Hin. destruct Hin as [Hin|[<-|[]]]; [tauto|]. apply Hx. left; reflexivity.
  - apply IH. intro Hin. apply Hx. right; exact Hin.
Qed.

(* ------------------------------------------------------------------ small-step facts *)
Ltac dsimpl := cbn [d_streams d_connecting d_syns d_next_acc d_chan d_control d_next_conn_id
  d_max_streams d_random d_dead_acceptors d_handed d_next_sid d_dead_connectors d_results
  upd_streams upd_connecting upd_syns upd_acc upd_control upd_conn_id upd_random upd_ends bump_sid] in *.

(* the parts of the invariant that do not involve syns/chan/connecting *)
Definition st_inv (s : dstate) : Prop :=
  NoDup (keys (d_streams s)) /\ Z.of_nat (length (d_streams s)) <= Z.max 0 (d_max_streams s).

Lemma next_random_same s s' x : next_random s = (s', x) ->
  d_streams s' = d_streams s /\ d_max_streams s' = d_max_streams s /\ d_syns s' = d_syns s /\
  d_chan s' = d_chan s /\ d_next_acc s' = d_next_acc s /\ d_connecting s' = d_connecting s /\
  d_control s' = d_control s.
Proof.
  unfold next_random. destruct (d_random s); intro H; injection H as <- _; dsimpl; repeat split.
Qed.

Lemma next_random_upd s s' x : next_random s = (s', x) -> s' = s \/ exists r, s' = upd_random s r.
Proof. unfold next_random. destruct (d_random s) as [|y r]; intro H; injection H as <- _; eauto. Qed.

Lemma match_syn_spec s y a s' r e :
  st_inv s -> match_syn_with_accept s y a = (s', r, e) ->
  st_inv s' /\ d_max_streams s' = d_max_streams s /\ d_syns s' = d_syns s /\ d_chan s' = d_chan s /\
  d_next_acc s' = d_next_acc s /\ d_connecting s' = d_connecting s /\ d_control s' = d_control s /\
  (* nothing is ever removed or replaced *)
  incl (d_streams s) (d_streams s') /\
  match r with
  | MrMatched =>
      e = [EvAccepted a {| k_addr := sy_addr y; k_conn := wadd16 (sy_conn y) 1 |}] /\
      keys (d_streams s') = keys (d_streams s) ++ [{| k_addr := sy_addr y; k_conn := wadd16 (sy_conn y) 1 |}] /\
      ~ In a (d_dead_acceptors s)
  | MrReceiverDead => e = [] /\ d_streams s' = d_streams s /\ In a (d_dead_acceptors s)
  | MrFull => e = [] /\ s' = s /\ streams_full s = true
  | MrSynInvalid => e = [] /\ s' = s
  end.
Proof.
  intros [Hn Hl]. unfold match_syn_with_accept.
  destruct (streams_full s) eqn:Ef.
  { intro H; injection H as <- <- <-. repeat split; auto using incl_refl. }
  set (k := {| k_addr := sy_addr y; k_conn := wadd16 (sy_conn y) 1 |}).
  unfold has_stream, find_stream. destruct (find _ (d_streams s)) eqn:Efind.
  { intro H; injection H as <- <- <-. repeat split; auto using incl_refl. }
  destruct (next_random s) as [s1 x] eqn:Er.
  destruct (next_random_same _ _ _ Er) as (R1 & R2 & R3 & R4 & R5 & R6 & R7).
  assert (R8 : d_dead_acceptors s1 = d_dead_acceptors s)
    by (unfold next_random in Er; destruct (d_random s); injection Er as <- _; reflexivity).
  pose proof (find_none_not_in _ _ Efind) as Hnotin.
  destruct (mem_z a (d_dead_acceptors s1)) eqn:Em; rewrite R8 in Em.
  { apply mem_z_iff in Em. intro H; injection H as <- <- <-.
    unfold st_inv. rewrite ?R1, ?R2. repeat split; auto using incl_refl. }
  apply mem_z_false in Em.
  intro H; injection H as <- <- <-. unfold st_inv; dsimpl. rewrite R1, R2 in *.
  rewrite (insert_absent_keys _ _ _ Hnotin), (insert_absent _ _ _ Hnotin), app_length. cbn [length].
  unfold streams_full in Ef. apply Z.leb_gt in Ef.
  repeat split; auto.
  - apply NoDup_app_single; assumption.
  - lia.
  - apply incl_appl, incl_refl.
Qed.

Lemma try_next_acceptor_spec s s' oa :
  try_next_acceptor s = (s', oa) ->
  d_streams s' = d_streams s /\ d_max_streams s' = d_max_streams s /\ d_syns s' = d_syns s /\
  d_connecting s' = d_connecting s /\ d_control s' = d_control s /\ d_next_acc s' = None /\
  (length (d_chan s') <= length (d_chan s))%nat /\
  match oa with
  | Some a => (d_next_acc s = Some a /\ d_chan s' = d_chan s) \/
              (d_next_acc s = None /\ d_chan s = a :: d_chan s')
  | None => d_next_acc s = None /\ d_chan s = [] /\ s' = s
  end.
Proof.
  unfold try_next_acceptor. destruct (d_next_acc s) as [a|] eqn:En.
  - intro H; injection H as <- <-. dsimpl. repeat split; auto.
  - destruct (d_chan s) as [|a r] eqn:Ec; intro H; injection H as <- <-; dsimpl.
    + rewrite Ec. repeat split; auto.
    + repeat split; auto. cbn. lia.
Qed.

(* ------------------------------------------------------------------ accept queue *)
Definition all_accepted (e : list devent) : Prop :=
  Forall (fun x => match x with EvAccepted _ _ => True | _ => False end) e.

Lemma all_accepted_only e x : all_accepted e -> In x e -> match x with EvAccepted _ _ => True | _ => False end.
Proof. unfold all_accepted. rewrite Forall_forall. intros H Hin. exact (H x Hin). Qed.

(* what cleanup / on_syn may change, and what they never do *)
Record frame (s s' : dstate) : Prop := {
  fr_max : d_max_streams s' = d_max_streams s;
  fr_conn : d_connecting s' = d_connecting s;
  fr_ctl : d_control s' = d_control s;
  fr_keep : incl (d_streams s) (d_streams s');
  fr_chan : (length (d_chan s') <= length (d_chan s))%nat;
}.

Lemma frame_of_eq s s' :
  d_max_streams s' = d_max_streams s -> d_connecting s' = d_connecting s ->
  d_control s' = d_control s -> d_streams s' = d_streams s ->
  (length (d_chan s') <= length (d_chan s))%nat -> frame s s'.
Proof. intros A B C D E. constructor; auto. rewrite D. apply incl_refl. Qed.

Lemma frame_refl s : frame s s.
Proof. constructor; auto using incl_refl. Qed.

Lemma frame_trans a b c : frame a b -> frame b c -> frame a c.
Proof.
  intros [A1 A2 A3 A4 A5] [B1 B2 B3 B4 B5]. constructor; try congruence; [eapply incl_tran; eauto|lia].
Qed.

(* ------------------------------------------------------------------ the two loops, once *)
Lemma match_syn_syns s y a s' r e : match_syn_with_accept s y a = (s', r, e) -> d_syns s' = d_syns s.
Proof.
  unfold match_syn_with_accept. destruct (streams_full s); [intro H; injection H as <- _ _; reflexivity|].
  destruct (has_stream s _); [intro H; injection H as <- _ _; reflexivity|].
  destruct (next_random s) as [s1 x] eqn:Er. destruct (next_random_same _ _ _ Er) as (_ & _ & R3 & _).
  destruct (mem_z a _); intro H; injection H as <- _ _; dsimpl; exact R3.
Qed.

(* only a successful match reports anything *)
Lemma match_syn_events s y a s' r e : match_syn_with_accept s y a = (s', r, e) ->
  match r with MrMatched => exists k, e = [EvAccepted a k] | _ => e = [] end.
Proof.
  unfold match_syn_with_accept. destruct (streams_full s); [intro H; injection H as _ <- <-; reflexivity|].
  destruct (has_stream s _); [intro H; injection H as _ <- <-; reflexivity|].
  destruct (next_random s) as [s1 x]. destruct (mem_z a _); intro H; injection H as _ <- <-; [reflexivity|eauto].
Qed.

(* R s s' e: "from s the dispatcher may get to s' reporting e".  A relation that admits the
   steps the loops are made of - putting SYNs that satisfy Y into the backlog, restoring
   next_available_acceptor, try_next_acceptor, match_syn_with_accept on a SYN satisfying Y - *)
Definition kept_by_steps (R : dstate -> dstate -> list devent -> Prop) (Y : syn -> Prop) : Prop :=
  (forall s, R s s []) /\
  (forall a b c e1 e2, R a b e1 -> R b c e2 -> R a c (e1 ++ e2)) /\
  (forall s l, Forall Y l -> R s (upd_syns s l) []) /\
  (forall s na, R s (upd_acc s na (d_chan s)) []) /\
  (forall s s' oa, try_next_acceptor s = (s', oa) -> R s s' []) /\
  (forall s y a s' r e, Y y -> match_syn_with_accept s y a = (s', r, e) -> R s s' e).

(* - admits cleanup_accept_queue and on_syn; the backlog is only consumed from the front *)
Section LoopRule.
  Variable R : dstate -> dstate -> list devent -> Prop.
  Variable Y : syn -> Prop.
  Hypothesis HR : kept_by_steps R Y.

  Lemma R_refl s : R s s [].
  Proof. apply HR. Qed.
  Lemma R_trans a b c e1 e2 : R a b e1 -> R b c e2 -> R a c (e1 ++ e2).
  Proof. apply HR. Qed.
  Lemma R_then a b c e : R a b e -> R b c [] -> R a c e.
  Proof. intros H1 H2. rewrite <- (app_nil_r e). exact (R_trans _ _ _ _ _ H1 H2). Qed.
  Lemma R_syns s l : Forall Y l -> R s (upd_syns s l) [].
  Proof. apply HR. Qed.
  Lemma R_acc s na : R s (upd_acc s na (d_chan s)) [].
  Proof. apply HR. Qed.
  Lemma R_try s s' oa : try_next_acceptor s = (s', oa) -> R s s' [].
  Proof. apply HR. Qed.
  Lemma R_match s y a s' r e : Y y -> match_syn_with_accept s y a = (s', r, e) -> R s s' e.
  Proof. apply HR. Qed.

  Lemma cleanup_loop_rule : forall fuel s ev s' ev',
    Forall Y (d_syns s) -> cleanup_loop fuel s ev = (s', ev') ->
    exists evn n, ev' = ev ++ evn /\ R s s' evn /\ d_syns s' = skipn n (d_syns s) /\
                  (length evn <= n <= length (d_syns s))%nat.
  Proof.
    induction fuel as [|fuel IH]; intros s ev s' ev' HY; cbn [cleanup_loop].
    { intro H; injection H as <- <-. exists [], 0%nat. rewrite app_nil_r. cbn. auto using R_refl with arith. }
    destruct (d_syns s) as [|y rest] eqn:Es.
    { intro H; injection H as <- <-. exists [], 0%nat. rewrite app_nil_r, Es. cbn. auto using R_refl. }
    pose proof (Forall_inv HY) as Hy. pose proof (Forall_inv_tail HY) as Hrest.
    destruct (try_next_acceptor (upd_syns s rest)) as [s1 oa] eqn:Et.
    destruct (try_next_acceptor_spec _ _ _ Et) as (_ & _ & T3 & _). dsimpl.
    pose proof (R_trans _ _ _ _ _ (R_syns s rest Hrest) (R_try _ _ _ Et)) as R1. cbn [app] in R1.
    destruct oa as [a|].
    - destruct (match_syn_with_accept s1 y a) as [[s2 r] e] eqn:Em.
      pose proof (match_syn_syns _ _ _ _ _ _ Em) as M2. rewrite T3 in M2.
      pose proof (match_syn_events _ _ _ _ _ _ Em) as He.
      pose proof (R_trans _ _ _ _ _ R1 (R_match _ _ _ _ _ _ Hy Em)) as R2. cbn [app] in R2.
      assert (Hback : Forall Y (y :: d_syns s2)) by (rewrite M2; exact HY).
      pose proof (Forall_inv_tail Hback) as Hrest2.
      destruct r; intro H.
      + (* served: the SYN is consumed *)
        destruct (IH _ _ _ _ Hrest2 H) as (evn & n & -> & R3 & Hs & Hn). destruct He as [k ->].
        exists (EvAccepted a k :: evn), (S n). split; [rewrite <- app_assoc; reflexivity|]. split; [exact (R_trans _ _ _ _ _ R2 R3)|].
        rewrite Hs, M2 in *. cbn [length]. split; [reflexivity|lia].
      + (* full: both are put back and the loop stops *)
        subst e. injection H as <- <-. exists [], 0%nat. rewrite app_nil_r. split; [reflexivity|]. split.
        * exact (R_then _ _ _ _ R2 (R_trans _ _ _ _ _ (R_syns s2 _ Hback) (R_acc _ _))).
        * dsimpl. rewrite M2. cbn. split; [reflexivity|lia].
      + (* the SYN clashes with an existing stream: it is dropped, the acceptor is kept *)
        subst e. destruct (IH (upd_acc s2 (Some a) (d_chan s2)) _ _ _ Hrest2 H) as (evn & n & -> & R3 & Hs & Hn).
        exists evn, (S n). split; [reflexivity|]. split; [exact (R_trans _ _ _ _ _ (R_then _ _ _ _ R2 (R_acc _ _)) R3)|].
        rewrite Hs. dsimpl. rewrite M2 in *. cbn [length]. split; [reflexivity|lia].
      + (* the acceptor is dead: it is dropped, the SYN is kept *)
        subst e. destruct (IH (upd_syns s2 (y :: d_syns s2)) _ _ _ Hback H) as (evn & n & -> & R3 & Hs & Hn).
        exists evn, n. split; [reflexivity|]. split; [exact (R_trans _ _ _ _ _ (R_then _ _ _ _ R2 (R_syns s2 _ Hback)) R3)|].
        rewrite Hs. dsimpl. rewrite M2 in *. auto.
    - intro H; injection H as <- <-. exists [], 0%nat. rewrite app_nil_r. split; [reflexivity|].
      assert (Hback : Forall Y (y :: d_syns s1)) by (rewrite T3; exact HY).
      split; [exact (R_then _ _ _ _ R1 (R_syns s1 _ Hback))|]. dsimpl. rewrite T3. cbn. split; [reflexivity|lia].
  Qed.

  Lemma cleanup_rule s s' e :
    Forall Y (d_syns s) -> cleanup_accept_queue s = (s', e) ->
    R s s' e /\ exists n, d_syns s' = skipn n (d_syns s) /\ (length e <= n <= length (d_syns s))%nat.
  Proof.
    unfold cleanup_accept_queue. destruct (streams_full s).
    - intros _ H; injection H as <- <-. split; [apply R_refl|exists 0%nat; cbn; split; [reflexivity|lia]].
    - intros HY H. destruct (cleanup_loop_rule _ _ _ _ _ HY H) as (evn & n & -> & A & B). eauto.
  Qed.

  Lemma on_syn_loop_rule : forall fuel s y s' done e,
    Y y -> on_syn_loop fuel s y = (s', done, e) -> R s s' e /\ d_syns s' = d_syns s.
  Proof.
    induction fuel as [|fuel IH]; intros s y s' done e Hy; cbn [on_syn_loop].
    { intro H; injection H as <- _ <-. auto using R_refl. }
    destruct (try_next_acceptor s) as [s1 oa] eqn:Et.
    destruct (try_next_acceptor_spec _ _ _ Et) as (_ & _ & T3 & _). pose proof (R_try _ _ _ Et) as R1.
    destruct oa as [a|]; [|intro H; injection H as <- _ <-; auto].
    destruct (match_syn_with_accept s1 y a) as [[s2 r] e2] eqn:Em.
    pose proof (match_syn_syns _ _ _ _ _ _ Em) as M2. pose proof (match_syn_events _ _ _ _ _ _ Em) as He.
    pose proof (R_trans _ _ _ _ _ R1 (R_match _ _ _ _ _ _ Hy Em)) as R2. cbn [app] in R2.
    destruct r; intro H.
    - injection H as <- _ <-. split; [exact R2|congruence].
    - subst e2. injection H as <- _ <-. split; [exact (R_then _ _ _ _ R2 (R_acc _ _))|dsimpl; congruence].
    - subst e2. injection H as <- _ <-. split; [exact (R_then _ _ _ _ R2 (R_acc _ _))|dsimpl; congruence].
    - subst e2. destruct (IH _ _ _ _ _ Hy H) as [R3 Hs]. split; [exact (R_trans _ _ _ _ _ R2 R3)|congruence].
  Qed.

  (* on_syn adds at most the reset that refuses the SYN *)
  Lemma on_syn_rule s y s' e :
    Y y -> Forall Y (d_syns s) -> on_syn s y = (s', e) ->
    exists e0, R s s' e0 /\ (e = e0 \/ e = e0 ++ [EvSentRst (sy_addr y) (sy_conn y) (sy_seq y)]).
  Proof.
    intros Hy HY. unfold on_syn.
    assert (Hl : forall s1 done e1,
      match d_syns s with [] => on_syn_loop (length (d_chan s) + 2) s y | _ :: _ => (s, false, []) end
        = (s1, done, e1) -> R s s1 e1 /\ d_syns s1 = d_syns s).
    { intros s1 done e1. destruct (d_syns s) eqn:Es.
      - intro H. destruct (on_syn_loop_rule _ _ _ _ _ _ Hy H) as [A B]. split; [exact A|congruence].
      - intro H; injection H as <- _ <-. auto using R_refl. }
    destruct (match d_syns s with [] => _ | _ :: _ => _ end) as [[s1 done] e1].
    destruct (Hl _ _ _ eq_refl) as [A B]. destruct done; [intro H; injection H as <- <-; eauto|].
    destruct (_ <? _); intro H; injection H as <- <-; [|eauto].
    exists e1. split; [|auto]. apply (R_then _ _ _ _ A). apply R_syns. rewrite B.
    apply Forall_app. split; [exact HY|constructor; [exact Hy|constructor]].
  Qed.
End LoopRule.

Lemma Forall_True {A} (l : list A) : Forall (fun _ => True) l.
Proof. apply Forall_forall. auto. Qed.

(* with no invariant at all: both loops report accepted connections only *)
Lemma accepted_kept : kept_by_steps (fun _ _ e => all_accepted e) (fun _ => True).
Proof.
  unfold kept_by_steps. split; [|split; [|split; [|split; [|split]]]]; try (intros; constructor).
  - intros a b c e1 e2 H1 H2. apply Forall_app. auto.
  - intros s y a s' r e _ Em. pose proof (match_syn_events _ _ _ _ _ _ Em) as He.
    destruct r; [destruct He as [k ->]; constructor; [exact I|constructor]|subst e; constructor..].
Qed.

Lemma cleanup_all_accepted s s' e : cleanup_accept_queue s = (s', e) -> all_accepted e.
Proof. intro H. exact (proj1 (cleanup_rule _ _ accepted_kept s s' e (Forall_True _) H)). Qed.

(* the table invariant, the events and the frame *)
Definition st_rel (s s' : dstate) (e : list devent) : Prop :=
  st_inv s -> st_inv s' /\ all_accepted e /\ frame s s'.

Lemma st_rel_kept : kept_by_steps st_rel (fun _ => True).
Proof.
  unfold kept_by_steps, st_rel. split; [|split; [|split; [|split; [|split]]]].
  - intros s Hst. split; [exact Hst|]. split; [constructor|apply frame_refl].
  - intros a b c e1 e2 H1 H2 Hst. destruct (H1 Hst) as (A1 & B1 & C1). destruct (H2 A1) as (A2 & B2 & C2).
    split; [exact A2|]. split; [apply Forall_app; auto|eapply frame_trans; eauto].
  - intros s l _ Hst. split; [exact Hst|]. split; [constructor|apply frame_of_eq; auto].
  - intros s na Hst. split; [exact Hst|]. split; [constructor|apply frame_of_eq; auto].
  - intros s s' oa Et Hst. destruct (try_next_acceptor_spec _ _ _ Et) as (T1 & T2 & T3 & T4 & T5 & T6 & T7 & T8).
    split; [unfold st_inv in *; rewrite T1, T2; exact Hst|]. split; [constructor|apply frame_of_eq; auto].
  - intros s y a s' r e _ Em Hst.
    destruct (match_syn_spec _ _ _ _ _ _ Hst Em) as (M0 & M1 & M2 & M3 & M4 & M5 & M6 & M7 & M8).
    split; [exact M0|]. split; [|constructor; auto; rewrite M3; lia].
    destruct r; [destruct M8 as (-> & _); constructor; [exact I|constructor]|destruct M8 as (-> & _); constructor..].
Qed.

Lemma cleanup_spec s s' e :
  st_inv s -> cleanup_accept_queue s = (s', e) ->
  st_inv s' /\ all_accepted e /\ frame s s' /\ (length (d_syns s') <= length (d_syns s))%nat.
Proof.
  intros Hst H. destruct (cleanup_rule _ _ st_rel_kept s s' e (Forall_True _) H) as [A (n & Hn & _)].
  destruct (A Hst) as (B & C & D). repeat (split; [assumption|]). rewrite Hn, skipn_length. lia.
Qed.

(* backlog: at most 32 cached SYNs; a SYN that cannot be served or cached gets exactly one RST;
   a SYN is served directly only when no older SYN is queued *)
Lemma on_syn_spec s y s' e :
  st_inv s -> Z.of_nat (length (d_syns s)) <= ACCEPT_QUEUE_MAX_SYNS -> on_syn s y = (s', e) ->
  st_inv s' /\ frame s s' /\ Z.of_nat (length (d_syns s')) <= ACCEPT_QUEUE_MAX_SYNS /\
  ((all_accepted e /\ (d_syns s' = d_syns s \/ d_syns s' = d_syns s ++ [y])) \/
   (exists e0, all_accepted e0 /\ e = e0 ++ [EvSentRst (sy_addr y) (sy_conn y) (sy_seq y)] /\
               d_syns s' = d_syns s /\ Z.of_nat (length (d_syns s)) = ACCEPT_QUEUE_MAX_SYNS)) /\
  (d_syns s <> [] -> d_streams s' = d_streams s /\ d_handed s' = d_handed s /\
                     (e = [] \/ e = [EvSentRst (sy_addr y) (sy_conn y) (sy_seq y)])).
Proof.
  intros Hst Hlen. unfold on_syn.
  assert (Hloop : exists s1 done e1,
     match d_syns s with [] => on_syn_loop (length (d_chan s) + 2) s y | _ :: _ => (s, false, []) end
       = (s1, done, e1) /\
     st_inv s1 /\ all_accepted e1 /\ frame s s1 /\ d_syns s1 = d_syns s /\
     (d_syns s <> [] -> s1 = s /\ done = false /\ e1 = [])).
  { destruct (d_syns s) as [|y0 r0] eqn:Es.
    - destruct (on_syn_loop _ s y) as [[s1 done] e1] eqn:El.
      destruct (on_syn_loop_rule _ _ st_rel_kept _ _ _ _ _ _ I El) as [A0 D]. destruct (A0 Hst) as (A & B & C).
      exists s1, done, e1. split; [reflexivity|]. split; [exact A|]. split; [exact B|]. split; [exact C|].
      split; [congruence|]. intro Hn. exfalso. apply Hn. reflexivity.
    - exists s, false, []. split; [reflexivity|]. split; [exact Hst|]. split; [constructor|].
      split; [apply frame_refl|]. split; [exact Es|]. intros _. auto. }
  destruct Hloop as (s1 & done & e1 & -> & A & B & C & D & E).
  destruct done.
  - intro H; injection H as <- <-. split; [exact A|]. split; [exact C|]. split; [rewrite D; exact Hlen|].
    split; [left; split; [exact B|left; exact D]|].
    intro Hne. destruct (E Hne) as (_ & Hd & _). discriminate.
  - destruct (Z.ltb_spec (Z.of_nat (length (d_syns s1))) ACCEPT_QUEUE_MAX_SYNS) as [Hlt|Hge];
    intro H; injection H as <- <-.
    + dsimpl. split; [unfold st_inv in *; dsimpl; exact A|].
      split; [destruct C; constructor; dsimpl; auto|].
      split; [rewrite app_length; cbn [length]; lia|].
      split; [left; split; [exact B|right; rewrite D; reflexivity]|].
      intro Hne. destruct (E Hne) as (-> & _ & ->). dsimpl. auto.
    + split; [exact A|]. split; [exact C|]. split; [rewrite D; exact Hlen|].
      split; [right; exists e1; repeat split; auto; rewrite D in Hge; lia|].
      intro Hne. destruct (E Hne) as (-> & _ & ->). auto.
Qed.

(* ------------------------------------------------------------------ connecting slots *)
Lemma slots_insert_length l c l' : slots_insert l c = Some l' -> length l' = length l.
Proof.
  revert l'; induction l as [|x r IH]; intros l'; cbn [slots_insert]; [discriminate|].
  destruct x.
  - destruct (slots_insert r c) eqn:E; [|discriminate]. intro H; injection H as <-.
    cbn [length]. f_equal. apply IH. reflexivity.
  - intro H; injection H as <-. reflexivity.
Qed.

Lemma slots_pop_length p l : forall c l', slots_pop p l = Some (c, l') -> length l' = length l.
Proof.
  induction l as [|x r IH]; intros c l'; cbn [slots_pop]; [discriminate|].
  destruct x as [x|].
  - destruct (p x); [intro H; injection H as _ <-; reflexivity|].
    destruct (slots_pop p r) as [[c0 r']|] eqn:E; [|discriminate].
    intro H; injection H as _ <-. cbn [length]. f_equal. eapply IH. reflexivity.
  - destruct (slots_pop p r) as [[c0 r']|] eqn:E; [|discriminate].
    intro H; injection H as _ <-. cbn [length]. f_equal. eapply IH. reflexivity.
Qed.

Definition conn_inv (l : list (Z * list (option connecting))) : Prop :=
  Forall (fun p => length (snd p) = MAX_CONNECTING_PER_ADDR) l.

Lemma get_slots_length s addr sl : conn_inv (d_connecting s) -> get_slots s addr = Some sl ->
  length sl = MAX_CONNECTING_PER_ADDR.
Proof.
  unfold get_slots, conn_inv. intros Hc. destruct (find _ _) as [p|] eqn:E; [|discriminate].
  intro H; injection H as <-. apply find_some in E. rewrite Forall_forall in Hc. apply Hc. tauto.
Qed.

Lemma set_slots_inv l addr sl :
  conn_inv l -> match sl with Some x => length x = MAX_CONNECTING_PER_ADDR | None => True end ->
  conn_inv (set_slots l addr sl).
Proof.
  unfold conn_inv, set_slots. intros Hc Hs.
  assert (Hf : Forall (fun p => length (snd p) = MAX_CONNECTING_PER_ADDR)
                      (filter (fun p => negb (fst p =? addr)) l)).
  { rewrite Forall_forall in *. intros p Hp. apply filter_In in Hp. apply Hc. tauto. }
  destruct sl; [apply Forall_app; split; [exact Hf|constructor; [exact Hs|constructor]]|exact Hf].
Qed.

(* ------------------------------------------------------------------ control messages *)
Lemma d_inv_same_tables s s' :
  d_inv s -> d_streams s' = d_streams s -> d_max_streams s' = d_max_streams s ->
  d_syns s' = d_syns s -> d_chan s' = d_chan s -> conn_inv (d_connecting s') -> d_inv s'.
Proof.
  intros (I1 & I2 & I3 & I4 & I5) A B C D E. unfold d_inv. rewrite A, B, C, D. repeat split; auto.
Qed.

Lemma on_control_spec s c send s' e :
  d_inv s -> on_control s c send = (s', e) ->
  d_inv s' /\ d_max_streams s' = d_max_streams s /\
  match c with
  | CtlShutdown k =>
      e = [] /\
      match find_stream s k with
      | Some en =>
          if se_alive en then s' = s      (* the key was re-used by a live connection: untouched *)
          else
            (* exactly this key is released, nothing else is touched *)
            keys (d_streams s') = filter (fun x => negb (skey_eqb x k)) (keys (d_streams s)) /\
            ~ In k (keys (d_streams s')) /\
            (forall en', In en' (d_streams s) -> se_key en' <> k -> In en' (d_streams s'))
      | None => s' = s
      end
  | _ => d_streams s' = d_streams s
  end.
Proof.
  intros Hinv. pose proof Hinv as (I1 & I2 & I3 & I4 & I5).
  destruct c as [addr token|addr token|k]; cbn [on_control].
  - destruct (streams_full s).
    { intro H; injection H as <- <-. split; [|split; reflexivity].
      apply (d_inv_same_tables s); dsimpl; auto. }
    set (cid := next_free_conn_id _ s addr (d_next_conn_id s)).
    destruct (next_random (upd_conn_id s cid)) as [s2 seq] eqn:Er.
    destruct (next_random_same _ _ _ Er) as (R1 & R2 & R3 & R4 & R5 & R6 & R7). dsimpl.
    assert (Hc2 : conn_inv (d_connecting s2)) by (rewrite R6; exact I5).
    destruct send.
    + set (sl := match get_slots s2 addr with Some x => x | None => empty_slots end).
      assert (Hl : length sl = MAX_CONNECTING_PER_ADDR).
      { unfold sl. destruct (get_slots s2 addr) eqn:Eg; [eapply get_slots_length; eauto|reflexivity]. }
      destruct (slots_insert sl _) as [sl'|] eqn:Ei; intro H; injection H as <- <-;
        (split; [|split; dsimpl; congruence]);
        apply (d_inv_same_tables s); dsimpl; try congruence.
      * apply (set_slots_inv (d_connecting s2) addr (Some sl') Hc2).
        rewrite (slots_insert_length _ _ _ Ei). exact Hl.
      * apply (set_slots_inv (d_connecting s2) addr (Some sl) Hc2). exact Hl.
    + intro H; injection H as <- <-. split; [|split; dsimpl; congruence].
      apply (d_inv_same_tables s); dsimpl; try congruence; auto.
    + intro H; injection H as <- <-. split; [|split; dsimpl; congruence].
      apply (d_inv_same_tables s); dsimpl; try congruence; auto.
  - destruct (get_slots s addr) as [sl|] eqn:Eg;
      [|intro H; injection H as <- <-; split; [exact Hinv|split; reflexivity]].
    pose proof (get_slots_length s addr sl I5 Eg) as Hl.
    destruct (slots_pop _ sl) as [[c0 sl']|] eqn:Ep; intro H; injection H as <- <-;
      [|split; [exact Hinv|split; reflexivity]].
    split; [|split; reflexivity].
    apply (d_inv_same_tables s); dsimpl; auto.
    apply (set_slots_inv (d_connecting s) addr (if slots_empty sl' then None else Some sl') I5).
    destruct (slots_empty sl'); [exact I|]. rewrite (slots_pop_length _ _ _ _ Ep). exact Hl.
  - destruct (find_stream s k) as [en|] eqn:Ef; [|intro H; injection H as <- <-; auto].
    destruct (se_alive en); intro H; injection H as <- <-; [auto|].
    unfold d_inv; dsimpl.
    split; [|split; [reflexivity|split; [reflexivity|]]].
    + repeat split; auto; [apply remove_stream_nodup; exact I1|].
      pose proof (remove_stream_length (d_streams s) k). lia.
    + split; [apply remove_stream_keys|]. split; [apply remove_stream_not_in|].
      intro en'. apply remove_stream_keeps_others.
Qed.

(* what a control message never touches *)
Lemma on_control_frame s c send s' e : on_control s c send = (s', e) ->
  d_syns s' = d_syns s /\ d_control s' = d_control s /\ d_handed s' = d_handed s /\
  d_dead_acceptors s' = d_dead_acceptors s /\ d_next_acc s' = d_next_acc s /\ d_chan s' = d_chan s.
Proof.
  unfold on_control. destruct c as [a0 t0|a0 t0|k1].
  - destruct (streams_full s); [intro H; injection H as <- _; repeat split|].
    destruct (next_random _) as [s2 q] eqn:Er.
    destruct (next_random_upd _ _ _ Er) as [->|[r0 ->]];
      (destruct send; [destruct (slots_insert _ _)| |]); intro H; injection H as <- _; repeat split.
  - destruct (get_slots s a0); [destruct (slots_pop _ _) as [[? ?]|]|]; intro H; injection H as <- _; repeat split.
  - destruct (find_stream s k1) as [en|]; [destruct (se_alive en)|]; intro H; injection H as <- _; repeat split.
Qed.

Lemma incl_keys l l' k : incl l l' -> In k (keys l) -> In k (keys l').
Proof.
  unfold keys. intros Hi Hk. apply in_map_iff in Hk. destruct Hk as (en & <- & Hen).
  apply in_map. apply Hi. exact Hen.
Qed.

(* ------------------------------------------------------------------ datagrams *)
Lemma on_maybe_connect_ack_spec s addr m s' e :
  d_inv s -> find_stream s {| k_addr := addr; k_conn := dm_conn m |} = None ->
  on_maybe_connect_ack s addr m = (s', e) ->
  d_inv s' /\ d_max_streams s' = d_max_streams s /\
  incl (d_streams s) (d_streams s') /\
  (forall k, In k (keys (d_streams s')) ->
     In k (keys (d_streams s)) \/ k = {| k_addr := addr; k_conn := dm_conn m |}) /\
  Forall (fun x => match x with EvConnected _ k => k = {| k_addr := addr; k_conn := dm_conn m |}
                              | EvDropped => True | _ => False end) e.
Proof.
  intros Hinv Hnone. pose proof Hinv as (I1 & I2 & I3 & I4 & I5). unfold on_maybe_connect_ack.
  set (k := {| k_addr := addr; k_conn := dm_conn m |}) in *.
  assert (Hkeep : d_inv s /\ d_max_streams s = d_max_streams s /\
     incl (d_streams s) (d_streams s) /\
     (forall k0, In k0 (keys (d_streams s)) -> In k0 (keys (d_streams s)) \/ k0 = k) /\
     Forall (fun x => match x with EvConnected _ k0 => k0 = k | EvDropped => True | _ => False end) [EvDropped]).
  { split; [exact Hinv|]. split; [reflexivity|]. split; [apply incl_refl|]. split; [auto|].
    constructor; [exact I|constructor]. }
  destruct (streams_full s) eqn:Ef; [intro H; injection H as <- <-; exact Hkeep|].
  destruct (get_slots s addr) as [sl|] eqn:Eg; [|intro H; injection H as <- <-; exact Hkeep].
  destruct (slots_pop _ sl) as [[c sl']|] eqn:Ep; [|intro H; injection H as <- <-; exact Hkeep].
  pose proof (get_slots_length s addr sl I5 Eg) as Hl.
  pose proof (find_none_not_in _ _ Hnone) as Hnotin. fold k in Hnotin.
  assert (Hconn : conn_inv (set_slots (d_connecting s) addr (if slots_empty sl' then None else Some sl'))).
  { apply set_slots_inv; [exact I5|]. destruct (slots_empty sl'); [exact I|].
    rewrite (slots_pop_length _ _ _ _ Ep). exact Hl. }
  unfold streams_full in Ef. apply Z.leb_gt in Ef.
  destruct (mem_z (cn_token c) _) eqn:Em; intro H; injection H as <- <-; dsimpl.
  - (* the requester is gone: the new entry is removed again *)
    pose proof (remove_inserted _ k (d_next_sid s) Hnotin) as Hrem.
    split; [apply (d_inv_same_tables s); dsimpl; auto|].
    rewrite Hrem. split; [reflexivity|]. split; [apply incl_refl|]. split; [auto|].
    constructor; [exact I|constructor].
  - split.
    { unfold d_inv; dsimpl. rewrite (insert_absent_keys _ _ _ Hnotin), (insert_absent _ _ _ Hnotin), app_length.
      cbn [length]. repeat split; auto; [apply NoDup_app_single; assumption|lia]. }
    split; [reflexivity|].
    rewrite (insert_absent_keys _ _ _ Hnotin), (insert_absent _ _ _ Hnotin).
    split; [apply incl_appl, incl_refl|].
    split; [intros k0 Hk0; apply in_app_or in Hk0; destruct Hk0 as [Hk0|[<-|[]]]; auto|].
    constructor; [reflexivity|constructor].
Qed.

(* what a SYN-ACK never touches, and all it can report *)
Lemma on_maybe_connect_ack_frame s addr m s' e : on_maybe_connect_ack s addr m = (s', e) ->
  d_syns s' = d_syns s /\ d_control s' = d_control s /\ d_handed s' = d_handed s /\
  d_dead_acceptors s' = d_dead_acceptors s /\ d_next_conn_id s' = d_next_conn_id s /\
  d_random s' = d_random s /\ (e = [EvDropped] \/ exists t k, e = [EvConnected t k]).
Proof.
  unfold on_maybe_connect_ack. destruct (streams_full s); [intro H; injection H as <- <-; repeat split; auto|].
  destruct (get_slots s addr); [|intro H; injection H as <- <-; repeat split; auto].
  destruct (slots_pop _ _) as [[c sl']|]; [|intro H; injection H as <- <-; repeat split; auto].
  destruct (mem_z _ _); intro H; injection H as <- <-; repeat split; eauto.
Qed.

(* demultiplexing: a datagram is forwarded only to the connection whose (peer address,
   connection id) it names, and only if that connection's inbox is alive; it never creates,
   replaces or removes any OTHER entry *)
Lemma on_recv_spec s addr m s' e :
  d_inv s -> on_recv s addr m = (s', e) ->
  d_inv s' /\ d_max_streams s' = d_max_streams s /\
  (forall k, In (EvForward k) e ->
     k = {| k_addr := addr; k_conn := dm_conn m |} /\
     exists en, find_stream s k = Some en /\ se_alive en = true /\ s' = s /\ e = [EvForward k]) /\
  (* entries with another key are untouched *)
  (forall k, k <> {| k_addr := addr; k_conn := dm_conn m |} ->
     In k (keys (d_streams s)) -> In k (keys (d_streams s'))) /\
  (* a live entry with this key is kept too *)
  (forall en, find_stream s {| k_addr := addr; k_conn := dm_conn m |} = Some en ->
     se_alive en = true -> s' = s).
Proof.
  intros Hinv. pose proof Hinv as (I1 & I2 & I3 & I4 & I5). unfold on_recv.
  set (k := {| k_addr := addr; k_conn := dm_conn m |}).
  destruct (find_stream s k) as [en|] eqn:Ef.
  - destruct (se_alive en) eqn:Ea; intro H; injection H as <- <-.
    + split; [exact Hinv|]. split; [reflexivity|]. split.
      { intros k0 [Hk0|[]]. injection Hk0 as <-. split; [reflexivity|]. exists en. auto. }
      split; [auto|]. intros; reflexivity.
    + split.
      { unfold d_inv; dsimpl. repeat split; auto; [apply remove_stream_nodup; exact I1|].
        pose proof (remove_stream_length (d_streams s) k). lia. }
      split; [reflexivity|]. split; [intros k0 [Hk0|[]]; discriminate|].
      split.
      { intros k0 Hne Hin. dsimpl. rewrite remove_stream_keys. apply filter_In. split; [exact Hin|].
        destruct (skey_eqb k0 k) eqn:E; [apply skey_eqb_eq in E; contradiction|reflexivity]. }
      intros en0 He0 Ha0. injection He0 as <-. congruence.
  - destruct (dm_type m) eqn:Et.
    1, 2, 4: intro H; injection H as <- <-; (split; [exact Hinv|]); (split; [reflexivity|]);
      (split; [intros k0 [Hk0|[]]; discriminate|]); (split; [auto|discriminate]).
    + intro H. destruct (on_maybe_connect_ack_spec _ _ _ _ _ Hinv Ef H) as (A & B & C & D & E).
      split; [exact A|]. split; [exact B|]. split.
      { intros k0 Hin. exfalso. rewrite Forall_forall in E. specialize (E _ Hin). exact E. }
      split; [intros; eapply incl_keys; eauto|discriminate].
    + intro H.
      assert (Hst : st_inv s) by (split; assumption).
      destruct (on_syn_spec _ _ _ _ Hst I3 H) as (A & B & C & D & _).
      destruct A as [A1 A2]. destruct B as [B1 B2 B3 B4 B5].
      split; [unfold d_inv; rewrite B1, B2; repeat split; auto; lia|].
      split; [exact B1|]. split.
      { intros k0 Hin. exfalso.
        destruct D as [[Hacc _]|(e0 & Hacc & -> & _)].
        - unfold all_accepted in Hacc. rewrite Forall_forall in Hacc. exact (Hacc _ Hin).
        - apply in_app_or in Hin. destruct Hin as [Hin|[Hin|[]]]; [|discriminate].
          unfold all_accepted in Hacc. rewrite Forall_forall in Hacc. exact (Hacc _ Hin). }
      split; [intros; eapply incl_keys; eauto|discriminate].
Qed.

(* which handler the events of a datagram come from *)
Lemma on_recv_cases s addr m s' e : on_recv s addr m = (s', e) ->
  let k := {| k_addr := addr; k_conn := dm_conn m |} in
  (e = [EvForward k] \/ e = [EvDropped]) \/
  (find_stream s k = None /\ dm_type m = ST_STATE /\ on_maybe_connect_ack s addr m = (s', e)) \/
  (find_stream s k = None /\ dm_type m = ST_SYN /\
   on_syn s {| sy_addr := addr; sy_conn := dm_conn m; sy_seq := dm_seq m |} = (s', e)).
Proof.
  unfold on_recv. destruct (find_stream s _) as [en|].
  - destruct (se_alive en); intro H; injection H as _ <-; auto.
  - destruct (dm_type m); try (intro H; injection H as _ <-; auto); intro H; auto.
Qed.

(* ------------------------------------------------------------------ every step keeps the invariant *)
Lemma push_acceptor_inv s id : d_inv s -> d_inv (push_acceptor s id).
Proof.
  intros (I1 & I2 & I3 & I4 & I5). unfold push_acceptor.
  destruct (Z.ltb_spec (Z.of_nat (length (d_chan s))) ACCEPT_QUEUE_MAX_ACCEPTORS); [|repeat split; auto].
  unfold d_inv; dsimpl. rewrite app_length. cbn [length]. repeat split; auto. lia.
Qed.

Lemma push_acceptors_inv : forall l s, d_inv s -> d_inv (fold_left push_acceptor l s).
Proof. induction l as [|x r IH]; intros s H; cbn [fold_left]; [exact H|]. apply IH. apply push_acceptor_inv. exact H. Qed.

Lemma kill_stream_keys l sid : keys (kill_stream l sid) = keys l.
Proof.
  unfold keys, kill_stream. rewrite map_map. apply map_ext. intro e. destruct (se_id e =? sid); reflexivity.
Qed.

Lemma kill_stream_in l sid en : In en l ->
  exists en', In en' (kill_stream l sid) /\ se_key en' = se_key en /\ se_id en' = se_id en.
Proof.
  intro Hin. eexists. split; [apply in_map; exact Hin|]. cbv beta. destruct (se_id en =? sid); auto.
Qed.

Lemma d_inv_upd_control s r : d_inv s -> d_inv (upd_control s r).
Proof. intro H. exact H. Qed.

(* ------------------------------------------------------------------ the structure of one step *)
(* the arm chosen by select!, after cleanup and the parked pushes *)
Definition arm_step (s2 : dstate) (a : arm) : dstate * list devent :=
  match a with
  | ArmAccept =>
      match d_next_acc s2, d_chan s2 with
      | None, x :: r => (upd_acc s2 (Some x) r, [])
      | _, _ => (s2, [])
      end
  | ArmControl send =>
      match d_control s2 with
      | [] => (s2, [])
      | c :: r => on_control (upd_control s2 r) c send
      end
  | ArmRecv addr None => (s2, [EvDropped])
  | ArmRecv addr (Some m) => on_recv s2 addr m
  end.

Lemma dstep_run_once_eq s pushes a :
  dstep s (DoRunOnce pushes a) =
  let '(s1, e1) := cleanup_accept_queue s in
  let '(s3, e3) := arm_step (fold_left push_acceptor pushes s1) a in (s3, e1 ++ e3).
Proof.
  cbn [dstep]. destruct (cleanup_accept_queue s) as [s1 e1]. unfold arm_step.
  destruct a as [|send|addr [m|]].
  - destruct (d_next_acc _); [rewrite app_nil_r; reflexivity|].
    destruct (d_chan _); rewrite app_nil_r; reflexivity.
  - destruct (d_control _) as [|c r]; [rewrite app_nil_r; reflexivity|].
    destruct (on_control _ c send); reflexivity.
  - destruct (on_recv _ addr m); reflexivity.
  - reflexivity.
Qed.

(* an arm either handles a control message, or a parsed datagram, or at most moves the oldest
   queued acceptor into next_available_acceptor *)
Lemma arm_step_cases s2 a s' e : arm_step s2 a = (s', e) ->
  ((e = [] \/ e = [EvDropped]) /\
   (s' = s2 \/ exists x r, d_chan s2 = x :: r /\ s' = upd_acc s2 (Some x) r)) \/
  (exists send c r, a = ArmControl send /\ d_control s2 = c :: r /\
                    on_control (upd_control s2 r) c send = (s', e)) \/
  (exists addr m, a = ArmRecv addr (Some m) /\ on_recv s2 addr m = (s', e)).
Proof.
  unfold arm_step. destruct a as [|send|addr [m|]].
  - destruct (d_next_acc s2); [intro H; injection H as <- <-; auto|].
    destruct (d_chan s2) as [|x r]; intro H; injection H as <- <-; [auto|].
    left. split; [auto|]. right. exists x, r. auto.
  - destruct (d_control s2) as [|c r]; [intro H; injection H as <- <-; auto|].
    intro H. right; left. exists send, c, r. auto.
  - intro H. right; right. eauto.
  - intro H; injection H as <- <-. auto.
Qed.

Lemma idle_event e x : e = [] \/ e = [EvDropped] -> In x e -> x = EvDropped.
Proof. intros [-> | ->] Hin; [destruct Hin|destruct Hin as [<-|[]]; reflexivity]. Qed.

(* pushing acceptors touches the channel only *)
Definition same_but_chan (s s' : dstate) : Prop :=
  d_streams s' = d_streams s /\ d_connecting s' = d_connecting s /\ d_syns s' = d_syns s /\
  d_next_acc s' = d_next_acc s /\ d_control s' = d_control s /\ d_next_conn_id s' = d_next_conn_id s /\
  d_max_streams s' = d_max_streams s /\ d_random s' = d_random s /\
  d_dead_acceptors s' = d_dead_acceptors s /\ d_handed s' = d_handed s /\ d_next_sid s' = d_next_sid s /\
  d_dead_connectors s' = d_dead_connectors s /\ d_results s' = d_results s.

Lemma push_acceptor_same s id : same_but_chan s (push_acceptor s id).
Proof. unfold push_acceptor, same_but_chan. destruct (_ <? _); dsimpl; repeat split. Qed.

Lemma push_acceptors_same : forall l s, same_but_chan s (fold_left push_acceptor l s).
Proof.
  induction l as [|x r IH]; intros s; cbn [fold_left]; [unfold same_but_chan; repeat split|].
  pose proof (push_acceptor_same s x) as H1. pose proof (IH (push_acceptor s x)) as H2.
  unfold same_but_chan in *. repeat split; intuition congruence.
Qed.

(* everything the later proofs need about the state the arm runs in *)
Lemma run_once_decomp s pushes a s' e :
  d_inv s -> dstep s (DoRunOnce pushes a) = (s', e) ->
  exists s1 e1 e3,
    cleanup_accept_queue s = (s1, e1) /\
    arm_step (fold_left push_acceptor pushes s1) a = (s', e3) /\ e = e1 ++ e3 /\
    d_inv s1 /\ all_accepted e1 /\ frame s s1 /\
    d_inv (fold_left push_acceptor pushes s1) /\ same_but_chan s1 (fold_left push_acceptor pushes s1).
Proof.
  intros Hinv H. rewrite dstep_run_once_eq in H.
  destruct (cleanup_accept_queue s) as [s1 e1] eqn:Ec.
  destruct (arm_step _ a) as [s3 e3] eqn:Ea. injection H as <- <-.
  pose proof Hinv as (I1 & I2 & I3 & I4 & I5).
  assert (Hst : st_inv s) by (split; assumption).
  destruct (cleanup_spec _ _ _ Hst Ec) as ([A1 A2] & Hacc & Hfr & C).
  pose proof Hfr as [B1 B2 B3 B4 B5].
  assert (Hinv1 : d_inv s1) by (unfold d_inv; rewrite B1, B2; repeat split; auto; lia).
  exists s1, e1, e3.
  split; [reflexivity|]. split; [exact Ea|]. split; [reflexivity|]. split; [exact Hinv1|].
  split; [exact Hacc|]. split; [exact Hfr|].
  split; [apply push_acceptors_inv; exact Hinv1|apply push_acceptors_same].
Qed.

Lemma dop_cases o : (exists pushes a, o = DoRunOnce pushes a) \/ (forall pushes a, o <> DoRunOnce pushes a).
Proof. destruct o; [left; eauto|right; intros ? ? Heq; discriminate Heq..]. Qed.

(* the other tasks' steps emit nothing; they may queue an acceptor, kill a connection object
   (its entry stays), append to the control channel, and touch the far ends of the oneshots *)
Lemma other_step_frame s o s' e :
  (forall pushes a, o <> DoRunOnce pushes a) -> dstep s o = (s', e) ->
  e = [] /\ d_syns s' = d_syns s /\ d_connecting s' = d_connecting s /\
  d_max_streams s' = d_max_streams s /\ d_next_conn_id s' = d_next_conn_id s /\ d_random s' = d_random s /\
  (exists suf, d_control s' = d_control s ++ suf) /\
  (d_streams s' = d_streams s \/ exists sid, d_streams s' = kill_stream (d_streams s) sid) /\
  (d_chan s' = d_chan s \/ Z.of_nat (length (d_chan s')) <= ACCEPT_QUEUE_MAX_ACCEPTORS).
Proof.
  intros Hne H.
  assert (Hsame : forall l : list control, exists suf, l = l ++ suf)
    by (intro l; exists []; symmetry; apply app_nil_r).
  destruct o as [pushes a|id|id|id|addr token|addr token|addr token|k]; cbn [dstep] in H.
  - destruct (Hne pushes a eq_refl).
  - injection H as <- <-. unfold push_acceptor.
    destruct (Z.ltb_spec (Z.of_nat (length (d_chan s))) ACCEPT_QUEUE_MAX_ACCEPTORS); dsimpl; repeat split; auto.
    right. rewrite app_length. cbn [length]. lia.
  - destruct (find _ (d_handed s)) as [[x [k sid]]|]; injection H as <- <-; dsimpl; repeat split; eauto.
  - injection H as <- <-. dsimpl. repeat split; auto.
  - injection H as <- <-. dsimpl. repeat split; eauto.
  - injection H as <- <-. dsimpl. repeat split; eauto.
  - injection H as <- <-. destruct (existsb _ _); dsimpl; repeat split; eauto.
  - injection H as <- <-. dsimpl. repeat split; eauto.
Qed.

(* ------------------------------------------------------------------ every step keeps the invariant *)
Lemma arm_step_inv s2 a s' e : d_inv s2 -> arm_step s2 a = (s', e) -> d_inv s' /\ d_max_streams s' = d_max_streams s2.
Proof.
  intros Hinv H.
  destruct (arm_step_cases _ _ _ _ H) as [(_ & [->|(x & r & Hch & ->)])|[(send & c & r & _ & _ & Hoc)|(addr & m & _ & Hr)]].
  - auto.
  - split; [|reflexivity]. destruct Hinv as (J1 & J2 & J3 & J4 & J5). rewrite Hch in J4. cbn [length] in J4.
    unfold d_inv; dsimpl. repeat split; auto. lia.
  - destruct (on_control_spec _ _ _ _ _ (d_inv_upd_control s2 r Hinv) Hoc) as (A & B & _). auto.
  - destruct (on_recv_spec _ _ _ _ _ Hinv Hr) as (A & B & _). auto.
Qed.

Lemma dstep_inv s o s' e : d_inv s -> dstep s o = (s', e) -> d_inv s' /\ d_max_streams s' = d_max_streams s.
Proof.
  intros Hinv H. destruct (dop_cases o) as [(pushes & a & ->)|Hne].
  - destruct (run_once_decomp _ _ _ _ _ Hinv H) as (s1 & e1 & e3 & _ & Ea & _ & _ & _ & [B1 _ _ _ _] & Hinv2 & Hsame).
    destruct (arm_step_inv _ _ _ _ Hinv2 Ea) as [A B]. split; [exact A|].
    destruct Hsame as (_ & _ & _ & _ & _ & _ & P7 & _). congruence.
  - destruct (other_step_frame _ _ _ _ Hne H) as (_ & F1 & F2 & F3 & _ & _ & _ & Fs & Fc).
    split; [|exact F3]. destruct Hinv as (I1 & I2 & I3 & I4 & I5). unfold d_inv. rewrite F1, F2, F3.
    assert (Hk : keys (d_streams s') = keys (d_streams s) /\ length (d_streams s') = length (d_streams s)).
    { destruct Fs as [->|[sid ->]]; [auto|]. split; [apply kill_stream_keys|apply map_length]. }
    destruct Hk as [-> ->]. repeat split; auto. destruct Fc as [->|Hc]; assumption.
Qed.

Lemma new_inv max_streams random : d_inv (dstate_new max_streams random).
Proof.
  unfold dstate_new. destruct random as [|x r]; unfold d_inv, keys, ACCEPT_QUEUE_MAX_SYNS,
    ACCEPT_QUEUE_MAX_ACCEPTORS; dsimpl; cbn [map length];
  (split; [constructor|]); (split; [lia|]); (split; [lia|]); (split; [lia|constructor]).
Qed.

Lemma drun_inv : forall ops s, d_inv s -> d_inv (drun s ops) /\ d_max_streams (drun s ops) = d_max_streams s.
Proof.
  induction ops as [|o r IH]; intros s H; cbn [drun]; [auto|].
  destruct (dstep s o) as [s1 e] eqn:E. cbn [fst].
  destruct (dstep_inv _ _ _ _ H E) as [A B]. destruct (IH s1 A) as [C D]. split; [exact C|congruence].
Qed.

(* C12 limit + unique keys + C13 backlog bounds, for every reachable state *)
Lemma reachable_bounds max_streams random ops :
  let s := drun (dstate_new max_streams random) ops in
  NoDup (keys (d_streams s)) /\
  Z.of_nat (length (d_streams s)) <= Z.max 0 max_streams /\
  Z.of_nat (length (d_syns s)) <= 32 /\ Z.of_nat (length (d_chan s)) <= 32 /\
  Forall (fun p => length (snd p) = 4%nat) (d_connecting s).
Proof.
  cbv zeta. destruct (drun_inv ops _ (new_inv max_streams random)) as [(A & B & C & D & E) F].
  rewrite F in B. unfold dstate_new in B. destruct random; cbn [d_max_streams] in B; repeat split; auto.
Qed.

(* ------------------------------------------------------------------ a live connection is never evicted *)
Lemma on_recv_keeps_live s addr m s' e en :
  d_inv s -> on_recv s addr m = (s', e) -> In en (d_streams s) -> se_alive en = true -> In en (d_streams s').
Proof.
  intros Hinv H Hin Ha. pose proof Hinv as (I1 & I2 & I3 & I4 & I5). unfold on_recv in H.
  set (k := {| k_addr := addr; k_conn := dm_conn m |}) in *.
  destruct (find_stream s k) as [en0|] eqn:Ef.
  - destruct (se_alive en0) eqn:Ea0; injection H as <- _; [exact Hin|].
    exact (remove_dead_keeps_live s k en0 en I1 Ef Ea0 Hin Ha).
  - destruct (dm_type m); try (injection H as <- _; exact Hin).
    + destruct (on_maybe_connect_ack_spec _ _ _ _ _ Hinv Ef H) as (_ & _ & C & _). apply C. exact Hin.
    + assert (Hst : st_inv s) by (split; assumption).
      destruct (on_syn_spec _ _ _ _ Hst I3 H) as (_ & [_ _ _ B4 _] & _). apply B4. exact Hin.
Qed.

(* a Shutdown removes a dead entry only *)
Lemma on_control_keeps_live s c send s' e en :
  d_inv s -> on_control s c send = (s', e) -> In en (d_streams s) -> se_alive en = true -> In en (d_streams s').
Proof.
  intros Hinv H Hin Ha. destruct c as [a t|a t|k].
  1, 2: destruct (on_control_spec _ _ _ _ _ Hinv H) as (_ & _ & ->); exact Hin.
  cbn [on_control] in H. destruct (find_stream s k) as [en0|] eqn:Ef; [|injection H as <- _; exact Hin].
  destruct (se_alive en0) eqn:Ea0; injection H as <- _; [exact Hin|].
  exact (remove_dead_keeps_live s k en0 en (proj1 Hinv) Ef Ea0 Hin Ha).
Qed.

Lemma arm_step_keeps_live s2 a s' e en :
  d_inv s2 -> arm_step s2 a = (s', e) -> In en (d_streams s2) -> se_alive en = true -> In en (d_streams s').
Proof.
  intros Hinv H Hin Ha.
  destruct (arm_step_cases _ _ _ _ H) as [(_ & [->|(x & r & _ & ->)])|[(send & c & r & _ & _ & Hoc)|(addr & m & _ & Hr)]].
  - exact Hin.
  - exact Hin.
  - exact (on_control_keeps_live _ _ _ _ _ en (d_inv_upd_control s2 r Hinv) Hoc Hin Ha).
  - exact (on_recv_keeps_live _ _ _ _ _ en Hinv Hr Hin Ha).
Qed.

(* a run_once keeps every live entry as it is *)
Lemma run_once_keeps_live s pushes a s' e en :
  d_inv s -> dstep s (DoRunOnce pushes a) = (s', e) -> In en (d_streams s) -> se_alive en = true ->
  In en (d_streams s').
Proof.
  intros Hinv H Hin Ha.
  destruct (run_once_decomp _ _ _ _ _ Hinv H) as (s1 & e1 & e3 & _ & Ea & _ & _ & _ & [_ _ _ B4 _] & Hinv2 & P1 & _).
  apply (arm_step_keeps_live _ _ _ _ en Hinv2 Ea); [rewrite P1; apply B4; exact Hin|exact Ha].
Qed.

(* every step: a connection that is in the table and alive stays in the table (same object);
   the only thing that can happen to it is its own death (its acceptor dropped before pick-up) *)
Lemma live_never_evicted s o s' e en :
  d_inv s -> dstep s o = (s', e) -> In en (d_streams s) -> se_alive en = true ->
  exists en', In en' (d_streams s') /\ se_key en' = se_key en /\ se_id en' = se_id en.
Proof.
  intros Hinv H Hin Ha. destruct (dop_cases o) as [(pushes & a & ->)|Hne].
  - exists en. split; [exact (run_once_keeps_live _ _ _ _ _ en Hinv H Hin Ha)|auto].
  - destruct (other_step_frame _ _ _ _ Hne H) as (_ & _ & _ & _ & _ & _ & _ & [->|[sid ->]] & _).
    + exists en. auto.
    + apply kill_stream_in. exact Hin.
Qed.

(* ------------------------------------------------------------------ regression examples of the two repaired ordering defects *)
(* D11 (fixed in /repo 20e33c8): the Shutdown that a dead connection's drop guard enqueued is
   handled after the same (address, connection id) was re-used by a new connection *)
Definition d11_ops : list dop :=
  [ DoPushAcceptor 1;
    DoRunOnce [] (ArmRecv 5 (Some {| dm_type := ST_SYN; dm_conn := 50; dm_seq := 1000; dm_ack := 0 |}));
    DoDropAcceptor 1;                       (* connection object 0 dies; Shutdown (5,51) is enqueued *)
    DoRunOnce [] (ArmRecv 5 (Some {| dm_type := ST_DATA; dm_conn := 51; dm_seq := 1001; dm_ack := 0 |}));
                                            (* the peer still talks to it: dead entry removed, datagram dropped *)
    DoPushAcceptor 2;
    DoRunOnce [] (ArmRecv 5 (Some {| dm_type := ST_SYN; dm_conn := 50; dm_seq := 3000; dm_ack := 0 |}));
                                            (* the peer reconnects with the same id: a NEW connection (5,51) *)
    DoPickupAccept 2;
    DoRunOnce [] (ArmControl SynSent) ].    (* the old Shutdown (5,51) is handled now *)

Lemma late_shutdown_keeps_new_connection :
  let s_after := drun (dstate_new 128 [7; 100; 200]) d11_ops in
  exists en, find_stream s_after {| k_addr := 5; k_conn := 51 |} = Some en /\ se_alive en = true /\ se_id en = 1.
Proof. cbv zeta. vm_compute. eexists; repeat split. Qed.

(* D12 (fixed in /repo 205f51f): with a SYN cached (no acceptor was waiting), an accept() call and a
   NEW SYN both arrive while the dispatcher is parked in select! and the recv arm runs first *)
Definition d12_ops : list dop :=
  [ DoRunOnce [] (ArmRecv 5 (Some {| dm_type := ST_SYN; dm_conn := 50; dm_seq := 1000; dm_ack := 0 |}));
    DoRunOnce [1] (ArmRecv 6 (Some {| dm_type := ST_SYN; dm_conn := 60; dm_seq := 2000; dm_ack := 0 |}));
    DoRunOnce [] (ArmAccept) ].

Lemma new_syn_queues_behind_cached :
  let s1 := drun (dstate_new 128 [7; 100; 200]) (removelast d12_ops) in
  let s2 := drun (dstate_new 128 [7; 100; 200]) d12_ops in
  d_syns s1 = [{| sy_addr := 5; sy_conn := 50; sy_seq := 1000 |}; {| sy_addr := 6; sy_conn := 60; sy_seq := 2000 |}] /\
  d_handed s1 = [] /\
  (* the next run_once hands the acceptor to the OLDER request *)
  map fst (d_handed s2) = [1] /\ keys (d_streams s2) = [{| k_addr := 5; k_conn := 51 |}] /\
  d_syns s2 = [{| sy_addr := 6; sy_conn := 60; sy_seq := 2000 |}].
Proof. vm_compute. repeat split. Qed.

(* within one cleanup the order IS first-in first-out: the oldest cached SYN that can be served
   goes to the oldest live acceptor *)
Lemma cleanup_fifo_example :
  let s0 := drun (dstate_new 128 [7; 100; 200; 300])
              [ DoRunOnce [] (ArmRecv 5 (Some {| dm_type := ST_SYN; dm_conn := 50; dm_seq := 1; dm_ack := 0 |}));
                DoRunOnce [] (ArmRecv 6 (Some {| dm_type := ST_SYN; dm_conn := 60; dm_seq := 2; dm_ack := 0 |}));
                DoPushAcceptor 1; DoPushAcceptor 2;
                DoRunOnce [] (ArmControl SynSent) ] in
  d_handed s0 = [(1, ({| k_addr := 5; k_conn := 51 |}, 0)); (2, ({| k_addr := 6; k_conn := 61 |}, 1))] /\ d_syns s0 = [].
Proof. vm_compute. repeat split. Qed.

(* cleanup serves the queue strictly from the front: what remains is a suffix of the queue,
   so requests are handed to accept calls in arrival order *)
Lemma cleanup_front s s' e : cleanup_accept_queue s = (s', e) ->
  exists n, (n <= length (d_syns s))%nat /\ d_syns s' = skipn n (d_syns s).
Proof.
  intro H. destruct (cleanup_rule _ _ accepted_kept s s' e (Forall_True _) H) as (_ & n & A & _ & B). eauto.
Qed.

Lemma cleanup_serves_from_front s s' e :
  cleanup_accept_queue s = (s', e) -> exists n, d_syns s' = skipn n (d_syns s).
Proof. intro H. destruct (cleanup_front _ _ _ H) as (n & _ & A). eauto. Qed.
