(* C12 "connection ids in use between one address pair are unique", SYN side:
   the id get_next_free_conn_id returns is never the key of an existing stream entry.
   The Rust loop is unbounded; the model runs it with fuel = number of streams + 1.  The
   candidates cid, cid+2, cid+4, ... (mod 2^16) are pairwise distinct as long as there are at most
   32768 of them, so with a table of fewer than 32768 entries the fuel is never exhausted
   (pigeonhole) and the model loop is the Rust loop.  Proofs only. *)
From Utp Require Import Base.Prelude Wire.SeqNr Wire.Header Sock.Dispatcher Sock.Dispatcher_Proofs
  Sock.DispObs Sock.DispObs_Proofs.

(* ------------------------------------------------------------------ the candidates of the loop *)
(* the i-th connection id the loop looks at, starting from cid *)
Definition cand (cid : Z) (i : nat) : Z :=
  match i with O => cid | S _ => (cid + 2 * Z.of_nat i) mod M16 end.

Lemma cand_shift cid i : cand (wadd16 cid 2) i = cand cid (S i).
Proof.
  unfold cand, wadd16. destruct i as [|i].
  - f_equal; lia.
  - rewrite Zplus_mod_idemp_l. f_equal; lia.
Qed.

Lemma cand_inj cid i j : (i < j)%nat -> Z.of_nat j < 32768 -> cand cid i <> cand cid j.
Proof.
  intros Hij Hj. unfold cand, M16. destruct j as [|j]; [lia|]. destruct i as [|i]; lia.
Qed.

(* what the bounded loop returns: the first candidate that is not a key, or, when the fuel runs
   out, the candidate after the last one it looked at (unchecked) *)
Lemma next_free_spec : forall fuel s addr cid,
  exists j, (j <= fuel)%nat /\
    next_free_conn_id fuel s addr cid = cand cid j /\
    (forall i, (i < j)%nat -> has_stream s {| k_addr := addr; k_conn := cand cid i |} = true) /\
    ((j < fuel)%nat -> has_stream s {| k_addr := addr; k_conn := cand cid j |} = false).
Proof.
  induction fuel as [|fuel IH]; intros s addr cid; cbn [next_free_conn_id].
  - exists 0%nat. split; [lia|]. split; [reflexivity|]. split; intros; lia.
  - destruct (has_stream s {| k_addr := addr; k_conn := cid |}) eqn:Eh.
    + destruct (IH s addr (wadd16 cid 2)) as (j & Hj & Hr & Hall & Hstop).
      exists (S j). split; [lia|]. split; [rewrite Hr; apply cand_shift|]. split.
      * intros i Hi. destruct i as [|i]; [exact Eh|]. rewrite <- cand_shift. apply Hall. lia.
      * intro Hlt. rewrite <- cand_shift. apply Hstop. lia.
    + exists 0%nat. split; [lia|]. split; [reflexivity|]. split; [intros; lia|]. intros _. exact Eh.
Qed.

Lemma has_stream_in s k : has_stream s k = true -> In k (keys (d_streams s)).
Proof.
  unfold has_stream, find_stream. destruct (find _ _) as [en|] eqn:E; [|discriminate]. intros _.
  apply find_some in E. destruct E as [Hin Hk]. apply skey_eqb_eq in Hk. subst k.
  unfold keys. apply in_map. exact Hin.
Qed.

Lemma has_stream_false_not_in s k : has_stream s k = false -> ~ In k (keys (d_streams s)).
Proof.
  unfold has_stream, find_stream. destruct (find _ _) as [en|] eqn:E; [discriminate|]. intros _.
  apply find_none_not_in. exact E.
Qed.

Lemma not_in_has_stream_false s k : ~ In k (keys (d_streams s)) -> has_stream s k = false.
Proof.
  intro H. destruct (has_stream s k) eqn:E; [|reflexivity]. destruct (H (has_stream_in _ _ E)).
Qed.

Lemma NoDup_map_seq {A} (f : nat -> A) : forall m a,
  (forall i j, (a <= i)%nat -> (i < j)%nat -> (j < a + m)%nat -> f i <> f j) -> NoDup (map f (seq a m)).
Proof.
  induction m as [|m IH]; intros a Hinj; cbn [seq map]; [constructor|]. constructor.
  - intro Hin. apply in_map_iff in Hin. destruct Hin as (j & Hfj & Hj). apply in_seq in Hj.
    apply (Hinj a j); [lia|lia|lia|]. symmetry. exact Hfj.
  - apply IH. intros i j Hi Hij Hj. apply Hinj; lia.
Qed.

(* pigeonhole: a table of n entries with pairwise distinct keys cannot contain n+1 distinct candidates *)
Lemma candidates_not_all_keys s addr cid :
  NoDup (keys (d_streams s)) -> Z.of_nat (length (d_streams s)) < 32768 ->
  ~ (forall i, (i < S (length (d_streams s)))%nat ->
       has_stream s {| k_addr := addr; k_conn := cand cid i |} = true).
Proof.
  intros Hnd Hlen Hall.
  set (n := length (d_streams s)) in *.
  set (f := fun i => {| k_addr := addr; k_conn := cand cid i |}).
  assert (Hnd' : NoDup (map f (seq 0 (S n)))).
  { apply NoDup_map_seq. intros i j _ Hij Hj Heq. unfold f in Heq. injection Heq as Heq.
    apply (cand_inj cid i j); [exact Hij|lia|exact Heq]. }
  assert (Hincl : incl (map f (seq 0 (S n))) (keys (d_streams s))).
  { intros k Hk. apply in_map_iff in Hk. destruct Hk as (i & <- & Hi). apply in_seq in Hi.
    apply has_stream_in. apply Hall. lia. }
  pose proof (NoDup_incl_length Hnd' Hincl) as Hle.
  rewrite map_length, seq_length in Hle. unfold keys in Hle. rewrite map_length in Hle. fold n in Hle. lia.
Qed.

(* the fuel is never exhausted: the bounded loop returns an id that is not in use, i.e. it is
   the unbounded Rust loop *)
Lemma next_free_conn_id_fresh s addr cid :
  NoDup (keys (d_streams s)) -> Z.of_nat (length (d_streams s)) < 32768 ->
  has_stream s {| k_addr := addr;
                  k_conn := next_free_conn_id (S (length (d_streams s))) s addr cid |} = false.
Proof.
  intros Hnd Hlen.
  destruct (next_free_spec (S (length (d_streams s))) s addr cid) as (j & Hj & Hr & Hall & Hstop).
  rewrite Hr. destruct (Nat.eq_dec j (S (length (d_streams s)))) as [->|Hne].
  - exfalso. exact (candidates_not_all_keys s addr cid Hnd Hlen Hall).
  - apply Hstop. lia.
Qed.

(* all the ids it skipped are in use: it returns the FIRST free id at or after cid (step 2) *)
Lemma next_free_conn_id_first s addr cid :
  exists j, (j <= S (length (d_streams s)))%nat /\
    next_free_conn_id (S (length (d_streams s))) s addr cid = cand cid j /\
    forall i, (i < j)%nat -> has_stream s {| k_addr := addr; k_conn := cand cid i |} = true.
Proof.
  destruct (next_free_spec (S (length (d_streams s))) s addr cid) as (j & Hj & Hr & Hall & _).
  exists j. auto.
Qed.

(* ------------------------------------------------------------------ where SYNs come from *)
Lemma syn_keys_app a b : syn_keys (a ++ b) = syn_keys a ++ syn_keys b.
Proof. unfold syn_keys. apply flat_map_app. Qed.

Definition no_syn_event (x : devent) : Prop := match x with EvSentSyn _ _ _ => False | _ => True end.

Lemma syn_keys_nil e : Forall no_syn_event e -> syn_keys e = [].
Proof.
  induction 1 as [|x l Hx Hl IH]; [reflexivity|]. unfold syn_keys in *. cbn [flat_map]. rewrite IH.
  destruct x; try reflexivity. destruct Hx.
Qed.

Lemma all_accepted_no_syn e : all_accepted e -> Forall no_syn_event e.
Proof. unfold all_accepted. apply Forall_impl. intros x; destruct x; cbn; tauto. Qed.

Lemma on_recv_no_syn s addr m s' e : d_inv s -> on_recv s addr m = (s', e) -> Forall no_syn_event e.
Proof.
  intros Hinv H. apply Forall_forall. intros x Hx. pose proof (on_recv_events _ _ _ _ _ Hinv H x Hx) as Hy.
  destruct x; auto; exact I.
Qed.

(* a SYN is sent only by a connect request, below the limit, with the id the loop returned;
   the table is not touched *)
Lemma on_control_syn s c send s' e :
  on_control s c send = (s', e) ->
  forall a cid q, In (EvSentSyn a cid q) e ->
    d_streams s' = d_streams s /\
    streams_full s = false /\ send = SynSent /\ (exists token, c = CtlConnect a token) /\
    cid = next_free_conn_id (S (length (d_streams s))) s a (d_next_conn_id s).
Proof.
  unfold on_control. destruct c as [a0 t0|a0 t0|k1].
  - destruct (streams_full s) eqn:Ef.
    { intro H; injection H as <- <-. intros a cid q [Hx|[]]; discriminate. }
    set (cid0 := next_free_conn_id _ s a0 (d_next_conn_id s)).
    destruct (next_random (upd_conn_id s cid0)) as [s2 q0] eqn:Er.
    destruct (next_random_same _ _ _ Er) as (R1 & _). dsimpl.
    destruct send.
    + destruct (slots_insert _ _) as [sl'|]; intro H; injection H as <- <-; dsimpl;
        intros a cid q Hin; cbn [In] in Hin.
      * destruct Hin as [Hx|[]]. injection Hx as <- <- <-. repeat split; eauto.
      * destruct Hin as [Hx|[Hx|[]]]; [|discriminate]. injection Hx as <- <- <-. repeat split; eauto.
    + intro H; injection H as <- <-. intros a cid q [Hx|[]]; discriminate.
    + intro H; injection H as <- <-. intros a cid q [Hx|[]]; discriminate.
  - destruct (get_slots s a0); [destruct (slots_pop _ _) as [[? ?]|]|]; intro H; injection H as <- <-;
      intros a cid q [].
  - destruct (find_stream s k1) as [en|]; [destruct (se_alive en)|]; intro H; injection H as <- <-;
      intros a cid q [].
Qed.

(* ------------------------------------------------------------------ what cleanup / on_syn never touch *)
Definition keeps (s s' : dstate) : Prop :=
  d_next_conn_id s' = d_next_conn_id s /\ d_dead_connectors s' = d_dead_connectors s /\
  d_results s' = d_results s /\ d_dead_acceptors s' = d_dead_acceptors s /\
  d_connecting s' = d_connecting s /\ d_control s' = d_control s /\ d_max_streams s' = d_max_streams s.

Lemma keeps_refl s : keeps s s.
Proof. unfold keeps. repeat split. Qed.

Lemma keeps_trans a b c : keeps a b -> keeps b c -> keeps a c.
Proof. unfold keeps. intros H1 H2. repeat split; intuition congruence. Qed.

Lemma next_random_keeps s s' x : next_random s = (s', x) ->
  keeps s s' /\ d_handed s' = d_handed s /\ d_next_sid s' = d_next_sid s /\ d_streams s' = d_streams s.
Proof.
  unfold next_random, keeps. destruct (d_random s); intro H; injection H as <- _; dsimpl; repeat split.
Qed.

Lemma keeps_kept : kept_by_steps (fun s s' _ => keeps s s') (fun _ => True).
Proof.
  unfold kept_by_steps. split; [|split; [|split; [|split; [|split]]]].
  - exact keeps_refl.
  - intros a b c _ _. apply keeps_trans.
  - intros s l _. unfold keeps; dsimpl. repeat split.
  - intros s na. unfold keeps; dsimpl. repeat split.
  - intros s s' oa. unfold try_next_acceptor. destruct (d_next_acc s); [|destruct (d_chan s)];
      intro H; injection H as <- _; unfold keeps; dsimpl; repeat split.
  - intros s y a s' r e _. unfold match_syn_with_accept.
    destruct (streams_full s); [intro H; injection H as <- _ _; apply keeps_refl|].
    destruct (has_stream s _); [intro H; injection H as <- _ _; apply keeps_refl|].
    destruct (next_random s) as [s1 x] eqn:Er. destruct (next_random_keeps _ _ _ Er) as [K _].
    destruct (mem_z a _); intro H; injection H as <- _ _; [exact K|].
    unfold keeps in *; dsimpl. exact K.
Qed.

Lemma cleanup_keeps s s' e : cleanup_accept_queue s = (s', e) -> keeps s s'.
Proof. intro H. exact (proj1 (cleanup_rule _ _ keeps_kept s s' e (Forall_True _) H)). Qed.

Lemma on_syn_keeps s y s' e : on_syn s y = (s', e) -> keeps s s'.
Proof. intro H. destruct (on_syn_rule _ _ keeps_kept s y s' e I (Forall_True _) H) as (e0 & A & _). exact A. Qed.

(* ------------------------------------------------------------------ item 1: the id a SYN announces is free *)
(* every SYN a step sends: the state the connect request was handled in *)
Lemma dstep_syn s o s' e :
  d_inv s -> dstep s o = (s', e) ->
  forall a cid q, In (EvSentSyn a cid q) e ->
    exists s2,
      d_inv s2 /\ incl (d_streams s) (d_streams s2) /\ d_streams s' = d_streams s2 /\
      d_max_streams s2 = d_max_streams s /\ streams_full s2 = false /\
      d_next_conn_id s2 = d_next_conn_id s /\
      cid = next_free_conn_id (S (length (d_streams s2))) s2 a (d_next_conn_id s2).
Proof.
  intros Hinv H a cid q Hin.
  destruct (dop_cases o) as [(pushes & ar & ->)|Hne]; [|destruct (other_steps_quiet _ _ _ _ Hne H) as [-> _]; destruct Hin].
  destruct (run_once_decomp _ _ _ _ _ Hinv H) as (s1 & e1 & e3 & Ec & Ea & -> & Hinv1 & Hacc & Hfr & Hinv2 & Hsame).
  pose proof (cleanup_keeps _ _ _ Ec) as (K1 & _).
  destruct Hfr as [B1 B2 B3 B4 B5].
  destruct Hsame as (P1 & P2 & P3 & P4 & P5 & P6 & P7 & _).
  set (s2 := fold_left push_acceptor pushes s1) in *.
  apply in_app_or in Hin. destruct Hin as [Hin|Hin]; [destruct (all_accepted_only _ _ Hacc Hin)|].
  destruct (arm_step_cases _ _ _ _ Ea) as [(He & _)|[(send & c & r & _ & Hctl & Hoc)|(addr & m & _ & Hr)]].
  - discriminate (idle_event _ _ He Hin).
  - destruct (on_control_syn _ _ _ _ _ Hoc _ _ _ Hin) as (S1 & S2 & _ & _ & S5). dsimpl.
    exists (upd_control s2 r).
    split; [exact (d_inv_upd_control s2 r Hinv2)|].
    dsimpl. split; [rewrite P1; exact B4|]. split; [exact S1|]. split; [congruence|].
    split; [exact S2|]. split; [congruence|exact S5].
  - pose proof (on_recv_no_syn _ _ _ _ _ Hinv2 Hr) as Hn. rewrite Forall_forall in Hn. destruct (Hn _ Hin).
Qed.

(* the bound on the table that the pigeonhole argument needs: the configured limit *)
Definition conn_id_space_ok (max_streams : Z) : bool := max_streams <=? 32768.

Lemma not_full_bound s : streams_full s = false -> d_max_streams s <= 32768 ->
  Z.of_nat (length (d_streams s)) < 32768.
Proof. unfold streams_full. intros H Hm. apply Z.leb_gt in H. lia. Qed.

(* the id a SYN announces is not the key of an entry of the table, neither before nor after the step *)
Lemma syn_id_not_in_use s o s' e :
  d_inv s -> d_max_streams s <= 32768 -> dstep s o = (s', e) ->
  forall a cid q, In (EvSentSyn a cid q) e ->
    ~ In {| k_addr := a; k_conn := cid |} (keys (d_streams s)) /\
    ~ In {| k_addr := a; k_conn := cid |} (keys (d_streams s')).
Proof.
  intros Hinv Hmax H a cid q Hin.
  destruct (dstep_syn _ _ _ _ Hinv H _ _ _ Hin) as (s2 & Hinv2 & Hincl & Hs' & Hm2 & Hnf & _ & ->).
  destruct Hinv2 as (J1 & _).
  assert (Hb : Z.of_nat (length (d_streams s2)) < 32768) by (apply not_full_bound; [exact Hnf|lia]).
  pose proof (has_stream_false_not_in _ _ (next_free_conn_id_fresh s2 a (d_next_conn_id s2) J1 Hb)) as Hfree.
  split.
  - intro Hk. apply Hfree. eapply incl_keys; eauto.
  - unfold keys in *. rewrite Hs'. exact Hfree.
Qed.

Lemma in_syn_keys k e : In k (syn_keys e) -> exists q, In (EvSentSyn (k_addr k) (k_conn k) q) e.
Proof.
  unfold syn_keys. intro H. apply in_flat_map in H. destruct H as (x & Hx & Hk).
  destruct x; try contradiction. destruct Hk as [<-|[]]. cbn [k_addr k_conn]. eauto.
Qed.

Theorem c12_syn_fresh_model s o s' e :
  d_inv s -> conn_id_space_ok (d_max_streams s) = true -> dstep s o = (s', e) ->
  c12_syn_fresh_ok (dobs_of s) (syn_keys e) = true.
Proof.
  intros Hinv Hmax H. unfold conn_id_space_ok in Hmax. apply Z.leb_le in Hmax.
  unfold c12_syn_fresh_ok. apply forallb_forall. intros k Hk. apply negb_true_iff.
  destruct (existsb _ _) eqn:E; [|reflexivity]. exfalso.
  apply existsb_exists in E. destruct E as (p & Hp & Hpk). apply skey_eqb_eq in Hpk.
  destruct (in_syn_keys _ _ Hk) as [q Hq].
  destruct (syn_id_not_in_use _ _ _ _ Hinv Hmax H _ _ _ Hq) as [Hfree _].
  apply Hfree. rewrite <- keys_obs. destruct k as [ka kc]. cbn [k_addr k_conn]. rewrite <- Hpk.
  apply in_map. exact Hp.
Qed.

(* ---- trace level: a trace function that keeps the events ---- *)
Fixpoint dev_trace (s : dstate) (ops : list dop) : list (dstate * dop * list devent * dstate) :=
  match ops with
  | [] => []
  | o :: r => let '(s', e) := dstep s o in (s, o, e, s') :: dev_trace s' r
  end.

(* what the check evaluates c12_syn_fresh_ok on, step by step: the table before the step and the
   (address, connection id) of the SYNs the step sent *)
Definition dfresh_trace (s : dstate) (ops : list dop) : list (dobs * list skey) :=
  map (fun x => match x with (s0, _, e, _) => (dobs_of s0, syn_keys e) end) (dev_trace s ops).

(* it is the observation trace of DispObs_Proofs with the events kept *)
Lemma dev_trace_obs : forall ops s,
  map (fun x => match x with (s0, _, e, s1) => dstep_obs_of s0 e s1 end) (dev_trace s ops) = dobs_trace s ops.
Proof.
  induction ops as [|o r IH]; intros s; cbn [dev_trace dobs_trace map]; [reflexivity|].
  destruct (dstep s o) as [s1 e]. cbn [map]. rewrite IH. reflexivity.
Qed.

Lemma dev_trace_inv : forall ops s, d_inv s ->
  Forall (fun x => match x with (s0, o, e, s1) =>
            d_inv s0 /\ d_max_streams s0 = d_max_streams s /\ dstep s0 o = (s1, e) end) (dev_trace s ops).
Proof.
  induction ops as [|o r IH]; intros s Hinv; cbn [dev_trace]; [constructor|].
  destruct (dstep s o) as [s1 e] eqn:E. destruct (dstep_inv _ _ _ _ Hinv E) as [Hinv1 Hmax1].
  constructor; [auto|]. specialize (IH s1 Hinv1). revert IH. apply Forall_impl.
  intros [[[s0 o0] e0] s2] (A & B & C). split; [exact A|]. split; [congruence|exact C].
Qed.

Theorem c12_syn_fresh_trace max_streams : forall ops s,
  d_inv s -> d_max_streams s = max_streams -> conn_id_space_ok max_streams = true ->
  forallb (fun p => c12_syn_fresh_ok (fst p) (snd p)) (dfresh_trace s ops) = true.
Proof.
  intros ops s Hinv Hmax Hok. unfold dfresh_trace. apply forallb_forall. intros p Hp.
  apply in_map_iff in Hp. destruct Hp as ([[[s0 o0] e0] s1] & <- & Hin).
  pose proof (dev_trace_inv ops s Hinv) as Hall. rewrite Forall_forall in Hall.
  destruct (Hall _ Hin) as (A & B & C). cbn [fst snd].
  eapply c12_syn_fresh_model; eauto. rewrite B, Hmax. exact Hok.
Qed.

Theorem c12_syn_fresh_trace_new max_streams random ops :
  conn_id_space_ok max_streams = true ->
  forallb (fun p => c12_syn_fresh_ok (fst p) (snd p)) (dfresh_trace (dstate_new max_streams random) ops) = true.
Proof.
  intro Hok. apply (c12_syn_fresh_trace max_streams); [apply new_inv| |exact Hok].
  unfold dstate_new. destruct random; reflexivity.
Qed.

(* the hypothesis is satisfiable: the default configuration (128) is far below the bound *)
Example conn_id_space_ok_default : conn_id_space_ok 128 = true.
Proof. reflexivity. Qed.

(* ------------------------------------------------------------------ the bound is needed *)
(* Without it the fuel CAN run out: a table of 32768 entries to one address holding every even
   connection id (possible only with max_active_streams > 32768).  The model loop then returns
   an id that is in use (the Rust loop would not terminate).  The witness is described by a
   generator and handled by lemmas, not by computation. *)
Lemma in_keys_has_stream s k : In k (keys (d_streams s)) -> has_stream s k = true.
Proof.
  intro H. destruct (has_stream s k) eqn:E; [reflexivity|]. destruct (has_stream_false_not_in _ _ E H).
Qed.

Lemma cleanup_no_syns s : d_syns s = [] -> cleanup_accept_queue s = (s, []).
Proof.
  intro Hs. unfold cleanup_accept_queue. destruct (streams_full s); [reflexivity|].
  rewrite Hs. cbn [length Nat.add]. rewrite Nat.add_comm. cbn [Nat.add cleanup_loop]. rewrite Hs. reflexivity.
Qed.

Lemma on_control_connect_syn s addr token s' e :
  streams_full s = false -> on_control s (CtlConnect addr token) SynSent = (s', e) ->
  exists q rest,
    e = EvSentSyn addr (next_free_conn_id (S (length (d_streams s))) s addr (d_next_conn_id s)) q :: rest.
Proof.
  intros Hnf. unfold on_control. rewrite Hnf. destruct (next_random _) as [s2 q].
  destruct (slots_insert _ _); intro H; injection H as _ <-; eauto.
Qed.

(* the failure for ANY table that holds every even id of address 0 (32768 entries) *)
Lemma fresh_fails_when_all_even_taken s :
  d_inv s -> d_max_streams s = 32769 -> Z.of_nat (length (d_streams s)) = 32768 ->
  (forall c, 0 <= c < 32768 -> In {| k_addr := 0; k_conn := 2 * c |} (keys (d_streams s))) ->
  d_syns s = [] -> d_control s = [CtlConnect 0 0] -> d_next_conn_id s = 0 ->
  c12_syn_fresh_ok (dobs_of s) (syn_keys (snd (dstep s (DoRunOnce [] (ArmControl SynSent))))) = false.
Proof.
  intros Hinv Hmax Hlen Hall Hsyns Hctl Hnext.
  assert (Hcands : forall i, has_stream s {| k_addr := 0; k_conn := cand 0 i |} = true).
  { intro i. apply in_keys_has_stream. unfold cand. destruct i as [|i].
    - apply (Hall 0). lia.
    - replace ((0 + 2 * Z.of_nat (S i)) mod M16) with (2 * (Z.of_nat (S i) mod 32768)) by (unfold M16; lia).
      apply Hall. lia. }
  assert (Hnf : next_free_conn_id (S (length (d_streams s))) s 0 0 = 2).
  { destruct (next_free_spec (S (length (d_streams s))) s 0 0) as (j & Hj & Hr & _ & Hstop).
    rewrite Hr. destruct (Nat.eq_dec j (S (length (d_streams s)))) as [->|Hne].
    - unfold cand. rewrite Nat2Z.inj_succ, Hlen. reflexivity.
    - rewrite Hcands in Hstop. assert (Hlt : (j < S (length (d_streams s)))%nat) by lia.
      specialize (Hstop Hlt). discriminate. }
  assert (Hfull : streams_full s = false) by (unfold streams_full; rewrite Hmax, Hlen; reflexivity).
  rewrite dstep_run_once_eq, (cleanup_no_syns s Hsyns).
  cbn [fold_left arm_step]. rewrite Hctl.
  destruct (on_control (upd_control s []) (CtlConnect 0 0) SynSent) as [s3 e3] eqn:Eoc.
  destruct (on_control_connect_syn (upd_control s []) _ _ _ _ Hfull Eoc) as (q & rest & ->).
  cbn [d_streams d_next_conn_id upd_control]. rewrite Hnext.
  assert (Hnf' : next_free_conn_id (S (length (d_streams s))) (upd_control s []) 0 0 = 2).
  { rewrite <- Hnf. generalize (S (length (d_streams s))). intro fuel.
    generalize 0 at 2 4. induction fuel as [|fuel IH]; intro c; cbn [next_free_conn_id]; [reflexivity|].
    change (has_stream (upd_control s []) {| k_addr := 0; k_conn := c |})
      with (has_stream s {| k_addr := 0; k_conn := c |}).
    destruct (has_stream s _); [apply IH|reflexivity]. }
  rewrite Hnf'. cbn [snd app syn_keys flat_map]. unfold c12_syn_fresh_ok. cbn [forallb].
  apply andb_false_iff. left. apply negb_false_iff. apply existsb_exists.
  pose proof (Hall 1 ltac:(lia)) as Hin. unfold keys in Hin. apply in_map_iff in Hin.
  destruct Hin as (en & Hk & Hen). exists (se_key en, se_alive en). split.
  - unfold dobs_of; cbn [ob_streams]. apply in_map_iff. exists en. auto.
  - cbn [fst]. rewrite Hk. apply skey_eqb_refl.
Qed.

(* such a table, with max_active_streams = 32769 *)
Definition wit_n : nat := Z.to_nat 32768.
Definition wit_entry (i : nat) : sentry :=
  {| se_key := {| k_addr := 0; k_conn := 2 * Z.of_nat i |}; se_alive := true; se_id := Z.of_nat i |}.
Definition wit_streams : list sentry := map wit_entry (seq 0 wit_n).
Definition wit_state : dstate :=
  {| d_streams := wit_streams; d_connecting := []; d_syns := []; d_next_acc := None;
     d_chan := []; d_control := [CtlConnect 0 0]; d_next_conn_id := 0; d_max_streams := 32769;
     d_random := []; d_dead_acceptors := []; d_handed := []; d_next_sid := 32768;
     d_dead_connectors := []; d_results := [] |}.

Lemma wit_n_Z : Z.of_nat wit_n = 32768.
Proof. unfold wit_n. apply Z2Nat.id. lia. Qed.

Lemma wit_length : length wit_streams = wit_n.
Proof. unfold wit_streams. rewrite map_length, seq_length. reflexivity. Qed.

Lemma wit_keys c : 0 <= c < 32768 -> In {| k_addr := 0; k_conn := 2 * c |} (keys wit_streams).
Proof.
  intro Hc. unfold keys, wit_streams. rewrite map_map. apply in_map_iff.
  exists (Z.to_nat c). split.
  - cbn [wit_entry se_key]. rewrite Z2Nat.id by lia. reflexivity.
  - apply in_seq. pose proof wit_n_Z. lia.
Qed.

Lemma wit_nodup : NoDup (keys wit_streams).
Proof.
  unfold keys, wit_streams. rewrite map_map. apply NoDup_map_seq. intros i j _ Hij _ Heq.
  cbn [wit_entry se_key] in Heq. apply (f_equal k_conn) in Heq. cbn [k_conn] in Heq. lia.
Qed.

Lemma wit_inv : d_inv wit_state.
Proof.
  unfold d_inv. change (d_streams wit_state) with wit_streams.
  change (d_max_streams wit_state) with 32769. change (d_syns wit_state) with (@nil syn).
  change (d_chan wit_state) with (@nil Z). change (d_connecting wit_state) with (@nil (Z * list (option connecting))).
  rewrite wit_length, wit_n_Z. cbn [length]. unfold ACCEPT_QUEUE_MAX_SYNS, ACCEPT_QUEUE_MAX_ACCEPTORS.
  split; [exact wit_nodup|]. split; [lia|]. split; [lia|]. split; [lia|constructor].
Qed.

Theorem c12_syn_fresh_needs_bound :
  exists s o, d_inv s /\ d_max_streams s = 32769 /\
    c12_syn_fresh_ok (dobs_of s) (syn_keys (snd (dstep s o))) = false.
Proof.
  exists wit_state, (DoRunOnce [] (ArmControl SynSent)).
  split; [exact wit_inv|]. split; [reflexivity|].
  apply fresh_fails_when_all_even_taken.
  - exact wit_inv.
  - reflexivity.
  - change (d_streams wit_state) with wit_streams. rewrite wit_length. exact wit_n_Z.
  - exact wit_keys.
  - reflexivity.
  - reflexivity.
  - reflexivity.
Qed.
