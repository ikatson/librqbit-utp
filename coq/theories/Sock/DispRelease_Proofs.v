(* C13 "abandoned connect or accept calls release whatever they reserved, so later calls are
   not starved".  Connect side: the four per-address slots.  Accept side: dead acceptors in the
   queue.  Step-level statements for every state satisfying d_inv (hence every reachable one)
   and statements over all op lists.  Proofs only. *)
From Utp Require Import Base.Prelude Wire.SeqNr Wire.Header Sock.Dispatcher Sock.Dispatcher_Proofs
  Sock.DispObs Sock.DispObs_Proofs Sock.DispFresh_Proofs Sock.DispSlots_Proofs Sock.DispPending_Proofs
  Sock.DispWiring_Proofs Sock.DispC13_Pred.

(* ------------------------------------------------------------------ the control arm of run_once *)
(* the state the control message is handled in *)
Lemma run_ctl_decomp s pushes send c r s' e :
  d_inv s -> d_control s = c :: r -> dstep s (DoRunOnce pushes (ArmControl send)) = (s', e) ->
  exists s2 e1 e3,
    d_inv s2 /\ keeps_nc s s2 /\ d_control s2 = r /\ incl (d_streams s) (d_streams s2) /\
    all_accepted e1 /\ e = e1 ++ e3 /\ on_control s2 c send = (s', e3).
Proof.
  intros Hinv Hctl H.
  destruct (run_once_decomp _ _ _ _ _ Hinv H) as (s1 & e1 & e3 & Ec & Ea & -> & Hinv1 & Hacc & Hfr & Hinv2 & Hsame).
  pose proof (cleanup_keeps _ _ _ Ec) as K.
  destruct Hfr as [B1 B2 B3 B4 B5].
  destruct Hsame as (P1 & P2 & P3 & P4 & P5 & P6 & P7 & P8 & P9 & P10 & P11 & P12 & P13).
  set (s2 := fold_left push_acceptor pushes s1) in *.
  unfold arm_step in Ea. assert (Hc2 : d_control s2 = c :: r) by congruence. rewrite Hc2 in Ea.
  exists (upd_control s2 r), e1, e3.
  split; [apply (d_inv_same_tables s2); dsimpl; auto; apply Hinv2|].
  split; [unfold keeps, keeps_nc in *; dsimpl; intuition congruence|].
  dsimpl. split; [reflexivity|]. split; [rewrite P1; exact B4|]. auto.
Qed.

Lemma pending_same_connecting s s' a : d_connecting s' = d_connecting s -> pending s' a = pending s a.
Proof. intro H. unfold pending. rewrite (slots_of_same_connecting _ _ _ H). reflexivity. Qed.

Lemma all_accepted_no_err e : all_accepted e -> forall t, ~ In (EvConnectErr t) e.
Proof. unfold all_accepted. rewrite Forall_forall. intros H t Hin. exact (H _ Hin). Qed.

(* ------------------------------------------------------------------ connect: not starved *)
(* A connect request to an address with fewer than four pending connects is never refused for
   lack of a slot: either the table limit refuses it (TooManyActiveConnections), or the SYN goes
   out and the request holds a slot afterwards. *)
Theorem connect_not_starved s pushes addr token r s' e :
  d_inv s -> d_control s = CtlConnect addr token :: r ->
  (length (pending s addr) < 4)%nat ->
  dstep s (DoRunOnce pushes (ArmControl SynSent)) = (s', e) ->
  (In (EvConnectErr token) e /\ d_results s' = d_results s ++ [(token, CrTooMany)] /\
   forall a, pending s' a = pending s a) \/
  (no_connect_err e /\ d_results s' = d_results s /\
   exists cid q, In (EvSentSyn addr cid q) e /\
     In {| cn_token := token; cn_seq := q |} (pending s' addr) /\
     length (pending s' addr) = S (length (pending s addr)) /\
     forall a, a <> addr -> pending s' a = pending s a).
Proof.
  intros Hinv Hctl Hlt H.
  destruct (run_ctl_decomp _ _ _ _ _ _ _ Hinv Hctl H) as (s2 & e1 & e3 & Hinv2 & K & _ & _ & Hacc & -> & Hoc).
  destruct K as (_ & _ & K3 & K4 & _).
  pose proof (on_control_connect_spec _ _ _ _ _ _ Hinv2 Hoc) as Hspec. cbv zeta in Hspec.
  destruct Hspec as (_ & Hspec).
  destruct (streams_full s2).
  - left. destruct Hspec as (-> & R & C & _). split; [apply in_or_app; right; left; reflexivity|].
    split; [rewrite R, K4; reflexivity|]. intro a. rewrite <- (pending_same_connecting s s2 a K3).
    apply pending_same_connecting. exact C.
  - right. destruct Hspec as (Hoth & Hspec).
    rewrite (pending_same_connecting s s2 addr K3) in Hspec.
    destruct (Nat.ltb_spec (length (pending s addr)) 4) as [_|Hge]; [|lia].
    destruct Hspec as (-> & R & _ & l1 & l2 & E1 & E2 & _).
    split.
    { intros t Ht. apply in_app_or in Ht. destruct Ht as [Ht|[Ht|[]]]; [|discriminate].
      exact (all_accepted_no_err _ Hacc _ Ht). }
    split; [rewrite R, K4; reflexivity|].
    exists (next_free_conn_id (S (length (d_streams s2))) s2 addr (d_next_conn_id s2)), (peek_random s2).
    split; [apply in_or_app; right; left; reflexivity|].
    assert (Hp : pending s addr = somes l1 ++ somes l2).
    { unfold pending. rewrite <- (slots_of_same_connecting s s2 addr K3), E1, somes_app. reflexivity. }
    assert (Hp' : pending s' addr = somes l1 ++ {| cn_token := token; cn_seq := peek_random s2 |} :: somes l2).
    { unfold pending. rewrite E2, somes_app. reflexivity. }
    split; [rewrite Hp'; apply in_or_app; right; left; reflexivity|].
    split; [rewrite Hp, Hp', !app_length; cbn [length]; lia|].
    intros a Ha. unfold pending. rewrite (Hoth a Ha). apply (f_equal somes).
    apply slots_of_same_connecting. exact K3.
Qed.

(* conversely the slot limit is the only other reason: with four pending connects to the
   address the SYN still goes out but the requester is dropped (it sees DispatcherDead) *)
Theorem connect_refused_when_four_pending s pushes addr token r s' e :
  d_inv s -> d_control s = CtlConnect addr token :: r ->
  length (pending s addr) = 4%nat ->
  dstep s (DoRunOnce pushes (ArmControl SynSent)) = (s', e) ->
  In (EvConnectErr token) e /\ (forall a, pending s' a = pending s a) /\
  (d_results s' = d_results s ++ [(token, CrTooMany)] \/ d_results s' = d_results s ++ [(token, CrDead)]).
Proof.
  intros Hinv Hctl Hfour H.
  destruct (run_ctl_decomp _ _ _ _ _ _ _ Hinv Hctl H) as (s2 & e1 & e3 & Hinv2 & K & _ & _ & Hacc & -> & Hoc).
  destruct K as (_ & _ & K3 & K4 & _).
  pose proof (on_control_connect_spec _ _ _ _ _ _ Hinv2 Hoc) as Hspec. cbv zeta in Hspec.
  destruct Hspec as (_ & Hspec).
  destruct (streams_full s2).
  - destruct Hspec as (-> & R & C & _). split; [apply in_or_app; right; left; reflexivity|].
    split; [|left; rewrite R, K4; reflexivity].
    intro a. rewrite <- (pending_same_connecting s s2 a K3). apply pending_same_connecting. exact C.
  - destruct Hspec as (Hoth & Hspec).
    rewrite (pending_same_connecting s s2 addr K3), Hfour in Hspec. cbn [Nat.ltb Nat.leb] in Hspec.
    destruct Hspec as (-> & R & _ & Hsame).
    split; [apply in_or_app; right; right; left; reflexivity|].
    split; [|right; rewrite R, K4; reflexivity].
    intro a. unfold pending. destruct (Z.eq_dec a addr) as [->|Hne].
    + rewrite Hsame. apply (f_equal somes). apply slots_of_same_connecting. exact K3.
    + rewrite (Hoth a Hne). apply (f_equal somes). apply slots_of_same_connecting. exact K3.
Qed.

(* ------------------------------------------------------------------ an abandoned connect releases its slot *)
(* Handling ConnectDropped(addr, token): the first pending connect to addr with this token
   leaves; nothing else changes. *)
Theorem connect_dropped_frees_slot s pushes send addr token r s' e :
  d_inv s -> d_control s = CtlConnectDropped addr token :: r ->
  dstep s (DoRunOnce pushes (ArmControl send)) = (s', e) ->
  no_connect_err e /\ d_results s' = d_results s /\
  (forall a, a <> addr -> pending s' a = pending s a) /\
  ((pending s' addr = pending s addr /\ forall x, In x (pending s addr) -> cn_token x <> token) \/
   exists c m1 m2, pending s addr = m1 ++ c :: m2 /\ cn_token c = token /\
                   (forall x, In x m1 -> cn_token x <> token) /\ pending s' addr = m1 ++ m2).
Proof.
  intros Hinv Hctl H.
  destruct (run_ctl_decomp _ _ _ _ _ _ _ Hinv Hctl H) as (s2 & e1 & e3 & Hinv2 & K & _ & _ & Hacc & -> & Hoc).
  destruct K as (_ & _ & K3 & K4 & _).
  destruct (on_control_dropped_spec _ _ _ _ _ _ Hinv2 Hoc) as (-> & _ & R & _ & _ & Hoth & Hpop).
  rewrite app_nil_r. split; [intros t Ht; exact (all_accepted_no_err _ Hacc _ Ht)|].
  split; [congruence|]. split.
  { intros a Ha. unfold pending. rewrite (Hoth a Ha). apply (f_equal somes).
    apply slots_of_same_connecting. exact K3. }
  rewrite (slots_of_same_connecting s s2 addr K3) in Hpop.
  destruct (slots_pop _ (slots_of s addr)) as [[c sl']|] eqn:Ep.
  - right. destruct (slots_pop_somes _ _ _ _ Ep) as (m1 & m2 & Q1 & Q2 & Q3 & Q4 & _).
    exists c, m1, m2. split; [exact Q1|]. split; [apply Z.eqb_eq; exact Q3|].
    split; [intros x Hx; apply Z.eqb_neq; apply Q4; exact Hx|]. unfold pending. rewrite Hpop. exact Q2.
  - left. subst s'. split; [apply pending_same_connecting; exact K3|].
    intros x Hx. apply Z.eqb_neq. apply (proj1 (slots_pop_none _ _) Ep). exact Hx.
Qed.

(* so: once the ConnectDropped of a pending connect has been handled, a slot of that address is
   free and the next connect to it is not refused for lack of a slot *)
Corollary connect_after_drop_not_starved s pushes send addr token r s1 e1 pushes' token' r' s2 e2 :
  d_inv s -> d_control s = CtlConnectDropped addr token :: r ->
  (exists c, In c (pending s addr) /\ cn_token c = token) ->
  dstep s (DoRunOnce pushes (ArmControl send)) = (s1, e1) ->
  d_control s1 = CtlConnect addr token' :: r' ->
  dstep s1 (DoRunOnce pushes' (ArmControl SynSent)) = (s2, e2) ->
  d_results s2 = d_results s1 ++ [(token', CrTooMany)] \/
  (no_connect_err e2 /\ exists q, In {| cn_token := token'; cn_seq := q |} (pending s2 addr)).
Proof.
  intros Hinv Hctl (c & Hc & Ht) H1 Hctl1 H2.
  destruct (dstep_inv _ _ _ _ Hinv H1) as [Hinv1 _].
  destruct (connect_dropped_frees_slot _ _ _ _ _ _ _ _ Hinv Hctl H1) as (_ & _ & _ & Hd).
  assert (Hlt : (length (pending s1 addr) < 4)%nat).
  { pose proof (pending_le_4 s addr Hinv) as H4.
    destruct Hd as [[_ Hno]|(c0 & m1 & m2 & Q1 & _ & _ & Q2)]; [destruct (Hno c Hc Ht)|].
    rewrite Q1 in H4. rewrite Q2. rewrite app_length in *. cbn [length] in H4. lia. }
  destruct (connect_not_starved _ _ _ _ _ _ _ Hinv1 Hctl1 Hlt H2) as [(_ & R & _)|(A & _ & cid & q & _ & B & _)].
  - left. exact R.
  - right. split; [exact A|]. exists q. exact B.
Qed.

(* ------------------------------------------------------------------ the control channel is first-in first-out *)
Definition is_ctl_arm (o : dop) : bool :=
  match o with DoRunOnce _ (ArmControl _) => true | _ => false end.
Definition ctl_arms (ops : list dop) : nat := length (filter is_ctl_arm ops).

Lemma on_recv_control s addr m s' e : on_recv s addr m = (s', e) -> d_control s' = d_control s.
Proof.
  unfold on_recv. destruct (find_stream s _) as [en|].
  - destruct (se_alive en); intro H; injection H as <- _; reflexivity.
  - destruct (dm_type m); try (intro H; injection H as <- _; reflexivity).
    + intro H. apply (on_maybe_connect_ack_frame _ _ _ _ _ H).
    + intro H. apply (on_syn_keeps _ _ _ _ H).
Qed.

(* a step that is not the control arm only appends to the channel *)
Lemma dstep_control_other s o s' e :
  d_inv s -> is_ctl_arm o = false -> dstep s o = (s', e) -> exists suf, d_control s' = d_control s ++ suf.
Proof.
  intros Hinv Hno H. destruct (dop_cases o) as [(pushes & ar & ->)|Hne].
  2:{ destruct (other_step_frame _ _ _ _ Hne H) as (_ & _ & _ & _ & _ & _ & Hc & _). exact Hc. }
  exists []. rewrite app_nil_r.
  destruct (run_once_decomp _ _ _ _ _ Hinv H) as (s1 & e1 & e3 & Ec & Ea & -> & Hinv1 & Hacc & Hfr & Hinv2 & Hsm).
  destruct Hfr as [_ _ B3 _ _]. destruct Hsm as (_ & _ & _ & _ & P5 & _). rewrite <- B3, <- P5.
  destruct (arm_step_cases _ _ _ _ Ea) as [(_ & [->|(x & r & _ & ->)])|[(send & c & r & -> & _)|(addr & m & _ & Hr)]].
  - reflexivity.
  - reflexivity.
  - discriminate Hno.
  - exact (on_recv_control _ _ _ _ _ Hr).
Qed.

(* the control arm takes exactly the head *)
Lemma dstep_control_head s pushes send c r s' e :
  d_inv s -> d_control s = c :: r -> dstep s (DoRunOnce pushes (ArmControl send)) = (s', e) ->
  d_control s' = r.
Proof.
  intros Hinv Hctl H.
  destruct (run_ctl_decomp _ _ _ _ _ _ _ Hinv Hctl H) as (s2 & e1 & e3 & _ & _ & Hr & _ & _ & _ & Hoc).
  destruct (on_control_frame _ _ _ _ _ Hoc) as (_ & -> & _). exact Hr.
Qed.

(* FAIRNESS => SERVICE, over all op lists: the message at position n of the control channel is
   the head of the channel when the (n+1)-th control arm of the run fires, whatever else the
   dispatcher and the other tasks do in between *)
Theorem control_fifo : forall ops s n c,
  d_inv s -> nth_error (d_control s) n = Some c -> (n < ctl_arms ops)%nat ->
  exists pre pushes send post r,
    ops = pre ++ DoRunOnce pushes (ArmControl send) :: post /\ ctl_arms pre = n /\
    d_control (drun s pre) = c :: r.
Proof.
  induction ops as [|o rest IH]; intros s n c Hinv Hn Hlt; [cbn in Hlt; lia|].
  destruct (dstep s o) as [s1 e] eqn:E. destruct (dstep_inv _ _ _ _ Hinv E) as [Hinv1 _].
  destruct (is_ctl_arm o) eqn:Eo.
  - destruct o as [pushes [|send|addr om]|id|id|id|addr token|addr token|addr token|k1]; try discriminate Eo.
    destruct (d_control s) as [|c0 r0] eqn:Ectl; [destruct n; discriminate Hn|].
    destruct n as [|n'].
    + cbn [nth_error] in Hn. injection Hn as ->.
      exists [], pushes, send, rest, r0. split; [reflexivity|]. split; [reflexivity|]. exact Ectl.
    + cbn [nth_error] in Hn. pose proof (dstep_control_head _ _ _ _ _ _ _ Hinv Ectl E) as Hc1.
      unfold ctl_arms in Hlt. cbn [filter is_ctl_arm length] in Hlt.
      destruct (IH s1 n' c Hinv1 ltac:(rewrite Hc1; exact Hn) ltac:(unfold ctl_arms; lia))
        as (pre & pushes' & send' & post & r & -> & Hpre & Hd).
      exists (DoRunOnce pushes (ArmControl send) :: pre), pushes', send', post, r.
      split; [reflexivity|]. split; [unfold ctl_arms in *; cbn [filter is_ctl_arm length]; lia|].
      cbn [drun]. rewrite E. exact Hd.
  - destruct (dstep_control_other _ _ _ _ Hinv Eo E) as [suf Hsuf].
    assert (Hn1 : nth_error (d_control s1) n = Some c).
    { rewrite Hsuf, nth_error_app1; [exact Hn|]. apply nth_error_Some. congruence. }
    assert (Hlt1 : (n < ctl_arms rest)%nat) by (unfold ctl_arms in *; cbn [filter] in Hlt; rewrite Eo in Hlt; exact Hlt).
    destruct (IH s1 n c Hinv1 Hn1 Hlt1) as (pre & pushes' & send' & post & r & -> & Hpre & Hd).
    exists (o :: pre), pushes', send', post, r.
    split; [reflexivity|]. split; [unfold ctl_arms in *; cbn [filter]; rewrite Eo; exact Hpre|].
    cbn [drun]. rewrite E. exact Hd.
Qed.

(* an abandoned connect releases what it reserved, eventually: after connect()'s future is
   dropped, in EVERY continuation in which the control arm fires more often than there were
   messages queued before it, there is a step that handles its ConnectDropped, and that step
   removes the first pending connect with this token (if there still is one) *)
Theorem dropped_connect_eventually_released s addr token ops :
  d_inv s ->
  let s0 := fst (dstep s (DoDropConnect addr token)) in
  (length (d_control s) < ctl_arms ops)%nat ->
  exists pre pushes send post,
    ops = pre ++ DoRunOnce pushes (ArmControl send) :: post /\
    let sb := drun s0 pre in
    let sa := fst (dstep sb (DoRunOnce pushes (ArmControl send))) in
    (forall a, a <> addr -> pending sa a = pending sb a) /\
    ((pending sa addr = pending sb addr /\ forall x, In x (pending sb addr) -> cn_token x <> token) \/
     exists c m1 m2, pending sb addr = m1 ++ c :: m2 /\ cn_token c = token /\
                     (forall x, In x m1 -> cn_token x <> token) /\ pending sa addr = m1 ++ m2).
Proof.
  intros Hinv s0 Hlt.
  destruct (dstep s (DoDropConnect addr token)) as [s0' e0] eqn:E0. cbn [fst] in s0. subst s0.
  destruct (dstep_inv _ _ _ _ Hinv E0) as [Hinv0 _].
  assert (Hc0 : d_control s0' = d_control s ++ [CtlConnectDropped addr token]).
  { cbn [dstep] in E0. injection E0 as <- _. reflexivity. }
  assert (Hn : nth_error (d_control s0') (length (d_control s)) = Some (CtlConnectDropped addr token)).
  { rewrite Hc0, nth_error_app2 by lia. rewrite Nat.sub_diag. reflexivity. }
  destruct (control_fifo ops s0' _ _ Hinv0 Hn Hlt) as (pre & pushes & send & post & r & -> & _ & Hd).
  exists pre, pushes, send, post. split; [reflexivity|]. cbv zeta.
  destruct (drun_inv pre s0' Hinv0) as [Hinvb _].
  destruct (dstep (drun s0' pre) (DoRunOnce pushes (ArmControl send))) as [sa e] eqn:E. cbn [fst].
  destruct (connect_dropped_frees_slot _ _ _ _ _ _ _ _ Hinvb Hd E) as (_ & _ & A & B). auto.
Qed.

(* ------------------------------------------------------------------ accept side: dead acceptors *)
(* the acceptors waiting, oldest first: next_available_acceptor, then the channel *)
Definition accq (s : dstate) : list Z :=
  (match d_next_acc s with Some a => [a] | None => [] end) ++ d_chan s.

(* the fields that decide whether a SYN can be matched *)
Definition same_core (s s' : dstate) : Prop :=
  d_streams s' = d_streams s /\ d_max_streams s' = d_max_streams s /\
  d_dead_acceptors s' = d_dead_acceptors s /\ d_syns s' = d_syns s.

Lemma same_core_refl s : same_core s s.
Proof. unfold same_core. repeat split. Qed.
Lemma same_core_trans a b c : same_core a b -> same_core b c -> same_core a c.
Proof. unfold same_core. intros H1 H2. repeat split; intuition congruence. Qed.

Lemma same_core_full s s' : same_core s s' -> streams_full s' = streams_full s.
Proof. intros (A & B & _). unfold streams_full. rewrite A, B. reflexivity. Qed.
Lemma same_core_has s s' k : same_core s s' -> has_stream s' k = has_stream s k.
Proof. intros (A & _). unfold has_stream, find_stream. rewrite A. reflexivity. Qed.

Lemma try_next_accq s x q : accq s = x :: q ->
  exists s1, try_next_acceptor s = (s1, Some x) /\ accq s1 = q /\ same_core s s1.
Proof.
  unfold accq, try_next_acceptor. destruct (d_next_acc s) as [a|] eqn:En; cbn [app].
  - intro H; injection H as -> Hq. exists (upd_acc s None (d_chan s)). split; [reflexivity|].
    dsimpl. split; [exact Hq|]. unfold same_core; dsimpl. repeat split.
  - intro H. rewrite H. exists (upd_acc s None q). split; [reflexivity|]. dsimpl.
    split; [reflexivity|]. unfold same_core; dsimpl. repeat split.
Qed.

Lemma next_random_core s : same_core s (fst (next_random s)) /\ accq (fst (next_random s)) = accq s.
Proof.
  unfold next_random, same_core, accq. destruct (d_random s); cbn [fst]; dsimpl; repeat split.
Qed.

(* a dead acceptor is dropped and consumes no request *)
Lemma match_syn_dead s y a :
  streams_full s = false -> has_stream s (syn_key y) = false -> In a (d_dead_acceptors s) ->
  match_syn_with_accept s y a = (fst (next_random s), MrReceiverDead, []).
Proof.
  intros Hf Hh Hd. unfold match_syn_with_accept. fold (syn_key y). rewrite Hf, Hh.
  destruct (next_random s) as [s1 x] eqn:Er. cbn [fst].
  destruct (next_random_keeps _ _ _ Er) as ((_ & _ & _ & K4 & _) & _).
  rewrite (proj2 (mem_z_iff a (d_dead_acceptors s1))) by (rewrite K4; exact Hd). reflexivity.
Qed.

(* a live one gets the connection *)
Lemma match_syn_live s y a :
  streams_full s = false -> has_stream s (syn_key y) = false -> ~ In a (d_dead_acceptors s) ->
  exists s2, match_syn_with_accept s y a = (s2, MrMatched, [EvAccepted a (syn_key y)]) /\
             accq s2 = accq s /\ d_syns s2 = d_syns s.
Proof.
  intros Hf Hh Hd. unfold match_syn_with_accept. fold (syn_key y). rewrite Hf, Hh.
  destruct (next_random s) as [s1 x] eqn:Er.
  destruct (next_random_keeps _ _ _ Er) as ((_ & _ & _ & K4 & _) & _).
  destruct (next_random_same _ _ _ Er) as (_ & _ & R3 & R4 & R5 & _).
  rewrite (proj2 (mem_z_false a (d_dead_acceptors s1))) by (rewrite K4; exact Hd).
  eexists. split; [reflexivity|]. unfold accq; dsimpl. rewrite R4, R5. auto.
Qed.

(* what "a is the oldest live acceptor and SYN y can be served" means *)
Definition serve_cond (s : dstate) (y : syn) (dead : list Z) (a : Z) (rest : list Z) : Prop :=
  accq s = dead ++ a :: rest /\ (forall x, In x dead -> In x (d_dead_acceptors s)) /\
  ~ In a (d_dead_acceptors s) /\ streams_full s = false /\ has_stream s (syn_key y) = false.

Lemma serve_cond_core s s' y dead a rest q :
  serve_cond s y dead a rest -> same_core s s' -> accq s' = q -> forall dead', q = dead' ++ a :: rest ->
  (forall x, In x dead' -> In x dead) -> serve_cond s' y dead' a rest.
Proof.
  intros (C1 & C2 & C3 & C4 & C5) Hc Hq dead' -> Hsub. pose proof Hc as (_ & _ & D & _).
  unfold serve_cond. rewrite (same_core_full _ _ Hc), (same_core_has _ _ _ Hc), D. auto.
Qed.

(* one step of either loop over a dead acceptor at the head of the queue: it is dropped, and
   nothing that decides whether the SYN can be served changes *)
Lemma sweep_one s y x q :
  accq s = x :: q -> In x (d_dead_acceptors s) -> streams_full s = false -> has_stream s (syn_key y) = false ->
  exists s1 s2, try_next_acceptor s = (s1, Some x) /\ match_syn_with_accept s1 y x = (s2, MrReceiverDead, []) /\
                accq s2 = q /\ same_core s s2.
Proof.
  intros Hq Hx Hf Hh. destruct (try_next_accq _ _ _ Hq) as (s1 & Ht & Hq1 & Hcore).
  pose proof Hcore as (_ & _ & E3 & _).
  exists s1, (fst (next_random s1)). split; [exact Ht|]. split.
  - apply match_syn_dead; [rewrite (same_core_full _ _ Hcore); exact Hf|rewrite (same_core_has _ _ _ Hcore); exact Hh|
                           rewrite E3; exact Hx].
  - destruct (next_random_core s1) as [Hcore2 Hq2]. split; [congruence|eapply same_core_trans; eauto].
Qed.

(* on_syn: the SYN skips every dead acceptor ahead and goes to the oldest live one *)
Lemma on_syn_loop_serves y a rest : forall dead s fuel,
  serve_cond s y dead a rest -> (length dead < fuel)%nat ->
  exists s', on_syn_loop fuel s y = (s', true, [EvAccepted a (syn_key y)]) /\
             accq s' = rest /\ d_syns s' = d_syns s.
Proof.
  induction dead as [|x dead IH]; intros s fuel Hc Hfuel; (destruct fuel as [|fuel]; [cbn in Hfuel; lia|]);
    cbn [on_syn_loop]; pose proof Hc as (C1 & C2 & C3 & C4 & C5); cbn [app] in C1.
  - destruct (try_next_accq _ _ _ C1) as (s1 & -> & Hq & Hcore).
    assert (D4 : streams_full s1 = false) by (rewrite (same_core_full _ _ Hcore); exact C4).
    assert (D5 : has_stream s1 (syn_key y) = false) by (rewrite (same_core_has _ _ _ Hcore); exact C5).
    assert (D3 : ~ In a (d_dead_acceptors s1)) by (destruct Hcore as (_ & _ & -> & _); exact C3).
    destruct (match_syn_live s1 y a D4 D5 D3) as (s2 & -> & Hq2 & Hs2).
    exists s2. split; [reflexivity|]. destruct Hcore as (_ & _ & _ & Hs1). split; congruence.
  - destruct (sweep_one s y x _ C1 (C2 x (or_introl eq_refl)) C4 C5) as (s1 & s2 & -> & Hm & Hq & Hcore).
    rewrite Hm.
    assert (Hc' : serve_cond s2 y dead a rest)
      by (apply (serve_cond_core s s2 y (x :: dead) a rest _ Hc Hcore Hq dead eq_refl); intros z Hz; right; exact Hz).
    destruct (IH _ fuel Hc' ltac:(cbn in Hfuel; lia)) as (s' & -> & A & B).
    exists s'. split; [reflexivity|]. split; [exact A|]. destruct Hcore as (_ & _ & _ & G4). congruence.
Qed.

Lemma serve_cond_len s y dead a rest : serve_cond s y dead a rest -> (length dead <= length (d_chan s))%nat.
Proof.
  intros (C1 & _). assert (H : length (accq s) = (length dead + S (length rest))%nat)
    by (rewrite C1, app_length; reflexivity).
  unfold accq in H. rewrite app_length in H. destruct (d_next_acc s); cbn [length] in H; lia.
Qed.

Lemma on_syn_serves_live s y dead a rest :
  d_syns s = [] -> serve_cond s y dead a rest ->
  exists s', on_syn s y = (s', [EvAccepted a (syn_key y)]) /\ accq s' = rest /\ d_syns s' = [].
Proof.
  intros Hs Hc. unfold on_syn. rewrite Hs.
  pose proof (serve_cond_len _ _ _ _ _ Hc) as Hlen.
  destruct (on_syn_loop_serves y a rest dead s (length (d_chan s) + 2) Hc ltac:(lia)) as (s' & -> & A & B).
  exists s'. split; [reflexivity|]. split; [exact A|congruence].
Qed.

Lemma push_acceptors_accq : forall l s, exists ext, accq (fold_left push_acceptor l s) = accq s ++ ext.
Proof.
  induction l as [|x r IH]; intros s; cbn [fold_left]; [exists []; rewrite app_nil_r; reflexivity|].
  destruct (IH (push_acceptor s x)) as [ext Hext]. rewrite Hext.
  unfold push_acceptor, accq. destruct (_ <? _); dsimpl.
  - exists ([x] ++ ext). rewrite !app_assoc. reflexivity.
  - exists ext. reflexivity.
Qed.

(* A LIVE ACCEPTOR IS SERVED BY THE NEXT SYN WHEN NO OLDER LIVE ACCEPTOR EXISTS: nothing is
   cached, every acceptor ahead of a was abandoned, the table has room and the SYN's key is
   free.  The run_once that receives the SYN hands the connection to a; the abandoned acceptors
   ahead of it are gone from the queue and consumed no request. *)
Theorem live_acceptor_served_by_next_syn s pushes addr m dead a rest s' e :
  d_inv s -> d_syns s = [] -> dm_type m = ST_SYN ->
  find_stream s {| k_addr := addr; k_conn := dm_conn m |} = None ->
  serve_cond s (syn_of addr m) dead a rest ->
  dstep s (DoRunOnce pushes (ArmRecv addr (Some m))) = (s', e) ->
  e = [EvAccepted a (syn_key (syn_of addr m))] /\ d_syns s' = [] /\
  exists ext, accq s' = rest ++ ext.
Proof.
  intros Hinv Hs Ht Hfind Hc H.
  rewrite dstep_run_once_eq, (cleanup_no_syns s Hs) in H.
  set (s2 := fold_left push_acceptor pushes s) in *.
  destruct (push_acceptors_accq pushes s) as [ext Hext]. fold s2 in Hext.
  destruct (push_acceptors_same pushes s) as (P1 & _ & P3 & _ & _ & _ & P7 & _ & P9 & _). fold s2 in P1, P3, P7, P9.
  assert (Hcore : same_core s s2) by (unfold same_core; auto).
  pose proof Hc as (C1 & C2 & C3 & C4 & C5).
  assert (Hc2 : serve_cond s2 (syn_of addr m) dead a (rest ++ ext)).
  { unfold serve_cond. rewrite (same_core_full _ _ Hcore), (same_core_has _ _ _ Hcore), P9, Hext, C1.
    rewrite <- app_assoc. cbn [app]. auto. }
  cbn [arm_step] in H. unfold on_recv in H.
  assert (Hf2 : find_stream s2 {| k_addr := addr; k_conn := dm_conn m |} = None)
    by (unfold find_stream; rewrite P1; exact Hfind).
  rewrite Hf2, Ht in H. fold (syn_of addr m) in H.
  destruct (on_syn_serves_live s2 _ _ _ _ ltac:(congruence) Hc2) as (s3 & Hon & A & B).
  rewrite Hon in H. injection H as <- <-. cbn [app]. split; [reflexivity|]. split; [exact B|]. eauto.
Qed.

(* the same from the backlog: the oldest cached SYN goes to the oldest live acceptor at the next
   run_once, whatever arm fires *)
Lemma cleanup_loop_serves y ys a rest : forall dead s fuel ev0,
  d_syns s = y :: ys -> serve_cond s y dead a rest -> (length dead < fuel)%nat ->
  exists s' evn, cleanup_loop fuel s ev0 = (s', ev0 ++ EvAccepted a (syn_key y) :: evn).
Proof.
  induction dead as [|x dead IH]; intros s fuel ev0 Hs Hc Hfuel; (destruct fuel as [|fuel]; [cbn in Hfuel; lia|]);
    cbn [cleanup_loop]; rewrite Hs; pose proof Hc as (C1 & C2 & C3 & C4 & C5); cbn [app] in C1.
  - assert (Hq0 : accq (upd_syns s ys) = a :: rest) by exact C1.
    destruct (try_next_accq _ _ _ Hq0) as (s1 & -> & Hq & Hcore).
    destruct Hcore as (E1 & E2 & E3 & E4). dsimpl.
    assert (F1 : streams_full s1 = false) by (unfold streams_full in *; rewrite E1, E2; exact C4).
    assert (F2 : has_stream s1 (syn_key y) = false) by (unfold has_stream, find_stream in *; rewrite E1; exact C5).
    destruct (match_syn_live s1 y a F1 F2 ltac:(rewrite E3; exact C3)) as (s2 & -> & _ & _).
    destruct (cleanup_loop fuel s2 (ev0 ++ [EvAccepted a (syn_key y)])) as [s' ev'] eqn:El.
    destruct (cleanup_loop_rule _ _ accepted_kept _ _ _ _ _ (Forall_True _) El) as (evn & n & -> & _).
    exists s', evn. rewrite <- app_assoc. reflexivity.
  - destruct (sweep_one (upd_syns s ys) y x _ C1 (C2 x (or_introl eq_refl)) C4 C5) as (s1 & s2 & -> & Hm & Hq & Hcore).
    rewrite Hm.
    assert (Hcore3 : same_core s (upd_syns s2 (y :: d_syns s2)))
      by (destruct Hcore as (E1 & E2 & E3 & E4); unfold same_core; dsimpl; repeat split; congruence).
    assert (Hc3 : serve_cond (upd_syns s2 (y :: d_syns s2)) y dead a rest)
      by (apply (serve_cond_core s _ y (x :: dead) a rest _ Hc Hcore3 Hq dead eq_refl); intros z Hz; right; exact Hz).
    destruct (IH _ fuel ev0 ltac:(destruct Hcore3 as (_ & _ & _ & ->); exact Hs) Hc3 ltac:(cbn in Hfuel; lia))
      as (s' & evn & ->).
    exists s', evn. reflexivity.
Qed.

Theorem live_acceptor_served_from_backlog s pushes arm0 y ys dead a rest s' e :
  d_inv s -> d_syns s = y :: ys -> serve_cond s y dead a rest ->
  dstep s (DoRunOnce pushes arm0) = (s', e) ->
  exists ev, e = EvAccepted a (syn_key y) :: ev.
Proof.
  intros Hinv Hs Hc H. rewrite dstep_run_once_eq in H.
  pose proof Hc as (_ & _ & _ & C4 & _).
  pose proof (serve_cond_len _ _ _ _ _ Hc) as Hlen.
  unfold cleanup_accept_queue in H. rewrite C4 in H.
  destruct (cleanup_loop_serves y ys a rest dead s (length (d_syns s) + length (d_chan s) + 2) [] Hs Hc ltac:(lia))
    as (s1 & evn & Hcl).
  rewrite Hcl in H. destruct (arm_step _ arm0) as [s3 e3]. injection H as _ <-.
  cbn [app]. eauto.
Qed.

(* ---- only abandoned acceptors are waiting: the next SYN sweeps them all and is cached ---- *)
Lemma try_next_accq_nil s : accq s = [] -> try_next_acceptor s = (s, None).
Proof.
  unfold accq, try_next_acceptor. destruct (d_next_acc s); cbn [app]; [discriminate|].
  intros ->. reflexivity.
Qed.

Lemma on_syn_loop_all_dead y : forall dead s fuel,
  accq s = dead -> (forall x, In x dead -> In x (d_dead_acceptors s)) ->
  streams_full s = false -> has_stream s (syn_key y) = false -> (length dead <= fuel)%nat ->
  exists s', on_syn_loop fuel s y = (s', false, []) /\ accq s' = [] /\ same_core s s'.
Proof.
  induction dead as [|x dead IH]; intros s fuel Hq Hd Hf Hh Hfuel.
  - destruct fuel as [|fuel]; cbn [on_syn_loop].
    + exists s. auto using same_core_refl.
    + rewrite (try_next_accq_nil s Hq). exists s. auto using same_core_refl.
  - destruct fuel as [|fuel]; [cbn in Hfuel; lia|]. cbn [on_syn_loop].
    destruct (sweep_one s y x dead Hq (Hd x (or_introl eq_refl)) Hf Hh) as (s1 & s2 & -> & Hm & Hq2 & Hcore).
    rewrite Hm. destruct (IH s2 fuel Hq2) as (s' & -> & A & B).
    + intros z Hz. destruct Hcore as (_ & _ & -> & _). apply Hd. right; exact Hz.
    + rewrite (same_core_full _ _ Hcore). exact Hf.
    + rewrite (same_core_has _ _ _ Hcore). exact Hh.
    + cbn in Hfuel. lia.
    + exists s'. split; [reflexivity|]. split; [exact A|]. eapply same_core_trans; eauto.
Qed.

(* every waiting acceptor was abandoned: the SYN sweeps them all out of the queue in this one
   step, is itself cached for the next accept call, and nothing is refused *)
Theorem dead_acceptors_swept_by_next_syn s addr m s' e :
  d_inv s -> d_syns s = [] -> dm_type m = ST_SYN ->
  find_stream s {| k_addr := addr; k_conn := dm_conn m |} = None ->
  (forall x, In x (accq s) -> In x (d_dead_acceptors s)) ->
  streams_full s = false -> has_stream s (syn_key (syn_of addr m)) = false ->
  dstep s (DoRunOnce [] (ArmRecv addr (Some m))) = (s', e) ->
  e = [] /\ d_syns s' = [syn_of addr m] /\ accq s' = [] /\ d_streams s' = d_streams s.
Proof.
  intros Hinv Hs Ht Hfind Hd Hf Hh H.
  rewrite dstep_run_once_eq, (cleanup_no_syns s Hs) in H. cbn [fold_left arm_step] in H.
  unfold on_recv in H. rewrite Hfind, Ht in H. fold (syn_of addr m) in H.
  assert (Hlen : (length (accq s) <= length (d_chan s) + 2)%nat).
  { unfold accq. rewrite app_length. destruct (d_next_acc s); cbn [length]; lia. }
  destruct (on_syn_loop_all_dead (syn_of addr m) (accq s) s _ eq_refl Hd Hf Hh Hlen) as (s1 & Hl & A & B).
  unfold on_syn in H. rewrite Hs, Hl in H.
  destruct B as (B1 & B2 & B3 & B4). rewrite B4, Hs in H.
  cbn [length app] in H. change (Z.of_nat 0 <? ACCEPT_QUEUE_MAX_SYNS) with true in H.
  injection H as <- <-. dsimpl. unfold accq in *. dsimpl. auto.
Qed.

(* ---- the channel position of an abandoned accept call is released only by the sweep ---- *)
(* An abandoned accept call does NOT give its channel position back at once: it stays queued
   until the next SYN (or cached SYN) sweeps it.  32 accept calls are queued and abandoned; the
   33rd cannot enter the channel (in Rust: its `send().await` stays pending).  The next SYN
   sweeps all 32 in one run_once and is cached; the 33rd call then gets in and the following
   run_once serves it. *)
Definition full_dead_ops : list dop :=
  map DoPushAcceptor (map Z.of_nat (seq 1 32)) ++ map DoDropAcceptor (map Z.of_nat (seq 1 32)).
Definition a_syn : dmsg := {| dm_type := ST_SYN; dm_conn := 50; dm_seq := 1000; dm_ack := 0 |}.

Theorem dead_acceptor_position_held_until_sweep :
  let s1 := drun (dstate_new 128 [7; 100; 200]) full_dead_ops in
  let s2 := drun s1 [DoPushAcceptor 33] in
  let '(s3, e3) := dstep s2 (DoRunOnce [] (ArmRecv 5 (Some a_syn))) in
  let s4 := drun s3 [DoPushAcceptor 33] in
  let '(s5, e5) := dstep s4 (DoRunOnce [] ArmAccept) in
  length (d_chan s1) = 32%nat /\ d_chan s2 = d_chan s1 /\          (* refused: no room *)
  e3 = [] /\ d_chan s3 = [] /\ length (d_syns s3) = 1%nat /\       (* swept, SYN cached *)
  d_chan s4 = [33] /\                                              (* now it gets in *)
  e5 = [EvAccepted 33 {| k_addr := 5; k_conn := 51 |}].            (* and is served *)
Proof. vm_compute. repeat split. Qed.

(* ------------------------------------------------------------------ what a step does to the slots *)
Lemma psyns_app a b : psyns (a ++ b) = psyns a ++ psyns b.
Proof. unfold psyns. apply flat_map_app. Qed.

Lemma psyns_nil e : Forall no_syn_event e -> psyns e = [].
Proof.
  induction 1 as [|x l Hx Hl IH]; [reflexivity|]. unfold psyns in *. cbn [flat_map]. rewrite IH.
  destruct x; try reflexivity. destruct Hx.
Qed.

Lemma in_psyns a q e : In (a, q) (psyns e) -> exists cid, In (EvSentSyn a cid q) e.
Proof.
  unfold psyns. intro H. apply in_flat_map in H. destruct H as (x & Hx & Hk).
  destruct x; try contradiction. destruct Hk as [Hk|[]]. injection Hk as <- <-. eauto.
Qed.

Definition slots_same (s s' : dstate) : Prop := forall a, slots_of s' a = slots_of s a.

(* a step leaves all slots alone; or refuses a connect to an address with four pending; or fills
   one empty slot of one address (a granted connect); or frees one slot of one address *)
Inductive slots_effect (s : dstate) (o : dop) (e : list devent) (s' : dstate) : Prop :=
| SeSame : slots_same s s' -> psyns e = [] -> slots_effect s o e s'
| SeRefused addr q : slots_same s s' -> kind_of o = 2 -> psyns e = [(addr, q)] ->
    length (pending s addr) = 4%nat -> slots_effect s o e s'
| SeFilled addr l1 l2 c : kind_of o = 2 -> psyns e = [(addr, cn_seq c)] ->
    (forall a, a <> addr -> slots_of s' a = slots_of s a) ->
    slots_of s addr = l1 ++ None :: l2 -> slots_of s' addr = l1 ++ Some c :: l2 ->
    no_connect_err e -> slots_effect s o e s'
| SeFreed addr p c sl' : 2 <= kind_of o -> psyns e = [] ->
    (forall a, a <> addr -> slots_of s' a = slots_of s a) ->
    slots_pop p (slots_of s addr) = Some (c, sl') -> slots_of s' addr = sl' ->
    slots_effect s o e s'.

Lemma slots_effect_prefix s o e1 e3 s' :
  all_accepted e1 -> slots_effect s o e3 s' -> slots_effect s o (e1 ++ e3) s'.
Proof.
  intros H1 H.
  assert (He : psyns (e1 ++ e3) = psyns e3)
    by (rewrite psyns_app, (psyns_nil e1 (all_accepted_no_syn _ H1)); reflexivity).
  destruct H as [A B|addr q A B C D|addr l1 l2 c A B C D E F|addr p c sl' A B C D E].
  - apply SeSame; [exact A|rewrite He; exact B].
  - apply (SeRefused _ _ _ _ addr q); [exact A|exact B|rewrite He; exact C|exact D].
  - apply (SeFilled _ _ _ _ addr l1 l2 c); [exact A|rewrite He; exact B|exact C|exact D|exact E|].
    intros t Ht. apply in_app_or in Ht. destruct Ht as [Ht|Ht]; [exact (all_accepted_no_err _ H1 _ Ht)|exact (F t Ht)].
  - apply (SeFreed _ _ _ _ addr p c sl'); [exact A|rewrite He; exact B|exact C|exact D|exact E].
Qed.

Lemma dstep_slots_effect s o s' e : d_inv s -> dstep s o = (s', e) -> slots_effect s o e s'.
Proof.
  intros Hinv H.
  assert (Hsame : forall s0, d_connecting s0 = d_connecting s -> d_connecting s' = d_connecting s0 ->
            slots_same s s').
  { intros s0 H0 H1 a. apply slots_of_same_connecting. congruence. }
  destruct (dop_cases o) as [(pushes & ar & ->)|Hne].
  2:{ destruct (other_step_frame _ _ _ _ Hne H) as (-> & _ & Hc & _).
      apply SeSame; [exact (Hsame s eq_refl Hc)|reflexivity]. }
  destruct (run_once_decomp _ _ _ _ _ Hinv H) as (s1 & e1 & e3 & Ec & Ea & -> & Hinv1 & Hacc & Hfr & Hinv2 & Hsm).
  destruct Hfr as [_ B2 _ _ _]. destruct Hsm as (_ & P2 & _).
  set (s2 := fold_left push_acceptor pushes s1) in *.
  assert (Hc2 : d_connecting s2 = d_connecting s) by congruence.
  apply slots_effect_prefix; [exact Hacc|].
  destruct (arm_step_cases _ _ _ _ Ea) as [(He & Hs)|[(send & c & r & -> & _ & Hoc)|(addr & m & -> & Hr)]].
  - apply SeSame; [|destruct He as [-> | ->]; reflexivity].
    apply (Hsame s2 Hc2). destruct Hs as [->|(x & r & _ & ->)]; reflexivity.
  - pose proof (d_inv_upd_control s2 r Hinv2) as Hinv2'.
    assert (Hs2 : forall b, slots_of (upd_control s2 r) b = slots_of s b)
      by (intro b; apply slots_of_same_connecting; exact Hc2).
    assert (Hp2 : forall b, pending (upd_control s2 r) b = pending s b)
      by (intro b; apply pending_same_connecting; exact Hc2).
    destruct c as [a0 t0|a0 t0|k0].
    + pose proof (on_control_connect_spec _ _ _ _ _ _ Hinv2' Hoc) as Hspec. cbv zeta in Hspec.
      destruct Hspec as (_ & Hspec).
      destruct (streams_full (upd_control s2 r)).
      { destruct Hspec as (-> & _ & C & _). apply SeSame; [apply (Hsame (upd_control s2 r) Hc2 C)|reflexivity]. }
      destruct send;
        [|destruct Hspec as (-> & _ & C & _); apply SeSame; [apply (Hsame (upd_control s2 r) Hc2 C)|reflexivity]..].
      destruct Hspec as (Hoth & Hspec).
      rewrite Hp2 in Hspec. destruct (Nat.ltb_spec (length (pending s a0)) 4) as [Hlt|Hge].
      * destruct Hspec as (-> & _ & _ & l1 & l2 & E1 & E2 & _).
        eapply (SeFilled _ _ _ _ a0 l1 l2 {| cn_token := t0; cn_seq := peek_random (upd_control s2 r) |});
          [reflexivity|reflexivity| |rewrite <- Hs2; exact E1|exact E2|intros t [Hx|[]]; discriminate Hx].
        intros a Ha. rewrite (Hoth a Ha). apply Hs2.
      * destruct Hspec as (-> & _ & _ & E).
        eapply (SeRefused _ _ _ _ a0); [|reflexivity|reflexivity|].
        -- intro a. destruct (Z.eq_dec a a0) as [->|Hne]; [rewrite E|rewrite (Hoth a Hne)]; apply Hs2.
        -- pose proof (pending_le_4 s a0 Hinv). lia.
    + destruct (on_control_dropped_spec _ _ _ _ _ _ Hinv2' Hoc) as (-> & _ & _ & _ & _ & Hoth & Hpop).
      destruct (slots_pop _ (slots_of (upd_control s2 r) a0)) as [[c sl']|] eqn:Ep.
      * eapply (SeFreed _ _ _ _ a0 _ c sl'); [cbn [kind_of]; lia|reflexivity| | |exact Hpop].
        -- intros a Ha. rewrite (Hoth a Ha). apply Hs2.
        -- rewrite <- Hs2. exact Ep.
      * subst s'. apply SeSame; [exact Hs2|reflexivity].
    + cbn [on_control] in Hoc.
      assert (e3 = [] /\ d_connecting s' = d_connecting (upd_control s2 r)) as [-> Hc].
      { destruct (find_stream _ k0) as [en|]; [destruct (se_alive en)|]; injection Hoc as <- <-; auto. }
      apply SeSame; [apply (Hsame (upd_control s2 r) Hc2 Hc)|reflexivity].
  - pose proof (on_recv_no_syn _ _ _ _ _ Hinv2 Hr) as Hn. apply psyns_nil in Hn.
    unfold on_recv in Hr. destruct (find_stream s2 _) as [en|] eqn:Ef.
    { apply SeSame; [|exact Hn]. apply (Hsame s2 Hc2). destruct (se_alive en); injection Hr as <- _; reflexivity. }
    assert (Hs2 : forall b, slots_of s2 b = slots_of s b)
      by (intro b; apply slots_of_same_connecting; exact Hc2).
    destruct (dm_type m); try (apply SeSame; [|exact Hn]; apply (Hsame s2 Hc2); injection Hr as <- _; reflexivity).
    + pose proof (on_maybe_connect_ack_slots _ _ _ _ _ Hinv2 Ef Hr) as Hsl. cbv zeta in Hsl.
      destruct (streams_full s2); [destruct Hsl as [-> _]; apply SeSame; [exact Hs2|exact Hn]|].
      destruct (slots_pop _ (slots_of s2 addr)) as [[c sl']|] eqn:Ep;
        [|destruct Hsl as [-> _]; apply SeSame; [exact Hs2|exact Hn]].
      destruct Hsl as (S1 & Hoth & _).
      eapply (SeFreed _ _ _ _ addr _ c sl'); [cbn [kind_of]; lia|exact Hn| | |exact S1].
      * intros a Ha. rewrite (Hoth a Ha). apply Hs2.
      * rewrite <- Hs2. exact Ep.
    + apply SeSame; [|exact Hn]. apply (Hsame s2 Hc2). apply (on_syn_keeps _ _ _ _ Hr).
Qed.

(* ------------------------------------------------------------------ slots never leak *)
(* every step, every address: the number of pending connects grows only by a connect request
   that was granted a slot (and then by exactly one) *)
Theorem pending_grows_only_by_connect s o s' e a :
  d_inv s -> dstep s o = (s', e) ->
  (length (pending s' a) <= length (pending s a))%nat \/
  (no_connect_err e /\ length (pending s' a) = S (length (pending s a)) /\
   exists cid q, In (EvSentSyn a cid q) e).
Proof.
  intros Hinv H. unfold pending.
  destruct (dstep_slots_effect _ _ _ _ Hinv H)
    as [Hs _|addr q Hs _ _ _|addr l1 l2 c _ Hn Hoth E1 E2 Herr|addr p c sl' _ _ Hoth Ep E2].
  - left. rewrite (Hs a). lia.
  - left. rewrite (Hs a). lia.
  - destruct (Z.eq_dec a addr) as [->|Hne]; [|left; rewrite (Hoth a Hne); lia].
    right. split; [exact Herr|]. split.
    + rewrite E1, E2, !somes_app, !app_length. cbn [somes flat_map app length]. lia.
    + destruct (in_psyns addr (cn_seq c) e) as [cid Hc]; [rewrite Hn; left; reflexivity|eauto].
  - left. destruct (Z.eq_dec a addr) as [->|Hne]; [|rewrite (Hoth a Hne); lia].
    destruct (slots_pop_somes _ _ _ _ Ep) as (_ & _ & _ & _ & _ & _ & Q5). rewrite E2. lia.
Qed.

(* ------------------------------------------------------------------ every reachable state *)
Lemma reachable_inv max_streams random ops : d_inv (drun (dstate_new max_streams random) ops).
Proof. apply drun_inv. apply new_inv. Qed.

(* ------------------------------------------------------------------ the hypotheses are satisfiable *)
(* serve_cond on a reachable state: acceptor 1 queued and abandoned, acceptor 2 queued and alive *)
Example serve_cond_reachable :
  let s := drun (dstate_new 128 [7; 100; 200]) [DoPushAcceptor 1; DoPushAcceptor 2; DoDropAcceptor 1] in
  d_syns s = [] /\ find_stream s {| k_addr := 5; k_conn := dm_conn a_syn |} = None /\
  serve_cond s (syn_of 5 a_syn) [1] 2 [] /\
  snd (dstep s (DoRunOnce [] (ArmRecv 5 (Some a_syn)))) = [EvAccepted 2 {| k_addr := 5; k_conn := 51 |}].
Proof.
  cbv zeta. unfold serve_cond. vm_compute. repeat split; auto.
  intros [H|[]]. discriminate H.
Qed.

(* four pending connects to one address: the fifth is refused (its requester is dropped), the
   SYN still goes out; after one of the four is abandoned and its ConnectDropped handled, the
   next one gets the slot *)
Example four_pending_reachable :
  let cn t := [DoConnect 5 t; DoRunOnce [] (ArmControl SynSent)] in
  let s4 := drun (dstate_new 128 [7; 100; 200; 300; 400; 500; 600]) (cn 1 ++ cn 2 ++ cn 3 ++ cn 4) in
  let '(s5, e5) := dstep (drun s4 [DoConnect 5 5]) (DoRunOnce [] (ArmControl SynSent)) in
  let s6 := drun s5 [DoDropConnect 5 2; DoRunOnce [] (ArmControl SynSent)] in
  let '(s7, e7) := dstep (drun s6 [DoConnect 5 6]) (DoRunOnce [] (ArmControl SynSent)) in
  map cn_token (pending s4 5) = [1; 2; 3; 4] /\
  e5 = [EvSentSyn 5 15 500; EvConnectErr 5] /\ d_results s5 = [(5, CrDead)] /\
  map cn_token (pending s6 5) = [1; 3; 4] /\
  e7 = [EvSentSyn 5 15 600] /\ map cn_token (pending s7 5) = [1; 6; 3; 4].
Proof. vm_compute. repeat split. Qed.
