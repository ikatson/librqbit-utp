(* C12 "connection ids in use between one address pair are unique", the PENDING connects.
   The dispatcher does not record the id a pending connect announced (Rust `Connecting` and the
   model's `connecting` hold token and seq_nr only); uniqueness among pending connects rests on
   the counter next_connection_id alone, which only moves forward, in steps of 2, and by at most
   2 * max_active_streams per connect request.  What is true (window theorem), what is false
   (three `_refuted` witnesses), and what an outgoing connection's key really is.  Proofs only. *)
From Utp Require Import Base.Prelude Wire.SeqNr Wire.Header Sock.Dispatcher Sock.Dispatcher_Proofs
  Sock.DispObs Sock.DispObs_Proofs Sock.DispFresh_Proofs Sock.DispSlots_Proofs.

(* ------------------------------------------------------------------ the loop, once more *)
Lemma cand_mod cid j : cand cid j mod M16 = (cid + 2 * Z.of_nat j) mod M16.
Proof.
  unfold cand. destruct j as [|j]; [f_equal; lia|]. apply Zmod_mod.
Qed.

(* below the bound the loop stops at a free id after at most `table size` skips *)
Lemma next_free_cand s addr cid :
  NoDup (keys (d_streams s)) -> Z.of_nat (length (d_streams s)) < 32768 ->
  exists j, (j <= length (d_streams s))%nat /\
    next_free_conn_id (S (length (d_streams s))) s addr cid = cand cid j /\
    (forall i, (i < j)%nat -> has_stream s {| k_addr := addr; k_conn := cand cid i |} = true) /\
    has_stream s {| k_addr := addr; k_conn := cand cid j |} = false.
Proof.
  intros Hnd Hlen.
  destruct (next_free_spec (S (length (d_streams s))) s addr cid) as (j & Hj & Hr & Hall & Hstop).
  destruct (Nat.eq_dec j (S (length (d_streams s)))) as [->|Hne].
  - exfalso. exact (candidates_not_all_keys s addr cid Hnd Hlen Hall).
  - exists j. split; [lia|]. split; [exact Hr|]. split; [exact Hall|]. apply Hstop. lia.
Qed.

(* ------------------------------------------------------------------ a step that sends a SYN, exactly *)
Definition connect_step (e : list devent) : bool :=
  existsb (fun x => match x with EvSentSyn _ _ _ | EvConnectErr _ => true | _ => false end) e.

Lemma connect_step_app a b : connect_step (a ++ b) = connect_step a || connect_step b.
Proof. unfold connect_step. apply existsb_app. Qed.

Lemma all_accepted_not_connect e : all_accepted e -> connect_step e = false.
Proof.
  unfold all_accepted, connect_step. induction 1 as [|x l Hx Hl IH]; [reflexivity|].
  cbn [existsb]. rewrite IH. destruct x; try contradiction. reflexivity.
Qed.

(* what the part of run_once before the arm never touches *)
Definition keeps_nc (s s2 : dstate) : Prop :=
  d_next_conn_id s2 = d_next_conn_id s /\ d_max_streams s2 = d_max_streams s /\
  d_connecting s2 = d_connecting s /\ d_results s2 = d_results s /\
  d_dead_connectors s2 = d_dead_connectors s.

(* the state the connect request was handled in, and how *)
Lemma dstep_syn_exact s o s' e a cid q :
  d_inv s -> dstep s o = (s', e) -> In (EvSentSyn a cid q) e ->
  exists pushes token r s2 e1 e3,
    o = DoRunOnce pushes (ArmControl SynSent) /\ d_control s = CtlConnect a token :: r /\
    d_inv s2 /\ incl (d_streams s) (d_streams s2) /\ keeps_nc s s2 /\ d_control s2 = r /\
    streams_full s2 = false /\ all_accepted e1 /\ e = e1 ++ e3 /\ In (EvSentSyn a cid q) e3 /\
    on_control s2 (CtlConnect a token) SynSent = (s', e3).
Proof.
  intros Hinv H Hin.
  destruct o as [pushes ar|id|id|id|addr token|addr token|addr token|k1];
    try (quiet H Hs; destruct Hin).
  destruct (run_once_decomp _ _ _ _ _ Hinv H) as (s1 & e1 & e3 & Ec & Ea & -> & Hinv1 & Hacc & Hfr & Hinv2 & Hsame).
  pose proof (cleanup_keeps _ _ _ Ec) as K.
  destruct Hfr as [B1 B2 B3 B4 B5].
  destruct Hsame as (P1 & P2 & P3 & P4 & P5 & P6 & P7 & P8 & P9 & P10 & P11 & P12 & P13).
  set (s2 := fold_left push_acceptor pushes s1) in *.
  apply in_app_or in Hin. destruct Hin as [Hin|Hin].
  { exfalso. pose proof (all_accepted_no_syn _ Hacc) as Hn. rewrite Forall_forall in Hn. exact (Hn _ Hin). }
  unfold arm_step in Ea. destruct ar as [|send|addr [m|]].
  - exfalso. destruct (d_next_acc s2); [injection Ea as _ <-; destruct Hin|].
    destruct (d_chan s2); injection Ea as _ <-; destruct Hin.
  - destruct (d_control s2) as [|c r] eqn:Ectl; [injection Ea as _ <-; destruct Hin|].
    destruct (on_control_syn _ _ _ _ _ Ea _ _ _ Hin) as (S1 & S2 & -> & (token & ->) & S5). dsimpl.
    exists pushes, token, r, (upd_control s2 r), e1, e3.
    split; [reflexivity|]. split; [congruence|].
    split; [apply (d_inv_same_tables s2); dsimpl; auto; apply Hinv2|].
    dsimpl. split; [rewrite P1; exact B4|].
    split; [unfold keeps, keeps_nc in *; dsimpl; intuition congruence|].
    split; [reflexivity|]. split; [exact S2|]. split; [exact Hacc|]. auto.
  - exfalso. pose proof (on_recv_no_syn _ _ _ _ _ Hinv2 Ea) as Hn. rewrite Forall_forall in Hn. exact (Hn _ Hin).
  - exfalso. injection Ea as _ <-. destruct Hin as [Hx|[]]; discriminate.
Qed.

(* "the request was not refused": the step reports no connect error *)
Definition no_connect_err (e : list devent) : Prop := forall t, ~ In (EvConnectErr t) e.

(* every SYN: which id it carries, and what happens to the counter *)
Theorem syn_step_id s o s' e a cid q :
  d_inv s -> d_max_streams s <= 32768 -> dstep s o = (s', e) -> In (EvSentSyn a cid q) e ->
  (* the id is the first one, counting from the counter in steps of 2, that is not a key of the table *)
  (exists j, Z.of_nat j < Z.max 0 (d_max_streams s) /\ cid = cand (d_next_conn_id s) j /\
     (forall i, (i < j)%nat -> In {| k_addr := a; k_conn := cand (d_next_conn_id s) i |} (keys (d_streams s'))) /\
     ~ In {| k_addr := a; k_conn := cid |} (keys (d_streams s'))) /\
  (* a reserved slot moves the counter past it; a refused request leaves the counter on it *)
  (no_connect_err e -> d_next_conn_id s' = wadd16 cid 2) /\
  (~ no_connect_err e -> d_next_conn_id s' = cid).
Proof.
  intros Hinv Hmax H Hin.
  destruct (dstep_syn_exact _ _ _ _ _ _ _ Hinv H Hin)
    as (pushes & token & r & s2 & e1 & e3 & -> & Hctl & Hinv2 & Hincl & K & _ & Hnf & Hacc & -> & Hin3 & Hoc).
  destruct K as (K1 & K7 & _).
  pose proof (on_control_connect_spec _ _ _ _ _ _ Hinv2 Hoc) as Hspec. cbv zeta in Hspec.
  rewrite Hnf in Hspec. destruct Hspec as (F & _ & Hspec).
  destruct F as (F1 & _).
  destruct Hinv2 as (J1 & J2 & _).
  assert (Hb : Z.of_nat (length (d_streams s2)) < 32768) by (apply not_full_bound; [exact Hnf|lia]).
  destruct (next_free_cand s2 a (d_next_conn_id s2) J1 Hb) as (j & Hj & Hr & Hall & Hfree).
  unfold streams_full in Hnf. apply Z.leb_gt in Hnf.
  assert (Hcid : cid = next_free_conn_id (S (length (d_streams s2))) s2 a (d_next_conn_id s2) /\
                 ((no_connect_err (e1 ++ e3) -> d_next_conn_id s' = wadd16 cid 2) /\
                  (~ no_connect_err (e1 ++ e3) -> d_next_conn_id s' = cid))).
  { destruct (length (pending s2 a) <? 4)%nat.
    - destruct Hspec as (-> & _ & Hn & _). destruct Hin3 as [Hx|[]]. injection Hx as <- <-.
      split; [reflexivity|]. split; [intros _; exact Hn|]. intro Hne. exfalso. apply Hne.
      intros t Ht. apply in_app_or in Ht. destruct Ht as [Ht|[Ht|[]]]; [|discriminate].
      unfold all_accepted in Hacc. rewrite Forall_forall in Hacc. exact (Hacc _ Ht).
    - destruct Hspec as (-> & _ & Hn & _). destruct Hin3 as [Hx|[Hx|[]]]; [|discriminate]. injection Hx as <- <-.
      split; [reflexivity|]. split; [|intros _; exact Hn]. intro Hno. exfalso.
      apply (Hno token). apply in_or_app. right. right. left. reflexivity. }
  destruct Hcid as (Hcid & Hnext). split; [|exact Hnext].
  exists j. rewrite <- K1, <- K7. split; [lia|]. split; [congruence|].
  unfold keys in *. rewrite F1. split.
  - intros i Hi. apply has_stream_in. apply Hall. exact Hi.
  - rewrite Hcid, Hr. apply has_stream_false_not_in. exact Hfree.
Qed.

(* ------------------------------------------------------------------ the counter only moves forward, slowly *)
Lemma on_maybe_connect_ack_id s addr m s' e :
  on_maybe_connect_ack s addr m = (s', e) -> d_next_conn_id s' = d_next_conn_id s /\ connect_step e = false.
Proof.
  unfold on_maybe_connect_ack. destruct (streams_full s); [intro H; injection H as <- <-; auto|].
  destruct (get_slots s addr); [|intro H; injection H as <- <-; auto].
  destruct (slots_pop _ _) as [[c sl']|]; [|intro H; injection H as <- <-; auto].
  destruct (mem_z _ _); intro H; injection H as <- <-; auto.
Qed.

Lemma on_recv_id s addr m s' e :
  d_inv s -> on_recv s addr m = (s', e) -> d_next_conn_id s' = d_next_conn_id s /\ connect_step e = false.
Proof.
  intros Hinv H. pose proof Hinv as (I1 & I2 & I3 & I4 & I5). pose proof H as H0. unfold on_recv in H.
  destruct (find_stream s _) as [en|].
  - destruct (se_alive en); injection H as <- <-; auto.
  - destruct (dm_type m); try (injection H as <- <-; auto; fail).
    + eapply on_maybe_connect_ack_id; eauto.
    + split; [apply (on_syn_keeps _ _ _ _ H)|].
      assert (Hst : st_inv s) by (split; assumption).
      destruct (on_syn_spec _ _ _ _ Hst I3 H) as (_ & _ & _ & D & _).
      destruct D as [[Hacc _]|(e0 & Hacc & -> & _)]; [apply all_accepted_not_connect; exact Hacc|].
      rewrite connect_step_app, (all_accepted_not_connect _ Hacc). reflexivity.
Qed.

(* how far one control message moves the counter (in units of 2, modulo 2^16) *)
Lemma on_control_id s c send s' e :
  d_inv s -> d_max_streams s <= 32768 -> on_control s c send = (s', e) ->
  exists u, 0 <= u /\ u <= (if connect_step e then Z.max 0 (d_max_streams s) else 0) /\
            d_next_conn_id s' mod M16 = (d_next_conn_id s + 2 * u) mod M16.
Proof.
  intros Hinv Hmax H.
  assert (Hzero : d_next_conn_id s' = d_next_conn_id s ->
    exists u, 0 <= u /\ u <= (if connect_step e then Z.max 0 (d_max_streams s) else 0) /\
              d_next_conn_id s' mod M16 = (d_next_conn_id s + 2 * u) mod M16).
  { intros ->. exists 0. split; [lia|]. split; [destruct (connect_step e); lia|]. f_equal. lia. }
  destruct c as [addr token|addr token|k].
  - pose proof (on_control_connect_spec _ _ _ _ _ _ Hinv H) as Hspec. cbv zeta in Hspec.
    destruct Hspec as (_ & Hspec).
    destruct (streams_full s) eqn:Ef; [apply Hzero; apply Hspec|].
    destruct Hinv as (J1 & J2 & _).
    assert (Hb : Z.of_nat (length (d_streams s)) < 32768) by (apply not_full_bound; [exact Ef|lia]).
    destruct (next_free_cand s addr (d_next_conn_id s) J1 Hb) as (j & Hj & Hr & _ & _).
    unfold streams_full in Ef. apply Z.leb_gt in Ef.
    set (cid := next_free_conn_id _ s addr (d_next_conn_id s)) in *.
    assert (Hcm : cid mod M16 = (d_next_conn_id s + 2 * Z.of_nat j) mod M16) by (rewrite Hr; apply cand_mod).
    assert (Hcase : (d_next_conn_id s' = cid \/ d_next_conn_id s' = wadd16 cid 2) /\ connect_step e = true).
    { destruct send.
      - destruct Hspec as (_ & Hspec). destruct (length (pending s addr) <? 4)%nat.
        + destruct Hspec as (-> & _ & Hn & _). auto.
        + destruct Hspec as (-> & _ & Hn & _). auto.
      - destruct Hspec as (-> & _ & _ & Hn). auto.
      - destruct Hspec as (-> & _ & _ & Hn). auto. }
    destruct Hcase as [[Hn|Hn] ->]; rewrite Hn.
    + exists (Z.of_nat j). split; [lia|]. split; [lia|exact Hcm].
    + exists (Z.of_nat j + 1). split; [lia|]. split; [lia|].
      unfold wadd16. rewrite Zmod_mod, <- Zplus_mod_idemp_l, Hcm, Zplus_mod_idemp_l. f_equal. lia.
  - destruct (on_control_dropped_spec _ _ _ _ _ _ Hinv H) as (_ & _ & _ & Hn & _). apply Hzero. exact Hn.
  - apply Hzero. cbn [on_control] in H. destruct (find_stream s k) as [en|]; [destruct (se_alive en)|];
      injection H as <- _; reflexivity.
Qed.

Lemma dstep_id_advance s o s' e :
  d_inv s -> d_max_streams s <= 32768 -> dstep s o = (s', e) ->
  exists u, 0 <= u /\ u <= (if connect_step e then Z.max 0 (d_max_streams s) else 0) /\
            d_next_conn_id s' mod M16 = (d_next_conn_id s + 2 * u) mod M16.
Proof.
  intros Hinv Hmax H.
  assert (Hzero : d_next_conn_id s' = d_next_conn_id s ->
    exists u, 0 <= u /\ u <= (if connect_step e then Z.max 0 (d_max_streams s) else 0) /\
              d_next_conn_id s' mod M16 = (d_next_conn_id s + 2 * u) mod M16).
  { intros ->. exists 0. split; [lia|]. split; [destruct (connect_step e); lia|]. f_equal. lia. }
  destruct o as [pushes ar|id|id|id|addr token|addr token|addr token|k1];
    [|cbn [dstep] in H; try (apply Hzero; injection H as <- _; reflexivity)..].
  - clear Hzero.
    destruct (run_once_decomp _ _ _ _ _ Hinv H) as (s1 & e1 & e3 & Ec & Ea & -> & Hinv1 & Hacc & Hfr & Hinv2 & Hsame).
    destruct (cleanup_keeps _ _ _ Ec) as (K1 & _ & _ & _ & _ & _ & K7).
    destruct Hsame as (P1 & P2 & P3 & P4 & P5 & P6 & P7 & _).
    set (s2 := fold_left push_acceptor pushes s1) in *.
    rewrite connect_step_app, (all_accepted_not_connect _ Hacc). cbn [orb].
    rewrite <- K1, <- K7, <- P6, <- P7.
    assert (Hzero : d_next_conn_id s' = d_next_conn_id s2 -> connect_step e3 = false ->
      exists u, 0 <= u /\ u <= (if connect_step e3 then Z.max 0 (d_max_streams s2) else 0) /\
                d_next_conn_id s' mod M16 = (d_next_conn_id s2 + 2 * u) mod M16).
    { intros -> ->. exists 0. split; [lia|]. split; [lia|]. f_equal. lia. }
    unfold arm_step in Ea. destruct ar as [|send|addr [m|]].
    + destruct (d_next_acc s2); [injection Ea as <- <-; apply Hzero; reflexivity|].
      destruct (d_chan s2); injection Ea as <- <-; apply Hzero; reflexivity.
    + destruct (d_control s2) as [|c r] eqn:Ectl; [injection Ea as <- <-; apply Hzero; reflexivity|].
      assert (Hinv2' : d_inv (upd_control s2 r)) by (apply (d_inv_same_tables s2); dsimpl; auto; apply Hinv2).
      apply (on_control_id _ _ _ _ _ Hinv2' ltac:(dsimpl; lia) Ea).
    + destruct (on_recv_id _ _ _ _ _ Hinv2 Ea) as [A B]. apply Hzero; assumption.
    + injection Ea as <- <-. apply Hzero; reflexivity.
  - apply Hzero. injection H as <- _. unfold push_acceptor. destruct (_ <? _); reflexivity.
  - apply Hzero. destruct (find _ _) as [[x [k sid]]|]; injection H as <- _; reflexivity.
  - apply Hzero. injection H as <- _. destruct (existsb _ _); reflexivity.
Qed.

(* ------------------------------------------------------------------ over all op lists *)
Definition connect_steps (tr : list (dstate * dop * list devent * dstate)) : Z :=
  Z.of_nat (length (filter (fun x => match x with (_, _, e, _) => connect_step e end) tr)).

Lemma connect_steps_nonneg tr : 0 <= connect_steps tr.
Proof. unfold connect_steps. lia. Qed.

Lemma connect_steps_cons s o r :
  connect_steps (dev_trace s (o :: r)) =
  (if connect_step (snd (dstep s o)) then 1 else 0) + connect_steps (dev_trace (fst (dstep s o)) r).
Proof.
  unfold connect_steps. cbn [dev_trace]. destruct (dstep s o) as [s' e]. cbn [filter fst snd].
  destruct (connect_step e); cbn [length]; lia.
Qed.

(* between two states of a run the counter has moved forward by at most
   2 * max_active_streams per connect request handled *)
Lemma drun_id_advance : forall ops s,
  d_inv s -> d_max_streams s <= 32768 ->
  exists U, 0 <= U /\ U <= connect_steps (dev_trace s ops) * Z.max 0 (d_max_streams s) /\
            d_next_conn_id (drun s ops) mod M16 = (d_next_conn_id s + 2 * U) mod M16.
Proof.
  induction ops as [|o r IH]; intros s Hinv Hmax; [|rewrite connect_steps_cons]; cbn [drun].
  - exists 0. split; [lia|]. split; [unfold connect_steps; cbn [dev_trace filter length]; lia|]. f_equal. lia.
  - destruct (dstep s o) as [s1 e] eqn:E. cbn [fst snd].
    destruct (dstep_inv _ _ _ _ Hinv E) as [Hinv1 Hmax1].
    destruct (dstep_id_advance _ _ _ _ Hinv Hmax E) as (u & Hu0 & Hu1 & Hu).
    destruct (IH s1 Hinv1 ltac:(lia)) as (U & HU0 & HU1 & HU). rewrite Hmax1 in HU1.
    exists (u + U). split; [clear - Hu0 HU0; lia|]. split.
    + clear - Hu1 HU1 Hu0 HU0. destruct (connect_step e); lia.
    + rewrite HU. rewrite <- Zplus_mod_idemp_l, Hu, Zplus_mod_idemp_l. f_equal. ring.
Qed.

(* THE WINDOW THEOREM.  A SYN that reserved a slot announced id c1.  Any later SYN of the same
   run (to any address, whether or not the first connect is still pending) announces a
   different id, as long as (connect requests handled in between + 1) * max_active_streams
   stays below 2^15.  In particular two pending connects to one address hold different ids
   within such a window. *)
Theorem syn_ids_distinct_in_window s o1 s1 e1 a c1 q1 mid o2 s3 e3 a' c2 q2 :
  d_inv s -> d_max_streams s <= 32768 ->
  dstep s o1 = (s1, e1) -> In (EvSentSyn a c1 q1) e1 -> no_connect_err e1 ->
  dstep (drun s1 mid) o2 = (s3, e3) -> In (EvSentSyn a' c2 q2) e3 ->
  (connect_steps (dev_trace s1 mid) + 1) * Z.max 1 (d_max_streams s) < 32768 ->
  c1 mod M16 <> c2 mod M16.
Proof.
  intros Hinv Hmax E1 Hin1 Hres E2 Hin2 Hwin.
  destruct (dstep_inv _ _ _ _ Hinv E1) as [Hinv1 Hmax1].
  destruct (syn_step_id _ _ _ _ _ _ _ Hinv Hmax E1 Hin1) as (_ & Hn1 & _). specialize (Hn1 Hres).
  destruct (drun_id_advance mid s1 Hinv1 ltac:(lia)) as (U & HU0 & HU1 & HU).
  destruct (drun_inv mid s1 Hinv1) as [Hinv2 Hmax2].
  destruct (syn_step_id _ _ _ _ _ _ _ Hinv2 ltac:(lia) E2 Hin2) as ((j & Hj & Hc2 & _) & _).
  pose proof (cand_mod (d_next_conn_id (drun s1 mid)) j) as Hcm. rewrite <- Hc2 in Hcm.
  rewrite Hmax2, Hmax1 in *.
  set (K := connect_steps (dev_trace s1 mid)) in *.
  pose proof (connect_steps_nonneg (dev_trace s1 mid)) as HK. fold K in HK.
  assert (HP : K * Z.max 0 (d_max_streams s) <= K * Z.max 1 (d_max_streams s))
    by (clear - HK; apply Z.mul_le_mono_nonneg_l; lia).
  rewrite Z.mul_add_distr_r in Hwin.
  set (P := K * Z.max 1 (d_max_streams s)) in *.
  set (n2 := d_next_conn_id (drun s1 mid)) in *. set (n1 := d_next_conn_id s1) in *.
  unfold wadd16, M16 in *. clearbody n1 n2 P K. lia.
Qed.

(* the hypothesis is satisfiable: the default limit, back-to-back connects *)
Example window_default : (connect_steps (dev_trace (dstate_new 128 [7]) []) + 1) * Z.max 1 128 < 32768.
Proof. reflexivity. Qed.

(* for every run from a fresh dispatcher *)
Corollary syn_ids_distinct_in_window_reachable max_streams random pre o1 s1 e1 a c1 q1 mid o2 s3 e3 a' c2 q2 :
  max_streams <= 32768 ->
  dstep (drun (dstate_new max_streams random) pre) o1 = (s1, e1) ->
  In (EvSentSyn a c1 q1) e1 -> no_connect_err e1 ->
  dstep (drun s1 mid) o2 = (s3, e3) -> In (EvSentSyn a' c2 q2) e3 ->
  (connect_steps (dev_trace s1 mid) + 1) * Z.max 1 max_streams < 32768 ->
  c1 mod M16 <> c2 mod M16.
Proof.
  intros Hmax E1 Hin1 Hres E2 Hin2 Hwin.
  destruct (drun_inv pre _ (new_inv max_streams random)) as [Hinv Hm].
  assert (Hm0 : d_max_streams (dstate_new max_streams random) = max_streams)
    by (unfold dstate_new; destruct random; reflexivity).
  rewrite Hm0 in Hm.
  eapply (syn_ids_distinct_in_window _ _ _ _ _ _ _ mid); eauto; rewrite Hm; assumption.
Qed.

(* ------------------------------------------------------------------ what is NOT guaranteed *)
Definition run_ctl : dop := DoRunOnce [] (ArmControl SynSent).
Definition pend_s0 : dstate := dstate_new 128 [7; 100; 200; 300].

(* (1) the documented boundary: the id of a pending connect is not reserved in the table, so an
   inbound SYN of the same peer can take the key first.  Connect to peer 5 announces id 7
   (slot held); the peer's own SYN with id 6 is accepted under key (5, 7); the SYN-ACK of our
   connect (id 7, ack 100) is then forwarded to THAT connection and the connect stays pending. *)
Definition pend_r1_ops : list dop :=
  [ DoConnect 5 1; run_ctl; DoPushAcceptor 9;
    DoRunOnce [] (ArmRecv 5 (Some {| dm_type := ST_SYN; dm_conn := 6; dm_seq := 4000; dm_ack := 0 |})) ].

Theorem pending_id_reserved_refuted :
  exists ops a cid q token synack,
    let s := drun pend_s0 ops in
    (* a SYN announcing (a, cid) was sent and its connect is still pending ... *)
    In [EvSentSyn a cid q] (map (fun x => match x with (_, _, e, _) => e end) (dev_trace pend_s0 ops)) /\
    In {| cn_token := token; cn_seq := q |} (pending s a) /\
    (* ... and (a, cid) is the key of a connection in the table *)
    In {| k_addr := a; k_conn := cid |} (keys (d_streams s)) /\
    (* the answer to our SYN goes to that connection; the connect is still pending afterwards *)
    dm_type synack = ST_STATE /\ dm_conn synack = cid /\ dm_ack synack = q /\
    let '(s', e') := dstep s (DoRunOnce [] (ArmRecv a (Some synack))) in
    e' = [EvForward {| k_addr := a; k_conn := cid |}] /\
    In {| cn_token := token; cn_seq := q |} (pending s' a).
Proof.
  exists pend_r1_ops, 5, 7, 100, 1, {| dm_type := ST_STATE; dm_conn := 7; dm_seq := 9000; dm_ack := 100 |}.
  vm_compute. repeat split; auto.
Qed.

(* (2) the key of an outgoing connection is the connection id of the SYN-ACK, which is matched
   to a pending connect by its ack_nr only (ConnectingPerAddr::pop: "TODO: use connection ID
   instead of sequence number"): it need not be the id our SYN announced *)
Theorem outgoing_key_is_announced_id_refuted :
  exists ops a cid q token synack k,
    let s := drun pend_s0 ops in
    In [EvSentSyn a cid q] (map (fun x => match x with (_, _, e, _) => e end) (dev_trace pend_s0 ops)) /\
    In {| cn_token := token; cn_seq := q |} (pending s a) /\
    snd (dstep s (DoRunOnce [] (ArmRecv a (Some synack)))) = [EvConnected token k] /\
    k_addr k = a /\ k_conn k <> cid.
Proof.
  exists [DoConnect 5 1; run_ctl], 5, 7, 100, 1,
    {| dm_type := ST_STATE; dm_conn := 999; dm_seq := 9000; dm_ack := 100 |}, {| k_addr := 5; k_conn := 999 |}.
  vm_compute. repeat split; auto. discriminate.
Qed.

(* (3) outside the window the counter wraps: a connect to peer 5 stays pending while 32767 other
   connects (to peer 6, each abandoned again) are handled; the next connect to peer 5 announces
   the same id 7 and both are pending *)
Definition pend_cycle : list dop := [DoConnect 6 1; run_ctl; DoDropConnect 6 1; run_ctl].
Definition pend_wrap_ops : list dop := Z.iter 32767 (fun l => pend_cycle ++ l) [].

(* the dispatcher between two cycles: the connect to peer 5 pending, the counter at n, the random
   numbers not yet used, the connect futures dropped so far *)
Definition wrap_st (n : Z) (rnd dc : list Z) : dstate :=
  {| d_streams := [];
     d_connecting := [(5, [Some {| cn_token := 100; cn_seq := 100 |}; None; None; None])];
     d_syns := []; d_next_acc := None; d_chan := []; d_control := [];
     d_next_conn_id := n; d_max_streams := 128; d_random := rnd;
     d_dead_acceptors := []; d_handed := []; d_next_sid := 0;
     d_dead_connectors := dc; d_results := [] |}.

(* a cycle is one connect request and moves the counter by 2; the table stays empty, so the loop
   of next_free_conn_id never looks at n *)
Lemma wrap_cycle n rnd dc l :
  drun (wrap_st n rnd dc) (pend_cycle ++ l) = drun (wrap_st (wadd16 n 2) (tl rnd) (1 :: dc)) l /\
  connect_steps (dev_trace (wrap_st n rnd dc) (pend_cycle ++ l)) =
  1 + connect_steps (dev_trace (wrap_st (wadd16 n 2) (tl rnd) (1 :: dc)) l).
Proof.
  change (pend_cycle ++ l) with (DoConnect 6 1 :: run_ctl :: DoDropConnect 6 1 :: run_ctl :: l).
  rewrite !connect_steps_cons. destruct rnd; split; reflexivity.
Qed.

Lemma wrap_cycles : forall k n rnd dc, (length rnd <= k)%nat ->
  exists dc',
    drun (wrap_st (n mod M16) rnd dc) (Nat.iter k (app pend_cycle) []) =
      wrap_st ((n + 2 * Z.of_nat k) mod M16) [] dc' /\
    connect_steps (dev_trace (wrap_st (n mod M16) rnd dc) (Nat.iter k (app pend_cycle) [])) = Z.of_nat k.
Proof.
  induction k as [|k IH]; intros n rnd dc Hk.
  - destruct rnd; [|cbn [length] in Hk; lia]. exists dc. rewrite Z.add_0_r. split; reflexivity.
  - change (Nat.iter (S k) (app pend_cycle) []) with (pend_cycle ++ Nat.iter k (app pend_cycle) []).
    destruct (wrap_cycle (n mod M16) rnd dc (Nat.iter k (app pend_cycle) [])) as [E Ec].
    rewrite E, Ec. unfold wadd16. rewrite Zplus_mod_idemp_l.
    destruct (IH (n + 2) (tl rnd) (1 :: dc)) as (dc' & I & Ic); [destruct rnd; cbn [length tl] in *; lia|].
    exists dc'. rewrite I, Ic. split; [do 2 f_equal|]; lia.
Qed.

Lemma pend_wrap_ops_iter : pend_wrap_ops = Nat.iter (Pos.to_nat 32767) (app pend_cycle) [].
Proof. exact (Pos2Nat.inj_iter 32767 (app pend_cycle) []). Qed.

Lemma wrap_first :
  dstep (drun pend_s0 [DoConnect 5 100]) run_ctl = (wrap_st (9 mod M16) [200; 300] [], [EvSentSyn 5 7 100]).
Proof. reflexivity. Qed.

(* one more connect to peer 5, whatever the dropped connects left behind *)
Lemma wrap_last dc :
  let r := dstep (drun (wrap_st 7 [] dc) [DoConnect 5 101]) run_ctl in
  snd r = [EvSentSyn 5 7 0] /\
  pending (fst r) 5 = [{| cn_token := 100; cn_seq := 100 |}; {| cn_token := 101; cn_seq := 0 |}].
Proof. split; reflexivity. Qed.

Theorem pending_ids_distinct_refuted :
  let '(s1, e1) := dstep (drun pend_s0 [DoConnect 5 100]) run_ctl in
  let s2 := drun s1 pend_wrap_ops in
  let '(s3, e3) := dstep (drun s2 [DoConnect 5 101]) run_ctl in
  e1 = [EvSentSyn 5 7 100] /\ e3 = [EvSentSyn 5 7 0] /\
  pending s3 5 = [{| cn_token := 100; cn_seq := 100 |}; {| cn_token := 101; cn_seq := 0 |}] /\
  connect_steps (dev_trace s1 pend_wrap_ops) = 32767.
Proof.
  rewrite wrap_first. cbv beta iota zeta. rewrite pend_wrap_ops_iter.
  destruct (wrap_cycles (Pos.to_nat 32767) 9 [200; 300] []) as (dc & E & Ec); [cbn [length]; lia|].
  rewrite E, Ec, positive_nat_Z. change ((9 + 2 * 32767) mod M16) with 7.
  destruct (wrap_last dc) as [L1 L2]. destruct (dstep _ run_ctl) as [s3 e3]. repeat split; assumption.
Qed.
