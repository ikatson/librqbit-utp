(* c12_syn_fresh_ok under a weaker, observable hypothesis: either the configured limit is at most
   32768, or the table plus the SYN backlog (all that cleanup_accept_queue can add before the
   connect request is handled) is below 32768 entries.  Proofs only. *)
From Utp Require Import Base.Prelude Wire.SeqNr Wire.Header Sock.Dispatcher Sock.Dispatcher_Proofs
  Sock.DispObs Sock.DispObs_Proofs Sock.DispFresh_Proofs Sock.DispSlots_Proofs Sock.DispWiring_Proofs.

(* every entry the loops create is reported, and every report of cleanup consumed a cached SYN *)
Lemma count_kept :
  kept_by_steps (fun s s' e => (length (d_streams s') <= length (d_streams s) + length e)%nat) (fun _ => True).
Proof.
  unfold kept_by_steps. split; [|split; [|split; [|split; [|split]]]]; try (intros; dsimpl; lia).
  - intros a b c e1 e2 H1 H2. rewrite app_length. lia.
  - intros s s' oa Et. destruct (try_next_acceptor_spec _ _ _ Et) as (-> & _). lia.
  - intros s y a s' r e _ Em. destruct (match_syn_exact _ _ _ _ _ _ Em) as (_ & M).
    destruct r; [destruct M as (-> & _ & _ & -> & _); rewrite app_length; cbn; lia|destruct M as (-> & -> & _); lia..].
Qed.

Lemma cleanup_count s s' e : cleanup_accept_queue s = (s', e) ->
  (length (d_streams s') <= length (d_streams s) + length (d_syns s))%nat.
Proof.
  intro H. destruct (cleanup_rule _ _ count_kept s s' e (Forall_True _) H) as (A & n & _ & B). lia.
Qed.

(* the table a SYN-sending step ends with is at most the table plus the backlog it started with *)
Lemma dstep_syn_table_bound s o s' e a cid q :
  d_inv s -> dstep s o = (s', e) -> In (EvSentSyn a cid q) e ->
  (length (d_streams s') <= length (d_streams s) + length (d_syns s))%nat.
Proof.
  intros Hinv H Hin.
  destruct (dop_cases o) as [(pushes & ar & ->)|Hne]; [|destruct (other_steps_quiet _ _ _ _ Hne H) as [-> _]; destruct Hin].
  destruct (run_once_decomp _ _ _ _ _ Hinv H) as (s1 & e1 & e3 & Ec & Ea & -> & Hinv1 & Hacc & Hfr & Hinv2 & P1 & _).
  pose proof (cleanup_count _ _ _ Ec) as Hc.
  apply in_app_or in Hin. destruct Hin as [Hin|Hin]; [destruct (all_accepted_only _ _ Hacc Hin)|].
  destruct (arm_step_cases _ _ _ _ Ea) as [(He & _)|[(send & c & r & _ & _ & Hoc)|(addr & m & _ & Hr)]].
  - discriminate (idle_event _ _ He Hin).
  - destruct (on_control_syn _ _ _ _ _ Hoc _ _ _ Hin) as (S1 & _). dsimpl. rewrite S1, P1. exact Hc.
  - pose proof (on_recv_no_syn _ _ _ _ _ Hinv2 Hr) as Hn. rewrite Forall_forall in Hn. destruct (Hn _ Hin).
Qed.

(* the hypothesis, as a function of the configuration and of what the step observation shows *)
Definition conn_id_space_ok_obs (max_streams : Z) (pre : dobs) : bool :=
  (max_streams <=? 32768) ||
  (Z.of_nat (length (ob_streams pre)) + Z.of_nat (length (ob_syns pre)) <? 32768).

Theorem c12_syn_fresh_model_obs s o s' e :
  d_inv s -> conn_id_space_ok_obs (d_max_streams s) (dobs_of s) = true -> dstep s o = (s', e) ->
  c12_syn_fresh_ok (dobs_of s) (syn_keys e) = true.
Proof.
  intros Hinv Hok H. unfold conn_id_space_ok_obs in Hok. apply orb_true_iff in Hok.
  destruct Hok as [Hok|Hok]; [eapply c12_syn_fresh_model; eauto|].
  apply Z.ltb_lt in Hok. unfold dobs_of in Hok; cbn [ob_streams ob_syns] in Hok. rewrite map_length in Hok.
  unfold c12_syn_fresh_ok. apply forallb_forall. intros k Hk. apply negb_true_iff.
  destruct (existsb _ _) eqn:E; [|reflexivity]. exfalso.
  apply existsb_exists in E. destruct E as (p & Hp & Hpk). apply skey_eqb_eq in Hpk.
  destruct (in_syn_keys _ _ Hk) as [q Hq].
  pose proof (dstep_syn_table_bound _ _ _ _ _ _ _ Hinv H Hq) as Hlen.
  destruct (dstep_syn _ _ _ _ Hinv H _ _ _ Hq) as (s2 & Hinv2 & Hincl & Hs' & _ & _ & _ & Hcid).
  destruct Hinv2 as (J1 & _).
  assert (Hb : Z.of_nat (length (d_streams s2)) < 32768) by (rewrite <- Hs'; lia).
  pose proof (has_stream_false_not_in _ _ (next_free_conn_id_fresh s2 (k_addr k) (d_next_conn_id s2) J1 Hb)) as Hfree.
  rewrite <- Hcid in Hfree. apply Hfree. eapply incl_keys; [exact Hincl|].
  rewrite <- keys_obs. destruct k as [ka kc]. cbn [k_addr k_conn]. rewrite <- Hpk. apply in_map. exact Hp.
Qed.

(* every step of every run: wherever the hypothesis holds of the step, so does the predicate *)
Theorem c12_syn_fresh_trace_obs max_streams : forall ops s,
  d_inv s -> d_max_streams s = max_streams ->
  forallb (fun p => implb (conn_id_space_ok_obs max_streams (fst p)) (c12_syn_fresh_ok (fst p) (snd p)))
          (dfresh_trace s ops) = true.
Proof.
  intros ops s Hinv Hmax. unfold dfresh_trace. apply forallb_forall. intros p Hp.
  apply in_map_iff in Hp. destruct Hp as ([[[s0 o0] e0] s1] & <- & Hin).
  pose proof (dev_trace_inv ops s Hinv) as Hall. rewrite Forall_forall in Hall.
  destruct (Hall _ Hin) as (A & B & C). cbn [fst snd].
  destruct (conn_id_space_ok_obs max_streams (dobs_of s0)) eqn:E; [|reflexivity]. cbn [implb].
  eapply c12_syn_fresh_model_obs; eauto. rewrite B, Hmax. exact E.
Qed.

(* a configuration above the bound where the observable hypothesis still holds *)
Example conn_id_space_ok_obs_big_limit :
  conn_id_space_ok_obs 100000 (dobs_of (dstate_new 100000 [7])) = true.
Proof. reflexivity. Qed.
