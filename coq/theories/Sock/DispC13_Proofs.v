(* C13 "every pending connect is accounted for": c13_pending_ok holds of every step of the model from every
   state satisfying d_inv (hence every reachable one) and of every op list; c13_no_empty_entry_ok is an
   invariant of every reachable state.  Proofs only. *)
From Utp Require Import Base.Prelude Wire.SeqNr Wire.Header Sock.Dispatcher Sock.Dispatcher_Proofs
  Sock.DispObs Sock.DispObs_Proofs Sock.DispFresh_Proofs Sock.DispSlots_Proofs Sock.DispPending_Proofs
  Sock.DispWiring_Proofs Sock.DispRelease_Proofs Sock.DispC13_Pred.

(* ------------------------------------------------------------------ the boolean pieces *)
Lemma pslots_slots_of s a : pslots (d_connecting s) a = slots_of s a.
Proof. unfold pslots, slots_of, get_slots. destruct (find _ _); reflexivity. Qed.

Lemma conn_eqb_refl c : conn_eqb c c = true.
Proof. unfold conn_eqb. rewrite !Z.eqb_refl. reflexivity. Qed.

Lemma slot_eqb_refl x : slot_eqb x x = true.
Proof. destruct x; [apply conn_eqb_refl|reflexivity]. Qed.

Lemma slots_eqb_refl l : slots_eqb l l = true.
Proof. induction l as [|x l IH]; [reflexivity|]. cbn [slots_eqb]. rewrite slot_eqb_refl, IH. reflexivity. Qed.

Lemma one_filled_app l1 l2 c :
  one_filled (l1 ++ None :: l2) (l1 ++ Some c :: l2) (cn_seq c) = true.
Proof.
  induction l1 as [|x l1 IH]; cbn [app one_filled].
  - rewrite Z.eqb_refl, slots_eqb_refl. reflexivity.
  - destruct x as [d|]; cbn [slot_eqb]; [rewrite conn_eqb_refl|]; rewrite IH; reflexivity.
Qed.

Lemma one_freed_pop p : forall l c l', slots_pop p l = Some (c, l') -> one_freed l l' = true.
Proof.
  induction l as [|x l IH]; intros c l' H; [discriminate|].
  cbn [slots_pop] in H. destruct x as [d|].
  - destruct (p d).
    + injection H as _ <-. cbn [one_freed]. apply slots_eqb_refl.
    + destruct (slots_pop p l) as [[c0 r']|] eqn:E; [|discriminate]. injection H as _ <-.
      cbn [one_freed slot_eqb]. rewrite conn_eqb_refl, (IH _ _ eq_refl). reflexivity.
  - destruct (slots_pop p l) as [[c0 r']|] eqn:E; [|discriminate]. injection H as _ <-.
    cbn [one_freed slot_eqb]. rewrite (IH _ _ eq_refl). reflexivity.
Qed.

Lemma pcount_somes l : pcount l = Z.of_nat (length (somes l)).
Proof.
  unfold pcount, somes. f_equal. induction l as [|x l IH]; [reflexivity|].
  cbn [filter flat_map]. destruct x; cbn [length app]; rewrite IH; reflexivity.
Qed.

(* ------------------------------------------------------------------ the predicate, every step *)
Lemma post_shape s a : d_inv s ->
  (Z.of_nat (length (slots_of s a)) =? 4) && (pcount (slots_of s a) <=? 4) = true.
Proof.
  intro Hinv. pose proof (slots_of_length s a Hinv) as Hl. unfold MAX_CONNECTING_PER_ADDR in Hl.
  pose proof (pending_le_4 s a Hinv) as Hp. unfold pending in Hp.
  rewrite pcount_somes, Hl. apply andb_true_intro. split; [reflexivity|]. apply Z.leb_le. lia.
Qed.

Lemma changed_only s o e s' addr :
  (forall a, a <> addr -> slots_of s' a = slots_of s a) ->
  forall a, changed (pobs_of s o e s') a = true -> a = addr.
Proof.
  intros Hoth a Hc. destruct (Z.eq_dec a addr) as [|Hne]; [assumption|exfalso].
  unfold changed, pobs_of in Hc. cbn [po_pre po_post] in Hc. rewrite !pslots_slots_of, (Hoth a Hne), slots_eqb_refl in Hc.
  discriminate.
Qed.

Lemma pairs_ok (o : pobs) (l : list Z) addr :
  (forall a, changed o a = true -> a = addr) ->
  forallb (fun a => forallb (fun b => implb (changed o a && changed o b) (a =? b)) l) l = true.
Proof.
  intro H. apply forallb_forall. intros a _. apply forallb_forall. intros b _.
  destruct (changed o a) eqn:Ea; [|reflexivity]. destruct (changed o b) eqn:Eb; [|reflexivity].
  cbn [andb implb]. rewrite (H a Ea), (H b Eb). apply Z.eqb_refl.
Qed.

Lemma syn_to_single addr q a : syn_to [(addr, q)] a = if addr =? a then Some q else None.
Proof. unfold syn_to. cbn [find fst snd]. destruct (addr =? a); reflexivity. Qed.

Theorem c13_pending_ok_model s o s' e :
  d_inv s -> dstep s o = (s', e) -> c13_pending_ok (pobs_of s o e s') = true.
Proof.
  intros Hinv H.
  destruct (dstep_inv _ _ _ _ Hinv H) as [Hinv' _].
  pose proof (dstep_slots_effect _ _ _ _ Hinv H) as Heff.
  unfold c13_pending_ok. set (ob := pobs_of s o e s').
  set (l := map fst (po_pre ob) ++ map fst (po_post ob)).
  assert (Hshape : forall a, (Z.of_nat (length (pslots (po_post ob) a)) =? 4) && (pcount (pslots (po_post ob) a) <=? 4) = true).
  { intro a. unfold ob, pobs_of. cbn [po_post]. rewrite pslots_slots_of. apply post_shape, Hinv'. }
  assert (Hpre : forall a, pslots (po_pre ob) a = slots_of s a) by (intro a; apply pslots_slots_of).
  assert (Hpost : forall a, pslots (po_post ob) a = slots_of s' a) by (intro a; apply pslots_slots_of).
  assert (Hsy : po_syns ob = psyns e) by reflexivity.
  assert (Hk : po_kind ob = kind_of o) by reflexivity.
  destruct Heff as [Hs Hn|addr q Hs Hkd Hn H4|addr l1 l2 c Hkd Hn Hoth E1 E2 _|addr p c sl' Hkd Hn Hoth Ep E2].
  - rewrite Hsy, Hn. cbn [length Z.of_nat Z.leb andb].
    apply andb_true_intro. split.
    + apply forallb_forall. intros a _. unfold addr_ok. rewrite Hshape, Hsy, Hn. cbn [syn_to find andb].
      rewrite Hpre, Hpost, (Hs a), slots_eqb_refl. reflexivity.
    + apply (pairs_ok ob l 0). intros a Hc. exfalso. unfold changed in Hc.
      rewrite Hpre, Hpost, (Hs a), slots_eqb_refl in Hc. discriminate.
  - rewrite Hsy, Hn, Hk, Hkd. cbn [length Z.of_nat Z.leb andb Z.eqb Pos.eqb].
    apply andb_true_intro. split.
    + apply forallb_forall. intros a _. unfold addr_ok. rewrite Hshape, Hsy, Hn, syn_to_single. cbn [andb].
      rewrite Hpre, Hpost, (Hs a), slots_eqb_refl.
      destruct (Z.eqb_spec addr a) as [<-|Hne]; [|reflexivity].
      rewrite pcount_somes. fold (pending s addr). rewrite H4. cbn. apply orb_true_r.
    + apply (pairs_ok ob l 0). intros a Hc. exfalso. unfold changed in Hc.
      rewrite Hpre, Hpost, (Hs a), slots_eqb_refl in Hc. discriminate.
  - rewrite Hsy, Hn, Hk, Hkd. cbn [length Z.of_nat Z.leb andb Z.eqb Pos.eqb].
    apply andb_true_intro. split.
    + apply forallb_forall. intros a _. unfold addr_ok. rewrite Hshape, Hsy, Hn, syn_to_single. cbn [andb].
      rewrite Hpre, Hpost.
      destruct (Z.eqb_spec addr a) as [<-|Hne].
      * rewrite E1, E2, one_filled_app. reflexivity.
      * rewrite (Hoth a) by congruence. rewrite slots_eqb_refl. reflexivity.
    + apply (pairs_ok ob l addr). apply (changed_only s o e s' addr Hoth).
  - rewrite Hsy, Hn. cbn [length Z.of_nat Z.leb andb].
    apply andb_true_intro. split.
    + apply forallb_forall. intros a _. unfold addr_ok. rewrite Hshape, Hsy, Hn. cbn [syn_to find andb].
      rewrite Hpre, Hpost, Hk.
      destruct (Z.eq_dec a addr) as [->|Hne].
      * rewrite E2, (one_freed_pop _ _ _ _ Ep). apply Z.leb_le in Hkd. rewrite Hkd. apply orb_true_r.
      * rewrite (Hoth a Hne), slots_eqb_refl. reflexivity.
    + apply (pairs_ok ob l addr). apply (changed_only s o e s' addr Hoth).
Qed.

(* ------------------------------------------------------------------ every op list *)
Fixpoint pobs_trace (s : dstate) (ops : list dop) : list pobs :=
  match ops with
  | [] => []
  | o :: r => let '(s', e) := dstep s o in pobs_of s o e s' :: pobs_trace s' r
  end.

Lemma pobs_trace_ok : forall ops s, d_inv s -> forallb c13_pending_ok (pobs_trace s ops) = true.
Proof.
  induction ops as [|o r IH]; intros s Hinv; [reflexivity|].
  cbn [pobs_trace]. destruct (dstep s o) as [s' e] eqn:E. cbn [forallb].
  rewrite (c13_pending_ok_model _ _ _ _ Hinv E). cbn [andb].
  apply IH. apply (dstep_inv _ _ _ _ Hinv E).
Qed.

Theorem c13_pending_trace_ok max_streams random ops :
  forallb c13_pending_ok (pobs_trace (dstate_new max_streams random) ops) = true.
Proof. apply pobs_trace_ok, new_inv. Qed.
