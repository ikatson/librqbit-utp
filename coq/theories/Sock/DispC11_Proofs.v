(* C11 at the dispatcher tier: every ST_SYN / ST_RESET the dispatcher emits is a well-formed header with
   u16 ids and sequence numbers, for every op list (all interleavings of connects, accepts, datagrams);
   the ST_RESET carries the connection id and acknowledges the sequence number of the SYN it refuses.
   Invariant DI: next_connection_id, the pending random_u16 values and the ids / sequence numbers of the
   cached SYNs are u16.  Proofs only. *)
From Utp Require Import Base.Prelude Wire.SeqNr Wire.Header Wire.Header_Proofs Sock.Dispatcher
  Sock.Dispatcher_Proofs Sock.DispObs Sock.DispObs_Proofs Sock.DispFresh_Proofs Sock.DispC11_Pred.

Definition u16 (x : Z) : Prop := 0 <= x < 65536.

Lemma u16b_u16 x : u16b x = true <-> u16 x.
Proof. apply u16b_iff. Qed.

Lemma wadd16_u16 a b : u16 (wadd16 a b).
Proof. unfold u16, wadd16, M16. lia. Qed.

(* ------------------------------------------------------------------ the two headers *)
Lemma syn_header_ok conn seq ts : u16 conn -> u16 seq -> 0 <= ts < 4294967296 ->
  hdr_okb (syn_header conn seq ts) = true.
Proof.
  unfold u16. intros H1 H2 H3. unfold hdr_okb, fields_okb, ext_okb, syn_header, u16b, u32b, no_ext;
    cbn [h_conn h_ts h_tsdiff h_wnd h_seq h_ack h_ext e_sack e_close].
  repeat (apply andb_true_intro; split); lia.
Qed.

Lemma rst_header_ok conn ack : u16 conn -> u16 ack -> hdr_okb (rst_header conn ack) = true.
Proof.
  unfold u16. intros H1 H2. unfold hdr_okb, fields_okb, ext_okb, rst_header, u16b, u32b, no_ext;
    cbn [h_conn h_ts h_tsdiff h_wnd h_seq h_ack h_ext e_sack e_close].
  repeat (apply andb_true_intro; split); lia.
Qed.

Lemma syn_header_ok_inv conn seq ts : hdr_okb (syn_header conn seq ts) = true -> u16 conn /\ u16 seq.
Proof.
  unfold hdr_okb, fields_okb, syn_header, u16b, u32b, u16; cbn [h_conn h_ts h_tsdiff h_wnd h_seq h_ack h_ext].
  intro H. repeat (apply andb_prop in H; destruct H as [H ?]). lia.
Qed.

Lemma rst_header_ok_inv conn ack : hdr_okb (rst_header conn ack) = true -> u16 conn /\ u16 ack.
Proof.
  unfold hdr_okb, fields_okb, rst_header, u16b, u32b, u16; cbn [h_conn h_ts h_tsdiff h_wnd h_seq h_ack h_ext].
  intro H. repeat (apply andb_prop in H; destruct H as [H ?]). lia.
Qed.

Lemma syn_event_ok a conn seq : u16 conn -> u16 seq -> c11_devent_ok (EvSentSyn a conn seq) = true.
Proof.
  intros H1 H2. cbn [c11_devent_ok]. rewrite !syn_header_ok by (auto; lia). reflexivity.
Qed.

Lemma rst_event_ok a conn ack : u16 conn -> u16 ack -> c11_devent_ok (EvSentRst a conn ack) = true.
Proof. intros H1 H2. cbn [c11_devent_ok]. apply rst_header_ok; assumption. Qed.

(* the 20 bytes on the wire: version 1, the type nibble, and the parser of the other side reads the
   same header back *)
Lemma header20_on_the_wire h buflen :
  hdr_okb h = true -> h_ext h = no_ext -> 20 <= buflen ->
  exists bs, serialize h buflen = Some bs /\ Zlength bs = 20 /\ nth 0 bs 0 mod 16 = 1 /\
             nth 0 bs 0 / 16 = type_to_number (h_type h) /\ deserialize bs = Some (h, 20).
Proof.
  intros Hok Hext Hlen.
  assert (Hsl : ser_len h = 20) by (unfold ser_len; rewrite Hext; reflexivity).
  destruct (roundtrip h buflen [] Hok) as (bs & Hs & Hz & Hd); [lia|reflexivity|].
  rewrite app_nil_r, Hsl in Hd. rewrite Hsl in Hz.
  exists bs. split; [exact Hs|]. split; [exact Hz|].
  unfold serialize in Hs. destruct (buflen <? _); [discriminate|]. injection Hs as <-.
  unfold encode_packet, fixed_bytes. cbn [app nth].
  split; [apply typever_mod|]. split; [apply typever_div|exact Hd].
Qed.

(* ------------------------------------------------------------------ the invariant *)
Definition syn_ok (y : syn) : Prop := u16 (sy_conn y) /\ u16 (sy_seq y).

Definition DI (s : dstate) : Prop :=
  u16 (d_next_conn_id s) /\ Forall u16 (d_random s) /\ Forall syn_ok (d_syns s).

Definition evs_ok (e : list devent) : Prop := c11_dstep_ok e = true.

Lemma evs_ok_nil : evs_ok [].
Proof. reflexivity. Qed.

Lemma evs_ok_app a b : evs_ok a -> evs_ok b -> evs_ok (a ++ b).
Proof. unfold evs_ok, c11_dstep_ok. intros Ha Hb. rewrite forallb_app, Ha, Hb. reflexivity. Qed.

Lemma evs_ok_all_accepted e : all_accepted e -> evs_ok e.
Proof.
  unfold all_accepted, evs_ok, c11_dstep_ok. intro H. apply forallb_forall. intros x Hx.
  rewrite Forall_forall in H. specialize (H x Hx). destruct x; try contradiction; reflexivity.
Qed.

Lemma next_random_DI s s' x : next_random s = (s', x) -> DI s ->
  DI s' /\ u16 x /\ d_syns s' = d_syns s /\ d_next_conn_id s' = d_next_conn_id s.
Proof.
  unfold next_random. intros H D. destruct (d_random s) as [|r0 rs] eqn:Er.
  - injection H as <- <-. split; [exact D|]. split; [unfold u16; lia|]. split; reflexivity.
  - injection H as <- <-. destruct D as (D1 & D2 & D3). rewrite Er in D2. inversion D2; subst.
    split; [unfold DI; dsimpl; split; [exact D1|split; assumption]|].
    split; [assumption|]. split; reflexivity.
Qed.

Lemma try_next_acceptor_DI s s' oa : try_next_acceptor s = (s', oa) -> DI s ->
  DI s' /\ d_syns s' = d_syns s.
Proof.
  unfold try_next_acceptor. intros H D. destruct (d_next_acc s); [injection H as <- _; split; [exact D|reflexivity]|].
  destruct (d_chan s); injection H as <- _; split; try exact D; reflexivity.
Qed.

Lemma match_syn_DI s y a s' r e : match_syn_with_accept s y a = (s', r, e) -> DI s ->
  DI s' /\ d_syns s' = d_syns s /\ evs_ok e.
Proof.
  unfold match_syn_with_accept. intros H D.
  destruct (streams_full s); [injection H as <- _ <-; (split; [exact D|split; reflexivity])|].
  destruct (has_stream s _); [injection H as <- _ <-; (split; [exact D|split; reflexivity])|].
  destruct (next_random s) as [s1 x] eqn:En.
  destruct (next_random_DI _ _ _ En D) as (D1 & _ & Hs & _).
  destruct (mem_z a _); injection H as <- _ <-; (split; [exact D1|split; [exact Hs|reflexivity]]).
Qed.

Lemma DI_upd_syns s l : DI s -> Forall syn_ok l -> DI (upd_syns s l).
Proof. intros (D1 & D2 & _) Hl. unfold DI; dsimpl. auto. Qed.

Lemma DI_upd_acc s na ch : DI s -> DI (upd_acc s na ch).
Proof. intro D. exact D. Qed.

Lemma DI_kept : kept_by_steps (fun s s' e => DI s -> DI s' /\ evs_ok e) syn_ok.
Proof.
  unfold kept_by_steps. split; [|split; [|split; [|split; [|split]]]].
  - intros s D. split; [exact D|exact evs_ok_nil].
  - intros a b c e1 e2 H1 H2 D. destruct (H1 D) as [D1 E1]. destruct (H2 D1) as [D2 E2].
    split; [exact D2|apply evs_ok_app; assumption].
  - intros s l Hl D. split; [exact (DI_upd_syns s l D Hl)|exact evs_ok_nil].
  - intros s na D. split; [exact D|exact evs_ok_nil].
  - intros s s' oa Et D. split; [exact (proj1 (try_next_acceptor_DI _ _ _ Et D))|exact evs_ok_nil].
  - intros s y a s' r e _ Em D. destruct (match_syn_DI _ _ _ _ _ _ Em D) as (D' & _ & He). auto.
Qed.

Lemma cleanup_DI s s' e : cleanup_accept_queue s = (s', e) -> DI s -> DI s' /\ evs_ok e.
Proof. intros H D. exact (proj1 (cleanup_rule _ _ DI_kept s s' e (proj2 (proj2 D)) H) D). Qed.

Lemma push_acceptors_DI : forall l s, DI s -> DI (fold_left push_acceptor l s).
Proof.
  induction l as [|x r IH]; intros s D; cbn [fold_left]; [exact D|]. apply IH.
  unfold push_acceptor. destruct (_ <? _); exact D.
Qed.

Lemma on_syn_DI s y s' e : on_syn s y = (s', e) -> DI s -> syn_ok y -> DI s' /\ evs_ok e.
Proof.
  intros H D Hy. destruct (on_syn_rule _ _ DI_kept s y s' e Hy (proj2 (proj2 D)) H) as (e0 & A & He).
  destruct (A D) as [D' E0]. split; [exact D'|]. destruct He as [-> | ->]; [exact E0|].
  apply evs_ok_app; [exact E0|].
  unfold evs_ok, c11_dstep_ok; cbn [forallb]. rewrite rst_event_ok; [reflexivity|exact (proj1 Hy)|exact (proj2 Hy)].
Qed.

Lemma next_free_conn_id_u16 : forall fuel s addr cid, u16 cid -> u16 (next_free_conn_id fuel s addr cid).
Proof.
  induction fuel as [|fuel IH]; intros s addr cid H; cbn [next_free_conn_id]; [exact H|].
  destruct (has_stream s _); [apply IH, wadd16_u16|exact H].
Qed.

Lemma on_control_DI s c send s' e : on_control s c send = (s', e) -> DI s -> DI s' /\ evs_ok e.
Proof.
  unfold on_control. intros H D. destruct c as [addr token|addr token|k].
  - destruct (streams_full s); [injection H as <- <-; split; [exact D|reflexivity]|].
    set (cid := next_free_conn_id _ s addr (d_next_conn_id s)) in *.
    assert (Hc : u16 cid) by (apply next_free_conn_id_u16; exact (proj1 D)).
    assert (D0 : DI (upd_conn_id s cid)) by (destruct D as (_ & D2 & D3); unfold DI; dsimpl; auto).
    destruct (next_random (upd_conn_id s cid)) as [s2 seq] eqn:En.
    destruct (next_random_DI _ _ _ En D0) as (D2 & Hq & _ & _).
    destruct send.
    + destruct (slots_insert _ _).
      * injection H as <- <-. split.
        -- destruct D2 as (_ & A2 & A3). unfold DI; dsimpl. split; [apply wadd16_u16|auto].
        -- unfold evs_ok, c11_dstep_ok; cbn [forallb]. rewrite syn_event_ok by assumption. reflexivity.
      * injection H as <- <-. split; [exact D2|].
        unfold evs_ok, c11_dstep_ok; cbn [forallb]. rewrite syn_event_ok by assumption. reflexivity.
    + injection H as <- <-. split; [exact D2|reflexivity].
    + injection H as <- <-. split; [exact D2|reflexivity].
  - destruct (get_slots s addr); [destruct (slots_pop _ _) as [[? ?]|]|]; injection H as <- <-;
      (split; [exact D|reflexivity]).
  - destruct (find_stream s k) as [en|]; [destruct (se_alive en)|]; injection H as <- <-;
      (split; [exact D|reflexivity]).
Qed.

Lemma on_maybe_connect_ack_DI s addr m s' e : on_maybe_connect_ack s addr m = (s', e) -> DI s ->
  DI s' /\ evs_ok e.
Proof.
  intros H (D1 & D2 & D3). destruct (on_maybe_connect_ack_frame _ _ _ _ _ H) as (F1 & _ & _ & _ & F5 & F6 & He).
  split; [unfold DI; rewrite F1, F5, F6; auto|destruct He as [->|(t & k & ->)]; reflexivity].
Qed.

Lemma on_recv_DI s addr m s' e : on_recv s addr m = (s', e) -> DI s -> dmsg_okb m = true ->
  DI s' /\ evs_ok e.
Proof.
  unfold on_recv. intros H D Hm.
  destruct (find_stream s _) as [en|].
  - destruct (se_alive en); injection H as <- <-; (split; [exact D|reflexivity]).
  - destruct (dm_type m); try (injection H as <- <-; split; [exact D|reflexivity]).
    + exact (on_maybe_connect_ack_DI _ _ _ _ _ H D).
    + apply (on_syn_DI _ _ _ _ H D). unfold dmsg_okb in Hm.
      apply andb_prop in Hm. destruct Hm as [Hm _]. apply andb_prop in Hm. destruct Hm as [H1 H2].
      split; cbn [sy_conn sy_seq]; apply u16b_u16; assumption.
Qed.

Lemma arm_step_DI s2 a s' e : arm_step s2 a = (s', e) -> DI s2 ->
  match a with ArmRecv _ (Some m) => dmsg_okb m = true | _ => True end -> DI s' /\ evs_ok e.
Proof.
  unfold arm_step. intros H D Hm. destruct a as [|send|addr [m|]].
  - destruct (d_next_acc s2); [injection H as <- <-; split; [exact D|reflexivity]|].
    destruct (d_chan s2); injection H as <- <-; (split; [exact D|reflexivity]).
  - destruct (d_control s2) as [|c r]; [injection H as <- <-; split; [exact D|reflexivity]|].
    exact (on_control_DI _ _ _ _ _ H D).
  - exact (on_recv_DI _ _ _ _ _ H D Hm).
  - injection H as <- <-. split; [exact D|reflexivity].
Qed.

Theorem dstep_DI s o s' e : dstep s o = (s', e) -> DI s -> dop_okb o = true -> DI s' /\ evs_ok e.
Proof.
  intros H D Ho. destruct (dop_cases o) as [(pushes & a & ->)|Hne].
  - rewrite dstep_run_once_eq in H.
    destruct (cleanup_accept_queue s) as [s1 e1] eqn:Ec.
    destruct (arm_step _ a) as [s3 e3] eqn:Ea. injection H as <- <-.
    destruct (cleanup_DI _ _ _ Ec D) as [D1 He1].
    destruct (arm_step_DI _ _ _ _ Ea (push_acceptors_DI pushes s1 D1)) as [D3 He3].
    { destruct a as [|send|addr [m|]]; try exact I. exact Ho. }
    split; [exact D3|apply evs_ok_app; assumption].
  - destruct (other_step_frame _ _ _ _ Hne H) as (-> & F1 & _ & _ & F4 & F5 & _). split; [|reflexivity].
    destruct D as (D1 & D2 & D3). unfold DI. rewrite F1, F4, F5. auto.
Qed.

Lemma new_DI max_streams random : randoms_okb random = true -> DI (dstate_new max_streams random).
Proof.
  unfold randoms_okb. intro H.
  assert (HF : Forall u16 random).
  { apply Forall_forall. intros x Hx. apply u16b_u16. rewrite forallb_forall in H. exact (H x Hx). }
  unfold dstate_new. destruct random as [|r0 rs].
  - unfold DI; dsimpl. repeat split; try constructor; unfold u16; lia.
  - inversion HF; subst. unfold DI; dsimpl. repeat split; auto; try constructor; destruct H2; assumption.
Qed.

(* every op list: every emitted SYN / RESET is well-formed *)
Theorem dtrace_emitted_ok : forall ops s,
  DI s -> forallb dop_okb ops = true ->
  forallb (fun p => c11_dstep_ok (fst p)) (dtrace s ops) = true.
Proof.
  induction ops as [|o rest IH]; intros s D Hops; [reflexivity|].
  cbn [forallb] in Hops. apply andb_prop in Hops. destruct Hops as [Ho Hrest].
  cbn [dtrace]. destruct (dstep s o) as [s' e] eqn:E.
  destruct (dstep_DI _ _ _ _ E D Ho) as [D' He].
  cbn [forallb fst]. unfold evs_ok in He. rewrite He. cbn [andb]. apply IH; assumption.
Qed.

Theorem dispatcher_emitted_ok max_streams random ops :
  randoms_okb random = true -> forallb dop_okb ops = true ->
  forallb (fun p => c11_dstep_ok (fst p)) (dtrace (dstate_new max_streams random) ops) = true.
Proof. intros Hr Ho. apply dtrace_emitted_ok; [apply new_DI; exact Hr|exact Ho]. Qed.

(* ------------------------------------------------------------------ what an accepted event means on the wire *)
Theorem syn_event_on_the_wire a conn seq ts buflen :
  c11_devent_ok (EvSentSyn a conn seq) = true -> 0 <= ts < 4294967296 -> 20 <= buflen ->
  exists bs, serialize (syn_header conn seq ts) buflen = Some bs /\ Zlength bs = 20 /\
             nth 0 bs 0 mod 16 = 1 /\ nth 0 bs 0 / 16 = 4 /\
             deserialize bs = Some (syn_header conn seq ts, 20).
Proof.
  cbn [c11_devent_ok]. intros H Hts Hlen. apply andb_prop in H. destruct H as [H _].
  destruct (syn_header_ok_inv _ _ _ H) as [H1 H2].
  exact (header20_on_the_wire (syn_header conn seq ts) buflen (syn_header_ok _ _ _ H1 H2 Hts) eq_refl Hlen).
Qed.

Theorem rst_event_on_the_wire a conn ack buflen :
  c11_devent_ok (EvSentRst a conn ack) = true -> 20 <= buflen ->
  exists bs, serialize (rst_header conn ack) buflen = Some bs /\ Zlength bs = 20 /\
             nth 0 bs 0 mod 16 = 1 /\ nth 0 bs 0 / 16 = 3 /\
             deserialize bs = Some (rst_header conn ack, 20).
Proof.
  cbn [c11_devent_ok]. intros H Hlen.
  exact (header20_on_the_wire (rst_header conn ack) buflen H eq_refl Hlen).
Qed.

(* ------------------------------------------------------------------ the ids: ST_RESET
   a reset is the answer to the SYN datagram being handled in this very step: it goes back to the SYN's
   address, carries the SYN's connection id (the id the refused initiator receives on) and acknowledges
   the SYN's sequence number *)
Lemma on_syn_rst s y s' e a c k : on_syn s y = (s', e) -> In (EvSentRst a c k) e ->
  a = sy_addr y /\ c = sy_conn y /\ k = sy_seq y.
Proof.
  intros H Hin. destruct (on_syn_rule _ _ accepted_kept s y s' e I (Forall_True _) H) as (e0 & Hacc & [-> | ->]).
  - destruct (all_accepted_only _ _ Hacc Hin).
  - apply in_app_or in Hin. destruct Hin as [Hin|[Hx|[]]]; [destruct (all_accepted_only _ _ Hacc Hin)|].
    injection Hx as <- <- <-. auto.
Qed.

Theorem rst_event_facts s o s' e a c k :
  dstep s o = (s', e) -> In (EvSentRst a c k) e ->
  exists pushes m, o = DoRunOnce pushes (ArmRecv a (Some m)) /\ dm_type m = ST_SYN /\
                   c = dm_conn m /\ k = dm_seq m.
Proof.
  intros H Hin.
  destruct (dop_cases o) as [(pushes & ar & ->)|Hne]; [|destruct (other_steps_quiet _ _ _ _ Hne H) as [-> _]; destruct Hin].
  rewrite dstep_run_once_eq in H.
  destruct (cleanup_accept_queue s) as [s1 e1] eqn:Ec.
  destruct (arm_step _ ar) as [s3 e3] eqn:Ea. injection H as <- <-.
  apply in_app_or in Hin. destruct Hin as [Hin|Hin]; [destruct (all_accepted_only _ _ (cleanup_all_accepted _ _ _ Ec) Hin)|].
  destruct (arm_step_cases _ _ _ _ Ea) as [(He & _)|[(send & c0 & r & _ & _ & Hoc)|(addr & m & -> & Hr)]].
  - discriminate (idle_event _ _ He Hin).
  - destruct (on_control_events _ _ _ _ _ Hoc _ Hin).
  - destruct (on_recv_cases _ _ _ _ _ Hr) as [He|[(_ & _ & Hack)|(_ & Et & Hsyn)]].
    + exfalso. destruct He as [-> | ->]; destruct Hin as [Hx|[]]; discriminate Hx.
    + exfalso. destruct (on_maybe_connect_ack_frame _ _ _ _ _ Hack) as (_ & _ & _ & _ & _ & _ & [->|(t & k0 & ->)]);
        destruct Hin as [Hx|[]]; discriminate Hx.
    + destruct (on_syn_rst _ _ _ _ _ _ _ Hsyn Hin) as (-> & -> & ->). cbn [sy_addr sy_conn sy_seq].
      exists pushes, m. auto.
Qed.

(* ------------------------------------------------------------------ the ids: ST_SYN
   "the connection created by a connect() receives on the id its SYN announced" is FALSE of the model
   (and of socket.rs on_maybe_connect_ack, which matches a SYN-ACK to a pending connect by (address, ack_nr)
   only: `Connecting` does not even store the announced id): a ST_STATE from the right address that
   acknowledges the SYN's sequence number but carries ANOTHER connection id completes the connect, and the
   new connection receives on (and, + 1, sends with) that other id. *)
Definition all_events (tr : list (list devent * dstate)) : list devent := flat_map fst tr.

Definition syn_id_ops : list dop :=
  [DoConnect 7 1; DoRunOnce [] (ArmControl SynSent);
   DoRunOnce [] (ArmRecv 7 (Some {| dm_type := ST_STATE; dm_conn := 999; dm_seq := 50; dm_ack := 200 |}))].

Lemma syn_ack_conn_id_unchecked_refuted :
  exists max_streams random ops a c q t k,
    randoms_okb random = true /\ forallb dop_okb ops = true /\
    all_events (dtrace (dstate_new max_streams random) ops) = [EvSentSyn a c q; EvConnected t k] /\
    k_addr k = a /\ k_conn k <> c.
Proof.
  exists 10, [100; 200], syn_id_ops, 7, 100, 200, 1, {| k_addr := 7; k_conn := 999 |}.
  vm_compute. repeat split; try reflexivity. intro H; discriminate H.
Qed.

(* the true form: the connector's key is the id of the acknowledging datagram (connected_event_facts,
   DispWiring_Proofs); it is the announced id exactly when the peer echoes it, as BEP 29 prescribes *)

(* non-vacuity of the hypotheses and of the RESET clause: 33 SYNs without an acceptor; the last one is
   refused with a ST_RESET carrying its id and acknowledging its sequence number *)
Definition syn_msg (i : Z) : dmsg := {| dm_type := ST_SYN; dm_conn := 1000 + i; dm_seq := 500 + i; dm_ack := 0 |}.
Definition rst_ops : list dop :=
  map (fun i => DoRunOnce [] (ArmRecv 9 (Some (syn_msg (Z.of_nat i))))) (seq 0 33).

Lemma rst_nonvacuous :
  randoms_okb [100; 200] = true /\ forallb dop_okb (syn_id_ops ++ rst_ops) = true /\
  all_events (dtrace (dstate_new 10 [100; 200]) rst_ops) = [EvSentRst 9 1032 532] /\
  forallb (fun p => c11_dstep_ok (fst p)) (dtrace (dstate_new 10 [100; 200]) (syn_id_ops ++ rst_ops)) = true.
Proof. vm_compute. repeat split; reflexivity. Qed.
