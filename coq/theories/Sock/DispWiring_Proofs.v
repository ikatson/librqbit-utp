(* C13 "the two are wired to each other": what an EvAccepted / EvConnected event of the model
   says about the connection that was created, for every step of every op list.
   The dispatcher model carries the RECEIVE connection id only (as k_conn of the table key); see
   the note at `sargs` below for exactly which StreamArgs fields it does not carry.  Proofs only. *)
From Utp Require Import Base.Prelude Wire.SeqNr Wire.Header Sock.Dispatcher Sock.Dispatcher_Proofs
  Sock.DispObs Sock.DispObs_Proofs Sock.DispFresh_Proofs Sock.DispSlots_Proofs.

(* the key an incoming connection answering SYN y is registered under *)
Definition syn_key (y : syn) : skey := {| k_addr := sy_addr y; k_conn := wadd16 (sy_conn y) 1 |}.

Definition live_entry (k : skey) (sid : Z) : sentry := {| se_key := k; se_alive := true; se_id := sid |}.

(* ------------------------------------------------------------------ one match, exactly *)
Lemma match_syn_exact s y a s' r e :
  match_syn_with_accept s y a = (s', r, e) ->
  d_dead_acceptors s' = d_dead_acceptors s /\
  match r with
  | MrMatched =>
      e = [EvAccepted a (syn_key y)] /\ ~ In (syn_key y) (keys (d_streams s)) /\
      ~ In a (d_dead_acceptors s) /\
      d_streams s' = d_streams s ++ [live_entry (syn_key y) (d_next_sid s)] /\
      d_handed s' = d_handed s ++ [(a, (syn_key y, d_next_sid s))] /\
      d_next_sid s' = d_next_sid s + 1
  | _ => e = [] /\ d_streams s' = d_streams s /\ d_handed s' = d_handed s /\ d_next_sid s' = d_next_sid s
  end.
Proof.
  unfold match_syn_with_accept. fold (syn_key y).
  destruct (streams_full s); [intro H; injection H as <- <- <-; repeat split|].
  destruct (has_stream s (syn_key y)) eqn:Eh; [intro H; injection H as <- <- <-; repeat split|].
  destruct (next_random s) as [s1 x] eqn:Er.
  destruct (next_random_keeps _ _ _ Er) as ((_ & _ & _ & K4 & _) & R1 & R2 & R3).
  destruct (mem_z a (d_dead_acceptors s1)) eqn:Em; intro H; injection H as <- <- <-; dsimpl.
  - repeat split; assumption.
  - split; [exact K4|]. split; [reflexivity|].
    pose proof (has_stream_false_not_in _ _ Eh) as Hnotin.
    split; [exact Hnotin|]. split.
    { apply mem_z_false in Em. rewrite K4 in Em. exact Em. }
    rewrite R1, R2, R3, (insert_absent _ _ _ Hnotin). repeat split.
Qed.

(* steps that do not touch the table, the hand-over list or the dead acceptors *)
Definition same_tabs (s s' : dstate) : Prop :=
  d_streams s' = d_streams s /\ d_handed s' = d_handed s /\ d_dead_acceptors s' = d_dead_acceptors s /\
  d_next_sid s' = d_next_sid s.

Lemma same_tabs_refl s : same_tabs s s.
Proof. unfold same_tabs. repeat split. Qed.

Lemma same_tabs_trans a b c : same_tabs a b -> same_tabs b c -> same_tabs a c.
Proof. unfold same_tabs. intros H1 H2. repeat split; intuition congruence. Qed.

Lemma same_tabs_upd_syns s x : same_tabs s (upd_syns s x).
Proof. unfold same_tabs; dsimpl. repeat split. Qed.
Lemma same_tabs_upd_acc s na ch : same_tabs s (upd_acc s na ch).
Proof. unfold same_tabs; dsimpl. repeat split. Qed.

Lemma try_next_same_tabs s s' oa : try_next_acceptor s = (s', oa) -> same_tabs s s' /\ d_syns s' = d_syns s.
Proof.
  unfold try_next_acceptor. destruct (d_next_acc s).
  - intro H; injection H as <- _. split; [apply same_tabs_upd_acc|reflexivity].
  - destruct (d_chan s); intro H; injection H as <- _; (split; [|reflexivity]);
      [apply same_tabs_refl|apply same_tabs_upd_acc].
Qed.

(* the table and the hand-over list only grow, the dead acceptors stay *)
Definition grows (s s' : dstate) : Prop :=
  incl (d_streams s) (d_streams s') /\ incl (d_handed s) (d_handed s') /\
  d_dead_acceptors s' = d_dead_acceptors s.

Lemma grows_refl s : grows s s.
Proof. unfold grows. auto using incl_refl. Qed.

Lemma grows_trans a b c : grows a b -> grows b c -> grows a c.
Proof.
  unfold grows. intros (A1 & A2 & A3) (B1 & B2 & B3).
  split; [eapply incl_tran; eauto|]. split; [eapply incl_tran; eauto|congruence].
Qed.

Lemma same_tabs_grows s s' : same_tabs s s' -> grows s s'.
Proof. unfold same_tabs, grows. intros (A & B & C & _). rewrite A, B, C. auto using incl_refl. Qed.

Lemma match_syn_grows s y a s' r e : match_syn_with_accept s y a = (s', r, e) -> grows s s'.
Proof.
  intro H. destruct (match_syn_exact _ _ _ _ _ _ H) as (D & M). unfold grows.
  destruct r.
  - destruct M as (_ & _ & _ & M1 & M2 & _). rewrite M1, M2. auto using incl_appl, incl_refl.
  - destruct M as (_ & M1 & M2 & _). rewrite M1, M2. auto using incl_refl.
  - destruct M as (_ & M1 & M2 & _). rewrite M1, M2. auto using incl_refl.
  - destruct M as (_ & M1 & M2 & _). rewrite M1, M2. auto using incl_refl.
Qed.

(* every EvAccepted of `ev` answers a SYN of `syns`, under a key that was free in s0, and the
   connection is in the table of s' and in the hands of exactly that (live) acceptor *)
Definition acc_ok (s0 s' : dstate) (syns : list syn) (ev : list devent) : Prop :=
  forall acc k, In (EvAccepted acc k) ev ->
    exists y sid, In y syns /\ k = syn_key y /\ ~ In k (keys (d_streams s0)) /\
      In (acc, (k, sid)) (d_handed s') /\ In (live_entry k sid) (d_streams s') /\
      ~ In acc (d_dead_acceptors s0).

Lemma acc_ok_nil s0 s' syns : acc_ok s0 s' syns [].
Proof. intros acc k []. Qed.

(* weaken: an earlier reference state, more SYNs, a later final state *)
Lemma acc_ok_mono s0 s1 s' s'' syns syns' ev :
  acc_ok s1 s' syns ev -> grows s0 s1 -> grows s' s'' -> incl syns syns' -> acc_ok s0 s'' syns' ev.
Proof.
  intros H (G1 & _ & G3) (G1' & G2' & _) Hsy acc k Hin.
  destruct (H acc k Hin) as (y & sid & A & B & C & D & E & F).
  exists y, sid. split; [apply Hsy; exact A|]. split; [exact B|].
  split; [intro Hk; apply C; eapply incl_keys; eauto|].
  split; [apply G2'; exact D|]. split; [apply G1'; exact E|]. rewrite <- G3. exact F.
Qed.

Lemma acc_ok_app s0 s' syns a b : acc_ok s0 s' syns a -> acc_ok s0 s' syns b -> acc_ok s0 s' syns (a ++ b).
Proof. intros Ha Hb acc k Hin. apply in_app_or in Hin. destruct Hin; auto. Qed.

(* the event of one successful match *)
Lemma acc_ok_match s y a s' e :
  match_syn_with_accept s y a = (s', MrMatched, e) -> acc_ok s s' [y] e.
Proof.
  intro H. destruct (match_syn_exact _ _ _ _ _ _ H) as (D & -> & Hfree & Hlive & M1 & M2 & _).
  intros acc k [Hx|[]]. injection Hx as <- <-.
  exists y, (d_next_sid s). split; [left; reflexivity|]. split; [reflexivity|]. split; [exact Hfree|].
  split; [rewrite M2; apply in_or_app; right; left; reflexivity|].
  split; [rewrite M1; apply in_or_app; right; left; reflexivity|exact Hlive].
Qed.

(* ------------------------------------------------------------------ cleanup_accept_queue / on_syn *)
Lemma acc_kept syns : kept_by_steps (fun s s' e => grows s s' /\ acc_ok s s' syns e) (fun y => In y syns).
Proof.
  unfold kept_by_steps. split; [|split; [|split; [|split; [|split]]]].
  - intro s. split; [apply grows_refl|apply acc_ok_nil].
  - intros a b c e1 e2 [G1 A1] [G2 A2]. split; [eapply grows_trans; eauto|]. apply acc_ok_app.
    + eapply acc_ok_mono; [exact A1|apply grows_refl|exact G2|apply incl_refl].
    + eapply acc_ok_mono; [exact A2|exact G1|apply grows_refl|apply incl_refl].
  - intros s l _. split; [apply same_tabs_grows, same_tabs_upd_syns|apply acc_ok_nil].
  - intros s na. split; [apply same_tabs_grows, same_tabs_upd_acc|apply acc_ok_nil].
  - intros s s' oa Et. split; [apply same_tabs_grows, (try_next_same_tabs _ _ _ Et)|apply acc_ok_nil].
  - intros s y a s' r e Hy Em. split; [exact (match_syn_grows _ _ _ _ _ _ Em)|].
    pose proof (match_syn_events _ _ _ _ _ _ Em) as He. destruct r; try (subst e; apply acc_ok_nil).
    eapply acc_ok_mono; [exact (acc_ok_match _ _ _ _ _ Em)|apply grows_refl|apply grows_refl|].
    intros z [<-|[]]. exact Hy.
Qed.

Lemma cleanup_acc s s' e :
  cleanup_accept_queue s = (s', e) -> acc_ok s s' (d_syns s) e /\ grows s s'.
Proof.
  intro H. destruct (cleanup_rule _ _ (acc_kept (d_syns s)) s s' e) as [[G A] _]; [apply Forall_forall; auto|exact H|auto].
Qed.

Lemma on_syn_acc s y s' e : on_syn s y = (s', e) -> acc_ok s s' [y] e /\ grows s s'.
Proof.
  unfold on_syn.
  assert (Hl : forall s1 done e1,
    match d_syns s with [] => on_syn_loop (length (d_chan s) + 2) s y | _ :: _ => (s, false, []) end
      = (s1, done, e1) -> acc_ok s s1 [y] e1 /\ grows s s1).
  { intros s1 done e1. destruct (d_syns s).
    - intro H. destruct (on_syn_loop_rule _ _ (acc_kept [y]) _ _ _ _ _ _ (or_introl eq_refl) H) as [[G A] _]. auto.
    - intro H; injection H as <- _ <-. auto using acc_ok_nil, grows_refl. }
  destruct (match d_syns s with [] => _ | _ :: _ => _ end) as [[s1 done] e1].
  destruct (Hl _ _ _ eq_refl) as [Hok G]. destruct done; [intro H; injection H as <- <-; auto|].
  destruct (_ <? _); intro H; injection H as <- <-.
  - assert (G' : grows s1 (upd_syns s1 (d_syns s1 ++ [y]))) by apply same_tabs_grows, same_tabs_upd_syns.
    split; [|eapply grows_trans; eauto].
    eapply acc_ok_mono; [exact Hok|apply grows_refl|exact G'|apply incl_refl].
  - split; [|exact G]. intros acc k Hin. apply in_app_or in Hin. destruct Hin as [Hin|[Hx|[]]]; [|discriminate].
    exact (Hok acc k Hin).
Qed.

(* ------------------------------------------------------------------ what the arm keeps *)
Lemma on_recv_handed s addr m s' e :
  on_recv s addr m = (s', e) ->
  incl (d_handed s) (d_handed s') /\ d_dead_acceptors s' = d_dead_acceptors s.
Proof.
  unfold on_recv. destruct (find_stream s _) as [en|].
  - destruct (se_alive en); intro H; injection H as <- _; auto using incl_refl.
  - destruct (dm_type m); try (intro H; injection H as <- _; auto using incl_refl; fail).
    + intro H. destruct (on_maybe_connect_ack_frame _ _ _ _ _ H) as (_ & _ & -> & -> & _). auto using incl_refl.
    + intro H. destruct (on_syn_acc _ _ _ _ H) as [_ (_ & G2 & G3)]. auto.
Qed.

Lemma arm_step_keeps s2 a s' e3 :
  d_inv s2 -> arm_step s2 a = (s', e3) ->
  incl (d_handed s2) (d_handed s') /\ d_dead_acceptors s' = d_dead_acceptors s2 /\
  forall en, In en (d_streams s2) -> se_alive en = true -> In en (d_streams s').
Proof.
  intros Hinv H.
  assert (Hh : incl (d_handed s2) (d_handed s') /\ d_dead_acceptors s' = d_dead_acceptors s2).
  { destruct (arm_step_cases _ _ _ _ H) as [(_ & [->|(x & r & _ & ->)])|[(send & c & r & _ & _ & Hoc)|(addr & m & _ & Hr)]].
    - auto using incl_refl.
    - auto using incl_refl.
    - destruct (on_control_frame _ _ _ _ _ Hoc) as (_ & _ & -> & -> & _). auto using incl_refl.
    - exact (on_recv_handed _ _ _ _ _ Hr). }
  destruct Hh as [A B]. split; [exact A|]. split; [exact B|].
  intro en. exact (arm_step_keeps_live _ _ _ _ en Hinv H).
Qed.

(* ------------------------------------------------------------------ EvAccepted, every step *)
Definition syn_of (addr : Z) (m : dmsg) : syn := {| sy_addr := addr; sy_conn := dm_conn m; sy_seq := dm_seq m |}.

Theorem accepted_event_facts s o s' e acc k :
  d_inv s -> dstep s o = (s', e) -> In (EvAccepted acc k) e ->
  exists y sid,
    (* the SYN it answers: one that was waiting in the backlog, or the datagram being handled *)
    (In y (d_syns s) \/
     exists pushes addr m, o = DoRunOnce pushes (ArmRecv addr (Some m)) /\ dm_type m = ST_SYN /\ y = syn_of addr m) /\
    (* the acceptor side receives on the SYN's connection id + 1, from the SYN's address *)
    k = syn_key y /\
    (* under a key that was not in use, without replacing anything *)
    ~ In k (keys (d_streams s)) /\
    (* the connection object registered under k is the one handed to this acceptor, which is alive *)
    In (acc, (k, sid)) (d_handed s') /\ In (live_entry k sid) (d_streams s') /\
    ~ In acc (d_dead_acceptors s).
Proof.
  intros Hinv H Hin.
  destruct (dop_cases o) as [(pushes & ar & ->)|Hne]; [|destruct (other_steps_quiet _ _ _ _ Hne H) as [-> _]; destruct Hin].
  destruct (run_once_decomp _ _ _ _ _ Hinv H) as (s1 & e1 & e3 & Ec & Ea & -> & Hinv1 & Hacc & Hfr & Hinv2 & Hsame).
  destruct (cleanup_acc _ _ _ Ec) as [Hok1 G1].
  destruct Hsame as (P1 & P2 & P3 & P4 & P5 & P6 & P7 & P8 & P9 & P10 & P11 & P12 & P13).
  set (s2 := fold_left push_acceptor pushes s1) in *.
  destruct (arm_step_keeps _ _ _ _ Hinv2 Ea) as (A1 & A2 & A3).
  assert (G12 : grows s1 s2) by (unfold grows; rewrite P1, P9, P10; auto using incl_refl).
  apply in_app_or in Hin. destruct Hin as [Hin|Hin].
  - destruct (Hok1 acc k Hin) as (y & sid & B1 & B2 & B3 & B4 & B5 & B6).
    exists y, sid. split; [left; exact B1|]. split; [exact B2|]. split; [exact B3|].
    split; [apply A1; rewrite P10; exact B4|]. split; [|exact B6].
    apply A3; [rewrite P1; exact B5|reflexivity].
  - destruct (arm_step_cases _ _ _ _ Ea) as [(He & _)|[(send & c & r & _ & _ & Hoc)|(addr & m & -> & Hr)]].
    + discriminate (idle_event _ _ He Hin).
    + destruct (on_control_events _ _ _ _ _ Hoc _ Hin).
    + destruct (on_recv_cases _ _ _ _ _ Hr) as [He|[(_ & _ & Hack)|(_ & Et & Hsyn)]].
      * exfalso. destruct He as [-> | ->]; destruct Hin as [Hx|[]]; discriminate Hx.
      * exfalso. destruct (on_maybe_connect_ack_frame _ _ _ _ _ Hack) as (_ & _ & _ & _ & _ & _ & [->|(t & k0 & ->)]);
          destruct Hin as [Hx|[]]; discriminate Hx.
      * destruct (on_syn_acc _ _ _ _ Hsyn) as [Hok3 G3].
        destruct (Hok3 acc k Hin) as (y & sid & B1 & B2 & B3 & B4 & B5 & B6).
        destruct B1 as [<-|[]].
        exists (syn_of addr m), sid. split; [right; exists pushes, addr, m; auto|]. split; [exact B2|].
        destruct G1 as (G1a & _ & G1c). destruct G12 as (G2a & _ & G2c).
        split; [intro Hk; apply B3; eapply incl_keys; [|exact Hk]; eapply incl_tran; eauto|].
        split; [exact B4|]. split; [exact B5|]. rewrite <- G1c, <- G2c. exact B6.
Qed.

(* ------------------------------------------------------------------ EvConnected, every step *)
Theorem connected_event_facts s o s' e t k :
  d_inv s -> dstep s o = (s', e) -> In (EvConnected t k) e ->
  exists pushes addr m c m1 m2 sid,
    (* it is a ST_STATE datagram that no existing connection claimed *)
    o = DoRunOnce pushes (ArmRecv addr (Some m)) /\ dm_type m = ST_STATE /\
    (* the connector side receives on the connection id of that datagram, from its address *)
    k = {| k_addr := addr; k_conn := dm_conn m |} /\
    (* it is paired with the FIRST pending connect to that address whose SYN carried the
       sequence number the datagram acknowledges; that connect's slot is released *)
    pending s addr = m1 ++ c :: m2 /\ cn_token c = t /\ cn_seq c = dm_ack m /\
    (forall x, In x m1 -> cn_seq x <> dm_ack m) /\ pending s' addr = m1 ++ m2 /\
    (* under a key that was not in use; the connection object goes to that connector, which is alive *)
    ~ In k (keys (d_streams s)) /\ In (live_entry k sid) (d_streams s') /\
    In (t, CrOk k) (d_results s') /\ ~ In t (d_dead_connectors s).
Proof.
  intros Hinv H Hin.
  destruct (dop_cases o) as [(pushes & ar & ->)|Hne]; [|destruct (other_steps_quiet _ _ _ _ Hne H) as [-> _]; destruct Hin].
  destruct (run_once_decomp _ _ _ _ _ Hinv H) as (s1 & e1 & e3 & Ec & Ea & -> & Hinv1 & Hacc & Hfr & Hinv2 & Hsame).
  destruct (cleanup_keeps _ _ _ Ec) as (_ & K2 & _).
  destruct Hfr as [B1 B2 B3 B4 B5].
  destruct Hsame as (P1 & P2 & P3 & P4 & P5 & P6 & P7 & P8 & P9 & P10 & P11 & P12 & P13).
  set (s2 := fold_left push_acceptor pushes s1) in *.
  apply in_app_or in Hin. destruct Hin as [Hin|Hin]; [destruct (all_accepted_only _ _ Hacc Hin)|].
  destruct (arm_step_cases _ _ _ _ Ea) as [(He & _)|[(send & c & r & _ & _ & Hoc)|(addr & m & -> & Hr)]].
  - discriminate (idle_event _ _ He Hin).
  - destruct (on_control_events _ _ _ _ _ Hoc _ Hin).
  - destruct (on_recv_cases _ _ _ _ _ Hr) as [He|[(Ef & Et & Hack)|(_ & _ & Hsyn)]].
    + exfalso. destruct He as [-> | ->]; destruct Hin as [Hx|[]]; discriminate Hx.
    + pose proof (on_maybe_connect_ack_slots _ _ _ _ _ Hinv2 Ef Hack) as Hsl. cbv zeta in Hsl.
      destruct (streams_full s2); [exfalso; destruct Hsl as [_ ->]; destruct Hin as [Hx|[]]; discriminate|].
      assert (Hpend : slots_of s2 addr = slots_of s addr)
        by (apply slots_of_same_connecting; congruence).
      rewrite Hpend in Hsl.
      destruct (slots_pop _ (slots_of s addr)) as [[c sl']|] eqn:Ep;
        [|exfalso; destruct Hsl as [_ ->]; destruct Hin as [Hx|[]]; discriminate].
      destruct Hsl as (S1 & _ & _ & _ & _ & _ & _ & _ & _ & Hsl).
      destruct (mem_z (cn_token c) (d_dead_connectors s2)) eqn:Em;
        [exfalso; destruct Hsl as [-> _]; destruct Hin as [Hx|[]]; discriminate|].
      destruct Hsl as (-> & S2 & S3). destruct Hin as [Hx|[]]. injection Hx as <- <-.
      destruct (slots_pop_somes _ _ _ _ Ep) as (m1 & m2 & Q1 & Q2 & Q3 & Q4 & _).
      exists pushes, addr, m, c, m1, m2, (d_next_sid s2).
      split; [reflexivity|]. split; [exact Et|]. split; [reflexivity|].
      split; [exact Q1|]. split; [reflexivity|]. split; [apply Z.eqb_eq; exact Q3|].
      split; [intros x Hx; apply Z.eqb_neq; apply Q4; exact Hx|].
      split; [unfold pending; rewrite S1; exact Q2|].
      split.
      { intro Hk. apply (find_none_not_in _ _ Ef). eapply incl_keys; [|exact Hk]. rewrite P1. exact B4. }
      split; [rewrite S2; apply in_or_app; right; left; reflexivity|].
      split; [rewrite S3; apply in_or_app; right; left; reflexivity|].
      apply mem_z_false in Em. rewrite P12, K2 in Em. exact Em.
    + destruct (on_syn_events _ _ _ _ Hinv2 Hsyn _ Hin).
Qed.

(* ------------------------------------------------------------------ the two ends *)
(* Dispatcher A (seen by B as address pa) connects to dispatcher B (seen by A as address pb).
   The SYN on the wire carries the id c A announced; B's acceptor side is registered under
   (pa, c + 1).  B's connection sends with connection id c (StreamArgs::new_incoming:
   conn_id_send = remote_syn.connection_id, a field the dispatcher model does not carry, hence
   the hypothesis dm_conn mA = c); A's connector side is then registered under (pb, c).
   So: A receives on c, B receives on c + 1. *)
Theorem wiring_cross_keys c :
  forall sB pushesB pa mB sB' eB acc kB,
    d_inv sB -> d_syns sB = [] -> dm_type mB = ST_SYN -> dm_conn mB = c ->
    dstep sB (DoRunOnce pushesB (ArmRecv pa (Some mB))) = (sB', eB) -> In (EvAccepted acc kB) eB ->
  forall sA pushesA pb mA sA' eA t kA,
    d_inv sA -> dm_conn mA = c ->
    dstep sA (DoRunOnce pushesA (ArmRecv pb (Some mA))) = (sA', eA) -> In (EvConnected t kA) eA ->
  kB = {| k_addr := pa; k_conn := wadd16 c 1 |} /\ kA = {| k_addr := pb; k_conn := c |} /\
  k_conn kB = wadd16 (k_conn kA) 1.
Proof.
  intros sB pushesB pa mB sB' eB acc kB HinvB HsynB HtB HcB EB HinB
         sA pushesA pb mA sA' eA t kA HinvA HcA EA HinA.
  destruct (accepted_event_facts _ _ _ _ _ _ HinvB EB HinB) as (y & sid & Hy & -> & _).
  destruct Hy as [Hy|(p & a0 & m0 & Ho & _ & ->)]; [rewrite HsynB in Hy; destruct Hy|].
  injection Ho as _ <- <-.
  destruct (connected_event_facts _ _ _ _ _ _ HinvA EA HinA)
    as (p' & a1 & m1 & c1 & l1 & l2 & sid' & Ho' & _ & -> & _).
  injection Ho' as _ <- <-.
  unfold syn_key, syn_of; cbn [sy_addr sy_conn k_conn]. rewrite HcB, HcA. auto.
Qed.

(* ------------------------------------------------------------------ StreamArgs *)
(* NOT part of the frozen dispatcher model.  The model records of Sock/Dispatcher.v carry, of
   the StreamArgs the Rust code builds in match_syn_with_accept / on_maybe_connect_ack, only
   conn_id_recv (as k_conn of the key in EvAccepted / EvConnected, `sentry`, d_handed, CrOk):
     - `devent.EvAccepted (acceptor, k)`, `devent.EvConnected (token, k)`, `sentry`, the
       payload (skey * Z) of `d_handed` and `cresult.CrOk k` have no field for conn_id_send,
       seq_nr, last_sent_seq_nr, last_consumed_remote_seq_nr, last_sent_ack_nr, rtt,
       remote_window, last_remote_timestamp;
     - match_syn_with_accept draws the acceptor's initial sequence number and discards it
       (`let '(s1, _) := next_random s`);
     - `dmsg` has no timestamp / wnd_size, `connecting` has no `start`.
   The record below is a transcription (by inspection, not differentially checked at this tier)
   of the id / sequence-number fields of StreamArgs::new_incoming / new_outgoing
   (src/stream_dispatch.rs); Conn/VSockRun.v `vsock_new` has the same formulas at the
   connection tier (v_conn_id_send, v_seq_nr, v_last_sent_seq_nr, v_last_consumed) where they
   ARE differentially checked.  The lemma only records that the two transcriptions fit together
   when the SYN-ACK echoes what new_incoming prescribes. *)
Record sargs := {
  sa_conn_id_recv : Z; sa_conn_id_send : Z; sa_seq_nr : Z; sa_last_sent_seq_nr : Z;
  sa_last_consumed_remote_seq_nr : Z; sa_last_sent_ack_nr : Z }.

Definition sargs_incoming (next_seq_nr : Z) (y : syn) : sargs :=
  {| sa_conn_id_recv := wadd16 (sy_conn y) 1; sa_conn_id_send := sy_conn y;
     sa_seq_nr := next_seq_nr; sa_last_sent_seq_nr := wsub16 next_seq_nr 1;
     sa_last_consumed_remote_seq_nr := sy_seq y; sa_last_sent_ack_nr := sy_seq y |}.

Definition sargs_outgoing (m : dmsg) : sargs :=
  {| sa_conn_id_recv := dm_conn m; sa_conn_id_send := wadd16 (dm_conn m) 1;
     sa_seq_nr := wadd16 (dm_ack m) 1; sa_last_sent_seq_nr := dm_ack m;
     sa_last_consumed_remote_seq_nr := wsub16 (dm_seq m) 1; sa_last_sent_ack_nr := wsub16 (dm_seq m) 1 |}.

Lemma sargs_cross (isn : Z) (y : syn) (m : dmsg) :
  let b := sargs_incoming isn y in
  (* the SYN-ACK B's connection sends: its conn_id_send, its seq_nr, acking the SYN *)
  dm_conn m = sa_conn_id_send b -> dm_seq m = sa_seq_nr b -> dm_ack m = sa_last_sent_ack_nr b ->
  let a := sargs_outgoing m in
  sa_conn_id_recv a = sa_conn_id_send b /\ sa_conn_id_send a = sa_conn_id_recv b /\
  (* the keys the model registers are the receive ids *)
  k_conn (syn_key y) = sa_conn_id_recv b /\
  (* A's SYN carried seq_nr = sy_seq y: A continues after it, B has consumed exactly it *)
  sa_last_sent_seq_nr a = sy_seq y /\ sa_last_consumed_remote_seq_nr b = sa_last_sent_seq_nr a /\
  (* B's next packet has seq_nr isn: A pretends to have consumed isn - 1 *)
  sa_last_consumed_remote_seq_nr a = sa_last_sent_seq_nr b.
Proof.
  cbv zeta. unfold sargs_incoming, sargs_outgoing, syn_key;
    cbn [sa_conn_id_recv sa_conn_id_send sa_seq_nr sa_last_sent_seq_nr sa_last_consumed_remote_seq_nr
         sa_last_sent_ack_nr k_conn].
  intros -> -> ->. repeat split.
Qed.
